(* Shared by all models: ids, function update, running a step function over a list of ops (run_ops, final) with the
   lemmas about runs (invariants, append, projection onto a second machine), codec helpers. *)
From Coq Require Export List Arith ZArith Bool Lia.
Export ListNotations.

Definition tid := nat.
Definition fid := nat.

Definition upd {A} (f : nat -> A) (k : nat) (v : A) : nat -> A :=
  fun x => if Nat.eqb x k then v else f x.

Lemma upd_same {A} (f : nat -> A) k v : upd f k v k = v.
Proof. unfold upd. now rewrite Nat.eqb_refl. Qed.

Lemma upd_other {A} (f : nat -> A) k v x : x <> k -> upd f k v x = f x.
Proof. unfold upd. intros H. destruct (Nat.eqb_spec x k); [contradiction|reflexivity]. Qed.

Fixpoint run_ops {S O Out} (step : S -> O -> S * Out) (s : S) (ops : list O) : S * list Out :=
  match ops with
  | [] => (s, [])
  | o :: r => let '(s1, out) := step s o in
              let '(s2, outs) := run_ops step s1 r in (s2, out :: outs)
  end.

Definition final {S O Out} (step : S -> O -> S * Out) (s : S) (ops : list O) : S :=
  fold_left (fun s o => fst (step s o)) ops s.

Lemma run_ops_final {S O Out} (step : S -> O -> S * Out) ops : forall s,
  fst (run_ops step s ops) = final step s ops.
Proof.
  induction ops as [|o r IH]; intros s; cbn; [reflexivity|].
  destruct (step s o) as [s1 out] eqn:E. specialize (IH s1).
  destruct (run_ops step s1 r) as [s2 outs]. cbn in *. unfold final in IH. exact IH.
Qed.

Lemma final_inv {S O Out} (step : S -> O -> S * Out) (Inv : S -> Prop) :
  (forall s o, Inv s -> Inv (fst (step s o))) ->
  forall ops s, Inv s -> Inv (final step s ops).
Proof.
  intros Hstep ops. induction ops as [|o r IH]; intros s Hs; cbn; [exact Hs|].
  apply IH, Hstep, Hs.
Qed.

Lemma final_app {S O Out} (step : S -> O -> S * Out) ops1 ops2 s :
  final step s (ops1 ++ ops2) = final step (final step s ops1) ops2.
Proof. unfold final. now rewrite fold_left_app. Qed.

Lemma final_cons {S O Out} (step : S -> O -> S * Out) s o r :
  final step s (o :: r) = final step (fst (step s o)) r.
Proof. reflexivity. Qed.

Lemma final_ext {S O Out} (f g : S -> O -> S * Out) : (forall s o, fst (f s o) = fst (g s o)) ->
  forall ops s, final f s ops = final g s ops.
Proof. intros E ops. induction ops as [|o r IH]; intros s; cbn; [reflexivity|]. rewrite E. apply IH. Qed.

Lemma reach_step {S O Out} (step : S -> O -> S * Out) s0 s o :
  (exists ops, s = final step s0 ops) -> exists ops, fst (step s o) = final step s0 ops.
Proof. intros [ops ->]. exists (ops ++ [o]). rewrite final_app. reflexivity. Qed.

(* runs on which a boolean guard `run` refuses the ops that `bad` marks: an invariant of the good steps *)
Lemma guarded_final_inv {S O Out} (step : S -> O -> S * Out) (bad : S -> O -> bool) (run : S -> list O -> bool)
      (P : S -> Prop) :
  (forall s o r, run s (o :: r) = negb (bad s o) && run (fst (step s o)) r) ->
  (forall s o, P s -> bad s o = false -> P (fst (step s o))) ->
  forall ops s, P s -> run s ops = true -> P (final step s ops).
Proof.
  intros Hrun Hstep. induction ops as [|o r IH]; intros s Hs H; cbn; [exact Hs|].
  rewrite Hrun in H. apply andb_prop in H. destruct H as [H1 H2]. apply negb_true_iff in H1.
  apply IH; [now apply Hstep|exact H2].
Qed.

(* a machine whose component `pr s` stays put or moves by one step of a second machine reaches, in that component,
   only states the second machine reaches; K is an invariant the step-or-stutter claim may rest on *)
Lemma final_project {S O Out S' O' Out'} (step : S -> O -> S * Out) (step' : S' -> O' -> S' * Out')
      (pr : S -> S') (K : S -> Prop) :
  (forall s o, K s -> K (fst (step s o)) /\
     (pr (fst (step s o)) = pr s \/ exists o', pr (fst (step s o)) = fst (step' (pr s) o'))) ->
  forall ops s, K s -> K (final step s ops) /\ exists ops', pr (final step s ops) = final step' (pr s) ops'.
Proof.
  intros H ops. induction ops as [|o r IH]; intros s Ks.
  - split; [exact Ks | exists []; reflexivity].
  - rewrite final_cons. destruct (H s o Ks) as [K1 E]. destruct (IH _ K1) as [K2 (ops' & E2)]. split; [exact K2|].
    rewrite E2. destruct E as [-> | (o' & ->)]; [exists ops' | exists (o' :: ops')]; reflexivity.
Qed.

Lemma run_ops_cons {S O Out} (step : S -> O -> S * Out) s o r s' outs :
  run_ops step s (o :: r) = (s', outs) ->
  exists s1 out outs', step s o = (s1, out) /\ run_ops step s1 r = (s', outs') /\ outs = out :: outs'.
Proof.
  cbn [run_ops]. destruct (step s o) as [s1 out]. destruct (run_ops step s1 r) as [s2 outs'] eqn:E.
  intros [= <- <-]. exists s1, out, outs'. repeat split. exact E.
Qed.

Lemma run_ops_app {S O Out} (step : S -> O -> S * Out) a : forall b s,
  run_ops step s (a ++ b) =
  let '(s1, o1) := run_ops step s a in let '(s2, o2) := run_ops step s1 b in (s2, o1 ++ o2).
Proof.
  induction a as [|x a IH]; intros b s; cbn [app run_ops].
  - destruct (run_ops step s b); reflexivity.
  - destruct (step s x) as [s1 out]. rewrite IH.
    destruct (run_ops step s1 a) as [s2 o1]. destruct (run_ops step s2 b); reflexivity.
Qed.

Lemma NoDup_snoc {A} (l : list A) x : NoDup l -> ~ In x l -> NoDup (l ++ [x]).
Proof. intros N H. apply (NoDup_Add (Add_app x l [])). rewrite app_nil_r. split; assumption. Qed.

Lemma in_filter_neq t x l : In x (filter (fun y => negb (Nat.eqb y t)) l) <-> In x l /\ x <> t.
Proof. rewrite filter_In. destruct (Nat.eqb_spec x t); cbn; intuition congruence. Qed.

Lemma NoDup_app_inv {A} (l1 l2 : list A) :
  NoDup (l1 ++ l2) -> NoDup l1 /\ NoDup l2 /\ forall x, In x l1 -> ~ In x l2.
Proof.
  induction l1 as [|a l1 IH]; cbn; intros H; [split; [constructor|split; [exact H|intros x []]]|].
  inversion H as [|y l Hy Hl]; subst. destruct (IH Hl) as (N1 & N2 & D). split; [|split; [exact N2|]].
  - constructor; [|exact N1]. intros Hi. apply Hy, in_or_app. now left.
  - intros x [<-|Hx]; [|now apply D]. intros Hi. apply Hy, in_or_app. now right.
Qed.

Definition zn (z : Z) : nat := Z.to_nat z.
Definition nz (n : nat) : Z := Z.of_nat n.
Definition zb (z : Z) : bool := negb (Z.eqb z 0).
Definition bz (b : bool) : Z := if b then 1%Z else 0%Z.
Definition oz (o : option nat) : Z := match o with None => 0%Z | Some n => Z.of_nat (S n) end.

(* Proofs about the Lru machine, part 2b: the counting invariant (Inv2) -- what the wrapper-level currsize says
   about the current dict -- and its preservation by the building blocks of `step`. *)
From AV Require Import Base Lru LruLockFacts LruDict LruProofs LruInv.
From AV Require Lock.

Definition clean5 (s : st) : Prop :=
  f_inflight s = false /\ f_waited s = false /\ f_uncounted s = false /\ f_dead s = false /\ f_phantom s = false.

Record Inv2 (cf : cfg) (s : st) : Prop := {
  (* results + counted placeholders of the running loop's dict never exceed the count, the count never maxsize *)
  I_bound : f_inflight s = false -> f_waited s = false -> f_uncounted s = false ->
              (Z.of_nat (nval (dict s) + ncnt (dict s)) <= currsize s)%Z /\
              (forall m, maxsize cf = Some m -> (currsize s <= Z.of_nat m)%Z);
  (* without any finding pattern: every counted placeholder is being computed, and the count is exact *)
  I_cnt : clean5 s -> forall x l, In x (dict s) -> se x = EPlace l true ->
            exists c p b, phase s c = CInWrapped (sk x) l p b (cur s);
  I_eq : clean5 s -> currsize s = Z.of_nat (nval (dict s) + ncnt (dict s))
}.

Lemma init_inv2 cf : Inv2 cf init.
Proof.
  constructor; cbn.
  - intros _ _ _. split; [lia|]. intros m _. lia.
  - intros _ x l [].
  - reflexivity.
Qed.

(* Inv2 reads the dicts, the generation, the count, the phases and the flags, nothing else *)
Lemma inv2_frame cf s hd h m lk nl nw ck lkf pr :
  Inv2 cf s -> Inv2 cf (mk (dicts s) (cur s) hd h m (currsize s) lk nl (phase s) nw ck lkf pr (fl s)).
Proof. intros [B C Q]. constructor; [exact B|exact C|exact Q]. Qed.

Lemma inv2_same cf s s' :
  Inv2 cf s ->
  (forall g, dicts s' g = dicts s g) -> cur s' = cur s -> currsize s' = currsize s ->
  (forall c, phase s' c = phase s c) -> fl s' = fl s ->
  Inv2 cf s'.
Proof.
  intros [B C Q] E1 E2 E3 E4 E5.
  constructor; unfold clean5, dict, f_inflight, f_waited, f_uncounted, f_dead, f_phantom in *; rewrite ?E5, ?E1, ?E2, ?E3; auto.
  intros H x l Hx He. destruct (C H x l Hx He) as (c & p & b & Hp). exists c, p, b. now rewrite E4.
Qed.

(* flags only ever get set *)
Lemma inv2_fl cf s f :
  Inv2 cf s ->
  (fl_inflight f = false -> f_inflight s = false) -> (fl_waited f = false -> f_waited s = false) ->
  (fl_uncounted f = false -> f_uncounted s = false) -> (fl_dead f = false -> f_dead s = false) ->
  (fl_phantom f = false -> f_phantom s = false) ->
  Inv2 cf (set_fl s f).
Proof.
  intros [B C Q] H1 H2 H3 H4 H5.
  assert (HC : clean5 (set_fl s f) -> clean5 s) by (unfold clean5; sm; tauto).
  constructor; sm; auto.
Qed.

(* the phase of one caller changes; counted placeholders keep a computing caller *)
Lemma inv2_phase cf s c p' :
  Inv2 cf s ->
  (forall k l p b g, phase s c = CInWrapped k l p b g ->
     (exists p2 b2, p' = CInWrapped k l p2 b2 g) \/
     (clean5 s -> g = cur s -> dget k (dict s) <> Some (EPlace l true))) ->
  (forall g, NoDup (keys (dicts s g))) ->
  Inv2 cf (set_phase s c p').
Proof.
  intros J Hrun Hnd. destruct J as [B C Q]. constructor; sm.
  - exact B.
  - intros HC x l Hx He. destruct (C HC x l Hx He) as (c0 & p & b & Hp).
    destruct (Nat.eq_dec c0 c) as [->|N].
    + destruct (Hrun _ _ _ _ _ Hp) as [(p2 & b2 & ->)|Hno].
      * exists c, p2, b2. apply upd_same.
      * exfalso. apply (Hno HC eq_refl). rewrite (nodup_in_dget _ x (Hnd _) Hx), He. reflexivity.
    + exists c0, p, b. now rewrite upd_other.
  - exact Q.
Qed.

(* a placeholder for a key that is not in the current dict *)
Lemma inv2_append cf s k l :
  Inv2 cf s -> Inv2 cf (bump_clk (set_dict s (cur s) (dict s ++ [mkslot k (EPlace l false) (clk s)]))).
Proof.
  intros [B C Q]. unfold dict in *. constructor; sm; rewrite ?upd_same, ?counts_app; auto.
  intros HC x l0 Hx He. apply in_app_or in Hx. destruct Hx as [Hx|[<-|[]]]; [eauto|discriminate].
Qed.

(* an expired value of the current dict is replaced by a placeholder and moved to the end *)
Lemma inv2_replace cf s k x v exp h m :
  NoDup (keys (dict s)) -> Inv2 cf s -> dfind k (dict s) = Some x -> se x = EVal v exp ->
  Inv2 cf (bump_clk (set_dict (new_lock cf (set_counts s h m (currsize s - 1)) k) (cur s)
                              (dmove k (clk s) (dset_in k (EPlace (nlock s) false) (dict s))))).
Proof.
  intros Hnd [B C Q] Hfind Hse. unfold dict in *.
  pose proof (counts_unset k (nlock s) _ x v exp Hfind Hse) as N.
  rewrite <- (counts_dmove k (clk s)) in N by (now rewrite keys_dset_in).
  constructor; sm; rewrite ?upd_same.
  - intros Hf Hw Hu. destruct (B Hf Hw Hu) as [H1 H2]. split; [lia|]. intros m0 Hm. specialize (H2 m0 Hm). lia.
  - intros HC y l Hy He. apply in_dmove in Hy. destruct Hy as [Hy|(z & Hz & Hk & ->)]; cbn [se sk] in *.
    + apply in_dset_in in Hy. destruct Hy as [Hy|(z & _ & _ & ->)]; [eauto|discriminate].
    + apply in_dset_in in Hz. destruct Hz as [Hz|(z' & _ & _ & ->)]; [rewrite <- Hk; eauto|discriminate].
  - intros HC. rewrite (Q HC). lia.
Qed.

(* move_to_end in dict g *)
Lemma inv2_touch cf s g k :
  Inv1 cf s -> Inv2 cf s -> Inv2 cf (bump_clk (set_dict s g (dmove k (clk s) (dicts s g)))).
Proof.
  intros I [B C Q]. unfold dict in *.
  destruct (Nat.eq_dec (cur s) g) as [<-|N].
  - constructor; sm; rewrite ?upd_same, ?(counts_dmove k (clk s) _ (I_nodup _ _ I _)); auto.
    intros HC y l Hy He. apply in_dmove in Hy. destruct Hy as [Hy|(z & Hz & Hk & ->)]; cbn [se sk] in *; [|rewrite <- Hk]; eauto.
  - constructor; sm; rewrite ?upd_other by assumption; auto.
Qed.

(* what the flags say about the evicted head when they stay false *)
Lemma evict_flags_false3 cf s g x0 :
  fl_inflight (evict_flags cf s g x0) = false -> fl_waited (evict_flags cf s g x0) = false ->
  fl_uncounted (evict_flags cf s g x0) = false ->
  f_inflight s = false /\ f_waited s = false /\ f_uncounted s = false /\
  match se x0 with
  | EPlace l b => referenced cf s l = false /\ b = true
  | EVal _ _ => waited cf s (sk x0) g = false
  end.
Proof.
  unfold evict_flags, f_inflight, f_waited, f_uncounted. destruct (se x0) as [l b|v e].
  - destruct (referenced cf s l); cbn; intros H1 H2 H3.
    + apply orb_false_elim in H1. destruct H1. discriminate.
    + apply orb_false_elim in H3. destruct H3 as [H3 H4]. destruct b; [auto|discriminate].
  - cbn. intros H1 H2 H3. apply orb_false_elim in H2. tauto.
Qed.

(* the placeholder an acquiring caller finds under its key is not yet counted *)
Lemma own_uncounted cf s c k l t0 l' b' :
  Inv1 cf s -> Inv2 cf s -> clean5 s -> phase s c = CLockWait k l t0 (cur s) -> In c (Lock.held (locks s l)) ->
  dget k (dict s) = Some (EPlace l' b') -> l' = l /\ b' = false.
Proof.
  intros I J HC Hp Hh Hd. pose proof HC as (Hf & Hw & _).
  assert (l' = l) by (eapply own_place; eauto). subst l'. split; [reflexivity|].
  destruct b'; [exfalso|reflexivity].
  destruct (dget_some _ _ _ Hd) as (x & _ & Hse & Hk & Hin).
  destruct (I_cnt _ _ J HC x l Hin Hse) as (c0 & p & b & Hp0).
  pose proof (L_run _ _ _ _ _ (I_lp _ _ I) _ _ _ _ _ _ Hp0) as Hh0.
  pose proof (held_unique _ _ _ (L_inv _ _ _ _ _ (I_lp _ _ I) l) Hh0 Hh). subst c0. congruence.
Qed.

(* the miss bookkeeping *)
(* the counted placeholders after the ghost mark: those before, and the caller's own *)
Lemma cnt_after_mark cf s c k l t0 d :
  Inv2 cf s -> clean5 s -> phase s c = CLockWait k l t0 (cur s) ->
  (forall y, In y d -> In y (dict s)) -> NoDup (keys (dict s)) -> (exists b, dget k (dict s) = Some (EPlace l b)) ->
  forall x l0, In x (dmark k d) -> se x = EPlace l0 true ->
  exists c0 p b, upd (phase s) c (CInWrapped k l None false (cur s)) c0 = CInWrapped (sk x) l0 p b (cur s).
Proof.
  intros J HC Hp Hsub Hnd [b0 Hd] x l0 Hx He. apply in_dmark in Hx.
  destruct Hx as [Hx|(y & z & l1 & b1 & Hy & Hz & Hk & Hse & ->)].
  - destruct (I_cnt _ _ J HC x l0 (Hsub _ Hx) He) as (c0 & p & b & Hp0).
    exists c0, p, b. rewrite upd_other; [exact Hp0|]. intros ->. congruence.
  - cbn in He. injection He as <-. cbn [sk].
    pose proof (nodup_in_dget _ z Hnd (Hsub _ Hz)) as Hg. rewrite Hk, Hd, Hse in Hg. injection Hg as <- _.
    exists c, None, false. apply upd_same.
Qed.

Lemma inv2_miss_noevict cf s c k l t0 g l' b' h m :
  Inv1 cf s -> Inv2 cf s -> phase s c = CLockWait k l t0 g -> In c (Lock.held (locks s l)) ->
  dget k (dicts s g) = Some (EPlace l' b') -> full cf s = false ->
  Inv2 cf (set_phase (set_dict (set_counts s h m (currsize s + 1)) g (dmark k (dicts s g))) c
                     (CInWrapped k l None false g)).
Proof.
  intros I J Hp Hh Hd Hfull. unfold dict in *.
  assert (Hgen : f_phantom s = false -> g = cur s) by (intros H; apply (I_gen _ _ I H c); now rewrite Hp).
  constructor; sm.
  - intros Hf Hw Hu. destruct (I_bound _ _ J Hf Hw Hu) as [H1 H2]. unfold dict in *. split.
    + destruct (Nat.eq_dec (cur s) g) as [<-|N]; [rewrite upd_same|rewrite upd_other by assumption; clear - H1; lia].
      pose proof (counts_dmark_le k (dicts s (cur s))) as H. clear - H1 H. lia.
    + intros m0 Hm. unfold full in Hfull. rewrite Hm in Hfull. clear - Hfull. lia.
  - intros HC. pose proof HC as (Hf & Hw & _ & _ & Hph). pose proof (Hgen Hph) as ->. rewrite upd_same.
    apply (cnt_after_mark cf s c k l t0 _ J HC Hp (fun y H => H) (I_nodup _ _ I _)).
    exists b'. unfold dict. rewrite Hd. f_equal. f_equal. eapply own_place; eauto.
  - intros HC. pose proof HC as (_ & _ & _ & _ & Hph). pose proof (Hgen Hph) as ->. rewrite upd_same.
    destruct (own_uncounted cf s c k l t0 l' b' I J HC Hp Hh Hd) as [-> ->].
    rewrite (counts_dmark_uncounted k _ l Hd), (I_eq _ _ J HC). unfold dict. lia.
Qed.

Lemma inv2_miss_evict cf s c k l t0 g l' b' :
  Inv1 cf s -> Inv2 cf s -> phase s c = CLockWait k l t0 g -> In c (Lock.held (locks s l)) ->
  dget k (dicts s g) = Some (EPlace l' b') ->
  Inv2 cf (set_phase (set_dict (evict cf s g) g (dmark k (dicts (evict cf s g) g))) c (CInWrapped k l None false g)).
Proof.
  intros I J Hp Hh Hd. unfold evict. destruct (dicts s g) as [|x0 r] eqn:Hdict; [discriminate|]. sm. rewrite upd_same.
  assert (Hgen : f_phantom s = false -> g = cur s) by (intros H; apply (I_gen _ _ I H c); now rewrite Hp).
  (* without a finding pattern the evicted head is a value of the current dict *)
  assert (Hcl : fl_inflight (evict_flags cf s g x0) = false /\ fl_waited (evict_flags cf s g x0) = false /\
                fl_uncounted (evict_flags cf s g x0) = false /\ fl_dead (evict_flags cf s g x0) = false /\
                fl_phantom (evict_flags cf s g x0) = false ->
                clean5 s /\ g = cur s /\ exists v e, se x0 = EVal v e).
  { destruct (evict_flags_other cf s g x0) as [-> ->]. intros (H1 & H2 & H3 & H4 & H5).
    destruct (evict_flags_false3 cf s g x0 H1 H2 H3) as (Hf & Hw & Hu & Hx0).
    assert (HC : clean5 s) by (unfold clean5, f_inflight, f_waited, f_uncounted, f_dead, f_phantom; auto).
    pose proof (Hgen H5) as ->. refine (conj HC (conj eq_refl _)).
    destruct (se x0) as [l0 b0|v e] eqn:Hse; [exfalso|eauto]. destruct Hx0 as [Hr ->].
    assert (Hin : In x0 (dicts s (cur s))) by (rewrite Hdict; now left).
    destruct (I_cnt _ _ J HC x0 l0 Hin Hse) as (c0 & p & b & Hp0).
    apply (referenced_false cf s l0 c0 (sk x0) I Hr). now rewrite Hp0. }
  constructor; unfold clean5; sm.
  - intros Hf Hw Hu. destruct (evict_flags_false3 cf s g x0 Hf Hw Hu) as (Hf0 & Hw0 & Hu0 & Hx0).
    destruct (I_bound _ _ J Hf0 Hw0 Hu0) as [H1 H2]. unfold dict in *. split; [|exact H2].
    destruct (Nat.eq_dec (cur s) g) as [<-|N]; [rewrite !upd_same|rewrite !upd_other by assumption; exact H1].
    refine (Z.le_trans _ _ _ (inj_le _ _ _) H1). rewrite Hdict, counts_cons_counted; [apply counts_dmark_le|].
    unfold is_val, is_cnt. destruct (se x0) as [l0 b0|v e]; [destruct Hx0 as [_ ->]; now right|now left].
  - intros HC. destruct (Hcl HC) as (HC0 & -> & _). rewrite upd_same.
    assert (Hsub : forall y, In y r -> In y (dicts s (cur s))) by (intros y Hy; rewrite Hdict; now right).
    apply (cnt_after_mark cf s c k l t0 r J HC0 Hp Hsub (I_nodup _ _ I _)).
    exists b'. unfold dict. rewrite Hdict, Hd. f_equal. f_equal. destruct HC0 as (Hf & Hw & _).
    apply (own_place cf s c k l t0 (cur s) l' b' I Hp); [now rewrite Hdict|exact Hf|exact Hw].
  - intros HC. destruct (Hcl HC) as (HC0 & -> & v0 & e0 & Hse0). rewrite upd_same.
    rewrite <- Hdict in Hd. destruct (own_uncounted cf s c k l t0 l' b' I J HC0 Hp Hh Hd) as [-> ->].
    assert (Hdr : dget k r = Some (EPlace l false)).
    { rewrite Hdict, dget_cons in Hd. destruct (Nat.eqb (sk x0) k); [congruence|exact Hd]. }
    rewrite (counts_dmark_uncounted k r l Hdr), (I_eq _ _ J HC0). unfold dict. rewrite Hdict, counts_cons_counted; [reflexivity|].
    left. unfold is_val. now rewrite Hse0.
Qed.

(* the wrapped function returned: store, release, return *)
Lemma inv2_store_out cf s c k l v g :
  Inv1 cf s -> Inv2 cf s -> phase s c = CInWrapped k l (Some (WRet v)) false g ->
  Inv2 cf (set_phase (set_lock (bump_clk (set_dict (add_produced s k v) g
                                   (dstore k (EVal v (new_exp cf (now s))) (clk s) (dicts s g))))
                               l (fst (Lock.step (locks s l) (Lock.Release c)))) c CIdle).
Proof.
  intros I J Hp. unfold dict in *.
  assert (Hcount : f_inflight s = false -> f_waited s = false ->
            nval (dstore k (EVal v (new_exp cf (now s))) (clk s) (dicts s g)) +
            ncnt (dstore k (EVal v (new_exp cf (now s))) (clk s) (dicts s g)) = nval (dicts s g) + ncnt (dicts s g)).
  { intros Hf Hw. apply (counts_dstore k v _ _ _ l), (I_A _ _ I Hf Hw _ _ _ _ _ _ Hp). }
  constructor; sm.
  - intros Hf Hw Hu. destruct (I_bound _ _ J Hf Hw Hu) as [H1 H2]. unfold dict in *. split; [|exact H2].
    destruct (Nat.eq_dec (cur s) g) as [<-|N]; [rewrite upd_same|rewrite upd_other by assumption; exact H1].
    now rewrite (Hcount Hf Hw).
  - intros HC x l0 Hx He. pose proof HC as (Hf & Hw & _ & _ & Hph).
    assert (g = cur s) by (apply (I_gen _ _ I Hph c); now rewrite Hp). subst g. rewrite upd_same in Hx.
    pose proof (nodup_in_dget _ x (nodup_dstore k _ (clk s) _ (I_nodup _ _ I (cur s))) Hx) as Hg.
    rewrite dget_dstore in Hg. destruct (Nat.eqb_spec (sk x) k) as [E|E]; [congruence|].
    destruct (dget_some _ _ _ Hg) as (x' & _ & Hse' & Hk' & Hin').
    destruct (I_cnt _ _ J HC x' l0 Hin' (eq_trans Hse' He)) as (c0 & p & b & Hp0).
    exists c0, p, b. rewrite upd_other; [congruence|]. intros ->. rewrite Hp in Hp0. congruence.
  - intros HC. pose proof HC as (Hf & Hw & _ & _ & Hph).
    assert (g = cur s) by (apply (I_gen _ _ I Hph c); now rewrite Hp). subst g.
    now rewrite upd_same, (Hcount Hf Hw), (I_eq _ _ J HC).
Qed.

(* cache_clear(), a new event loop *)
Lemma inv2_clear cf s hd b :
  Inv2 cf (mk (upd (dicts s) (S (cur s)) []) (S (cur s)) hd 0 0 0%Z (locks s) (nlock s) (phase s) (now s) (clk s)
              (lkey s) (produced s) (fl_or_phantom (fl s) b)).
Proof.
  constructor; sm; rewrite upd_same.
  - intros _ _ _. cbn. split; [lia|]. intros m _. lia.
  - intros _ x l [].
  - reflexivity.
Qed.

Lemma inv2_newloop cf s hd :
  Inv2 cf s ->
  Inv2 cf (mk (upd (dicts s) (S (cur s)) []) (S (cur s)) hd (hits s) (misses s) (currsize s) (locks s) (nlock s)
              (phase s) (now s) (clk s) (lkey s) (produced s)
              (fl_or_phantom (fl s) (negb (Z.eqb (currsize s) 0)))).
Proof.
  intros J. constructor; sm; rewrite upd_same.
  - intros Hf Hw Hu. destruct (I_bound _ _ J Hf Hw Hu) as [H1 H2]. cbn. split; [lia|exact H2].
  - intros _ x l [].
  - intros (_ & _ & _ & _ & H). apply orb_false_elim in H. destruct H as [_ H]. cbn. lia.
Qed.

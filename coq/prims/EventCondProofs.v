(* Proofs about the Event and Condition machines: the inductive invariants EInv and CInv for every op sequence, and the
   step lemmas of the two guarded invariants QInv (no failed re-acquire) and HInv (F18), which EventCondThms closes over
   the runs their guards accept. *)
From AV Require Import Base Lock LockProofs EventCond.
From AV Require C10Lib LockEntry LockImp.

Lemma remove_first_subseq x l : subseq (remove_first x l) l.
Proof.
  induction l as [|y r IH]; cbn; [apply ss_nil|].
  destruct (Nat.eqb y x); [apply ss_skip, subseq_refl | apply ss_take, IH].
Qed.

Lemma remove_first_in x y l : In y (remove_first x l) -> In y l.
Proof. apply subseq_in, remove_first_subseq. Qed.

Lemma remove_first_nodup x l : NoDup l -> NoDup (remove_first x l).
Proof. apply subseq_nodup, remove_first_subseq. Qed.

(* remove_first is C10Defs.remove_one under another name *)
Lemma remove_first_in_other x y l : In y l -> y <> x -> In y (remove_first x l).
Proof. exact (C10Lib.in_remove_one_other x y l). Qed.

Lemma remove_first_gone x l : NoDup l -> ~ In x (remove_first x l).
Proof. exact (C10Lib.remove_one_gone x l). Qed.

Lemma remove_first_length x l : In x l -> S (length (remove_first x l)) = length l.
Proof. exact (C10Lib.remove_one_length x l). Qed.

Lemma remove_first_notin x l : ~ In x l -> remove_first x l = l.
Proof. exact (C10Lib.remove_one_notin x l). Qed.

Lemma remove_first_app_in x l m : In x l -> remove_first x (l ++ m) = remove_first x l ++ m.
Proof.
  induction l as [|y r IH]; cbn; [tauto|]. intros H.
  destruct (Nat.eqb_spec y x) as [->|Hne]; [reflexivity|].
  destruct H as [H|H]; [contradiction|]. cbn. now rewrite IH.
Qed.

Lemma NoDup_app_tail1' (l : list nat) x : NoDup l -> ~ In x l -> NoDup (l ++ [x]).
Proof. apply NoDup_snoc. Qed.

Lemma upd_cases {A B} (g : A -> B) (ph : nat -> A) t p' x v :
  g (upd ph t p' x) = v -> x = t /\ g p' = v \/ x <> t /\ g (ph x) = v.
Proof.
  destruct (Nat.eq_dec x t) as [->|Hx]; [rewrite upd_same|rewrite upd_other by assumption]; auto.
Qed.

Lemma upd_eq_cases {A} (ph : nat -> A) t p' x v : upd ph t p' x = v -> x = t /\ p' = v \/ x <> t /\ ph x = v.
Proof. exact (upd_cases (fun a => a) ph t p' x v). Qed.

Lemma upd_other_fun {A} (f : nat -> A) t v : forall x, x <> t -> upd f t v x = f x.
Proof. exact (upd_other f t v). Qed.

(* Ids are handed out in increasing order, one to each task that starts to wait: those in use are below the
   counter n and no two tasks use the same one.  `key` reads the id off a task's phase. *)
Definition ids_ok {P} (key : P -> option nat) (ph : tid -> P) (n : nat) : Prop :=
  (forall t k, key (ph t) = Some k -> k < n) /\
  (forall t1 t2 k, key (ph t1) = Some k -> key (ph t2) = Some k -> t1 = t2).

(* task t moves to a phase that keeps its id, has none, or takes one of the unused ids n .. m-1 *)
Lemma ids_ok_upd {P} (key : P -> option nat) ph n t p' m :
  ids_ok key ph n -> n <= m -> (forall k, key p' = Some k -> key (ph t) = Some k \/ n <= k < m) ->
  ids_ok key (upd ph t p') m.
Proof.
  intros [F J] Hm Hk.
  assert (Hown : forall k x, key p' = Some k -> key (ph x) = Some k -> x = t).
  { intros k x H Hx. destruct (Hk k H) as [H'|H']; [exact (J x t k Hx H')|]. apply F in Hx. lia. }
  split.
  - intros x k H. apply upd_cases in H as [[_ H]|[_ H]]; [destruct (Hk k H) as [H'|H']|]; try apply F in H'; try apply F in H; lia.
  - intros x1 x2 k H1 H2.
    apply upd_cases in H1 as [[-> H1]|[_ H1]]; apply upd_cases in H2 as [[-> H2]|[_ H2]].
    + reflexivity.
    + symmetry. eapply Hown; eauto.
    + eapply Hown; eauto.
    + eapply J; eauto.
Qed.

Lemma resolve_all_spec ws : forall fu f,
  (fu f <> FPending -> resolve_all ws fu f = fu f) /\
  (~ In f ws -> resolve_all ws fu f = fu f) /\
  (In f ws -> fu f = FPending -> resolve_all ws fu f = FSet) /\
  (resolve_all ws fu f = FCancelled -> fu f = FCancelled).
Proof.
  induction ws as [|g r IH]; intros fu f; cbn [resolve_all In].
  - refine (conj (fun _ => eq_refl) (conj (fun _ => eq_refl) (conj _ (fun H => H)))). intros [].
  - pose proof (IH (match fu g with FPending => upd fu g FSet | _ => fu end) f) as IHf.
    revert IHf. destruct (fu g) eqn:E; intros (I1 & I2 & I3 & I4).
    + destruct (Nat.eq_dec f g) as [->|Hne].
      * rewrite upd_same in *. refine (conj _ (conj _ (conj _ _))).
        -- intros H; congruence.
        -- intros H. exfalso; apply H; now left.
        -- intros _ _. apply I1. discriminate.
        -- intros H. apply I4 in H. discriminate.
      * rewrite (upd_other _ _ _ _ Hne) in *. refine (conj I1 (conj _ (conj _ I4))).
        -- intros H. apply I2. intros H1. apply H. now right.
        -- intros [H|H]; [congruence|]. apply I3, H.
    + refine (conj I1 (conj _ (conj _ I4))).
      * intros H. apply I2. tauto.
      * intros [H|H] Hp; [subst; congruence|]. apply I3; auto.
    + refine (conj I1 (conj _ (conj _ I4))).
      * intros H. apply I2. tauto.
      * intros [H|H] Hp; [subst; congruence|]. apply I3; auto.
Qed.

Definition ekey (p : ephase) : option fid := match p with EWaiting f => Some f | _ => None end.

Record EInv (s : est) : Prop := {
  E_flag : eflag s = true <-> 0 < esets s;
  E_set : forall t f, ephase_of s t = EWaiting f -> efuts s f = FSet -> eflag s = true;
  E_yield : forall t, ephase_of s t = EYield -> eflag s = true;
  E_pend : forall t f, ephase_of s t = EWaiting f -> efuts s f = FPending ->
                       eflag s = false /\ In f (ewaiters s);
  E_ids : ids_ok ekey (ephase_of s) (enfut s)
}.

Lemma einv_init : EInv einit.
Proof.
  constructor; cbn; try discriminate.
  - split; [discriminate|lia].
  - split; discriminate.
Qed.

Lemma e_is_idle_true p : e_is_idle p = true <-> p = EIdle.
Proof. destruct p; cbn; split; congruence. Qed.

(* a task leaves its wait: phase t := EIdle, its future (if any) removed from the deque *)
Lemma e_leave_inv s t ws m :
  EInv s -> ephase_of s t <> EIdle ->
  (forall f, ephase_of s t = EWaiting f -> efuts s f <> FPending /\ ws = remove_first f (ewaiters s)) ->
  (ephase_of s t = EYield -> ws = ewaiters s) ->
  EInv (emk (eflag s) ws (efuts s) (enfut s) (upd (ephase_of s) t EIdle) m (esets s)).
Proof.
  intros I Hne Hw Hy. constructor; cbn.
  - apply (E_flag s I).
  - intros x f H1. apply upd_eq_cases in H1 as [[_ H1]|[_ H1]]; [discriminate|]. now apply (E_set s I x).
  - intros x H1. apply upd_eq_cases in H1 as [[_ H1]|[_ H1]]; [discriminate|]. now apply (E_yield s I x).
  - intros x f H1 H2. apply upd_eq_cases in H1 as [[_ H1]|[_ H1]]; [discriminate|].
    destruct (E_pend s I x f H1 H2) as [Hf Hin]. split; [exact Hf|].
    destruct (ephase_of s t) as [| |g] eqn:Ept; [contradiction|now rewrite Hy|].
    destruct (Hw g eq_refl) as [Hg ->]. apply remove_first_in_other; [exact Hin|]. congruence.
  - apply (ids_ok_upd _ _ _ _ _ _ (E_ids s I) (le_n _)). discriminate.
Qed.

Lemma e_mustc_irrel s m :
  EInv s -> EInv (emk (eflag s) (ewaiters s) (efuts s) (enfut s) (ephase_of s) m (esets s)).
Proof. intros I. destruct I. constructor; cbn; assumption. Qed.

Lemma e_cancel_fut_inv s f :
  EInv s -> efuts s f = FPending ->
  EInv (emk (eflag s) (ewaiters s) (upd (efuts s) f FCancelled) (enfut s) (ephase_of s) (emustc s) (esets s)).
Proof.
  intros I Hf. constructor; cbn.
  - apply (E_flag s I).
  - intros x g H1 H2. apply upd_eq_cases in H2 as [[_ H2]|[_ H2]]; [discriminate|]. now apply (E_set s I x g).
  - apply (E_yield s I).
  - intros x g H1 H2. apply upd_eq_cases in H2 as [[_ H2]|[_ H2]]; [discriminate|]. now apply (E_pend s I x g).
  - apply (E_ids s I).
Qed.

Lemma estep_inv s o : EInv s -> EInv (fst (estep s o)).
Proof.
  intros I. destruct o as [t|t|t|t|t]; cbn [estep].
  - (* EvWait *)
    destruct (e_is_idle (ephase_of s t)) eqn:Ei; cbn [negb fst]; [|exact I].
    apply e_is_idle_true in Ei.
    destruct (eflag s) eqn:Efl; cbn [fst].
    + constructor; cbn.
      * pose proof (E_flag s I) as Hf. rewrite Efl in Hf. exact Hf.
      * reflexivity.
      * reflexivity.
      * intros x f H1 H2. apply upd_eq_cases in H1 as [[_ H1]|[_ H1]]; [discriminate|].
        destruct (E_pend s I x f H1 H2). congruence.
      * apply (ids_ok_upd _ _ _ _ _ _ (E_ids s I) (le_n _)). discriminate.
    + (* the new future's id is the counter: no waiting task uses it yet *)
      assert (Hold : forall x f, ephase_of s x = EWaiting f -> upd (efuts s) (enfut s) FPending f = efuts s f).
      { intros x f H. apply upd_other. apply (f_equal ekey) in H. apply (proj1 (E_ids s I)) in H. lia. }
      constructor; cbn.
      * pose proof (E_flag s I) as Hf. rewrite Efl in Hf. exact Hf.
      * intros x f H1 H2. apply upd_eq_cases in H1 as [[_ [= <-]]|[_ H1]].
        -- rewrite upd_same in H2. discriminate.
        -- rewrite (Hold x f H1) in H2. rewrite <- Efl. now apply (E_set s I x f).
      * intros x H1. apply upd_eq_cases in H1 as [[_ H1]|[_ H1]]; [discriminate|].
        rewrite <- Efl. now apply (E_yield s I x).
      * intros x f H1 H2. split; [reflexivity|]. apply in_or_app.
        apply upd_eq_cases in H1 as [[_ [= <-]]|[_ H1]]; [right; now left|].
        rewrite (Hold x f H1) in H2. left. now apply (E_pend s I x f).
      * apply (ids_ok_upd _ _ _ _ _ _ (E_ids s I) (Nat.le_succ_diag_r _)). intros k [= <-]. right. lia.
  - (* EvSet *)
    destruct (e_is_idle (ephase_of s t)) eqn:Ei; cbn [negb fst]; [|exact I].
    assert (Hres : forall fu, (forall x f, ephase_of s x = EWaiting f -> fu f <> FPending) ->
              EInv (emk true (ewaiters s) fu (enfut s) (ephase_of s) (emustc s) (S (esets s)))).
    { intros fu Hfu. constructor; cbn.
      - split; [lia|reflexivity].
      - reflexivity.
      - reflexivity.
      - intros x f H1 H2. now apply Hfu in H1.
      - apply (E_ids s I). }
    destruct (eflag s) eqn:Efl; cbn [fst]; apply Hres; intros x f H1 H2.
    + destruct (E_pend s I x f H1 H2). congruence.
    + destruct (resolve_all_spec (ewaiters s) (efuts s) f) as (R1 & _ & R3 & _).
      destruct (efuts s f) eqn:Ef.
      * destruct (E_pend s I x f H1 Ef) as [_ Hin]. rewrite R3 in H2; auto. discriminate.
      * rewrite R1 in H2; congruence.
      * rewrite R1 in H2; congruence.
  - (* EvResume *)
    destruct (ephase_of s t) as [| |f] eqn:Ep; [exact I| |].
    + cbn [fst]. apply e_leave_inv; auto; congruence.
    + assert (Hl : efuts s f <> FPending -> forall m,
                EInv (emk (eflag s) (remove_first f (ewaiters s)) (efuts s) (enfut s) (upd (ephase_of s) t EIdle) m
                          (esets s))).
      { intros Hf m. apply e_leave_inv; auto; try congruence.
        intros g Hg. rewrite Ep in Hg. injection Hg as <-. auto. }
      destruct (efuts s f) eqn:Ef; [exact I| |]; cbn [fst]; apply Hl; discriminate.
  - (* EvCancel *)
    destruct (ephase_of s t) as [| |f] eqn:Ep; [exact I| |].
    + cbn [fst]. apply e_mustc_irrel, I.
    + destruct (efuts s f) eqn:Ef; cbn [fst]; [now apply e_cancel_fut_inv|apply e_mustc_irrel, I..].
  - (* EvScopeCancel *)
    destruct (ephase_of s t) as [| |f] eqn:Ep; [exact I| |].
    + cbn [fst]. apply e_mustc_irrel, I.
    + destruct (efuts s f) eqn:Ef; cbn [fst]; [now apply e_cancel_fut_inv|exact I..].
Qed.

Theorem ereachable_inv ops : EInv (final estep einit ops).
Proof. apply final_inv; [apply estep_inv|apply einv_init]. Qed.

(* One step of the embedded Lock machine, by result: digests of LockProofs' case lemmas (step_acq, step_release,
   step_resume, step_cancel) in the form the Condition proofs use. *)
Lemma lstep_frames l o l' r :
  Inv l -> Lock.step l o = (l', r) ->
  Inv l' /\ (forall x, x <> LockEntry.op_tid o -> phase_of l' x = phase_of l x) /\
  (forall x, x <> LockEntry.op_tid o -> (In x (held l') <-> In x (held l))) /\
  (forall x, x <> LockEntry.op_tid o -> mustc l' x = mustc l x).
Proof.
  intros I E. assert (El : l' = fst (Lock.step l o)) by (now rewrite E). subst l'.
  refine (conj (step_inv l o I) (conj _ (conj _ _))); intros x Hx; now apply step_other.
Qed.

(* acquire() / acquire_nowait() by a task that is not inside a lock call *)
Lemma lstep_acq_res s t o s' r :
  (o = AcqBegin t \/ o = AcqNowait t) -> phase_of s t = Idle -> Lock.step s o = (s', r) ->
  match r with
  | RDone => In t (held s') /\ phase_of s' t = Idle
  | RBlocked => o = AcqBegin t /\ phase_of s' t <> Idle /\ held s' = held s /\ mustc s' = mustc s /\
                (forall f, phase_of s' t = Waiting f -> futs s' f = FPending)
  | RRuntime => s' = s /\ owner s = Some t
  | RWouldBlock => o = AcqNowait t /\ s' = s
  | _ => False
  end.
Proof.
  intros Ho Hp E.
  destruct (step_acq s o t Ho) as [[Hb _]|[_ [[C E']|[[C E']|[[C E']|[[C E']|[C E']]]]]]]; [contradiction|..];
    rewrite E' in E; injection E as <- <-; cbn.
  - split; [now left|exact Hp].
  - rewrite upd_same. refine (conj (proj1 (proj2 (proj2 C))) (conj _ (conj eq_refl (conj eq_refl _)))); discriminate.
  - auto.
  - rewrite upd_same. refine (conj (proj2 (proj2 C)) (conj _ (conj eq_refl (conj eq_refl _)))); [discriminate|].
    intros f [= <-]. apply upd_same.
  - split; [apply C|reflexivity].
Qed.

(* the two outcomes of release() as one equation, for the proofs that compare it with the holder test *)
Lemma lstep_release_idle l t : phase_of l t = Idle ->
  Lock.step l (Release t) = if tid_eqb_opt (owner l) t then (do_release l t, RDone) else (l, RRuntime).
Proof. intros H. cbn [Lock.step]. rewrite H. reflexivity. Qed.

Lemma lstep_release_res s t s' r :
  phase_of s t = Idle -> Lock.step s (Release t) = (s', r) ->
  match r with
  | RDone => owner s = Some t /\ s' = do_release s t
  | RRuntime => s' = s /\ owner s <> Some t
  | _ => False
  end.
Proof.
  intros Hp E. destruct (step_release s t) as [[Hb _]|[[[_ Ho] E']|[[_ Ho] E']]]; [contradiction|..];
    rewrite E' in E; injection E as <- <-; auto.
Qed.

Lemma lstep_resume_codes l t :
  snd (Lock.step l (Resume t)) = RDone \/ snd (Lock.step l (Resume t)) = RCancelled \/
  snd (Lock.step l (Resume t)) = RRuntime \/ snd (Lock.step l (Resume t)) = RRejected.
Proof. destruct (step_resume l t) as [[_ E]|[[_ E]|[[_ E]|[(f & _ & E)|[_ E]]]]]; rewrite E; cbn; auto. Qed.

Lemma lstep_resume_res s t s' r :
  Inv s -> phase_of s t <> Idle -> Lock.step s (Resume t) = (s', r) ->
  match r with
  | RDone => In t (held s') /\ phase_of s' t = Idle /\ mustc s t = false /\
             (forall f, phase_of s t = Waiting f -> futs s f = FSet)
  | RCancelled => ~ In t (held s') /\ phase_of s' t = Idle /\
                  (mustc s t = true \/ exists f, phase_of s t = Waiting f /\ futs s f = FCancelled)
  | RRejected => s' = s
  | _ => False
  end.
Proof.
  intros I Hp E.
  assert (Hnh : ~ In t (held s)) by (intros H; apply Hp, (I_heldidle s I), H).
  destruct (step_resume s t) as [[[W Hm] E']|[[(W & Hm & Ho) E']|[[(W & Hm & Hn) E']|[(f & [Hpf Hf] & E')|[_ E']]]]];
    rewrite E' in E; injection E as <- <-.
  - cbn. rewrite upd_same. refine (conj (or_introl eq_refl) (conj eq_refl (conj Hm _))).
    intros f Hf. destruct W as [W|(g & W & Hg)]; congruence.
  - destruct (do_release_frame (LockImp.woken s t) t) as (_ & _ & _ & -> & _ & -> & _).
    unfold LockImp.woken. cbn [set_mustc set_phase phase_of held]. rewrite upd_same, in_remove_tid. tauto.
  - destruct (proj1 (step_resume_ready s t I W)). contradiction.
  - cbn. rewrite upd_same. refine (conj Hnh (conj eq_refl _)). right. eauto.
  - reflexivity.
Qed.

Lemma lstep_cancel_res s t s' r :
  Lock.step s (Cancel t) = (s', r) ->
  phase_of s' = phase_of s /\ held s' = held s /\ (r = RNone \/ (r = RRejected /\ s' = s)).
Proof.
  intros E. destruct (step_cancel s t) as [[_ E']|[(f & _ & E')|[_ E']]]; rewrite E' in E; injection E as <- <-; cbn; auto.
Qed.

(* nobody but its own task's Task.cancel() cancels the future a task waits on *)
Lemma lstep_futs_frame l o l' r t f :
  Inv l -> Lock.step l o = (l', r) -> t <> LockEntry.op_tid o -> phase_of l t = Waiting f ->
  futs l' f = FCancelled -> futs l f = FCancelled.
Proof.
  intros I E Hne Hp H. assert (El : l' = fst (Lock.step l o)) by (now rewrite E). subst l'.
  destruct (step_futs_cancelled l o f H) as [H'|H']; [exact H'|]. exfalso. apply Hne. eapply (I_inj l I); eauto.
Qed.

(* PWait counts as idle for the lock: wait() has released it and the task is suspended in event.wait(), outside every
   lock call, until its resumption begins the re-acquire *)
Definition lock_idle (p : cphase) : bool := match p with PIdle | PWait _ _ => true | _ => false end.

(* lock side: the shared lock satisfies its invariant and agrees with the phases of the tasks *)
Record LkI (l : Lock.st) (ph : tid -> cphase) : Prop := {
  K_lock : Inv l;
  K_coupling : forall t, phase_of l t = Idle <-> lock_idle (ph t) = true;
  K_heldidle : forall t, In t (held l) -> ph t = PIdle
}.

Arguments K_lock {l ph}.
Arguments K_coupling {l ph}.
Arguments K_heldidle {l ph}.

Definition LkInv (s : cst) : Prop := LkI (lk s) (cphase_of s).

Lemma held_unique l a b : Inv l -> In a (held l) -> In b (held l) -> a = b.
Proof.
  intros I Ha Hb. pose proof (proj2 (I_owner l I a) (or_introl Ha)). pose proof (proj2 (I_owner l I b) (or_introl Hb)).
  congruence.
Qed.

(* for a task at a decision point "is the lock's owner" and "acquire returned to it and it has not released"
   coincide *)
Lemma owner_iff_held l ph t : LkI l ph -> ph t = PIdle -> (owner l = Some t <-> In t (held l)).
Proof.
  intros K Hp. assert (Hli : phase_of l t = Idle) by (apply (K_coupling K); rewrite Hp; reflexivity).
  rewrite (I_owner l (K_lock K) t). unfold holdish. split; [|tauto].
  intros [H|[H|(f & H & _)]]; [exact H|congruence|congruence].
Qed.

(* a lock step by task u keeps the coupling of every other task; u's own is to be checked *)
Lemma LkI_step l ph lo l' r ph' :
  LkI l ph -> Lock.step l lo = (l', r) ->
  (forall x, x <> LockEntry.op_tid lo -> ph' x = ph x) ->
  (phase_of l' (LockEntry.op_tid lo) = Idle <-> lock_idle (ph' (LockEntry.op_tid lo)) = true) ->
  (In (LockEntry.op_tid lo) (held l') -> ph' (LockEntry.op_tid lo) = PIdle) ->
  LkI l' ph'.
Proof.
  intros K E Fph Ht Hh. destruct (lstep_frames _ _ _ _ (K_lock K) E) as (I' & Fp & Fh & _). constructor.
  - exact I'.
  - intros x. destruct (Nat.eq_dec x (LockEntry.op_tid lo)) as [->|Hx]; [exact Ht|].
    rewrite Fp, Fph by assumption. apply (K_coupling K).
  - intros x Hin. destruct (Nat.eq_dec x (LockEntry.op_tid lo)) as [->|Hx]; [auto|].
    rewrite Fph by assumption. apply (K_heldidle K). now apply Fh.
Qed.

Lemma LK_mustc l ph t b : LkI l ph -> LkI (set_mustc l t b) ph.
Proof.
  intros K. destruct K as [K1 K2 K3]. constructor; cbn; auto.
  unfold set_mustc. apply mustc_irrel, K1.
Qed.

(* acquire() / acquire_nowait() by a task outside the lock's calls: it ends up inside one iff the call blocks *)
Lemma lk_acquire l ph t lo l' r ph' :
  LkI l ph -> lock_idle (ph t) = true -> lo = AcqBegin t \/ lo = AcqNowait t -> Lock.step l lo = (l', r) ->
  (forall x, x <> t -> ph' x = ph x) ->
  match r with RBlocked => lock_idle (ph' t) = false | _ => ph' t = PIdle end ->
  LkI l' ph'.
Proof.
  intros K Hi Ho E Fph Hr.
  assert (Hli : phase_of l t = Idle) by (now apply (K_coupling K)).
  assert (Hlt : LockEntry.op_tid lo = t) by (destruct Ho as [-> | ->]; reflexivity).
  pose proof (lstep_acq_res _ t _ _ _ Ho Hli E) as R.
  destruct (lstep_frames _ _ _ _ (K_lock K) E) as (I' & _).
  apply (LkI_step _ _ _ _ _ _ K E); rewrite Hlt; [exact Fph| |].
  - destruct r; try contradiction; rewrite Hr; cbn [lock_idle].
    + tauto.
    + split; [intros H; exfalso; now apply R|discriminate].
    + destruct R as [-> _]. tauto.
    + destruct R as [_ ->]. tauto.
  - destruct r; try contradiction; auto.
    intros H. apply (I_heldidle l' I') in H. exfalso. now apply R.
Qed.

(* release() by a task outside the lock's calls: whether it succeeds or not, the task does not hold the lock
   afterwards *)
Lemma lstep_release_not_held l t l' r :
  Inv l -> phase_of l t = Idle -> Lock.step l (Release t) = (l', r) -> ~ In t (held l').
Proof.
  intros I Hli E. pose proof (lstep_release_res _ t _ _ Hli E) as R. destruct r; try contradiction.
  - destruct R as [_ ->]. destruct (do_release_frame l t) as (_ & _ & _ & _ & _ & -> & _). rewrite in_remove_tid. tauto.
  - destruct R as [-> Ho]. intros H. apply Ho. apply (I_owner l I). now left.
Qed.

Lemma lk_release l ph t l' r ph' :
  LkI l ph -> lock_idle (ph t) = true -> Lock.step l (Release t) = (l', r) ->
  (forall x, x <> t -> ph' x = ph x) -> lock_idle (ph' t) = true ->
  LkI l' ph'.
Proof.
  intros K Hi E Fph Hi'.
  assert (Hli : phase_of l t = Idle) by (now apply (K_coupling K)).
  pose proof (lstep_release_not_held _ _ _ _ (K_lock K) Hli E) as Hn.
  apply (LkI_step _ _ _ _ _ _ K E); cbn [LockEntry.op_tid]; [exact Fph| |tauto].
  pose proof (lstep_release_res _ t _ _ Hli E) as R. destruct r; try contradiction.
  - destruct R as [_ ->]. destruct (do_release_frame l t) as (_ & _ & _ & -> & _). tauto.
  - destruct R as [-> _]. tauto.
Qed.

Lemma lk_cancel l ph t l' r : LkI l ph -> Lock.step l (Cancel t) = (l', r) -> LkI l' ph.
Proof.
  intros K E. destruct (lstep_cancel_res _ _ _ _ E) as (C1 & C2 & _).
  apply (LkI_step _ _ _ _ _ _ K E); [reflexivity|rewrite C1|rewrite C2]; apply K.
Qed.

Lemma lk_resume l ph t l' r ph' :
  LkI l ph -> lock_idle (ph t) = false -> Lock.step l (Resume t) = (l', r) -> r <> RRejected ->
  (forall x, x <> t -> ph' x = ph x) -> (r <> RBlocked -> ph' t = PIdle) ->
  LkI l' ph'.
Proof.
  intros K Hi E Hr Fph Hp.
  assert (Hli : phase_of l t <> Idle).
  { intros H. apply (K_coupling K) in H. congruence. }
  pose proof (lstep_resume_res _ t _ _ (K_lock K) Hli E) as R.
  apply (LkI_step _ _ _ _ _ _ K E); cbn [LockEntry.op_tid]; [exact Fph| |].
  - destruct r; try contradiction; rewrite Hp by discriminate; cbn; tauto.
  - destruct r; try contradiction; intros _; apply Hp; discriminate.
Qed.

(* what keeps the re-acquire of task t from failing: no cancellation is pending for it *)
Definition reacq_ok (l : Lock.st) (t : tid) : Prop :=
  mustc l t = false /\ forall f, phase_of l t = Waiting f -> futs l f <> FCancelled.

(* the re-acquire at the end of wait(), begun by a task that has just left event.wait(): it gets the lock at once or
   queues for it *)
Lemma reacq_begin_res l ph t c e l' r :
  LkI l ph -> ph t = PWait c e -> Lock.step (set_mustc l t false) (AcqBegin t) = (l', r) ->
  Inv l' /\ (r = RDone /\ In t (held l') \/ r = RBlocked).
Proof.
  intros K Ep E. pose proof (LK_mustc _ _ t false K) as K0.
  assert (Hli : phase_of (set_mustc l t false) t = Idle) by (apply (K_coupling K0); rewrite Ep; reflexivity).
  destruct (lstep_frames _ _ _ _ (K_lock K0) E) as (I' & _). split; [exact I'|].
  pose proof (lstep_acq_res _ t _ _ _ (or_introl eq_refl) Hli E) as R.
  destruct r; try contradiction; [tauto|tauto| |destruct R; discriminate].
  (* RuntimeError: the lock would have to be t's already *)
  destruct R as [_ Ho]. apply (I_owner _ (K_lock K0)) in Ho.
  destruct Ho as [H|[H|(f & H & _)]]; [|congruence..].
  apply (K_heldidle K0) in H. congruence.
Qed.

(* ... and resumed while queued for the lock: it fails only if a native cancel got through to it *)
Lemma reacq_resume_res l ph t c e x l' r :
  LkI l ph -> ph t = PReacq c e x -> Lock.step l (Resume t) = (l', r) ->
  Inv l' /\ (r = RRejected /\ l' = l \/ r = RDone /\ In t (held l') \/ r = RCancelled /\ ~ reacq_ok l t).
Proof.
  intros K Ep E.
  assert (Hli : phase_of l t <> Idle).
  { intros H. apply (K_coupling K) in H. rewrite Ep in H. discriminate. }
  destruct (lstep_frames _ _ _ _ (K_lock K) E) as (I' & _). split; [exact I'|].
  pose proof (lstep_resume_res _ t _ _ (K_lock K) Hli E) as R.
  destruct r; try contradiction; [tauto| |tauto].
  right. right. split; [reflexivity|]. intros [Q1 Q2]. destruct R as (_ & _ & [Hm|(f & Hf & Hc)]); [congruence|].
  exact (Q2 f Hf Hc).
Qed.

Lemma c_is_idle_true p : c_is_idle p = true <-> p = PIdle.
Proof. destruct p; cbn; split; congruence. Qed.

Ltac cnorm :=
  cbn [with_lk with_owner with_cw with_phase with_efut with_inflight with_nlog with_counts
       variant lk owner_rec cwaiters eset efut nev cphase_of cenq setlog inflight horizon nlog
       issued consumed dropped lost].

(* what the composite updates do to the lock, the phases and the variant *)
Lemma do_set_proj s e hz :
  lk (do_set s e hz) = lk s /\ cphase_of (do_set s e hz) = cphase_of s /\ variant (do_set s e hz) = variant s.
Proof. unfold do_set. destruct (eset s e); cbn; auto. Qed.

Lemma notify_loop_proj n c hz : forall s,
  lk (notify_loop n c hz s) = lk s /\ cphase_of (notify_loop n c hz s) = cphase_of s /\
  variant (notify_loop n c hz s) = variant s.
Proof.
  induction n as [|k IH]; intros s; cbn [notify_loop]; [auto|].
  destruct (cwaiters s c) as [|e r]; [auto|].
  match goal with |- context [notify_loop k c hz ?x] => destruct (IH x) as (-> & -> & ->) end.
  cnorm. destruct (do_set_proj (with_cw s c r) e hz) as (-> & -> & ->). cnorm. auto.
Qed.

Lemma do_notify_proj s c n :
  lk (do_notify s c n) = lk s /\ cphase_of (do_notify s c n) = cphase_of s /\
  variant (do_notify s c n) = variant s.
Proof. apply (notify_loop_proj n c (nev s) (with_nlog s (nlog s ++ [nev s]))). Qed.

Lemma wait_interrupted_proj s c e :
  lk (wait_interrupted s c e) = lk s /\ cphase_of (wait_interrupted s c e) = cphase_of s /\
  variant (wait_interrupted s c e) = variant s.
Proof.
  unfold wait_interrupted. destruct (eset s e); [|cnorm; auto].
  destruct (cwaiters s c) as [|h r]; [cnorm; auto|].
  cnorm. destruct (do_set_proj (with_cw s c r) h (horizon s e)) as (-> & -> & ->). cnorm. auto.
Qed.

(* the state the re-acquire at the end of wait() starts from: the `except` branch, if it ran, touched only events *)
Lemma reacq_start_proj s L c e (x : bool) :
  lk (if x then wait_interrupted (with_lk s L) c e else with_lk s L) = L /\
  cphase_of (if x then wait_interrupted (with_lk s L) c e else with_lk s L) = cphase_of s /\
  variant (if x then wait_interrupted (with_lk s L) c e else with_lk s L) = variant s.
Proof. destruct x; [apply (wait_interrupted_proj (with_lk s L))|cbn; auto]. Qed.

Lemma acquire_begin_proj s oc t lo :
  lk (fst (acquire_begin s oc t lo)) = fst (Lock.step (lk s) lo) /\
  variant (fst (acquire_begin s oc t lo)) = variant s /\
  cphase_of (fst (acquire_begin s oc t lo)) =
    match snd (Lock.step (lk s) lo) with RBlocked => upd (cphase_of s) t (PAcq oc) | _ => cphase_of s end.
Proof. unfold acquire_begin. destruct (Lock.step (lk s) lo) as [l' r]. destruct r; cbn; auto. Qed.

Lemma finish_wait_proj s t c e exc l' r :
  lk (fst (finish_wait s t c e exc l' r)) = l' /\
  variant (fst (finish_wait s t c e exc l' r)) = variant s /\
  cphase_of (fst (finish_wait s t c e exc l' r)) =
    upd (cphase_of s) t (match r with RBlocked => PReacq c e exc | _ => PIdle end).
Proof. destruct r, exc; cbn; auto. Qed.

(* the resumption of a task inside event.wait(): asyncio consumes Task._must_cancel, the `except` branch runs if
   the wait was interrupted, and the shielded re-acquire starts from the lock as asyncio left it *)
Lemma cstep_resume_wait s t c e :
  cphase_of s t = PWait c e -> efut s e <> FPending ->
  cstep s (CResume t) =
    let x := match efut s e with FSet => mustc (lk s) t | _ => true end in
    let s0 := with_lk s (set_mustc (lk s) t false) in
    let s1 := if x then wait_interrupted s0 c e else s0 in
    let '(l', r) := Lock.step (set_mustc (lk s) t false) (AcqBegin t) in finish_wait s1 t c e x l' r.
Proof.
  intros Ep Hf. cbn [cstep]. rewrite Ep.
  destruct (efut s e); [contradiction|destruct (mustc (lk s) t)|]; cbv zeta;
    rewrite ?(proj1 (wait_interrupted_proj _ c e)); reflexivity.
Qed.

(* the state in which wait() has created and enqueued its event *)
Definition enqueue (s : cst) (c : cid) : cst :=
  cmk (variant s) (lk s) (owner_rec s) (upd (cwaiters s) c (cwaiters s c ++ [nev s]))
      (upd (eset s) (nev s) false) (upd (efut s) (nev s) FPending) (S (nev s)) (cphase_of s)
      (cenq s ++ [nev s]) (setlog s) (inflight s) (horizon s) (nlog s)
      (issued s) (consumed s) (dropped s) (lost s).

(* `cmove s o s'`: s' is one of the eleven things cstep can make of s; the premises are what the invariants need to
   know about the step (oo stands for whatever happens to the owner record of the old trees) *)
Inductive cmove (s : cst) (o : cop) : cst -> Prop :=
| M_stay : cmove s o s
| M_acquire oc t lo :
    cphase_of s t = PIdle -> lo = AcqBegin t \/ lo = AcqNowait t -> cmove s o (fst (acquire_begin s oc t lo))
| M_release t l' r oo :
    cphase_of s t = PIdle -> Lock.step (lk s) (Release t) = (l', r) -> cmove s o (with_owner (with_lk s l') oo)
| M_notify c t n :
    cphase_of s t = PIdle -> holder_check s c t = true -> cmove s o (do_notify s c n)
| M_wait c t l' r :
    cphase_of s t = PIdle -> holder_check s c t = true -> Lock.step (lk s) (Release t) = (l', r) ->
    cmove s o (match r with
               | RDone => with_phase (with_owner (with_lk (enqueue s c) l') (rec_released s c)) t (PWait c (nev s))
               | _ => with_lk (enqueue s c) l'
               end)
| M_cancel t l' r :
    lock_idle (cphase_of s t) = false -> (native_reacq s o = false -> exists oc, cphase_of s t = PAcq oc) ->
    Lock.step (lk s) (Cancel t) = (l', r) -> cmove s o (with_lk s l')
| M_cancel_fut t c e :
    cphase_of s t = PWait c e -> efut s e = FPending -> cmove s o (with_efut s e FCancelled)
| M_mustc t c e :
    cphase_of s t = PWait c e -> cmove s o (with_lk s (set_mustc (lk s) t true))
| M_resume_acq t oc l' r oo :
    cphase_of s t = PAcq oc -> Lock.step (lk s) (Resume t) = (l', r) -> r <> RRejected ->
    cmove s o (with_phase (with_owner (with_lk s l') oo) t PIdle)
| M_resume_reacq t c e exc l' r :
    cphase_of s t = PReacq c e exc -> Lock.step (lk s) (Resume t) = (l', r) -> r <> RRejected ->
    cmove s o (fst (finish_wait s t c e exc l' r))
| M_resume_wait t c e l' r :
    o = CResume t -> cphase_of s t = PWait c e -> efut s e <> FPending ->
    let x := match efut s e with FSet => mustc (lk s) t | _ => true end in
    let s0 := with_lk s (set_mustc (lk s) t false) in
    Lock.step (set_mustc (lk s) t false) (AcqBegin t) = (l', r) ->
    cmove s o (fst (finish_wait (if x then wait_interrupted s0 c e else s0) t c e x l' r)).

Lemma cstep_cmove s o : cmove s o (fst (cstep s o)).
Proof.
  assert (Hidle : forall t (X : cst * res), (cphase_of s t = PIdle -> cmove s o (fst X)) ->
            cmove s o (fst (if negb (c_is_idle (cphase_of s t)) then (s, RRejected) else X))).
  { intros t X H. destruct (c_is_idle (cphase_of s t)) eqn:Ei; [|apply M_stay]. apply H. now apply c_is_idle_true. }
  destruct o as [c t|c t|c t|c t n|c t|c t|t|t|t|t|t|t].
  1-9: cbn [cstep]; apply Hidle; intros Ei.
  - now apply M_acquire; auto.
  - now apply M_acquire; auto.
  - destruct (Lock.step (lk s) (Release t)) as [l' r] eqn:E. destruct r; exact (M_release s _ t l' _ _ Ei E).
  - destruct (holder_check s c t) eqn:Eh; [|apply M_stay]. now apply (M_notify s _ c t).
  - destruct (holder_check s c t) eqn:Eh; [|apply M_stay]. now apply (M_notify s _ c t).
  - destruct (holder_check s c t) eqn:Eh; [|apply M_stay].
    destruct (Lock.step (lk s) (Release t)) as [l' r] eqn:E.
    pose proof (M_wait s (CWait c t) c t l' r Ei Eh E) as M. destruct r; exact M.
  - now apply M_acquire; auto.
  - now apply M_acquire; auto.
  - destruct (Lock.step (lk s) (Release t)) as [l' r] eqn:E. exact (M_release s _ t l' r (owner_rec s) Ei E).
  - destruct (cphase_of s t) as [|oc|c e|c e exc] eqn:Ep.
    + cbn [cstep]. rewrite Ep. apply M_stay.
    + cbn [cstep]. rewrite Ep. destruct (Lock.step (lk s) (Resume t)) as [l' r] eqn:E.
      destruct r; try apply M_stay; eapply M_resume_acq; eauto; discriminate.
    + assert (Hf : efut s e = FPending \/ efut s e <> FPending) by (destruct (efut s e); auto; right; discriminate).
      destruct Hf as [Hf|Hf]; [cbn [cstep]; rewrite Ep, Hf; apply M_stay|].
      rewrite (cstep_resume_wait s t c e Ep Hf). cbv zeta.
      destruct (Lock.step (set_mustc (lk s) t false) (AcqBegin t)) as [l' r] eqn:E.
      exact (M_resume_wait s _ t c e l' r eq_refl Ep Hf E).
    + cbn [cstep]. rewrite Ep. destruct (Lock.step (lk s) (Resume t)) as [l' r] eqn:E.
      destruct r; try apply M_stay; eapply M_resume_reacq; eauto; discriminate.
  - cbn [cstep]. destruct (cphase_of s t) as [|oc|c e|c e exc] eqn:Ep; [apply M_stay| | |].
    + destruct (Lock.step (lk s) (Cancel t)) as [l' r] eqn:E.
      apply (M_cancel s _ t l' r); [now rewrite Ep|eauto|exact E].
    + destruct (efut s e) eqn:Ef; [now apply (M_cancel_fut s _ t c)|now apply (M_mustc s _ t c e)..].
    + destruct (Lock.step (lk s) (Cancel t)) as [l' r] eqn:E.
      apply (M_cancel s _ t l' r); [now rewrite Ep| |exact E]. cbn [native_reacq]. rewrite Ep. discriminate.
  - cbn [cstep]. destruct (cphase_of s t) as [|oc|c e|c e exc] eqn:Ep; [apply M_stay| | |apply M_stay].
    + destruct (phase_of (lk s) t) as [| |f]; try apply M_stay. destruct (futs (lk s) f); try apply M_stay.
      destruct (Lock.step (lk s) (Cancel t)) as [l' r] eqn:E.
      apply (M_cancel s _ t l' r); [now rewrite Ep|eauto|exact E].
    + destruct (efut s e) eqn:Ef; [now apply (M_cancel_fut s _ t c)|apply M_stay..].
Qed.

Lemma cstep_variant s o : variant (fst (cstep s o)) = variant s.
Proof.
  destruct (cstep_cmove s o) as [|oc t lo| | |c t l' r| | | | |t c e exc l' r|t c e l' r]; try reflexivity.
  - apply acquire_begin_proj.
  - apply do_notify_proj.
  - destruct r; reflexivity.
  - apply finish_wait_proj.
  - destruct (finish_wait_proj (if x then wait_interrupted s0 c e else s0) t c e x l' r) as (_ & -> & _).
    apply (reacq_start_proj s).
Qed.

Lemma cstep_lkinv s o : LkInv s -> LkInv (fst (cstep s o)).
Proof.
  intros K. unfold LkInv in *.
  destruct (cstep_cmove s o) as [|oc t lo Ei Ho|t l' r oo Ei E|c t n|c t l' r Ei _ E|t l' r _ _ E|
                                 |t c e|t oc l' r oo Ep E Hr|t c e exc l' r Ep E Hr|t c e l' r _ Ep _ x s0 E].
  - exact K.
  - destruct (acquire_begin_proj s oc t lo) as (-> & _ & ->).
    destruct (Lock.step (lk s) lo) as [l' r] eqn:E. cbn [fst snd].
    apply (lk_acquire _ _ t lo _ r _ K); auto; [now rewrite Ei| |].
    + intros x Hx. destruct r; auto using upd_other_fun.
    + destruct r; rewrite ?upd_same; auto.
  - cnorm. apply (lk_release _ _ t _ r _ K); auto; now rewrite Ei.
  - destruct (do_notify_proj s c n) as (-> & -> & _). exact K.
  - assert (Hrel : forall ph', (forall x, x <> t -> ph' x = cphase_of s x) -> lock_idle (ph' t) = true -> LkI l' ph').
    { intros ph'. apply (lk_release _ _ t _ r _ K); [now rewrite Ei|exact E]. }
    destruct r; unfold enqueue; cnorm; apply Hrel; auto using upd_other_fun; now rewrite ?upd_same, ?Ei.
  - cnorm. apply (lk_cancel _ _ _ _ _ K E).
  - exact K.
  - apply LK_mustc, K.
  - cnorm. apply (lk_resume _ _ t _ r _ K); auto using upd_other_fun, upd_same. now rewrite Ep.
  - destruct (finish_wait_proj s t c e exc l' r) as (-> & _ & ->).
    apply (lk_resume _ _ t _ r _ K); auto using upd_other_fun; [now rewrite Ep|].
    intros H. rewrite upd_same. destruct r; auto. contradiction.
  - destruct (finish_wait_proj (if x then wait_interrupted s0 c e else s0) t c e x l' r) as (-> & _ & ->).
    subst s0. rewrite (proj1 (proj2 (reacq_start_proj s _ c e x))).
    apply (lk_acquire _ _ t (AcqBegin t) _ r _ (LK_mustc _ _ t false K)); auto using upd_other_fun; [now rewrite Ep|].
    rewrite upd_same. destruct r; reflexivity.
Qed.

(* what the event-side invariant needs to know about a phase: waiting on event e of condition c (false) /
   re-acquiring after a normal wake-up from e (true) *)
Definition pv (p : cphase) : option (cid * eid * bool) :=
  match p with PWait c e => Some (c, e, false) | PReacq c e false => Some (c, e, true) | _ => None end.

Lemma pv_wait p c e : pv p = Some (c, e, false) <-> p = PWait c e.
Proof. destruct p as [| |c' e'|c' e' [|]]; cbn; split; intros H; try discriminate; congruence. Qed.

Lemma pv_reacq p c e : pv p = Some (c, e, true) <-> p = PReacq c e false.
Proof. destruct p as [| |c' e'|c' e' [|]]; cbn; split; intros H; try discriminate; congruence. Qed.

Definition setf (ef : eid -> fstate) (e : eid) : eid -> fstate :=
  match ef e with FPending => upd ef e FSet | _ => ef end.

Lemma setf_spec ef e :
  setf ef e e <> FPending /\ (forall x, x <> e -> setf ef e x = ef x) /\
  (forall x, setf ef e x = FSet -> ef x = FSet \/ x = e) /\
  (forall x, ef x <> FPending -> setf ef e x = ef x).
Proof.
  unfold setf. destruct (ef e) eqn:E.
  - refine (conj _ (conj _ (conj _ _))).
    + rewrite upd_same. discriminate.
    + intros x Hx. now apply upd_other.
    + intros x H. destruct (Nat.eq_dec x e) as [->|Hx]; [now right|]. rewrite upd_other in H; auto.
    + intros x H. destruct (Nat.eq_dec x e) as [->|Hx]; [congruence|]. now apply upd_other.
  - refine (conj _ (conj _ (conj _ _))); auto. congruence.
  - refine (conj _ (conj _ (conj _ _))); auto. congruence.
Qed.

(* Event side, over the components it reads (not over a cst, so that the S_* lemmas below are about variables).
   V_fresh, V_einj: event ids are handed out in order, one per waiting task.  V_q, V_qnd, V_fifo: a queue holds unset
   events of tasks waiting on that condition, without repetition, in arrival order.  V_wait0 / V_wait1: a waiting task's
   event is queued with its future not yet resolved while unset, and in flight with its future resolved or cancelled once
   set.  V_reacq, V_infl, V_inflnd: `infl` lists exactly the set events whose wait() has not finished.  V_setlog: every
   set event is logged. *)
Record EvS (cw : cid -> list eid) (es : eid -> bool) (ef : eid -> fstate) (ne : eid) (ph : tid -> cphase)
           (cq sl infl : list eid) : Prop := {
  V_fresh : forall t c e b, pv (ph t) = Some (c, e, b) -> e < ne;
  V_einj : forall t1 t2 c1 c2 e b1 b2,
             pv (ph t1) = Some (c1, e, b1) -> pv (ph t2) = Some (c2, e, b2) -> t1 = t2;
  V_q : forall c e, In e (cw c) -> es e = false /\ exists t, pv (ph t) = Some (c, e, false);
  V_qnd : forall c, NoDup (cw c);
  V_wait0 : forall t c e, pv (ph t) = Some (c, e, false) -> es e = false -> In e (cw c) /\ ef e <> FSet;
  V_wait1 : forall t c e, pv (ph t) = Some (c, e, false) -> es e = true -> ef e <> FPending /\ In e infl;
  V_reacq : forall t c e, pv (ph t) = Some (c, e, true) -> es e = true /\ In e infl;
  V_infl : forall e, In e infl -> es e = true /\ exists t c b, pv (ph t) = Some (c, e, b);
  V_inflnd : NoDup infl;
  V_setlog : forall e, es e = true -> In e sl;
  V_fifo : forall c, subseq (cw c) cq
}.

Arguments V_fresh {cw es ef ne ph cq sl infl}.
Arguments V_einj {cw es ef ne ph cq sl infl}.
Arguments V_q {cw es ef ne ph cq sl infl}.
Arguments V_qnd {cw es ef ne ph cq sl infl}.
Arguments V_wait0 {cw es ef ne ph cq sl infl}.
Arguments V_wait1 {cw es ef ne ph cq sl infl}.
Arguments V_reacq {cw es ef ne ph cq sl infl}.
Arguments V_infl {cw es ef ne ph cq sl infl}.
Arguments V_inflnd {cw es ef ne ph cq sl infl}.
Arguments V_setlog {cw es ef ne ph cq sl infl}.
Arguments V_fifo {cw es ef ne ph cq sl infl}.

Definition EvInv (s : cst) : Prop :=
  EvS (cwaiters s) (eset s) (efut s) (nev s) (cphase_of s) (cenq s) (setlog s) (inflight s) /\
  issued s = consumed s + length (inflight s) + dropped s + lost s.

(* V_fresh and V_einj say that the event ids are handed out in order, one to each waiting task *)
Definition pkey (p : cphase) : option eid := match pv p with Some (_, e, _) => Some e | None => None end.

Lemma V_ids {cw es ef ne ph cq sl infl} : EvS cw es ef ne ph cq sl infl -> ids_ok pkey ph ne.
Proof.
  intros V. unfold pkey. split.
  - intros t k. destruct (pv (ph t)) as [[[c e] b]|] eqn:E; intros [= <-]. apply (V_fresh V t c e b E).
  - intros t1 t2 k. destruct (pv (ph t1)) as [[[c1 e1] b1]|] eqn:E1; intros [= <-].
    destruct (pv (ph t2)) as [[[c2 e2] b2]|] eqn:E2; intros [= <-]. apply (V_einj V _ _ _ _ _ _ _ E1 E2).
Qed.

Lemma ids_fresh ph ne : ids_ok pkey ph ne -> forall t c e b, pv (ph t) = Some (c, e, b) -> e < ne.
Proof. intros [F _] t c e b H. apply (F t). unfold pkey. now rewrite H. Qed.

Lemma ids_einj ph ne : ids_ok pkey ph ne ->
  forall t1 t2 c1 c2 e b1 b2, pv (ph t1) = Some (c1, e, b1) -> pv (ph t2) = Some (c2, e, b2) -> t1 = t2.
Proof. intros [_ J] t1 t2 c1 c2 e b1 b2 H1 H2. apply (J t1 t2 e); unfold pkey; [now rewrite H1|now rewrite H2]. Qed.

Lemma S_phase_ext cw es ef ne ph ph' cq sl infl :
  (forall t, pv (ph' t) = pv (ph t)) ->
  EvS cw es ef ne ph cq sl infl -> EvS cw es ef ne ph' cq sl infl.
Proof.
  intros X V. constructor.
  - intros t c e b. rewrite X. apply (V_fresh V).
  - intros t1 t2 c1 c2 e b1 b2. rewrite !X. apply (V_einj V).
  - intros c e He. destruct (V_q V c e He) as (H1 & t & H2). split; [exact H1|]. exists t. now rewrite X.
  - apply (V_qnd V).
  - intros t c e. rewrite X. apply (V_wait0 V).
  - intros t c e. rewrite X. apply (V_wait1 V).
  - intros t c e. rewrite X. apply (V_reacq V).
  - intros e He. destruct (V_infl V e He) as (H1 & t & c & b & H2). split; [exact H1|].
    exists t, c, b. now rewrite X.
  - apply (V_inflnd V).
  - apply (V_setlog V).
  - apply (V_fifo V).
Qed.

Lemma pv_upd_none ph t p' : pv (ph t) = None -> pv p' = None -> forall x, pv (upd ph t p' x) = pv (ph x).
Proof.
  intros H1 H2 x. destruct (Nat.eq_dec x t) as [->|Hx]; [rewrite upd_same; congruence|].
  now rewrite upd_other.
Qed.

Lemma S_init : EvS (fun _ => []) (fun _ => false) (fun _ => FPending) 0 (fun _ => PIdle) [] [] [].
Proof.
  constructor; cbn; try discriminate.
  - intros c e [].
  - intros c. constructor.
  - intros e [].
  - constructor.
  - intros c. apply ss_nil.
Qed.

Lemma q_cond_unique {cw es ef ne ph cq sl infl} e c1 c2 :
  EvS cw es ef ne ph cq sl infl -> In e (cw c1) -> In e (cw c2) -> c1 = c2.
Proof.
  intros V H1 H2. destruct (V_q V c1 e H1) as (_ & t1 & Ht1).
  destruct (V_q V c2 e H2) as (_ & t2 & Ht2).
  assert (t1 = t2) by (eapply (V_einj V); eauto). subst. congruence.
Qed.

(* notify pops the head e of condition c's queue and sets it *)
Lemma S_set_head {cw es ef ne ph cq sl infl} c e r :
  EvS cw es ef ne ph cq sl infl -> cw c = e :: r ->
  EvS (upd cw c r) (upd es e true) (setf ef e) ne ph cq (sl ++ [e]) (infl ++ [e]).
Proof.
  intros V Ecw.
  assert (Hin : In e (cw c)) by (rewrite Ecw; now left).
  destruct (V_q V c e Hin) as (Hes & te & Hte).
  pose proof (V_qnd V c) as Hnd. rewrite Ecw in Hnd. inversion Hnd as [|a b Her Hr]; subst.
  destruct (setf_spec ef e) as (F1 & F2 & F3 & F4).
  assert (Hninfl : ~ In e infl).
  { intros H. destruct (V_infl V e H). congruence. }
  assert (Hsub : forall c' x, In x (upd cw c r c') -> In x (cw c') /\ x <> e).
  { intros c' x Hx. destruct (Nat.eq_dec c' c) as [->|Hc].
    - rewrite upd_same in Hx. split; [rewrite Ecw; now right|]. intros ->. contradiction.
    - rewrite upd_other in Hx by assumption. split; [exact Hx|]. intros ->.
      apply Hc. eapply q_cond_unique; eauto. }
  constructor.
  - apply (V_fresh V).
  - apply (V_einj V).
  - intros c' x Hx. destruct (Hsub c' x Hx) as [Hx' Hne].
    rewrite upd_other by assumption. apply (V_q V c' x Hx').
  - intros c'. destruct (Nat.eq_dec c' c) as [->|Hc]; [rewrite upd_same; exact Hr|].
    rewrite upd_other by assumption. apply (V_qnd V).
  - intros t c' x Ht Hx. destruct (Nat.eq_dec x e) as [->|Hne]; [rewrite upd_same in Hx; discriminate|].
    rewrite upd_other in Hx by assumption. destruct (V_wait0 V t c' x Ht Hx) as [H H'].
    split; [|now rewrite F2]. destruct (Nat.eq_dec c' c) as [->|Hc].
    + rewrite upd_same. rewrite Ecw in H. destruct H as [H|H]; [congruence|exact H].
    + now rewrite upd_other.
  - intros t c' x Ht Hx. destruct (Nat.eq_dec x e) as [->|Hne].
    + split; [exact F1|]. apply in_or_app. right. now left.
    + rewrite upd_other in Hx by assumption. destruct (V_wait1 V t c' x Ht Hx) as [H H'].
      split; [now rewrite F2|]. apply in_or_app. now left.
  - intros t c' x Ht. destruct (V_reacq V t c' x Ht) as [H H'].
    assert (x <> e) by congruence. rewrite upd_other by assumption. split; [exact H|].
    apply in_or_app. now left.
  - intros x Hx. apply in_app_or in Hx. destruct Hx as [Hx|[<-|[]]].
    + destruct (V_infl V x Hx) as [H H']. assert (x <> e) by congruence.
      rewrite upd_other by assumption. auto.
    + rewrite upd_same. split; [reflexivity|]. eauto.
  - apply NoDup_snoc; [apply (V_inflnd V)|exact Hninfl].
  - intros x Hx. apply in_or_app. destruct (Nat.eq_dec x e) as [->|Hne]; [right; now left|].
    rewrite upd_other in Hx by assumption. left. apply (V_setlog V), Hx.
  - intros c'. destruct (Nat.eq_dec c' c) as [->|Hc].
    + rewrite upd_same. eapply subseq_trans; [|apply (V_fifo V c)].
      rewrite Ecw. apply ss_skip, subseq_refl.
    + rewrite upd_other by assumption. apply (V_fifo V).
Qed.

(* c.wait() enqueues a fresh event *)
Lemma S_enqueue {cw es ef ne ph cq sl infl} c t :
  EvS cw es ef ne ph cq sl infl -> pv (ph t) = None ->
  EvS (upd cw c (cw c ++ [ne])) (upd es ne false) (upd ef ne FPending) (S ne) (upd ph t (PWait c ne))
      (cq ++ [ne]) sl infl.
Proof.
  intros V Hpt.
  assert (Hids : ids_ok pkey (upd ph t (PWait c ne)) (S ne)).
  { apply (ids_ok_upd _ _ _ _ _ _ (V_ids V) (Nat.le_succ_diag_r _)). intros k [= <-]. right. lia. }
  assert (Hphlt : forall x c' e b, pv (ph x) = Some (c', e, b) -> e <> ne /\ x <> t).
  { intros x c' e b H. pose proof (V_fresh V x c' e b H). split; [lia|congruence]. }
  assert (Hcwlt : forall c' x, In x (cw c') -> x <> ne).
  { intros c' x Hx. destruct (V_q V c' x Hx) as (_ & tx & Htx). eapply Hphlt; eauto. }
  assert (Hcases : forall c' x, In x (upd cw c (cw c ++ [ne]) c') ->
            (In x (cw c') /\ x <> ne) \/ (c' = c /\ x = ne)).
  { intros c' x Hx. destruct (Nat.eq_dec c' c) as [->|Hc].
    - rewrite upd_same in Hx. apply in_app_or in Hx. destruct Hx as [Hx|[<-|[]]]; eauto.
    - rewrite upd_other in Hx by assumption. eauto. }
  constructor.
  - apply (ids_fresh _ _ Hids).
  - apply (ids_einj _ _ Hids).
  - intros c' x Hx. destruct (Hcases c' x Hx) as [[Hx' Hne]|[-> ->]].
    + rewrite upd_other by assumption.
      destruct (V_q V c' x Hx') as (H1 & tx & Htx). split; [exact H1|]. exists tx.
      rewrite upd_other; [exact Htx|]. eapply Hphlt; eauto.
    + rewrite upd_same. split; [reflexivity|]. exists t. now rewrite upd_same.
  - intros c'. destruct (Nat.eq_dec c' c) as [->|Hc].
    + rewrite upd_same. apply NoDup_snoc; [apply (V_qnd V)|].
      intros H. now apply Hcwlt in H.
    + rewrite upd_other by assumption. apply (V_qnd V).
  - intros x c' e H He. apply (upd_cases pv) in H as [[_ [= <- <-]]|[_ H]].
    + rewrite !upd_same. split; [|discriminate]. apply in_or_app. right. now left.
    + assert (e <> ne) by (eapply Hphlt; eauto).
      rewrite upd_other in He by assumption. rewrite (upd_other ef) by assumption.
      destruct (V_wait0 V x c' e H He). split; [|assumption].
      destruct (Nat.eq_dec c' c) as [->|Hc]; [rewrite upd_same; apply in_or_app; now left|].
      now rewrite upd_other.
  - intros x c' e H He. apply (upd_cases pv) in H as [[_ [= <- <-]]|[_ H]].
    + rewrite upd_same in He. discriminate.
    + assert (e <> ne) by (eapply Hphlt; eauto).
      rewrite upd_other in He by assumption. rewrite upd_other by assumption.
      apply (V_wait1 V x c' e H He).
  - intros x c' e H. apply (upd_cases pv) in H as [[_ H]|[_ H]]; [discriminate|].
    assert (e <> ne) by (eapply Hphlt; eauto).
    rewrite upd_other by assumption. apply (V_reacq V x c' e H).
  - intros e He. destruct (V_infl V e He) as (H1 & tx & cx & b & Htx).
    destruct (Hphlt _ _ _ _ Htx). rewrite upd_other by assumption. split; [exact H1|].
    exists tx, cx, b. now rewrite upd_other.
  - apply (V_inflnd V).
  - intros e He. destruct (Nat.eq_dec e ne) as [->|Hne]; [rewrite upd_same in He; discriminate|].
    rewrite upd_other in He by assumption. apply (V_setlog V), He.
  - intros c'. destruct (Nat.eq_dec c' c) as [->|Hc].
    + rewrite upd_same. apply subseq_app_tail, (V_fifo V).
    + rewrite upd_other by assumption. eapply subseq_trans; [apply (V_fifo V)|].
      clear. induction cq; cbn; [apply ss_skip, ss_nil|apply ss_take; assumption].
Qed.

(* a notified waiter woke up normally and now blocks in the re-acquire *)
Lemma S_block {cw es ef ne ph cq sl infl} t c e :
  EvS cw es ef ne ph cq sl infl -> ph t = PWait c e -> es e = true ->
  EvS cw es ef ne (upd ph t (PReacq c e false)) cq sl infl.
Proof.
  intros V Hpt Hes. assert (Hpv : pv (ph t) = Some (c, e, false)) by (now apply pv_wait).
  assert (Hids : ids_ok pkey (upd ph t (PReacq c e false)) ne).
  { apply (ids_ok_upd _ _ _ _ _ _ (V_ids V) (le_n _)). intros k H. left. now rewrite Hpt. }
  destruct (V_wait1 V t c e Hpv Hes) as [Hef Hin].
  (* a queued event is unset: its waiter is another task *)
  assert (Hq : forall c' x, In x (cw c') -> es x = false /\ exists tx, pv (upd ph t (PReacq c e false) tx) = Some (c', x, false)).
  { intros c' x Hx. destruct (V_q V c' x Hx) as (H1 & tx & Htx). split; [exact H1|]. exists tx.
    rewrite upd_other; [exact Htx|]. intros ->. congruence. }
  constructor.
  - apply (ids_fresh _ _ Hids).
  - apply (ids_einj _ _ Hids).
  - exact Hq.
  - apply (V_qnd V).
  - intros x c' e' H. apply (upd_cases pv) in H as [[_ H]|[_ H]]; [discriminate|]. exact (V_wait0 V x c' e' H).
  - intros x c' e' H. apply (upd_cases pv) in H as [[_ H]|[_ H]]; [discriminate|]. exact (V_wait1 V x c' e' H).
  - intros x c' e' H. apply (upd_cases pv) in H as [[_ [= <- <-]]|[_ H]]; [auto|]. exact (V_reacq V x c' e' H).
  - intros e' He. destruct (V_infl V e' He) as (H1 & tx & cx & b & Htx). split; [exact H1|].
    destruct (Nat.eq_dec tx t) as [->|Hx].
    + rewrite Hpv in Htx. injection Htx as <- <- <-. exists t, c, true. now rewrite upd_same.
    + exists tx, cx, b. now rewrite upd_other.
  - apply (V_inflnd V).
  - apply (V_setlog V).
  - apply (V_fifo V).
Qed.

Lemma S_cw_ext cw {cw' es ef ne ph cq sl infl} :
  (forall c, cw' c = cw c) -> EvS cw es ef ne ph cq sl infl -> EvS cw' es ef ne ph cq sl infl.
Proof.
  intros X V. destruct V. constructor; auto.
  - intros c e. rewrite X. eauto.
  - intros c. rewrite X. eauto.
  - intros t c e. rewrite X. eauto.
  - intros c. rewrite X. eauto.
Qed.

Lemma V_set_inflight {cw es ef ne ph cq sl infl t c e b} :
  EvS cw es ef ne ph cq sl infl -> pv (ph t) = Some (c, e, b) -> es e = true -> In e infl.
Proof.
  intros V Hpv Hes.
  destruct b; [apply (V_reacq V t c e Hpv)|apply (V_wait1 V t c e Hpv Hes)].
Qed.

(* task t, waiting on or re-acquiring after event e, leaves wait() (returns, fails over, hands the notification on,
   or gives up an unset event): e goes from wherever it is listed, and no other task has to do with e *)
Lemma S_leave {cw es ef ne ph cq sl infl} t c e b p' :
  EvS cw es ef ne ph cq sl infl -> pv (ph t) = Some (c, e, b) -> pv p' = None ->
  EvS (fun c' => remove_first e (cw c')) es ef ne (upd ph t p') cq sl (remove_first e infl).
Proof.
  intros V Hpv Hp'.
  assert (Hids : ids_ok pkey (upd ph t p') ne).
  { apply (ids_ok_upd _ _ _ _ _ _ (V_ids V) (le_n _)). unfold pkey. rewrite Hp'. discriminate. }
  assert (Hoth : forall x c' e' b', pv (ph x) = Some (c', e', b') ->
            (x <> t -> e' <> e) /\ (e' <> e -> pv (upd ph t p' x) = Some (c', e', b'))).
  { intros x c' e' b' H. split.
    - intros Hx ->. apply Hx. eapply (V_einj V); eauto.
    - intros Hne. rewrite upd_other; [exact H|]. intros ->. congruence. }
  assert (Hrm : forall l x, NoDup l -> In x (remove_first e l) -> In x l /\ x <> e).
  { intros l x Hnd Hx. split; [eapply remove_first_in; eauto|]. intros ->. revert Hx. now apply remove_first_gone. }
  constructor.
  - apply (ids_fresh _ _ Hids).
  - apply (ids_einj _ _ Hids).
  - intros c' x Hx. apply Hrm in Hx as [Hx Hne]; [|apply (V_qnd V)].
    destruct (V_q V c' x Hx) as (H1 & tx & Htx). split; [exact H1|].
    exists tx. now apply (Hoth _ _ _ _ Htx).
  - intros c'. apply remove_first_nodup, (V_qnd V).
  - intros x c' e' H He. apply (upd_cases pv) in H as [[_ H]|[Hx H]]; [congruence|].
    destruct (V_wait0 V x c' e' H He) as [H1 H2].
    split; [|exact H2]. apply remove_first_in_other; [exact H1|]. now apply (Hoth _ _ _ _ H).
  - intros x c' e' H He. apply (upd_cases pv) in H as [[_ H]|[Hx H]]; [congruence|].
    destruct (V_wait1 V x c' e' H He) as [H1 H2].
    split; [exact H1|]. apply remove_first_in_other; [exact H2|]. now apply (Hoth _ _ _ _ H).
  - intros x c' e' H. apply (upd_cases pv) in H as [[_ H]|[Hx H]]; [congruence|].
    destruct (V_reacq V x c' e' H) as [H1 H2].
    split; [exact H1|]. apply remove_first_in_other; [exact H2|]. now apply (Hoth _ _ _ _ H).
  - intros e' He. apply Hrm in He as [He Hne]; [|apply (V_inflnd V)].
    destruct (V_infl V e' He) as (H1 & tx & cx & b' & Htx). split; [exact H1|].
    exists tx, cx, b'. now apply (Hoth _ _ _ _ Htx).
  - apply remove_first_nodup, (V_inflnd V).
  - apply (V_setlog V).
  - intros c'. eapply subseq_trans; [apply remove_first_subseq|apply (V_fifo V)].
Qed.

(* its event is set: it is in flight and in no queue *)
Lemma S_leave_notified {cw es ef ne ph cq sl infl} t c e b p' :
  EvS cw es ef ne ph cq sl infl -> pv (ph t) = Some (c, e, b) -> es e = true -> pv p' = None ->
  EvS cw es ef ne (upd ph t p') cq sl (remove_first e infl).
Proof.
  intros V Hpv Hes Hp'.
  apply (S_cw_ext (fun c' => remove_first e (cw c'))); [|exact (S_leave t c e b p' V Hpv Hp')].
  intros c'. symmetry. apply remove_first_notin. intros H. destruct (V_q V c' e H). congruence.
Qed.

(* its event is not set: it is in the queue of its condition only, and not in flight *)
Lemma S_leave_unset {cw es ef ne ph cq sl infl} t c e p' :
  EvS cw es ef ne ph cq sl infl -> ph t = PWait c e -> es e = false -> pv p' = None ->
  EvS (upd cw c (remove_first e (cw c))) es ef ne (upd ph t p') cq sl infl.
Proof.
  intros V Hpt Hes Hp'. assert (Hpv : pv (ph t) = Some (c, e, false)) by (now apply pv_wait).
  rewrite <- (remove_first_notin e infl).
  - apply (S_cw_ext (fun c' => remove_first e (cw c'))); [|exact (S_leave t c e false p' V Hpv Hp')].
    intros c'. destruct (Nat.eq_dec c' c) as [->|Hc]; [apply upd_same|]. rewrite upd_other by assumption.
    symmetry. apply remove_first_notin. intros H. apply Hc. apply (q_cond_unique e c' c V H).
    now apply (V_wait0 V t c e Hpv Hes).
  - intros H. destruct (V_infl V e H). congruence.
Qed.

(* a pending waiter future is cancelled: only V_wait0 and V_wait1 read the futures *)
Lemma S_cancel_fut cw es ef ne ph cq sl infl e :
  EvS cw es ef ne ph cq sl infl -> ef e = FPending ->
  EvS cw es (upd ef e FCancelled) ne ph cq sl infl.
Proof.
  intros V Hef. destruct V as [? ? ? ? W0 W1 ? ? ? ? ?]. constructor; auto.
  - intros t c x H Hx. destruct (W0 t c x H Hx) as [H1 H2]. split; [exact H1|].
    destruct (Nat.eq_dec x e) as [->|Hne]; [rewrite upd_same; discriminate|now rewrite upd_other].
  - intros t c x H Hx. destruct (W1 t c x H Hx) as [H1 H2]. split; [|exact H2].
    destruct (Nat.eq_dec x e) as [->|Hne]; [rewrite upd_same; discriminate|now rewrite upd_other].
Qed.

Lemma do_set_unset s e hz :
  eset s e = false ->
  do_set s e hz = cmk (variant s) (lk s) (owner_rec s) (cwaiters s) (upd (eset s) e true) (setf (efut s) e) (nev s)
                      (cphase_of s) (cenq s) (setlog s ++ [e]) (inflight s) (upd (horizon s) e hz) (nlog s)
                      (issued s) (consumed s) (dropped s) (lost s).
Proof. intros H. unfold do_set, setf. rewrite H. reflexivity. Qed.

Lemma notify_loop_ev n c hz : forall s, EvInv s -> EvInv (notify_loop n c hz s).
Proof.
  induction n as [|k IH]; intros s V; cbn [notify_loop]; [exact V|].
  destruct (cwaiters s c) as [|e r] eqn:Ecw; [exact V|].
  apply IH. destruct V as [V C].
  assert (Hin : In e (cwaiters s c)) by (rewrite Ecw; now left).
  destruct (V_q V c e Hin) as (Hes & _).
  rewrite (do_set_unset (with_cw s c r) e hz) by (cnorm; exact Hes). unfold EvInv. cnorm. split.
  - apply S_set_head; assumption.
  - rewrite app_length. cbn. lia.
Qed.

Lemma do_notify_ev s c n : EvInv s -> EvInv (do_notify s c n).
Proof. intros V. unfold do_notify. apply notify_loop_ev. exact V. Qed.

Lemma finish_wait_ev s t c e exc l' r :
  cwaiters (fst (finish_wait s t c e exc l' r)) = cwaiters s /\
  eset (fst (finish_wait s t c e exc l' r)) = eset s /\
  efut (fst (finish_wait s t c e exc l' r)) = efut s /\
  nev (fst (finish_wait s t c e exc l' r)) = nev s /\
  cenq (fst (finish_wait s t c e exc l' r)) = cenq s /\
  setlog (fst (finish_wait s t c e exc l' r)) = setlog s /\
  inflight (fst (finish_wait s t c e exc l' r)) =
    (if exc then inflight s else match r with RBlocked => inflight s | _ => remove_first e (inflight s) end) /\
  issued (fst (finish_wait s t c e exc l' r)) = issued s /\
  consumed (fst (finish_wait s t c e exc l' r)) + dropped (fst (finish_wait s t c e exc l' r))
    + lost (fst (finish_wait s t c e exc l' r)) =
    (if exc then 0 else match r with RBlocked => 0 | _ => 1 end) + (consumed s + dropped s + lost s) /\
  horizon (fst (finish_wait s t c e exc l' r)) = horizon s /\
  nlog (fst (finish_wait s t c e exc l' r)) = nlog s.
Proof. destruct r, exc; cbn; repeat split; lia. Qed.

(* the end of wait() with the event-side invariant: without a pending exception the caller's notification is
   consumed or lost unless the re-acquire blocks; with one, the `except` branch has already dealt with it *)
Lemma ev_finish s t c e exc l' r :
  (exc = false -> EvInv s /\ eset s e = true /\
                  (cphase_of s t = PWait c e \/ (cphase_of s t = PReacq c e false /\ r <> RBlocked))) ->
  (exc = true -> issued s = consumed s + length (inflight s) + dropped s + lost s /\
                 forall p', pv p' = None ->
                   EvS (cwaiters s) (eset s) (efut s) (nev s) (upd (cphase_of s) t p') (cenq s) (setlog s)
                       (inflight s)) ->
  EvInv (fst (finish_wait s t c e exc l' r)).
Proof.
  intros Hf Ht. unfold EvInv.
  destruct (finish_wait_ev s t c e exc l' r) as (-> & -> & -> & -> & -> & -> & Hi & Hiss & Hc & _).
  destruct (finish_wait_proj s t c e exc l' r) as (_ & _ & ->).
  rewrite Hi, Hiss.
  (* one more wait() is accounted for exactly when an event leaves `inflight` *)
  assert (Hcount : forall k i a n b d a' n' b' d', i = a + n + b + d -> a' + b' + d' = k + (a + b + d) -> k + n' = n ->
                   i = a' + n' + b' + d') by (clear; intros; lia).
  destruct exc.
  - destruct (Ht eq_refl) as [C V]. split; [apply V; destruct r; reflexivity|exact (Hcount 0 _ _ _ _ _ _ _ _ _ C Hc eq_refl)].
  - destruct (Hf eq_refl) as ([V C] & Hes & Hph).
    assert (Hpv : exists b, pv (cphase_of s t) = Some (c, e, b)).
    { destruct Hph as [Hph|[Hph _]]; [exists false; now apply pv_wait|exists true; now apply pv_reacq]. }
    destruct Hpv as [b Hpv].
    pose proof (remove_first_length e _ (V_set_inflight V Hpv Hes)) as Hlen.
    destruct r;
      try (split; [apply (S_leave_notified t c e b); auto|exact (Hcount 1 _ _ _ _ _ _ _ _ _ C Hc Hlen)]).
    destruct Hph as [Hph|[_ Hne]]; [|exfalso; apply Hne; reflexivity].
    split; [apply S_block; assumption|exact (Hcount 0 _ _ _ _ _ _ _ _ _ C Hc eq_refl)].
Qed.

(* the resumption of a task inside event.wait(): x = the wait was interrupted *)
Lemma ev_resume_wait s t c e L0 x l' r :
  EvInv s -> cphase_of s t = PWait c e -> (x = false -> eset s e = true) ->
  EvInv (fst (finish_wait (if x then wait_interrupted (with_lk s L0) c e else with_lk s L0) t c e x l' r)).
Proof.
  intros [V C] Hph Hx. assert (Hpv : pv (cphase_of s t) = Some (c, e, false)) by (now apply pv_wait).
  destruct x; apply ev_finish; try discriminate.
  - intros _. unfold wait_interrupted. cnorm. destruct (eset s e) eqn:Ees.
    + pose proof (V_set_inflight V Hpv Ees) as Hin.
      pose proof (remove_first_length e _ Hin) as Hlen.
      destruct (cwaiters s c) as [|h q] eqn:Ecw.
      * (* notified, nobody to hand the notification to: it is dropped *)
        cnorm. split; [clear - C Hlen; unfold eid in *; lia|]. intros p' Hp'. now apply (S_leave_notified t c e false).
      * (* notified: the head h of the queue is set in e's place *)
        assert (Hinq : In h (cwaiters s c)) by (rewrite Ecw; now left).
        destruct (V_q V c h Hinq) as (Hes & _).
        rewrite (do_set_unset (with_cw (with_lk s L0) c q) h (horizon s e)) by (cnorm; exact Hes). cnorm.
        split; [rewrite app_length; clear - C Hlen; cbn; unfold eid in *; lia|]. intros p' Hp'.
        rewrite <- (remove_first_app_in e _ [h] Hin).
        apply (S_leave_notified t c e false); auto using S_set_head.
        rewrite upd_other; congruence.
    + (* not notified: the event is taken out of the queue *)
      cnorm. split; [exact C|]. intros p' Hp'. apply S_leave_unset; auto.
  - intros _. unfold EvInv. cnorm.
    split; [split; [exact V|exact C]|split; [apply Hx; reflexivity|left; exact Hph]].
Qed.

Lemma ev_phase_none s t p' L O :
  EvInv s -> pv (cphase_of s t) = None -> pv p' = None ->
  EvInv (cmk (variant s) L O (cwaiters s) (eset s) (efut s) (nev s) (upd (cphase_of s) t p') (cenq s)
             (setlog s) (inflight s) (horizon s) (nlog s) (issued s) (consumed s) (dropped s) (lost s)).
Proof.
  intros [V C] H1 H2. unfold EvInv. cnorm. split; [|exact C].
  eapply S_phase_ext; [|exact V]. now apply pv_upd_none.
Qed.

(* at HEAD the holder test and the lock agree: an accepted wait() always manages to release *)
Lemma accepted_wait_releases s c t l' r :
  variant s = 0 -> holder_check s c t = true -> phase_of (lk s) t = Idle ->
  Lock.step (lk s) (Release t) = (l', r) -> r = RDone.
Proof.
  intros Hv Hc Hli E. unfold holder_check in Hc. rewrite Hv in Hc. apply tid_eqb_opt_true in Hc.
  pose proof (lstep_release_res _ t _ _ Hli E) as R. destruct r; try contradiction; [reflexivity|].
  destruct R as [_ Hno]. contradiction.
Qed.

Lemma cstep_evinv s o : variant s = 0 -> LkInv s -> EvInv s -> EvInv (fst (cstep s o)).
Proof.
  intros Hv K V. unfold LkInv in K.
  destruct (cstep_cmove s o) as [|oc t lo Ei Ho|t l' r oo Ei E|c t n|c t l' r Ei Eh E|t l' r _ _ E|t c e Ep Ef
                                 |t c e|t oc l' r oo Ep E Hr|t c e exc l' r Ep E Hr|t c e l' r Ho Ep Ef x s0 E].
  - exact V.
  - unfold acquire_begin. destruct (Lock.step (lk s) lo) as [l' r].
    destruct r; cbn [fst]; try exact V. apply (ev_phase_none s t (PAcq oc)); auto. now rewrite Ei.
  - exact V.
  - apply do_notify_ev, V.
  - assert (Hli : phase_of (lk s) t = Idle) by (apply (K_coupling K); rewrite Ei; reflexivity).
    rewrite (accepted_wait_releases s c t l' r Hv Eh Hli E).
    destruct V as [V C]. unfold EvInv, enqueue. cnorm. split; [|exact C]. apply S_enqueue; [exact V|]. now rewrite Ei.
  - exact V.
  - destruct V as [V C]. split; [|exact C]. apply S_cancel_fut; assumption.
  - exact V.
  - apply (ev_phase_none s t PIdle); auto. now rewrite Ep.
  - apply ev_finish.
    + intros ->. refine (conj V (conj _ _)).
      * destruct V as [V _]. apply (V_reacq V t c e). now apply pv_reacq.
      * right. split; [exact Ep|]. intros ->.
        destruct (reacq_resume_res _ _ t c e false l' RBlocked K Ep E) as (_ & [[? _]|[[? _]|[? _]]]); discriminate.
    + intros ->. destruct V as [V C]. split; [exact C|]. intros p' Hp'.
      eapply S_phase_ext; [|exact V]. apply pv_upd_none; [now rewrite Ep|exact Hp'].
  - apply ev_resume_wait; auto. subst x. intros Hx.
    destruct (eset s e) eqn:Ees; [reflexivity|]. exfalso.
    destruct V as [V _]. assert (Hpv : pv (cphase_of s t) = Some (c, e, false)) by (now apply pv_wait).
    destruct (V_wait0 V t c e Hpv Ees) as [_ H]. destruct (efut s e); congruence.
Qed.

Record CInv (s : cst) : Prop := { C_var : variant s = 0; C_lk : LkInv s; C_ev : EvInv s }.

Lemma cinv_init fa : CInv (cinit fa 0).
Proof.
  constructor; [reflexivity| |].
  - unfold LkInv. cbn. constructor.
    + apply inv_init.
    + intros t. cbn. tauto.
    + intros t [].
  - split; [apply S_init|reflexivity].
Qed.

Lemma cstep_inv s o : CInv s -> CInv (fst (cstep s o)).
Proof.
  intros [P K V]. constructor.
  - now rewrite cstep_variant.
  - now apply cstep_lkinv.
  - now apply cstep_evinv.
Qed.

Theorem creachable_inv fa ops : CInv (final cstep (cinit fa 0) ops).
Proof. apply final_inv; [apply cstep_inv|apply cinv_init]. Qed.

(* documented scope: without a native cancel inside the shielded re-acquire, the re-acquire cannot fail *)
Definition QI (l : Lock.st) (ph : tid -> cphase) : Prop := forall t c e x, ph t = PReacq c e x -> reacq_ok l t.

Definition QInv (s : cst) : Prop := QI (lk s) (cphase_of s).

(* a lock step by task u does not disturb the re-acquire of any other task; u's own is to be checked *)
Lemma Q_step l ph lo l' r ph' :
  Inv l -> QI l ph -> Lock.step l lo = (l', r) ->
  (forall t, t <> LockEntry.op_tid lo -> ph' t = ph t) ->
  (forall c e x, ph' (LockEntry.op_tid lo) = PReacq c e x -> reacq_ok l' (LockEntry.op_tid lo)) ->
  QI l' ph'.
Proof.
  intros I Q E F Hu t c e x H. destruct (Nat.eq_dec t (LockEntry.op_tid lo)) as [->|Hne]; [eauto|].
  rewrite F in H by exact Hne. destruct (Q t c e x H) as [H1 H2].
  destruct (lstep_frames _ _ _ _ I E) as (_ & Fp & _ & Fm). split.
  - now rewrite Fm.
  - intros f Hf. rewrite Fp in Hf by exact Hne. intros Hc. apply (H2 f Hf). eapply lstep_futs_frame; eauto.
Qed.

Lemma Q_mustc l ph u b : QI l ph -> (forall c e x, ph u <> PReacq c e x) -> QI (set_mustc l u b) ph.
Proof.
  intros Q Hu t c e x H. destruct (Q t c e x H) as [H1 H2]. split; [|exact H2].
  cbn. rewrite upd_other; [exact H1|]. intros ->. exact (Hu _ _ _ H).
Qed.

Lemma qinv_init fa : QInv (cinit fa 0).
Proof. intros t c e x H. discriminate. Qed.

Lemma cstep_qinv s o : CInv s -> QInv s -> native_reacq s o = false -> QInv (fst (cstep s o)).
Proof.
  intros [P K V] Q Hn. unfold LkInv in K. pose proof (K_lock K) as I. unfold QInv in *.
  destruct (cstep_cmove s o) as [|oc t lo Ei Ho|t l' r oo Ei E|c t n|c t l' r Ei Eh E|t l' r _ Hnat E|t c e Ep Ef
                                 |t c e Ep|t oc l' r oo Ep E Hr|t c e exc l' r Ep E Hr|t c e l' r Ho Ep Ef x s0 E].
  - exact Q.
  - destruct (acquire_begin_proj s oc t lo) as (-> & _ & ->).
    destruct (Lock.step (lk s) lo) as [l' r] eqn:E. cbn [fst snd].
    assert (Hlt : LockEntry.op_tid lo = t) by (destruct Ho as [-> | ->]; reflexivity).
    apply (Q_step _ _ lo l' r _ I Q E); rewrite Hlt.
    + intros x Hx. destruct r; auto using upd_other_fun.
    + intros c e x. destruct r; rewrite ?upd_same; congruence.
  - cnorm. apply (Q_step _ _ _ l' r _ I Q E); cbn [LockEntry.op_tid]; [reflexivity|congruence].
  - destruct (do_notify_proj s c n) as (-> & -> & _). exact Q.
  - destruct r; unfold enqueue; cnorm; apply (Q_step _ _ _ l' _ _ I Q E); cbn [LockEntry.op_tid];
      auto using upd_other_fun; intros c0 e x; rewrite ?upd_same; congruence.
  - cnorm. apply (Q_step _ _ _ l' r _ I Q E); cbn [LockEntry.op_tid]; [reflexivity|].
    destruct (Hnat Hn) as [oc Ep]. congruence.
  - exact Q.
  - cnorm. apply (Q_mustc _ _ t true Q). congruence.
  - cnorm. apply (Q_step _ _ _ l' r _ I Q E); cbn [LockEntry.op_tid]; [apply upd_other_fun|].
    intros c e x. rewrite upd_same. discriminate.
  - destruct (finish_wait_proj s t c e exc l' r) as (-> & _ & ->).
    apply (Q_step _ _ _ l' r _ I Q E); cbn [LockEntry.op_tid]; [apply upd_other_fun|].
    intros c' e' x'. rewrite upd_same.
    destruct (reacq_resume_res _ _ t c e exc l' r K Ep E) as (_ & [[-> _]|[[-> _]|[-> _]]]); discriminate.
  - (* the re-acquire begins: if it blocks, Task._must_cancel has just been consumed and the new future is pending *)
    destruct (finish_wait_proj (if x then wait_interrupted s0 c e else s0) t c e x l' r) as (-> & _ & ->).
    subst s0. rewrite (proj1 (proj2 (reacq_start_proj s _ c e x))).
    pose proof (LK_mustc _ _ t false K) as K0.
    assert (Hli : phase_of (set_mustc (lk s) t false) t = Idle)
      by (apply (K_coupling K0); rewrite Ep; reflexivity).
    pose proof (lstep_acq_res _ t _ _ _ (or_introl eq_refl) Hli E) as R.
    assert (Q0 : QI (set_mustc (lk s) t false) (cphase_of s)) by (apply (Q_mustc _ _ t false Q); congruence).
    apply (Q_step _ _ _ l' r _ (K_lock K0) Q0 E); cbn [LockEntry.op_tid]; [apply upd_other_fun|].
    intros c' e' x'. rewrite upd_same. destruct r; try discriminate. intros _.
    destruct R as (_ & _ & _ & Rm & Rf). split.
    + rewrite Rm. apply upd_same.
    + intros f Hf. rewrite (Rf f Hf). discriminate.
Qed.

(* known finding F18: unless a notification is handed over to a later arrival, every set event carries a
   notification issued by a notify call made after its wait() began *)
Definition HI (es : eid -> bool) (hor : eid -> nat) (nl : list nat) : Prop :=
  forall e, es e = true -> e < hor e /\ In (hor e) nl.

Definition HInv (s : cst) : Prop := HI (eset s) (horizon s) (nlog s).

Lemma notify_loop_h n c hz : forall s,
  EvInv s -> (forall e, In e (cwaiters s c) -> e < hz) -> In hz (nlog s) -> HInv s ->
  HInv (notify_loop n c hz s).
Proof.
  induction n as [|k IH]; intros s V Hq Hn H; cbn [notify_loop]; [exact H|].
  destruct (cwaiters s c) as [|e r] eqn:Ecw; [exact H|].
  destruct V as [V C].
  assert (Hin : In e (cwaiters s c)) by (rewrite Ecw; now left).
  destruct (V_q V c e Hin) as (Hes & _).
  rewrite (do_set_unset (with_cw s c r) e hz) by (cnorm; exact Hes). cnorm.
  apply IH.
  - unfold EvInv. cnorm. split; [apply S_set_head; assumption|]. rewrite app_length. cbn. lia.
  - cnorm. rewrite upd_same. intros x Hx. apply Hq. now right.
  - cnorm. exact Hn.
  - unfold HInv, HI. cnorm. intros x Hx. destruct (Nat.eq_dec x e) as [->|Hne].
    + rewrite upd_same. split; [apply Hq; now left|exact Hn].
    + rewrite upd_other in Hx by assumption. rewrite upd_other by assumption. apply H, Hx.
Qed.

Lemma do_notify_h s c n : EvInv s -> HInv s -> HInv (do_notify s c n).
Proof.
  intros V H. unfold do_notify. apply notify_loop_h.
  - exact V.
  - cnorm. intros e He. destruct V as [V _]. destruct (V_q V c e He) as (_ & t & Ht).
    eapply (V_fresh V); eauto.
  - cnorm. apply in_or_app. right. now left.
  - unfold HInv, HI in *. cnorm. intros e He. destruct (H e He) as [H1 H2]. split; [exact H1|].
    apply in_or_app. now left.
Qed.

Lemma cstep_hinv s o :
  variant s = 0 -> LkInv s -> EvInv s -> HInv s -> late_handover s o = false -> HInv (fst (cstep s o)).
Proof.
  intros Hv K V H Hn. unfold HInv.
  destruct (cstep_cmove s o) as [|oc t lo Ei Ho|t l' r oo Ei E|c t n|c t l' r Ei Eh E|t l' r _ Hnat E|t c e Ep Ef
                                 |t c e Ep|t oc l' r oo Ep E Hr|t c e exc l' r Ep E Hr|t c e l' r Ho Ep Ef x s0 E];
    try exact H.
  - unfold acquire_begin. destruct (Lock.step (lk s) lo) as [l' r]. destruct r; exact H.
  - now apply do_notify_h.
  - (* the new event is unset *)
    assert (H1 : HI (upd (eset s) (nev s) false) (horizon s) (nlog s)).
    { intros e He. apply upd_eq_cases in He as [[_ He]|[_ He]]; [discriminate|]. apply H, He. }
    destruct r; exact H1.
  - destruct (finish_wait_ev s t c e exc l' r) as (_ & -> & _ & _ & _ & _ & _ & _ & _ & -> & ->). exact H.
  - destruct (finish_wait_ev (if x then wait_interrupted s0 c e else s0) t c e x l' r)
      as (_ & -> & _ & _ & _ & _ & _ & _ & _ & -> & ->).
    subst x s0. destruct (match efut s e with FSet => mustc (lk s) t | _ => true end) eqn:Ex; [|exact H].
    unfold wait_interrupted. cnorm.
    destruct (eset s e) eqn:Ees; [|exact H]. destruct (cwaiters s c) as [|h q] eqn:Ecw; [exact H|].
    (* pass-on: not a late hand-over, so the receiver h began to wait before the notify call e's notification is from *)
    destruct V as [V _]. assert (Hinq : In h (cwaiters s c)) by (rewrite Ecw; now left).
    destruct (V_q V c h Hinq) as (Hesh & _).
    rewrite (do_set_unset (with_cw (with_lk s (set_mustc (lk s) t false)) c q) h (horizon s e)) by (cnorm; exact Hesh).
    cnorm.
    assert (Hlt : h < horizon s e).
    { revert Hn. rewrite Ho. cbn [late_handover]. rewrite Ep, Ees, Ecw.
      assert (Hx : match efut s e with FPending => false | FSet => mustc (lk s) t | _ => true end = true)
        by (destruct (efut s e); [contradiction|exact Ex|reflexivity]).
      rewrite Hx. cbn. apply Nat.leb_gt. }
    destruct (H e Ees) as [_ Hnl].
    intros y Hy. destruct (Nat.eq_dec y h) as [->|Hne].
    + rewrite upd_same. auto.
    + rewrite upd_other in Hy by assumption. rewrite upd_other by assumption. apply H, Hy.
Qed.

Lemma hinv_init fa : HInv (cinit fa 0).
Proof. intros e He. discriminate. Qed.

(* C10 / C08: the cancellation check of CapacityLimiter.acquire_on_behalf_of() comes first and may yield.  Theorems over
   every op sequence of the extended machine LimiterEntry.estep; the order "test, check, take" kept as a refuted
   (pinned) witness. *)
From AV Require Import Base C10Lib Limiter LimiterThms LimiterEntry.

Definition ereach (v : option nat) (s : est) : Prop := exists ops, s = final (estep false) (einit v) ops.

(* `committed` is set only by the pre-fix order (pinned = true): at HEAD it stays false, so a resumed entry check always
   goes through Limiter.step and never takes a token blindly *)
Definition nocommit (s : est) : Prop := forall t, committed s t = false.

Lemma unspin_nocommit s l t : nocommit s -> nocommit (unspin s l t).
Proof. intros C u. cbn. unfold upd. destruct (Nat.eqb u t); [reflexivity | apply C]. Qed.

(* one step of the extended machine: the limiter component does not move, or moves by ONE Limiter.step *)
Lemma estep_lim s o : nocommit s ->
  nocommit (fst (estep false s o)) /\
  (lim (fst (estep false s o)) = lim s \/ exists lo, lim (fst (estep false s o)) = fst (Limiter.step (lim s) lo)).
Proof.
  intros C. destruct o as [o|t b|t|t]; cbn [estep].
  - destruct (spin s (op_tid o)) as [b|].
    + destruct o; cbn; try (split; [exact C | left; reflexivity]).
      * destruct (ckmust s t); cbn; (split; [|left; reflexivity]); [apply unspin_nocommit|]; exact C.
    + destruct (Limiter.step (lim s) o) as [l' r] eqn:E. cbn. split; [exact C|]. right. exists o. rewrite E. reflexivity.
  - cbn [andb]. destruct (is_some (spin s t) || negb (is_idle (phase_of (lim s) t))); cbn; (split; [exact C | left; reflexivity]).
  - destruct (spin s t); cbn; (split; [|left; reflexivity]); [apply unspin_nocommit|]; exact C.
  - destruct (spin s t) as [b|]; [|split; [exact C | left; reflexivity]].
    destruct (ckmust s t); [cbn; split; [apply unspin_nocommit; exact C | left; reflexivity]|].
    rewrite C. destruct (Limiter.step (lim s) (AcqOn t b)) as [l' r] eqn:E. cbn.
    split; [apply unspin_nocommit; exact C|]. right. exists (AcqOn t b). rewrite E. reflexivity.
Qed.

(* every reachable state of the extended machine projects to a reachable state of Limiter: hence every theorem about
   `reach v` states of Limiter.v (never over-granted, borrowers distinct, FIFO, no free token with waiters, one slot per
   borrower, ...) is inherited by the machine whose entry check yields *)
Lemma ereach_projects v s : ereach v s -> nocommit s /\ reach v (lim s).
Proof.
  intros [ops ->].
  apply (final_project (estep false) Limiter.step lim nocommit estep_lim ops (einit v)). intros t. reflexivity.
Qed.

Theorem entry_projects_to_limiter v s : ereach v s -> reach v (lim s).
Proof. apply ereach_projects. Qed.

Theorem entry_inherits v s : ereach v s ->
  NoDup (borrowers (lim s)) /\
  (queue (lim s) <> [] -> free (borrowers (lim s)) (total (lim s)) = false) /\
  NoDup (keys (queue (lim s))) /\
  (forall b, In b (keys (queue (lim s))) -> ~ In b (borrowers (lim s))) /\
  subseq (queue (lim s)) (arrivals (lim s)).
Proof.
  intros R. apply entry_projects_to_limiter in R.
  destruct (lim_wait_queue_keys_distinct v _ R) as (A & B & _).
  refine (conj (lim_borrowers_nodup v _ R) (conj (lim_no_free_token_with_waiters v _ R) (conj A (conj B _)))).
  now apply (lim_queue_in_arrival_order v).
Qed.

(* an acquire_on_behalf_of() entered in an already effectively cancelled scope touches nothing - whatever the state of
   the limiter (tokens free or not, the borrower already holding, already queued) - and, when the delivery comes next
   (SpinCancel), ends with the cancellation;
   neither does anything the spinning task's environment does TO THAT TASK (native cancel, its own spinning steps) *)
Theorem entry_cancelled_noeffect s t b : spin s t = None -> phase_of (lim s) t = Idle ->
  let s1 := fst (estep false s (EnterCancelled t b)) in
  snd (estep false s (EnterCancelled t b)) = RBlocked /\ lim s1 = lim s /\ spin s1 t = Some b /\
  snd (estep false s1 (SpinCancel t)) = RCancelled /\ lim (fst (estep false s1 (SpinCancel t))) = lim s /\
  spin (fst (estep false s1 (SpinCancel t))) t = None.
Proof.
  intros Hs Hp. cbn [estep]. rewrite Hs, Hp. cbn. rewrite upd_same. cbn. rewrite upd_same. repeat split.
Qed.

Theorem spinner_steps_noeffect s t b o : spin s t = Some b -> op_tid o = t ->
  lim (fst (estep false s (L o))) = lim s /\
  (snd (estep false s (L o)) = RCancelled -> ckmust s t = true /\ o = Resume t).
Proof.
  intros Hs Ht. cbn [estep]. rewrite Ht, Hs.
  destruct o; cbn in Ht; subst; cbn; try (split; [reflexivity | discriminate]).
  destruct (ckmust s t); cbn; (split; [reflexivity|]); [auto | discriminate].
Qed.

(* HEAD has no step between test and take: when the check returns after its yield, the rest of the call - borrower
   test, free-token test, queue test, the take or the enqueuing - is ONE step: exactly an ordinary AcqOn on the limiter
   as it is then *)
Theorem no_step_between_test_and_take v s t b : ereach v s -> spin s t = Some b -> ckmust s t = false ->
  estep false s (SpinReturn t) =
  (unspin s (fst (Limiter.step (lim s) (AcqOn t b))) t, snd (Limiter.step (lim s) (AcqOn t b))).
Proof.
  intros R Hs Hm. destruct (ereach_projects v s R) as [C _]. cbn [estep]. rewrite Hs, Hm, C.
  destruct (Limiter.step (lim s) (AcqOn t b)); reflexivity.
Qed.

(* hence a call whose check yielded can only be granted a token that is free WHEN THE CHECK RETURNS *)
Theorem entry_grant_only_if_free v s t b : ereach v s -> spin s t = Some b -> ckmust s t = false ->
  In b (borrowers (lim (fst (estep false s (SpinReturn t))))) -> ~ In b (borrowers (lim s)) ->
  free (borrowers (lim s)) (total (lim s)) = true /\ queue (lim s) = [].
Proof.
  intros R Hs Hm Hin Hnot. rewrite (no_step_between_test_and_take v s t b R Hs Hm) in Hin.
  apply (lim_direct_grant_needs_free (lim s) t b (AcqOn t b)); auto.
Qed.

(* the order "test, check, take" (what Lock / Semaphore had before F53): total 1; task 1 finds the token free, its check
   yields; task 2 takes the token; the check returns and task 1 takes it too: 2 borrowers of 1 token *)
Definition f53_ops : list eop := [EnterCancelled 1 1; L (AcqOnNowait 2 2); SpinReturn 1].

Theorem lim_check_then_take_across_yield_refuted_pinned :
  let s := final (estep true) (einit (Some 1)) f53_ops in
  borrowers (lim s) = [1; 2] /\ total (lim s) = Some 1 /\
  snd (estep true (final (estep true) (einit (Some 1)) [EnterCancelled 1 1]) (L (AcqOnNowait 2 2))) = RDone /\
  ~ length (borrowers (lim s)) <= 1.
Proof. vm_compute. repeat split. lia. Qed.

(* the same history at HEAD: task 1 queues behind task 2's token *)
Example f53_head :
  let s := final (estep false) (einit (Some 1)) f53_ops in
  borrowers (lim s) = [2] /\ phase_of (lim s) 1 = Waiting 1 0 /\ queue (lim s) = [(1, 0)] /\ ereach (Some 1) s.
Proof. split; [reflexivity|]. split; [reflexivity|]. split; [reflexivity|]. eexists. reflexivity. Qed.

Example ex_entry_hyp :
  let s := final (estep false) (einit (Some 1)) [L (AcqOnNowait 2 2); EnterCancelled 1 7; L (Cancel 1)] in
  spin s 1 = Some 7 /\ ckmust s 1 = true /\ borrowers (lim s) = [2] /\ ereach (Some 1) s /\
  snd (estep false s (L (Resume 1))) = RCancelled /\ snd (estep false s (SpinReturn 1)) = RCancelled.
Proof. repeat split. eexists. reflexivity. Qed.

(* Lemmas about the ordered-dict operations and the counting functions used by the Lru proofs. *)
From AV Require Import Base Lru.
From Coq Require Import Sorting.Sorted.

Definition dget (k : key) (d : list slot) : option entry := option_map se (dfind k d).
Definition is_val (x : slot) : bool := negb (is_place (se x)).
Definition nval (d : list slot) : nat := length (filter is_val d).
Definition stamp_lt (a b : slot) : Prop := ss a < ss b.
Definition is_cnt (x : slot) : bool := match se x with EPlace _ true => true | _ => false end.
Definition ncnt (d : list slot) : nat := length (filter is_cnt d).

Lemma dfind_some k d x : dfind k d = Some x -> sk x = k /\ In x d.
Proof.
  induction d as [|y r IH]; cbn; [discriminate|].
  destruct (Nat.eqb_spec (sk y) k) as [E|E].
  - intros [= <-]. auto.
  - intros H. destruct (IH H). auto.
Qed.

Lemma dget_some k d e : dget k d = Some e -> exists x, dfind k d = Some x /\ se x = e /\ sk x = k /\ In x d.
Proof.
  unfold dget. destruct (dfind k d) as [x|] eqn:E; cbn; [|discriminate].
  intros [= <-]. destruct (dfind_some k d x E). eauto.
Qed.

Lemma dget_find k d x : dfind k d = Some x -> dget k d = Some (se x).
Proof. unfold dget. now intros ->. Qed.

Lemma dget_none_find k d : dfind k d = None -> dget k d = None.
Proof. unfold dget. now intros ->. Qed.

Lemma dget_cons k x r : dget k (x :: r) = if Nat.eqb (sk x) k then Some (se x) else dget k r.
Proof. unfold dget. cbn. destruct (Nat.eqb (sk x) k); reflexivity. Qed.

Lemma dget_tl k x r : sk x <> k -> dget k r = dget k (x :: r).
Proof. intros H. rewrite dget_cons. destruct (Nat.eqb_spec (sk x) k); [contradiction|reflexivity]. Qed.

Lemma dget_app k' d k e st :
  dget k' (d ++ [mkslot k e st]) =
  match dget k' d with Some y => Some y | None => if Nat.eqb k k' then Some e else None end.
Proof.
  induction d as [|y r IH]; cbn [app].
  - rewrite dget_cons. cbn. destruct (Nat.eqb k k'); reflexivity.
  - rewrite !dget_cons. destruct (Nat.eqb (sk y) k'); [reflexivity|exact IH].
Qed.

Lemma dget_dset_in_same k e d :
  dget k (dset_in k e d) = match dget k d with Some _ => Some e | None => None end.
Proof.
  induction d as [|y r IH]; cbn [dset_in]; [reflexivity|].
  destruct (Nat.eqb (sk y) k) eqn:E.
  - rewrite !dget_cons. cbn [sk se]. rewrite Nat.eqb_refl, E. reflexivity.
  - rewrite !dget_cons, E. exact IH.
Qed.

Lemma dget_dset_in_other k' k e d : k' <> k -> dget k' (dset_in k e d) = dget k' d.
Proof.
  intros N. induction d as [|y r IH]; cbn [dset_in]; [reflexivity|].
  destruct (Nat.eqb_spec (sk y) k) as [E|E].
  - rewrite !dget_cons. cbn [sk se]. rewrite E.
    destruct (Nat.eqb_spec k k'); [congruence|reflexivity].
  - rewrite !dget_cons, IH. reflexivity.
Qed.

Lemma dget_dset_in k' k e d :
  dget k' (dset_in k e d) =
  if Nat.eqb k' k then match dget k d with Some _ => Some e | None => None end else dget k' d.
Proof.
  destruct (Nat.eqb_spec k' k) as [->|N]; [apply dget_dset_in_same|now apply dget_dset_in_other].
Qed.

Lemma dget_dremove k' k d : dget k' (dremove k d) = if Nat.eqb k' k then None else dget k' d.
Proof.
  induction d as [|y r IH]; cbn [dremove filter].
  - destruct (Nat.eqb k' k); reflexivity.
  - fold (dremove k r). destruct (Nat.eqb_spec (sk y) k) as [E|E]; cbn [negb].
    + rewrite IH, dget_cons, E. destruct (Nat.eqb_spec k' k) as [->|N]; [reflexivity|].
      destruct (Nat.eqb_spec k k'); [congruence|reflexivity].
    + rewrite !dget_cons, IH. destruct (Nat.eqb_spec (sk y) k') as [E'|E'].
      * destruct (Nat.eqb_spec k' k); [congruence|reflexivity].
      * reflexivity.
Qed.

Lemma dget_dmove k' k st d : dget k' (dmove k st d) = dget k' d.
Proof.
  unfold dmove. destruct (dfind k d) as [x|] eqn:E; [|reflexivity].
  rewrite dget_app, dget_dremove. destruct (Nat.eqb_spec k' k) as [->|N].
  - rewrite Nat.eqb_refl. symmetry. apply dget_find, E.
  - destruct (dget k' d); [reflexivity|]. destruct (Nat.eqb_spec k k'); [congruence|reflexivity].
Qed.

Lemma dget_dstore k' k e st d : dget k' (dstore k e st d) = if Nat.eqb k' k then Some e else dget k' d.
Proof.
  unfold dstore. destruct (dfind k d) as [x|] eqn:E.
  - rewrite dget_dset_in. destruct (Nat.eqb k' k); [|reflexivity]. now rewrite (dget_find k d x E).
  - rewrite dget_app. destruct (Nat.eqb_spec k' k) as [->|N].
    + rewrite (dget_none_find k d E), Nat.eqb_refl. reflexivity.
    + destruct (dget k' d); [reflexivity|]. destruct (Nat.eqb_spec k k'); [congruence|reflexivity].
Qed.

Lemma in_dset_in x k e d : In x (dset_in k e d) -> In x d \/ (exists y, In y d /\ sk y = k /\ x = mkslot k e (ss y)).
Proof.
  induction d as [|y r IH]; cbn [dset_in]; [tauto|].
  destruct (Nat.eqb_spec (sk y) k) as [E|E].
  - intros [H|H]; [right; exists y; cbn; auto | left; right; exact H].
  - intros [H|H]; [left; left; exact H|].
    destruct (IH H) as [H1|(z & H1 & H2 & H3)]; [left; right; exact H1|right; exists z; cbn; auto].
Qed.

Lemma in_dremove x k d : In x (dremove k d) -> In x d /\ sk x <> k.
Proof.
  unfold dremove. rewrite filter_In. intros [H1 H2]. split; [exact H1|].
  destruct (Nat.eqb_spec (sk x) k); [discriminate|assumption].
Qed.

Lemma in_dmove x k st d :
  In x (dmove k st d) -> In x d \/ (exists y, In y d /\ sk y = k /\ x = mkslot k (se y) st).
Proof.
  unfold dmove. destruct (dfind k d) as [y|] eqn:E; [|tauto].
  intros H. apply in_app_or in H. destruct H as [H|[H|[]]].
  - left. apply (in_dremove x k d H).
  - right. destruct (dfind_some k d y E). exists y. auto.
Qed.

(* counting: nval and ncnt are `length (filter f d)` for f = is_val, is_cnt *)
Lemma count_cons {A} (f : A -> bool) x r :
  length (filter f (x :: r)) = (if f x then 1 else 0) + length (filter f r).
Proof. cbn. destruct (f x); reflexivity. Qed.

Lemma count_app {A} (f : A -> bool) d x :
  length (filter f (d ++ [x])) = length (filter f d) + (if f x then 1 else 0).
Proof. rewrite filter_app, app_length. cbn. destruct (f x); reflexivity. Qed.

Lemma count_filter_le {A} (f g : A -> bool) d : length (filter f (filter g d)) <= length (filter f d).
Proof.
  induction d as [|y r IH]; cbn [filter]; [lia|].
  destruct (g y); rewrite ?count_cons; destruct (f y); cbn [length]; lia.
Qed.

(* replacing the entry of k: a count moves by the difference between the old and the new slot *)
Lemma count_dset_in f k e d x :
  dfind k d = Some x ->
  length (filter f (dset_in k e d)) + (if f x then 1 else 0) =
  length (filter f d) + (if f (mkslot k e (ss x)) then 1 else 0).
Proof.
  induction d as [|y r IH]; cbn [dfind dset_in]; [discriminate|].
  destruct (Nat.eqb (sk y) k).
  - intros [= <-]. rewrite !count_cons. lia.
  - intros H. specialize (IH H). rewrite !count_cons. lia.
Qed.

Lemma dremove_cons k y r : dremove k (y :: r) = if Nat.eqb (sk y) k then dremove k r else y :: dremove k r.
Proof. unfold dremove. cbn. destruct (Nat.eqb (sk y) k); reflexivity. Qed.

Lemma count_dremove_found f k d x :
  dfind k d = Some x -> length (filter f (dremove k d)) + (if f x then 1 else 0) <= length (filter f d).
Proof.
  induction d as [|y r IH]; cbn [dfind]; [discriminate|]. rewrite dremove_cons, count_cons.
  destruct (Nat.eqb (sk y) k).
  - intros [= <-]. pose proof (count_filter_le f (fun x => negb (Nat.eqb (sk x) k)) r) as H. fold (dremove k r) in H. lia.
  - intros H. specialize (IH H). rewrite count_cons. lia.
Qed.

(* move_to_end keeps the entry, so it cannot raise a count that looks at the entry only *)
Lemma count_dmove_le f k st d :
  (forall x k0 st0, f (mkslot k0 (se x) st0) = f x) ->
  length (filter f (dmove k st d)) <= length (filter f d).
Proof.
  intros Hf. unfold dmove. destruct (dfind k d) as [x|] eqn:E; [|lia].
  rewrite count_app, Hf. apply (count_dremove_found f k d x E).
Qed.

Lemma nval_dmove k st d : nval (dmove k st d) <= nval d.
Proof. apply count_dmove_le. reflexivity. Qed.

Lemma ncnt_dmove k st d : ncnt (dmove k st d) <= ncnt d.
Proof. apply count_dmove_le. reflexivity. Qed.

Lemma nval_dset_in_place k l b d x :
  dfind k d = Some x -> is_val x = true -> nval (dset_in k (EPlace l b) d) + 1 <= nval d.
Proof.
  intros E Hv. pose proof (count_dset_in is_val k (EPlace l b) d x E) as H. rewrite Hv in H. cbn in H. unfold nval. lia.
Qed.

Lemma nval_dstore k e st d : nval (dstore k e st d) <= nval d + 1.
Proof.
  unfold nval, dstore. destruct (dfind k d) as [x|] eqn:E.
  - pose proof (count_dset_in is_val k e d x E). destruct (is_val x), (is_val (mkslot k e (ss x))); lia.
  - rewrite count_app. destruct (is_val _); lia.
Qed.

Lemma sorted_app_last d x :
  StronglySorted stamp_lt d -> (forall y, In y d -> ss y < ss x) -> StronglySorted stamp_lt (d ++ [x]).
Proof.
  induction 1 as [|y r Hs IH Hf]; intros Hb; cbn.
  - constructor; [constructor|constructor].
  - constructor.
    + apply IH. intros z Hz. apply Hb. now right.
    + rewrite Forall_forall in *. intros z Hz. apply in_app_or in Hz. destruct Hz as [Hz|[<-|[]]].
      * apply Hf, Hz.
      * apply Hb. now left.
Qed.

Lemma sorted_filter f d : StronglySorted stamp_lt d -> StronglySorted stamp_lt (filter f d).
Proof.
  induction 1 as [|y r Hs IH Hf]; cbn; [constructor|].
  destruct (f y); [|exact IH]. constructor; [exact IH|].
  rewrite Forall_forall in *. intros z Hz. apply filter_In in Hz. apply Hf, Hz.
Qed.

Lemma sorted_dset_in k e d : StronglySorted stamp_lt d -> StronglySorted stamp_lt (dset_in k e d).
Proof.
  induction 1 as [|y r Hs IH Hf]; cbn [dset_in]; [constructor|].
  destruct (Nat.eqb (sk y) k).
  - constructor; [exact Hs|]. rewrite Forall_forall in *. intros z Hz. unfold stamp_lt. cbn. apply Hf, Hz.
  - constructor; [exact IH|]. rewrite Forall_forall in *. intros z Hz.
    apply in_dset_in in Hz. destruct Hz as [Hz|(w & Hw & _ & ->)]; [apply Hf, Hz|].
    unfold stamp_lt. cbn. apply Hf, Hw.
Qed.

Lemma sorted_tl d : StronglySorted stamp_lt d -> StronglySorted stamp_lt (tl d).
Proof. destruct 1; cbn; [constructor|assumption]. Qed.

Lemma sorted_head_min x r y : StronglySorted stamp_lt (x :: r) -> In y (x :: r) -> ss x <= ss y.
Proof.
  intros H [<-|Hy]; [lia|]. inversion H as [|a b Hs Hf]; subst.
  rewrite Forall_forall in Hf. specialize (Hf y Hy). unfold stamp_lt in Hf. lia.
Qed.

Definition cnt (f : nat -> bool) (l : list nat) : nat := length (filter f l).

Lemma cnt_ext f g l : (forall x, In x l -> f x = g x) -> cnt f l = cnt g l.
Proof.
  unfold cnt. induction l as [|a r IH]; cbn; [reflexivity|]. intros H.
  rewrite (H a) by now left. destruct (g a); cbn; rewrite IH; auto.
Qed.

Lemma cnt_upd {A} (g : A -> bool) (ph : nat -> A) c p l :
  NoDup l -> In c l ->
  cnt (fun x => g (upd ph c p x)) l + (if g (ph c) then 1 else 0) =
  cnt (fun x => g (ph x)) l + (if g p then 1 else 0).
Proof.
  unfold cnt. induction l as [|a r IH]; intros Hn Hin; [contradiction|].
  inversion Hn as [|a' r' Ha Hr]; subst. cbn [filter].
  destruct (Nat.eq_dec a c) as [->|Hne].
  - rewrite upd_same.
    assert (E : filter (fun x => g (upd ph c p x)) r = filter (fun x => g (ph x)) r).
    { apply filter_ext_in. intros x Hx. rewrite upd_other; [reflexivity|]. intros ->. contradiction. }
    rewrite E. destruct (g p), (g (ph c)); cbn; lia.
  - rewrite upd_other by assumption. destruct Hin as [Hin|Hin]; [contradiction|].
    specialize (IH Hr Hin). destruct (g (ph a)); cbn; lia.
Qed.

Lemma cnt_zero f l : (forall x, In x l -> f x = false) -> cnt f l = 0.
Proof.
  unfold cnt. induction l as [|a r IH]; cbn; [reflexivity|]. intros H.
  rewrite (H a) by now left. apply IH. intros x Hx. apply H. now right.
Qed.

(* keys are unique *)
Definition keys (d : list slot) : list key := map sk d.

Lemma keys_dset_in k e d : keys (dset_in k e d) = keys d.
Proof.
  unfold keys. induction d as [|y r IH]; cbn [dset_in map]; [reflexivity|].
  destruct (Nat.eqb_spec (sk y) k) as [E|E]; cbn [map sk]; [now rewrite E|now rewrite IH].
Qed.

Lemma dfind_none_keys k d : dfind k d = None -> ~ In k (keys d).
Proof.
  unfold keys. induction d as [|y r IH]; cbn; [tauto|].
  destruct (Nat.eqb_spec (sk y) k) as [E|E]; [discriminate|].
  intros H [H1|H1]; [contradiction|]. now apply IH.
Qed.

Lemma in_keys x d : In x d -> In (sk x) (keys d).
Proof. unfold keys. apply in_map. Qed.

Lemma nodup_app_one d k : NoDup (keys d) -> ~ In k (keys d) -> forall e st, NoDup (keys (d ++ [mkslot k e st])).
Proof.
  intros Hn Hk e st. unfold keys in *. rewrite map_app. now apply NoDup_snoc.
Qed.

Lemma keys_dremove k d : keys (dremove k d) = filter (fun x => negb (Nat.eqb x k)) (keys d).
Proof.
  unfold keys, dremove. induction d as [|y r IH]; cbn; [reflexivity|].
  destruct (negb (Nat.eqb (sk y) k)); cbn; now rewrite IH.
Qed.

Lemma nodup_dmove k st d : NoDup (keys d) -> NoDup (keys (dmove k st d)).
Proof.
  intros Hn. unfold dmove. destruct (dfind k d) as [x|]; [|exact Hn].
  apply nodup_app_one.
  - rewrite keys_dremove. now apply NoDup_filter.
  - rewrite keys_dremove, filter_In. intros [_ H]. now rewrite Nat.eqb_refl in H.
Qed.

Lemma nodup_dstore k e st d : NoDup (keys d) -> NoDup (keys (dstore k e st d)).
Proof.
  intros Hn. unfold dstore. destruct (dfind k d) as [x|] eqn:E.
  - now rewrite keys_dset_in.
  - apply nodup_app_one; [exact Hn|now apply dfind_none_keys].
Qed.

Lemma dget_tl_nodup x r : NoDup (keys (x :: r)) -> dget (sk x) r = None.
Proof.
  intros Hn. inversion Hn as [|a l Ha Hl]; subst.
  destruct (dget (sk x) r) as [e|] eqn:E; [|reflexivity]. exfalso.
  destruct (dget_some _ _ _ E) as (y & _ & _ & Hk & Hin). apply Ha. rewrite <- Hk. apply in_keys, Hin.
Qed.

Lemma dget_tl_cases k x r : NoDup (keys (x :: r)) -> dget k r = dget k (x :: r) \/ dget k r = None.
Proof.
  intros Hn. destruct (Nat.eq_dec (sk x) k) as [<-|N]; [right; now apply dget_tl_nodup|left; now apply dget_tl].
Qed.

Lemma dset_in_absent k e d : dfind k d = None -> dset_in k e d = d.
Proof.
  induction d as [|y r IH]; cbn; [reflexivity|]. destruct (Nat.eqb (sk y) k); [discriminate|].
  intros H. now rewrite IH.
Qed.

Lemma keys_dmark k d : keys (dmark k d) = keys d.
Proof.
  unfold dmark. destruct (dfind k d) as [x|]; [|reflexivity]. destruct (se x); [apply keys_dset_in|reflexivity].
Qed.

Lemma dget_dmark k' k d :
  dget k' (dmark k d) =
  if Nat.eqb k' k then match dget k d with Some (EPlace l _) => Some (EPlace l true) | o => o end else dget k' d.
Proof.
  unfold dmark. destruct (dfind k d) as [x|] eqn:E.
  - rewrite (dget_find k d x E). destruct (se x) as [l b|v e] eqn:Hse.
    + rewrite dget_dset_in, (dget_find k d x E). reflexivity.
    + destruct (Nat.eqb_spec k' k) as [->|N]; [rewrite (dget_find k d x E), Hse|]; reflexivity.
  - rewrite (dget_none_find k d E). destruct (Nat.eqb_spec k' k) as [->|N]; [apply dget_none_find, E|reflexivity].
Qed.

Lemma in_dmark x k d :
  In x (dmark k d) ->
  In x d \/ (exists y z l b, In y d /\ In z d /\ sk z = k /\ se z = EPlace l b /\
                            x = mkslot k (EPlace l true) (ss y)).
Proof.
  unfold dmark. destruct (dfind k d) as [z|] eqn:E; [|tauto]. destruct (se z) as [l b|v e] eqn:Hse; [|tauto].
  intros H. apply in_dset_in in H. destruct H as [H|(y & Hy & Hk & ->)]; [left; exact H|].
  right. destruct (dfind_some k d z E) as [Hz1 Hz2]. exists y, z, l, b. auto 6.
Qed.

Lemma dremove_absent k d : ~ In k (keys d) -> dremove k d = d.
Proof.
  induction d as [|y r IH]; cbn [dremove filter keys map]; [reflexivity|]. intros H. fold (dremove k r).
  destruct (Nat.eqb_spec (sk y) k) as [E|E]; cbn [negb].
  - exfalso. apply H. now left.
  - f_equal. apply IH. intros H'. apply H. now right.
Qed.

Lemma count_dremove_nodup f k d x :
  NoDup (keys d) -> dfind k d = Some x ->
  length (filter f (dremove k d)) + (if f x then 1 else 0) = length (filter f d).
Proof.
  induction d as [|y r IH]; cbn [dfind]; [discriminate|]. intros Hn. inversion Hn as [|a b Ha Hb]; subst.
  rewrite dremove_cons, count_cons. destruct (Nat.eqb_spec (sk y) k) as [E|E].
  - intros [= <-]. rewrite dremove_absent by (rewrite <- E; exact Ha). lia.
  - intros H. specialize (IH Hb H). rewrite count_cons. lia.
Qed.

Lemma count_dmove f k st d :
  (forall x k0 st0, f (mkslot k0 (se x) st0) = f x) -> NoDup (keys d) ->
  length (filter f (dmove k st d)) = length (filter f d).
Proof.
  intros Hf Hn. unfold dmove. destruct (dfind k d) as [x|] eqn:E; [|reflexivity].
  rewrite count_app, Hf. apply (count_dremove_nodup f k d x Hn E).
Qed.

Lemma nodup_in_dget d x : NoDup (keys d) -> In x d -> dget (sk x) d = Some (se x).
Proof.
  induction d as [|y r IH]; intros Hn Hx; [contradiction|]. rewrite dget_cons.
  inversion Hn as [|a b Ha Hb]; subst. destruct Hx as [->|Hx]; [now rewrite Nat.eqb_refl|].
  destruct (Nat.eqb_spec (sk y) (sk x)) as [E|E]; [|now apply IH].
  exfalso. apply Ha. rewrite E. apply in_keys, Hx.
Qed.

(* what the dict operations do to nval + ncnt, the number currsize stands for *)
Lemma counts_app d k l st : nval (d ++ [mkslot k (EPlace l false) st]) + ncnt (d ++ [mkslot k (EPlace l false) st]) = nval d + ncnt d.
Proof. unfold nval, ncnt. rewrite !count_app. cbn. lia. Qed.

Lemma counts_dmove k st d : NoDup (keys d) -> nval (dmove k st d) + ncnt (dmove k st d) = nval d + ncnt d.
Proof. intros Hn. unfold nval, ncnt. now rewrite !count_dmove by (reflexivity || assumption). Qed.

(* a value gives way to an uncounted placeholder *)
Lemma counts_unset k l d x v e :
  dfind k d = Some x -> se x = EVal v e ->
  S (nval (dset_in k (EPlace l false) d) + ncnt (dset_in k (EPlace l false) d)) = nval d + ncnt d.
Proof.
  intros E Hse. pose proof (count_dset_in is_val k (EPlace l false) d x E) as H1.
  pose proof (count_dset_in is_cnt k (EPlace l false) d x E) as H2.
  replace (is_val x) with true in H1 by (unfold is_val; now rewrite Hse).
  replace (is_cnt x) with false in H2 by (unfold is_cnt; now rewrite Hse). cbn in H1, H2. unfold nval, ncnt. lia.
Qed.

(* a counted placeholder gives way to its value *)
Lemma counts_dstore k v e st d l :
  dget k d = Some (EPlace l true) ->
  nval (dstore k (EVal v e) st d) + ncnt (dstore k (EVal v e) st d) = nval d + ncnt d.
Proof.
  intros Hg. destruct (dget_some _ _ _ Hg) as (x & E & Hse & _). unfold dstore. rewrite E.
  pose proof (count_dset_in is_val k (EVal v e) d x E) as H1. pose proof (count_dset_in is_cnt k (EVal v e) d x E) as H2.
  replace (is_val x) with false in H1 by (unfold is_val; now rewrite Hse).
  replace (is_cnt x) with true in H2 by (unfold is_cnt; now rewrite Hse). cbn in H1, H2. unfold nval, ncnt. lia.
Qed.

(* the ghost mark counts the placeholder of k, if it was not yet counted *)
Lemma counts_dmark_place k d x l b :
  dfind k d = Some x -> se x = EPlace l b ->
  nval (dmark k d) + ncnt (dmark k d) + (if b then 1 else 0) = S (nval d + ncnt d).
Proof.
  intros E Hse. unfold dmark. rewrite E, Hse.
  pose proof (count_dset_in is_val k (EPlace l true) d x E) as H1.
  pose proof (count_dset_in is_cnt k (EPlace l true) d x E) as H2.
  replace (is_val x) with false in H1 by (unfold is_val; now rewrite Hse).
  replace (is_cnt x) with b in H2 by (unfold is_cnt; rewrite Hse; now destruct b).
  cbn in H1, H2. unfold nval, ncnt. destruct b; lia.
Qed.

Lemma counts_dmark_le k d : nval (dmark k d) + ncnt (dmark k d) <= S (nval d + ncnt d).
Proof.
  destruct (dfind k d) as [x|] eqn:E; [destruct (se x) as [l b|v e] eqn:Hse|].
  - pose proof (counts_dmark_place k d x l b E Hse). lia.
  - unfold dmark. rewrite E, Hse. lia.
  - unfold dmark. rewrite E. lia.
Qed.

Lemma counts_dmark_uncounted k d l :
  dget k d = Some (EPlace l false) -> nval (dmark k d) + ncnt (dmark k d) = S (nval d + ncnt d).
Proof.
  intros H. destruct (dget_some _ _ _ H) as (x & E & Hse & _). rewrite <- (counts_dmark_place k d x l false E Hse). apply eq_sym, Nat.add_0_r.
Qed.

(* the head, if it counts, makes room for the one placeholder the ghost mark may count *)
Lemma counts_cons_counted x r : is_val x = true \/ is_cnt x = true -> nval (x :: r) + ncnt (x :: r) = S (nval r + ncnt r).
Proof.
  unfold nval, ncnt, is_val, is_cnt. rewrite !count_cons. unfold is_val, is_cnt.
  destruct (se x) as [l [|]|v e]; cbn; intros [H|H]; try discriminate; lia.
Qed.

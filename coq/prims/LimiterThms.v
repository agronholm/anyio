(* C10 clauses for the CapacityLimiter machine, over every op sequence. *)
(* `tainted s = false` (where it appears) excludes exactly one kind of history: release_on_behalf_of(b) was
   called while the acquire call that obtained b's token had not returned yet (O2).  Duplicate borrowers among
   concurrent acquire_on_behalf_of calls are covered by every theorem (F16: the second caller is refused). *)
From AV Require Import Base C10Defs C10Lib Limiter LimiterProofs.
From Coq Require Import Permutation.

Definition reach (v : option nat) (s : st) : Prop := exists ops, s = final step (init v) ops.

Lemma reach_inv0 v s : reach v s -> tainted s = false -> Inv0 s.
Proof. intros [ops ->]. apply reachable_inv. Qed.

Lemma reach_step v s o : reach v s -> reach v (fst (step s o)).
Proof. exact (reach_step step (init v) s o). Qed.

(* n <= total, total possibly infinite *)
Definition xle (n : nat) (tot : option nat) : Prop := match tot with None => True | Some m => n <= m end.

(* small facts about the token-moving functions *)
Lemma set_add_len b l : length (set_add b l) <= S (length l).
Proof. unfold set_add. destruct (mem b l); cbn; lia. Qed.

Lemma set_add_nodup b l : NoDup l -> NoDup (set_add b l).
Proof.
  intros H. unfold set_add. destruct (mem b l) eqn:E; [exact H|]. apply mem_false in E. now constructor.
Qed.

Lemma in_set_add b l x : In x (set_add b l) <-> x = b \/ In x l.
Proof.
  unfold set_add. destruct (mem b l) eqn:E; cbn.
  - apply mem_In in E. split; [tauto|]. intros [->|H]; auto.
  - split; intros [H|H]; auto.
Qed.

Lemma free_xle bs tot : free bs tot = true -> xle (S (length bs)) tot.
Proof. destruct tot as [m|]; cbn; [|trivial]. intros H. apply Nat.ltb_lt in H. lia. Qed.

(* a borrower never holds two tokens: the borrower list is duplicate-free in EVERY reachable
   state (also outside the stated input domain) *)
Lemma grant_nodup : grant_closed (fun s => NoDup (borrowers s)).
Proof. intros s bs b e r ev rv _. cbn. apply set_add_nodup. Qed.

Lemma wake_free_nodup v q : forall bs ev rv, NoDup bs ->
  match wake_free v q bs ev rv with (_, bs', _, _) => NoDup bs' end.
Proof.
  intros bs ev rv H. pose proof (wake_free_closed _ (init v) grant_nodup q bs ev rv H) as W. cbn [total init] in W.
  destruct (wake_free v q bs ev rv) as [[[q' bs'] ev'] rv']. apply W.
Qed.

Lemma give_back_nodup s b : NoDup (borrowers s) -> NoDup (borrowers (give_back s b)).
Proof. intros H. apply (notify_closed _ _ grant_nodup). cbn. now apply nodup_remove_one. Qed.

Lemma reach_uinv v s : reach v s -> Uinv s.
Proof. intros [ops ->]. apply reachable_uinv. Qed.

Theorem lim_borrowers_nodup v s : reach v s -> NoDup (borrowers s).
Proof. intros R. apply (U_bnd _ (U_core _ (reach_uinv v s R))). Qed.

(* a token is granted only when one is free *)
(* no borrower that s0 does not have, or the borrowers fit into total_tokens *)
Definition fits (s0 s : st) : Prop :=
  (forall b, In b (borrowers s) -> In b (borrowers s0)) \/ xle (length (borrowers s)) (total s).

Lemma grant_fits s0 : grant_closed (fits s0).
Proof.
  intros s bs b e r ev rv Hf _. right. cbn. apply free_xle in Hf. pose proof (set_add_len b bs).
  destruct (total s); cbn in *; [lia|trivial].
Qed.

(* every step (of any kind, from any state): either no new borrower appears, or afterwards the borrowers
   fit into total_tokens - i.e. the last token handed out in the step was free when it was handed out *)
Theorem lim_grant_only_if_free s o :
  let s' := fst (step s o) in
  (forall b, In b (borrowers s') -> In b (borrowers s)) \/ xle (length (borrowers s')) (total s').
Proof.
  cbv zeta. pose proof (step_cases s o) as K. destruct (step s o) as [s' r]. cbn [fst snd] in *.
  change (fits s s'). destruct K as [| |t b Hp Hb Hq Hf|t b Hb Hq Hf|t b| | |t b q| | |t v]; try (now left).
  - right. now apply free_xle.
  - right. now apply free_xle.
  - apply notify_closed; [apply grant_fits|]. left. cbn. intros x. apply in_remove_one_incl.
  - apply notify_closed; [apply grant_fits|]. left. cbn. intros x. apply in_remove_one_incl.
  - apply (set_total_closed _ s v (grant_fits s)). now left.
Qed.

(* a direct (non-queued) grant needs a free token AND an empty queue: no barging *)
Theorem lim_direct_grant_needs_free s t b o :
  o = AcqOn t b \/ o = AcqOnNowait t b ->
  In b (borrowers (fst (step s o))) -> ~ In b (borrowers s) ->
  free (borrowers s) (total s) = true /\ queue s = [].
Proof.
  intros Ho Hin Hn. pose proof (step_cases s o) as K. destruct (step s o) as [s' r]. cbn [fst snd] in *.
  destruct K; destruct Ho as [Ho|Ho]; try discriminate Ho; try contradiction; injection Ho as -> ->; auto.
Qed.

Lemma step_case_total s o s' r :
  step_case s o s' r -> total s' = total s \/ exists t x, o = SetTotal t x /\ total s' = x.
Proof. destruct 1; try rewrite notify_frame; try rewrite set_total_frame; cbn; eauto. Qed.

(* one step: `borrowed <= total` is preserved by every step except an assignment of total_tokens below the
   number borrowed at that moment; in particular, once it holds again after such a lowering it keeps holding *)
Theorem lim_within_total_preserved v s o : reach v s ->
  xle (length (borrowers s)) (total s) ->
  (forall t x, o = SetTotal t x -> xle (length (borrowers s)) x) ->
  xle (length (borrowers (fst (step s o)))) (total (fst (step s o))).
Proof.
  intros R Hle Hset. destruct (lim_grant_only_if_free s o) as [Hincl|H]; [|exact H].
  pose proof (lim_borrowers_nodup v _ (reach_step v s o R)) as Hn.
  assert (Hlen : length (borrowers (fst (step s o))) <= length (borrowers s))
    by (apply NoDup_incl_length; [exact Hn|exact Hincl]).
  pose proof (step_case_total _ _ _ _ (step_cases s o)) as Htot.
  destruct Htot as [->|(t & x & -> & ->)].
  - destruct (total s); cbn in *; [lia|trivial].
  - specialize (Hset t x eq_refl). destruct x; cbn in *; [lia|trivial].
Qed.

(* a step that only ADDS borrowers (nobody leaves, total_tokens unchanged) starts from borrowed < total:
   no step ever adds a borrower while borrowed >= total - in every reachable state, also over capacity *)
Theorem lim_no_borrower_added_when_full v s o : reach v s ->
  total (fst (step s o)) = total s ->
  (forall b, In b (borrowers s) -> In b (borrowers (fst (step s o)))) ->
  (exists b, In b (borrowers (fst (step s o))) /\ ~ In b (borrowers s)) ->
  free (borrowers s) (total s) = true.
Proof.
  intros R Et Hkeep (b & Hb & Hnb).
  pose proof (lim_borrowers_nodup v s R) as Hn.
  destruct (lim_grant_only_if_free s o) as [Hincl|H]; [exfalso; apply Hnb, Hincl, Hb|].
  assert (Hlen : length (b :: borrowers s) <= length (borrowers (fst (step s o)))).
  { apply NoDup_incl_length; [now constructor|]. intros x [<-|Hx]; [exact Hb|now apply Hkeep]. }
  rewrite Et in H. unfold free. destruct (total s) as [m|]; [|reflexivity].
  cbn in H, Hlen. apply Nat.ltb_lt. lia.
Qed.

(* the reachable-state form: in every run in which total_tokens is never assigned a value below the number
   of tokens borrowed at that moment, `borrowed <= total` holds in every state of the run.
   (Without that proviso over-capacity states ARE reachable - ex_over_capacity_reachable - and then only
   shrink: lim_grant_only_if_free, lim_no_borrower_added_when_full.) *)
Fixpoint never_lowered_below_borrowed (s : st) (ops : list op) : Prop :=
  match ops with
  | [] => True
  | o :: r => (forall t x, o = SetTotal t x -> xle (length (borrowers s)) x) /\
              never_lowered_below_borrowed (fst (step s o)) r
  end.

Lemma never_over_granted_from v ops : forall s, reach v s -> xle (length (borrowers s)) (total s) ->
  never_lowered_below_borrowed s ops ->
  xle (length (borrowers (final step s ops))) (total (final step s ops)).
Proof.
  induction ops as [|o r IH]; intros s R Hle Hok; cbn; [exact Hle|].
  destruct Hok as [H1 H2]. apply IH; [now apply reach_step| |exact H2].
  now apply (lim_within_total_preserved v).
Qed.

Theorem lim_never_over_granted v ops : never_lowered_below_borrowed (init v) ops ->
  xle (length (borrowers (final step (init v) ops))) (total (final step (init v) ops)).
Proof.
  intros Hok. apply (never_over_granted_from v); [exists []; reflexivity| |exact Hok].
  cbn. destruct v; cbn; [lia|trivial].
Qed.

(* the pre-fix setter (wake max(new - old, 0) waiters) refutes the clause: 2 borrowers, total := 0, two
   waiters queue, total := 2  =>  4 borrowers of 2 (finding F1), inside the stated input domain *)
Definition f1_ops : list op :=
  [AcqOnNowait 1 1; AcqOnNowait 2 2; SetTotal 1 (Some 0); AcqOn 3 3; AcqOn 4 4; SetTotal 1 (Some 2)].

Theorem lim_grant_only_if_free_refuted_pinned :
  exists ops, let s := final step_pinned (init (Some 2)) ops in
    length (borrowers s) = 4 /\ total s = Some 2 /\ tainted s = false /\
    ~ ((forall b, In b (borrowers s) -> In b (borrowers (final step_pinned (init (Some 2)) (removelast ops)))) \/
       xle (length (borrowers s)) (total s)).
Proof.
  exists f1_ops. vm_compute. refine (conj eq_refl (conj eq_refl (conj eq_refl _))).
  intros [H|H]; [|lia]. specialize (H 4). destruct H as [H|[H|H]]; try discriminate; [now left|contradiction].
Qed.

Example f1_fixed_at_head :
  let s := final step (init (Some 2)) f1_ops in
  length (borrowers s) = 2 /\ total s = Some 2 /\ length (queue s) = 2.
Proof. vm_compute. auto. Qed.

(* the reported counts are the true counts *)
(* borrowers = (borrowers whose acquire returned and who were not released since) + (borrowers for which a
   task owns a token inside an unfinished acquire call: shielded yield, or woken and not yet run);
   the wait queue = the waiting calls that were not granted a token *)
Theorem lim_counts_true v s : reach v s -> tainted s = false ->
  NoDup (borrowers s) /\
  (forall b, In b (borrowers s) <-> In b (held s) \/ In b (resv s)) /\
  (forall b, In b (held s) -> ~ In b (resv s)) /\
  length (borrowers s) = length (held s) + length (resv s) /\
  (forall b, In b (resv s) <->
     exists t, phase_of s t = FastYield b \/ exists e, phase_of s t = Waiting b e /\ evset s e = true) /\
  (forall b e, In (b, e) (queue s) <-> (exists t, phase_of s t = Waiting b e) /\ evset s e = false) /\
  NoDup (keys (queue s)) /\
  (* what the API reports (the observation compared with the implementation on every step) *)
  (forall r, nth 1 (observe s r) 0%Z = nz (length (held s) + length (resv s))) /\
  avail_code s = match total s with
                 | None => inf_code
                 | Some n => (nz n - nz (length (held s) + length (resv s)))%Z
                 end.
Proof.
  intros R Ht. destruct (reach_inv0 v s R Ht) as [C _].
  assert (Hlen : length (borrowers s) = length (held s) + length (resv s))
    by (rewrite <- app_length; apply Permutation_length, core_acct, C).
  refine (conj (L_bnd _ C) (conj (L_split _ C) (conj (L_disj _ C) (conj Hlen (conj (L_resv _ C)
          (conj (L_q _ C) (conj (L_qnd _ C) (conj _ _)))))))).
  - intros r. cbn. now rewrite Hlen.
  - unfold avail_code. now rewrite Hlen.
Qed.

(* the ghost `held` is what it claims: a returned acquire for b adds b, an accepted release of b removes it *)
Theorem lim_held_tracks_returns s o s' r : step s o = (s', r) ->
  match r with
  | RDone =>
      (exists t b, (o = AcqOnNowait t b \/ (o = Resume t /\ inprog s t b)) /\ held s' = b :: held s) \/
      (exists t b, o = RelOn t b /\ In b (borrowers s) /\ held s' = remove_one b (held s)) \/
      (exists t x, o = SetTotal t x /\ held s' = held s)
  | _ => held s' = held s
  end.
Proof.
  intros E. pose proof (step_cases s o) as K. rewrite E in K. cbn [fst snd] in K.
  destruct K as [o r Hr| | |t b|t b| |t b Hp|t b q| | |t v]; try reflexivity.
  - destruct r; try reflexivity. now contradiction Hr.
  - left. exists t, b. auto.
  - right. left. exists t, b. rewrite notify_frame. auto.
  - left. exists t, b. split; [right; split; [reflexivity|now apply resv_inprog]|reflexivity].
  - now rewrite notify_frame.
  - right. right. exists t, v. now rewrite set_total_frame.
Qed.

(* first come first served *)
(* every reachable state, also with duplicate borrowers and after misuse O2 (no `tainted` hypothesis) *)
Theorem lim_queue_in_arrival_order v s : reach v s -> subseq (queue s) (arrivals s).
Proof. intros R. apply (U_fifo _ (U_core _ (reach_uinv v s R))). Qed.

Theorem lim_arrival_log_append_only s o : exists l, arrivals (fst (step s o)) = arrivals s ++ l.
Proof.
  pose proof (step_cases s o) as K. destruct (step s o) as [s' r]. cbn [fst snd] in *.
  destruct K; try rewrite notify_frame; try rewrite set_total_frame; try (eexists; reflexivity);
    exists []; now rewrite app_nil_r.
Qed.

(* a token passed on by release / by a cancelled grantee goes to the HEAD of the queue, and only if free *)
Theorem lim_notify_serves_head s :
  notify_next s = s \/
  exists b e, queue s = (b, e) :: queue (notify_next s) /\ free (borrowers s) (total s) = true /\
              borrowers (notify_next s) = set_add b (borrowers s) /\
              evset (notify_next s) = upd (evset s) e true /\ resv (notify_next s) = b :: resv s.
Proof.
  destruct (notify_cases s) as [E|(b & e & r & Eq & Ef & E)]; [now left|right].
  exists b, e. rewrite E. cbn. auto.
Qed.

(* what the setter has served of the queue of s0 is a prefix of it, in order *)
Definition served (s0 s : st) : Prop :=
  exists pre, queue s0 = pre ++ queue s /\
    forall b, In b (borrowers s) <-> In b (borrowers s0) \/ In b (keys pre).

Lemma grant_served s0 : grant_closed (served s0).
Proof.
  intros s bs b e r ev rv _ (pre & Eq & Hb). cbn in Eq, Hb. exists (pre ++ [(b, e)]). cbn. split.
  - now rewrite <- app_assoc.
  - intros x. unfold keys in *. rewrite in_set_add, Hb, map_app, in_app_iff. cbn. intuition (subst; auto).
Qed.

Theorem lim_set_total_serves_prefix s x :
  exists pre, queue s = pre ++ queue (set_total s x) /\ total (set_total s x) = x /\
    (forall b, In b (borrowers (set_total s x)) <-> In b (borrowers s) \/ In b (keys pre)) /\
    (queue (set_total s x) <> [] -> free (borrowers (set_total s x)) x = false).
Proof.
  destruct (set_total_closed _ s x (grant_served s)) as [(pre & Eq & Hb) Hf].
  { exists []. cbn. split; [reflexivity|tauto]. }
  exists pre. rewrite set_total_frame at 2. auto.
Qed.

(* while somebody queues no token is free (no lost wake-up): every reachable state, no `tainted` hypothesis *)
Theorem lim_no_free_token_with_waiters v s : reach v s ->
  queue s <> [] -> free (borrowers s) (total s) = false.
Proof.
  intros R Hq. pose proof (U_nofree _ (reach_uinv v s R)) as N. specialize (N Hq).
  unfold free. destruct (total s) as [m|]; [|contradiction]. apply Nat.ltb_ge. lia.
Qed.

(* the wait queue has at most one slot per borrower and a queued borrower holds no token - in EVERY reachable
   state; and (unless release_on_behalf_of was misused, O2) at most one task is inside an acquire call for a
   given borrower, duplicates included: the second caller is refused, see lim_waiting_borrower_rejected *)
Theorem lim_wait_queue_keys_distinct v s : reach v s ->
  NoDup (keys (queue s)) /\
  (forall b, In b (keys (queue s)) -> ~ In b (borrowers s)) /\
  (tainted s = false -> forall t1 t2 b, inprog s t1 b -> inprog s t2 b -> t1 = t2).
Proof.
  intros R. pose proof (U_core _ (reach_uinv v s R)) as C.
  refine (conj (U_qnd _ C) (conj (U_qb _ C) _)). intros Ht. destruct (reach_inv0 v s R Ht) as [C0 _].
  apply (L_uniq _ C0).
Qed.

(* a borrower that already has a slot in the wait queue is refused: RuntimeError, nothing changes
   (acquire_on_behalf_of_nowait keeps answering WouldBlock) *)
Theorem lim_waiting_borrower_rejected s t b :
  phase_of s t = Idle -> In b (keys (queue s)) -> ~ In b (borrowers s) ->
  step s (AcqOn t b) = (s, RRuntime) /\ step s (AcqOnNowait t b) = (s, RWouldBlock).
Proof.
  intros Hp Hk Hb. assert (Hbusy : busy s = true).
  { unfold busy. destruct (queue s); [destruct Hk|reflexivity]. }
  apply mem_false in Hb. unfold step; cbn [step_gen]. rewrite Hp, Hb, Hbusy. cbn [is_idle negb].
  unfold enq_head. apply mem_In in Hk. rewrite Hk. auto.
Qed.

(* the same in terms of tasks: while some task waits (without a token) on behalf of b, every further
   acquire_on_behalf_of(b) is refused and leaves the state unchanged *)
Theorem lim_second_waiter_rejected v s t u b e : reach v s -> tainted s = false ->
  phase_of s u = Waiting b e -> evset s e = false -> phase_of s t = Idle ->
  step s (AcqOn t b) = (s, RRuntime).
Proof.
  intros R Ht Hu He Hp. destruct (reach_inv0 v s R Ht) as [C _].
  assert (Hin : In (b, e) (queue s)) by (apply (L_q _ C); split; eauto).
  apply lim_waiting_borrower_rejected; [exact Hp|eapply in_keys; eauto|].
  apply (L_qb _ C). eapply in_keys; eauto.
Qed.

Theorem lim_no_lost_waiter v s t b e : reach v s -> tainted s = false ->
  phase_of s t = Waiting b e -> evset s e = false ->
  In (b, e) (queue s) /\ free (borrowers s) (total s) = false.
Proof.
  intros R Ht Hp He. destruct (reach_inv0 v s R Ht) as [C _].
  assert (Hin : In (b, e) (queue s)) by (apply (L_q _ C); split; eauto).
  split; [exact Hin|]. apply (lim_no_free_token_with_waiters v s R). intros E. rewrite E in Hin. destruct Hin.
Qed.

(* F16 (fixed in /repo by 44feca9): before the fix the second waiter for a borrower overwrote the first one's
   slot.  Witness A ("restart"): total 1 taken by 12; task 1 waits for 11 and is cancelled; in the same cycle
   task 2 asks for 11 and overwrites the slot; task 1's cancellation handler pops the slot (now task 2's);
   12 is released: task 2 stays blocked for ever with an empty queue and a free token.
   Witness B (two plain waiters): the token released by 12 goes to the SECOND caller (task 2) while the first
   one (task 1) has lost its slot: tasks_waiting = 0 with task 1 blocked. *)
Definition f16a_ops : list op :=
  [AcqOnNowait 3 12; AcqOn 1 11; Cancel 1; AcqOn 2 11; Resume 1; RelOn 3 12].
Definition f16b_ops : list op :=
  [AcqOnNowait 3 12; AcqOn 1 11; AcqOn 2 11; RelOn 3 12].

Theorem lim_duplicate_waiter_refuted_pinned :
  (* A: refutes lim_no_lost_waiter on the pre-fix step: untainted, task 2 blocked without a token, and yet it
     owns no slot of the wait queue and a token is free *)
  (exists ops, let s := final step_f16_pinned (init (Some 1)) ops in
     tainted s = false /\
     phase_of s 2 = Waiting 11 1 /\ evset s 1 = false /\ fcanc s 2 = false /\ mustc s 2 = false /\
     ~ In (11, 1) (queue s) /\ free (borrowers s) (total s) = true /\
     queue s = [] /\ borrowers s = [] /\ phase_of s 1 = Idle) /\
  (* B: refutes lim_wait_queue_keys_distinct (one task per borrower), lim_no_lost_waiter and first come first
     served on the pre-fix step: untainted, tasks 1 and 2 both wait for 11, the token went to the LATER arrival
     (11,1) while the earlier one (11,0), never cancelled, has no slot any more *)
  (exists ops, let s := final step_f16_pinned (init (Some 1)) ops in
     tainted s = false /\
     inprog s 1 11 /\ inprog s 2 11 /\
     phase_of s 1 = Waiting 11 0 /\ evset s 0 = false /\ fcanc s 1 = false /\ ~ In (11, 0) (queue s) /\
     phase_of s 2 = Waiting 11 1 /\ evset s 1 = true /\
     arrivals s = [(11, 0); (11, 1)] /\ queue s = [] /\ borrowers s = [11]).
Proof.
  split; [exists f16a_ops|exists f16b_ops]; vm_compute.
  - refine (conj eq_refl (conj eq_refl (conj eq_refl (conj eq_refl (conj eq_refl (conj _ (conj eq_refl
           (conj eq_refl (conj eq_refl eq_refl))))))))). intros [].
  - refine (conj eq_refl (conj _ (conj _ (conj eq_refl (conj eq_refl (conj eq_refl (conj _ (conj eq_refl
           (conj eq_refl (conj eq_refl (conj eq_refl eq_refl))))))))))).
    + right. exists 0. reflexivity.
    + right. exists 1. reflexivity.
    + intros [].
Qed.

Example f16_fixed_at_head :
  let sa := final step (init (Some 1)) f16a_ops in
  let sb := final step (init (Some 1)) f16b_ops in
  snd (step (final step (init (Some 1)) [AcqOnNowait 3 12; AcqOn 1 11; Cancel 1]) (AcqOn 2 11)) = RRuntime /\
  phase_of sa 2 = Idle /\ phase_of sa 1 = Idle /\ borrowers sa = [] /\ queue sa = [] /\ tainted sa = false /\
  phase_of sb 2 = Idle /\ phase_of sb 1 = Waiting 11 0 /\ evset sb 0 = true /\ borrowers sb = [11] /\
  tainted sb = false.
Proof. vm_compute. auto 15. Qed.

(* cancellation conserves the tokens *)
(* (a) the wait is cancelled and no token was granted: only the queue entry disappears *)
Theorem lim_cancel_before_grant v s t b e : reach v s -> tainted s = false ->
  phase_of s t = Waiting b e -> evset s e = false -> fcanc s t = true ->
  let s' := fst (step s (Resume t)) in
  snd (step s (Resume t)) = RCancelled /\ borrowers s' = borrowers s /\ held s' = held s /\
  resv s' = resv s /\ total s' = total s /\ ~ In b (keys (queue s')) /\ subseq (queue s') (queue s) /\
  phase_of s' t = Idle /\ tainted s' = false.
Proof.
  intros R Ht Hp He Hc. destruct (reach_inv0 v s R Ht) as [C _].
  unfold step; cbn [step_gen]. rewrite Hp, He, Hc. cbn.
  refine (conj eq_refl (conj eq_refl (conj eq_refl (conj eq_refl (conj eq_refl (conj _ (conj _ (conj _ Ht)))))))).
  - apply queue_pop_gone, (L_qnd _ C).
  - apply queue_pop_subseq.
  - apply upd_same.
Qed.

(* (b) the token had been granted (before or after the cancellation reached the task), or the task sits in
   the shielded yield of acquire() / acquire_on_behalf_of(b) (any borrower b, also a foreign one): the token
   is given back on behalf of b and offered to the head of the queue *)
Theorem lim_cancel_after_grant v s t b : reach v s -> tainted s = false ->
  ((exists e, phase_of s t = Waiting b e /\ evset s e = true /\ (fcanc s t = true \/ mustc s t = true)) \/
   (phase_of s t = FastYield b /\ mustc s t = true)) ->
  let s' := fst (step s (Resume t)) in
  snd (step s (Resume t)) = RCancelled /\ ~ In b (borrowers s') /\ ~ In b (held s') /\ ~ In b (resv s') /\
  held s' = held s /\ phase_of s' t = Idle /\ tainted s' = false /\ Inv0 s' /\
  (borrowers s' = remove_one b (borrowers s) \/
   exists b' e', queue s = (b', e') :: queue s' /\ free (remove_one b (borrowers s)) (total s) = true /\
                 borrowers s' = b' :: remove_one b (borrowers s)).
Proof.
  intros R Ht Hcase. destruct (reach_inv0 v s R Ht) as [C N].
  assert (Hr : resv_phase s t b).
  { destruct Hcase as [(e & H1 & H2 & _)|(H1 & _)]; [right; eauto|now left]. }
  destruct (resv_facts s t b C Hr) as (Hrv & Hb & Hh & Hk).
  (* the state from which the token is offered to the queue *)
  set (s0 := with_tok (leave s t (remove_one b (resv s))) (remove_one b (borrowers s)) (queue s) (evset s)
                      (remove_one b (resv s))).
  assert (E : step s (Resume t) = (notify_next s0, RCancelled)).
  { unfold step; cbn [step_gen]. destruct Hcase as [(e & H1 & H2 & H3)|(H1 & H3)].
    - rewrite H1, H2. cbn [negb andb].
      assert (Hx : fcanc s t || mustc s t = true) by (destruct H3 as [-> | ->]; [reflexivity|apply orb_true_r]).
      rewrite Hx. unfold give_back, set_queue, leave. cbn. rewrite (queue_pop_absent _ _ Hk). reflexivity.
    - rewrite H1, H3. unfold fy_cancel. cbn [leave borrowers]. apply mem_In in Hb. rewrite Hb. reflexivity. }
  pose proof (reach_step v s (Resume t) R) as R'. cbv zeta. rewrite E in *. cbn [fst snd] in *.
  assert (Ht' : tainted (notify_next s0) = false) by (rewrite notify_frame; exact Ht).
  pose proof (reach_inv0 v _ R' Ht') as I0. pose proof (I_core _ I0) as C0.
  assert (Ep : phase_of (notify_next s0) = upd (phase_of s) t Idle) by now rewrite notify_frame.
  assert (Eh : held (notify_next s0) = held s) by now rewrite notify_frame.
  assert (Hidle : phase_of (notify_next s0) t = Idle) by (rewrite Ep; apply upd_same).
  assert (Hnr : ~ In b (resv (notify_next s0))).
  { intros H. apply (L_resv _ C0) in H. destruct H as (t' & H). apply resv_inprog in H.
    unfold inprog in H. rewrite Ep in H. destruct (Nat.eq_dec t' t) as [->|Hne].
    - rewrite upd_same in H. destruct H as [H|(e' & H)]; discriminate.
    - rewrite upd_other in H by assumption. apply Hne. apply (L_uniq _ C t' t b H). now apply resv_inprog. }
  assert (Hnh : ~ In b (held (notify_next s0))) by (rewrite Eh; exact Hh).
  assert (Hnb : ~ In b (borrowers (notify_next s0))).
  { intros H. apply (L_split _ C0) in H. tauto. }
  refine (conj eq_refl (conj Hnb (conj Hnh (conj Hnr (conj Eh (conj Hidle (conj Ht' (conj I0 _)))))))).
  destruct (notify_cases s0) as [E0|(b' & e' & r' & H1 & H2 & E0)]; rewrite E0.
  - now left.
  - right. exists b', e'. cbn in H1, H2. refine (conj H1 (conj H2 _)). cbn.
    apply set_add_new. intros H. apply (L_qb _ C b'); [rewrite H1; now left|].
    now apply in_remove_one_incl in H.
Qed.

(* (c) D1 (fixed in /repo by cf4519f): before the fix the shielded-yield handler ran `self.release()`, i.e.
   released the calling task instead of b.  Witness on the pinned handler: total 1, task 1 acquires on behalf of
   the foreign borrower 11 and is cancelled in the yield: RuntimeError instead of CancelledError, borrower 11
   keeps the token for ever although no acquire returned for it and every task is idle.  At HEAD the same
   history gives CancelledError and an empty limiter. *)
Definition d1_ops : list op := [AcqOn 1 11; Cancel 1].

Theorem lim_cancel_foreign_fastyield_refuted_pinned :
  exists ops, let s := final step_d1_pinned (init (Some 1)) ops in
    tainted s = false /\ phase_of s 1 = FastYield 11 /\ mustc s 1 = true /\
    snd (step_d1_pinned s (Resume 1)) = RRuntime /\
    let s' := fst (step_d1_pinned s (Resume 1)) in
    phase_of s' 1 = Idle /\ held s' = [] /\ borrowers s' = [11] /\ resv s' = [] /\
    snd (step_d1_pinned s' (AcqOnNowait 2 2)) = RWouldBlock.
Proof. exists d1_ops. vm_compute. auto 10. Qed.

Example d1_fixed_at_head :
  let s := final step (init (Some 1)) d1_ops in
  tainted s = false /\ phase_of s 1 = FastYield 11 /\ mustc s 1 = true /\
  snd (step s (Resume 1)) = RCancelled /\ borrowers (fst (step s (Resume 1))) = [] /\
  tainted (fst (step s (Resume 1))) = false.
Proof. vm_compute. auto 10. Qed.

(* misuse is rejected and changes nothing *)
Theorem lim_no_double_borrow s t b :
  phase_of s t = Idle -> In b (borrowers s) ->
  step s (AcqOn t b) = (s, RRuntime) /\ step s (AcqOnNowait t b) = (s, RRuntime).
Proof.
  intros Hp Hb. apply mem_In in Hb. unfold step; cbn [step_gen]. rewrite Hp, Hb. cbn. auto.
Qed.

Theorem lim_release_by_non_borrower_rejected s t b :
  phase_of s t = Idle -> ~ In b (borrowers s) -> step s (RelOn t b) = (s, RRuntime).
Proof.
  intros Hp Hb. apply mem_false in Hb. unfold step; cbn [step_gen]. rewrite Hp, Hb. reflexivity.
Qed.

Theorem lim_bad_total_rejected s t k :
  phase_of s t = Idle ->
  step s (SetTotalBad t k) = (s, match k with 1 | 2 => RValue | _ => RType end).
Proof.
  intros Hp. unfold step; cbn [step_gen]. rewrite Hp. cbn. destruct k as [|[|[|k]]]; reflexivity.
Qed.

(* for every op sequence, duplicate borrowers included; `tainted s = false` only excludes histories in which
   release_on_behalf_of(b) was called before b's acquire returned (O2) *)
Theorem lim_quiescent_initial v s : reach v s -> tainted s = false ->
  (forall t, phase_of s t = Idle) -> held s = [] ->
  borrowers s = [] /\ queue s = [] /\ resv s = [] /\ avail_code s = match total s with None => inf_code | Some n => nz n end.
Proof.
  intros R Ht Hall Hh. destruct (reach_inv0 v s R Ht) as [C _].
  assert (Hr : resv s = []).
  { destruct (resv s) as [|b r] eqn:E; [reflexivity|]. exfalso.
    assert (H : In b (resv s)) by (rewrite E; now left). apply (L_resv _ C) in H.
    destruct H as (t & [H|(e & H & _)]); rewrite Hall in H; discriminate. }
  assert (Hb : borrowers s = []).
  { destruct (borrowers s) as [|b r] eqn:E; [reflexivity|]. exfalso.
    assert (H : In b (borrowers s)) by (rewrite E; now left). apply (L_split _ C) in H.
    rewrite Hh, Hr in H. destruct H as [[]|[]]. }
  assert (Hq : queue s = []).
  { destruct (queue s) as [|[b e] r] eqn:E; [reflexivity|]. exfalso.
    assert (H : In (b, e) (queue s)) by (rewrite E; now left). apply (L_q _ C) in H.
    destruct H as ((t & H) & _). rewrite Hall in H. discriminate. }
  refine (conj Hb (conj Hq (conj Hr _))). unfold avail_code. rewrite Hb. cbn. destruct (total s); [lia|reflexivity].
Qed.

(* total 1: 1 holds, 2 and 3 queue, 2's wait is cancelled, 1 releases: the token is granted to 2 (head of the
   queue, cancelled or not), whose resumption passes it on to 3 *)
Definition ex_ops := [AcqOnNowait 1 1; AcqOn 2 2; AcqOn 3 3; Cancel 2; RelOn 1 1].

Example ex_cancelled_then_granted :
  let s := final step (init (Some 1)) ex_ops in
  tainted s = false /\ phase_of s 2 = Waiting 2 0 /\ evset s 0 = true /\ fcanc s 2 = true /\
  borrowers s = [2] /\ keys (queue s) = [3] /\
  borrowers (fst (step s (Resume 2))) = [3] /\ queue (fst (step s (Resume 2))) = [].
Proof. vm_compute. auto 10. Qed.

Example ex_cancel_before_grant_hyp :
  let s := final step (init (Some 1)) [AcqOnNowait 1 1; AcqOn 2 2; Cancel 2] in
  tainted s = false /\ phase_of s 2 = Waiting 2 0 /\ evset s 0 = false /\ fcanc s 2 = true.
Proof. vm_compute. auto. Qed.

Example ex_cancel_fastyield_own_hyp :
  let s := final step (init (Some 1)) [AcqOn 1 1; Cancel 1] in
  tainted s = false /\ phase_of s 1 = FastYield 1 /\ mustc s 1 = true /\
  borrowers (fst (step s (Resume 1))) = [].
Proof. vm_compute. auto. Qed.

Example ex_waiters_hyp :
  let s := final step (init (Some 1)) [AcqOnNowait 1 1; AcqOn 2 2] in
  tainted s = false /\ queue s <> [].
Proof. vm_compute. split; [reflexivity|discriminate]. Qed.

Example ex_direct_grant_hyp :
  let s := init (Some 1) in In 1 (borrowers (fst (step s (AcqOnNowait 1 1)))) /\ ~ In 1 (borrowers s).
Proof. vm_compute. split; [now left|tauto]. Qed.

Example ex_within_total_hyp :
  let s := final step (init (Some 2)) [AcqOnNowait 1 1; AcqOnNowait 2 2] in
  xle (length (borrowers s)) (total s) /\ xle (length (borrowers s)) (Some 3).
Proof. vm_compute. lia. Qed.

(* a run with assignments of total_tokens (raise, lower to exactly the number borrowed, infinity) that never go
   below the number borrowed, with waiters woken by the setter: the hypothesis of lim_never_over_granted *)
Example ex_never_lowered_below_hyp :
  never_lowered_below_borrowed (init (Some 1))
    [AcqOnNowait 1 1; AcqOn 2 2; SetTotal 1 (Some 3); Resume 2; AcqOnNowait 3 3; SetTotal 1 (Some 3);
     RelOn 1 1; SetTotal 1 (Some 2); AcqOn 1 1; SetTotal 1 None; Resume 1].
Proof. vm_compute. repeat split; intros t x [=]; subst; cbn; lia. Qed.

(* without the proviso over-capacity states are reachable: total lowered to 0 with two borrowers *)
Example ex_over_capacity_reachable :
  let s := final step (init (Some 2)) [AcqOnNowait 1 1; AcqOnNowait 2 2; SetTotal 1 (Some 0)] in
  length (borrowers s) = 2 /\ total s = Some 0 /\ ~ xle (length (borrowers s)) (total s) /\
  ~ never_lowered_below_borrowed (init (Some 2)) [AcqOnNowait 1 1; AcqOnNowait 2 2; SetTotal 1 (Some 0)].
Proof.
  vm_compute. refine (conj eq_refl (conj eq_refl (conj _ _))); [lia|].
  intros (_ & _ & H & _). specialize (H 1 (Some 0) eq_refl). cbn in H. lia.
Qed.

(* a pure addition from a state below capacity: hypotheses of lim_no_borrower_added_when_full, also in an
   over-capacity state no pure addition exists (the direct acquire must wait) *)
Example ex_pure_addition_hyp :
  let s := final step (init (Some 2)) [AcqOnNowait 1 1] in
  let s' := fst (step s (AcqOnNowait 2 2)) in
  total s' = total s /\ (forall b, In b (borrowers s) -> In b (borrowers s')) /\
  In 2 (borrowers s') /\ ~ In 2 (borrowers s) /\
  snd (step (final step (init (Some 2)) [AcqOnNowait 1 1; AcqOnNowait 2 2; SetTotal 1 (Some 0)])
            (AcqOnNowait 3 3)) = RWouldBlock.
Proof.
  vm_compute. refine (conj eq_refl (conj _ (conj _ (conj _ eq_refl)))).
  - intros b [<-|[]]. right. now left.
  - now left.
  - intros [H|[]]. discriminate.
Qed.

(* lowering below the number borrowed, 0 and infinity: the over-capacity state only shrinks *)
Example ex_lowered :
  let s := final step (init (Some 2)) [AcqOnNowait 1 1; AcqOnNowait 2 2; SetTotal 1 (Some 0); AcqOn 3 3;
                                       RelOn 1 1; SetTotal 1 None] in
  tainted s = false /\ borrowers s = [3; 2] /\ total s = None /\ queue s = [].
Proof. vm_compute. auto. Qed.

Example ex_misuse_hyp :
  let s := final step (init (Some 2)) [AcqOnNowait 1 1] in
  phase_of s 1 = Idle /\ In 1 (borrowers s) /\ ~ In 2 (borrowers s).
Proof. vm_compute. split; [reflexivity|]. split; [now left|]. intros [H|[]]. discriminate. Qed.

Example ex_quiescent :
  let s := final step (init (Some 1)) (ex_ops ++ [Resume 2; Resume 3; RelOn 3 3]) in
  tainted s = false /\ (forall t, t < 5 -> phase_of s t = Idle) /\ held s = [] /\ borrowers s = [].
Proof.
  vm_compute. repeat split.
  intros t Ht. do 5 (destruct t as [|t]; [reflexivity|]). lia.
Qed.

Example ex_waiting_borrower_hyp :
  let s := final step (init (Some 1)) [AcqOnNowait 3 12; AcqOn 1 11] in
  tainted s = false /\ phase_of s 2 = Idle /\ In 11 (keys (queue s)) /\ ~ In 11 (borrowers s) /\
  phase_of s 1 = Waiting 11 0 /\ evset s 0 = false.
Proof.
  vm_compute. refine (conj eq_refl (conj eq_refl (conj _ (conj _ (conj eq_refl eq_refl))))); [now left|].
  intros [H|[]]. discriminate.
Qed.


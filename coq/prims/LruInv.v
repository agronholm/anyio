(* Proofs about the Lru machine, part 2: the structural invariant (Inv1) and its preservation by the building
   blocks of `step`.  The counting invariant (Inv2) is in LruCount.v. *)
From AV Require Import Base Lru LruLockFacts LruDict LruProofs.
From AV Require Lock LockProofs.
From Coq Require Import Sorting.Sorted.

Definition is_bypass (p : cphase) : bool := match p with CBypass _ _ _ => true | _ => false end.

(* I_fresh: a caller queued on an entry lock since t0 finds, if anything, a value that does not expire before t0 + ttl:
   the value was stored at a time >= t0 (I_t0 bounds t0 by the clock at store time).  I_A / I_B hold only while no
   in-flight or waited-for entry has been evicted: a caller running the wrapped function still has its counted
   placeholder in its dict, and a caller queued on the lock finds the placeholder of that lock or a value. *)
Record Inv1 (cf : cfg) (s : st) : Prop := {
  I_lp : LP cf (locks s) (phase s) (nlock s) (lkey s);
  I_nodup : forall g, NoDup (keys (dicts s g));
  I_sorted : forall g, StronglySorted stamp_lt (dicts s g);
  I_stamp : forall g x, In x (dicts s g) -> ss x < clk s;
  I_place : forall g x l b, In x (dicts s g) -> se x = EPlace l b -> l < nlock s /\ lkey s l = sk x;
  I_vdict : forall g x v e, In x (dicts s g) -> se x = EVal v e -> In (sk x, v) (produced s);
  I_vhit : forall c k v b, phase s c = CHitCk k v b -> In (k, v) (produced s);
  I_t0 : forall c k l t0 g, phase s c = CLockWait k l t0 g -> t0 <= now s;
  I_fresh : forall c k l t0 g v e dl, phase s c = CLockWait k l t0 g ->
              dget k (dicts s g) = Some (EVal v (Some e)) -> ttl cf = Some dl -> t0 + dl <= e;
  I_byp : forall c, is_bypass (phase s c) = true -> is_zero_max cf = true;
  I_nobyp : forall c k l, lockref (phase s c) = Some (k, l) -> is_zero_max cf = false;
  I_gen : f_phantom s = false -> forall c g, dictgen (phase s c) = Some g -> g = cur s;
  I_le : forall c g, dictgen (phase s c) = Some g -> g <= cur s;
  I_A : f_inflight s = false -> f_waited s = false -> forall c k l p b g,
          phase s c = CInWrapped k l p b g -> dget k (dicts s g) = Some (EPlace l true);
  I_B : f_inflight s = false -> f_waited s = false -> forall c k l t0 g,
          phase s c = CLockWait k l t0 g ->
          (exists b, dget k (dicts s g) = Some (EPlace l b)) \/ exists v e, dget k (dicts s g) = Some (EVal v e)
}.

Ltac sm :=
  unfold dict, f_inflight, f_waited, f_uncounted, f_dead, f_phantom, f_bypass2 in *;
  cbn [dicts cur has_dict hits misses currsize locks nlock phase now clk lkey produced fl
       fl_inflight fl_waited fl_uncounted fl_dead fl_phantom fl_bypass2
       fl_or_inflight fl_or_waited fl_or_uncounted fl_or_dead fl_or_phantom fl_or_bypass2
       set_dict set_phase set_lock set_counts bump_clk add_produced set_fl set_has_dict new_lock fst snd] in *.

(* case split on a generation against the one that changes *)
Ltac updg g0 g :=
  destruct (Nat.eq_dec g0 g) as [->|?]; [rewrite ?upd_same in * | rewrite ?upd_other in * by assumption].

(* Inv1 in three parts: the lock discipline, each dict, each caller *)
Definition slot_ok (s : st) (x : slot) : Prop :=
  ss x < clk s /\
  match se x with
  | EPlace l _ => l < nlock s /\ lkey s l = sk x
  | EVal v _ => In (sk x, v) (produced s)
  end.

(* (a conjunction, not a record: DI s d and DI s' d are then convertible when s' differs from s in other fields) *)
Definition DI (s : st) (d : list slot) : Prop :=
  NoDup (keys d) /\ StronglySorted stamp_lt d /\ forall x, In x d -> slot_ok s x.

Definition CallerOK (cf : cfg) (s : st) (p : cphase) : Prop :=
  match p with
  | CIdle | CEntryCk _ => True
  | CLockWait k l t0 g =>
      t0 <= now s /\
      (forall v e dl, dget k (dicts s g) = Some (EVal v (Some e)) -> ttl cf = Some dl -> t0 + dl <= e) /\
      is_zero_max cf = false /\ (f_phantom s = false -> g = cur s) /\ g <= cur s /\
      (f_inflight s = false -> f_waited s = false ->
       (exists b, dget k (dicts s g) = Some (EPlace l b)) \/ exists v e, dget k (dicts s g) = Some (EVal v e))
  | CInWrapped k l _ _ g =>
      is_zero_max cf = false /\ (f_phantom s = false -> g = cur s) /\ g <= cur s /\
      (f_inflight s = false -> f_waited s = false -> dget k (dicts s g) = Some (EPlace l true))
  | CHitCk k v _ => In (k, v) (produced s)
  | CBypass _ _ _ => is_zero_max cf = true
  end.

Lemma inv1_intro cf s :
  LP cf (locks s) (phase s) (nlock s) (lkey s) -> (forall g, DI s (dicts s g)) ->
  (forall c, CallerOK cf s (phase s c)) -> Inv1 cf s.
Proof.
  intros HL HD HC. constructor.
  - exact HL.
  - intros g. apply (HD g).
  - intros g. apply (HD g).
  - intros g x Hx. apply (proj2 (proj2 (HD g)) x Hx).
  - intros g x l b Hx He. destruct (proj2 (proj2 (HD g)) x Hx) as [_ H]. now rewrite He in H.
  - intros g x v e Hx He. destruct (proj2 (proj2 (HD g)) x Hx) as [_ H]. now rewrite He in H.
  - intros c k v b Hp. specialize (HC c). now rewrite Hp in HC.
  - intros c k l t0 g Hp. specialize (HC c). rewrite Hp in HC. apply HC.
  - intros c k l t0 g v e dl Hp. specialize (HC c). rewrite Hp in HC. apply HC.
  - intros c Hp. specialize (HC c). destruct (phase s c); try discriminate. exact HC.
  - intros c k l Hp. specialize (HC c). destruct (phase s c); try discriminate; apply HC.
  - intros Hf c g Hp. specialize (HC c). destruct (phase s c); try discriminate; injection Hp as <-; now apply HC.
  - intros c g Hp. specialize (HC c). destruct (phase s c); try discriminate; injection Hp as <-; apply HC.
  - intros Hf Hw c k l p b g Hp. specialize (HC c). rewrite Hp in HC. now apply HC.
  - intros Hf Hw c k l t0 g Hp. specialize (HC c). rewrite Hp in HC. now apply HC.
Qed.

Lemma DI_of cf s g : Inv1 cf s -> DI s (dicts s g).
Proof.
  intros I. refine (conj (I_nodup _ _ I g) (conj (I_sorted _ _ I g) _)).
  intros x Hx. split; [apply (I_stamp _ _ I g x Hx)|].
  destruct (se x) eqn:He; [apply (I_place _ _ I g x _ _ Hx He)|apply (I_vdict _ _ I g x _ _ Hx He)].
Qed.

Lemma CO_of cf s c : Inv1 cf s -> CallerOK cf s (phase s c).
Proof.
  intros I. destruct (phase s c) as [|k|k l t0 g|k l p b g|k v b|k p b] eqn:Hp; cbn.
  - exact Logic.I.
  - exact Logic.I.
  - exact (conj (I_t0 _ _ I _ _ _ _ _ Hp) (conj (fun v e dl => I_fresh _ _ I c k l t0 g v e dl Hp)
            (conj (I_nobyp _ _ I c k l (f_equal lockref Hp)) (conj (fun Hf => I_gen _ _ I Hf c g (f_equal dictgen Hp))
            (conj (I_le _ _ I c g (f_equal dictgen Hp)) (fun Hf Hw => I_B _ _ I Hf Hw c k l t0 g Hp)))))).
  - exact (conj (I_nobyp _ _ I c k l (f_equal lockref Hp)) (conj (fun Hf => I_gen _ _ I Hf c g (f_equal dictgen Hp))
            (conj (I_le _ _ I c g (f_equal dictgen Hp)) (fun Hf Hw => I_A _ _ I Hf Hw c k l p b g Hp)))).
  - apply (I_vhit _ _ I c k v b Hp).
  - apply (I_byp _ _ I c). now rewrite Hp.
Qed.

Lemma callers_upd cf s (ph : cid -> cphase) c p' :
  (forall c0, c0 <> c -> CallerOK cf s (ph c0)) -> CallerOK cf s p' -> forall c0, CallerOK cf s (upd ph c p' c0).
Proof.
  intros H Hp c0. destruct (Nat.eq_dec c0 c) as [->|N]; [now rewrite upd_same|rewrite upd_other by assumption; auto].
Qed.

(* Beside the caller's own entry, CallerOK reads the clock, the log, the current generation and three flags.  When
   these stay or grow, only the three clauses about the entry are left to prove. *)
Lemma CallerOK_entry cf s s' p :
  CallerOK cf s p ->
  now s <= now s' -> incl (produced s) (produced s') -> cur s <= cur s' ->
  (f_phantom s' = false -> f_phantom s = false /\ cur s' = cur s) ->
  (forall k l t0 g, p = CLockWait k l t0 g ->
     (forall v e dl, dget k (dicts s' g) = Some (EVal v (Some e)) -> ttl cf = Some dl -> t0 + dl <= e) /\
     (f_inflight s' = false -> f_waited s' = false ->
      (exists b, dget k (dicts s' g) = Some (EPlace l b)) \/ exists v e, dget k (dicts s' g) = Some (EVal v e))) ->
  (forall k l pd b g, p = CInWrapped k l pd b g ->
     f_inflight s' = false -> f_waited s' = false -> dget k (dicts s' g) = Some (EPlace l true)) ->
  CallerOK cf s' p.
Proof.
  intros H Hn Hpr Hc Hph HW HR.
  assert (Hgen : forall g, (f_phantom s = false -> g = cur s) -> f_phantom s' = false -> g = cur s').
  { intros g Hg Hp. destruct (Hph Hp) as [Hp0 ->]. auto. }
  destruct p as [|k|k l t0 g|k l pd b g|k v b|k pd b]; cbn in *.
  - exact H.
  - exact H.
  - destruct H as (H1 & _ & H3 & H4 & H5 & _). destruct (HW k l t0 g eq_refl) as [Hfr HB].
    exact (conj (Nat.le_trans _ _ _ H1 Hn) (conj Hfr (conj H3 (conj (Hgen g H4) (conj (Nat.le_trans _ _ _ H5 Hc) HB))))).
  - destruct H as (H1 & H2 & H3 & _).
    exact (conj H1 (conj (Hgen g H2) (conj (Nat.le_trans _ _ _ H3 Hc) (HR k l pd b g eq_refl)))).
  - apply Hpr, H.
  - exact H.
Qed.

(* ... and nothing is left when the entry and the two flags that guard it stay as well *)
Lemma CallerOK_mono cf s s' p :
  CallerOK cf s p ->
  now s <= now s' -> incl (produced s) (produced s') -> cur s <= cur s' ->
  (f_phantom s' = false -> f_phantom s = false /\ cur s' = cur s) ->
  (f_inflight s' = false -> f_inflight s = false) -> (f_waited s' = false -> f_waited s = false) ->
  (forall k l g, lockref p = Some (k, l) -> dictgen p = Some g -> dget k (dicts s' g) = dget k (dicts s g)) ->
  CallerOK cf s' p.
Proof.
  intros H Hn Hpr Hc Hph Hf Hw Hd. apply (CallerOK_entry cf s s' p H Hn Hpr Hc Hph).
  - intros k l t0 g ->. rewrite (Hd k l g eq_refl eq_refl). cbn in H. destruct H as (_ & H2 & _ & _ & _ & H6). auto.
  - intros k l pd b g ->. rewrite (Hd k l g eq_refl eq_refl). cbn in H. destruct H as (_ & _ & _ & H4). auto.
Qed.

Lemma slot_ok_mono s s' x :
  slot_ok s x -> clk s <= clk s' -> nlock s <= nlock s' -> (forall l, l < nlock s -> lkey s' l = lkey s l) ->
  incl (produced s) (produced s') -> slot_ok s' x.
Proof.
  intros [H1 H2] Hc Hn Hl Hp. split; [lia|]. destruct (se x); [|auto].
  destruct H2 as [H2 H3]. split; [lia|]. now rewrite Hl.
Qed.

Lemma DI_mono s s' d :
  DI s d -> clk s <= clk s' -> nlock s <= nlock s' -> (forall l, l < nlock s -> lkey s' l = lkey s l) ->
  incl (produced s) (produced s') -> DI s' d.
Proof.
  intros (H1 & H2 & H3) Hc Hn Hl Hp. refine (conj H1 (conj H2 _)).
  intros x Hx. apply (slot_ok_mono s s' x (H3 x Hx)); assumption.
Qed.

Lemma DI_nil s : DI s [].
Proof. refine (conj (NoDup_nil _) (conj (SSorted_nil _) _)). intros x []. Qed.

Lemma init_inv1 cf : Inv1 cf init.
Proof.
  apply inv1_intro; cbn.
  - constructor; cbn.
    + intros l. apply LockProofs.inv_init.
    + intros l c He. exfalso. eapply engaged_init; eauto.
    + discriminate.
    + discriminate.
    + discriminate.
    + congruence.
  - intros _. apply DI_nil.
  - intros _. exact Logic.I.
Qed.

(* a state with pointwise the same components, apart from those the invariant does not read *)
Lemma inv1_same cf s s' :
  Inv1 cf s ->
  (forall g, dicts s' g = dicts s g) -> cur s' = cur s -> locks s' = locks s -> nlock s' = nlock s ->
  (forall c, phase s' c = phase s c) ->
  now s' = now s -> clk s' = clk s -> lkey s' = lkey s -> produced s' = produced s -> fl s' = fl s ->
  Inv1 cf s'.
Proof.
  intros I E1 E2 E3 E4 E5 E6 E7 E8 E9 E10. apply inv1_intro.
  - rewrite E3, E4, E8. apply (LP_ext _ _ _ _ _ _ E5), (I_lp _ _ I).
  - intros g. rewrite E1. apply (DI_mono s s' _ (DI_of cf s g I)); rewrite ?E7, ?E4, ?E8, ?E9; auto using incl_refl.
  - intros c. rewrite E5. apply (CallerOK_mono cf s s' _ (CO_of cf s c I)); unfold f_phantom, f_inflight, f_waited;
      rewrite ?E6, ?E9, ?E2, ?E10; auto using incl_refl. intros k l g _ _. now rewrite E1.
Qed.

(* components that Inv1 does not read, or reads monotonically *)
Lemma inv1_frame cf s hd h m cs :
  Inv1 cf s ->
  Inv1 cf (mk (dicts s) (cur s) hd h m cs (locks s) (nlock s) (phase s) (now s) (clk s) (lkey s) (produced s) (fl s)).
Proof. intros I. apply inv1_intro; [apply (I_lp _ _ I)|exact (fun g => DI_of cf s g I)|exact (fun c => CO_of cf s c I)]. Qed.

Lemma inv1_fl cf s f :
  Inv1 cf s ->
  (fl_inflight f = false -> f_inflight s = false) -> (fl_waited f = false -> f_waited s = false) ->
  (fl_phantom f = false -> f_phantom s = false) ->
  Inv1 cf (set_fl s f).
Proof.
  intros I H1 H2 H3. apply inv1_intro; [apply (I_lp _ _ I)|exact (fun g => DI_of cf s g I)|].
  intros c. apply (CallerOK_mono cf s _ _ (CO_of cf s c I)); sm; auto using incl_refl.
Qed.

Lemma inv1_add_produced cf s k v : Inv1 cf s -> Inv1 cf (add_produced s k v).
Proof.
  intros I. apply inv1_intro; [apply (I_lp _ _ I)| |].
  - intros g. apply (DI_mono s _ _ (DI_of cf s g I)); sm; auto using incl_tl, incl_refl.
  - intros c. apply (CallerOK_mono cf s _ _ (CO_of cf s c I)); sm; auto using incl_tl, incl_refl.
Qed.

Lemma inv1_tick cf s :
  Inv1 cf s ->
  Inv1 cf (mk (dicts s) (cur s) (has_dict s) (hits s) (misses s) (currsize s) (locks s) (nlock s) (phase s)
              (S (now s)) (clk s) (lkey s) (produced s) (fl s)).
Proof.
  intros I. apply inv1_intro; [apply (I_lp _ _ I)|exact (fun g => DI_of cf s g I)|].
  intros c. apply (CallerOK_mono cf s _ _ (CO_of cf s c I)); sm; auto using incl_refl.
Qed.

Lemma inv1_new_lock cf s k : Inv1 cf s -> Inv1 cf (new_lock cf s k).
Proof.
  intros I. apply inv1_intro; [apply LP_newlock, (I_lp _ _ I)| |exact (fun c => CO_of cf s c I)].
  intros g. apply (DI_mono s _ _ (DI_of cf s g I)); sm; auto using incl_refl. intros l Hl. apply upd_other. lia.
Qed.

(* the phase of c changes between phases that reference neither a lock nor a dict *)
Lemma inv1_phase_noref cf s c p' :
  Inv1 cf s -> c < ncall cf -> lockref (phase s c) = None -> lockref p' = None -> CallerOK cf s p' ->
  Inv1 cf (set_phase s c p').
Proof.
  intros I Hc Hold Hnew Hok. apply inv1_intro; [|exact (fun g => DI_of cf s g I)|].
  - apply LP_phase; [apply (I_lp _ _ I)| | | | |].
    + intros l He. exfalso. eapply LP_idle_not_engaged; [apply (I_lp _ _ I)|exact Hold|exact He].
    + intros; subst; discriminate.
    + intros; subst; discriminate.
    + intros k0 l0 H. congruence.
    + auto.
  - exact (callers_upd cf _ (phase s) c p' (fun c0 _ => CO_of cf s c0 I) Hok).
Qed.

(* pend / canc of a running caller change *)
Lemma inv1_phase_running cf s c k l p b g p2 b2 :
  Inv1 cf s -> phase s c = CInWrapped k l p b g -> Inv1 cf (set_phase s c (CInWrapped k l p2 b2 g)).
Proof.
  intros I Hp0.
  assert (Hc : c < ncall cf) by (apply (L_ncall _ _ _ _ _ (I_lp _ _ I)); congruence).
  apply inv1_intro; [|exact (fun g => DI_of cf s g I)|].
  - apply LP_phase; [apply (I_lp _ _ I)| | | | |].
    + intros l0 He. destruct (L_eng _ _ _ _ _ (I_lp _ _ I) l0 c He) as [k0 Hk]. rewrite Hp0 in Hk. cbn in *. eauto.
    + discriminate.
    + intros k0 l0 p0 b0 g0 [= -> -> _ _ _]. apply (L_run _ _ _ _ _ (I_lp _ _ I) _ _ _ _ _ _ Hp0).
    + intros k0 l0 [= <- <-]. apply (L_ref _ _ _ _ _ (I_lp _ _ I) c). now rewrite Hp0.
    + auto.
  - pose proof (CO_of cf s c I) as H. rewrite Hp0 in H.
    exact (callers_upd cf _ (phase s) c (CInWrapped k l p2 b2 g) (fun c0 _ => CO_of cf s c0 I) H).
Qed.

(* when the scan over the callers finds nobody *)
Lemma no_caller cf s (f : cphase -> bool) c :
  Inv1 cf s -> existsb (fun c0 => f (phase s c0)) (seq 0 (ncall cf)) = false -> f CIdle = false -> f (phase s c) = false.
Proof.
  intros I H H0. destruct (f (phase s c)) eqn:E; [|reflexivity]. rewrite <- H. symmetry. apply existsb_exists.
  exists c. split; [|exact E]. apply in_seq. split; [lia|]. apply (L_ncall _ _ _ _ _ (I_lp _ _ I)). congruence.
Qed.

Lemma waited_false cf s k g c l t0 :
  Inv1 cf s -> waited cf s k g = false -> phase s c = CLockWait k l t0 g -> False.
Proof.
  intros I H Hp. apply (no_caller cf s (waits_for k g) c I) in H; [|reflexivity].
  rewrite Hp in H. cbn in H. now rewrite !Nat.eqb_refl in H.
Qed.

Lemma referenced_false cf s l c k :
  Inv1 cf s -> referenced cf s l = false -> lockref (phase s c) = Some (k, l) -> False.
Proof.
  intros I H Hp. apply (no_caller cf s (refs l) c I) in H; [|reflexivity].
  destruct (phase s c); cbn in *; try discriminate; injection Hp as _ ->; now rewrite Nat.eqb_refl in H.
Qed.

Lemma sorted_dmove k st d :
  StronglySorted stamp_lt d -> (forall y, In y d -> ss y < st) -> StronglySorted stamp_lt (dmove k st d).
Proof.
  intros Hs Hb. unfold dmove. destruct (dfind k d) as [x|]; [|exact Hs].
  apply sorted_app_last; [now apply sorted_filter|].
  intros y Hy. apply in_dremove in Hy. cbn. apply Hb, Hy.
Qed.

(* the dict-local part under the dict operations *)
Lemma DI_tl s x r : DI s (x :: r) -> DI s r.
Proof.
  intros (H1 & H2 & H3). refine (conj _ (conj _ _)); [now inversion H1|now inversion H2|].
  intros y Hy. apply H3. now right.
Qed.

(* a new last slot, stamped with the clock *)
Lemma DI_app s d k e :
  DI s d -> ~ In k (keys d) -> slot_ok (bump_clk s) (mkslot k e (clk s)) -> DI (bump_clk s) (d ++ [mkslot k e (clk s)]).
Proof.
  intros (H1 & H2 & H3) Hk Hx. refine (conj _ (conj _ _)).
  - now apply nodup_app_one.
  - apply sorted_app_last; [exact H2|]. intros y Hy. apply (H3 y Hy).
  - intros y Hy. apply in_app_or in Hy. destruct Hy as [Hy|[<-|[]]]; [|exact Hx].
    apply (slot_ok_mono s _ y (H3 y Hy)); sm; auto using incl_refl.
Qed.

(* the entry of k is replaced in place *)
Lemma DI_dset_in s k e d :
  DI s d -> (forall st, st < clk s -> slot_ok s (mkslot k e st)) -> DI s (dset_in k e d).
Proof.
  intros (H1 & H2 & H3) He. refine (conj _ (conj _ _)); [now rewrite keys_dset_in|now apply sorted_dset_in|].
  intros x Hx. apply in_dset_in in Hx. destruct Hx as [Hx|(y & Hy & _ & ->)]; [auto|]. apply He, (H3 y Hy).
Qed.

Lemma DI_dmove s k d : DI s d -> DI (bump_clk s) (dmove k (clk s) d).
Proof.
  intros (H1 & H2 & H3). refine (conj _ (conj _ _)).
  - now apply nodup_dmove.
  - apply sorted_dmove; [exact H2|]. intros y Hy. apply (H3 y Hy).
  - intros x Hx. apply in_dmove in Hx. destruct Hx as [Hx|(y & Hy & Hk & ->)].
    + apply (slot_ok_mono s _ x (H3 x Hx)); sm; auto using incl_refl.
    + destruct (H3 y Hy) as [_ H]. split; [sm; cbn; lia|]. cbn [se sk]. now rewrite <- Hk.
Qed.

Lemma DI_dstore s k v e d :
  DI s d -> In (k, v) (produced s) -> DI (bump_clk s) (dstore k (EVal v e) (clk s) d).
Proof.
  intros HD Hv. unfold dstore. destruct (dfind k d) eqn:E.
  - apply (DI_mono s); sm; auto using incl_refl. apply DI_dset_in; [exact HD|]. intros st Hst. split; [exact Hst|exact Hv].
  - apply DI_app; [exact HD|now apply dfind_none_keys|]. split; [sm; cbn; lia|exact Hv].
Qed.

Lemma DI_dmark s k d : DI s d -> DI s (dmark k d).
Proof.
  intros HD. unfold dmark. destruct (dfind k d) as [x|] eqn:E; [|exact HD]. destruct (se x) as [l b|] eqn:Hse; [|exact HD].
  apply DI_dset_in; [exact HD|]. intros st Hst. split; [exact Hst|].
  destruct (dfind_some k d x E) as [<- Hx]. destruct (proj2 (proj2 HD) x Hx) as [_ H]. now rewrite Hse in H.
Qed.

(* a placeholder for a key that is not in the current dict *)
Lemma inv1_append cf s k l :
  Inv1 cf s -> dfind k (dict s) = None -> l < nlock s -> lkey s l = k ->
  Inv1 cf (bump_clk (set_dict s (cur s) (dict s ++ [mkslot k (EPlace l false) (clk s)]))).
Proof.
  intros I Hnone Hl Hk. unfold dict in *.
  apply inv1_intro; [apply (I_lp _ _ I)| |].
  - intros g. sm. updg g (cur s).
    + refine (DI_app s _ k _ (DI_of cf s _ I) (dfind_none_keys _ _ Hnone) _). split; [sm; cbn; lia|]. cbn. auto.
    + apply (DI_mono s _ _ (DI_of cf s g I)); sm; auto using incl_refl.
  - intros c. apply (CallerOK_entry cf s _ _ (CO_of cf s c I)); sm; auto using incl_refl.
    + intros k0 l0 t0 g Hp. split.
      * intros v e dl Hd. updg g (cur s); [|apply (I_fresh _ _ I _ _ _ _ _ _ _ _ Hp Hd)]. rewrite dget_app in Hd.
        destruct (dget k0 (dicts s (cur s))) eqn:E; [injection Hd as ->; apply (I_fresh _ _ I _ _ _ _ _ _ _ _ Hp E)|].
        destruct (Nat.eqb k k0); discriminate.
      * intros Hf Hw. pose proof (I_B _ _ I Hf Hw _ _ _ _ _ Hp) as HB. updg g (cur s); [|exact HB].
        rewrite dget_app. destruct HB as [[b H]|(v & e & H)]; rewrite H; eauto.
    + intros k0 l0 pd b g Hp Hf Hw. pose proof (I_A _ _ I Hf Hw _ _ _ _ _ _ Hp) as HA.
      updg g (cur s); [|exact HA]. now rewrite dget_app, HA.
Qed.

(* an expired value of the current dict is replaced by a placeholder and moved to the end *)
Lemma inv1_replace cf s k l x v exp :
  Inv1 cf s -> dfind k (dict s) = Some x -> se x = EVal v exp -> l < nlock s -> lkey s l = k ->
  (f_waited s = false -> waited cf s k (cur s) = false) ->
  Inv1 cf (bump_clk (set_dict s (cur s) (dmove k (clk s) (dset_in k (EPlace l false) (dict s))))).
Proof.
  intros I Hfind Hse Hl Hk Hnw. unfold dict in *. pose proof (dget_find _ _ _ Hfind) as Hg. rewrite Hse in Hg.
  assert (Hget : forall k0, dget k0 (dmove k (clk s) (dset_in k (EPlace l false) (dicts s (cur s)))) =
                            if Nat.eqb k0 k then Some (EPlace l false) else dget k0 (dicts s (cur s))).
  { intros k0. rewrite dget_dmove, dget_dset_in, Hg. reflexivity. }
  apply inv1_intro; [apply (I_lp _ _ I)| |].
  - intros g. sm. updg g (cur s).
    + refine (DI_dmove s k _ (DI_dset_in s k _ _ (DI_of cf s _ I) _)). intros st Hst. split; [exact Hst|]. cbn. auto.
    + apply (DI_mono s _ _ (DI_of cf s g I)); sm; auto using incl_refl.
  - intros c. apply (CallerOK_entry cf s _ _ (CO_of cf s c I)); sm; auto using incl_refl.
    + intros k0 l0 t0 g Hp. split.
      * intros v0 e dl Hd. updg g (cur s); [|apply (I_fresh _ _ I _ _ _ _ _ _ _ _ Hp Hd)]. rewrite Hget in Hd.
        destruct (Nat.eqb k0 k); [discriminate|apply (I_fresh _ _ I _ _ _ _ _ _ _ _ Hp Hd)].
      * intros Hf Hw. pose proof (I_B _ _ I Hf Hw _ _ _ _ _ Hp) as HB. updg g (cur s); [|exact HB].
        rewrite Hget. destruct (Nat.eqb_spec k0 k) as [->|N]; [|exact HB].
        now elim (waited_false cf s k (cur s) c l0 t0 I (Hnw Hw) Hp).
    + intros k0 l0 pd b g Hp Hf Hw. pose proof (I_A _ _ I Hf Hw _ _ _ _ _ _ Hp) as HA.
      updg g (cur s); [|exact HA]. rewrite Hget. destruct (Nat.eqb_spec k0 k) as [->|N]; [congruence|exact HA].
Qed.

(* move_to_end in dict g *)
Lemma inv1_touch cf s g k : Inv1 cf s -> Inv1 cf (bump_clk (set_dict s g (dmove k (clk s) (dicts s g)))).
Proof.
  intros I. apply inv1_intro; [apply (I_lp _ _ I)| |].
  - intros g0. sm. updg g0 g; [exact (DI_dmove s k _ (DI_of cf s _ I))|].
    apply (DI_mono s _ _ (DI_of cf s g0 I)); sm; auto using incl_refl.
  - intros c. apply (CallerOK_mono cf s _ _ (CO_of cf s c I)); sm; auto using incl_refl.
    intros k0 l0 g0 _ _. updg g0 g; [apply dget_dmove|reflexivity].
Qed.

(* a lock operation by a caller suspended in acquire() that stays there *)
Lemma inv1_lock_only cf s c k l t0 g o :
  Inv1 cf s -> phase s c = CLockWait k l t0 g -> LockEntry.op_tid o = c ->
  engaged (fst (Lock.step (locks s l) o)) c ->
  Inv1 cf (set_lock s l (fst (Lock.step (locks s l) o))).
Proof.
  intros I Hp Ho He. apply inv1_intro; [|exact (fun g => DI_of cf s g I)|exact (fun c => CO_of cf s c I)].
  apply LP_ext with (ph := upd (phase s) c (phase s c)).
  - intros c0. destruct (Nat.eq_dec c0 c) as [->|N]; [now rewrite upd_same|now rewrite upd_other].
  - apply LP_update; [apply (I_lp _ _ I)| | | | | | | |].
    + apply LockProofs.step_inv, (L_inv _ _ _ _ _ (I_lp _ _ I)).
    + intros c' N. apply (LP_step_other _ _ _ _ _ l o (I_lp _ _ I)). congruence.
    + rewrite Hp. cbn. intros k0 l0 [= _ <-]. reflexivity.
    + intros _. rewrite Hp. cbn. eauto.
    + rewrite Hp. intros k0 l0 t1 g1 [= _ <- _ _]. auto.
    + rewrite Hp. discriminate.
    + apply (L_ref _ _ _ _ _ (I_lp _ _ I) c).
    + intros _. apply (L_ncall _ _ _ _ _ (I_lp _ _ I)). congruence.
Qed.

(* an idle caller enters `async with lock` of the entry it has just looked up *)
Lemma inv1_mark cf s c k l b0 :
  Inv1 cf s -> phase s c = CIdle -> c < ncall cf -> dget k (dict s) = Some (EPlace l b0) ->
  l < nlock s -> lkey s l = k -> is_zero_max cf = false ->
  engaged (fst (Lock.step (locks s l) (Lock.AcqBegin c))) c ->
  Inv1 cf (set_lock (set_phase s c (CLockWait k l (now s) (cur s))) l
                    (fst (Lock.step (locks s l) (Lock.AcqBegin c)))).
Proof.
  intros I Hp Hc Hd Hl Hk Hz He. unfold dict in *. apply inv1_intro; [|exact (fun g => DI_of cf s g I)|].
  - apply LP_update; [apply (I_lp _ _ I)| | | | | | | |].
    + apply LockProofs.step_inv, (L_inv _ _ _ _ _ (I_lp _ _ I)).
    + intros c' N. apply (LP_step_other _ _ _ _ _ l (Lock.AcqBegin c) (I_lp _ _ I)). exact N.
    + rewrite Hp. discriminate.
    + intros _. cbn. eauto.
    + intros k0 l0 t1 g1 [= _ <- _ _]. auto.
    + discriminate.
    + cbn. intros k0 l0 [= <- <-]. auto.
    + auto.
  - refine (callers_upd cf _ (phase s) c (CLockWait k l (now s) (cur s)) (fun c0 _ => CO_of cf s c0 I) _).
    refine (conj (le_n _) (conj _ (conj Hz (conj (fun _ => eq_refl) (conj (le_n _) _))))); sm; [congruence|eauto].
Qed.

(* a caller leaves its call (cancelled while waiting, KeyError, failure, re-read hit) *)
Lemma LP_out cf s c k l o :
  Inv1 cf s -> lockref (phase s c) = Some (k, l) -> LockEntry.op_tid o = c ->
  ~ engaged (fst (Lock.step (locks s l) o)) c ->
  LP cf (upd (locks s) l (fst (Lock.step (locks s l) o))) (upd (phase s) c CIdle) (nlock s) (lkey s).
Proof.
  intros I Hp Ho He.
  apply LP_update; [apply (I_lp _ _ I)| | | | | | | |].
  - apply LockProofs.step_inv, (L_inv _ _ _ _ _ (I_lp _ _ I)).
  - intros c' N. apply (LP_step_other _ _ _ _ _ l o (I_lp _ _ I)). congruence.
  - rewrite Hp. intros k0 l0 [= _ <-]. reflexivity.
  - intros H. contradiction.
  - discriminate.
  - discriminate.
  - discriminate.
  - congruence.
Qed.

Lemma inv1_out cf s c k l o :
  Inv1 cf s -> lockref (phase s c) = Some (k, l) -> LockEntry.op_tid o = c ->
  ~ engaged (fst (Lock.step (locks s l) o)) c ->
  Inv1 cf (set_phase (set_lock s l (fst (Lock.step (locks s l) o))) c CIdle).
Proof.
  intros I Hp Ho He. apply inv1_intro; [exact (LP_out cf s c k l o I Hp Ho He)|exact (fun g => DI_of cf s g I)|].
  exact (callers_upd cf _ (phase s) c CIdle (fun c0 _ => CO_of cf s c0 I) Logic.I).
Qed.

Lemma own_place cf s c k l t0 g l' b' :
  Inv1 cf s -> phase s c = CLockWait k l t0 g -> dget k (dicts s g) = Some (EPlace l' b') ->
  f_inflight s = false -> f_waited s = false -> l' = l.
Proof.
  intros I Hp Hd Hf Hw. destruct (I_B _ _ I Hf Hw _ _ _ _ _ Hp) as [[b H]|(v & e & H)]; congruence.
Qed.

(* what the flags say about the evicted head when they stay false *)
Lemma evict_flags_false cf s g x0 :
  fl_inflight (evict_flags cf s g x0) = false -> fl_waited (evict_flags cf s g x0) = false ->
  f_inflight s = false /\ f_waited s = false /\
  match se x0 with
  | EPlace l b => referenced cf s l = false
  | EVal _ _ => waited cf s (sk x0) g = false
  end.
Proof.
  unfold evict_flags, f_inflight, f_waited. destruct (se x0) as [l b|v e].
  - destruct (referenced cf s l); cbn; intros H1 H2.
    + apply orb_false_elim in H1. destruct H1. discriminate.
    + auto.
  - cbn. intros H1 H2. apply orb_false_elim in H2. tauto.
Qed.

Lemma evict_flags_other cf s g x0 :
  fl_dead (evict_flags cf s g x0) = fl_dead (fl s) /\ fl_phantom (evict_flags cf s g x0) = fl_phantom (fl s).
Proof. unfold evict_flags. destruct (se x0); [destruct (referenced cf s l)|]; split; reflexivity. Qed.

(* popitem(last=False) at a miss: when the flags stay false, the head was nobody's entry *)
Lemma inv1_evict cf s g : Inv1 cf s -> Inv1 cf (evict cf s g).
Proof.
  intros I. unfold evict. destruct (dicts s g) as [|x0 r] eqn:Hdict; [exact I|].
  pose proof (DI_of cf s g I) as HD0. rewrite Hdict in HD0. pose proof (proj1 HD0) as Hnd.
  (* a caller whose entry is the head keeps the flags from staying false *)
  assert (Hhead : fl_inflight (evict_flags cf s g x0) = false -> fl_waited (evict_flags cf s g x0) = false ->
            forall c k l, lockref (phase s c) = Some (k, l) -> dictgen (phase s c) = Some g ->
            CallerOK cf s (phase s c) -> dget k r = dget k (x0 :: r)).
  { intros Hf Hw c k l Hr Hg Hok. destruct (evict_flags_false cf s g x0 Hf Hw) as (Hf0 & Hw0 & Hx0).
    apply dget_tl. intros E.
    destruct (phase s c) as [|?|k1 l1 t1 g1|k1 l1 p1 b1 g1|? ? ?|? ? ?] eqn:Hp; try discriminate;
      cbn in Hr, Hg, Hok; injection Hr as -> ->; injection Hg as ->; rewrite Hdict, dget_cons, E, Nat.eqb_refl in Hok.
    - destruct Hok as (_ & _ & _ & _ & _ & HB). destruct (HB Hf0 Hw0) as [[b HB']|(v & e & HB')];
        injection HB' as HB'; rewrite HB' in Hx0.
      + apply (referenced_false cf s l c k I Hx0). now rewrite Hp.
      + rewrite E in Hx0. apply (waited_false cf s k g c l t1 I Hx0 Hp).
    - destruct Hok as (_ & _ & _ & HA). specialize (HA Hf0 Hw0). injection HA as HA. rewrite HA in Hx0.
      apply (referenced_false cf s l c k I Hx0). now rewrite Hp. }
  apply inv1_intro; [apply (I_lp _ _ I)| |].
  - intros g0. sm. updg g0 g; [exact (DI_tl s _ _ HD0)|exact (DI_of cf s g0 I)].
  - intros c. pose proof (CO_of cf s c I) as Hok.
    apply (CallerOK_entry cf s _ _ Hok); sm; auto using incl_refl.
    + rewrite (proj2 (evict_flags_other cf s g x0)). auto.
    + intros k l t0 g0 Hp. split.
      * intros v e dl Hd. updg g0 g; [|apply (I_fresh _ _ I _ _ _ _ _ _ _ _ Hp Hd)].
        apply (I_fresh _ _ I _ _ _ _ _ v e dl Hp). rewrite Hdict.
        destruct (dget_tl_cases k x0 r Hnd) as [E|E]; congruence.
      * intros Hf Hw. destruct (evict_flags_false cf s g x0 Hf Hw) as (Hf0 & Hw0 & _).
        pose proof (I_B _ _ I Hf0 Hw0 _ _ _ _ _ Hp) as HB. updg g0 g; [|exact HB].
        rewrite (Hhead Hf Hw c k l), <- Hdict; [exact HB|now rewrite Hp|now rewrite Hp|exact Hok].
    + intros k l pd b g0 Hp Hf Hw. destruct (evict_flags_false cf s g x0 Hf Hw) as (Hf0 & Hw0 & _).
      pose proof (I_A _ _ I Hf0 Hw0 _ _ _ _ _ _ Hp) as HA. updg g0 g; [|exact HA].
      rewrite (Hhead Hf Hw c k l), <- Hdict; [exact HA|now rewrite Hp|now rewrite Hp|exact Hok].
Qed.

Lemma evict_frame cf s g : phase (evict cf s g) = phase s /\ locks (evict cf s g) = locks s.
Proof. unfold evict. now destruct (dicts s g). Qed.

Lemma dget_evict cf s g k :
  NoDup (keys (dicts s g)) ->
  dget k (dicts (evict cf s g) g) = dget k (dicts s g) \/ dget k (dicts (evict cf s g) g) = None.
Proof.
  intros Hn. unfold evict. destruct (dicts s g) as [|x0 r] eqn:E; [left; now rewrite E|]. sm. rewrite upd_same.
  apply (dget_tl_cases k x0 r Hn).
Qed.

(* the rest of the miss bookkeeping (lines 199-203): the caller that holds the lock of its key's entry, not a value,
   has it marked as counted and enters the wrapped function *)
Lemma inv1_mark_run cf s c k l t0 g :
  Inv1 cf s -> phase s c = CLockWait k l t0 g -> In c (Lock.held (locks s l)) ->
  (forall v e, dget k (dicts s g) <> Some (EVal v e)) ->
  Inv1 cf (set_phase (set_dict s g (dmark k (dicts s g))) c (CInWrapped k l None false g)).
Proof.
  intros I Hp Hh Hnv.
  assert (Hget : forall k0, dget k0 (dicts s g) = dget k0 (dmark k (dicts s g)) \/
                            exists l0 b0, dget k0 (dicts s g) = Some (EPlace l0 b0) /\
                                          dget k0 (dmark k (dicts s g)) = Some (EPlace l0 true)).
  { intros k0. rewrite dget_dmark. destruct (Nat.eqb_spec k0 k) as [->|N]; [|now left].
    destruct (dget k (dicts s g)) as [[l0 b0|v e]|]; eauto. }
  apply inv1_intro.
  - apply LP_phase; [apply (I_lp _ _ I)| | | | |].
    + intros l0 He. destruct (L_eng _ _ _ _ _ (I_lp _ _ I) l0 c He) as [k0 Hk]. rewrite Hp in Hk. cbn in *. eauto.
    + discriminate.
    + intros k0 l0 p b g0 [= _ <- _ _ _]. exact Hh.
    + cbn. intros k0 l0 [= <- <-]. apply (L_ref _ _ _ _ _ (I_lp _ _ I) c). now rewrite Hp.
    + intros _. apply (L_ncall _ _ _ _ _ (I_lp _ _ I)). congruence.
  - intros g0. sm. updg g0 g; [exact (DI_dmark s k _ (DI_of cf s _ I))|exact (DI_of cf s _ I)].
  - sm. apply callers_upd.
    + intros c0 _. apply (CallerOK_entry cf s _ _ (CO_of cf s c0 I)); sm; auto using incl_refl.
      * intros k0 l0 t1 g0 Hp0. split.
        -- intros v e dl Hd. apply (I_fresh _ _ I _ _ _ _ _ v e dl Hp0). updg g0 g; [|exact Hd].
           destruct (Hget k0) as [E|(l1 & b1 & _ & E)]; congruence.
        -- intros Hf Hw. pose proof (I_B _ _ I Hf Hw _ _ _ _ _ Hp0) as HB. updg g0 g; [|exact HB].
           destruct (Hget k0) as [<-|(l1 & b1 & E1 & ->)]; [exact HB|]. left.
           destruct HB as [[b HB]|(v & e & HB)]; [exists true|]; congruence.
      * intros k0 l0 pd b g0 Hp0 Hf Hw. pose proof (I_A _ _ I Hf Hw _ _ _ _ _ _ Hp0) as HA.
        updg g0 g; [|exact HA]. destruct (Hget k0) as [<-|(l1 & b1 & E1 & ->)]; congruence.
    + pose proof (CO_of cf s c I) as H. rewrite Hp in H. cbn in H |- *.
      destruct H as (_ & _ & H3 & H4 & H5 & H6). refine (conj H3 (conj H4 (conj H5 _))).
      intros Hf Hw. rewrite upd_same, dget_dmark, Nat.eqb_refl.
      destruct (H6 Hf Hw) as [[b ->]|(v & e & H)]; [reflexivity|now apply Hnv in H].
Qed.

(* the wrapped function returned: store, release, return (lines 205-209, 216) *)
Lemma inv1_store_out cf s c k l v g :
  Inv1 cf s -> phase s c = CInWrapped k l (Some (WRet v)) false g ->
  Inv1 cf (set_phase (set_lock (bump_clk (set_dict (add_produced s k v) g
                                   (dstore k (EVal v (new_exp cf (now s))) (clk s) (dicts s g))))
                               l (fst (Lock.step (locks s l) (Lock.Release c)))) c CIdle).
Proof.
  intros I Hp.
  pose proof (L_run _ _ _ _ _ (I_lp _ _ I) _ _ _ _ _ _ Hp) as Hh.
  apply inv1_intro.
  - apply (LP_out cf s c k l (Lock.Release c) I); [now rewrite Hp|reflexivity|].
    apply release_holder; [apply (L_inv _ _ _ _ _ (I_lp _ _ I))|exact Hh].
  - intros g0. sm. updg g0 g.
    + refine (DI_dstore (add_produced s k v) k v _ _ _ (or_introl eq_refl)).
      apply (DI_mono s _ _ (DI_of cf s g I)); sm; auto using incl_tl, incl_refl.
    + apply (DI_mono s _ _ (DI_of cf s g0 I)); sm; auto using incl_tl, incl_refl.
  - sm. apply callers_upd; [|exact Logic.I].
    intros c0 Nc. apply (CallerOK_entry cf s _ _ (CO_of cf s c0 I)); sm; auto using incl_tl, incl_refl.
    + intros k0 l0 t1 g0 Hp0. split.
      * intros v0 e dl Hd Ht. updg g0 g; [|apply (I_fresh _ _ I _ _ _ _ _ _ _ _ Hp0 Hd Ht)].
        rewrite dget_dstore in Hd. destruct (Nat.eqb k0 k); [|apply (I_fresh _ _ I _ _ _ _ _ _ _ _ Hp0 Hd Ht)].
        injection Hd as _ Hd. unfold new_exp in Hd. rewrite Ht in Hd. injection Hd as <-.
        pose proof (I_t0 _ _ I _ _ _ _ _ Hp0). lia.
      * intros Hf Hw. pose proof (I_B _ _ I Hf Hw _ _ _ _ _ Hp0) as HB. updg g0 g; [|exact HB].
        rewrite dget_dstore. destruct (Nat.eqb k0 k); [right; eauto|exact HB].
    + intros k0 l0 pd b g0 Hp0 Hf Hw. pose proof (I_A _ _ I Hf Hw _ _ _ _ _ _ Hp0) as HA.
      updg g0 g; [|exact HA]. rewrite dget_dstore. destruct (Nat.eqb_spec k0 k) as [->|N]; [|exact HA]. exfalso.
      (* c0 would hold the lock that c holds *)
      pose proof (I_A _ _ I Hf Hw _ _ _ _ _ _ Hp) as HA'. assert (l0 = l) by congruence. subst l0.
      pose proof (L_run _ _ _ _ _ (I_lp _ _ I) _ _ _ _ _ _ Hp0) as Hh0.
      apply Nc, (held_unique _ _ _ (L_inv _ _ _ _ _ (I_lp _ _ I) l) Hh0 Hh).
Qed.

(* cache_clear(), a new event loop *)
Lemma all_idle_phase cf s : Inv1 cf s -> all_idle cf s = true -> forall c, phase s c = CIdle.
Proof.
  intros I H c. unfold all_idle in H. rewrite forallb_forall in H.
  destruct (phase s c) eqn:E; [reflexivity| | | | |];
    (assert (Hc : c < ncall cf) by (apply (L_ncall _ _ _ _ _ (I_lp _ _ I)); congruence);
     assert (Hin : In c (seq 0 (ncall cf))) by (apply in_seq; lia);
     specialize (H c Hin); rewrite E in H; discriminate).
Qed.

(* a fresh, empty current dict; the flag b must be set unless nobody is inside a call *)
Lemma inv1_newgen cf s hd h m cs b :
  Inv1 cf s -> (b = false -> all_idle cf s = true) ->
  Inv1 cf (mk (upd (dicts s) (S (cur s)) []) (S (cur s)) hd h m cs (locks s) (nlock s) (phase s) (now s) (clk s)
              (lkey s) (produced s) (fl_or_phantom (fl s) b)).
Proof.
  intros I Hb. apply inv1_intro; [apply (I_lp _ _ I)| |].
  - intros g. sm. updg g (S (cur s)); [apply DI_nil|exact (DI_of cf s g I)].
  - intros c. destruct b.
    + apply (CallerOK_mono cf s _ _ (CO_of cf s c I)); sm; auto using incl_refl.
      * now rewrite orb_true_r.
      * intros k l g _ Hg. pose proof (I_le _ _ I c g Hg). rewrite upd_other by lia. reflexivity.
    + cbn [phase]. rewrite (all_idle_phase cf s I (Hb eq_refl) c). exact Logic.I.
Qed.

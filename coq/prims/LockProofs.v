(* Proofs about the Lock machine: one step case by case, and an inductive invariant for every op sequence. *)
From AV Require Import Base Lock.
From AV Require Export WaitQueue.
From AV Require LockImp LockEntry.

Inductive subseq {A} : list A -> list A -> Prop :=
| ss_nil : subseq [] []
| ss_skip x a b : subseq a b -> subseq a (x :: b)
| ss_take x a b : subseq a b -> subseq (x :: a) (x :: b).

Lemma subseq_refl {A} (l : list A) : subseq l l.
Proof. induction l; [apply ss_nil | apply ss_take; assumption]. Qed.

Lemma subseq_nil_l {A} (l : list A) : subseq [] l.
Proof. induction l; [apply ss_nil | apply ss_skip; assumption]. Qed.

Lemma subseq_trans {A} (a b c : list A) : subseq a b -> subseq b c -> subseq a c.
Proof.
  intros Hab Hbc. revert a Hab. induction Hbc as [|x b c Hbc IH|x b c Hbc IH]; intros a Hab.
  - exact Hab.
  - constructor. apply IH, Hab.
  - inversion Hab as [|y a' b' H1|y a' b' H1]; subst.
    + constructor. apply IH. exact H1.
    + apply ss_take. apply IH. exact H1.
Qed.

Lemma subseq_app_tail {A} (a b : list A) x : subseq a b -> subseq (a ++ [x]) (b ++ [x]).
Proof.
  induction 1 as [|y a b H IH|y a b H IH]; cbn.
  - apply ss_take, ss_nil.
  - apply ss_skip, IH.
  - apply ss_take, IH.
Qed.

Lemma subseq_suffix {A} (pre l : list A) : subseq l (pre ++ l).
Proof. induction pre; cbn; [apply subseq_refl|apply ss_skip; assumption]. Qed.

Lemma in_remove_tid t x l : In x (remove_tid t l) <-> In x l /\ x <> t.
Proof. apply in_filter_neq. Qed.

Lemma nodup_remove_tid t l : NoDup l -> NoDup (remove_tid t l).
Proof. intros H. unfold remove_tid. now apply NoDup_filter. Qed.

Lemma remove_item_subseq t f ws : subseq (remove_item t f ws) ws.
Proof.
  induction ws as [|[t' f'] r IH]; cbn; [constructor|].
  destruct (Nat.eqb t' t && Nat.eqb f' f); [apply ss_skip, subseq_refl | apply ss_take, IH].
Qed.

Lemma subseq_in {A} (a b : list A) x : subseq a b -> In x a -> In x b.
Proof.
  induction 1 as [|y a b Hs IH|y a b Hs IH]; cbn; intros Hin; auto.
  destruct Hin as [Hin|Hin]; auto.
Qed.

Lemma subseq_map {A B} (g : A -> B) a b : subseq a b -> subseq (map g a) (map g b).
Proof.
  induction 1 as [|y a b H IH|y a b H IH]; cbn;
    [apply ss_nil | apply ss_skip, IH | apply ss_take, IH].
Qed.

Lemma subseq_nodup {A} (a b : list A) : subseq a b -> NoDup b -> NoDup a.
Proof.
  induction 1 as [|x a b H IH|x a b H IH]; intros Hn; [constructor| |].
  - inversion Hn; auto.
  - inversion Hn as [|y l Hy Hl]; subst. constructor; [|auto].
    intros Hin. apply Hy. eapply subseq_in; eauto.
Qed.

Lemma in_remove_item_other t f ws x : In x ws -> x <> (t, f) -> In x (remove_item t f ws).
Proof.
  induction ws as [|[t' f'] r IH]; cbn; [tauto|]. intros [H|H] Hne.
  - subst x. destruct (Nat.eqb_spec t' t), (Nat.eqb_spec f' f); cbn; try (left; reflexivity).
    subst. contradiction.
  - destruct (Nat.eqb t' t && Nat.eqb f' f); [exact H| right; apply IH; assumption].
Qed.

Lemma remove_item_gone t f ws :
  NoDup (map fst ws) -> (forall f', In (t, f') ws -> f' = f) ->
  ~ In t (map fst (remove_item t f ws)).
Proof.
  induction ws as [|[t' f'] r IH]; cbn; intros Hn Hf; [tauto|].
  inversion Hn as [|y l Hy Hl]; subst.
  destruct (Nat.eqb_spec t' t) as [->|Hne]; cbn.
  - assert (f' = f) by (apply Hf; left; reflexivity). subst. rewrite Nat.eqb_refl. exact Hy.
  - cbn. intros [H|H]; [contradiction|]. revert H. apply IH; [exact Hl|].
    intros f'' Hin. apply Hf. right. exact Hin.
Qed.

Lemma handoff_spec ws fu :
  match handoff ws fu with
  | (None, ws', fu') => ws' = [] /\ fu' = fu /\ (forall t f, In (t, f) ws -> fu f = FCancelled)
  | (Some w, ws', fu') =>
      exists pre f, ws = pre ++ (w, f) :: ws' /\ fu f <> FCancelled /\ fu' = upd fu f FSet /\
                    (forall t' f', In (t', f') pre -> fu f' = FCancelled)
  end.
Proof.
  induction ws as [|[t f] r IH]; cbn.
  - refine (conj eq_refl (conj eq_refl _)). intros ? ? [].
  - destruct (fu f) eqn:Ef.
    + exists [], f. cbn. refine (conj eq_refl (conj _ (conj eq_refl _))); [congruence|intros ? ? []].
    + exists [], f. cbn. refine (conj eq_refl (conj _ (conj eq_refl _))); [congruence|intros ? ? []].
    + destruct (handoff r fu) as [[o ws'] fu']. destruct o as [w|].
      * destruct IH as (pre & f0 & E & Hf & Hu & Hp). exists ((t, f) :: pre), f0.
        subst r. cbn. refine (conj eq_refl (conj Hf (conj Hu _))).
        intros t' f' [H|H]; [congruence|eauto].
      * destruct IH as (E1 & E2 & Hp). refine (conj E1 (conj E2 _)).
        intros t' f' [H|H]; [congruence|eauto].
Qed.

(* One step, case by case: which of its few successor states `step` returns under which condition, and what a step
   leaves alone.  For every state: no invariant is assumed. *)
Lemma tid_eqb_optP o t : reflect (o = Some t) (tid_eqb_opt o t).
Proof.
  destruct o as [x|]; cbn; [|constructor; discriminate].
  destruct (Nat.eqb_spec x t); constructor; congruence.
Qed.

Lemma do_release_frame s t :
  (owner (do_release s t), waiters (do_release s t), futs (do_release s t)) = handoff (waiters s) (futs s) /\
  fast (do_release s t) = fast s /\ nfut (do_release s t) = nfut s /\
  phase_of (do_release s t) = phase_of s /\ mustc (do_release s t) = mustc s /\
  held (do_release s t) = remove_tid t (held s) /\ enq (do_release s t) = enq s.
Proof. unfold do_release. destruct (handoff (waiters s) (futs s)) as [[o ws] fu]. cbn. tauto. Qed.

(* the pop loop cancels nothing *)
Lemma handoff_futs ws fu f : snd (handoff ws fu) f = FCancelled -> fu f = FCancelled.
Proof.
  induction ws as [|[t g] r IH]; cbn; [auto|].
  destruct (fu g); cbn; auto; unfold upd; destruct (Nat.eqb f g); auto; discriminate.
Qed.

Lemma do_release_futs s t f : futs (do_release s t) f = FCancelled -> futs s f = FCancelled.
Proof.
  destruct (do_release_frame s t) as (E & _). intros H. apply (handoff_futs (waiters s)).
  rewrite <- E. exact H.
Qed.

(* the successor states other than do_release: the free lock taken by t (which then returns at once, held, or yields,
   FastYield); t queued on a fresh future; t's cancelled wait withdrawn; the pending future f cancelled.
   LockImp.woken is the state t's wake-up starts from. *)
Definition took (s : st) (t : tid) : st :=
  mk (fast s) (Some t) [] (futs s) (nfut s) (phase_of s) (mustc s) (held s) (enq s).

Definition queued (s : st) (t : tid) : st :=
  mk (fast s) (owner s) (waiters s ++ [(t, nfut s)]) (upd (futs s) (nfut s) FPending) (S (nfut s))
     (upd (phase_of s) t (Waiting (nfut s))) (mustc s) (held s) (enq s ++ [(t, nfut s)]).

Definition withdrawn (s : st) (t : tid) (f : fid) : st :=
  mk (fast s) (owner s) (remove_item t f (waiters s)) (futs s) (nfut s) (upd (phase_of s) t Idle)
     (upd (mustc s) t false) (held s) (enq s).

Definition fut_cancelled (s : st) (f : fid) : st :=
  mk (fast s) (owner s) (waiters s) (upd (futs s) f FCancelled) (nfut s) (phase_of s) (mustc s) (held s) (enq s).

(* t is suspended inside acquire() with the lock already assigned to it *)
Definition wake_ready (s : st) (t : tid) : Prop :=
  ready (Yld := FastYield) (W := Waiting) (FS := FSet) (phase_of s) (futs s) t.

(* one lemma per op; each case reads (its condition) /\ (what step returns) *)
Lemma step_acq s o t : (o = AcqBegin t \/ o = AcqNowait t) ->
  (phase_of s t <> Idle /\ step s o = (s, RRejected)) \/
  (phase_of s t = Idle /\
   (((owner s = None /\ waiters s = [] /\ (o = AcqNowait t \/ fast s = true)) /\
       step s o = (add_held (took s t) t, RDone)) \/
    ((owner s = None /\ waiters s = [] /\ o = AcqBegin t /\ fast s = false) /\
       step s o = (set_phase (took s t) t FastYield, RBlocked)) \/
    (owner s = Some t /\ step s o = (s, RRuntime)) \/
    ((owner s <> Some t /\ ~ (owner s = None /\ waiters s = []) /\ o = AcqBegin t) /\
       step s o = (queued s t, RBlocked)) \/
    ((owner s <> Some t /\ ~ (owner s = None /\ waiters s = []) /\ o = AcqNowait t) /\
       step s o = (s, RWouldBlock)))).
Proof.
  (* `step s o` occurs six times in the statement: it is named r, and unfolded once, in Er *)
  intros Ho. remember (step s o) as r eqn:Er.
  destruct (phase_of s t) eqn:Hp;
    [right; split; [reflexivity|]
    |left; split; [discriminate|]; destruct Ho as [-> | ->]; cbn [step] in Er; now rewrite Hp in Er..].
  assert (Hc : (owner s = None /\ waiters s = []) \/ ~ (owner s = None /\ waiters s = [])).
  { destruct (owner s); [right; intros [? _]; discriminate|].
    destruct (waiters s); [left; auto | right; intros [_ ?]; discriminate]. }
  destruct Hc as [[Eo Ew] | Hn].
  - destruct Ho as [-> | ->]; cbn [step] in Er; rewrite Hp, Eo, Ew in Er; cbn [is_idle negb] in Er;
      fold (took s t) in Er; [|left; auto 6].
    destruct (fast s) eqn:Ef; [left|right; left]; auto 6.
  - (* the contended branch of both calls *)
    assert (Hm : forall a b : st * res, match owner s, waiters s with None, [] => a | _, _ => b end = b).
    { intros a b. destruct (owner s); [reflexivity|]. destruct (waiters s); [exfalso; auto | reflexivity]. }
    right; right.
    destruct Ho as [-> | ->]; cbn [step] in Er; rewrite Hp in Er; cbn [is_idle negb] in Er; rewrite Hm in Er;
      fold (queued s t) in Er; destruct (tid_eqb_optP (owner s) t); auto 6.
Qed.

Lemma step_release s t :
  (phase_of s t <> Idle /\ step s (Release t) = (s, RRejected)) \/
  ((phase_of s t = Idle /\ owner s = Some t) /\ step s (Release t) = (do_release s t, RDone)) \/
  ((phase_of s t = Idle /\ owner s <> Some t) /\ step s (Release t) = (s, RRuntime)).
Proof.
  remember (step s (Release t)) as r eqn:Er. cbn [step] in Er.
  destruct (phase_of s t); [right|left; split; [discriminate|exact Er]..].
  cbn [is_idle negb] in Er. destruct (tid_eqb_optP (owner s) t); auto.
Qed.

Lemma step_resume s t :
  ((wake_ready s t /\ mustc s t = false) /\ step s (Resume t) = (add_held (LockImp.woken s t) t, RDone)) \/
  ((wake_ready s t /\ mustc s t = true /\ owner s = Some t) /\
     step s (Resume t) = (do_release (LockImp.woken s t) t, RCancelled)) \/
  ((wake_ready s t /\ mustc s t = true /\ owner s <> Some t) /\ step s (Resume t) = (LockImp.woken s t, RRuntime)) \/
  (exists f, (phase_of s t = Waiting f /\ futs s f = FCancelled) /\ step s (Resume t) = (withdrawn s t f, RCancelled)) \/
  ((phase_of s t = Idle \/ exists f, phase_of s t = Waiting f /\ futs s f = FPending) /\
   step s (Resume t) = (s, RRejected)).
Proof.
  remember (step s (Resume t)) as r eqn:Er. cbn [step] in Er. fold (LockImp.woken s t) in Er.
  change (owner (LockImp.woken s t)) with (owner s) in Er.
  destruct (phase_of s t) as [| |f] eqn:Ep;
    [do 4 right; auto| |destruct (futs s f) eqn:Ef; [do 4 right; eauto| |do 3 right; left; eauto]];
    (* the two ready cases *)
    (assert (W : wake_ready s t) by (first [now left | right; eauto]));
    (destruct (mustc s t); [destruct (tid_eqb_optP (owner s) t); [right; left|do 2 right; left]|left]); auto.
Qed.

Lemma step_cancel s t :
  (phase_of s t = Idle /\ step s (Cancel t) = (s, RRejected)) \/
  (exists f, (phase_of s t = Waiting f /\ futs s f = FPending) /\ step s (Cancel t) = (fut_cancelled s f, RNone)) \/
  ((phase_of s t <> Idle /\ forall f, phase_of s t = Waiting f -> futs s f <> FPending) /\
   step s (Cancel t) = (set_mustc s t true, RNone)).
Proof.
  remember (step s (Cancel t)) as r eqn:Er. cbn [step] in Er. destruct (phase_of s t) as [| |f] eqn:Ep.
  - left. auto.
  - right; right. repeat split; congruence.
  - destruct (futs s f) eqn:Ef; [right; left; eauto|right; right..]; repeat split; congruence.
Qed.

(* every op: whatever holds of the eleven possible successor states holds of the state after a step by t *)
Lemma step_states s o (P : st -> Prop) : let t := LockEntry.op_tid o in
  P s -> P (add_held (took s t) t) -> P (set_phase (took s t) t FastYield) -> P (queued s t) ->
  P (do_release s t) -> P (add_held (LockImp.woken s t) t) -> P (do_release (LockImp.woken s t) t) ->
  P (LockImp.woken s t) -> (forall f, P (withdrawn s t f)) ->
  (forall f, phase_of s t = Waiting f -> P (fut_cancelled s f)) -> P (set_mustc s t true) -> P (fst (step s o)).
Proof.
  intros t H0 H1 H2 H3 H4 H5 H6 H7 H8 H9 H10. destruct o as [u|u|u|u|u]; cbn [LockEntry.op_tid] in t; subst t.
  - destruct (step_acq s (AcqBegin u) u (or_introl eq_refl)) as [[_ ->]|[_ [[_ ->]|[[_ ->]|[[_ ->]|[[_ ->]|[_ ->]]]]]]];
      assumption.
  - destruct (step_acq s (AcqNowait u) u (or_intror eq_refl)) as [[_ ->]|[_ [[_ ->]|[[_ ->]|[[_ ->]|[[_ ->]|[_ ->]]]]]]];
      assumption.
  - destruct (step_release s u) as [[_ ->]|[[_ ->]|[_ ->]]]; assumption.
  - destruct (step_resume s u) as [[_ ->]|[[_ ->]|[[_ ->]|[(f & _ & ->)|[_ ->]]]]]; cbn [fst]; auto.
  - destruct (step_cancel s u) as [[_ ->]|[(f & [Hp _] & ->)|[_ ->]]]; cbn [fst]; auto.
Qed.

(* the arrival log and the future counter move together, and only when the caller is queued *)
Lemma step_enq s o :
  (enq (fst (step s o)) = enq s /\ nfut (fst (step s o)) = nfut s) \/
  (exists t, enq (fst (step s o)) = enq s ++ [(t, nfut s)] /\ nfut (fst (step s o)) = S (nfut s)).
Proof.
  assert (Hrel : forall s0 t, enq s0 = enq s -> nfut s0 = nfut s ->
                   enq (do_release s0 t) = enq s /\ nfut (do_release s0 t) = nfut s).
  { intros s0 t E N. destruct (do_release_frame s0 t) as (_ & _ & -> & _ & _ & _ & ->). auto. }
  apply (step_states s o (fun s' => (enq s' = enq s /\ nfut s' = nfut s) \/
           exists t, enq s' = enq s ++ [(t, nfut s)] /\ nfut s' = S (nfut s))); auto.
  right. eexists. split; reflexivity.
Qed.

(* a step by a task leaves every other task's standing alone *)
Lemma step_other s o x : x <> LockEntry.op_tid o ->
  phase_of (fst (step s o)) x = phase_of s x /\ mustc (fst (step s o)) x = mustc s x /\
  (In x (held (fst (step s o))) <-> In x (held s)).
Proof.
  intros Hne. set (t := LockEntry.op_tid o) in *.
  assert (Hsame : forall s0, phase_of s0 x = phase_of s x -> mustc s0 x = mustc s x ->
            held s0 = held s \/ held s0 = t :: held s ->
            phase_of s0 x = phase_of s x /\ mustc s0 x = mustc s x /\ (In x (held s0) <-> In x (held s))).
  { intros s0 Ep Em Eh. refine (conj Ep (conj Em _)). destruct Eh as [-> | ->]; [reflexivity|].
    split; [intros [H|H]; [congruence|exact H] | intros H; now right]. }
  assert (Hrel : forall s0, phase_of s0 x = phase_of s x -> mustc s0 x = mustc s x -> held s0 = held s ->
            phase_of (do_release s0 t) x = phase_of s x /\ mustc (do_release s0 t) x = mustc s x /\
            (In x (held (do_release s0 t)) <-> In x (held s))).
  { intros s0 Ep Em Eh. destruct (do_release_frame s0 t) as (_ & _ & _ & -> & -> & -> & _).
    refine (conj Ep (conj Em _)). rewrite in_remove_tid, Eh. split; [intros [H _]; exact H | intros H; exact (conj H Hne)]. }
  apply (step_states s o (fun s' => phase_of s' x = phase_of s x /\ mustc s' x = mustc s x /\
                                    (In x (held s') <-> In x (held s)))); fold t; intros;
    first [apply Hrel | apply Hsame];
    first [reflexivity | apply upd_other, Hne | left; reflexivity | right; reflexivity].
Qed.

(* a future becomes cancelled only by Cancel on the task that waits on it *)
Lemma step_futs_cancelled s o f : futs (fst (step s o)) f = FCancelled ->
  futs s f = FCancelled \/ phase_of s (LockEntry.op_tid o) = Waiting f.
Proof.
  apply (step_states s o (fun s' => futs s' f = FCancelled -> futs s f = FCancelled \/ _)); cbn; auto;
    try (intros H; left; exact (do_release_futs _ _ _ H)); unfold upd.
  - destruct (Nat.eqb f (nfut s)); [discriminate|auto].
  - intros g Hp. destruct (Nat.eqb_spec f g) as [->|]; auto.
Qed.

(* t holds the lock or has been handed it and not yet run: `In t (held s) \/ wake_ready s t` written out (the two
   spellings are convertible) *)
Definition holdish (s : st) (t : tid) : Prop :=
  In t (held s) \/ phase_of s t = FastYield \/ exists f, phase_of s t = Waiting f /\ futs s f = FSet.

Record Inv (s : st) : Prop := {
  I_owner : forall t, owner s = Some t <-> holdish s t;
  I_heldnd : NoDup (held s);
  I_heldidle : forall t, In t (held s) -> phase_of s t = Idle;
  I_free : owner s = None -> waiters s = [];
  I_w : forall t f, In (t, f) (waiters s) -> phase_of s t = Waiting f /\ futs s f <> FSet;
  I_pend : forall t f, phase_of s t = Waiting f -> futs s f = FPending -> In (t, f) (waiters s);
  I_fresh : forall t f, phase_of s t = Waiting f -> f < nfut s;
  I_inj : forall t1 t2 f, phase_of s t1 = Waiting f -> phase_of s t2 = Waiting f -> t1 = t2;
  I_nd : NoDup (map fst (waiters s));
  I_fifo : subseq (waiters s) (enq s)
}.

(* the queue clauses I_w .. I_nd are those of WaitQueue.WQ; the rest of Inv speaks of owner and held *)
Lemma lock_tags : Tags FastYield Waiting FPending FSet FCancelled.
Proof. split; congruence. Qed.

Definition queue_ok (s : st) : Prop :=
  WQ (W := Waiting) (FP := FPending) (FS := FSet) (phase_of s) (futs s) (nfut s) (waiters s).

Lemma inv_queue s : Inv s -> queue_ok s.
Proof. intros I. destruct I. constructor; assumption. Qed.

Lemma inv_intro s :
  (forall t, owner s = Some t <-> In t (held s) \/ wake_ready s t) -> NoDup (held s) ->
  (forall t, In t (held s) -> phase_of s t = Idle) -> (owner s = None -> waiters s = []) ->
  queue_ok s -> subseq (waiters s) (enq s) -> Inv s.
Proof. intros H1 H2 H3 H4 Q H5. destruct Q. constructor; assumption. Qed.

Lemma inv_init fa : Inv (init fa).
Proof.
  apply inv_intro; cbn; try (constructor; fail); try contradiction; try reflexivity.
  - intros t. split; [discriminate|]. intros [[]|[H|(f & H & _)]]; discriminate.
  - constructor; cbn; try discriminate; try contradiction. constructor.
Qed.

Lemma tid_eqb_opt_true o t : tid_eqb_opt o t = true <-> o = Some t.
Proof. symmetry. apply reflect_iff, tid_eqb_optP. Qed.

Lemma idle_not_ready s t : phase_of s t = Idle -> ~ wake_ready s t.
Proof. intros Hp [H|(f & H & _)]; congruence. Qed.

Lemma held_not_ready s t : Inv s -> In t (held s) -> ~ wake_ready s t.
Proof. intros I H. apply idle_not_ready, (I_heldidle s I), H. Qed.

Lemma take_held_inv s t :
  Inv s -> owner s = None -> phase_of s t = Idle -> Inv (add_held (took s t) t).
Proof.
  intros I Ho Hp. pose proof (I_free s I Ho) as Hw.
  assert (Hnone : forall x, ~ holdish s x) by (intros x Hx; apply (I_owner s I) in Hx; congruence).
  apply inv_intro; cbn.
  - intros x. split; [intros [= <-]; left; now left|].
    intros [[->|H]|H]; [reflexivity|exfalso; apply (Hnone x)..]; [left|right]; exact H.
  - constructor; [intros H; apply (Hnone t); now left | apply (I_heldnd s I)].
  - intros x [<-|H]; [exact Hp | apply (I_heldidle s I), H].
  - discriminate.
  - unfold queue_ok; cbn. rewrite <- Hw. apply (inv_queue s I).
  - apply subseq_nil_l.
Qed.

Lemma take_yield_inv s t :
  Inv s -> owner s = None -> phase_of s t = Idle -> Inv (set_phase (took s t) t FastYield).
Proof.
  intros I Ho Hp. pose proof (I_free s I Ho) as Hw.
  assert (Hnone : forall x, ~ holdish s x) by (intros x Hx; apply (I_owner s I) in Hx; congruence).
  apply inv_intro; cbn.
  - intros x. unfold wake_ready; cbn. rewrite ready_yield. split; [intros [= <-]; right; now left|].
    intros [H|[->|H]]; [exfalso; apply (Hnone x); left; exact H|reflexivity|exfalso; apply (Hnone x); right; exact H].
  - apply (I_heldnd s I).
  - intros x H. rewrite upd_other; [apply (I_heldidle s I), H|]. intros ->. apply (Hnone t). left. exact H.
  - discriminate.
  - unfold queue_ok; cbn. rewrite <- Hw. apply WQ_phase; [apply (inv_queue s I)|discriminate|].
    rewrite Hw. intros f [].
  - apply subseq_nil_l.
Qed.

Lemma enqueue_inv s t :
  Inv s -> phase_of s t = Idle -> owner s <> Some t -> owner s <> None -> Inv (queued s t).
Proof.
  intros I Hp Hnt Hsome. pose proof (inv_queue s I) as Q.
  assert (Hnw : forall f, phase_of s t <> Waiting f) by congruence.
  assert (Hny : phase_of s t <> FastYield) by congruence.
  assert (Hnh : ~ In t (held s)) by (intros H; apply Hnt, (I_owner s I); left; exact H).
  apply inv_intro; cbn.
  - intros x. unfold wake_ready; cbn. rewrite (ready_enqueue lock_tags _ _ _ _ t x Q Hnw Hny). apply (I_owner s I).
  - apply (I_heldnd s I).
  - intros x H. rewrite upd_other; [apply (I_heldidle s I), H|]. intros ->. contradiction.
  - contradiction.
  - apply (WQ_enqueue lock_tags _ _ _ _ t Q Hnw).
  - apply subseq_app_tail, (I_fifo s I).
Qed.

Lemma remove_tid_cons_same t l : remove_tid t (t :: l) = remove_tid t l.
Proof. unfold remove_tid. cbn. now rewrite Nat.eqb_refl. Qed.

Lemma do_release_add_held s t : do_release (add_held s t) t = do_release s t.
Proof.
  unfold do_release, add_held; cbn [waiters futs fast nfut phase_of mustc held enq].
  destruct (handoff (waiters s) (futs s)) as [[o ws] fu].
  now rewrite remove_tid_cons_same.
Qed.

Lemma release_inv s t : Inv s -> owner s = Some t -> phase_of s t = Idle -> Inv (do_release s t).
Proof.
  intros I Ho Hp. pose proof (inv_queue s I) as Q. unfold queue_ok in Q.
  (* before the release only t stands in the lock, and t holds it: nobody is ready, and held is at most [t] *)
  assert (Honly : forall x, holdish s x -> x = t) by (intros x Hx; apply (I_owner s I) in Hx; congruence).
  assert (Hnr : forall x, ~ wake_ready s x).
  { intros x Hx. assert (x = t) by (apply Honly; right; exact Hx). subst. exact (idle_not_ready s t Hp Hx). }
  assert (Hheld' : forall x, ~ In x (remove_tid t (held s))).
  { intros x Hx. apply in_remove_tid in Hx. destruct Hx as [Hx Hne]. apply Hne, Honly. left. exact Hx. }
  assert (Hnd : NoDup (remove_tid t (held s))) by apply nodup_remove_tid, (I_heldnd s I).
  assert (Hidle : forall x, In x (remove_tid t (held s)) -> phase_of s x = Idle) by (intros x Hx; destruct (Hheld' x Hx)).
  unfold do_release. pose proof (handoff_spec (waiters s) (futs s)) as HS.
  destruct (handoff (waiters s) (futs s)) as [[o ws'] fu']. destruct o as [w|].
  - destruct HS as (pre & f & Ews & _ & -> & Hpre). rewrite Ews in Q.
    pose proof (WQ_skip lock_tags _ _ _ _ _ Q Hpre) as Q1.
    apply inv_intro; cbn; auto; [| discriminate | exact (WQ_grant lock_tags _ _ _ _ _ _ Q1) |].
    + intros x. unfold wake_ready; cbn. rewrite (ready_grant _ _ _ _ _ _ x Q1). split.
      * intros [= <-]. right; now left.
      * intros [H|[->|H]]; [destruct (Hheld' x H)|reflexivity|destruct (Hnr x H)].
    + eapply subseq_trans; [|apply (I_fifo s I)]. rewrite Ews.
      change (pre ++ (w, f) :: ws') with (pre ++ [(w, f)] ++ ws'). rewrite app_assoc. apply subseq_suffix.
  - destruct HS as (-> & -> & Hall). rewrite <- (app_nil_r (waiters s)) in Q.
    apply inv_intro; cbn; auto; [| exact (WQ_skip lock_tags _ _ _ _ _ Q Hall) | apply subseq_nil_l].
    intros x. split; [discriminate|]. intros [H|H]; [destruct (Hheld' x H)|destruct (Hnr x H)].
Qed.

Lemma mustc_irrel s m :
  Inv s -> Inv (mk (fast s) (owner s) (waiters s) (futs s) (nfut s) (phase_of s) m (held s) (enq s)).
Proof. intros I. destruct I. constructor; cbn; assumption. Qed.

Lemma cancel_fut_inv s t f :
  Inv s -> phase_of s t = Waiting f -> futs s f = FPending -> Inv (fut_cancelled s f).
Proof.
  intros I Hp Hf. apply inv_intro; cbn; try apply I.
  - intros x. unfold wake_ready; cbn. rewrite (ready_cancel lock_tags); [apply (I_owner s I)|congruence].
  - apply (WQ_cancel lock_tags), (inv_queue s I).
Qed.

Lemma wake_done_inv s t :
  Inv s -> wake_ready s t -> Inv (add_held (LockImp.woken s t) t).
Proof.
  intros I Hr. pose proof (inv_queue s I) as Q.
  assert (Hho : owner s = Some t) by (apply (I_owner s I); right; exact Hr).
  assert (Hnh : ~ In t (held s)) by (intros H; exact (held_not_ready s t I H Hr)).
  apply inv_intro; cbn.
  - intros x. unfold wake_ready; cbn. rewrite ready_leave by discriminate. rewrite (I_owner s I x).
    change (holdish s x) with (In x (held s) \/ wake_ready s x). fold (wake_ready s x).
    destruct (Nat.eq_dec x t) as [->|Hne]; [split; [auto | intros _; right; exact Hr]|].
    split; [intros [H|H]; [left; now right | right; exact (conj Hne H)] | intros [[H|H]|[_ H]]; [congruence|now left|now right]].
  - constructor; [exact Hnh|apply (I_heldnd s I)].
  - intros x [<-|H]; [apply upd_same|]. rewrite upd_other; [apply (I_heldidle s I), H|]. intros ->. contradiction.
  - rewrite Hho. discriminate.
  - apply WQ_phase; [exact Q|discriminate|]. apply (not_queued _ _ _ _ _ Q).
    intros f Hf. destruct Hr as [H|(g & H & Hg)]; congruence.
  - apply (I_fifo s I).
Qed.

Lemma wake_cancelled_release_inv s t :
  Inv s -> wake_ready s t -> Inv (do_release (LockImp.woken s t) t).
Proof.
  intros I Hr. rewrite <- do_release_add_held. apply release_inv.
  - apply wake_done_inv; assumption.
  - cbn. apply (I_owner s I). right. exact Hr.
  - cbn. apply upd_same.
Qed.

(* a task whose wait was cancelled does not stand in the lock, and its entry is the one remove_item takes out *)
Lemma cancelled_not_holdish s t f : Inv s -> phase_of s t = Waiting f -> futs s f = FCancelled -> ~ holdish s t.
Proof.
  intros I Hp Hf [H|[H|(g & H & Hg)]]; [|congruence..]. apply (I_heldidle s I) in H. congruence.
Qed.

Lemma cancelled_gone s t f : Inv s -> phase_of s t = Waiting f -> ~ In t (map fst (remove_item t f (waiters s))).
Proof.
  intros I Hp. apply remove_item_gone; [apply (I_nd s I)|]. intros f' H. destruct (I_w s I t f' H). congruence.
Qed.

Lemma wake_futcancelled_inv s t f :
  Inv s -> phase_of s t = Waiting f -> futs s f = FCancelled -> Inv (withdrawn s t f).
Proof.
  intros I Hp Hf. pose proof (cancelled_not_holdish s t f I Hp Hf) as Hnh.
  apply inv_intro; cbn.
  - intros x. unfold wake_ready; cbn. rewrite ready_leave by discriminate. rewrite (I_owner s I x).
    change (In x (held s) \/ wake_ready s x <-> In x (held s) \/ x <> t /\ wake_ready s x).
    split; (intros [H|H]; [now left|right]); [split; [|exact H]; intros ->; apply Hnh; right; exact H | exact (proj2 H)].
  - apply (I_heldnd s I).
  - intros x H. rewrite upd_other; [apply (I_heldidle s I), H|]. intros ->. apply Hnh. left. exact H.
  - intros H. rewrite (I_free s I H). reflexivity.
  - apply (WQ_leave _ _ _ (waiters s)); [exact (inv_queue s I)|discriminate| | |].
    + intros x g H. split; [exact (subseq_in _ _ _ (remove_item_subseq t f _) H)|].
      intros ->. apply (cancelled_gone s t f I Hp). apply in_map_iff. now exists (t, g).
    + intros x g H Hne. apply in_remove_item_other; [exact H|congruence].
    + eapply subseq_nodup; [apply subseq_map, remove_item_subseq|apply (I_nd s I)].
  - eapply subseq_trans; [apply remove_item_subseq|apply (I_fifo s I)].
Qed.

(* in a state of the invariant a ready task owns the lock, so its wake-up cannot end in RuntimeError *)
Lemma step_resume_ready s t : Inv s -> wake_ready s t ->
  owner s = Some t /\
  (mustc s t = false /\ step s (Resume t) = (add_held (LockImp.woken s t) t, RDone) \/
   mustc s t = true /\ step s (Resume t) = (do_release (LockImp.woken s t) t, RCancelled)).
Proof.
  intros I W. assert (Ho : owner s = Some t) by (apply (I_owner s I); right; exact W).
  split; [exact Ho|].
  destruct (step_resume s t) as [[[_ Hm] E]|[[(_ & Hm & _) E]|[[(_ & _ & Hn) _]|[(f & [Hp Hf] & _)|[Hp _]]]]];
    [auto|auto|contradiction|exfalso..].
  - destruct W as [W | (g & W & Hg)]; congruence.
  - destruct W as [W | (g & W & Hg)], Hp as [Hp | (f & Hp & Hf)]; congruence.
Qed.

Lemma step_inv s o : Inv s -> Inv (fst (step s o)).
Proof.
  intros I.
  assert (Hacq : forall o t, o = AcqBegin t \/ o = AcqNowait t -> Inv (fst (step s o))).
  { intros o' t Ho.
    destruct (step_acq s o' t Ho)
      as [[_ ->]|[Ep [[(Eo & _) ->]|[[(Eo & _) ->]|[[_ ->]|[[(Hn & Hf & _) ->]|[_ ->]]]]]]]; cbn [fst];
      [exact I|now apply take_held_inv|now apply take_yield_inv|exact I| |exact I].
    apply enqueue_inv; auto. intros Eo. apply Hf. split; [exact Eo|apply (I_free s I Eo)]. }
  destruct o as [t|t|t|t|t]; [apply (Hacq _ t); auto..| | |].
  - destruct (step_release s t) as [[_ ->]|[[[Ep Ho] ->]|[_ ->]]]; [exact I|now apply release_inv|exact I].
  - destruct (step_resume s t) as [[[W _] ->]|[[[W _] ->]|[[(W & _ & Hn) _]|[(f & [Hp Hf] & ->)|[_ ->]]]]];
      cbn [fst]; [now apply wake_done_inv|now apply wake_cancelled_release_inv| |now apply wake_futcancelled_inv|exact I].
    destruct Hn. apply (step_resume_ready s t I W).
  - destruct (step_cancel s t) as [[_ ->]|[(f & [Hp Hf] & ->)|[_ ->]]]; cbn [fst];
      [exact I|now apply (cancel_fut_inv s t f)|apply mustc_irrel, I].
Qed.

Theorem reachable_inv fa ops : Inv (final step (init fa) ops).
Proof. apply final_inv; [apply step_inv|apply inv_init]. Qed.

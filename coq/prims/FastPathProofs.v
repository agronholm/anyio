(* C08 on the shape table of FastPath.v: a shape that starts with the cancellation check has no effect when the caller is
   cancelled, and suspends at least once when it is not. *)
From AV Require Import Base FastPath.

Lemma run_cancelled_starts_with_check l acc :
  starts_with_check l = true ->
  raised (run_shape true l acc) = true /\ effects (run_shape true l acc) = effects acc /\
  yields (run_shape true l acc) = S (yields acc).
Proof. destruct l as [|[| | |] r]; cbn; intros H; try discriminate; auto. Qed.

Lemma run_not_cancelled l : forall acc,
  raised (run_shape false l acc) = raised acc /\
  effects (run_shape false l acc) = effects acc + count_effects l /\
  yields acc <= yields (run_shape false l acc) /\
  (has_yield l = true -> yields acc < yields (run_shape false l acc)).
Proof.
  induction l as [|a r IH]; intros acc; cbn.
  - refine (conj eq_refl (conj _ (conj (le_n _) _))); [unfold count_effects; cbn; lia|discriminate].
  - destruct a; cbn.
    + specialize (IH acc). exact IH.
    + specialize (IH (mkOut (raised acc) (effects acc) (S (yields acc)))). cbn in IH.
      destruct IH as (H1 & H2 & H3 & H4). refine (conj H1 (conj H2 (conj _ _))); [lia|intros _; lia].
    + specialize (IH (mkOut (raised acc) (effects acc) (S (yields acc)))). cbn in IH.
      destruct IH as (H1 & H2 & H3 & H4). refine (conj H1 (conj H2 (conj _ _))); [lia|intros _; lia].
    + specialize (IH (mkOut (raised acc) (S (effects acc)) (yields acc))). cbn in IH.
      destruct IH as (H1 & H2 & H3 & H4). unfold count_effects in *. cbn.
      refine (conj H1 (conj _ (conj H3 H4))). lia.
Qed.

(* the two sanctioned forms: cancel-check -> effect -> yield, or checkpoint -> effect *)
Theorem shape_cancelled_noeffect l :
  starts_with_check l = true ->
  raised (run_shape true l out0) = true /\ effects (run_shape true l out0) = 0.
Proof.
  intros H. destruct (run_cancelled_starts_with_check l out0 H) as (H1 & H2 & _). auto.
Qed.

Theorem shape_not_cancelled_yields l :
  has_yield l = true ->
  raised (run_shape false l out0) = false /\ effects (run_shape false l out0) = count_effects l /\
  1 <= yields (run_shape false l out0).
Proof.
  intros H. destruct (run_not_cancelled l out0) as (H1 & H2 & _ & H4). specialize (H4 H). cbn in *.
  repeat split; auto; lia.
Qed.

Theorem fastpath_table_checkpoints : forall row, In row checked_rows ->
  starts_with_check (row_shape row) = true /\ has_yield (row_shape row) = true /\
  (let o := run_shape true (row_shape row) out0 in raised o = true /\ effects o = 0) /\
  (let o := run_shape false (row_shape row) out0 in
   raised o = false /\ effects o = count_effects (row_shape row) /\ 1 <= yields o).
Proof.
  intros row H.
  assert (Hs : forallb (fun r => starts_with_check (row_shape r) && has_yield (row_shape r)) checked_rows = true)
    by (vm_compute; reflexivity).
  rewrite forallb_forall in Hs. specialize (Hs row H). apply andb_true_iff in Hs. destruct Hs as [H1 H2].
  refine (conj H1 (conj H2 (conj _ _))).
  - apply shape_cancelled_noeffect, H1.
  - apply shape_not_cancelled_yields, H2.
Qed.

(* Condition.wait entered in a cancelled scope: raises before releasing the lock or enqueueing *)
Theorem cond_wait_cancelled_keeps_lock :
  let o := run_shape true (row_shape 9) out0 in raised o = true /\ effects o = 0.
Proof. vm_compute. auto. Qed.

(* the documented exemptions really are exemptions: no yield when not cancelled *)
Example exempt_fast_acquire : yields (run_shape false (row_shape 30) out0) = 0.
Proof. reflexivity. Qed.
Example exempt_nowait : yields (run_shape false (row_shape 31) out0) = 0 /\ raised (run_shape true (row_shape 31) out0) = false.
Proof. split; reflexivity. Qed.

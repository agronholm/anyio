(* The wait queue that Lock and Semaphore have in common: a list of (task, future) entries, a task's phase (waiting
   on a future, in the shielded yield, anything else), the state of each future (pending, set, cancelled) and the
   counter that numbers the futures.  The two models have their own phase and future-state types; the facts below are
   about any types with the five distinguished values. *)
From AV Require Import Base.

Record Tags {P F : Type} (Yld : P) (W : fid -> P) (FP FS FC : F) : Prop := {
  W_inj : forall f g, W f = W g -> f = g;
  Yld_W : forall f, Yld <> W f;
  FP_FS : FP <> FS;
  FC_FS : FC <> FS;
  FP_FC : FP <> FC
}.

Section WaitQueue.
  Context {P F : Type} {Yld : P} {W : fid -> P} {FP FS FC : F} (T : Tags Yld W FP FS FC).

  (* every entry is a task waiting on that future, not yet resolved; every pending wait has its entry; futures are
     numbered below the counter; no two tasks wait on one future; no task has two entries *)
  Record WQ (ph : tid -> P) (fu : fid -> F) (nf : fid) (ws : list (tid * fid)) : Prop := {
    q_w : forall t f, In (t, f) ws -> ph t = W f /\ fu f <> FS;
    q_pend : forall t f, ph t = W f -> fu f = FP -> In (t, f) ws;
    q_fresh : forall t f, ph t = W f -> f < nf;
    q_inj : forall t1 t2 f, ph t1 = W f -> ph t2 = W f -> t1 = t2;
    q_nd : NoDup (map fst ws)
  }.

  (* the lock / a permit is reserved for t although its acquire() has not returned *)
  Definition ready (ph : tid -> P) (fu : fid -> F) (t : tid) : Prop :=
    ph t = Yld \/ exists f, ph t = W f /\ fu f = FS.

  Variables (ph : tid -> P) (fu : fid -> F).

  Lemma not_queued nf ws t : WQ ph fu nf ws -> (forall f, ph t = W f -> fu f = FS) -> forall f, ~ In (t, f) ws.
  Proof. intros Q H f Hin. destruct (q_w _ _ _ _ Q t f Hin) as [H1 H2]. auto. Qed.

  (* a task starts to wait on a fresh future *)
  Lemma WQ_enqueue nf ws t : WQ ph fu nf ws -> (forall f, ph t <> W f) ->
    WQ (upd ph t (W nf)) (upd fu nf FP) (S nf) (ws ++ [(t, nf)]).
  Proof.
    intros Q Hnw.
    assert (Hfu : forall x f, ph x = W f -> upd fu nf FP f = fu f).
    { intros x f H. apply upd_other. pose proof (q_fresh _ _ _ _ Q x f H). lia. }
    assert (Hph : forall x f, upd ph t (W nf) x = W f -> x = t /\ f = nf \/ x <> t /\ ph x = W f).
    { intros x f. unfold upd. destruct (Nat.eqb_spec x t) as [->|Hne]; [|auto].
      intros H. left. split; [reflexivity|]. symmetry. exact (W_inj _ _ _ _ _ T _ _ H). }
    constructor.
    - intros x f H. apply in_app_or in H. destruct H as [H|[[= <- <-]|[]]].
      + destruct (q_w _ _ _ _ Q x f H) as [H1 H2]. assert (x <> t) by (intros ->; exact (Hnw f H1)).
        rewrite upd_other by assumption. now rewrite (Hfu x f H1).
      + rewrite !upd_same. split; [reflexivity|apply (FP_FS _ _ _ _ _ T)].
    - intros x f H1 H2. apply in_or_app. destruct (Hph x f H1) as [[-> ->]|[Hne H]]; [right; now left|left].
      rewrite (Hfu x f H) in H2. exact (q_pend _ _ _ _ Q x f H H2).
    - intros x f H. destruct (Hph x f H) as [[_ ->]|[_ H']]; [lia|]. pose proof (q_fresh _ _ _ _ Q x f H'). lia.
    - intros x1 x2 f H1 H2.
      destruct (Hph x1 f H1) as [[E1 Ef]|[_ H1']], (Hph x2 f H2) as [[E2 Ef']|[_ H2']]; [congruence| | |].
      + subst f. pose proof (q_fresh _ _ _ _ Q x2 nf H2'). lia.
      + subst f. pose proof (q_fresh _ _ _ _ Q x1 nf H1'). lia.
      + exact (q_inj _ _ _ _ Q x1 x2 f H1' H2').
    - rewrite map_app. apply NoDup_snoc; [apply (q_nd _ _ _ _ Q)|].
      intros H. apply in_map_iff in H. destruct H as ([x f] & E & H). cbn in E. subst x.
      exact (Hnw f (proj1 (q_w _ _ _ _ Q t f H))).
  Qed.

  Lemma ready_enqueue nf ws t x : WQ ph fu nf ws -> (forall f, ph t <> W f) -> ph t <> Yld ->
    (ready (upd ph t (W nf)) (upd fu nf FP) x <-> ready ph fu x).
  Proof.
    intros Q Hnw Hny. unfold ready, upd. destruct (Nat.eqb_spec x t) as [->|Hne].
    - split.
      + intros [H|(f & H & H')]; [destruct (Yld_W _ _ _ _ _ T nf); auto|].
        apply (W_inj _ _ _ _ _ T) in H. subst f. rewrite Nat.eqb_refl in H'. destruct (FP_FS _ _ _ _ _ T H').
      + intros [H|(f & H & _)]; [contradiction|destruct (Hnw f H)].
    - assert (Hfu : forall f, ph x = W f -> (if Nat.eqb f nf then FP else fu f) = fu f).
      { intros f H. pose proof (q_fresh _ _ _ _ Q x f H). destruct (Nat.eqb_spec f nf); [lia|reflexivity]. }
      split; (intros [H|(f & H & H')]; [now left|right; exists f; split; [exact H|]]);
        [now rewrite <- (Hfu f H) | now rewrite (Hfu f H)].
  Qed.

  (* release(): cancelled entries at the head are dropped, the first live one is granted *)
  Lemma WQ_skip nf pre ws : WQ ph fu nf (pre ++ ws) -> (forall t f, In (t, f) pre -> fu f = FC) -> WQ ph fu nf ws.
  Proof.
    intros Q Hpre. constructor.
    - intros x f H. apply (q_w _ _ _ _ Q). apply in_or_app. now right.
    - intros x f H1 H2. pose proof (q_pend _ _ _ _ Q x f H1 H2) as H. apply in_app_or in H.
      destruct H as [H|H]; [|exact H]. apply Hpre in H. rewrite H in H2. destruct (FP_FC _ _ _ _ _ T). now symmetry.
    - apply (q_fresh _ _ _ _ Q).
    - apply (q_inj _ _ _ _ Q).
    - pose proof (q_nd _ _ _ _ Q) as H. rewrite map_app in H.
      induction (map fst pre) as [|a l IH]; [exact H | apply IH; now inversion H].
  Qed.

  Lemma WQ_grant nf w f ws : WQ ph fu nf ((w, f) :: ws) -> WQ ph (upd fu f FS) nf ws.
  Proof.
    intros Q. destruct (q_w _ _ _ _ Q w f (or_introl eq_refl)) as [Hw _].
    pose proof (q_nd _ _ _ _ Q) as Hn. cbn in Hn. apply NoDup_cons_iff in Hn. destruct Hn as [Hn Hn'].
    constructor.
    - intros x f' H. destruct (q_w _ _ _ _ Q x f' (or_intror H)) as [H1 H2]. split; [exact H1|].
      rewrite upd_other; [exact H2|]. intros ->. apply Hn. assert (x = w) by exact (q_inj _ _ _ _ Q x w f H1 Hw).
      subst x. apply in_map_iff. now exists (w, f).
    - intros x f' H1 H2. unfold upd in H2. destruct (Nat.eqb_spec f' f) as [->|Hne].
      + destruct (FP_FS _ _ _ _ _ T). now symmetry.
      + destruct (q_pend _ _ _ _ Q x f' H1 H2) as [[= -> ->]|H]; [contradiction|exact H].
    - apply (q_fresh _ _ _ _ Q).
    - apply (q_inj _ _ _ _ Q).
    - exact Hn'.
  Qed.

  Lemma ready_grant nf w f ws x : WQ ph fu nf ((w, f) :: ws) -> (ready ph (upd fu f FS) x <-> x = w \/ ready ph fu x).
  Proof.
    intros Q. destruct (q_w _ _ _ _ Q w f (or_introl eq_refl)) as [Hw Hf]. unfold ready, upd. split.
    - intros [H|(f' & H & H')]; [right; now left|]. destruct (Nat.eqb_spec f' f) as [->|Hne].
      + left. exact (q_inj _ _ _ _ Q x w f H Hw).
      + right; right. eauto.
    - intros [->|[H|(f' & H & H')]]; [right; exists f; now rewrite Nat.eqb_refl|now left|].
      right. exists f'. split; [exact H|]. destruct (Nat.eqb_spec f' f) as [->|Hne]; [reflexivity|exact H'].
  Qed.

  (* Task.cancel() reaches a pending wait *)
  Lemma WQ_cancel nf ws f : WQ ph fu nf ws -> WQ ph (upd fu f FC) nf ws.
  Proof.
    intros Q. constructor.
    - intros x f' H. destruct (q_w _ _ _ _ Q x f' H) as [H1 H2]. split; [exact H1|]. unfold upd.
      destruct (Nat.eqb f' f); [apply (FC_FS _ _ _ _ _ T)|exact H2].
    - intros x f' H1 H2. unfold upd in H2. destruct (Nat.eqb f' f); [destruct (FP_FC _ _ _ _ _ T); now symmetry|].
      exact (q_pend _ _ _ _ Q x f' H1 H2).
    - apply (q_fresh _ _ _ _ Q).
    - apply (q_inj _ _ _ _ Q).
    - apply (q_nd _ _ _ _ Q).
  Qed.

  Lemma ready_cancel f x : fu f <> FS -> (ready ph (upd fu f FC) x <-> ready ph fu x).
  Proof.
    intros Hf. unfold ready, upd.
    split; (intros [H|(f' & H & H')]; [now left|right; exists f'; split; [exact H|]]); revert H';
      destruct (Nat.eqb_spec f' f) as [->|Hne]; auto; intros H'; [destruct (FC_FS _ _ _ _ _ T H')|contradiction].
  Qed.

  (* a task stops waiting / yielding: its phase becomes p, its entries (if any) are gone from the queue *)
  Lemma WQ_leave nf ws ws' t p : WQ ph fu nf ws -> (forall f, p <> W f) ->
    (forall x f, In (x, f) ws' -> In (x, f) ws /\ x <> t) -> (forall x f, In (x, f) ws -> x <> t -> In (x, f) ws') ->
    NoDup (map fst ws') -> WQ (upd ph t p) fu nf ws'.
  Proof.
    intros Q Hp Hsub Hsup Hnd.
    assert (Hph : forall x f, upd ph t p x = W f -> x <> t /\ ph x = W f).
    { intros x f. unfold upd. destruct (Nat.eqb_spec x t); [intros H; destruct (Hp f H)|auto]. }
    constructor.
    - intros x f H. destruct (Hsub x f H) as [H1 H2]. rewrite upd_other by exact H2. exact (q_w _ _ _ _ Q x f H1).
    - intros x f H1 H2. destruct (Hph x f H1) as [Hne H]. exact (Hsup x f (q_pend _ _ _ _ Q x f H H2) Hne).
    - intros x f H. exact (q_fresh _ _ _ _ Q x f (proj2 (Hph x f H))).
    - intros x1 x2 f H1 H2. exact (q_inj _ _ _ _ Q x1 x2 f (proj2 (Hph x1 f H1)) (proj2 (Hph x2 f H2))).
    - exact Hnd.
  Qed.

  (* the phase of a task without an entry changes to a phase that is not a wait *)
  Lemma WQ_phase nf ws t p : WQ ph fu nf ws -> (forall f, p <> W f) -> (forall f, ~ In (t, f) ws) ->
    WQ (upd ph t p) fu nf ws.
  Proof.
    intros Q Hp Hn. apply (WQ_leave nf ws ws t p Q Hp); [| |apply (q_nd _ _ _ _ Q)].
    - intros x f H. split; [exact H|]. intros ->. exact (Hn f H).
    - auto.
  Qed.

  Lemma ready_leave t p x : (forall f, p <> W f) -> p <> Yld -> (ready (upd ph t p) fu x <-> x <> t /\ ready ph fu x).
  Proof.
    intros Hp Hy. unfold ready, upd. destruct (Nat.eqb_spec x t) as [->|Hne].
    - split; [intros [H|(f & H & _)]; [contradiction|destruct (Hp f H)] | intros [H _]; now destruct H].
    - split; [intros H; exact (conj Hne H) | intros [_ H]; exact H].
  Qed.

  Lemma ready_yield t x : (ready (upd ph t Yld) fu x <-> x = t \/ ready ph fu x).
  Proof.
    unfold ready, upd. destruct (Nat.eqb_spec x t) as [->|Hne].
    - split; intros _; now left.
    - split; [intros H; now right | intros [H|H]; [contradiction|exact H]].
  Qed.
End WaitQueue.

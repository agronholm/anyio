(* C09 clauses as theorems over every op sequence of the Lock machine. *)
From AV Require Import Base Lock LockProofs.

Definition reach (fa : bool) (s : st) : Prop := exists ops, s = final step (init fa) ops.

Lemma reach_inv fa s : reach fa s -> Inv s.
Proof. intros [ops ->]. apply reachable_inv. Qed.

Lemma reach_step fa s o : reach fa s -> reach fa (fst (step s o)).
Proof. exact (reach_step step (init fa) s o). Qed.

(* mutual exclusion: the tasks to which acquire() returned and that have not released are at most one,
      and it is the recorded owner *)
Theorem lock_mutex fa s : reach fa s ->
  (forall t, In t (held s) -> owner s = Some t) /\ length (held s) <= 1.
Proof.
  intros R. pose proof (reach_inv fa s R) as I.
  assert (H1 : forall t, In t (held s) -> owner s = Some t).
  { intros t H. apply (I_owner s I). left. exact H. }
  split; [exact H1|].
  pose proof (I_heldnd s I) as Hn.
  destruct (held s) as [|a [|b r]]; cbn; try lia.
  exfalso. assert (Some a = Some b).
  { rewrite <- (H1 a), <- (H1 b); cbn; auto. }
  inversion Hn as [|x l Hx Hl]; subst. apply Hx. left. congruence.
Qed.

(* acquire returns only to the owner *)
Definition acquire_op (o : op) (t : tid) : Prop := o = AcqBegin t \/ o = AcqNowait t \/ o = Resume t.

Lemma done_adds_held s o t s' : acquire_op o t -> step s o = (s', RDone) -> In t (held s').
Proof.
  intros Ha H.
  assert (Hacq : o = AcqBegin t \/ o = AcqNowait t -> In t (held s')).
  { intros Ho. destruct (step_acq s o t Ho) as [[_ E]|[_ [[_ E]|[[_ E]|[[_ E]|[[_ E]|[_ E]]]]]]];
      rewrite E in H; try discriminate. injection H as <-. now left. }
  destruct Ha as [-> | [-> | ->]]; [auto..|].
  destruct (step_resume s t) as [[_ E]|[[_ E]|[[_ E]|[(f & _ & E)|[_ E]]]]]; rewrite E in H; try discriminate.
  injection H as <-. now left.
Qed.

Theorem lock_acquire_returns_to_owner fa s o t s' :
  reach fa s -> acquire_op o t -> step s o = (s', RDone) ->
  owner s' = Some t /\ In t (held s') /\ (forall x, In x (held s') -> x = t).
Proof.
  intros R Ha Hs.
  assert (R' : reach fa s') by (replace s' with (fst (step s o)) by (now rewrite Hs); now apply reach_step).
  destruct (lock_mutex fa s' R') as [H1 _].
  pose proof (done_adds_held s o t s' Ha Hs) as Hin.
  pose proof (H1 t Hin) as Ho.
  repeat split; auto. intros x Hx. apply H1 in Hx. congruence.
Qed.

(* no barging: the uncontended path is taken only when the lock is free AND nobody queues *)
Theorem lock_no_barging s t o s' r :
  (o = AcqBegin t \/ o = AcqNowait t) -> step s o = (s', r) ->
  owner s <> Some t -> owner s' = Some t -> owner s = None /\ waiters s = [].
Proof.
  intros Ho H Hn Ho'.
  destruct (step_acq s o t Ho) as [[_ E]|[_ [[(Eo & Ew & _) _]|[[(Eo & Ew & _) _]|[[_ E]|[[_ E]|[_ E]]]]]]];
    [|auto..]; rewrite E in H; injection H as <- _; contradiction.
Qed.

Theorem lock_queue_in_arrival_order fa s : reach fa s -> subseq (waiters s) (enq s).
Proof. intros R. apply (I_fifo s (reach_inv fa s R)). Qed.

Theorem lock_arrival_log_append_only s o : exists l, enq (fst (step s o)) = enq s ++ l.
Proof.
  destruct (step_enq s o) as [[-> _] | (t & -> & _)]; [exists []; now rewrite app_nil_r | eexists; reflexivity].
Qed.

(* release() hands the lock to the first waiter whose future is not cancelled *)
Theorem lock_handoff_first_live s t :
  match owner (do_release s t) with
  | Some w => exists pre f, waiters s = pre ++ (w, f) :: waiters (do_release s t) /\
                            futs s f <> FCancelled /\
                            (forall t' f', In (t', f') pre -> futs s f' = FCancelled)
  | None => waiters (do_release s t) = [] /\ forall t' f', In (t', f') (waiters s) -> futs s f' = FCancelled
  end.
Proof.
  unfold do_release. pose proof (handoff_spec (waiters s) (futs s)) as H.
  destruct (handoff (waiters s) (futs s)) as [[o ws] fu]. destruct o as [w|]; cbn.
  - destruct H as (pre & f & E & Hf & _ & Hp). exists pre, f. auto.
  - destruct H as (E & _ & Hp). auto.
Qed.

(* only the owner releases; re-acquisition by the owner is an error; neither changes anything *)
Theorem lock_owner_only_release s t :
  phase_of s t = Idle -> owner s <> Some t -> step s (Release t) = (s, RRuntime).
Proof.
  intros Hp Ho. cbn [step]. rewrite Hp. cbn.
  destruct (tid_eqb_opt (owner s) t) eqn:E; [|reflexivity].
  apply tid_eqb_opt_true in E. contradiction.
Qed.

Theorem lock_reacquire_is_error s t :
  phase_of s t = Idle -> owner s = Some t ->
  step s (AcqBegin t) = (s, RRuntime) /\ step s (AcqNowait t) = (s, RRuntime).
Proof.
  intros Hp Ho. cbn [step]. rewrite Hp, Ho. cbn. rewrite Nat.eqb_refl.
  destruct (waiters s); auto.
Qed.

(* a cancelled waiter never ends up holding the lock nor clogs the queue *)
Theorem lock_cancelled_waiter_never_holds fa s t f :
  reach fa s -> phase_of s t = Waiting f -> futs s f = FCancelled ->
  let s' := fst (step s (Resume t)) in
  snd (step s (Resume t)) = RCancelled /\ ~ In t (held s') /\ owner s' <> Some t /\
  ~ In t (map fst (waiters s')) /\ phase_of s' t = Idle.
Proof.
  intros R Hp Hf. pose proof (reach_inv fa s R) as I.
  pose proof (cancelled_not_holdish s t f I Hp Hf) as Hnh.
  cbn [step]. rewrite Hp, Hf. cbn.
  refine (conj eq_refl (conj _ (conj _ (conj (cancelled_gone s t f I Hp) (upd_same _ _ _))))).
  - intros H. apply Hnh. left. exact H.
  - intros Ho. apply Hnh, (I_owner s I), Ho.
Qed.

(* the hand-off / cancellation race: ownership was already transferred when the cancellation lands *)
Theorem lock_handoff_cancel_race fa s t f :
  reach fa s -> phase_of s t = Waiting f -> futs s f = FSet -> mustc s t = true ->
  let s' := fst (step s (Resume t)) in
  snd (step s (Resume t)) = RCancelled /\ ~ In t (held s') /\ owner s' <> Some t /\ Inv s'.
Proof.
  intros R Hp Hf Hm. pose proof (reach_inv fa s R) as I.
  assert (W : wake_ready s t) by (right; eauto).
  pose proof (wake_cancelled_release_inv s t I W) as I'.
  destruct (step_resume_ready s t I W) as (_ & [[Hm' _] | [_ ->]]); [congruence|]. cbn [fst snd].
  destruct (do_release_frame (LockImp.woken s t) t) as (_ & _ & _ & Ep & _ & Eh & _).
  assert (Hnh : ~ In t (held (do_release (LockImp.woken s t) t))).
  { rewrite Eh. intros H. apply in_remove_tid in H. tauto. }
  assert (Hidle : phase_of (do_release (LockImp.woken s t) t) t = Idle) by (rewrite Ep; apply upd_same).
  refine (conj eq_refl (conj Hnh (conj _ I'))).
  intros Ho'. apply (I_owner _ I') in Ho'. destruct Ho' as [H|[H|(f' & H1 & _)]]; congruence.
Qed.

(* a free lock with waiting tasks never occurs *)
Theorem lock_no_free_with_waiters fa s : reach fa s -> owner s = None -> waiters s = [].
Proof. intros R. apply (I_free s (reach_inv fa s R)). Qed.

(* once every holder has released and nobody is inside a call, the lock is pristine *)
Theorem lock_quiescent fa s :
  reach fa s -> (forall t, phase_of s t = Idle) -> held s = [] -> owner s = None /\ waiters s = [].
Proof.
  intros R Hall Hh. pose proof (reach_inv fa s R) as I.
  assert (Ho : owner s = None).
  { destruct (owner s) as [t|] eqn:Eo; [|reflexivity]. exfalso.
    apply (I_owner s I) in Eo. destruct Eo as [H|[H|(f & H & _)]].
    - rewrite Hh in H. contradiction.
    - rewrite Hall in H. discriminate.
    - rewrite Hall in H. discriminate. }
  split; [exact Ho|apply (I_free s I Ho)].
Qed.

(* non-vacuity: concrete reachable states that satisfy the hypotheses *)
(* tasks 1 holds, 2 and 3 queue, 2 is cancelled, 1 releases: the lock goes to 3 *)
Definition ex_ops := [AcqBegin 1; Resume 1; AcqBegin 2; AcqBegin 3; Cancel 2; Release 1].
Example ex_handoff_skips_cancelled :
  let s := final step (init false) ex_ops in owner s = Some 3 /\ waiters s = [] /\ held s = [].
Proof. vm_compute. auto. Qed.

Example ex_cancelled_waiter_hyp :
  let s := final step (init false) ex_ops in phase_of s 2 = Waiting 0 /\ futs s 0 = FCancelled.
Proof. vm_compute. auto. Qed.

(* the hand-off race: 2 is handed the lock, then natively cancelled before it runs *)
Example ex_race_hyp :
  let s := final step (init false) [AcqBegin 1; Resume 1; AcqBegin 2; Release 1; Cancel 2] in
  phase_of s 2 = Waiting 0 /\ futs s 0 = FSet /\ mustc s 2 = true /\
  owner (fst (step s (Resume 2))) = None.
Proof. vm_compute. auto. Qed.

Example ex_quiescent :
  let s := final step (init false) (ex_ops ++ [Resume 2; Resume 3; Release 3]) in
  (forall t, t < 5 -> phase_of s t = Idle) /\ held s = [] /\ owner s = None.
Proof.
  vm_compute. repeat split.
  intros t Ht. do 5 (destruct t as [|t]; [reflexivity|]). lia.
Qed.

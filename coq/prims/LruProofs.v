(* Proofs about the Lru machine, part 1 (the invariant itself is in LruInv, its preservation in LruStep): the lock discipline (which caller stands where in which entry lock), as a predicate on the
   four state components it mentions, so that it is insensitive to changes of the other components. *)
From AV Require Import Base Lru LruLockFacts LruDict.
From AV Require Lock LockProofs.

Definition lockref (p : cphase) : option (key * lid) :=
  match p with
  | CLockWait k l _ _ => Some (k, l)
  | CInWrapped k l _ _ _ => Some (k, l)
  | _ => None
  end.

(* the generation of the entries dict the caller works on *)
Definition dictgen (p : cphase) : option nat :=
  match p with
  | CLockWait _ _ _ g => Some g
  | CInWrapped _ _ _ _ g => Some g
  | _ => None
  end.

Definition is_running (p : cphase) : bool :=
  match p with CInWrapped _ _ _ _ _ => true | _ => false end.

Definition nrun (cf : cfg) (ph : cid -> cphase) : nat :=
  cnt (fun c => is_running (ph c)) (seq 0 (ncall cf)).

Record LP (cf : cfg) (lk : lid -> Lock.st) (ph : cid -> cphase) (nl : nat) (lkf : lid -> key) : Prop := {
  L_inv : forall l, LockProofs.Inv (lk l);
  L_eng : forall l c, engaged (lk l) c -> exists k, lockref (ph c) = Some (k, l);
  L_wait : forall c k l t0 g, ph c = CLockWait k l t0 g -> engaged (lk l) c;
  L_run : forall c k l p b g, ph c = CInWrapped k l p b g -> In c (Lock.held (lk l));
  L_ref : forall c k l, lockref (ph c) = Some (k, l) -> l < nl /\ lkf l = k;
  L_ncall : forall c, ph c <> CIdle -> c < ncall cf
}.

Lemma LP_ext cf lk ph ph' nl lkf : (forall c, ph' c = ph c) -> LP cf lk ph nl lkf -> LP cf lk ph' nl lkf.
Proof.
  intros E H. destruct H as [H1 H2 H3 H4 H5 H6]. constructor.
  - exact H1.
  - intros l c. rewrite E. apply H2.
  - intros c k l t0 g. rewrite E. apply H3.
  - intros c k l p b g. rewrite E. apply H4.
  - intros c k l. rewrite E. apply H5.
  - intros c. rewrite E. apply H6.
Qed.

(* caller c performs a lock operation on lock l and moves to phase p' *)
Lemma LP_update cf lk ph nl lkf c l L' p' :
  LP cf lk ph nl lkf ->
  LockProofs.Inv L' ->
  (forall c', c' <> c -> (engaged L' c' <-> engaged (lk l) c') /\
                         (In c' (Lock.held L') <-> In c' (Lock.held (lk l)))) ->
  (forall k0 l0, lockref (ph c) = Some (k0, l0) -> l0 = l) ->
  (engaged L' c -> exists k, lockref p' = Some (k, l)) ->
  (forall k0 l0 t0 g0, p' = CLockWait k0 l0 t0 g0 -> l0 = l /\ engaged L' c) ->
  (forall k0 l0 p b g0, p' = CInWrapped k0 l0 p b g0 -> l0 = l /\ In c (Lock.held L')) ->
  (forall k0 l0, lockref p' = Some (k0, l0) -> l0 < nl /\ lkf l0 = k0) ->
  (p' <> CIdle -> c < ncall cf) ->
  LP cf (upd lk l L') (upd ph c p') nl lkf.
Proof.
  intros H HL Hoth Hown Heng Hw Hr Hrf Hn. constructor.
  - intros l0. destruct (Nat.eq_dec l0 l) as [->|N]; [now rewrite upd_same|rewrite upd_other by assumption; apply (L_inv _ _ _ _ _ H)].
  - intros l0 c0 He. destruct (Nat.eq_dec l0 l) as [->|Nl]; destruct (Nat.eq_dec c0 c) as [->|Nc].
    + rewrite upd_same in He. rewrite upd_same. apply Heng, He.
    + rewrite upd_same in He. rewrite upd_other by assumption. apply (L_eng _ _ _ _ _ H). now apply (Hoth c0 Nc).
    + rewrite upd_other in He by assumption. exfalso.
      destruct (L_eng _ _ _ _ _ H l0 c He) as [k Hk]. apply Nl. eapply Hown; eauto.
    + rewrite upd_other in He by assumption. rewrite upd_other by assumption. apply (L_eng _ _ _ _ _ H), He.
  - intros c0 k l0 t0 g0 Hp. destruct (Nat.eq_dec c0 c) as [->|Nc].
    + rewrite upd_same in Hp. destruct (Hw _ _ _ _ Hp) as [-> He]. now rewrite upd_same.
    + rewrite upd_other in Hp by assumption. pose proof (L_wait _ _ _ _ _ H _ _ _ _ _ Hp) as He.
      destruct (Nat.eq_dec l0 l) as [->|Nl]; [rewrite upd_same; now apply (Hoth c0 Nc)|now rewrite upd_other].
  - intros c0 k l0 p b g0 Hp. destruct (Nat.eq_dec c0 c) as [->|Nc].
    + rewrite upd_same in Hp. destruct (Hr _ _ _ _ _ Hp) as [-> He]. now rewrite upd_same.
    + rewrite upd_other in Hp by assumption. pose proof (L_run _ _ _ _ _ H _ _ _ _ _ _ Hp) as He.
      destruct (Nat.eq_dec l0 l) as [->|Nl]; [rewrite upd_same; now apply (Hoth c0 Nc)|now rewrite upd_other].
  - intros c0 k l0 Hp. destruct (Nat.eq_dec c0 c) as [->|Nc].
    + rewrite upd_same in Hp. auto.
    + rewrite upd_other in Hp by assumption. apply (L_ref _ _ _ _ _ H c0), Hp.
  - intros c0 Hp. destruct (Nat.eq_dec c0 c) as [->|Nc].
    + rewrite upd_same in Hp. auto.
    + rewrite upd_other in Hp by assumption. apply (L_ncall _ _ _ _ _ H c0), Hp.
Qed.

Lemma LP_phase cf lk ph nl lkf c p' :
  LP cf lk ph nl lkf ->
  (forall l, engaged (lk l) c -> exists k, lockref p' = Some (k, l)) ->
  (forall k0 l0 t0 g0, p' = CLockWait k0 l0 t0 g0 -> engaged (lk l0) c) ->
  (forall k0 l0 p b g0, p' = CInWrapped k0 l0 p b g0 -> In c (Lock.held (lk l0))) ->
  (forall k0 l0, lockref p' = Some (k0, l0) -> l0 < nl /\ lkf l0 = k0) ->
  (p' <> CIdle -> c < ncall cf) ->
  LP cf lk (upd ph c p') nl lkf.
Proof.
  intros H Heng Hw Hr Hrf Hn. constructor.
  - apply (L_inv _ _ _ _ _ H).
  - intros l c0 He. destruct (Nat.eq_dec c0 c) as [->|Nc]; [rewrite upd_same; auto|].
    rewrite upd_other by assumption. apply (L_eng _ _ _ _ _ H), He.
  - intros c0 k l t0 g0 Hp. destruct (Nat.eq_dec c0 c) as [->|Nc]; [rewrite upd_same in Hp; eauto|].
    rewrite upd_other in Hp by assumption. apply (L_wait _ _ _ _ _ H _ _ _ _ _ Hp).
  - intros c0 k l p b g0 Hp. destruct (Nat.eq_dec c0 c) as [->|Nc]; [rewrite upd_same in Hp; eauto|].
    rewrite upd_other in Hp by assumption. apply (L_run _ _ _ _ _ H _ _ _ _ _ _ Hp).
  - intros c0 k l Hp. destruct (Nat.eq_dec c0 c) as [->|Nc]; [rewrite upd_same in Hp; auto|].
    rewrite upd_other in Hp by assumption. apply (L_ref _ _ _ _ _ H c0), Hp.
  - intros c0 Hp. destruct (Nat.eq_dec c0 c) as [->|Nc]; [rewrite upd_same in Hp; auto|].
    rewrite upd_other in Hp by assumption. apply (L_ncall _ _ _ _ _ H c0), Hp.
Qed.

Lemma LP_newlock cf lk ph nl lkf fa k :
  LP cf lk ph nl lkf -> LP cf (upd lk nl (Lock.init fa)) ph (S nl) (upd lkf nl k).
Proof.
  intros H.
  assert (Hlt : forall c k0 l0, lockref (ph c) = Some (k0, l0) -> l0 <> nl).
  { intros c k0 l0 Hp. destruct (L_ref _ _ _ _ _ H c k0 l0 Hp). lia. }
  constructor.
  - intros l. destruct (Nat.eq_dec l nl) as [->|N]; [rewrite upd_same; apply LockProofs.inv_init|].
    rewrite upd_other by assumption. apply (L_inv _ _ _ _ _ H).
  - intros l c He. destruct (Nat.eq_dec l nl) as [->|N].
    + rewrite upd_same in He. exfalso. eapply engaged_init; eauto.
    + rewrite upd_other in He by assumption. apply (L_eng _ _ _ _ _ H), He.
  - intros c k0 l t0 g0 Hp. rewrite upd_other; [apply (L_wait _ _ _ _ _ H _ _ _ _ _ Hp)|].
    apply (Hlt c k0). now rewrite Hp.
  - intros c k0 l p b g0 Hp. rewrite upd_other; [apply (L_run _ _ _ _ _ H _ _ _ _ _ _ Hp)|].
    apply (Hlt c k0). now rewrite Hp.
  - intros c k0 l Hp. destruct (L_ref _ _ _ _ _ H c k0 l Hp) as [H1 H2]. split; [lia|].
    rewrite upd_other; [exact H2|lia].
  - apply (L_ncall _ _ _ _ _ H).
Qed.

(* facts derived from the discipline *)
Lemma LP_idle_not_engaged cf lk ph nl lkf c l :
  LP cf lk ph nl lkf -> lockref (ph c) = None -> ~ engaged (lk l) c.
Proof. intros H Hp He. destruct (L_eng _ _ _ _ _ H l c He) as [k Hk]. congruence. Qed.

Lemma LP_step_other cf lk ph nl lkf l o :
  LP cf lk ph nl lkf ->
  forall c', c' <> LockEntry.op_tid o ->
    (engaged (fst (Lock.step (lk l) o)) c' <-> engaged (lk l) c') /\
    (In c' (Lock.held (fst (Lock.step (lk l) o))) <-> In c' (Lock.held (lk l))).
Proof.
  intros H c' N. split; [now apply engaged_other|]. apply (LockProofs.step_other (lk l) o c' N).
Qed.

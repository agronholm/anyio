(* C12 / C13 clauses as theorems over every op sequence of the MemStream machine. *)
From AV Require Import Base MemStream MemStreamProofs.
From Coq Require Import Permutation.

Definition reach (m : xnat) (s : st) : Prop := exists ops, s = final step (init m) ops.

Lemma reach_inv m s : reach m s -> Inv s.
Proof. intros [ops ->]. apply reachable_inv. Qed.

Lemma reach_step m s o : reach m s -> reach m (fst (step s o)).
Proof. exact (reach_step step (init m) s o). Qed.

Lemma reach_init m : reach m (init m).
Proof. exists []. reflexivity. Qed.

(* the outcomes of send_nowait and receive_nowait, each with the facts that select it *)
Lemma sn_cases s h x (P : st * res -> Prop) :
  (hclosed s h = true -> P (s, RClosed)) ->
  (hclosed s h = false -> open_recv s = 0 -> P (s, RBroken)) ->
  (forall e t pre rest, hclosed s h = false -> open_recv s <> 0 -> pop_live s (receivers s) = (Some (e, t), rest) ->
     receivers s = pre ++ (e, t) :: rest -> has_pending s t = false -> P (hand_over s rest e x, RDone)) ->
  (hclosed s h = false -> open_recv s <> 0 -> pop_live s (receivers s) = (None, []) ->
     xlt (length (buffer s)) (maxb s) = true -> P (buffer_item s x, RDone)) ->
  (hclosed s h = false -> open_recv s <> 0 -> pop_live s (receivers s) = (None, []) ->
     xlt (length (buffer s)) (maxb s) = false -> P (set_receivers s [], RWouldBlock)) ->
  P (send_nowait s h x).
Proof.
  intros H1 H2 H3 H4 H5. unfold send_nowait. destruct (hclosed s h); [auto|].
  destruct (Nat.eqb_spec (open_recv s) 0); [auto|]. pose proof (pop_live_spec s (receivers s)) as Hsp.
  destruct (pop_live s (receivers s)) as [[[e t]|] rest].
  - destruct Hsp as (pre & Hr & Hn & _). eauto.
  - destruct Hsp as [-> _]. destruct (xlt (length (buffer s)) (maxb s)) eqn:Hx; auto.
Qed.

Lemma rn_cases s h (P : st * res -> Prop) :
  (hclosed s h = true -> P (s, RClosed)) ->
  (hclosed s h = false -> senders s = [] -> buffer s = [] -> open_send s = 0 -> P (s, REndOfStream)) ->
  (hclosed s h = false -> senders s = [] -> buffer s = [] -> open_send s <> 0 -> P (s, RWouldBlock)) ->
  (forall x b, hclosed s h = false -> senders s = [] -> buffer s = x :: b ->
     P (set_returned (set_handed (set_buffer s b) (handed s ++ [x])) (returned s ++ [x]), RItem x)) ->
  (forall e y r x b, hclosed s h = false -> senders s = (e, y) :: r -> buffer s ++ [y] = x :: b ->
     P (set_returned
          (set_handed (set_buffer (set_fut (set_senders s r) (upd (fut s) e (ev_set (fut s e)))) b) (handed s ++ [x]))
          (returned s ++ [x]), RItem x)) ->
  P (recv_nowait s h).
Proof.
  intros H1 H2 H3 H4 H5. unfold recv_nowait. destruct (hclosed s h); [auto|].
  unfold rn_move. destruct (senders s) as [|[e y] r] eqn:Hs; unfold rn_pop.
  - destruct (buffer s) as [|x b] eqn:Hb; [destruct (Nat.eqb_spec (open_send s) 0)|]; auto.
  - cbn [buffer set_fut set_buffer set_senders].
    destruct (buffer s ++ [y]) as [|x b] eqn:Hb; [destruct (buffer s); discriminate|]. exact (H5 e y r x b eq_refl eq_refl Hb).
Qed.

Lemma sn_maxb s h x : maxb (fst (send_nowait s h x)) = maxb s.
Proof. apply sn_cases; reflexivity. Qed.

Lemma rn_maxb s h : maxb (fst (recv_nowait s h)) = maxb s.
Proof. apply rn_cases; reflexivity. Qed.

(* the result of send_nowait / receive_nowait, and what they do to the ghost lists *)
Lemma sn_ghost s h x :
  let s1 := fst (send_nowait s h x) in
  returned s1 = returned s /\ acked s1 = acked s /\ lost s1 = lost s /\ senq s1 = senq s /\ renq s1 = renq s /\
  match snd (send_nowait s h x) with
  | RDone | RWouldBlock | RClosed | RBroken => True
  | _ => False
  end.
Proof. cbv zeta. apply sn_cases; intros; cbn; auto 10. Qed.

Lemma rn_ghost s h :
  let s1 := fst (recv_nowait s h) in
  acked s1 = acked s /\ lost s1 = lost s /\ senq s1 = senq s /\ renq s1 = renq s /\
  match snd (recv_nowait s h) with
  | RItem x => returned s1 = returned s ++ [x]
  | RWouldBlock | RClosed | REndOfStream => returned s1 = returned s
  | _ => False
  end.
Proof. cbv zeta. apply rn_cases; intros; cbn; auto 10. Qed.

(* Task.cancel() and scope cancellation write only fut, mustc and scopec: every other field f is kept *)
Lemma task_cancel_frame {A} (f : st -> A) s t :
  (forall s F, f (set_fut s F) = f s) -> (forall s M, f (set_mustc s M) = f s) -> f (task_cancel s t) = f s.
Proof. intros Hf Hm. unfold task_cancel. destruct (waiter s t) as [e|]; [destruct (fut s e)|]; auto. Qed.

Lemma scope_cancel_frame {A} (f : st -> A) s t :
  (forall s F, f (set_fut s F) = f s) -> (forall s M, f (set_mustc s M) = f s) -> (forall s C, f (set_scopec s C) = f s) ->
  f (scope_cancel s t) = f s.
Proof.
  intros Hf Hm Hc. unfold scope_cancel. destruct (mustc s t); [apply Hc|].
  destruct (waiter s t) as [e|]; [destruct (fut s e)|]; rewrite ?task_cancel_frame by assumption; apply Hc.
Qed.

(* the branches of a step, each with the guards that select it; Resume is split further by resume_cases *)
Lemma resume_cases s t (P : st * res -> Prop) :
  (phase_of s t = Idle -> P (s, RRejected)) ->
  (forall h x, phase_of s t = SendCk h x -> mustc s t = true -> P (finish s t, RCancelled)) ->
  (forall h x s1, phase_of s t = SendCk h x -> mustc s t = false ->
     send_nowait (finish s t) h x = (s1, RWouldBlock) -> P (enq_sender s1 t x, RBlocked)) ->
  (forall h x s1 r, phase_of s t = SendCk h x -> mustc s t = false ->
     send_nowait (finish s t) h x = (s1, r) -> r <> RWouldBlock -> P (ack r x s1, r)) ->
  (forall e x, phase_of s t = SendWait e x -> fut s e = FPending -> P (s, RRejected)) ->
  (forall e x, phase_of s t = SendWait e x -> fut s e = FCancelled \/ (fut s e = FSet /\ mustc s t = true) ->
     P (finish (drop_sender s e x) t, RCancelled)) ->
  (forall e x, phase_of s t = SendWait e x -> fut s e = FSet -> mustc s t = false -> has_key e (senders s) = true ->
     P (finish (drop_sender s e x) t, RBroken)) ->
  (forall e x, phase_of s t = SendWait e x -> fut s e = FSet -> mustc s t = false -> has_key e (senders s) = false ->
     P (add_acked (finish s t) x, RDone)) ->
  (forall h, phase_of s t = RecvCk h -> mustc s t = true -> P (finish s t, RCancelled)) ->
  (forall h s1, phase_of s t = RecvCk h -> mustc s t = false ->
     recv_nowait (finish s t) h = (s1, RWouldBlock) -> P (enq_receiver s1 t, RBlocked)) ->
  (forall h s1 r, phase_of s t = RecvCk h -> mustc s t = false ->
     recv_nowait (finish s t) h = (s1, r) -> r <> RWouldBlock -> P (s1, r)) ->
  (forall e, phase_of s t = RecvWait e -> fut s e = FPending -> P (s, RRejected)) ->
  (forall e, phase_of s t = RecvWait e -> fut s e = FCancelled \/ (fut s e = FSet /\ mustc s t = true) ->
     P (finish (lose (pop_receiver s e) e) t, RCancelled)) ->
  (forall e x, phase_of s t = RecvWait e -> fut s e = FSet -> mustc s t = false -> slot s e = Some x ->
     P (finish (give (pop_receiver s e) e x) t, RItem x)) ->
  (forall e, phase_of s t = RecvWait e -> fut s e = FSet -> mustc s t = false -> slot s e = None ->
     P (finish (pop_receiver s e) t, REndOfStream)) ->
  P (step s (Resume t)).
Proof.
  intros H1 H2 H3 H4 H5 H6 H7 H8 H9 H10 H11 H12 H13 H14 H15. cbn [step].
  destruct (phase_of s t) as [|h x|e x|h|e] eqn:Ep; [auto| | | |].
  - destruct (mustc s t) eqn:Em; [eauto|]. destruct (send_nowait (finish s t) h x) as [s1 r] eqn:E.
    destruct r; try (eapply H4; [reflexivity | reflexivity | exact E | discriminate]). eauto.
  - destruct (fut s e) eqn:Ef; [eauto| |eauto]. destruct (mustc s t) eqn:Em; [eauto|].
    destruct (has_key e (senders s)) eqn:Hk; eauto.
  - destruct (mustc s t) eqn:Em; [eauto|]. destruct (recv_nowait (finish s t) h) as [s1 r] eqn:E.
    destruct r; try (eapply H11; [reflexivity | reflexivity | exact E | discriminate]). eauto.
  - destruct (fut s e) eqn:Ef; cbn [is_cancelled orb]; [eauto| |eauto]. destruct (mustc s t) eqn:Em; [eauto|].
    destruct (slot s e) eqn:Es; eauto.
Qed.

Lemma step_cases s o (P : st * res -> Prop) :
  P (s, RRejected) ->
  (forall t h x s1 r, o = SendNowait t h x -> phase_of s t = Idle -> valid_h s h SSend = true -> nitem s <= x ->
     send_nowait (set_nitem s (S x)) h x = (s1, r) -> P (ack r x s1, r)) ->
  (forall t h, o = RecvNowait t h -> phase_of s t = Idle -> valid_h s h SRecv = true -> P (recv_nowait s h)) ->
  (forall t h x, o = Send t h x -> P (set_phase_of (set_nitem s (S x)) (upd (phase_of s) t (SendCk h x)), RBlocked)) ->
  (forall t h, o = Recv t h -> P (set_phase_of s (upd (phase_of s) t (RecvCk h)), RBlocked)) ->
  (forall h, o = Clone h -> h < nh s -> hclosed s h = true -> P (s, RClosed)) ->
  (forall h, o = Clone h -> h < nh s -> hclosed s h = false -> P (do_clone s h, RHandle (nh s))) ->
  (forall h, o = Close h -> hclosed s h = true -> P (s, RDone)) ->
  (forall h, o = Close h -> h < nh s -> hclosed s h = false -> P (do_close s h, RDone)) ->
  (forall t, o = Resume t -> P (step s (Resume t))) ->
  (forall t, o = Cancel t -> P (task_cancel s t, RNone)) ->
  (forall t, o = ScopeCancel t -> P (scope_cancel s t, RNone)) ->
  (forall t, (o = ScopeCancel t \/ o = Deliver t) -> P (s, RNone)) ->
  P (step s o).
Proof.
  intros H1 H2 H3 H4 H5 H6 H7 H8 H9 H10 H11 H12 H13. destruct o; [| | | | | |eauto| | |eauto]; cbn [step].
  - destruct (is_idle (phase_of s t)) eqn:Ei; cbn [negb orb]; [|auto].
    destruct (valid_h s h SSend) eqn:Ev; cbn [negb orb]; [|auto].
    destruct (Nat.ltb_spec x (nitem s)); [auto|]. apply is_idle_true in Ei.
    destruct (send_nowait (set_nitem s (S x)) h x) as [s1 r] eqn:E. eauto.
  - destruct (is_idle (phase_of s t)) eqn:Ei; cbn [negb orb]; [|auto].
    destruct (valid_h s h SRecv) eqn:Ev; cbn [negb orb]; [|auto]. apply is_idle_true in Ei. eauto.
  - destruct (_ || _); eauto.
  - destruct (_ || _); eauto.
  - destruct (Nat.ltb_spec h (nh s)); cbn [negb]; [|auto]. destruct (hclosed s h) eqn:Hc; eauto.
  - destruct (Nat.ltb_spec h (nh s)); cbn [negb]; [|auto]. destruct (hclosed s h) eqn:Hc; eauto.
  - destruct (is_idle _); eauto.
  - destruct (is_idle _); [auto|]. destruct (scopec s t); eauto.
Qed.

Definition send_item (s : st) (o : op) : option item :=
  match o with
  | SendNowait _ _ x => Some x
  | Resume t => match phase_of s t with SendCk _ x => Some x | SendWait _ x => Some x | _ => None end
  | _ => None
  end.

(* what one step does to the ghost fields, tied to its result; the theorems G1-G3, step_maxb and the append-only
   logs below are its components *)
Definition ghost_step (s : st) (o : op) (s' : st) (r : res) : Prop :=
  maxb s' = maxb s /\
  returned s' = match r with RItem x => returned s ++ [x] | _ => returned s end /\
  acked s' = match r, send_item s o with RDone, Some x => acked s ++ [x] | _, _ => acked s end /\
  (lost s' = lost s \/
   exists t e x, o = Resume t /\ phase_of s t = RecvWait e /\ slot s e = Some x /\ r = RCancelled /\
                 lost s' = lost s ++ [x]) /\
  (exists l, senq s' = senq s ++ l) /\ (exists l, renq s' = renq s ++ l).

Definition ghost_eq (s s' : st) : Prop :=
  maxb s' = maxb s /\ returned s' = returned s /\ acked s' = acked s /\ lost s' = lost s /\
  senq s' = senq s /\ renq s' = renq s.

Lemma ghost_eq_trans s1 s2 s3 : ghost_eq s1 s2 -> ghost_eq s2 s3 -> ghost_eq s1 s3.
Proof. unfold ghost_eq. intros (<- & <- & <- & <- & <- & <-). auto. Qed.

Lemma ghost_same s o s' r : ghost_eq s s' ->
  match r with RItem _ => False | RDone => send_item s o = None | _ => True end -> ghost_step s o s' r.
Proof.
  unfold ghost_step. intros (-> & -> & -> & -> & -> & ->) Hr.
  refine (conj eq_refl (conj _ (conj _ (conj (or_introl eq_refl) (conj (ex_intro _ [] _) (ex_intro _ [] _)))))).
  - destruct r; try reflexivity; contradiction.
  - destruct r; try reflexivity. now rewrite Hr.
  - now rewrite app_nil_r.
  - now rewrite app_nil_r.
Qed.

Lemma sn_ghost_eq s h x : ghost_eq s (fst (send_nowait s h x)).
Proof. pose proof (sn_maxb s h x) as H0. pose proof (sn_ghost s h x) as H. cbv zeta in H. unfold ghost_eq. tauto. Qed.

(* send_nowait from a state S with the ghost fields of s, its result acknowledged *)
Lemma ghost_ack s o S h x s1 r : ghost_eq s S -> send_item s o = Some x -> send_nowait S h x = (s1, r) ->
  ghost_step s o (ack r x s1) r.
Proof.
  intros G Hi E. pose proof (ghost_eq_trans _ _ _ G (sn_ghost_eq S h x)) as G1.
  pose proof (sn_ghost S h x) as (_ & _ & _ & _ & _ & Hr). rewrite E in G1, Hr. cbn [fst snd] in G1, Hr.
  destruct r; try contradiction; try (apply ghost_same; [exact G1 | exact I]).
  destruct G1 as (G1 & G2 & G3 & G4 & G5 & G6).
  refine (conj G1 (conj G2 (conj _ (conj (or_introl G4) (conj (ex_intro _ [] _) (ex_intro _ [] _)))))).
  - rewrite Hi. cbn. now rewrite G3.
  - now rewrite app_nil_r.
  - now rewrite app_nil_r.
Qed.

Lemma ghost_recv s o S h s1 r : ghost_eq s S -> recv_nowait S h = (s1, r) -> ghost_step s o s1 r.
Proof.
  intros (G1 & G2 & G3 & G4 & G5 & G6) E. pose proof (rn_maxb S h) as H0.
  pose proof (rn_ghost S h) as (H1 & H2 & H3 & H4 & Hr). rewrite E in *. cbn [fst snd] in *.
  assert (Ge : returned s1 = returned S -> ghost_eq s s1) by (unfold ghost_eq; intuition congruence).
  destruct r; try contradiction; try (apply ghost_same; [exact (Ge Hr) | exact I]).
  refine (conj _ (conj _ (conj _ (conj (or_introl _) (conj (ex_intro _ [] _) (ex_intro _ [] _)))))); rewrite ?app_nil_r; congruence.
Qed.

(* a step that leaves every ghost field alone and whose result claims nothing *)
Ltac same := apply ghost_same; [solve [repeat split] | first [exact I | reflexivity]].

Lemma step_ghost s o : ghost_step s o (fst (step s o)) (snd (step s o)).
Proof.
  apply (step_cases s o (fun p => ghost_step s o (fst p) (snd p))); cbn [fst snd]; try (intros; subst; same).
  - intros t h x s1 r -> _ _ _ E. refine (ghost_ack s (SendNowait t h x) _ h x s1 r _ eq_refl E). repeat split.
  - intros t h _ _ _. apply (ghost_recv s _ s h); [repeat split | apply surjective_pairing].
  - intros h _ _ _. unfold do_clone. destruct (hside s h); same.
  - intros h -> _ _. unfold do_close. destruct (hside s h); destruct (Nat.eqb _ 0); same.
  - intros t ->. assert (G : ghost_eq s (finish s t)) by repeat split.
    apply (resume_cases s t (fun p => ghost_step s (Resume t) (fst p) (snd p))); cbn [fst snd]; try (intros; same).
    + (* WouldBlock: the sender's event is logged *)
      intros h x s1 _ _ E. pose proof (ghost_eq_trans _ _ _ G (sn_ghost_eq (finish s t) h x)) as (G1 & G2 & G3 & G4 & G5 & G6).
      rewrite E in *. cbn [fst] in *.
      refine (conj G1 (conj G2 (conj G3 (conj (or_introl G4) (conj (ex_intro _ [nev s1] _) (ex_intro _ [] _)))))); cbn;
        [now rewrite G5 | now rewrite app_nil_r].
    + intros h x s1 r Hp _ E _. apply (ghost_ack s _ _ h x s1 r G); [cbn; now rewrite Hp | exact E].
    + intros e x _ _. unfold drop_sender. destruct (has_key e (senders s)); same.
    + intros e x _ _ _ _. unfold drop_sender. destruct (has_key e (senders s)); same.
    + intros e x Hp _ _ _.
      refine (conj eq_refl (conj eq_refl (conj _ (conj (or_introl eq_refl) (conj (ex_intro _ [] _) (ex_intro _ [] _)))))); cbn;
        rewrite ?Hp, ?app_nil_r; reflexivity.
    + (* WouldBlock: the receiver's event is logged *)
      intros h s1 _ _ E.
      pose proof (ghost_recv s (Resume t) _ h s1 _ G E) as (G1 & G2 & G3 & [G4|(? & ? & ? & _ & _ & _ & ? & _)] & _);
        [|discriminate].
      pose proof (rn_ghost (finish s t) h) as (_ & _ & G5 & G6 & _). rewrite E in *. cbn [fst snd] in *.
      refine (conj G1 (conj G2 (conj G3 (conj (or_introl G4) (conj (ex_intro _ [] _) (ex_intro _ [nev s1] _)))))); cbn;
        [now rewrite app_nil_r | now rewrite G6].
    + intros h s1 r _ _ E _. exact (ghost_recv s _ _ h s1 r G E).
    + intros e Hp _. unfold lose. cbn [slot pop_receiver set_receivers]. destruct (slot s e) as [x|] eqn:Es; [|same].
      refine (conj eq_refl (conj eq_refl (conj eq_refl (conj (or_intror _) (conj (ex_intro _ [] _) (ex_intro _ [] _))))));
        [exists t, e, x; auto 10 | cbn; now rewrite app_nil_r ..].
    + intros e x _ _ _ _.
      refine (conj eq_refl (conj eq_refl (conj eq_refl (conj (or_introl eq_refl) (conj (ex_intro _ [] _) (ex_intro _ [] _))))));
        cbn; now rewrite app_nil_r.
  - intros t _. apply ghost_same; [repeat split; now apply task_cancel_frame | exact I].
  - intros t _. apply ghost_same; [repeat split; now apply scope_cancel_frame | exact I].
Qed.

Lemma step_maxb s o : maxb (fst (step s o)) = maxb s.
Proof. apply (step_ghost s o). Qed.

Lemma reach_maxb m s : reach m s -> maxb s = m.
Proof.
  intros [ops ->]. apply (final_inv step (fun s => maxb s = m)); [|reflexivity]. intros s o <-. apply step_maxb.
Qed.

(* G1: the ghost list `returned` is exactly the sequence of items returned by receive calls *)
Theorem returned_tracks_results s o :
  returned (fst (step s o)) =
  match snd (step s o) with RItem x => returned s ++ [x] | _ => returned s end.
Proof. apply (step_ghost s o). Qed.

(* G2: the ghost list `acked` is exactly the sequence of items whose send()/send_nowait() returned normally *)
Theorem acked_tracks_results s o :
  acked (fst (step s o)) =
  match snd (step s o), send_item s o with RDone, Some x => acked s ++ [x] | _, _ => acked s end.
Proof. apply (step_ghost s o). Qed.

(* G3: `lost` grows only when a receive() that had been handed an item raises CancelledError *)
Theorem lost_tracks_results s o :
  lost (fst (step s o)) = lost s \/
  exists t e x, o = Resume t /\ phase_of s t = RecvWait e /\ slot s e = Some x /\
                snd (step s o) = RCancelled /\ lost (fst (step s o)) = lost s ++ [x].
Proof. apply (step_ghost s o). Qed.

(* ======================================================================================== *)
(*                                         C12                                               *)
(* ======================================================================================== *)

Lemma nodup_app_l {A} (a b : list A) : NoDup (a ++ b) -> NoDup a.
Proof. intros H. apply (NoDup_app_inv a b H). Qed.

Lemma nodup_app_disj {A} (a b : list A) x : NoDup (a ++ b) -> In x a -> In x b -> False.
Proof. intros H Ha Hb. exact (proj2 (proj2 (NoDup_app_inv a b H)) x Ha Hb). Qed.

(* 1. conservation.  `entered` = items that entered the stream state (buffered, handed to a waiting receiver, or
      parked in a blocked sender's slot), in arrival order.  Every such item is in exactly one place. *)
Theorem ms_conservation m s : reach m s ->
  Permutation (entered s)
    (returned s ++ map snd (inflight s) ++ lost s ++ buffer s ++ map snd (senders s) ++ withdrawn s) /\
  NoDup (entered s) /\
  (forall e x, In (e, x) (inflight s) <-> (slot s e = Some x /\ exists t, phase_of s t = RecvWait e)).
Proof.
  intros R. pose proof (reach_inv m s R) as I. refine (conj _ (conj (I_nd s I) (I_infl s I))).
  eapply perm_trans; [apply (I_perm1 s I)|].
  replace (returned s ++ map snd (inflight s) ++ lost s ++ buffer s ++ map snd (senders s) ++ withdrawn s)
    with ((returned s ++ map snd (inflight s) ++ lost s) ++ buffer s ++ map snd (senders s) ++ withdrawn s)
    by (rewrite <- !app_assoc; reflexivity).
  apply Permutation_app_tail, (I_perm2 s I).
Qed.

Lemma all_places_nodup m s : reach m s ->
  NoDup (returned s ++ map snd (inflight s) ++ lost s ++ buffer s ++ map snd (senders s) ++ withdrawn s).
Proof.
  intros R. destruct (ms_conservation m s R) as (P & N & _). eapply Permutation_NoDup; eauto.
Qed.

(* nothing is delivered twice, nothing is invented *)
Theorem ms_no_dup_no_invention m s : reach m s ->
  NoDup (returned s) /\ (forall x, In x (returned s) -> In x (entered s)).
Proof.
  intros R. destruct (ms_conservation m s R) as (P & N & _). split.
  - pose proof (all_places_nodup m s R) as H. apply nodup_app_l in H. exact H.
  - intros x H. eapply Permutation_in; [apply Permutation_sym, P|]. apply in_or_app. now left.
Qed.

(* every item whose send()/send_nowait() returned normally is in exactly one of: delivered, handed to a receiver
   that has not resumed yet, the buffer - or `lost`, which is empty under AnyIO cancellation (clause 5) *)
Theorem ms_acked_accounted m s x : reach m s -> In x (acked s) ->
  In x (returned s ++ map snd (inflight s) ++ lost s ++ buffer s) /\
  ~ In x (map snd (senders s)) /\ ~ In x (withdrawn s).
Proof.
  intros R Hx. pose proof (reach_inv m s R) as I. pose proof (I_ack s I x Hx) as H.
  assert (H1 : In x (returned s ++ map snd (inflight s) ++ lost s ++ buffer s)).
  { apply in_app_or in H. destruct H as [H|H].
    - apply (Permutation_in _ (I_perm2 s I)) in H. rewrite !in_app_iff in *. tauto.
    - rewrite !in_app_iff. tauto. }
  split; [exact H1|].
  pose proof (all_places_nodup m s R) as N.
  replace (returned s ++ map snd (inflight s) ++ lost s ++ buffer s ++ map snd (senders s) ++ withdrawn s)
    with ((returned s ++ map snd (inflight s) ++ lost s ++ buffer s) ++ map snd (senders s) ++ withdrawn s) in N
    by (rewrite <- !app_assoc; reflexivity).
  split; intros H2.
  - eapply (nodup_app_disj _ _ x N); [exact H1|]. apply in_or_app. now left.
  - eapply (nodup_app_disj _ _ x N); [exact H1|]. apply in_or_app. now right.
Qed.

(* 2. FIFO.  What has been handed out, then the buffer, then the blocked senders' items - in this order - is an
      order-preserving sublist of the arrival sequence: items leave the stream in the order they entered it
      (in particular the items of one sender, whose sends are sequential, and buffered items before the items
      of blocked senders). *)
Theorem ms_fifo m s : reach m s ->
  subseq (handed s ++ buffer s ++ map snd (senders s)) (entered s).
Proof. intros R. apply (I_sub s (reach_inv m s R)). Qed.

Lemma before_total {A} (x y : A) l : x <> y -> In x l -> In y l -> before x y l \/ before y x l.
Proof.
  intros Hne. induction l as [|z l IH]; cbn; [tauto|]. intros [Hx|Hx] [Hy|Hy].
  - congruence.
  - subst z. left. apply before_here. exact Hy.
  - subst z. right. apply before_here. exact Hx.
  - destruct (IH Hx Hy) as [H|H]; [left|right]; apply before_later; exact H.
Qed.

Lemma before_app_l {A} (x y : A) a b : before x y a -> before x y (a ++ b).
Proof.
  induction 1 as [l H|z l H IH]; cbn; [apply before_here; apply in_or_app; now left|apply before_later, IH].
Qed.

Lemma before_neq {A} (x y : A) l : NoDup l -> before x y l -> x <> y.
Proof.
  intros Hn Hb ->. induction Hb as [l H|z l H IH].
  - inversion Hn; contradiction.
  - inversion Hn; auto.
Qed.

(* pairwise form: two handed-out items were handed out in the order in which they entered *)
Theorem ms_fifo_pairs m s x y : reach m s ->
  before x y (entered s) -> In x (handed s) -> In y (handed s) -> before x y (handed s).
Proof.
  intros R Hb Hx Hy. pose proof (reach_inv m s R) as I.
  assert (Hne : x <> y) by (eapply before_neq; [apply (I_nd s I)|exact Hb]).
  destruct (before_total x y (handed s) Hne Hx Hy) as [H|H]; [exact H|exfalso].
  assert (H' : before y x (entered s)).
  { eapply subseq_before; [apply (ms_fifo m s R)|]. apply before_app_l. exact H. }
  eapply before_nodup_asym; [apply (I_nd s I)|exact Hb|exact H'].
Qed.

(* 3. waiters are served in the order they started waiting *)
Theorem ms_waiters_served_fifo m s : reach m s ->
  subseq (map fst (senders s)) (senq s) /\ subseq (map fst (receivers s)) (renq s).
Proof. intros R. pose proof (reach_inv m s R) as I. split; [apply (I_senq s I)|apply (I_renq s I)]. Qed.

(* receive_nowait serves the HEAD of the sender queue *)
Theorem ms_sender_served_is_head s e y r :
  senders s = (e, y) :: r ->
  senders (rn_move s) = r /\ buffer (rn_move s) = buffer s ++ [y] /\ fut (rn_move s) e = ev_set (fut s e).
Proof. intros H. unfold rn_move. rewrite H. cbn. rewrite upd_same. auto. Qed.

(* send_nowait serves the first waiting receiver that has no pending cancellation; the ones before it are dropped *)
Theorem ms_receiver_served_first_live s :
  match pop_live s (receivers s) with
  | (Some (e, t), rest) =>
      exists pre, receivers s = pre ++ (e, t) :: rest /\ has_pending s t = false /\
                  (forall e' t', In (e', t') pre -> has_pending s t' = true)
  | (None, rest) => rest = [] /\ (forall e' t', In (e', t') (receivers s) -> has_pending s t' = true)
  end.
Proof. apply pop_live_spec. Qed.

(* the arrival logs are append-only *)
Theorem ms_arrival_logs_append_only s o :
  (exists l, senq (fst (step s o)) = senq s ++ l) /\ (exists l, renq (fst (step s o)) = renq s ++ l).
Proof. apply (step_ghost s o). Qed.

(* 4. buffer bound: at every reachable state (every point at which another task can observe the stream) the
      buffer holds at most max_buffer_size items.  Inside receive_nowait the deque transiently holds one more
      (rn_move appends a blocked sender's item before rn_pop removes the head); that intermediate value is never
      visible because no suspension point separates the two halves. *)
Theorem ms_buffer_bound m s : reach m s -> xle (length (buffer s)) m.
Proof. intros R. rewrite <- (reach_maxb m s R). apply (I_bound s (reach_inv m s R)). Qed.

Definition xsucc (m : xnat) : xnat := match m with Fin k => Fin (S k) | Inf => Inf end.

Theorem ms_buffer_transient m s : reach m s ->
  xle (length (buffer (rn_move s))) (xsucc m) /\
  (forall h, xle (length (buffer (fst (recv_nowait s h)))) m).
Proof.
  intros R. split.
  - pose proof (ms_buffer_bound m s R) as H. unfold rn_move. destruct (senders s) as [|[e y] r]; cbn.
    + destruct m; cbn in *; [lia|trivial].
    + rewrite app_length. cbn. destruct m; cbn in *; [lia|trivial].
  - intros h. pose proof (reach_inv m s R) as I. pose proof (recv_nowait_inv s h I) as [I1 _].
    pose proof (I_bound _ I1) as Hb. rewrite (rn_maxb s h), (reach_maxb m s R) in Hb. exact Hb.
Qed.

(* 6. an item whose send was interrupted is delivered at most once: nothing is ever delivered twice, and an item
      withdrawn by its interrupted sender (its entry was still in waiting_senders) is never delivered at all *)
Theorem ms_interrupted_send_at_most_once m s : reach m s ->
  NoDup (returned s) /\
  (forall x, In x (withdrawn s) ->
     ~ In x (returned s) /\ ~ In x (map snd (inflight s)) /\ ~ In x (buffer s) /\ ~ In x (map snd (senders s))).
Proof.
  intros R. split; [apply (ms_no_dup_no_invention m s R)|]. intros x Hw.
  pose proof (all_places_nodup m s R) as N.
  assert (D : forall a b c, NoDup (a ++ b ++ c) -> In x c -> ~ In x a /\ NoDup (b ++ c)).
  { intros a b c Hn Hc. split.
    - intros Ha. eapply (nodup_app_disj a (b ++ c) x Hn Ha). apply in_or_app. now right.
    - apply (NoDup_app_inv a (b ++ c) Hn). }
  destruct (D _ _ _ N) as [H1 N1].
  { rewrite !in_app_iff. tauto. }
  destruct (D _ _ _ N1) as [H2 N2].
  { rewrite !in_app_iff. tauto. }
  assert (N3 : NoDup (buffer s ++ map snd (senders s) ++ withdrawn s)).
  { apply (NoDup_app_inv (lost s) _ N2). }
  destruct (D _ _ _ N3 Hw) as [H3 N4].
  assert (H4 : ~ In x (map snd (senders s))).
  { intros Ha. eapply (nodup_app_disj _ _ x N4 Ha Hw). }
  auto.
Qed.

(* what a sender's own resumption does: a still-present entry is withdrawn, otherwise the item is already in
   the buffer or handed out *)
Theorem ms_interrupted_send_cases m s t e x : reach m s -> phase_of s t = SendWait e x ->
  In (e, x) (senders s) \/ In x (handed s ++ buffer s).
Proof. intros R. apply (I_sw s (reach_inv m s R)). Qed.

(* 5. cancelling a blocked receive never loses an item - under the AnyIO cancellation discipline.
      AnyIO's delivery (CancelScope._deliver_cancellation) never calls task.cancel() on a task whose waiter future
      is done (op ScopeCancel models exactly that), and send_nowait never hands an item to a receiver with a
      pending cancellation.  The only way to make a receive() raise after it was handed an item is therefore a
      NATIVE Task.cancel() (op Cancel) issued in the hand-over cycle.  The discipline below excludes exactly
      those ops; it is stated explicitly as a premise on the op sequence. *)
Definition filled_receiver (s : st) (t : tid) : Prop :=
  exists e x, phase_of s t = RecvWait e /\ slot s e = Some x.

Definition late_native_cancel (s : st) (o : op) : Prop :=
  match o with Cancel t => filled_receiver s t | _ => False end.

Fixpoint disciplined (s : st) (ops : list op) : Prop :=
  match ops with
  | [] => True
  | o :: r => ~ late_native_cancel s o /\ disciplined (fst (step s o)) r
  end.

Definition DInv (s : st) : Prop :=
  forall t e x, phase_of s t = RecvWait e -> slot s e = Some x -> mustc s t = false.

Lemma D_frame s s' :
  phase_of s' = phase_of s -> slot s' = slot s -> mustc s' = mustc s -> DInv s -> DInv s'.
Proof. intros H1 H2 H3 D t e x. rewrite H1, H2, H3. apply D. Qed.

Lemma sn_D s h x : Inv s -> DInv s -> DInv (fst (send_nowait s h x)).
Proof.
  intros I D. apply sn_cases; [auto | auto | | intros; eapply D_frame; eauto ..].
  intros e t pre rest _ _ _ Hr Hnp. cbn [fst]. intros t0 e0 x0. cbn. intros H1 H2.
  destruct (Nat.eq_dec e0 e) as [->|Hn].
  - assert (Hin : In (e, t) (receivers s)) by (rewrite Hr; apply in_or_app; right; now left).
    pose proof (I_rk s I e t Hin) as Hp.
    assert (t0 = t) by (eapply (I_inj s I); [rewrite H1|rewrite Hp]; reflexivity). subst t0.
    destruct (has_pending_wait_false s t e) as (Hm & _); [rewrite Hp; reflexivity|exact Hnp|exact Hm].
  - rewrite upd_other in H2 by assumption. eapply D; eauto.
Qed.

Lemma rn_frame s h :
  let s1 := fst (recv_nowait s h) in phase_of s1 = phase_of s /\ slot s1 = slot s /\ mustc s1 = mustc s.
Proof. cbv zeta. apply rn_cases; intros; cbn; auto. Qed.

Lemma D_finish s t : DInv s -> DInv (finish s t).
Proof.
  intros D t0 e x. cbn. intros H1 H2. destruct (Nat.eq_dec t0 t) as [->|Hn].
  - rewrite upd_same in H1. discriminate.
  - rewrite upd_other in H1 by assumption. rewrite upd_other by assumption. eapply D; eauto.
Qed.

Lemma D_phase s t p : DInv s -> (forall e, p <> RecvWait e) -> DInv (set_phase_of s (upd (phase_of s) t p)).
Proof.
  intros D Hp t0 e x. cbn. intros H1 H2. destruct (Nat.eq_dec t0 t) as [->|Hn].
  - rewrite upd_same in H1. exfalso. eapply Hp; eauto.
  - rewrite upd_other in H1 by assumption. eapply D; eauto.
Qed.

Lemma D_task_cancel s t : DInv s -> ~ filled_receiver s t -> DInv (task_cancel s t).
Proof.
  intros D Hnf. assert (Hm : DInv (set_mustc s (upd (mustc s) t true))).
  { intros t0 e x. cbn. intros H1 H2. destruct (Nat.eq_dec t0 t) as [->|Hn].
    - exfalso. apply Hnf. exists e, x. auto.
    - rewrite upd_other by assumption. eapply D; eauto. }
  unfold task_cancel. destruct (waiter s t) as [e|]; [|exact Hm].
  destruct (fut s e); [|exact Hm|exact Hm]. eapply D_frame; eauto.
Qed.

Lemma step_D s o : Inv s -> DInv s -> ~ late_native_cancel s o -> DInv (fst (step s o)).
Proof.
  intros I D Hl. apply (step_cases s o (fun p => DInv (fst p))); cbn [fst]; try (intros; exact D).
  - intros t h x s1 r _ _ _ Hx E.
    assert (D0 : DInv (set_nitem s (S x))) by (eapply D_frame; eauto).
    assert (Hs : Inv (set_nitem s (S x))) by (apply set_nitem_inv; [exact I|lia]).
    pose proof (sn_D (set_nitem s (S x)) h x Hs D0) as H. rewrite E in H.
    destruct r; cbn; try exact H; eapply D_frame; try exact H; reflexivity.
  - intros t h _ _ _. pose proof (rn_frame s h) as (H1 & H2 & H3). eapply D_frame; eauto.
  - intros t h x _. apply (D_phase (set_nitem s (S x))); [|discriminate]. eapply D_frame; eauto.
  - intros t h _. apply D_phase; [exact D|discriminate].
  - intros h _ _ _. unfold do_clone. destruct (hside s h); eapply D_frame; eauto.
  - intros h _ _ _. unfold do_close. destruct (hside s h); destruct (Nat.eqb _ 0); eapply D_frame; eauto.
  - intros t _. apply (resume_cases s t (fun p => DInv (fst p))); cbn [fst];
      try (intros; exact D); try (intros; exact (D_finish s t D)).
    + intros h x s1 Hp _ E.
      assert (If : Inv (finish s t)) by (apply finish_ck_inv; [exact I|rewrite Hp; reflexivity]).
      pose proof (sn_D (finish s t) h x If (D_finish s t D)) as H. rewrite E in H. cbn [fst] in H.
      unfold enq_sender. intros t0 e0 x0. cbn. intros H1 H2. destruct (Nat.eq_dec t0 t) as [->|Hn].
      * rewrite upd_same in H1. discriminate.
      * rewrite upd_other in H1 by assumption. eapply H; eauto.
    + intros h x s1 r Hp _ E _.
      assert (If : Inv (finish s t)) by (apply finish_ck_inv; [exact I|rewrite Hp; reflexivity]).
      pose proof (sn_D (finish s t) h x If (D_finish s t D)) as H. rewrite E in H.
      destruct r; cbn; try exact H; eapply D_frame; try exact H; reflexivity.
    + intros e x _ _. apply D_finish. unfold drop_sender. destruct (has_key e (senders s)); [|exact D]. eapply D_frame; eauto.
    + intros e x _ _ _ _. apply D_finish. unfold drop_sender. destruct (has_key e (senders s)); [|exact D]. eapply D_frame; eauto.
    + intros h s1 _ _ E. pose proof (rn_frame (finish s t) h) as (H1 & H2 & H3). rewrite E in *. cbn [fst] in *.
      assert (D1 : DInv s1) by (eapply D_frame; eauto; apply D_finish, D).
      unfold enq_receiver. intros t0 e0 x0. cbn. intros Ha Hb.
      destruct (Nat.eq_dec e0 (nev s1)) as [->|Hne]; [rewrite upd_same in Hb; discriminate|].
      rewrite upd_other in Hb by assumption.
      destruct (Nat.eq_dec t0 t) as [->|Hn].
      * rewrite upd_same in Ha. congruence.
      * rewrite upd_other in Ha by assumption. eapply D1; eauto.
    + intros h s1 r _ _ E _. pose proof (rn_frame (finish s t) h) as (H1 & H2 & H3). rewrite E in *.
      eapply D_frame; eauto; apply D_finish, D.
    + intros e _ _. apply D_finish. unfold lose. cbn. destruct (slot s e); eapply D_frame; eauto.
  - intros t ->. apply D_task_cancel; [exact D|exact Hl].
  - intros t _. unfold scope_cancel.
    assert (D1 : DInv (set_scopec s (upd (scopec s) t true))) by (eapply D_frame; eauto).
    destruct (mustc s t) eqn:Em; [exact D1|].
    assert (Hw : forall s1, phase_of s1 = phase_of s -> slot s1 = slot s -> fut s1 = fut s -> mustc s1 = mustc s ->
                 DInv s1 -> forall e, waiter s t = Some e -> fut s e = FPending -> DInv (task_cancel s1 t)).
    { intros s1 E1 E2 E3 E4 Ds1 e Hwt Hf. unfold task_cancel, waiter. rewrite E1, E3.
      unfold waiter in Hwt. rewrite Hwt, Hf. eapply D_frame; [| | |exact Ds1]; reflexivity. }
    destruct (waiter s t) as [e|] eqn:Ew.
    + destruct (fut s e) eqn:Ef; [|exact D1|exact D1]. eapply Hw; eauto.
    + apply D_task_cancel; [exact D1|]. intros (e & x0 & H1 & H2). cbn in H1.
      unfold waiter in Ew. rewrite H1 in Ew. discriminate.
Qed.

Lemma D_init m : DInv (init m).
Proof. intros t e x H. discriminate. Qed.

(* under the discipline a receive() that raises CancelledError was never handed an item *)
Lemma cancelled_receive_slot_empty s t e :
  Inv s -> DInv s -> phase_of s t = RecvWait e -> snd (step s (Resume t)) = RCancelled -> slot s e = None.
Proof.
  intros I D Hp Hr. destruct (slot s e) as [x|] eqn:Es; [exfalso|reflexivity].
  pose proof (I_filled s I t e x Hp Es) as Hf. pose proof (D t e x Hp Es) as Hm.
  cbn [step] in Hr. rewrite Hp, Hf, Hm, Es in Hr. cbn in Hr. discriminate.
Qed.

Lemma disciplined_run s ops :
  Inv s -> DInv s -> lost s = [] -> disciplined s ops ->
  let s' := final step s ops in Inv s' /\ DInv s' /\ lost s' = [].
Proof.
  revert s. induction ops as [|o r IH]; intros s I D L Hd; cbn; [auto|].
  destruct Hd as [Hl Hr]. apply IH; [apply step_inv, I|apply step_D; assumption| |exact Hr].
  destruct (lost_tracks_results s o) as [H|(t & e & x & -> & Hp & Es & Hres & _)]; [congruence|].
  exfalso. pose proof (cancelled_receive_slot_empty s t e I D Hp Hres). congruence.
Qed.

Theorem ms_cancel_receive_loses_nothing m ops :
  disciplined (init m) ops ->
  let s := final step (init m) ops in
  (* no item was ever lost by a cancelled receive ... *)
  lost s = [] /\
  (* ... so every item whose send succeeded is delivered, on its way to a resumed receiver, or buffered *)
  (forall x, In x (acked s) -> In x (returned s ++ map snd (inflight s) ++ buffer s)) /\
  (* ... and the next cancelled receive removes nothing either *)
  (forall t e, phase_of s t = RecvWait e -> snd (step s (Resume t)) = RCancelled ->
     slot s e = None /\
     let s' := fst (step s (Resume t)) in
     buffer s' = buffer s /\ senders s' = senders s /\ entered s' = entered s /\ handed s' = handed s /\
     returned s' = returned s /\ lost s' = [] /\ acked s' = acked s).
Proof.
  intros Hd. pose proof (disciplined_run (init m) ops (inv_init m) (D_init m) eq_refl Hd) as (I & D & L).
  cbv zeta in *. set (s := final step (init m) ops) in *.
  assert (R : reach m s) by (exists ops; reflexivity).
  refine (conj L (conj _ _)).
  - intros x Hx. destruct (ms_acked_accounted m s x R Hx) as [H _]. rewrite L in H. exact H.
  - intros t e Hp Hr. pose proof (cancelled_receive_slot_empty s t e I D Hp Hr) as Es.
    split; [exact Es|]. cbn [step] in *. rewrite Hp in *.
    destruct (fut s e); [discriminate| |].
    + destruct (is_cancelled FSet || mustc s t); [|rewrite Es in Hr; discriminate].
      unfold lose. cbn. rewrite Es. cbn. auto 10.
    + cbn [is_cancelled orb fst]. unfold lose. cbn. rewrite Es. cbn. auto 10.
Qed.

(* a single step form of the same fact, for any reachable state (no discipline needed once the slot is empty) *)
Theorem ms_cancelled_receive_removes_nothing s t e :
  phase_of s t = RecvWait e -> slot s e = None -> snd (step s (Resume t)) = RCancelled ->
  let s' := fst (step s (Resume t)) in
  buffer s' = buffer s /\ senders s' = senders s /\ entered s' = entered s /\ handed s' = handed s /\
  returned s' = returned s /\ lost s' = lost s.
Proof.
  intros Hp Es Hr. cbn [step] in *. rewrite Hp in *.
  destruct (fut s e); [discriminate| |].
  - destruct (is_cancelled FSet || mustc s t); [|rewrite Es in Hr; discriminate].
    unfold lose. cbn. rewrite Es. cbn. auto 10.
  - cbn [is_cancelled orb fst]. unfold lose. cbn. rewrite Es. cbn. auto 10.
Qed.

(* AnyIO scope cancellation (op ScopeCancel) can never be "late": it is always allowed by the discipline *)
Theorem ms_scope_cancel_is_disciplined s t : ~ late_native_cancel s (ScopeCancel t).
Proof. intros H. exact H. Qed.

(* ---------- non-vacuity and the documented scope ---------- *)
Open Scope nat_scope.

(* receiver 1 blocks, its scope is cancelled (AnyIO), a send_nowait arrives before it resumes:
   the receiver is skipped, the item goes to the buffer and is still there after the cancelled receive *)
Definition ex_skip := [Recv 1 1; Resume 1; ScopeCancel 1; SendNowait 2 0 7; Resume 1].
Example ex_cancelled_receiver_is_skipped :
  let s := final step (init (Fin 1)) ex_skip in
  disciplined (init (Fin 1)) ex_skip /\ buffer s = [7] /\ lost s = [] /\ acked s = [7] /\
  snd (step (final step (init (Fin 1)) [Recv 1 1; Resume 1; ScopeCancel 1; SendNowait 2 0 7]) (Resume 1)) = RCancelled.
Proof. vm_compute. repeat split; intros H; try exact H; try destruct H as (e & x & H1 & H2); discriminate. Qed.

(* hand-over cycle under AnyIO cancellation: the item has been handed over, then the receiver's scope is
   cancelled: delivery skips the task (its waiter is done) and receive() returns the item *)
Definition ex_handover_scope := [Recv 1 1; Resume 1; SendNowait 2 0 7; ScopeCancel 1; Deliver 1].
Example ex_scope_cancel_in_handover_cycle_keeps_item :
  let s := final step (init (Fin 0)) ex_handover_scope in
  disciplined (init (Fin 0)) ex_handover_scope /\ inflight s = [(0, 7)] /\
  snd (step s (Resume 1)) = RItem 7 /\ returned (fst (step s (Resume 1))) = [7].
Proof. vm_compute. repeat split; intros H; try exact H; try destruct H as (e & x & H1 & H2); discriminate. Qed.

(* documented scope, not a finding: a NATIVE Task.cancel() in the hand-over cycle does lose the item *)
Definition ex_native := [Recv 1 1; Resume 1; SendNowait 2 0 7; Cancel 1; Resume 1].
Example ex_native_cancel_in_handover_cycle_loses_item :
  let s := final step (init (Fin 0)) ex_native in
  ~ disciplined (init (Fin 0)) ex_native /\
  acked s = [7] /\ lost s = [7] /\ returned s = [] /\ buffer s = [] /\ inflight s = [] /\
  snd (step (final step (init (Fin 0)) [Recv 1 1; Resume 1; SendNowait 2 0 7; Cancel 1]) (Resume 1)) = RCancelled.
Proof.
  vm_compute. split; [|auto 10]. intros (_ & _ & _ & H & _). apply H. exists 0, 7. auto.
Qed.

(* hypotheses of ms_fifo_pairs / conservation are met with blocked senders, buffer and hand-outs at once *)
Definition ex_flow := [SendNowait 1 0 1; Send 1 0 2; Resume 1; Send 2 0 3; Resume 2; RecvNowait 3 1; Cancel 2; Resume 2].
Example ex_flow_state :
  let s := final step (init (Fin 1)) ex_flow in
  entered s = [1; 2; 3] /\ handed s = [1] /\ buffer s = [2] /\ senders s = [] /\ withdrawn s = [3] /\
  returned s = [1] /\ before 1 2 (entered s).
Proof. vm_compute. repeat split. apply before_here. now left. Qed.

(* the buffer bound is attained, and the transient excess inside receive_nowait is real *)
Example ex_buffer_transient :
  let s := final step (init (Fin 1)) [SendNowait 1 0 1; Send 1 0 2; Resume 1] in
  length (buffer s) = 1 /\ length (buffer (rn_move s)) = 2 /\ length (buffer (fst (recv_nowait s 1))) = 1.
Proof. vm_compute. auto. Qed.

(* an interrupted send whose item had already been taken: delivered exactly once, the send raises *)
Example ex_interrupted_send_delivered_once :
  let s := final step (init (Fin 0)) [Send 1 0 5; Resume 1; Cancel 1; RecvNowait 2 1; Resume 1] in
  returned s = [5] /\ withdrawn s = [] /\ acked s = [] /\
  snd (step (final step (init (Fin 0)) [Send 1 0 5; Resume 1; Cancel 1; RecvNowait 2 1]) (Resume 1)) = RCancelled.
Proof. vm_compute. auto. Qed.

(* ======================================================================================== *)
(*                                         C13                                               *)
(* ======================================================================================== *)

(* results of the two non-blocking cores *)
Lemma sn_result s h x :
  (snd (send_nowait s h x) = RClosed <-> hclosed s h = true) /\
  (snd (send_nowait s h x) = RBroken <-> hclosed s h = false /\ open_recv s = 0) /\
  snd (send_nowait s h x) <> REndOfStream.
Proof. apply sn_cases; intros; cbn; intuition congruence. Qed.

Lemma rn_result s h :
  (snd (recv_nowait s h) = RClosed <-> hclosed s h = true) /\
  (snd (recv_nowait s h) = REndOfStream <-> hclosed s h = false /\ finished s) /\
  snd (recv_nowait s h) <> RBroken.
Proof. unfold finished. apply rn_cases; intros; cbn; intuition congruence. Qed.

(* an op that performs the non-blocking attempt of a receive / send on handle h *)
Definition recv_attempt (s : st) (o : op) (h : hid) : Prop :=
  (exists t, o = RecvNowait t h /\ phase_of s t = Idle /\ valid_h s h SRecv = true) \/
  (exists t, o = Resume t /\ phase_of s t = RecvCk h /\ mustc s t = false).

Definition send_attempt (s : st) (o : op) (h : hid) : Prop :=
  (exists t x, o = SendNowait t h x /\ phase_of s t = Idle /\ valid_h s h SSend = true /\ nitem s <= x) \/
  (exists t x, o = Resume t /\ phase_of s t = SendCk h x /\ mustc s t = false).

Lemma finish_same_stream s t h :
  hclosed (finish s t) h = hclosed s h /\ (finished (finish s t) <-> finished s) /\
  open_recv (finish s t) = open_recv s.
Proof. unfold finished. cbn. tauto. Qed.

Lemma has_pending_finish_other s t t' : t' <> t -> has_pending (finish s t) t' = has_pending s t'.
Proof.
  intros Hn. unfold has_pending, waiter. cbn. now rewrite !upd_other by assumption.
Qed.

(* an attempt runs the non-blocking core from a state S that shows the stream as s does (s itself, or s after the
   checkpoint); only WouldBlock is reported differently by the two kinds of attempt *)
Lemma recv_attempt_step s o h : recv_attempt s o h -> exists S,
  hclosed S h = hclosed s h /\ open_send S = open_send s /\ buffer S = buffer s /\ senders S = senders s /\
  (snd (recv_nowait S h) <> RWouldBlock -> snd (step s o) = snd (recv_nowait S h)) /\
  (snd (recv_nowait S h) = RWouldBlock ->
   (snd (step s o) = RWouldBlock /\ exists t, o = RecvNowait t h) \/ (snd (step s o) = RBlocked /\ exists t, o = Resume t)).
Proof.
  intros [(t & -> & Hp & Hv)|(t & -> & Hp & Hm)]; cbn [step]; rewrite Hp, ?Hv, ?Hm; cbn [is_idle negb orb].
  - exists s. repeat split. intros E. left. eauto.
  - exists (finish s t). refine (conj eq_refl (conj eq_refl (conj eq_refl (conj eq_refl _)))).
    destruct (recv_nowait (finish s t) h) as [s1 r]. cbn [snd]. split.
    + intros Hn. destruct r; try reflexivity. now elim Hn.
    + intros ->. right. cbn. eauto.
Qed.

Lemma send_attempt_step s o h : send_attempt s o h -> exists S x,
  hclosed S h = hclosed s h /\ open_recv S = open_recv s /\ buffer S = buffer s /\ maxb S = maxb s /\
  receivers S = receivers s /\
  (Inv s -> forall e t, In (e, t) (receivers s) -> has_pending S t = has_pending s t) /\
  (snd (send_nowait S h x) <> RWouldBlock -> snd (step s o) = snd (send_nowait S h x)) /\
  (snd (send_nowait S h x) = RWouldBlock ->
   (snd (step s o) = RWouldBlock /\ exists t x, o = SendNowait t h x) \/ (snd (step s o) = RBlocked /\ exists t, o = Resume t)).
Proof.
  intros [(t & x & -> & Hp & Hv & Hx)|(t & x & -> & Hp & Hm)]; cbn [step]; rewrite Hp, ?Hv, ?Hm; cbn [is_idle negb orb].
  - destruct (Nat.ltb_spec x (nitem s)) as [Hlt|Hge]; [lia|]. exists (set_nitem s (S x)), x.
    refine (conj eq_refl (conj eq_refl (conj eq_refl (conj eq_refl (conj eq_refl (conj (fun _ _ _ _ => eq_refl) _)))))).
    destruct (send_nowait (set_nitem s (S x)) h x) as [s1 r]. cbn [snd]. split; [reflexivity|]. intros ->. left. eauto.
  - exists (finish s t), x.
    refine (conj eq_refl (conj eq_refl (conj eq_refl (conj eq_refl (conj eq_refl (conj _ _)))))).
    + intros I e t' Hin. apply has_pending_finish_other. intros ->. apply (I_rk s I) in Hin. congruence.
    + destruct (send_nowait (finish s t) h x) as [s1 r]. cbn [snd]. split.
      * intros Hn. destruct r; try reflexivity. now elim Hn.
      * intros ->. right. cbn. eauto.
Qed.

(* so a result X other than WouldBlock / Blocked comes out of an attempt exactly when the core gives it *)
Lemma attempt_result (r r' X : res) (A B Q : Prop) :
  (r <> RWouldBlock -> r' = r) -> (r = RWouldBlock -> (r' = RWouldBlock /\ A) \/ (r' = RBlocked /\ B)) ->
  X <> RWouldBlock -> X <> RBlocked -> (r = X <-> Q) -> (r' = X <-> Q).
Proof.
  intros H1 H2 X1 X2 <-. destruct r; try (rewrite H1 by discriminate; reflexivity);
    destruct (H2 eq_refl) as [[-> _]|[-> _]]; split; congruence.
Qed.

(* 1. EndOfStream: exactly when every send clone is closed and neither buffered nor pending items remain *)
Theorem ms_eos_iff s o h : recv_attempt s o h -> hclosed s h = false ->
  (snd (step s o) = REndOfStream <-> finished s).
Proof.
  intros A Hc. destruct (recv_attempt_step s o h A) as (S & E1 & E2 & E3 & E4 & H1 & H2).
  apply (attempt_result _ _ _ _ _ _ H1 H2); [discriminate | discriminate |].
  destruct (rn_result S h) as (_ & H & _). unfold finished in *. rewrite E1, E2, E3, E4 in H. tauto.
Qed.

Theorem ms_eos_only_if m s o : reach m s -> snd (step s o) = REndOfStream -> finished s.
Proof.
  intros R. pose proof (reach_inv m s R) as I. apply step_cases; try (intros; discriminate).
  - intros t h x s1 r _ _ _ _ E Hr. destruct (sn_result (set_nitem s (S x)) h x) as (_ & _ & H). rewrite E in H. contradiction.
  - intros t h _ _ _ Hr. apply (rn_result s h) in Hr. apply Hr.
  - intros t _. apply resume_cases; try (intros; discriminate).
    + intros h x s1 r _ _ E _ Hr. destruct (sn_result (finish s t) h x) as (_ & _ & H). rewrite E in H. contradiction.
    + intros h s1 r _ _ E _ Hr. destruct (rn_result (finish s t) h) as (_ & H & _). rewrite E in H.
      apply (finish_same_stream s t h), H, Hr.
    + intros e Hp Hf _ Hs _. eapply (I_eos s I); eauto.
Qed.

(* a receiver that was blocked and is woken without a cancellation: EndOfStream iff it was handed no item,
   and then the stream really is finished *)
Theorem ms_eos_woken m s t e : reach m s ->
  phase_of s t = RecvWait e -> fut s e = FSet -> mustc s t = false ->
  (snd (step s (Resume t)) = REndOfStream <-> slot s e = None) /\
  (slot s e = None -> finished s) /\
  (forall x, slot s e = Some x -> snd (step s (Resume t)) = RItem x).
Proof.
  intros R Hp Hf Hm. pose proof (reach_inv m s R) as I. cbn [step]. rewrite Hp, Hf, Hm. cbn.
  refine (conj _ (conj _ _)).
  - destruct (slot s e); cbn; split; congruence.
  - intros Es. eapply (I_eos s I); eauto.
  - intros x ->. reflexivity.
Qed.

(* 2. BrokenResourceError: exactly when every receive clone is closed *)
Theorem ms_broken_iff s o h : send_attempt s o h -> hclosed s h = false ->
  (snd (step s o) = RBroken <-> open_recv s = 0).
Proof.
  intros A Hc. destruct (send_attempt_step s o h A) as (S & x & E1 & E2 & _ & _ & _ & _ & H1 & H2).
  apply (attempt_result _ _ _ _ _ _ H1 H2); [discriminate | discriminate |].
  destruct (sn_result S h x) as (_ & H & _). rewrite E1, E2 in H. tauto.
Qed.

Theorem ms_broken_only_if m s o : reach m s -> snd (step s o) = RBroken -> open_recv s = 0.
Proof.
  intros R. pose proof (reach_inv m s R) as I. apply step_cases; try (intros; discriminate).
  - intros t h x s1 r _ _ _ _ E Hr. destruct (sn_result (set_nitem s (S x)) h x) as (_ & H & _). rewrite E in H.
    apply H in Hr. apply Hr.
  - intros t h _ _ _ Hr. now destruct (rn_result s h) as (_ & _ & H).
  - intros t _. apply resume_cases; try (intros; discriminate).
    + intros h x s1 r _ _ E _ Hr. destruct (sn_result (finish s t) h x) as (_ & H & _). rewrite E in H.
      apply H in Hr. apply Hr.
    + intros e x _ Hf _ Hk _. apply has_key_in in Hk. apply in_map_iff in Hk. destruct Hk as ([e0 x0] & E & Hin).
      cbn in E. subst e0. eapply (I_brk s I); eauto.
    + intros h s1 r _ _ E _ Hr. destruct (rn_result (finish s t) h) as (_ & _ & H). rewrite E in H. contradiction.
Qed.

(* a blocked sender woken without a cancellation: BrokenResourceError iff its entry is still queued (nobody took
   the item), and then every receive clone is closed; otherwise the send succeeds *)
Theorem ms_broken_woken m s t e x : reach m s ->
  phase_of s t = SendWait e x -> fut s e = FSet -> mustc s t = false ->
  (snd (step s (Resume t)) = RBroken <-> has_key e (senders s) = true) /\
  (has_key e (senders s) = true -> open_recv s = 0) /\
  (has_key e (senders s) = false -> snd (step s (Resume t)) = RDone).
Proof.
  intros R Hp Hf Hm. pose proof (reach_inv m s R) as I. cbn [step]. rewrite Hp, Hf, Hm.
  refine (conj _ (conj _ _)).
  - destruct (has_key e (senders s)); cbn; split; congruence.
  - intros Hk. apply has_key_in in Hk. apply in_map_iff in Hk. destruct Hk as ([e0 x0] & E & Hin).
    cbn in E. subst e0. eapply (I_brk s I); eauto.
  - intros ->. reflexivity.
Qed.

(* 3. ClosedResourceError: exactly for operations on a handle that has itself been closed *)
Definition uses_handle (s : st) (o : op) (h : hid) : Prop :=
  send_attempt s o h \/ recv_attempt s o h \/ (o = Clone h /\ h < nh s).

Theorem ms_closed_iff s o h : uses_handle s o h ->
  (snd (step s o) = RClosed <-> hclosed s h = true).
Proof.
  intros [A|[A|[-> Hh]]].
  - destruct (send_attempt_step s o h A) as (S & x & E1 & _ & _ & _ & _ & _ & H1 & H2).
    apply (attempt_result _ _ _ _ _ _ H1 H2); [discriminate | discriminate |].
    destruct (sn_result S h x) as (H & _). now rewrite E1 in H.
  - destruct (recv_attempt_step s o h A) as (S & E1 & _ & _ & _ & H1 & H2).
    apply (attempt_result _ _ _ _ _ _ H1 H2); [discriminate | discriminate |].
    destruct (rn_result S h) as (H & _). now rewrite E1 in H.
  - cbn [step]. destruct (Nat.ltb_spec h (nh s)); [|lia]. cbn [negb]. destruct (hclosed s h); cbn; split; congruence.
Qed.

Theorem ms_closed_only_if s o : snd (step s o) = RClosed -> exists h, uses_handle s o h /\ hclosed s h = true.
Proof.
  intros Hr. assert (K : forall h, uses_handle s o h -> exists h, uses_handle s o h /\ hclosed s h = true).
  { intros h U. exists h. split; [exact U|]. apply (ms_closed_iff s o h U). exact Hr. }
  generalize Hr. apply step_cases; try (intros; discriminate).
  - intros t h x s1 r -> Hp Hv Hx _ _. apply (K h). left. left. exists t, x. auto.
  - intros t h -> Hp Hv _. apply (K h). right. left. left. exists t. auto.
  - intros h -> Hh _ _. apply (K h). right. right. auto.
  - intros t ->. apply resume_cases; try (intros; discriminate).
    + intros h x s1 r Hp Hm _ _ _. apply (K h). left. right. exists t, x. auto.
    + intros h s1 r Hp Hm _ _ _. apply (K h). right. left. right. exists t. auto.
Qed.

(* 4. closing the last clone of one side wakes everyone on the other side.
      Invariant form: while a side is fully closed NO task is blocked (waiting on a pending event) on the other
      side, and its wake-up can run; a receiver only ever waits when there is nothing to receive, so the items
      that remain when the send side closes are handed out (in FIFO order, ms_fifo) before any EndOfStream
      (ms_eos_only_if). *)
Theorem ms_close_wakes_all m s : reach m s ->
  (open_send s = 0 -> forall t e, phase_of s t = RecvWait e ->
     fut s e <> FPending /\ snd (step s (Resume t)) <> RRejected /\ snd (step s (Resume t)) <> RBlocked) /\
  (open_recv s = 0 -> forall t e x, phase_of s t = SendWait e x ->
     fut s e <> FPending /\ snd (step s (Resume t)) <> RRejected /\ snd (step s (Resume t)) <> RBlocked) /\
  (receivers s <> [] -> buffer s = [] /\ senders s = []).
Proof.
  intros R. pose proof (reach_inv m s R) as I. refine (conj _ (conj _ (I_j1 s I))).
  - intros Ho t e Hp. pose proof (I_wr s I Ho t e Hp) as Hf. split; [exact Hf|].
    cbn [step]. rewrite Hp. destruct (fut s e); [congruence| |].
    + destruct (is_cancelled FSet || mustc s t); [split; discriminate|]. destruct (slot s e); split; discriminate.
    + cbn. split; discriminate.
  - intros Ho t e x Hp. pose proof (I_ws s I Ho t e x Hp) as Hf. split; [exact Hf|].
    cbn [step]. rewrite Hp. destruct (fut s e); [congruence| |].
    + destruct (mustc s t); [split; discriminate|]. destruct (has_key e (senders s)); split; discriminate.
    + split; discriminate.
Qed.

(* step form: what close() of the LAST clone does (memory.py:150-164, 280-295) *)
Theorem ms_last_send_close s h :
  h < nh s -> hclosed s h = false -> hside s h = SSend -> open_send s = 1 ->
  let s' := fst (step s (Close h)) in
  open_send s' = 0 /\ receivers s' = [] /\
  (forall e t, In (e, t) (receivers s) -> fut s' e = ev_set (fut s e)) /\
  buffer s' = buffer s /\ senders s' = senders s.
Proof.
  intros Hh Hc Hsd Ho. cbn [step]. destruct (Nat.ltb_spec h (nh s)); [|lia]. cbn [negb]. rewrite Hc. cbn [fst].
  unfold do_close. rewrite Hsd, Ho. cbn. refine (conj eq_refl (conj eq_refl (conj _ (conj eq_refl eq_refl)))).
  intros e t Hin. apply set_keys_in. apply in_map_iff. exists (e, t). auto.
Qed.

Theorem ms_last_recv_close s h :
  h < nh s -> hclosed s h = false -> hside s h = SRecv -> open_recv s = 1 ->
  let s' := fst (step s (Close h)) in
  open_recv s' = 0 /\ senders s' = senders s /\ buffer s' = buffer s /\
  (forall e x, In (e, x) (senders s) -> fut s' e = ev_set (fut s e)).
Proof.
  intros Hh Hc Hsd Ho. cbn [step]. destruct (Nat.ltb_spec h (nh s)); [|lia]. cbn [negb]. rewrite Hc. cbn [fst].
  unfold do_close. rewrite Hsd, Ho. cbn. refine (conj eq_refl (conj eq_refl (conj eq_refl _))).
  intros e x Hin. apply set_keys_in. apply in_map_iff. exists (e, x). auto.
Qed.

(* 5. statistics() tells the truth *)
Lemma nodup_values {A} (l : list (eid * A)) (f : A -> option eid) :
  NoDup (map fst l) -> (forall e v, In (e, v) l -> f v = Some e) -> NoDup (map snd l).
Proof.
  induction l as [|[e v] r IH]; cbn; intros Hn Hf; [constructor|].
  inversion Hn as [|? ? Hk Hr]; subst. constructor; [|apply IH; auto].
  intros Hin. apply in_map_iff in Hin. destruct Hin as ([e' v'] & E & Hin). cbn in E. subst v'.
  assert (f v = Some e) by (apply Hf; now left). assert (f v = Some e') by (apply Hf; now right).
  assert (e' = e) by congruence. subst. apply Hk. apply in_map_iff. exists (e, v). auto.
Qed.

Theorem ms_counts_true m s : reach m s ->
  (* open_send_streams / open_receive_streams = number of clones of that side that are not closed *)
  open_send s = count_open SSend (hside s) (hclosed s) (nh s) /\
  open_recv s = count_open SRecv (hside s) (hclosed s) (nh s) /\
  (* tasks_waiting_send = |waiting_senders|: one entry per distinct task that is inside a blocked send(),
     and every task whose wait is still pending has its entry *)
  NoDup (map fst (senders s)) /\
  (forall e x, In (e, x) (senders s) -> exists t, phase_of s t = SendWait e x) /\
  (forall t e x, phase_of s t = SendWait e x -> fut s e = FPending -> In (e, x) (senders s)) /\
  (* tasks_waiting_receive likewise *)
  NoDup (map fst (receivers s)) /\ NoDup (map snd (receivers s)) /\
  (forall e t, In (e, t) (receivers s) -> phase_of s t = RecvWait e) /\
  (forall t e, phase_of s t = RecvWait e -> fut s e = FPending -> In (e, t) (receivers s)) /\
  (* distinct waiting tasks wait on distinct events *)
  (forall t1 t2 e, wait_ev (phase_of s t1) = Some e -> wait_ev (phase_of s t2) = Some e -> t1 = t2) /\
  (* current_buffer_used = |buffer| is what conservation says it must be *)
  length (entered s) =
    length (returned s) + length (inflight s) + length (lost s) + length (buffer s) + length (senders s) +
    length (withdrawn s).
Proof.
  intros R. pose proof (reach_inv m s R) as I.
  refine (conj (I_cs s I) (conj (I_cr s I) (conj (I_snd s I) (conj (I_sk s I) (conj (I_spend s I)
         (conj (I_rnd s I) (conj _ (conj (I_rk s I) (conj (I_rpend s I) (conj (I_inj s I) _)))))))))).
  - apply (nodup_values (receivers s) (fun t => wait_ev (phase_of s t)) (I_rnd s I)).
    intros e t H. rewrite (I_rk s I e t H). reflexivity.
  - destruct (ms_conservation m s R) as (P & _). apply Permutation_length in P.
    rewrite !app_length, !map_length in P. lia.
Qed.

(* ---------- non-vacuity ---------- *)
(* two receivers blocked, one clone of the send side: closing the original does not wake them, closing the
   clone (the last one) does; both then report EndOfStream *)
Definition ex_close_send := [Recv 1 1; Resume 1; Recv 2 1; Resume 2; Clone 0; Close 0].
Example ex_last_send_close_wakes_receivers :
  let s := final step (init (Fin 0)) ex_close_send in
  open_send s = 1 /\ length (receivers s) = 2 /\ hside s 2 = SSend /\ hclosed s 2 = false /\
  let s' := fst (step s (Close 2)) in
  open_send s' = 0 /\ receivers s' = [] /\ phase_of s' 1 = RecvWait 0 /\ fut s' 0 = FSet /\ mustc s' 1 = false /\
  slot s' 0 = None /\ snd (step s' (Resume 1)) = REndOfStream /\
  snd (step (fst (step s' (Resume 1))) (Resume 2)) = REndOfStream.
Proof. vm_compute. auto 20. Qed.

(* two senders blocked; closing the last receive clone wakes both with BrokenResourceError; their items are
   withdrawn *)
Definition ex_close_recv := [Send 1 0 1; Resume 1; Send 2 0 2; Resume 2; Close 1].
Example ex_last_recv_close_wakes_senders :
  let s := final step (init (Fin 0)) ex_close_recv in
  open_recv s = 0 /\ length (senders s) = 2 /\ phase_of s 1 = SendWait 0 1 /\ fut s 0 = FSet /\ mustc s 1 = false /\
  has_key 0 (senders s) = true /\ snd (step s (Resume 1)) = RBroken /\
  snd (step (fst (step s (Resume 1))) (Resume 2)) = RBroken /\
  withdrawn (fst (step (fst (step s (Resume 1))) (Resume 2))) = [1; 2].
Proof. vm_compute. auto 20. Qed.

(* items remain when the send side closes: they are drained in order, then EndOfStream *)
Definition ex_drain := [SendNowait 1 0 1; SendNowait 1 0 2; Close 0].
Example ex_drain_then_eos :
  let s := final step (init (Fin 3)) ex_drain in
  open_send s = 0 /\ buffer s = [1; 2] /\ ~ finished s /\
  recv_attempt s (RecvNowait 2 1) 1 /\ hclosed s 1 = false /\
  snd (step s (RecvNowait 2 1)) = RItem 1 /\
  let s2 := final step s [RecvNowait 2 1; RecvNowait 2 1] in
  returned s2 = [1; 2] /\ finished s2 /\ snd (step s2 (RecvNowait 2 1)) = REndOfStream.
Proof.
  vm_compute. refine (conj eq_refl (conj eq_refl (conj _ _))); [intros (_ & H & _); discriminate|].
  refine (conj _ (conj eq_refl (conj eq_refl _))); [left; exists 2; auto|auto 10].
Qed.

(* a blocked sender whose own handle is closed under it: its item is still delivered before EndOfStream *)
Example ex_pending_sender_item_before_eos :
  let s := final step (init (Fin 0)) [Send 1 0 9; Resume 1; Close 0] in
  open_send s = 0 /\ senders s = [(0, 9)] /\ snd (step s (RecvNowait 2 1)) = RItem 9 /\
  snd (step (fst (step s (RecvNowait 2 1))) (RecvNowait 2 1)) = REndOfStream.
Proof. vm_compute. auto. Qed.

(* operations on a closed handle, while another clone of the same side is open *)
Example ex_closed_handle :
  let s := final step (init (Fin 1)) [Clone 0; Close 0] in
  open_send s = 1 /\ hclosed s 0 = true /\ hclosed s 2 = false /\
  uses_handle s (SendNowait 1 0 1) 0 /\ snd (step s (SendNowait 1 0 1)) = RClosed /\
  snd (step s (Clone 0)) = RClosed /\ snd (step s (SendNowait 1 2 1)) = RDone /\
  send_attempt s (SendNowait 1 2 1) 2.
Proof.
  vm_compute. refine (conj eq_refl (conj eq_refl (conj eq_refl (conj _ (conj eq_refl (conj eq_refl (conj eq_refl _))))))).
  - left. left. exists 1, 1. auto.
  - left. exists 1, 1. auto.
Qed.

(* counts after a clone/close history with waiters present *)
Example ex_counts :
  let s := final step (init (Fin 0)) [Clone 0; Clone 1; Clone 1; Close 3; Recv 1 1; Resume 1; Recv 2 4; Resume 2; Cancel 2] in
  open_send s = 2 /\ open_recv s = 2 /\ length (receivers s) = 2 /\ nh s = 5 /\
  count_open SRecv (hside s) (hclosed s) (nh s) = 2.
Proof. vm_compute. auto. Qed.
(* ======================================================================================== *)
(*            additions after the independent audit (hunt/audit.md, C12 4.1-4.2, C13 4.1-4.3) *)
(* ======================================================================================== *)

(* ---------- C12 4.1: the skip rule of send_nowait is safe ---------- *)
(* While it is still queued, a receiver that send_nowait would skip (has_pending = true) has a waiter future that is
   ALREADY cancelled: the model's ScopeCancel delivers Task.cancel() at once, so "pending cancellation" is never a
   mere prediction in the model (props/C12.v explains which real-code situation this leaves out). *)
Theorem ms_skip_means_future_cancelled m s e t : reach m s ->
  In (e, t) (receivers s) -> has_pending s t = true ->
  fut s e = FCancelled /\ snd (step s (Resume t)) = RCancelled.
Proof.
  intros R Hin Hp. pose proof (reach_inv m s R) as I.
  pose proof (I_rk s I e t Hin) as Ht.
  assert (Hf : fut s e = FCancelled).
  { destruct (fut s e) eqn:Ef; [| |reflexivity].
    - rewrite (has_pending_pending_false s t e I) in Hp; [discriminate|rewrite Ht; reflexivity|exact Ef].
    - exfalso. eapply (I_rfut s I); eauto. }
  split; [exact Hf|]. cbn [step]. rewrite Ht, Hf. reflexivity.
Qed.

(* After the skip: a receiver that is no longer in waiting_receivers, was handed nothing, while send clones remain,
   has a cancelled waiter future: its wake-up is queued and its receive() ends with CancelledError - never a
   silent hang. *)
Theorem ms_skipped_receiver_is_cancelled m s t e : reach m s ->
  phase_of s t = RecvWait e -> ~ In (e, t) (receivers s) -> slot s e = None -> open_send s > 0 ->
  (fut s e = FCancelled \/ mustc s t = true) /\ fut s e <> FPending /\
  snd (step s (Resume t)) = RCancelled.
Proof.
  intros R Hp Hn Hs Ho. pose proof (reach_inv m s R) as I.
  assert (Hf : fut s e = FCancelled).
  { destruct (fut s e) eqn:Ef; [| |reflexivity].
    - exfalso. apply Hn. apply (I_rpend s I); assumption.
    - destruct (I_eos s I t e Hp Ef Hs) as [H _]. lia. }
  refine (conj (or_introl Hf) (conj _ _)); [congruence|].
  cbn [step]. rewrite Hp, Hf. reflexivity.
Qed.

Example ex_skipped_receiver_hyp :
  let s := final step (init (Fin 1)) [Recv 1 1; Resume 1; ScopeCancel 1; SendNowait 2 0 7] in
  phase_of s 1 = RecvWait 0 /\ receivers s = [] /\ slot s 0 = None /\ open_send s = 1 /\ buffer s = [7] /\
  snd (step s (Resume 1)) = RCancelled.
Proof. vm_compute. auto 10. Qed.

(* ---------- C12 4.2: trace-level FIFO of the two waiting queues ---------- *)
Lemma subseq_split {A} (a1 a2 pre post : list A) e :
  NoDup (pre ++ e :: post) -> subseq (a1 ++ e :: a2) (pre ++ e :: post) ->
  subseq a1 pre /\ subseq a2 post.
Proof.
  revert a1. induction pre as [|p pre IH]; intros a1 Hn Hs; cbn in *.
  - inversion Hn as [|? ? He Hn']; subst.
    destruct a1 as [|z a1]; cbn in *.
    + inversion Hs as [|? ? ? H|? ? ? H]; subst.
      * exfalso. apply He. eapply subseq_in; [exact H|]. now left.
      * split; [apply ss_nil|exact H].
    + exfalso. inversion Hs as [|? ? ? H|? ? ? H]; subst.
      * apply He. eapply subseq_in; [exact H|]. right. apply in_or_app. right. now left.
      * apply He. eapply subseq_in; [exact H|]. apply in_or_app. right. now left.
  - inversion Hn as [|? ? Hp Hn']; subst.
    inversion Hs as [|? ? ? H|? ? ? H Ea]; subst.
    + destruct (IH a1 Hn' H) as [H1 H2]. split; [apply ss_skip, H1|exact H2].
    + destruct a1 as [|z a1]; cbn in *.
      * injection Ea as -> ->. exfalso. apply Hp. apply in_or_app. right. now left.
      * injection Ea as -> ->. destruct (IH a1 Hn' H) as [H1 H2]. split; [apply ss_take, H1|exact H2].
Qed.

(* senders: the entry that receive_nowait serves is the head of the queue (ms_sender_served_is_head), and the head
   has no queued predecessor in the arrival log: every entry that started waiting earlier has already been served
   or withdrawn *)
Theorem ms_sender_fifo_trace m s e y r : reach m s ->
  senders s = (e, y) :: r ->
  forall pre post, senq s = pre ++ e :: post ->
  (forall e', In e' pre -> ~ In e' (map fst (senders s))) /\ subseq (map fst r) post.
Proof.
  intros R Hs pre post Hq. pose proof (reach_inv m s R) as I.
  pose proof (I_senq s I) as Hsub. pose proof (I_senqnd s I) as Hnd. rewrite Hs, Hq in *. cbn in Hsub.
  destruct (subseq_split [] (map fst r) pre post e Hnd Hsub) as [_ H2].
  split; [|exact H2]. intros e' Hin [Heq|Hr].
  - subst e'. apply NoDup_remove_2 in Hnd. apply Hnd. apply in_or_app. now left.
  - apply (subseq_in _ _ _ H2) in Hr. apply NoDup_remove_1 in Hnd.
    eapply (nodup_app_disj pre post e'); eauto.
Qed.

(* how entries leave the sender queue: only by being served as the head by a receive, or withdrawn by their own
   task's resumption *)
Lemma sn_senders s h x : senders (fst (send_nowait s h x)) = senders s.
Proof. apply sn_cases; reflexivity. Qed.

Lemma rn_senders s h : senders (fst (recv_nowait s h)) = senders s \/
                       exists e y, senders s = (e, y) :: senders (fst (recv_nowait s h)).
Proof. apply rn_cases; intros; cbn; eauto. Qed.

Theorem ms_sender_entries_leave s o :
  let s' := fst (step s o) in
  senders s' = senders s \/
  (exists e x, senders s' = senders s ++ [(e, x)]) \/
  (exists e y, senders s = (e, y) :: senders s' /\
               ((exists t h, o = RecvNowait t h) \/ (exists t h, o = Resume t /\ phase_of s t = RecvCk h))) \/
  (exists t e x, o = Resume t /\ phase_of s t = SendWait e x /\ senders s' = del_key e (senders s)).
Proof.
  cbv zeta. apply step_cases; try (intros; left; reflexivity).
  - intros t h x s1 r _ _ _ _ E. left. pose proof (sn_senders (set_nitem s (S x)) h x) as H. rewrite E in H.
    destruct r; exact H.
  - intros t h -> _ _. destruct (rn_senders s h) as [H|(e & y & H)]; [now left|].
    right. right. left. exists e, y. split; [exact H|]. left. eauto.
  - intros h _ _ _. left. unfold do_clone. destruct (hside s h); reflexivity.
  - intros h _ _ _. left. unfold do_close. destruct (hside s h); destruct (Nat.eqb _ 0); reflexivity.
  - intros t ->. apply resume_cases; try (intros; left; reflexivity).
    + intros h x s1 _ _ E. right. left. pose proof (sn_senders (finish s t) h x) as H. rewrite E in H. cbn in H |- *.
      rewrite H. eauto.
    + intros h x s1 r _ _ E _. left. pose proof (sn_senders (finish s t) h x) as H. rewrite E in H. destruct r; exact H.
    + intros e x Hp _. unfold drop_sender. destruct (has_key e (senders s)); [|now left].
      right. right. right. exists t, e, x. auto.
    + intros e x Hp _ _ _. unfold drop_sender. destruct (has_key e (senders s)); [|now left].
      right. right. right. exists t, e, x. auto.
    + intros h s1 Hp _ E. destruct (rn_senders (finish s t) h) as [H|(e & y & H)]; rewrite E in H; [now left|].
      right. right. left. exists e, y. split; [exact H|]. right. eauto.
    + intros h s1 r Hp _ E _. destruct (rn_senders (finish s t) h) as [H|(e & y & H)]; rewrite E in H; [now left|].
      right. right. left. exists e, y. split; [exact H|]. right. eauto.
    + intros e _ _. left. unfold lose. cbn. destruct (slot s e); reflexivity.
  - intros t _. left. now apply task_cancel_frame.
  - intros t _. left. now apply scope_cancel_frame.
Qed.

(* receivers: the entry that send_nowait serves is the first queued receiver without a pending cancellation
   (ms_receiver_served_first_live); every entry that started waiting earlier is either no longer queued, or is
   queued with an already cancelled future and is dropped by this very send; nothing older survives in the queue *)
Theorem ms_receiver_fifo_trace m s e t rest : reach m s ->
  pop_live s (receivers s) = (Some (e, t), rest) ->
  forall pre post, renq s = pre ++ e :: post ->
  subseq (map fst rest) post /\
  forall e', In e' pre ->
    ~ In e' (map fst rest) /\
    (In e' (map fst (receivers s)) ->
       exists t', In (e', t') (receivers s) /\ has_pending s t' = true /\ fut s e' = FCancelled).
Proof.
  intros R Hpl pre post Hq. pose proof (reach_inv m s R) as I.
  pose proof (pop_live_spec s (receivers s)) as Hsp. rewrite Hpl in Hsp.
  destruct Hsp as (pre_r & Hr & Hlive & Hpre).
  pose proof (I_renq s I) as Hsub. pose proof (I_renqnd s I) as Hnd.
  rewrite Hr, Hq, map_app in *. cbn [map fst] in Hsub.
  destruct (subseq_split (map fst pre_r) (map fst rest) pre post e Hnd Hsub) as [H1 H2].
  split; [exact H2|]. intros e' Hin.
  assert (Hnotpost : ~ In e' post).
  { intros Hp. apply NoDup_remove_1 in Hnd. eapply (nodup_app_disj pre post e'); eauto. }
  assert (Hne : e' <> e).
  { intros ->. apply NoDup_remove_2 in Hnd. apply Hnd. apply in_or_app. now left. }
  split.
  - intros Hx. apply Hnotpost. eapply subseq_in; eauto.
  - intros Hx. apply in_app_or in Hx. destruct Hx as [Hx|[Hx|Hx]].
    + apply in_map_iff in Hx. destruct Hx as ([e0 t'] & E & Hx). cbn in E. subst e0.
      assert (Hin' : In (e', t') (receivers s)) by (rewrite Hr; apply in_or_app; now left).
      exists t'. rewrite <- Hr. refine (conj Hin' (conj (Hpre _ _ Hx) _)).
      apply (ms_skip_means_future_cancelled m s e' t' R Hin' (Hpre _ _ Hx)).
    + cbn in Hx. congruence.
    + exfalso. apply Hnotpost. eapply subseq_in; eauto.
Qed.

Example ex_receiver_fifo_hyp :
  let s := final step (init (Fin 0)) [Recv 1 1; Resume 1; Recv 2 1; Resume 2; Recv 3 1; Resume 3; Cancel 1] in
  pop_live s (receivers s) = (Some (1, 2), [(2, 3)]) /\ renq s = [0; 1; 2] /\ fut s 0 = FCancelled.
Proof. vm_compute. auto. Qed.

Lemma pop_live_ext s s' rs :
  (forall e t, In (e, t) rs -> has_pending s' t = has_pending s t) -> pop_live s' rs = pop_live s rs.
Proof.
  induction rs as [|[e t] r IH]; cbn; intros H; [reflexivity|].
  rewrite (H e t) by now left. rewrite IH; [reflexivity|]. intros e0 t0 H0. apply (H e0 t0). now right.
Qed.

Lemma sn_receivers s h x :
  receivers (fst (send_nowait s h x)) = receivers s \/
  receivers (fst (send_nowait s h x)) = snd (pop_live s (receivers s)).
Proof.
  apply sn_cases; [now left | now left | intros e t pre rest _ _ -> _ _ | intros _ _ -> _ | intros _ _ -> _]; now right.
Qed.

Lemma rn_receivers s h : receivers (fst (recv_nowait s h)) = receivers s.
Proof. apply rn_cases; reflexivity. Qed.

(* how entries leave the receiver queue: served or skipped by a send (pop_live), removed by their own task's
   resumption, or all released at once by the close of the last send clone *)
Theorem ms_receiver_entries_leave m s o : reach m s ->
  let s' := fst (step s o) in
  receivers s' = receivers s \/
  (exists e t, receivers s' = receivers s ++ [(e, t)]) \/
  (((exists t h x, o = SendNowait t h x) \/ (exists t h x, o = Resume t /\ phase_of s t = SendCk h x)) /\
   receivers s' = snd (pop_live s (receivers s))) \/
  (exists t e, o = Resume t /\ phase_of s t = RecvWait e /\ receivers s' = del_key e (receivers s)) \/
  (exists h, o = Close h /\ receivers s' = [] /\ open_send s' = 0).
Proof.
  intros R. pose proof (reach_inv m s R) as I. cbv zeta. apply step_cases; try (intros; left; reflexivity).
  - intros t h x s1 r -> _ _ _ E. destruct (sn_receivers (set_nitem s (S x)) h x) as [H|H]; rewrite E in H.
    + left. destruct r; exact H.
    + right. right. left. split; [left; eauto|].
      rewrite (pop_live_ext s (set_nitem s (S x))) in H by reflexivity. destruct r; exact H.
  - intros t h _ _ _. left. apply rn_receivers.
  - intros h _ _ _. left. unfold do_clone. destruct (hside s h); reflexivity.
  - intros h -> _ _. unfold do_close. destruct (hside s h); [|left; destruct (Nat.eqb _ 0); reflexivity].
    destruct (Nat.eqb_spec (pred (open_send s)) 0) as [E|E]; [|now left].
    right. right. right. right. exists h. cbn. auto.
  - intros t ->.
    assert (Hsn : forall h x s1 r, phase_of s t = SendCk h x -> send_nowait (finish s t) h x = (s1, r) ->
              receivers s1 = receivers s \/ receivers s1 = snd (pop_live s (receivers s))).
    { intros h x s1 r Hp E. destruct (sn_receivers (finish s t) h x) as [H|H]; rewrite E in H; [now left|right].
      cbn [fst receivers finish set_scopec set_mustc set_phase_of] in H. rewrite H. f_equal. apply pop_live_ext.
      intros e0 t0 Hin. apply has_pending_finish_other. intros ->. apply (I_rk s I) in Hin. congruence. }
    apply resume_cases; try (intros; left; reflexivity).
    + intros h x s1 Hp _ E. destruct (Hsn _ _ _ _ Hp E) as [H|H]; [now left|].
      right. right. left. split; [right; eauto|exact H].
    + intros h x s1 r Hp _ E _. destruct (Hsn _ _ _ _ Hp E) as [H|H]; [left; destruct r; exact H|].
      right. right. left. split; [right; eauto|destruct r; exact H].
    + intros e x _ _. left. unfold drop_sender. destruct (has_key e (senders s)); reflexivity.
    + intros e x _ _ _ _. left. unfold drop_sender. destruct (has_key e (senders s)); reflexivity.
    + intros h s1 _ _ E. right. left. pose proof (rn_receivers (finish s t) h) as H. rewrite E in H. cbn in H |- *.
      rewrite H. eauto.
    + intros h s1 r _ _ E _. left. pose proof (rn_receivers (finish s t) h) as H. rewrite E in H. exact H.
    + intros e Hp _. right. right. right. left. exists t, e. refine (conj eq_refl (conj Hp _)).
      unfold lose. cbn. destruct (slot s e); reflexivity.
    + intros e x Hp _ _ _. right. right. right. left. exists t, e. now refine (conj eq_refl (conj Hp _)).
    + intros e Hp _ _ _. right. right. right. left. exists t, e. now refine (conj eq_refl (conj Hp _)).
  - intros t _. left. now apply task_cancel_frame.
  - intros t _. left. now apply scope_cancel_frame.
Qed.

(* ======================================================================================== *)
(*                                  C13 audit 4.1 - 4.3                                      *)
(* ======================================================================================== *)

(* ---------- 4.1 recorded decision: blocked on one's OWN side being closed ---------- *)
(* A task blocked in receive() on a handle that another task then closes is NOT woken: close() of the last receive
   clone wakes the senders only (memory.py:150-164).  It stays blocked, with every send refused by
   BrokenResourceError, until the send side closes too (then: EndOfStream).  The property text speaks about the
   PEER side only, so this is recorded as observation O-own-close, not as a violation. *)
Definition ex_own_close := [Recv 1 1; Resume 1; Close 1].
Theorem ms_blocked_on_own_closed_side : exists m ops t e,
  let s := final step (init m) ops in
  open_recv s = 0 /\ phase_of s t = RecvWait e /\ fut s e = FPending /\ open_send s > 0 /\
  In (e, t) (receivers s) /\
  (* every send is refused, the receiver is not served ... *)
  snd (step s (SendNowait 2 0 1)) = RBroken /\ snd (step s (Resume t)) = RRejected /\
  (* ... and only the close of the send side releases it, with EndOfStream on a handle that is itself closed *)
  snd (step (fst (step s (Close 0))) (Resume t)) = REndOfStream.
Proof. exists (Fin 0), ex_own_close, 1, 0. vm_compute. auto 10. Qed.

(* the symmetric case: a sender blocked on a handle that is then closed stays queued and its item is still
   delivered *)
Theorem ms_sender_blocked_on_own_closed_side : exists m ops t e x,
  let s := final step (init m) ops in
  open_send s = 0 /\ phase_of s t = SendWait e x /\ fut s e = FPending /\ open_recv s > 0 /\
  snd (step s (RecvNowait 2 1)) = RItem x /\
  snd (step (fst (step s (RecvNowait 2 1))) (Resume t)) = RDone.
Proof. exists (Fin 0), [Send 1 0 9; Resume 1; Close 0], 1, 0, 9. vm_compute. auto 10. Qed.

(* ---------- 4.2 exact characterisation of when receive / send BLOCK ---------- *)
Lemma rn_wouldblock s h :
  snd (recv_nowait s h) = RWouldBlock <->
  hclosed s h = false /\ open_send s <> 0 /\ buffer s = [] /\ senders s = [].
Proof. apply rn_cases; intros; cbn; intuition congruence. Qed.

(* a receive attempt on an open handle waits (receive(): blocks; receive_nowait(): WouldBlock) exactly when some send
   clone is open and there is neither a buffered item nor a blocked sender's item *)
Theorem ms_recv_blocks_iff s o h : recv_attempt s o h -> hclosed s h = false ->
  ((snd (step s o) = RBlocked \/ snd (step s o) = RWouldBlock) <->
   (open_send s > 0 /\ buffer s = [] /\ senders s = [])) /\
  (snd (step s o) = RBlocked -> exists t, o = Resume t) /\
  (snd (step s o) = RWouldBlock -> exists t, o = RecvNowait t h).
Proof.
  intros A Hc. destruct (recv_attempt_step s o h A) as (S & E1 & E2 & E3 & E4 & H1 & H2).
  assert (Hiff : snd (recv_nowait S h) = RWouldBlock <-> (open_send s > 0 /\ buffer s = [] /\ senders s = [])).
  { rewrite (rn_wouldblock S h), E1, E2, E3, E4.
    split; [intros (_ & A1 & B1 & C1)|intros (A1 & B1 & C1)]; repeat split; auto; lia. }
  rewrite <- Hiff. pose proof (rn_ghost S h) as (_ & _ & _ & _ & G).
  destruct (snd (recv_nowait S h)); try contradiction;
    try (rewrite H1 by discriminate; repeat split; intros X; try destruct X as [X|X]; discriminate X);
    destruct (H2 eq_refl) as [[-> Ho]|[-> Ho]]; (split; [split; auto | split; intros X; (discriminate X || exact Ho)]).
Qed.

Lemma pop_live_none_iff s rs :
  fst (pop_live s rs) = None <-> (forall e t, In (e, t) rs -> has_pending s t = true).
Proof.
  induction rs as [|[e t] r IH]; cbn.
  - split; [intros _ ? ? []|reflexivity].
  - destruct (has_pending s t) eqn:Ep.
    + rewrite IH. split.
      * intros H e0 t0 [E|Hin]; [injection E as <- <-; exact Ep|eauto].
      * intros H e0 t0 Hin. apply (H e0 t0). now right.
    + cbn. split; [discriminate|]. intros H. rewrite (H e t) in Ep; [discriminate|now left].
Qed.

Lemma sn_wouldblock s h x :
  snd (send_nowait s h x) = RWouldBlock <->
  hclosed s h = false /\ open_recv s <> 0 /\ (forall e t, In (e, t) (receivers s) -> has_pending s t = true) /\
  xlt (length (buffer s)) (maxb s) = false.
Proof.
  rewrite <- (pop_live_none_iff s (receivers s)).
  apply sn_cases; [intros | intros | intros e t pre rest ? ? -> ? ? | intros ? ? -> ? | intros ? ? -> ?]; cbn;
    intuition congruence.
Qed.

(* a send attempt on an open handle waits (send(): blocks; send_nowait(): WouldBlock) exactly when some receive clone is
   open, every queued receiver has a pending cancellation (none can take the item) and the buffer is full *)
Theorem ms_send_blocks_iff m s o h : reach m s -> send_attempt s o h -> hclosed s h = false ->
  ((snd (step s o) = RBlocked \/ snd (step s o) = RWouldBlock) <->
   (open_recv s > 0 /\ (forall e t, In (e, t) (receivers s) -> has_pending s t = true) /\
    xlt (length (buffer s)) (maxb s) = false)) /\
  (snd (step s o) = RBlocked -> exists t, o = Resume t) /\
  (snd (step s o) = RWouldBlock -> exists t x, o = SendNowait t h x).
Proof.
  intros R A Hc. destruct (send_attempt_step s o h A) as (S & x & E1 & E2 & E3 & E4 & E5 & E6 & H1 & H2).
  specialize (E6 (reach_inv m s R)).
  assert (Hiff : snd (send_nowait S h x) = RWouldBlock <->
            (open_recv s > 0 /\ (forall e t, In (e, t) (receivers s) -> has_pending s t = true) /\
             xlt (length (buffer s)) (maxb s) = false)).
  { rewrite (sn_wouldblock S h x), E1, E2, E3, E4, E5.
    split; [intros (_ & A1 & B1 & C1)|intros (A1 & B1 & C1)]; repeat split; auto; try lia;
      intros e t Hin; [rewrite <- (E6 e t Hin)|rewrite (E6 e t Hin)]; eauto. }
  rewrite <- Hiff. pose proof (sn_ghost S h x) as (_ & _ & _ & _ & _ & G).
  destruct (snd (send_nowait S h x)); try contradiction;
    try (rewrite H1 by discriminate; repeat split; intros X; try destruct X as [X|X]; discriminate X);
    destruct (H2 eq_refl) as [[-> Ho]|[-> Ho]]; (split; [split; auto | split; intros X; (discriminate X || exact Ho)]).
Qed.

Example ex_send_blocks_hyp :
  let s := final step (init (Fin 0)) [Recv 1 1; Resume 1; Cancel 1; Send 2 0 5] in
  send_attempt s (Resume 2) 0 /\ hclosed s 0 = false /\ receivers s = [(0, 1)] /\ has_pending s 1 = true /\
  snd (step s (Resume 2)) = RBlocked.
Proof. vm_compute. refine (conj _ (conj eq_refl (conj eq_refl (conj eq_refl eq_refl)))). right. exists 2, 5. auto. Qed.

(* ---------- 4.3 trace level: after the last clone of a side closed, resuming every blocked peer once leaves nobody
              in a wait phase on that side ---------- *)
Lemma sn_frame_phase s h x :
  let s1 := fst (send_nowait s h x) in
  phase_of s1 = phase_of s /\ open_send s1 = open_send s /\ open_recv s1 = open_recv s.
Proof. cbv zeta. apply sn_cases; intros; cbn; auto. Qed.

Lemma rn_frame_phase s h :
  let s1 := fst (recv_nowait s h) in
  phase_of s1 = phase_of s /\ open_send s1 = open_send s /\ open_recv s1 = open_recv s.
Proof. cbv zeta. apply rn_cases; intros; cbn; auto. Qed.

(* Resume t touches nobody else's phase and leaves the open counts alone *)
Lemma resume_frame s t :
  let s' := fst (step s (Resume t)) in
  open_send s' = open_send s /\ open_recv s' = open_recv s /\
  (forall t', t' <> t -> phase_of s' t' = phase_of s t').
Proof.
  cbv zeta. apply resume_cases;
    try (intros; cbn; refine (conj eq_refl (conj eq_refl _)); intros t' Hn; now rewrite ?upd_other).
  - intros h x s1 _ _ E. pose proof (sn_frame_phase (finish s t) h x) as (H1 & H2 & H3). rewrite E in *. cbn in *.
    refine (conj H2 (conj H3 _)). intros t' Hn. rewrite upd_other, H1 by exact Hn. now apply upd_other.
  - intros h x s1 r _ _ E _. pose proof (sn_frame_phase (finish s t) h x) as (H1 & H2 & H3). rewrite E in *.
    destruct r; cbn in *; refine (conj H2 (conj H3 _)); intros t' Hn; rewrite H1; now apply upd_other.
  - intros e x _ _. unfold drop_sender. destruct (has_key e (senders s)); cbn;
      refine (conj eq_refl (conj eq_refl _)); intros t' Hn; now rewrite upd_other.
  - intros e x _ _ _ _. unfold drop_sender. destruct (has_key e (senders s)); cbn;
      refine (conj eq_refl (conj eq_refl _)); intros t' Hn; now rewrite upd_other.
  - intros h s1 _ _ E. pose proof (rn_frame_phase (finish s t) h) as (H1 & H2 & H3). rewrite E in *. cbn in *.
    refine (conj H2 (conj H3 _)). intros t' Hn. rewrite upd_other, H1 by exact Hn. now apply upd_other.
  - intros h s1 r _ _ E _. pose proof (rn_frame_phase (finish s t) h) as (H1 & H2 & H3). rewrite E in *. cbn in *.
    refine (conj H2 (conj H3 _)). intros t' Hn. rewrite H1. now apply upd_other.
  - intros e _ _. unfold lose. cbn. destruct (slot s e); cbn;
      refine (conj eq_refl (conj eq_refl _)); intros t' Hn; now rewrite upd_other.
Qed.

(* with the send side fully closed, the resumed task itself is not in a receive-wait afterwards *)
Lemma resume_not_recvwait m s t : reach m s -> open_send s = 0 ->
  forall e, phase_of (fst (step s (Resume t))) t <> RecvWait e.
Proof.
  intros R Ho e'. pose proof (reach_inv m s R) as I.
  apply resume_cases; try (intros; cbn; rewrite upd_same; discriminate); try (intros; cbn; congruence).
  - intros h x s1 r _ _ E _. pose proof (sn_frame_phase (finish s t) h x) as (H1 & _). rewrite E in H1. cbn [fst] in *.
    destruct r; cbn; rewrite H1; cbn; rewrite upd_same; discriminate.
  - intros h s1 _ _ E. apply (f_equal snd) in E. apply rn_wouldblock in E. now destruct E as (_ & A & _).
  - intros h s1 r _ _ E _. pose proof (rn_frame_phase (finish s t) h) as (H1 & _). rewrite E in H1. cbn [fst] in *.
    rewrite H1. cbn. rewrite upd_same. discriminate.
  - intros e Hp Hf. elim (I_wr s I Ho t e Hp Hf).
Qed.

Theorem ms_last_send_close_drains_receivers m s ts : reach m s -> open_send s = 0 ->
  (forall t e, phase_of s t = RecvWait e -> In t ts) ->
  let s' := final step s (map Resume ts) in
  open_send s' = 0 /\ forall t e, phase_of s' t <> RecvWait e.
Proof.
  revert s. induction ts as [|t0 r IH]; intros s R Ho Hall.
  - cbn. split; [exact Ho|]. intros t e H. exact (Hall t e H).
  - cbn [map]. change (final step s (Resume t0 :: map Resume r))
      with (final step (fst (step s (Resume t0))) (map Resume r)).
    pose proof (resume_frame s t0) as (H1 & _ & H3). cbv zeta in *.
    apply IH; [apply reach_step, R|congruence|].
    intros t e H. destruct (Nat.eq_dec t t0) as [->|Hn].
    + exfalso. eapply (resume_not_recvwait m s t0 R Ho); eauto.
    + rewrite H3 in H by assumption. destruct (Hall t e H) as [E|Hin]; [congruence|exact Hin].
Qed.

(* dual: with the receive side fully closed, the resumed task is not in a send-wait afterwards *)
Lemma resume_not_sendwait m s t : reach m s -> open_recv s = 0 ->
  forall e x, phase_of (fst (step s (Resume t))) t <> SendWait e x.
Proof.
  intros R Ho e' x'. pose proof (reach_inv m s R) as I.
  apply resume_cases; try (intros; cbn; rewrite upd_same; discriminate); try (intros; cbn; congruence).
  - intros h x s1 _ _ E. apply (f_equal snd) in E. apply sn_wouldblock in E. now destruct E as (_ & A & _).
  - intros h x s1 r _ _ E _. pose proof (sn_frame_phase (finish s t) h x) as (H1 & _). rewrite E in H1. cbn [fst] in *.
    destruct r; cbn; rewrite H1; cbn; rewrite upd_same; discriminate.
  - intros e x Hp Hf. elim (I_ws s I Ho t e x Hp Hf).
  - intros h s1 r _ _ E _. pose proof (rn_frame_phase (finish s t) h) as (H1 & _). rewrite E in H1. cbn [fst] in *.
    rewrite H1. cbn. rewrite upd_same. discriminate.
Qed.

Theorem ms_last_recv_close_drains_senders m s ts : reach m s -> open_recv s = 0 ->
  (forall t e x, phase_of s t = SendWait e x -> In t ts) ->
  let s' := final step s (map Resume ts) in
  open_recv s' = 0 /\ forall t e x, phase_of s' t <> SendWait e x.
Proof.
  revert s. induction ts as [|t0 r IH]; intros s R Ho Hall.
  - cbn. split; [exact Ho|]. intros t e x H. exact (Hall t e x H).
  - cbn [map]. change (final step s (Resume t0 :: map Resume r))
      with (final step (fst (step s (Resume t0))) (map Resume r)).
    pose proof (resume_frame s t0) as (_ & H2 & H3). cbv zeta in *.
    apply IH; [apply reach_step, R|congruence|].
    intros t e x H. destruct (Nat.eq_dec t t0) as [->|Hn].
    + exfalso. eapply (resume_not_sendwait m s t0 R Ho); eauto.
    + rewrite H3 in H by assumption. destruct (Hall t e x H) as [E|Hin]; [congruence|exact Hin].
Qed.

Example ex_close_drains_hyp :
  let s := final step (init (Fin 0)) [Recv 1 1; Resume 1; Recv 2 1; Resume 2; Close 0] in
  open_send s = 0 /\ phase_of s 1 = RecvWait 0 /\ phase_of s 2 = RecvWait 1 /\
  let s' := final step s (map Resume [2; 1]) in phase_of s' 1 = Idle /\ phase_of s' 2 = Idle.
Proof. vm_compute. auto. Qed.

(* non-vacuity of ms_sender_fifo_trace with a NON-EMPTY prefix of the arrival log: two senders block, a receive serves
   the first; the head of the queue is then the second sender and the earlier log entry (event 0) is no longer queued *)
Example ex_sender_fifo_trace_nonempty_pre :
  let s := final step (init (Fin 0)) [Send 1 0 1; Resume 1; Send 2 0 2; Resume 2; RecvNowait 3 1] in
  reach (Fin 0) s /\ senders s = [(1, 2)] /\ senq s = [0] ++ 1 :: [] /\ returned s = [1] /\
  (forall e', In e' [0] -> ~ In e' (map fst (senders s))) /\ subseq (map fst (@nil (eid * item))) (@nil eid).
Proof.
  split; [eexists; reflexivity|]. vm_compute.
  refine (conj eq_refl (conj eq_refl (conj eq_refl (conj _ (ss_nil))))).
  intros e' [<-|[]] [H|[]]. discriminate.
Qed.

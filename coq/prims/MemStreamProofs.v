(* Proofs about the MemStream machine: an inductive invariant for every op sequence.
   The C12 / C13 clauses derived from it are in MemStreamThms.v. *)
From AV Require Import Base MemStream.
From Coq Require Import Permutation.

(* ---------- subsequences (order-preserving sublists) ---------- *)
Inductive subseq {A} : list A -> list A -> Prop :=
| ss_nil : subseq [] []
| ss_skip x a b : subseq a b -> subseq a (x :: b)
| ss_take x a b : subseq a b -> subseq (x :: a) (x :: b).

Lemma subseq_refl {A} (l : list A) : subseq l l.
Proof. induction l; [apply ss_nil | apply ss_take; assumption]. Qed.

Lemma subseq_nil_l {A} (l : list A) : subseq [] l.
Proof. induction l; [apply ss_nil | apply ss_skip; assumption]. Qed.

Lemma subseq_trans {A} (a b c : list A) : subseq a b -> subseq b c -> subseq a c.
Proof.
  intros Hab Hbc. revert a Hab. induction Hbc as [|x b c Hbc IH|x b c Hbc IH]; intros a Hab.
  - exact Hab.
  - apply ss_skip. apply IH, Hab.
  - inversion Hab as [|y a' b' H1|y a' b' H1]; subst.
    + apply ss_skip. apply IH. exact H1.
    + apply ss_take. apply IH. exact H1.
Qed.

Lemma subseq_app_tail {A} (a b : list A) x : subseq a b -> subseq (a ++ [x]) (b ++ [x]).
Proof.
  induction 1 as [|y a b H IH|y a b H IH]; cbn.
  - apply ss_take, ss_nil.
  - apply ss_skip, IH.
  - apply ss_take, IH.
Qed.

Lemma subseq_app_skip {A} (a b : list A) x : subseq a b -> subseq a (b ++ [x]).
Proof.
  induction 1 as [|y a b H IH|y a b H IH]; cbn.
  - apply ss_skip, ss_nil.
  - apply ss_skip, IH.
  - apply ss_take, IH.
Qed.

Lemma subseq_suffix {A} (pre l : list A) : subseq l (pre ++ l).
Proof. induction pre; cbn; [apply subseq_refl|apply ss_skip; assumption]. Qed.

Lemma subseq_in {A} (a b : list A) x : subseq a b -> In x a -> In x b.
Proof.
  induction 1 as [|y a b Hs IH|y a b Hs IH]; cbn; intros Hin; auto.
  destruct Hin as [Hin|Hin]; auto.
Qed.

Lemma subseq_map {A B} (g : A -> B) a b : subseq a b -> subseq (map g a) (map g b).
Proof.
  induction 1 as [|y a b H IH|y a b H IH]; cbn;
    [apply ss_nil | apply ss_skip, IH | apply ss_take, IH].
Qed.

Lemma subseq_nodup {A} (a b : list A) : subseq a b -> NoDup b -> NoDup a.
Proof.
  induction 1 as [|x a b H IH|x a b H IH]; intros Hn; [constructor| |].
  - inversion Hn; auto.
  - inversion Hn as [|y l Hy Hl]; subst. constructor; [|auto].
    intros Hin. apply Hy. eapply subseq_in; eauto.
Qed.

Lemma subseq_app {A} (a b c d : list A) : subseq a b -> subseq c d -> subseq (a ++ c) (b ++ d).
Proof.
  induction 1 as [|y a b H IH|y a b H IH]; cbn; intros Hc.
  - exact Hc.
  - apply ss_skip, IH, Hc.
  - apply ss_take, IH, Hc.
Qed.

(* in a duplicate-free list, a subsequence keeps the relative order of any two of its elements *)
Inductive before {A} (x y : A) : list A -> Prop :=
| before_here l : In y l -> before x y (x :: l)
| before_later z l : before x y l -> before x y (z :: l).

Lemma before_in {A} (x y : A) l : before x y l -> In x l /\ In y l.
Proof. induction 1 as [l H|z l H [IH1 IH2]]; cbn; auto. Qed.

Lemma subseq_before {A} (a b : list A) x y : subseq a b -> before x y a -> before x y b.
Proof.
  induction 1 as [|z a b H IH|z a b H IH]; intros Hb.
  - inversion Hb.
  - apply before_later, IH, Hb.
  - inversion Hb as [l Hy|z' l Hb']; subst.
    + apply before_here. eapply subseq_in; eauto.
    + apply before_later, IH, Hb'.
Qed.

Lemma before_nodup_asym {A} (x y : A) l : NoDup l -> before x y l -> ~ before y x l.
Proof.
  intros Hn Hb. induction Hb as [l Hy|z l Hb IH]; intros Hc.
  - inversion Hn as [|? ? Hx Hl]; subst. inversion Hc as [l' Hx'|z' l' Hc']; subst.
    + contradiction.
    + apply before_in in Hc'. tauto.
  - inversion Hn as [|? ? Hz Hl]; subst. inversion Hc as [l' Hx'|z' l' Hc']; subst.
    + apply before_in in Hb. tauto.
    + exact (IH Hl Hc').
Qed.

(* ---------- association lists keyed by event ---------- *)
Lemma has_key_in {A} e (l : list (eid * A)) : has_key e l = true <-> In e (map fst l).
Proof.
  induction l as [|[k v] r IH]; cbn; [split; [discriminate|tauto]|].
  rewrite orb_true_iff, IH, Nat.eqb_eq. tauto.
Qed.

Lemma has_key_false {A} e (l : list (eid * A)) : has_key e l = false <-> ~ In e (map fst l).
Proof. rewrite <- has_key_in. destruct (has_key e l); split; congruence. Qed.

Lemma in_has_key {A} e (v : A) l : In (e, v) l -> has_key e l = true.
Proof. intros H. apply has_key_in. apply in_map_iff. exists (e, v). auto. Qed.

Lemma del_key_subseq {A} e (l : list (eid * A)) : subseq (del_key e l) l.
Proof.
  induction l as [|[k v] r IH]; cbn; [apply ss_nil|].
  destruct (Nat.eqb k e); [apply ss_skip, subseq_refl|apply ss_take, IH].
Qed.

Lemma del_key_in {A} e (l : list (eid * A)) p : In p (del_key e l) -> In p l.
Proof. apply subseq_in, del_key_subseq. Qed.

Lemma del_key_other {A} e (l : list (eid * A)) k v : In (k, v) l -> k <> e -> In (k, v) (del_key e l).
Proof.
  induction l as [|[k' v'] r IH]; cbn; [tauto|]. intros [H|H] Hne.
  - injection H as -> ->. destruct (Nat.eqb_spec k e); [contradiction|now left].
  - destruct (Nat.eqb k' e); [exact H|right; auto].
Qed.

Lemma del_key_gone {A} e (l : list (eid * A)) : NoDup (map fst l) -> ~ In e (map fst (del_key e l)).
Proof.
  induction l as [|[k v] r IH]; cbn; [tauto|]. intros Hn.
  inversion Hn as [|? ? Hk Hr]; subst.
  destruct (Nat.eqb_spec k e) as [->|Hne]; [exact Hk|].
  cbn. intros [H|H]; [contradiction|exact (IH Hr H)].
Qed.

Lemma del_key_absent {A} e (l : list (eid * A)) : ~ In e (map fst l) -> del_key e l = l.
Proof.
  induction l as [|[k v] r IH]; cbn; [reflexivity|]. intros H.
  destruct (Nat.eqb_spec k e) as [->|Hne]; [tauto|]. f_equal. apply IH. tauto.
Qed.

Lemma del_key_nodup {A} e (l : list (eid * A)) : NoDup (map fst l) -> NoDup (map fst (del_key e l)).
Proof. intros H. eapply subseq_nodup; [apply subseq_map, del_key_subseq|exact H]. Qed.

Lemma del_key_perm {A} e (x : A) l :
  NoDup (map fst l) -> In (e, x) l -> Permutation (map snd l) (x :: map snd (del_key e l)).
Proof.
  induction l as [|[k v] r IH]; cbn; [tauto|]. intros Hn Hin.
  inversion Hn as [|? ? Hk Hr]; subst.
  destruct Hin as [H|H].
  - injection H as -> ->. rewrite Nat.eqb_refl. apply Permutation_refl.
  - destruct (Nat.eqb_spec k e) as [->|Hne].
    + exfalso. apply Hk. apply in_map_iff. exists (e, x). auto.
    + cbn. eapply perm_trans; [apply perm_skip, (IH Hr H)|apply perm_swap].
Qed.

Lemma nodup_key_fun {A} (l : list (eid * A)) e v1 v2 :
  NoDup (map fst l) -> In (e, v1) l -> In (e, v2) l -> v1 = v2.
Proof.
  induction l as [|[k v] r IH]; cbn; [tauto|]. intros Hn H1 H2.
  inversion Hn as [|? ? Hk Hr]; subst.
  destruct H1 as [H1|H1], H2 as [H2|H2].
  - congruence.
  - injection H1 as -> ->. exfalso. apply Hk. apply in_map_iff. exists (e, v2). auto.
  - injection H2 as -> ->. exfalso. apply Hk. apply in_map_iff. exists (e, v1). auto.
  - eauto.
Qed.

Lemma mem_in e l : mem e l = true <-> In e l.
Proof.
  unfold mem. rewrite existsb_exists. split.
  - intros (x & H & E). apply Nat.eqb_eq in E. now subst.
  - intros H. exists e. split; [exact H|apply Nat.eqb_refl].
Qed.

Lemma set_keys_in f ks e : In e ks -> set_keys f ks e = ev_set (f e).
Proof. intros H. unfold set_keys. apply mem_in in H. now rewrite H. Qed.

Lemma set_keys_out f ks e : ~ In e ks -> set_keys f ks e = f e.
Proof.
  intros H. unfold set_keys. destruct (mem e ks) eqn:E; [|reflexivity].
  apply mem_in in E. contradiction.
Qed.

Lemma set_keys_not_pending_inv f ks e : set_keys f ks e = FPending -> f e = FPending /\ ~ In e ks.
Proof.
  unfold set_keys. destruct (mem e ks) eqn:E.
  - destruct (f e); cbn; discriminate.
  - intros H. split; [exact H|]. intros Hin. apply mem_in in Hin. congruence.
Qed.

Lemma ev_set_not_pending f : ev_set f <> FPending.
Proof. destruct f; cbn; discriminate. Qed.

Lemma NoDup_app_tail1 {A} (l : list A) x : NoDup l -> ~ In x l -> NoDup (l ++ [x]).
Proof.
  induction l as [|y l IH]; cbn; intros Hn Hx; [constructor; [tauto|constructor]|].
  inversion Hn as [|z l' Hy Hl]; subst. constructor.
  - intros H. apply in_app_or in H. destruct H as [H|[H|[]]]; [contradiction|]. subst. apply Hx. now left.
  - apply IH; [exact Hl|]. intros H. apply Hx. now right.
Qed.

(* ---------- counting open clones ---------- *)
Fixpoint count_open (sd : side) (hs : hid -> side) (hc : hid -> bool) (n : nat) : nat :=
  match n with
  | 0 => 0
  | S k => count_open sd hs hc k + (if side_eqb (hs k) sd && negb (hc k) then 1 else 0)
  end.

Lemma count_open_ext sd hs hc hs' hc' n :
  (forall h, h < n -> hs' h = hs h /\ hc' h = hc h) -> count_open sd hs' hc' n = count_open sd hs hc n.
Proof.
  induction n as [|k IH]; cbn; intros H; [reflexivity|].
  destruct (H k) as [-> ->]; [lia|]. rewrite IH; [reflexivity|]. intros h Hh. apply H. lia.
Qed.

Lemma count_open_close sd hs hc n h :
  h < n -> hc h = false -> hs h = sd ->
  S (count_open sd hs (upd hc h true) n) = count_open sd hs hc n.
Proof.
  induction n as [|k IH]; cbn; intros Hh Hc Hs; [lia|].
  destruct (Nat.eq_dec h k) as [->|Hne].
  - rewrite upd_same, Hc, Hs. cbn.
    replace (side_eqb sd sd) with true by (destruct sd; reflexivity). cbn.
    rewrite (count_open_ext sd hs hc hs (upd hc k true) k); [lia|].
    intros h' Hh'. split; [reflexivity|]. apply upd_other. lia.
  - rewrite (upd_other hc h true k) by auto. rewrite <- IH by (auto; lia). lia.
Qed.

Lemma count_open_close_other sd hs hc n h :
  hs h <> sd -> count_open sd hs (upd hc h true) n = count_open sd hs hc n.
Proof.
  intros Hs. induction n as [|k IH]; cbn; [reflexivity|]. rewrite IH. f_equal.
  destruct (Nat.eq_dec k h) as [->|Hne].
  - destruct (side_eqb (hs h) sd) eqn:E; [|reflexivity].
    exfalso. apply Hs. destruct (hs h), sd; cbn in E; congruence.
  - now rewrite upd_other by assumption.
Qed.

Lemma count_open_zero sd hs hc n :
  count_open sd hs hc n = 0 -> forall h, h < n -> hs h = sd -> hc h = true.
Proof.
  induction n as [|k IH]; cbn; intros H h Hh Hs; [lia|].
  destruct (Nat.eq_dec h k) as [->|Hne].
  - rewrite Hs in H. replace (side_eqb sd sd) with true in H by (destruct sd; reflexivity).
    destruct (hc k); [reflexivity|cbn in H; lia].
  - apply IH; [lia|lia|exact Hs].
Qed.

Lemma side_eqb_eq a b : side_eqb a b = true <-> a = b.
Proof. destruct a, b; cbn; split; congruence. Qed.

(* ---------- characterisation of the pop loop of send_nowait ---------- *)
Lemma pop_live_spec s rs :
  match pop_live s rs with
  | (Some (e, t), rest) =>
      exists pre, rs = pre ++ (e, t) :: rest /\ has_pending s t = false /\
                  (forall e' t', In (e', t') pre -> has_pending s t' = true)
  | (None, rest) => rest = [] /\ (forall e' t', In (e', t') rs -> has_pending s t' = true)
  end.
Proof.
  induction rs as [|[e t] r IH]; cbn.
  - split; [reflexivity|]. intros ? ? [].
  - destruct (has_pending s t) eqn:Ep.
    + destruct (pop_live s r) as [[[e0 t0]|] rest].
      * destruct IH as (pre & E & Hn & Hp). exists ((e, t) :: pre). subst r. cbn.
        refine (conj eq_refl (conj Hn _)). intros e' t' [H|H]; [congruence|eauto].
      * destruct IH as (E & Hp). split; [exact E|]. intros e' t' [H|H]; [congruence|eauto].
    + exists []. cbn. refine (conj eq_refl (conj Ep _)). intros ? ? [].
Qed.

(* ---------- the invariant ---------- *)
Definition finished (s : st) : Prop := open_send s = 0 /\ buffer s = [] /\ senders s = [].

Record Inv (s : st) : Prop := {
  (* events and phases *)
  I_nev : forall t e, wait_ev (phase_of s t) = Some e -> e < nev s;
  I_inj : forall t1 t2 e, wait_ev (phase_of s t1) = Some e -> wait_ev (phase_of s t2) = Some e -> t1 = t2;
  I_rk : forall e t, In (e, t) (receivers s) -> phase_of s t = RecvWait e;
  I_sk : forall e x, In (e, x) (senders s) -> exists t, phase_of s t = SendWait e x;
  I_rnd : NoDup (map fst (receivers s));
  I_snd : NoDup (map fst (senders s));
  I_rpend : forall t e, phase_of s t = RecvWait e -> fut s e = FPending -> In (e, t) (receivers s);
  I_spend : forall t e x, phase_of s t = SendWait e x -> fut s e = FPending -> In (e, x) (senders s);
  I_quiet : forall t e, wait_ev (phase_of s t) = Some e -> fut s e = FPending ->
                        mustc s t = false /\ scopec s t = false;
  I_rslot : forall e t, In (e, t) (receivers s) -> slot s e = None;
  (* handles *)
  I_cs : open_send s = count_open SSend (hside s) (hclosed s) (nh s);
  I_cr : open_recv s = count_open SRecv (hside s) (hclosed s) (nh s);
  I_ckh : forall t h x, phase_of s t = SendCk h x -> h < nh s /\ hside s h = SSend;
  (* data *)
  I_j1 : receivers s <> [] -> buffer s = [] /\ senders s = [];
  I_j2 : senders s <> [] -> xlt (length (buffer s)) (maxb s) = false;
  I_bound : xle (length (buffer s)) (maxb s);
  I_perm1 : Permutation (entered s) (handed s ++ buffer s ++ map snd (senders s) ++ withdrawn s);
  I_perm2 : Permutation (handed s) (returned s ++ map snd (inflight s) ++ lost s);
  I_sub : subseq (handed s ++ buffer s ++ map snd (senders s)) (entered s);
  I_nd : NoDup (entered s);
  I_fresh : forall x, In x (entered s) -> x < nitem s;
  I_ck : forall t h x, phase_of s t = SendCk h x -> x < nitem s /\ ~ In x (entered s);
  I_ckinj : forall t1 t2 h1 h2 x, phase_of s t1 = SendCk h1 x -> phase_of s t2 = SendCk h2 x -> t1 = t2;
  I_sw : forall t e x, phase_of s t = SendWait e x -> In (e, x) (senders s) \/ In x (handed s ++ buffer s);
  I_ack : forall x, In x (acked s) -> In x (handed s ++ buffer s);
  I_infl : forall e x, In (e, x) (inflight s) <-> (slot s e = Some x /\ exists t, phase_of s t = RecvWait e);
  I_inflnd : NoDup (map fst (inflight s));
  I_filled : forall t e x, phase_of s t = RecvWait e -> slot s e = Some x -> fut s e = FSet;
  I_senq : subseq (map fst (senders s)) (senq s);
  I_renq : subseq (map fst (receivers s)) (renq s);
  (* closing *)
  I_eos : forall t e, phase_of s t = RecvWait e -> fut s e = FSet -> slot s e = None -> finished s;
  I_brk : forall e x, In (e, x) (senders s) -> fut s e = FSet -> open_recv s = 0;
  I_wr : open_send s = 0 -> forall t e, phase_of s t = RecvWait e -> fut s e <> FPending;
  I_ws : open_recv s = 0 -> forall t e x, phase_of s t = SendWait e x -> fut s e <> FPending;
  (* arrival logs: every event is logged once *)
  I_senqlt : forall e, In e (senq s) -> e < nev s;
  I_senqnd : NoDup (senq s);
  I_renqlt : forall e, In e (renq s) -> e < nev s;
  I_renqnd : NoDup (renq s);
  (* the event of a queued receiver has not been set (setting and popping go together) *)
  I_rfut : forall e t, In (e, t) (receivers s) -> fut s e <> FSet
}.

Lemma inv_init m : Inv (init m).
Proof.
  constructor; cbn; try (intros; discriminate); try (intros; contradiction); try (now constructor);
    try (intros; tauto).
  destruct m; cbn; lia.
Qed.

(* ---------- the invariant by theme ---------- *)
(* Each part is stated over the components it reads, so that a step leaves the parts whose components it does not
   write as they are, by conversion. *)
Section Parts.
  Variables (mb : xnat) (buf : list item) (osn orn : nat) (rs : list (eid * tid)) (ss : list (eid * item))
            (sl : eid -> option item) (ft : eid -> fstate) (n : eid) (hs : hid -> side) (hc : hid -> bool) (nhd : hid)
            (ph : tid -> phase) (mc sc : tid -> bool) (ni : item) (ent hd ret : list item)
            (infl : list (eid * item)) (wd lo ak : list item) (sq rq : list eid).
  Set Implicit Arguments. Unset Strict Implicit.

  (* who waits on which event *)
  Record WaitI : Prop := {
    W_nev : forall t e, wait_ev (ph t) = Some e -> e < n;
    W_inj : forall t1 t2 e, wait_ev (ph t1) = Some e -> wait_ev (ph t2) = Some e -> t1 = t2;
    W_rk : forall e t, In (e, t) rs -> ph t = RecvWait e;
    W_sk : forall e x, In (e, x) ss -> exists t, ph t = SendWait e x;
    W_rnd : NoDup (map fst rs);
    W_snd : NoDup (map fst ss);
    W_rpend : forall t e, ph t = RecvWait e -> ft e = FPending -> In (e, t) rs;
    W_spend : forall t e x, ph t = SendWait e x -> ft e = FPending -> In (e, x) ss;
    W_quiet : forall t e, wait_ev (ph t) = Some e -> ft e = FPending -> mc t = false /\ sc t = false;
    W_rslot : forall e t, In (e, t) rs -> sl e = None;
    W_rfut : forall e t, In (e, t) rs -> ft e <> FSet;
    W_filled : forall t e x, ph t = RecvWait e -> sl e = Some x -> ft e = FSet;
    W_infl : forall e x, In (e, x) infl <-> (sl e = Some x /\ exists t, ph t = RecvWait e);
    W_inflnd : NoDup (map fst infl)
  }.

  Definition HandI : Prop := osn = count_open SSend hs hc nhd /\ orn = count_open SRecv hs hc nhd.

  (* tasks suspended in the checkpoint of send(x) *)
  Record CkI : Prop := {
    K_h : forall t h x, ph t = SendCk h x -> h < nhd /\ hs h = SSend;
    K_new : forall t h x, ph t = SendCk h x -> x < ni /\ ~ In x ent;
    K_inj : forall t1 t2 h1 h2 x, ph t1 = SendCk h1 x -> ph t2 = SendCk h2 x -> t1 = t2
  }.

  Record DataI : Prop := {
    D_j1 : rs <> [] -> buf = [] /\ ss = [];
    D_j2 : ss <> [] -> xlt (length buf) mb = false;
    D_bound : xle (length buf) mb;
    D_perm1 : Permutation ent (hd ++ buf ++ map snd ss ++ wd);
    D_perm2 : Permutation hd (ret ++ map snd infl ++ lo);
    D_sub : subseq (hd ++ buf ++ map snd ss) ent;
    D_nd : NoDup ent;
    D_fresh : forall x, In x ent -> x < ni;
    D_ack : forall x, In x ak -> In x (hd ++ buf)
  }.

  (* an arrival log: every queued event is logged, in order, once *)
  Record Log1 {A} (q : list (eid * A)) (lg : list eid) : Prop := {
    L_sub : subseq (map fst q) lg;
    L_lt : forall e, In e lg -> e < n;
    L_nd : NoDup lg
  }.
  Definition LogI : Prop := Log1 ss sq /\ Log1 rs rq.

  (* what a woken or closed-upon waiter finds *)
  Record CloseI : Prop := {
    C_eos : forall t e, ph t = RecvWait e -> ft e = FSet -> sl e = None -> osn = 0 /\ buf = [] /\ ss = [];
    C_brk : forall e x, In (e, x) ss -> ft e = FSet -> orn = 0;
    C_wr : osn = 0 -> forall t e, ph t = RecvWait e -> ft e <> FPending;
    C_ws : orn = 0 -> forall t e x, ph t = SendWait e x -> ft e <> FPending;
    C_sw : forall t e x, ph t = SendWait e x -> In (e, x) ss \/ In x (hd ++ buf)
  }.
  Unset Implicit Arguments. Set Strict Implicit.
End Parts.

Definition waitI s :=
  WaitI (receivers s) (senders s) (slot s) (fut s) (nev s) (phase_of s) (mustc s) (scopec s) (inflight s).
Definition handI s := HandI (open_send s) (open_recv s) (hside s) (hclosed s) (nh s).
Definition ckI s := CkI (hside s) (nh s) (phase_of s) (nitem s) (entered s).
Definition dataI s :=
  DataI (maxb s) (buffer s) (receivers s) (senders s) (nitem s) (entered s) (handed s) (returned s) (inflight s)
        (withdrawn s) (lost s) (acked s).
Definition logI s := LogI (receivers s) (senders s) (nev s) (senq s) (renq s).
Definition closeI s :=
  CloseI (buffer s) (open_send s) (open_recv s) (senders s) (slot s) (fut s) (phase_of s) (handed s).

Lemma inv_parts s : Inv s <-> waitI s /\ handI s /\ ckI s /\ dataI s /\ logI s /\ closeI s.
Proof.
  split.
  - intros []. refine (conj _ (conj _ (conj _ (conj _ (conj (conj _ _) _))))); constructor; assumption.
  - intros ([] & [] & [] & [] & [[] []] & []). constructor; assumption.
Qed.

(* the opening move of every preservation proof *)
Ltac inv_parts I :=
  apply inv_parts in I; destruct I as (W & H & K & D & L & C); apply inv_parts.

(* ---------- reading a function update backwards ---------- *)
Lemma upd_elsewhere {A} (f : nat -> A) k v x y : upd f k v x = y -> v <> y -> x <> k /\ f x = y.
Proof.
  intros H Hn. destruct (Nat.eq_dec x k) as [->|N].
  - rewrite upd_same in H. congruence.
  - rewrite upd_other in H by assumption. auto.
Qed.

Lemma in_keys {A} (e : eid) (v : A) (l : list (eid * A)) : In (e, v) l -> In e (map fst l).
Proof. intros H. apply in_map_iff. exists (e, v). auto. Qed.

Lemma keys_in {A} (e : eid) (l : list (eid * A)) : In e (map fst l) -> exists v, In (e, v) l.
Proof. intros H. apply in_map_iff in H. destruct H as ([e0 v] & E & H). cbn in E. subst e0. eauto. Qed.

Lemma in_snoc {A} (l : list A) x y : In y (l ++ [x]) <-> In y l \/ y = x.
Proof. rewrite in_app_iff. cbn. intuition. Qed.

Lemma wait_recv p e : p = RecvWait e -> wait_ev p = Some e.
Proof. now intros ->. Qed.

Lemma wait_send p e x : p = SendWait e x -> wait_ev p = Some e.
Proof. now intros ->. Qed.

(* ---------- only the waiting phases matter to WaitI and CloseI ---------- *)
Definition wph (p : phase) : phase := match p with SendWait _ _ | RecvWait _ => p | _ => Idle end.

Lemma wph_recv p q e : wph p = wph q -> p = RecvWait e <-> q = RecvWait e.
Proof. destruct p, q; cbn; intros H; split; intros E; congruence. Qed.

Lemma wph_send p q e x : wph p = wph q -> p = SendWait e x <-> q = SendWait e x.
Proof. destruct p, q; cbn; intros H; split; intros E; congruence. Qed.

Lemma wph_wait p q : wph p = wph q -> wait_ev p = wait_ev q.
Proof. destruct p, q; cbn; intros H; congruence. Qed.

Lemma wph_upd (ph : tid -> phase) t p :
  wait_ev (ph t) = None -> wait_ev p = None -> forall t0, wph (upd ph t p t0) = wph (ph t0).
Proof.
  intros H1 H2 t0. destruct (Nat.eq_dec t0 t) as [->|N]; [rewrite upd_same|now rewrite upd_other].
  destruct p, (ph t); try discriminate; reflexivity.
Qed.

Lemma W_ext {rs ss sl ft n ph mc sc infl} (W : WaitI rs ss sl ft n ph mc sc infl) {ph' mc' sc'} :
  (forall t, wph (ph' t) = wph (ph t)) ->
  (forall t e, wait_ev (ph t) = Some e -> ft e = FPending -> mc' t = mc t /\ sc' t = sc t) ->
  WaitI rs ss sl ft n ph' mc' sc' infl.
Proof.
  intros X Y.
  assert (R : forall t e, ph' t = RecvWait e <-> ph t = RecvWait e) by (intros; apply wph_recv, X).
  assert (S : forall t e x, ph' t = SendWait e x <-> ph t = SendWait e x) by (intros; apply wph_send, X).
  assert (V : forall t, wait_ev (ph' t) = wait_ev (ph t)) by (intros; apply wph_wait, X).
  constructor; try (destruct W; assumption).
  - intros t e. rewrite V. apply (W_nev W).
  - intros t1 t2 e. rewrite !V. apply (W_inj W).
  - intros e t Hin. apply R, (W_rk W), Hin.
  - intros e x Hin. destruct (W_sk W Hin) as [t Ht]. exists t. apply S, Ht.
  - intros t e. rewrite R. apply (W_rpend W).
  - intros t e x. rewrite S. apply (W_spend W).
  - intros t e H1 H2. rewrite V in H1. destruct (Y t e H1 H2) as [-> ->]. apply (W_quiet W H1 H2).
  - intros t e x. rewrite R. apply (W_filled W).
  - intros e x. rewrite (W_infl W). split; intros [H1 [t H2]]; (split; [exact H1|exists t; apply R, H2]).
Qed.

Lemma C_ext {buf osn orn ss sl ft ph hd} (C : CloseI buf osn orn ss sl ft ph hd) {ph'} :
  (forall t, wph (ph' t) = wph (ph t)) -> CloseI buf osn orn ss sl ft ph' hd.
Proof.
  intros X.
  assert (R : forall t e, ph' t = RecvWait e <-> ph t = RecvWait e) by (intros; apply wph_recv, X).
  assert (S : forall t e x, ph' t = SendWait e x <-> ph t = SendWait e x) by (intros; apply wph_send, X).
  constructor; try (destruct C; assumption).
  - intros t e. rewrite R. apply (C_eos C).
  - intros Ho t e. rewrite R. apply (C_wr C Ho).
  - intros Ho t e x. rewrite S. apply (C_ws C Ho).
  - intros t e x. rewrite S. apply (C_sw C).
Qed.

(* a task's phase changes to p; a new SendCk must be a valid send of a fresh item *)
Lemma K_phase {hs nhd ph ni ent} (K : CkI hs nhd ph ni ent) {t p} :
  (forall h x, p = SendCk h x ->
     h < nhd /\ hs h = SSend /\ x < ni /\ ~ In x ent /\ forall t' h', ph t' <> SendCk h' x) ->
  CkI hs nhd (upd ph t p) ni ent.
Proof.
  intros Hp. constructor.
  - intros t0 h x E. destruct (Nat.eq_dec t0 t) as [->|N];
      [rewrite upd_same in E; apply Hp in E; tauto|rewrite upd_other in E by assumption; apply (K_h K E)].
  - intros t0 h x E. destruct (Nat.eq_dec t0 t) as [->|N];
      [rewrite upd_same in E; apply Hp in E; tauto|rewrite upd_other in E by assumption; apply (K_new K E)].
  - intros t1 t2 h1 h2 x E1 E2.
    destruct (Nat.eq_dec t1 t) as [->|N1], (Nat.eq_dec t2 t) as [->|N2]; [reflexivity| | |].
    + rewrite upd_same in E1. rewrite upd_other in E2 by assumption.
      apply Hp in E1. destruct E1 as (_ & _ & _ & _ & E1). destruct (E1 _ _ E2).
    + rewrite upd_same in E2. rewrite upd_other in E1 by assumption.
      apply Hp in E2. destruct E2 as (_ & _ & _ & _ & E2). destruct (E2 _ _ E1).
    + rewrite upd_other in E1, E2 by assumption. exact (K_inj K E1 E2).
Qed.

(* more handles, a later item counter, more entered items none of which is held in a checkpoint *)
Lemma K_mono {hs nhd ph ni ent} (K : CkI hs nhd ph ni ent) {hs' nhd' ni' ent'} :
  (forall h, h < nhd -> h < nhd' /\ hs' h = hs h) -> ni <= ni' ->
  (forall x, In x ent' -> In x ent \/ forall t h, ph t <> SendCk h x) ->
  CkI hs' nhd' ph ni' ent'.
Proof.
  intros Hh Hn He. constructor; [| |exact (K_inj K)].
  - intros t h x E. destruct (K_h K E) as [H1 H2]. destruct (Hh h H1) as [H3 H4]. split; congruence.
  - intros t h x E. destruct (K_new K E) as [H1 H2]. split; [lia|].
    intros Hin. destruct (He x Hin) as [H|H]; [contradiction|exact (H _ _ E)].
Qed.

Lemma L_shrink {A n} {q : list (eid * A)} {lg} (L : Log1 n q lg) {q'} : subseq q' q -> Log1 n q' lg.
Proof.
  intros Hs. constructor; [|apply (L_lt L)|apply (L_nd L)].
  eapply subseq_trans; [apply subseq_map, Hs|apply (L_sub L)].
Qed.

Lemma L_next {A n} {q : list (eid * A)} {lg} (L : Log1 n q lg) : Log1 (S n) q lg.
Proof. constructor; [apply (L_sub L)| |apply (L_nd L)]. intros e He. apply (L_lt L) in He. lia. Qed.

Lemma L_append {A n} {q : list (eid * A)} {lg} (L : Log1 n q lg) v : Log1 (S n) (q ++ [(n, v)]) (lg ++ [n]).
Proof.
  constructor.
  - rewrite map_app. apply subseq_app_tail, (L_sub L).
  - intros e He. apply in_snoc in He. destruct He as [He| ->]; [apply (L_lt L) in He|]; lia.
  - apply NoDup_app_tail1; [apply (L_nd L)|]. intros He. apply (L_lt L) in He. lia.
Qed.

Lemma ex_phase_keep (ph : tid -> phase) t0 p P :
  (exists t, ph t = P) -> ph t0 <> P -> exists t, upd ph t0 p t = P.
Proof.
  intros [t H] Hne. exists t. rewrite upd_other; [exact H|]. intros ->. contradiction.
Qed.

Lemma ex_phase_back (ph : tid -> phase) t0 p P :
  (exists t, upd ph t0 p t = P) -> p <> P -> exists t, ph t = P.
Proof.
  intros [t H] Hne. exists t. apply upd_elsewhere in H; [tauto|congruence].
Qed.

(* receivers leave the queue and futures are resolved, as long as the still pending ones stay queued, the queued
   ones are not set and the handed-over ones are *)
Lemma W_settle {rs ss sl ft n ph mc sc infl} (W : WaitI rs ss sl ft n ph mc sc infl) {rs' ft'} :
  subseq rs' rs -> (forall e, ft' e = FPending -> ft e = FPending) ->
  (forall e t, In (e, t) rs -> ft' e = FPending -> In (e, t) rs') ->
  (forall e t, In (e, t) rs' -> ft' e <> FSet) ->
  (forall t e x, ph t = RecvWait e -> sl e = Some x -> ft' e = FSet) ->
  WaitI rs' ss sl ft' n ph mc sc infl.
Proof.
  intros Hs Hp Hk Hq Hf. assert (Hin : forall p, In p rs' -> In p rs) by (intros p; apply subseq_in, Hs).
  constructor; try assumption; try (destruct W; assumption).
  - intros e t Hi. apply (W_rk W), Hin, Hi.
  - eapply subseq_nodup; [apply subseq_map, Hs|apply (W_rnd W)].
  - intros t e H1 H2. apply Hk; [apply (W_rpend W H1), Hp, H2|exact H2].
  - intros t e x H1 H2. apply (W_spend W H1), Hp, H2.
  - intros t e H1 H2. apply (W_quiet W H1), Hp, H2.
  - intros e t Hi. eapply (W_rslot W), Hin, Hi.
Qed.

(* senders leave the queue, none of them with a pending future *)
Lemma W_shrink_ss {rs ss sl ft n ph mc sc infl} (W : WaitI rs ss sl ft n ph mc sc infl) {ss'} :
  subseq ss' ss -> (forall e x, In (e, x) ss -> ft e = FPending -> In (e, x) ss') ->
  WaitI rs ss' sl ft n ph mc sc infl.
Proof.
  intros Hs Hk. constructor; try (destruct W; assumption).
  - intros e x Hi. eapply (W_sk W), subseq_in, Hi. exact Hs.
  - eapply subseq_nodup; [apply subseq_map, Hs|apply (W_snd W)].
  - intros t e x H1 H2. apply Hk; [apply (W_spend W H1 H2)|exact H2].
Qed.

Lemma wait_upd_idle (ph : tid -> phase) t t0 e :
  wait_ev (upd ph t Idle t0) = Some e -> t0 <> t /\ wait_ev (ph t0) = Some e.
Proof.
  intros H. destruct (Nat.eq_dec t0 t) as [->|N]; [rewrite upd_same in H; discriminate|].
  now rewrite upd_other in H by assumption.
Qed.

(* t stops waiting on e, which is in neither queue any more *)
Lemma W_leave {rs ss sl ft n ph mc sc infl} (W : WaitI rs ss sl ft n ph mc sc infl) {t e mc' sc'} :
  wait_ev (ph t) = Some e -> ~ In e (map fst rs) -> ~ In e (map fst ss) ->
  (forall t0, t0 <> t -> mc' t0 = mc t0 /\ sc' t0 = sc t0) ->
  WaitI rs ss sl ft n (upd ph t Idle) mc' sc' (del_key e infl).
Proof.
  intros Hw Hr Hs Hm.
  assert (Hown : forall t0, wait_ev (ph t0) = Some e -> t0 = t) by (intros t0 H0; exact (W_inj W H0 Hw)).
  constructor; try (destruct W; assumption).
  - intros t0 e0 H0. apply wait_upd_idle in H0. apply (W_nev W (proj2 H0)).
  - intros t1 t2 e0 H1 H2. apply wait_upd_idle in H1, H2. exact (W_inj W (proj2 H1) (proj2 H2)).
  - intros e0 t0 Hi. rewrite upd_other; [exact (W_rk W Hi)|]. intros ->. apply Hr.
    rewrite (W_rk W Hi) in Hw. injection Hw as <-. exact (in_keys _ _ _ Hi).
  - intros e0 x0 Hi. apply ex_phase_keep; [exact (W_sk W Hi)|]. intros E. apply Hs.
    rewrite E in Hw. injection Hw as <-. exact (in_keys _ _ _ Hi).
  - intros t0 e0 H1. apply upd_elsewhere in H1 as [_ H1]; [|discriminate]. exact (W_rpend W H1).
  - intros t0 e0 x0 H1. apply upd_elsewhere in H1 as [_ H1]; [|discriminate]. exact (W_spend W H1).
  - intros t0 e0 H1 H2. apply wait_upd_idle in H1. destruct H1 as [N H1]. destruct (Hm t0 N) as [-> ->].
    exact (W_quiet W H1 H2).
  - intros t0 e0 x0 H1. apply upd_elsewhere in H1 as [_ H1]; [|discriminate]. exact (W_filled W H1).
  - intros e0 x0. destruct (Nat.eq_dec e0 e) as [->|N]; split.
    + intros Hi. destruct (del_key_gone e infl (W_inflnd W)). exact (in_keys _ _ _ Hi).
    + intros [_ [t0 H0]]. apply upd_elsewhere in H0 as [N H0]; [|discriminate]. destruct N. apply Hown.
      now rewrite H0.
    + intros Hi. apply del_key_in, (W_infl W) in Hi. destruct Hi as [H1 H2]. split; [exact H1|].
      apply ex_phase_keep; [exact H2|]. intros E. rewrite E in Hw. cbn in Hw. congruence.
    + intros [H1 H2]. apply del_key_other; [|exact N]. apply (W_infl W). split; [exact H1|].
      eapply ex_phase_back; [exact H2|discriminate].
  - apply del_key_nodup, (W_inflnd W).
Qed.

Lemma C_leave {buf osn orn ss sl ft ph hd} (C : CloseI buf osn orn ss sl ft ph hd) t :
  CloseI buf osn orn ss sl ft (upd ph t Idle) hd.
Proof.
  constructor; try (destruct C; assumption).
  - intros t0 e H1. apply upd_elsewhere in H1 as [_ H1]; [|discriminate]. exact (C_eos C H1).
  - intros Ho t0 e H1. apply upd_elsewhere in H1 as [_ H1]; [|discriminate]. exact (C_wr C Ho H1).
  - intros Ho t0 e x H1. apply upd_elsewhere in H1 as [_ H1]; [|discriminate]. exact (C_ws C Ho H1).
  - intros t0 e x H1. apply upd_elsewhere in H1 as [_ H1]; [|discriminate]. exact (C_sw C H1).
Qed.

(* ---------- phase changes outside the waiting phases ---------- *)
Definition fresh_item (s : st) (x : item) : Prop :=
  x < nitem s /\ ~ In x (entered s) /\ (forall t h, phase_of s t <> SendCk h x).

(* t moves between phases in which it waits on no event; its cancellation flags may be reset on the way *)
Lemma phase_nowait_inv s t p m' c' :
  Inv s -> wait_ev (phase_of s t) = None -> wait_ev p = None ->
  (forall h x, p = SendCk h x -> h < nh s /\ hside s h = SSend /\ fresh_item s x) ->
  (forall t0, t0 <> t -> m' t0 = mustc s t0 /\ c' t0 = scopec s t0) ->
  Inv (set_scopec (set_mustc (set_phase_of s (upd (phase_of s) t p)) m') c').
Proof.
  intros I Hw Hp Hk Hm. inv_parts I. pose proof (wph_upd (phase_of s) t p Hw Hp) as X.
  refine (conj _ (conj H (conj _ (conj D (conj L (C_ext C X)))))).
  - apply (W_ext W X). intros t0 e He _. apply Hm. intros ->. congruence.
  - apply (K_phase K). intros h x E. destruct (Hk h x E) as (H1 & H2 & H3 & H4 & H5). auto.
Qed.

Lemma finish_ck_inv s t : Inv s -> wait_ev (phase_of s t) = None -> Inv (finish s t).
Proof.
  intros I Hw. apply (phase_nowait_inv s t Idle); [exact I|exact Hw|reflexivity|intros h x E; discriminate E|].
  intros t0 N. now rewrite !upd_other.
Qed.

Lemma perm_snoc_mid {A} (a b c : list A) x :
  Permutation a (b ++ c) -> Permutation (a ++ [x]) ((b ++ [x]) ++ c).
Proof.
  intros H. rewrite <- app_assoc. cbn.
  eapply perm_trans; [apply Permutation_sym, Permutation_cons_append|].
  eapply perm_trans; [apply perm_skip, H|]. apply Permutation_middle.
Qed.

Lemma has_pending_wait_false s t e :
  wait_ev (phase_of s t) = Some e -> has_pending s t = false ->
  mustc s t = false /\ fut s e <> FCancelled /\ scopec s t = false.
Proof.
  unfold has_pending, waiter. intros -> H.
  apply orb_false_iff in H. destruct H as [H H3]. apply orb_false_iff in H. destruct H as [H1 H2].
  refine (conj H1 (conj _ H3)). intros E. rewrite E in H2. discriminate.
Qed.

Lemma has_pending_pending_false s t e :
  Inv s -> wait_ev (phase_of s t) = Some e -> fut s e = FPending -> has_pending s t = false.
Proof.
  intros I Hw Hf. destruct (I_quiet s I t e Hw Hf) as [H1 H2].
  unfold has_pending, waiter. rewrite Hw, H1, H2, Hf. reflexivity.
Qed.

Lemma set_nitem_inv s n : Inv s -> nitem s <= n -> Inv (set_nitem s n).
Proof.
  intros I Hn. inv_parts I. refine (conj W (conj H (conj _ (conj _ (conj L C))))).
  - apply (K_mono K); auto.
  - constructor; try (destruct D; assumption). intros x Hx. apply (D_fresh D) in Hx. cbn. lia.
Qed.

Lemma add_acked_inv s x : Inv s -> In x (handed s ++ buffer s) -> Inv (add_acked s x).
Proof.
  intros I Hx. inv_parts I. refine (conj W (conj H (conj K (conj _ (conj L C))))).
  constructor; try (destruct D; assumption).
  intros x0 Hin. apply in_snoc in Hin. destruct Hin as [Hin| ->]; [exact (D_ack D Hin)|exact Hx].
Qed.

(* ---------- send_nowait ---------- *)
Lemma shrink_receivers_inv s rs' :
  Inv s -> subseq rs' (receivers s) ->
  (forall e t, In (e, t) (receivers s) -> fut s e = FPending -> In (e, t) rs') ->
  Inv (set_receivers s rs').
Proof.
  intros I Hs Hk. inv_parts I.
  refine (conj (W_settle W Hs (fun _ E => E) Hk _ (W_filled W))
               (conj H (conj K (conj _ (conj (conj (proj1 L) (L_shrink (proj2 L) Hs)) C))))).
  { intros e t Hi. eapply (W_rfut W), subseq_in, Hi. exact Hs. }
  constructor; try (destruct D; assumption).
  intros N. apply (D_j1 D). intros E. rewrite E in Hs. inversion Hs. now apply N.
Qed.

(* x enters the stream at the end of handed ++ buffer ++ senders' items *)
Lemma enter_item {A} (ent l wd : list A) x :
  Permutation ent (l ++ wd) -> subseq l ent -> NoDup ent -> ~ In x ent ->
  Permutation (ent ++ [x]) ((l ++ [x]) ++ wd) /\ subseq (l ++ [x]) (ent ++ [x]) /\ NoDup (ent ++ [x]).
Proof.
  intros P S N Hx. refine (conj (perm_snoc_mid _ _ _ _ P) (conj (subseq_app_tail _ _ _ S) _)).
  apply NoDup_app_tail1; assumption.
Qed.

Lemma serve_head_inv s e t rest x :
  Inv s -> receivers s = (e, t) :: rest -> has_pending s t = false -> fresh_item s x ->
  Inv (hand_over s rest e x).
Proof.
  intros I Hr Hp (Hx1 & Hx2 & Hx3). inv_parts I. unfold waitI, ckI, dataI, logI, closeI in *. cbn. rewrite Hr in *.
  pose proof (W_rk W (or_introl eq_refl)) as Hpt.
  destruct (has_pending_wait_false s t e) as (Hm & Hfc & Hsc); [rewrite Hpt; reflexivity|exact Hp|].
  assert (Hset : ev_set (fut s e) = FSet) by (destruct (fut s e); cbn; congruence).
  pose proof (W_rnd W) as Hn. cbn in Hn. apply NoDup_cons_iff in Hn. destruct Hn as [Hnk Hn].
  assert (Hne : forall e0 t0, In (e0, t0) rest -> e0 <> e) by (intros e0 t0 Hin ->; eapply Hnk, in_keys, Hin).
  destruct (D_j1 D) as [Hb Hs]; [discriminate|].
  pose proof (W_rslot W (or_introl eq_refl)) as Hsl.
  refine (conj _ (conj H (conj _ (conj _ (conj _ _))))).
  - constructor; cbn; try (destruct W; assumption).
    + intros e0 t0 Hin. apply (W_rk W). now right.
    + intros t0 e0 H1 H2. apply upd_elsewhere in H2 as [N H2]; [|apply ev_set_not_pending].
      destruct (W_rpend W H1 H2) as [E|Hin]; [congruence|exact Hin].
    + intros t0 e0 x0 H1 H2. apply upd_elsewhere in H2 as [N H2]; [|apply ev_set_not_pending]. exact (W_spend W H1 H2).
    + intros t0 e0 H1 H2. apply upd_elsewhere in H2 as [N H2]; [|apply ev_set_not_pending]. exact (W_quiet W H1 H2).
    + intros e0 t0 Hin. rewrite upd_other by (eapply Hne, Hin). apply (W_rslot W (or_intror Hin)).
    + intros e0 t0 Hin. rewrite upd_other by (eapply Hne, Hin). apply (W_rfut W (or_intror Hin)).
    + intros t0 e0 x0 H1 H2. destruct (Nat.eq_dec e0 e) as [->|N]; [now rewrite upd_same|].
      rewrite upd_other by assumption. rewrite upd_other in H2 by assumption. exact (W_filled W H1 H2).
    + intros e0 x0. rewrite in_snoc, (W_infl W). destruct (Nat.eq_dec e0 e) as [->|N].
      * rewrite upd_same, Hsl. split; [intros [[H1 _]|H1]|intros [H1 _]; right]; try congruence.
        injection H1 as ->. eauto.
      * rewrite upd_other by assumption. split; [intros [H1|H1]; [exact H1|congruence]|now left].
    + rewrite map_app. apply NoDup_app_tail1; [apply (W_inflnd W)|].
      intros Hin. cbn in Hin. apply keys_in in Hin. destruct Hin as [x0 Hin].
      apply (W_infl W) in Hin. destruct Hin as [Hin _]. congruence.
  - apply (K_mono K); auto. intros x0 Hin. apply in_snoc in Hin. destruct Hin as [Hin| ->]; auto.
  - pose proof (D_perm1 D) as P1. pose proof (D_sub D) as S1. rewrite Hb, Hs in *. cbn in P1, S1 |- *.
    rewrite app_nil_r in S1.
    destruct (enter_item _ _ _ x P1 S1 (D_nd D) Hx2) as (P & S & N).
    constructor; cbn; rewrite ?app_nil_r; try assumption; try (destruct D; assumption).
    + auto.
    + rewrite map_app, !app_assoc. apply perm_snoc_mid. rewrite <- app_assoc. apply (D_perm2 D).
    + intros x0 Hin. apply in_snoc in Hin. destruct Hin as [Hin| ->]; [exact (D_fresh D Hin)|exact Hx1].
    + intros x0 Hin. apply (D_ack D) in Hin. rewrite app_nil_r in *. apply in_snoc. now left.
  - exact (conj (proj1 L) (L_shrink (proj2 L) (ss_skip _ _ _ (subseq_refl _)))).
  - constructor; cbn.
    + intros t0 e0 H1 H2 H3. destruct (Nat.eq_dec e0 e) as [->|N]; [rewrite upd_same in H3; discriminate|].
      rewrite upd_other in H2 by assumption. rewrite upd_other in H3 by assumption. exact (C_eos C H1 H2 H3).
    + rewrite Hs. intros e0 x0 [].
    + intros Ho t0 e0 H1 H2. apply upd_elsewhere in H2 as [N H2]; [|apply ev_set_not_pending]. exact (C_wr C Ho H1 H2).
    + intros Ho t0 e0 x0 H1 H2. apply upd_elsewhere in H2 as [N H2]; [|apply ev_set_not_pending]. exact (C_ws C Ho H1 H2).
    + intros t0 e0 x0 H1. destruct (C_sw C H1) as [Hin|Hin]; [now left|right].
      rewrite Hb, app_nil_r in *. apply in_snoc. now left.
Qed.

Lemma xlt_xle n m : xlt n m = true -> xle (S n) m.
Proof. destruct m; cbn; [|trivial]. intros H. apply Nat.ltb_lt in H. lia. Qed.

Lemma buffer_item_inv s x :
  Inv s -> receivers s = [] -> xlt (length (buffer s)) (maxb s) = true -> open_send s <> 0 -> fresh_item s x ->
  Inv (buffer_item s x).
Proof.
  intros I Hr Hlt Hos (Hx1 & Hx2 & Hx3). inv_parts I. unfold waitI, ckI, dataI, logI, closeI in *. cbn. rewrite Hr in *.
  assert (Hs : senders s = []).
  { destruct (senders s) eqn:E; [reflexivity|]. rewrite (D_j2 D) in Hlt; discriminate. }
  refine (conj W (conj H (conj _ (conj _ (conj L _))))).
  - apply (K_mono K); auto. intros x0 Hin. apply in_snoc in Hin. destruct Hin as [Hin| ->]; auto.
  - pose proof (D_perm1 D) as P1. pose proof (D_sub D) as S1. rewrite Hs in *. cbn in P1, S1.
    rewrite app_nil_r in S1. rewrite app_assoc in P1.
    destruct (enter_item _ _ _ x P1 S1 (D_nd D) Hx2) as (P & S & N). rewrite <- !app_assoc in P. rewrite <- app_assoc in S.
    constructor; cbn; rewrite ?app_nil_r, <- ?app_assoc; try assumption; try (destruct D; assumption);
      try (intros N0; now destruct N0).
    + rewrite app_length, Nat.add_1_r. apply xlt_xle, Hlt.
    + intros x0 Hin. apply in_snoc in Hin. destruct Hin as [Hin| ->]; [exact (D_fresh D Hin)|exact Hx1].
    + intros x0 Hin. rewrite app_assoc. apply in_snoc. left. exact (D_ack D Hin).
  - constructor; try (destruct C; assumption).
    + intros t e H1 H2 H3. destruct (C_eos C H1 H2 H3) as [Ho _]. contradiction.
    + intros t e x0 H1. destruct (C_sw C H1) as [Hin|Hin]; [now left|right]. rewrite app_assoc. apply in_snoc. now left.
Qed.

(* a blocked call creates its event *)
Lemma new_wait_facts {rs ss sl ft n ph mc sc infl} (W : WaitI rs ss sl ft n ph mc sc infl) t p :
  ph t = Idle -> wait_ev p = Some n -> mc t = false -> sc t = false ->
  (forall t0 e, wait_ev (ph t0) = Some e -> e <> n) /\
  (forall t0 e, wait_ev (upd ph t p t0) = Some e -> e < S n) /\
  (forall t1 t2 e, wait_ev (upd ph t p t1) = Some e -> wait_ev (upd ph t p t2) = Some e -> t1 = t2) /\
  (forall t0 e, wait_ev (upd ph t p t0) = Some e -> upd ft n FPending e = FPending -> mc t0 = false /\ sc t0 = false).
Proof.
  intros Hp Hw Hm Hc.
  assert (Hlt : forall t0 e, wait_ev (ph t0) = Some e -> e <> n) by (intros t0 e H0 ->; apply (W_nev W) in H0; lia).
  assert (Hcase : forall t0 e, wait_ev (upd ph t p t0) = Some e -> (t0 = t /\ e = n) \/ (t0 <> t /\ wait_ev (ph t0) = Some e)).
  { intros t0 e H0. destruct (Nat.eq_dec t0 t) as [->|N]; [rewrite upd_same in H0; left|rewrite upd_other in H0 by assumption; now right].
    split; congruence. }
  refine (conj Hlt (conj _ (conj _ _))).
  - intros t0 e H0. destruct (Hcase _ _ H0) as [[_ ->]|[_ H1]]; [lia|]. apply (W_nev W) in H1. lia.
  - intros t1 t2 e H1 H2. destruct (Hcase _ _ H1) as [[-> ->]|[N1 H1']], (Hcase _ _ H2) as [[-> E]|[N2 H2']]; try congruence.
    + destruct (Hlt _ _ H2' eq_refl).
    + subst e. destruct (Hlt _ _ H1' eq_refl).
    + exact (W_inj W H1' H2').
  - intros t0 e H0 Hf. destruct (Hcase _ _ H0) as [[-> _]|[_ H1]]; [auto|].
    rewrite upd_other in Hf by (eapply Hlt, H1). exact (W_quiet W H1 Hf).
Qed.

Lemma enq_sender_inv s t x :
  Inv s -> phase_of s t = Idle -> mustc s t = false -> scopec s t = false ->
  receivers s = [] -> xlt (length (buffer s)) (maxb s) = false -> open_send s <> 0 -> open_recv s <> 0 ->
  fresh_item s x -> Inv (enq_sender s t x).
Proof.
  intros I Hp Hm Hsc Hr Hfull Hos Hor (Hx1 & Hx2 & Hx3). inv_parts I.
  unfold waitI, ckI, dataI, logI, closeI in *. cbn. rewrite Hr in *.
  destruct (new_wait_facts W t (SendWait (nev s) x) Hp eq_refl Hm Hsc) as (Hlt & Hnev & Hinj & Hq).
  assert (Hk : forall e0 x0, In (e0, x0) (senders s) -> e0 <> nev s).
  { intros e0 x0 Hin. destruct (W_sk W Hin) as [t0 H0]. exact (Hlt _ _ (wait_send _ _ _ H0)). }
  refine (conj _ (conj H (conj _ (conj _ (conj (conj (L_append (proj1 L) x) (L_next (proj2 L))) _))))).
  - constructor; try assumption; try (destruct W; assumption).
    + intros e0 t0 [].
    + intros e0 x0 Hin. apply in_snoc in Hin. destruct Hin as [Hin|Hin].
      * apply ex_phase_keep; [exact (W_sk W Hin)|congruence].
      * injection Hin as -> ->. exists t. apply upd_same.
    + rewrite map_app. apply NoDup_app_tail1; [apply (W_snd W)|].
      intros Hin. apply keys_in in Hin. destruct Hin as [x0 Hin]. exact (Hk _ _ Hin eq_refl).
    + intros t0 e0 H1. apply upd_elsewhere in H1 as [_ H1]; [|discriminate]. intros H2.
      rewrite upd_other in H2 by (eapply Hlt, wait_recv, H1). exact (W_rpend W H1 H2).
    + intros t0 e0 x0 H1 H2. apply in_snoc. destruct (Nat.eq_dec t0 t) as [->|N].
      * rewrite upd_same in H1. right. congruence.
      * rewrite upd_other in H1 by assumption. left.
        rewrite upd_other in H2 by (eapply Hlt, wait_send, H1). exact (W_spend W H1 H2).
    + intros e0 t0 [].
    + intros t0 e0 x0 H1 H2. apply upd_elsewhere in H1 as [_ H1]; [|discriminate].
      rewrite upd_other by (eapply Hlt, wait_recv, H1). exact (W_filled W H1 H2).
    + intros e0 x0. rewrite (W_infl W). split; intros [H1 H2]; (split; [exact H1|]).
      * apply ex_phase_keep; [exact H2|congruence].
      * eapply ex_phase_back; [exact H2|discriminate].
  - refine (K_phase (K_mono K (fun h Hh => conj Hh eq_refl) (le_n _) _) _); [|intros h x0 E; discriminate E].
    intros x0 Hin. apply in_snoc in Hin. destruct Hin as [Hin| ->]; auto.
  - pose proof (D_perm1 D) as P1. pose proof (D_sub D) as S1. rewrite !app_assoc in P1. rewrite app_assoc in S1.
    destruct (enter_item _ _ _ x P1 S1 (D_nd D) Hx2) as (P & S & N).
    constructor; try assumption; try (destruct D; assumption).
    + intros N0. now destruct N0.
    + intros _. exact Hfull.
    + rewrite map_app, !app_assoc. exact P.
    + rewrite map_app, !app_assoc. exact S.
    + intros x0 Hin. apply in_snoc in Hin. destruct Hin as [Hin| ->]; [exact (D_fresh D Hin)|exact Hx1].
  - constructor.
    + intros t0 e0 H1 H2 H3. apply upd_elsewhere in H1 as [_ H1]; [|discriminate].
      apply upd_elsewhere in H2 as [_ H2]; [|discriminate]. destruct (C_eos C H1 H2 H3) as [Ho _]. contradiction.
    + intros e0 x0 Hin H2. apply upd_elsewhere in H2 as [N H2]; [|discriminate].
      apply in_snoc in Hin. destruct Hin as [Hin|Hin]; [exact (C_brk C Hin H2)|congruence].
    + intros Ho. contradiction.
    + intros Ho. contradiction.
    + intros t0 e0 x0 H1. rewrite in_snoc. destruct (Nat.eq_dec t0 t) as [->|N].
      * rewrite upd_same in H1. left. right. congruence.
      * rewrite upd_other in H1 by assumption. destruct (C_sw C H1); auto.
Qed.

Lemma enq_receiver_inv s t :
  Inv s -> phase_of s t = Idle -> mustc s t = false -> scopec s t = false ->
  buffer s = [] -> senders s = [] -> open_send s <> 0 -> Inv (enq_receiver s t).
Proof.
  intros I Hp Hm Hsc Hb Hs Hos. inv_parts I. unfold waitI, ckI, dataI, logI, closeI in *. cbn.
  destruct (new_wait_facts W t (RecvWait (nev s)) Hp eq_refl Hm Hsc) as (Hlt & Hnev & Hinj & Hq).
  assert (Hk : forall e0 t0, In (e0, t0) (receivers s) -> e0 <> nev s).
  { intros e0 t0 Hin. exact (Hlt _ _ (wait_recv _ _ (W_rk W Hin))). }
  refine (conj _ (conj H (conj _ (conj _ (conj (conj (L_next (proj1 L)) (L_append (proj2 L) t)) _))))).
  - constructor; try assumption.
    + intros e0 t0 Hin. apply in_snoc in Hin. destruct Hin as [Hin|Hin].
      * rewrite upd_other; [exact (W_rk W Hin)|]. intros ->. rewrite (W_rk W Hin) in Hp. discriminate.
      * injection Hin as -> ->. apply upd_same.
    + rewrite Hs. intros e0 x0 [].
    + rewrite map_app. apply NoDup_app_tail1; [apply (W_rnd W)|].
      intros Hin. apply keys_in in Hin. destruct Hin as [t0 Hin]. exact (Hk _ _ Hin eq_refl).
    + apply (W_snd W).
    + intros t0 e0 H1 H2. apply in_snoc. destruct (Nat.eq_dec t0 t) as [->|N].
      * rewrite upd_same in H1. right. congruence.
      * rewrite upd_other in H1 by assumption. left.
        rewrite upd_other in H2 by (eapply Hlt, wait_recv, H1). exact (W_rpend W H1 H2).
    + intros t0 e0 x0 H1. apply upd_elsewhere in H1 as [_ H1]; [|discriminate]. intros H2.
      rewrite upd_other in H2 by (eapply Hlt, wait_send, H1). exact (W_spend W H1 H2).
    + intros e0 t0 Hin. apply in_snoc in Hin. destruct Hin as [Hin|Hin].
      * rewrite upd_other by (eapply Hk, Hin). exact (W_rslot W Hin).
      * injection Hin as -> ->. apply upd_same.
    + intros e0 t0 Hin. apply in_snoc in Hin. destruct Hin as [Hin|Hin].
      * rewrite upd_other by (eapply Hk, Hin). exact (W_rfut W Hin).
      * injection Hin as -> ->. rewrite upd_same. discriminate.
    + intros t0 e0 x0 H1 H2. apply upd_elsewhere in H2 as [N2 H2]; [|discriminate]. rewrite upd_other by assumption.
      apply upd_elsewhere in H1 as [_ H1]; [exact (W_filled W H1 H2)|congruence].
    + intros e0 x0. rewrite (W_infl W). destruct (Nat.eq_dec e0 (nev s)) as [->|N].
      * rewrite upd_same. split; [intros [_ [t0 H0]]|intros [H0 _]; discriminate].
        destruct (Hlt t0 (nev s)); [now rewrite H0|reflexivity].
      * rewrite upd_other by assumption. split; intros [H1 H2]; (split; [exact H1|]).
        -- apply ex_phase_keep; [exact H2|congruence].
        -- eapply ex_phase_back; [exact H2|congruence].
    + apply (W_inflnd W).
  - apply (K_phase K). intros h x0 E. discriminate E.
  - constructor; try (destruct D; assumption). auto.
  - constructor.
    + intros t0 e0 H1 H2 H3. apply upd_elsewhere in H2 as [N2 H2]; [|discriminate]. rewrite upd_other in H3 by assumption.
      apply upd_elsewhere in H1 as [_ H1]; [exact (C_eos C H1 H2 H3)|congruence].
    + intros e0 x0 Hin H2. apply upd_elsewhere in H2 as [_ H2]; [|discriminate]. exact (C_brk C Hin H2).
    + intros Ho. contradiction.
    + intros Ho t0 e0 x0 H1. apply upd_elsewhere in H1 as [_ H1]; [|discriminate].
      rewrite upd_other by (eapply Hlt, wait_send, H1). exact (C_ws C Ho H1).
    + intros t0 e0 x0 H1. apply upd_elsewhere in H1 as [_ H1]; [|discriminate]. exact (C_sw C H1).
Qed.

(* ---------- receive_nowait ---------- *)
Lemma pop_only_inv s x b :
  Inv s -> senders s = [] -> buffer s = x :: b ->
  Inv (set_returned (set_handed (set_buffer s b) (handed s ++ [x])) (returned s ++ [x])).
Proof.
  intros I Hs Hb. inv_parts I. unfold dataI, closeI in *. cbn. rewrite Hs, Hb in *.
  assert (Hmem : forall x0, In x0 (handed s ++ x :: b) -> In x0 ((handed s ++ [x]) ++ b)).
  { intros x0. now rewrite <- app_assoc. }
  refine (conj W (conj H (conj K (conj _ (conj L _))))).
  - constructor; try (destruct D; assumption).
    + intros N. destruct (D_j1 D N). discriminate.
    + intros N. now destruct N.
    + pose proof (D_bound D) as Hl. destruct (maxb s); cbn in *; [lia|trivial].
    + rewrite <- app_assoc. apply (D_perm1 D).
    + apply perm_snoc_mid, (D_perm2 D).
    + rewrite <- app_assoc. apply (D_sub D).
    + intros x0 Hin. apply Hmem, (D_ack D Hin).
  - constructor; try (destruct C; assumption).
    + intros t e H1 H2 H3. destruct (C_eos C H1 H2 H3) as (_ & E & _). discriminate.
    + intros t e x0 H1. destruct (C_sw C H1) as [Hin|Hin]; [now left|right; apply Hmem, Hin].
Qed.

Lemma move_pop_inv s e y r x b :
  Inv s -> senders s = (e, y) :: r -> buffer s ++ [y] = x :: b ->
  Inv (set_returned (set_handed (set_buffer
        (set_fut (set_buffer (set_senders s r) (buffer s ++ [y])) (upd (fut s) e (ev_set (fut s e)))) b)
        (handed s ++ [x])) (returned s ++ [x])).
Proof.
  intros I Hs Hb. inv_parts I. unfold waitI, dataI, logI, closeI in *. cbn. rewrite Hs in *.
  assert (Hr : receivers s = []).
  { destruct (receivers s) eqn:E; [reflexivity|]. destruct (D_j1 D) as [_ E']; discriminate. }
  pose proof (W_snd W) as Hn. cbn in Hn. apply NoDup_cons_iff in Hn. destruct Hn as [Hnk _].
  assert (Hne : forall e0 x0, In (e0, x0) r -> e0 <> e) by (intros e0 x0 Hin ->; eapply Hnk, in_keys, Hin).
  assert (Hlen : length b = length (buffer s)).
  { apply (f_equal (@length _)) in Hb. rewrite app_length in Hb. cbn in Hb. lia. }
  assert (Hmove : forall l l' : list item, l ++ buffer s ++ y :: l' = (l ++ [x]) ++ b ++ l').
  { intros l l'. rewrite <- !app_assoc. f_equal. change (y :: l') with ([y] ++ l'). now rewrite app_assoc, Hb. }
  assert (Hmem : forall x0, In x0 (handed s ++ buffer s) \/ x0 = y -> In x0 ((handed s ++ [x]) ++ b)).
  { intros x0 Hin. pose proof (Hmove (handed s) []) as E. rewrite app_nil_r in E. rewrite <- E.
    rewrite !in_app_iff in *. cbn. destruct Hin as [[Hin|Hin]| ->]; auto. }
  destruct (W_sk W (or_introl eq_refl)) as [ts Hts].
  assert (Hnr : forall t0, phase_of s t0 <> RecvWait e).
  { intros t0 E. pose proof (W_inj W (wait_recv _ _ E) (wait_send _ _ _ Hts)). congruence. }
  assert (Hpend : forall e0, upd (fut s) e (ev_set (fut s e)) e0 = FPending -> e0 <> e /\ fut s e0 = FPending).
  { intros e0 E. apply (upd_elsewhere _ _ _ _ _ E), ev_set_not_pending. }
  refine (conj _ (conj H (conj K (conj _ (conj (conj (L_shrink (proj1 L) (ss_skip _ _ _ (subseq_refl _))) (proj2 L)) _))))).
  - refine (W_shrink_ss (W_settle W (subseq_refl _) (fun e0 E => proj2 (Hpend e0 E)) (fun e0 t0 Hin _ => Hin) _ _) _ _).
    + rewrite Hr. intros e0 t0 [].
    + intros t0 e0 x0 H1 H2. destruct (Nat.eq_dec e0 e) as [->|N]; [destruct (Hnr _ H1)|].
      rewrite upd_other by assumption. exact (W_filled W H1 H2).
    + apply ss_skip, subseq_refl.
    + intros e0 x0 [E|Hin] Hf; [|exact Hin]. apply Hpend in Hf. injection E as -> _. tauto.
  - constructor; try (destruct D; assumption).
    + rewrite Hr. intros N. now destruct N.
    + intros _. rewrite Hlen. apply (D_j2 D). discriminate.
    + rewrite Hlen. apply (D_bound D).
    + rewrite <- Hmove. apply (D_perm1 D).
    + apply perm_snoc_mid, (D_perm2 D).
    + rewrite <- Hmove. apply (D_sub D).
    + intros x0 Hin. apply Hmem. left. exact (D_ack D Hin).
  - constructor.
    + intros t0 e0 H1 H2 H3. destruct (Nat.eq_dec e0 e) as [->|N]; [destruct (Hnr _ H1)|].
      rewrite upd_other in H2 by assumption. destruct (C_eos C H1 H2 H3) as (_ & _ & E). discriminate.
    + intros e0 x0 Hin H2. rewrite upd_other in H2 by (eapply Hne, Hin). exact (C_brk C (or_intror Hin) H2).
    + intros Ho t0 e0 H1 H2. apply Hpend in H2. exact (C_wr C Ho H1 (proj2 H2)).
    + intros Ho t0 e0 x0 H1 H2. apply Hpend in H2. exact (C_ws C Ho H1 (proj2 H2)).
    + intros t0 e0 x0 H1. destruct (C_sw C H1) as [[E|Hin]|Hin]; [right|now left|right].
      * injection E as _ <-. apply Hmem. now right.
      * apply Hmem. now left.
Qed.

(* ---------- wake-ups after a wait ---------- *)
Lemma finish_sw_inv s t e x :
  Inv s -> phase_of s t = SendWait e x -> fut s e <> FPending -> Inv (finish (drop_sender s e x) t).
Proof.
  intros I Hp Hf. inv_parts I. unfold waitI, dataI, closeI in *.
  pose proof (wait_send _ _ _ Hp) as Hw.
  pose proof (del_key_subseq e (senders s)) as Hsub.
  assert (Hown : forall t0 x0, phase_of s t0 = SendWait e x0 -> t0 = t).
  { intros t0 x0 E. exact (W_inj W (wait_send _ _ _ E) Hw). }
  assert (Hnr : ~ In e (map fst (receivers s))).
  { intros Hin. apply keys_in in Hin. destruct Hin as [t0 Hin].
    pose proof (W_rk W Hin) as E. pose proof (W_inj W (wait_recv _ _ E) Hw). congruence. }
  assert (Hni : del_key e (inflight s) = inflight s).
  { apply del_key_absent. intros Hin. apply keys_in in Hin. destruct Hin as [x0 Hin].
    apply (W_infl W) in Hin. destruct Hin as (_ & t0 & E).
    pose proof (W_inj W (wait_recv _ _ E) Hw). congruence. }
  assert (W' : WaitI (receivers s) (del_key e (senders s)) (slot s) (fut s) (nev s) (upd (phase_of s) t Idle)
                 (upd (mustc s) t false) (upd (scopec s) t false) (inflight s)).
  { rewrite <- Hni. refine (W_leave (W_shrink_ss W Hsub _) Hw Hnr (del_key_gone e _ (W_snd W)) _).
    - intros e0 x0 Hin H0. apply del_key_other; [exact Hin|congruence].
    - intros t0 N. now rewrite !upd_other. }
  pose proof (C_leave C t) as C1.
  assert (C' : CloseI (buffer s) (open_send s) (open_recv s) (del_key e (senders s)) (slot s) (fut s)
                 (upd (phase_of s) t Idle) (handed s)).
  { constructor; try (destruct C1; assumption).
    - intros t0 e0 H1 H2 H3. destruct (C_eos C1 H1 H2 H3) as (E1 & E2 & E3). rewrite E3. auto.
    - intros e0 x0 Hin. exact (C_brk C1 (del_key_in _ _ _ Hin)).
    - intros t0 e0 x0 H1. destruct (C_sw C1 H1) as [Hi|Hi]; [left|now right]. apply del_key_other; [exact Hi|].
      intros ->. apply upd_elsewhere in H1 as [N H1]; [|discriminate]. exact (N (Hown _ _ H1)). }
  unfold drop_sender. destruct (has_key e (senders s)) eqn:Hk; cbn.
  - assert (Hin : In (e, x) (senders s)).
    { apply has_key_in, in_map_iff in Hk. destruct Hk as ([e0 x0] & E & Hin). cbn in E. subst e0.
      destruct (W_sk W Hin) as [t0 E]. rewrite (Hown _ _ E) in E. congruence. }
    refine (conj W' (conj H (conj (K_phase K _) (conj _ (conj (conj (L_shrink (proj1 L) Hsub) (proj2 L)) C'))))).
    + intros h x0 E. discriminate E.
    + constructor; try (destruct D; assumption).
      * intros N. destruct (D_j1 D N) as [_ E]. rewrite E in Hin. destruct Hin.
      * intros N. apply (D_j2 D). intros E. rewrite E in N. now apply N.
      * eapply perm_trans; [apply (D_perm1 D)|]. apply Permutation_app_head, Permutation_app_head.
        eapply perm_trans; [apply Permutation_app_tail, (del_key_perm e x _ (W_snd W) Hin)|].
        cbn. rewrite app_assoc. apply Permutation_cons_append.
      * eapply subseq_trans; [|apply (D_sub D)].
        apply subseq_app; [apply subseq_refl|]. apply subseq_app; [apply subseq_refl|]. apply subseq_map, Hsub.
  - rewrite (del_key_absent e (senders s)) in W', C' by (apply has_key_false, Hk).
    refine (conj W' (conj H (conj (K_phase K _) (conj D (conj L C'))))). intros h x0 E. discriminate E.
Qed.

(* receive() resumes: the own entry is popped; r' and lo' say where an item in the slot goes *)
Lemma recv_wake_inv s t e :
  Inv s -> phase_of s t = RecvWait e -> fut s e <> FPending -> forall r' lo',
  (match slot s e with
   | Some x => (r' = returned s ++ [x] /\ lo' = lost s) \/ (r' = returned s /\ lo' = lost s ++ [x])
   | None => r' = returned s /\ lo' = lost s
   end) ->
  Inv (finish (set_lost (set_returned (set_inflight (pop_receiver s e) (del_key e (inflight s))) r') lo') t).
Proof.
  intros I Hp Hf r' lo' Hm. inv_parts I. unfold waitI, handI, ckI, dataI, logI, closeI in *. cbn.
  pose proof (wait_recv _ _ Hp) as Hw.
  pose proof (del_key_subseq e (receivers s)) as Hsub.
  assert (W1 : WaitI (del_key e (receivers s)) (senders s) (slot s) (fut s) (nev s) (phase_of s) (mustc s) (scopec s)
                 (inflight s)).
  { apply (W_settle W Hsub (fun _ E => E)); [| |apply (W_filled W)].
    - intros e0 t0 Hin H0. apply del_key_other; [exact Hin|congruence].
    - intros e0 t0 Hin. apply (W_rfut W (del_key_in _ _ _ Hin)). }
  refine (conj (W_leave W1 Hw (del_key_gone e _ (W_rnd W)) _ _)
               (conj H (conj (K_phase K _) (conj _ (conj (conj (proj1 L) (L_shrink (proj2 L) Hsub)) (C_leave C t)))))).
  - intros Hin. apply keys_in in Hin. destruct Hin as [x0 Hin].
    destruct (W_sk W Hin) as [t0 E]. pose proof (W_inj W (wait_send _ _ _ E) Hw). congruence.
  - intros t0 N. cbn. now rewrite !upd_other.
  - intros h x0 E. discriminate E.
  - constructor; try (destruct D; assumption); cbn.
    + intros N. apply (D_j1 D). intros E. rewrite E in N. now apply N.
    + eapply perm_trans; [apply (D_perm2 D)|]. destruct (slot s e) as [x|] eqn:Es.
      * assert (Hin : In (e, x) (inflight s)) by (apply (W_infl W); eauto).
        pose proof (del_key_perm e x _ (W_inflnd W) Hin) as Hd. destruct Hm as [[-> ->]|[-> ->]].
        -- rewrite <- app_assoc. apply Permutation_app_head. exact (Permutation_app_tail (lost s) Hd).
        -- apply Permutation_app_head. eapply perm_trans; [apply Permutation_app_tail, Hd|].
           cbn. rewrite app_assoc. apply Permutation_cons_append.
      * destruct Hm as [-> ->]. rewrite del_key_absent; [apply Permutation_refl|].
        intros Hin. apply keys_in in Hin. destruct Hin as [x0 Hin].
        apply (W_infl W) in Hin. destruct Hin as [Hin _]. congruence.
Qed.

(* ---------- cancellation ---------- *)
Lemma cancel_fut_inv s t e :
  Inv s -> wait_ev (phase_of s t) = Some e -> fut s e = FPending -> Inv (set_fut s (upd (fut s) e FCancelled)).
Proof.
  intros I Hw Hf. inv_parts I. unfold waitI, closeI in *.
  assert (Hp : forall e0, upd (fut s) e FCancelled e0 = FPending -> fut s e0 = FPending).
  { intros e0 E. apply upd_elsewhere in E; [tauto|discriminate]. }
  assert (Hs : forall e0, upd (fut s) e FCancelled e0 = FSet -> fut s e0 = FSet).
  { intros e0 E. apply upd_elsewhere in E; [tauto|discriminate]. }
  refine (conj (W_settle W (subseq_refl _) Hp (fun _ _ Hin _ => Hin) _ _) (conj H (conj K (conj D (conj L _))))).
  - intros e0 t0 Hin E. exact (W_rfut W Hin (Hs e0 E)).
  - intros t0 e0 x H1 H2. pose proof (W_filled W H1 H2) as E. rewrite upd_other; [exact E|congruence].
  - constructor; try (destruct C; assumption).
    + intros t0 e0 H1 H2. exact (C_eos C H1 (Hs e0 H2)).
    + intros e0 x Hin H2. exact (C_brk C Hin (Hs e0 H2)).
    + intros Ho t0 e0 H1 H2. exact (C_wr C Ho H1 (Hp e0 H2)).
    + intros Ho t0 e0 x H1 H2. exact (C_ws C Ho H1 (Hp e0 H2)).
Qed.

(* the flags of a task that is not waiting on a pending future *)
Lemma flags_inv s t m' c' :
  Inv s -> (forall e, wait_ev (phase_of s t) = Some e -> fut s e <> FPending) ->
  (forall t0, t0 <> t -> m' t0 = mustc s t0 /\ c' t0 = scopec s t0) ->
  Inv (set_scopec (set_mustc s m') c').
Proof.
  intros I Hn Hm. inv_parts I. refine (conj (W_ext W (fun _ => eq_refl) _) (conj H (conj K (conj D (conj L C))))).
  intros t0 e He Hf. apply Hm. intros ->. exact (Hn e He Hf).
Qed.

Lemma task_cancel_inv s t : Inv s -> Inv (task_cancel s t).
Proof.
  intros I.
  assert (Hm : (forall e, wait_ev (phase_of s t) = Some e -> fut s e <> FPending) ->
               Inv (set_mustc s (upd (mustc s) t true))).
  { intros Hn. apply (flags_inv s t (upd (mustc s) t true) (scopec s) I Hn). intros t0 N. now rewrite upd_other. }
  unfold task_cancel, waiter. destruct (wait_ev (phase_of s t)) as [e|] eqn:Ew.
  - destruct (fut s e) eqn:Ef; [exact (cancel_fut_inv s t e I Ew Ef)| |]; apply Hm; intros e0 [= <-]; congruence.
  - apply Hm. intros e0 [=].
Qed.

Lemma scope_cancel_inv s t : Inv s -> Inv (scope_cancel s t).
Proof.
  intros I.
  assert (Hc : forall s1, Inv s1 -> (forall e, wait_ev (phase_of s1 t) = Some e -> fut s1 e <> FPending) ->
               forall m', (forall t0, t0 <> t -> m' t0 = mustc s1 t0) ->
               Inv (set_scopec (set_mustc s1 m') (upd (scopec s1) t true))).
  { intros s1 I1 Hn m' Hm. apply (flags_inv s1 t m' (upd (scopec s1) t true) I1 Hn). intros t0 N. now rewrite upd_other, Hm. }
  unfold scope_cancel, task_cancel, waiter. cbn [phase_of fut mustc set_scopec].
  destruct (mustc s t) eqn:Em.
  - apply (Hc s I); [|reflexivity]. intros e Hw Hf. rewrite (proj1 (I_quiet s I t e Hw Hf)) in Em. discriminate.
  - destruct (wait_ev (phase_of s t)) as [e|] eqn:Ew.
    + assert (Hn : fut s e <> FPending -> forall e0, wait_ev (phase_of s t) = Some e0 -> fut s e0 <> FPending).
      { intros N e0 Hw. rewrite Ew in Hw. injection Hw as <-. exact N. }
      destruct (fut s e) eqn:Ef; [|apply (Hc s I); [apply Hn; discriminate|reflexivity]..].
      apply (Hc _ (cancel_fut_inv s t e I Ew Ef)); [|reflexivity].
      intros e0 Hw. cbn in Hw |- *. rewrite Ew in Hw. injection Hw as <-. rewrite upd_same. discriminate.
    + refine (Hc s I _ (upd (mustc s) t true) _); [intros e0 Hw; rewrite Ew in Hw; discriminate|].
      intros t0 N. now rewrite upd_other.
Qed.

(* ---------- clone / close ---------- *)
Lemma set_keys_set_inv f ks e : set_keys f ks e = FSet -> f e = FSet \/ In e ks.
Proof.
  unfold set_keys. destruct (mem e ks) eqn:E; [|now left]. intros _. right. now apply mem_in.
Qed.

Lemma set_keys_keep_set f ks e : f e = FSet -> set_keys f ks e = FSet.
Proof. intros H. unfold set_keys. destruct (mem e ks); [rewrite H; reflexivity|exact H]. Qed.

Lemma count_open_pos sd hs hc n h : h < n -> hs h = sd -> hc h = false -> count_open sd hs hc n <> 0.
Proof.
  intros H1 H2 H3 H. pose proof (count_open_zero sd hs hc n H h H1 H2). congruence.
Qed.

(* the open counts change, but neither reaches nor leaves 0 *)
Lemma C_counts {buf osn orn ss sl ft ph hd} (C : CloseI buf osn orn ss sl ft ph hd) {osn' orn'} :
  (osn = 0 <-> osn' = 0) -> (orn = 0 <-> orn' = 0) -> CloseI buf osn' orn' ss sl ft ph hd.
Proof.
  intros Hs Hr. constructor; try (destruct C; assumption).
  - intros t e H1 H2 H3. destruct (C_eos C H1 H2 H3) as (E1 & E2 & E3). apply Hs in E1. auto.
  - intros e x H1 H2. apply Hr, (C_brk C H1 H2).
  - intros Ho. apply (C_wr C), Hs, Ho.
  - intros Ho. apply (C_ws C), Hr, Ho.
Qed.

Lemma do_clone_inv s h : Inv s -> h < nh s -> hclosed s h = false -> Inv (do_clone s h).
Proof.
  intros I Hh Hc. inv_parts I. destruct H as [Hcs Hcr].
  assert (Hext : forall sd sd', count_open sd (upd (hside s) (nh s) sd') (upd (hclosed s) (nh s) false) (nh s)
                                = count_open sd (hside s) (hclosed s) (nh s)).
  { intros sd sd'. apply count_open_ext. intros h0 Hh0. split; apply upd_other; lia. }
  assert (K' : forall sd, CkI (upd (hside s) (nh s) sd) (S (nh s)) (phase_of s) (nitem s) (entered s)).
  { intros sd. apply (K_mono K); auto. intros h0 Hh0. split; [lia|]. apply upd_other. lia. }
  unfold waitI, ckI, dataI, logI, closeI in *. unfold do_clone. destruct (hside s h) eqn:Hsd; cbn.
  - assert (Hpos : open_send s <> 0) by (rewrite Hcs; eapply count_open_pos; eauto).
    refine (conj W (conj _ (conj (K' _) (conj D (conj L (C_counts C _ (iff_refl _))))))); [|cbn; lia].
    split; cbn; rewrite Hext, !upd_same; cbn; lia.
  - assert (Hpos : open_recv s <> 0) by (rewrite Hcr; eapply count_open_pos; eauto).
    refine (conj W (conj _ (conj (K' _) (conj D (conj L (C_counts C (iff_refl _) _)))))); [|cbn; lia].
    split; cbn; rewrite Hext, !upd_same; cbn; lia.
Qed.

Lemma do_close_inv s h : Inv s -> h < nh s -> hclosed s h = false -> Inv (do_close s h).
Proof.
  intros I Hh Hc. inv_parts I. destruct H as [Hcs Hcr]. unfold waitI, dataI, logI, closeI in *.
  assert (Hcnt : forall sd, (hside s h = sd -> S (count_open sd (hside s) (upd (hclosed s) h true) (nh s))
                                                = count_open sd (hside s) (hclosed s) (nh s)) /\
                            (hside s h <> sd -> count_open sd (hside s) (upd (hclosed s) h true) (nh s)
                                                = count_open sd (hside s) (hclosed s) (nh s))).
  { intros sd. split; [apply count_open_close; assumption|apply count_open_close_other]. }
  assert (Hpend : forall ks e, set_keys (fut s) ks e = FPending -> fut s e = FPending).
  { intros ks e E. apply set_keys_not_pending_inv in E. tauto. }
  unfold do_close. destruct (hside s h) eqn:Hsd.
  - assert (Ho : S (pred (open_send s)) = open_send s).
    { destruct (proj1 (Hcnt SSend) eq_refl). rewrite Hcs. reflexivity. }
    assert (H' : HandI (pred (open_send s)) (open_recv s) (hside s) (upd (hclosed s) h true) (nh s)).
    { split; [destruct (proj1 (Hcnt SSend) eq_refl); lia|]. now rewrite (proj2 (Hcnt SRecv)). }
    destruct (Nat.eqb_spec (pred (open_send s)) 0) as [E|E]; cbn.
    + refine (conj _ (conj H' (conj K (conj _ (conj (conj (proj1 L) (L_shrink (proj2 L) (subseq_nil_l _))) _))))).
      * apply (W_settle W (subseq_nil_l _) (Hpend _)).
        -- intros e t Hin Hf. apply set_keys_not_pending_inv in Hf. destruct (proj2 Hf (in_keys _ _ _ Hin)).
        -- intros e t [].
        -- intros t e x H1 H2. apply set_keys_keep_set, (W_filled W H1 H2).
      * constructor; try (destruct D; assumption). intros N. now destruct N.
      * constructor; try (destruct C; assumption).
        -- intros t e H1 H2 H3. split; [exact E|]. apply set_keys_set_inv in H2. destruct H2 as [H2|H2].
           ++ destruct (C_eos C H1 H2 H3) as [E0 _]. lia.
           ++ apply (D_j1 D). intros E0. rewrite E0 in H2. destruct H2.
        -- intros e x H1 H2. apply set_keys_set_inv in H2. destruct H2 as [H2|H2]; [exact (C_brk C H1 H2)|].
           destruct (D_j1 D) as [_ E0]; [intros E0; rewrite E0 in H2; destruct H2|]. rewrite E0 in H1. destruct H1.
        -- intros _ t e H1 H2. apply set_keys_not_pending_inv in H2. destruct H2 as [H2 H3].
           exact (H3 (in_keys _ _ _ (W_rpend W H1 H2))).
        -- intros Hor t e x H1 H2. exact (C_ws C Hor H1 (Hpend _ _ H2)).
    + refine (conj W (conj H' (conj K (conj D (conj L (C_counts C _ (iff_refl _))))))). lia.
  - assert (Ho : S (pred (open_recv s)) = open_recv s).
    { destruct (proj1 (Hcnt SRecv) eq_refl). rewrite Hcr. reflexivity. }
    assert (H' : HandI (open_send s) (pred (open_recv s)) (hside s) (upd (hclosed s) h true) (nh s)).
    { split; [now rewrite (proj2 (Hcnt SSend))|destruct (proj1 (Hcnt SRecv) eq_refl); lia]. }
    destruct (Nat.eqb_spec (pred (open_recv s)) 0) as [E|E]; cbn.
    + assert (Hnr : forall e t, In e (map fst (senders s)) -> phase_of s t <> RecvWait e).
      { intros e t Hin Ht. apply keys_in in Hin. destruct Hin as [x Hin].
        destruct (W_sk W Hin) as [t' Ht'].
        pose proof (W_inj W (wait_send _ _ _ Ht') (wait_recv _ _ Ht)). congruence. }
      refine (conj _ (conj H' (conj K (conj D (conj L _))))).
      * apply (W_settle W (subseq_refl _) (Hpend _) (fun _ _ Hin _ => Hin)).
        -- intros e t Hin H2. apply set_keys_set_inv in H2. destruct H2 as [H2|H2]; [exact (W_rfut W Hin H2)|].
           exact (Hnr e t H2 (W_rk W Hin)).
        -- intros t e x H1 H2. apply set_keys_keep_set, (W_filled W H1 H2).
      * constructor; try (destruct C; assumption).
        -- intros t e H1 H2. apply set_keys_set_inv in H2. destruct H2 as [H2|H2]; [exact (C_eos C H1 H2)|].
           destruct (Hnr e t H2 H1).
        -- intros e x _ _. exact E.
        -- intros Hos t e H1 H2. exact (C_wr C Hos H1 (Hpend _ _ H2)).
        -- intros _ t e x H1 H2. apply set_keys_not_pending_inv in H2. destruct H2 as [H2 H3].
           exact (H3 (in_keys _ _ _ (W_spend W H1 H2))).
    + refine (conj W (conj H' (conj K (conj D (conj L (C_counts C (iff_refl _) _)))))). lia.
Qed.

(* ---------- send_nowait / receive_nowait as a whole ---------- *)
Lemma has_pending_set_receivers s l t : has_pending (set_receivers s l) t = has_pending s t.
Proof. reflexivity. Qed.

Lemma send_nowait_inv s h x :
  Inv s -> h < nh s -> hside s h = SSend -> fresh_item s x ->
  let s1 := fst (send_nowait s h x) in
  Inv s1 /\
  match snd (send_nowait s h x) with
  | RDone => In x (handed s1 ++ buffer s1)
  | RWouldBlock =>
      receivers s1 = [] /\ xlt (length (buffer s1)) (maxb s1) = false /\ open_send s1 <> 0 /\ open_recv s1 <> 0 /\
      fresh_item s1 x /\ phase_of s1 = phase_of s /\ mustc s1 = mustc s /\ scopec s1 = scopec s
  | _ => True
  end.
Proof.
  intros I Hh Hsd Hfr. unfold send_nowait.
  destruct (hclosed s h) eqn:Hc; [cbn; auto|].
  destruct (Nat.eqb_spec (open_recv s) 0) as [Hor|Hor]; [cbn; auto|].
  assert (Hos : open_send s <> 0) by (rewrite (I_cs s I); eapply count_open_pos; eauto).
  (* the receivers that the pop loop drops have a pending cancellation, so their futures are not pending *)
  assert (Hdrop : forall pre rest, receivers s = pre ++ rest ->
            (forall e t, In (e, t) pre -> has_pending s t = true) -> Inv (set_receivers s rest)).
  { intros pre rest Hr Hp. apply (shrink_receivers_inv s rest I); rewrite Hr; [apply subseq_suffix|].
    intros e t Hin Hf. apply in_app_or in Hin. destruct Hin as [Hin|Hin]; [|exact Hin].
    pose proof (Hp e t Hin) as Hpe. rewrite (has_pending_pending_false s t e I) in Hpe; [discriminate| |exact Hf].
    rewrite (I_rk s I e t); [reflexivity|]. rewrite Hr. apply in_or_app. now left. }
  pose proof (pop_live_spec s (receivers s)) as Hpl.
  destruct (pop_live s (receivers s)) as [[[e t]|] rest]; cbn [fst snd].
  - destruct Hpl as (pre & Hr & Hnp & Hpre).
    split; [|cbn; rewrite !in_app_iff; cbn; tauto].
    exact (serve_head_inv (set_receivers s ((e, t) :: rest)) e t rest x (Hdrop _ _ Hr Hpre) eq_refl Hnp Hfr).
  - destruct Hpl as (-> & Hall).
    assert (I' : Inv (set_receivers s [])) by (apply (Hdrop (receivers s) []); [now rewrite app_nil_r|exact Hall]).
    destruct (xlt (length (buffer s)) (maxb s)) eqn:Hlt; cbn [fst snd].
    + split; [exact (buffer_item_inv (set_receivers s []) x I' eq_refl Hlt Hos Hfr)|]. cbn. rewrite !in_app_iff. cbn. tauto.
    + split; [exact I'|]. cbn. auto 10.
Qed.

Lemma recv_nowait_inv s h :
  Inv s ->
  let s1 := fst (recv_nowait s h) in
  Inv s1 /\
  match snd (recv_nowait s h) with
  | RWouldBlock =>
      buffer s1 = [] /\ senders s1 = [] /\ open_send s1 <> 0 /\
      phase_of s1 = phase_of s /\ mustc s1 = mustc s /\ scopec s1 = scopec s
  | _ => True
  end.
Proof.
  intros I. unfold recv_nowait. destruct (hclosed s h); [cbn; auto|].
  unfold rn_move. destruct (senders s) as [|[e y] r] eqn:Hs.
  - unfold rn_pop. destruct (buffer s) as [|x b] eqn:Hb.
    + destruct (Nat.eqb_spec (open_send s) 0); cbn; auto 10.
    + cbn [fst snd]. split; [|exact Logic.I]. apply pop_only_inv; assumption.
  - unfold rn_pop. cbn [buffer set_fut set_buffer set_senders].
    destruct (buffer s ++ [y]) as [|x b] eqn:Hb; [destruct (buffer s); discriminate|].
    cbn [fst snd]. split; [|exact Logic.I].
    apply (move_pop_inv s e y r x b I Hs Hb).
Qed.

(* ---------- one step, every reachable state ---------- *)
Lemma is_idle_true p : is_idle p = true <-> p = Idle.
Proof. destruct p; cbn; split; congruence. Qed.

Lemma valid_h_true s h sd : valid_h s h sd = true <-> h < nh s /\ hside s h = sd.
Proof. unfold valid_h. rewrite andb_true_iff, Nat.ltb_lt, side_eqb_eq. tauto. Qed.

Lemma fresh_after_nitem s x : Inv s -> nitem s <= x -> fresh_item (set_nitem s (S x)) x.
Proof.
  intros I Hx. refine (conj _ (conj _ _)); cbn.
  - lia.
  - intros H. apply (I_fresh s I) in H. lia.
  - intros t h H. apply (I_ck s I) in H. lia.
Qed.

Lemma fresh_after_finish s t h x : Inv s -> phase_of s t = SendCk h x -> fresh_item (finish s t) x.
Proof.
  intros I Hp. destruct (I_ck s I t h x Hp) as [H1 H2]. refine (conj H1 (conj H2 _)). cbn.
  intros t0 h0 H. apply upd_elsewhere in H as [N H]; [|discriminate]. apply N. eapply (I_ckinj s I); eauto.
Qed.

Lemma step_inv s o : Inv s -> Inv (fst (step s o)).
Proof.
  intros I. destruct o as [t h x|t h|t h x|t h|h|h|t|t|t|t]; cbn [step].
  - (* SendNowait *)
    destruct (is_idle (phase_of s t)) eqn:Ei; cbn [negb orb fst]; [|exact I].
    destruct (valid_h s h SSend) eqn:Ev; cbn [negb orb fst]; [|exact I].
    destruct (Nat.ltb_spec x (nitem s)) as [Hx|Hx]; cbn [fst]; [exact I|].
    apply valid_h_true in Ev. destruct Ev as [Hh Hsd].
    assert (I0 : Inv (set_nitem s (S x))) by (apply set_nitem_inv; [exact I|lia]).
    pose proof (send_nowait_inv (set_nitem s (S x)) h x I0 Hh Hsd (fresh_after_nitem s x I Hx)) as [I1 Hr].
    destruct (send_nowait (set_nitem s (S x)) h x) as [s1 r]. cbn [fst snd] in *.
    destruct r; cbn [ack]; try exact I1. apply add_acked_inv; assumption.
  - (* RecvNowait *)
    destruct (is_idle (phase_of s t)) eqn:Ei; cbn [negb orb fst]; [|exact I].
    destruct (valid_h s h SRecv) eqn:Ev; cbn [negb orb fst]; [|exact I].
    apply (recv_nowait_inv s h I).
  - (* Send *)
    destruct (is_idle (phase_of s t)) eqn:Ei; cbn [negb orb fst]; [|exact I].
    destruct (valid_h s h SSend) eqn:Ev; cbn [negb orb fst]; [|exact I].
    destruct (Nat.ltb_spec x (nitem s)) as [Hx|Hx]; cbn [fst]; [exact I|].
    apply valid_h_true in Ev. apply is_idle_true in Ei.
    apply (phase_nowait_inv (set_nitem s (S x)) t (SendCk h x) (mustc s) (scopec s)); auto.
    + apply set_nitem_inv; [exact I|lia].
    + cbn. now rewrite Ei.
    + intros h0 x0 [= <- <-]. refine (conj (proj1 Ev) (conj (proj2 Ev) (fresh_after_nitem s x I Hx))).
  - (* Recv *)
    destruct (is_idle (phase_of s t)) eqn:Ei; cbn [negb orb fst]; [|exact I].
    destruct (valid_h s h SRecv) eqn:Ev; cbn [negb orb fst]; [|exact I].
    apply is_idle_true in Ei.
    apply (phase_nowait_inv s t (RecvCk h) (mustc s) (scopec s)); auto; [now rewrite Ei|intros h0 x0 [=]].
  - (* Clone *)
    destruct (Nat.ltb_spec h (nh s)) as [Hh|Hh]; cbn [negb fst]; [|exact I].
    destruct (hclosed s h) eqn:Hc; cbn [fst]; [exact I|]. apply do_clone_inv; assumption.
  - (* Close *)
    destruct (Nat.ltb_spec h (nh s)) as [Hh|Hh]; cbn [negb fst]; [|exact I].
    destruct (hclosed s h) eqn:Hc; cbn [fst]; [exact I|]. apply do_close_inv; assumption.
  - (* Resume *)
    destruct (phase_of s t) as [|h x|e x|h|e] eqn:Ep; [exact I| | | |].
    + (* SendCk *)
      assert (If : Inv (finish s t)) by (apply finish_ck_inv; [exact I|rewrite Ep; reflexivity]).
      destruct (mustc s t); [exact If|].
      destruct (I_ckh s I t h x Ep) as [Hh Hsd].
      pose proof (send_nowait_inv (finish s t) h x If Hh Hsd (fresh_after_finish s t h x I Ep)) as [I1 Hr].
      destruct (send_nowait (finish s t) h x) as [s1 r]. cbn [fst snd] in *.
      destruct r; cbn [ack fst]; try exact I1.
      * apply add_acked_inv; assumption.
      * destruct Hr as (H1 & H2 & H3 & H4 & H5 & H6 & H7 & H8).
        apply enq_sender_inv; auto; [rewrite H6|rewrite H7|rewrite H8]; apply upd_same.
    + (* SendWait *)
      pose proof (finish_sw_inv s t e x I Ep) as Hdrop.
      destruct (fut s e) eqn:Ef; [exact I| |apply Hdrop; discriminate].
      destruct (mustc s t); [apply Hdrop; discriminate|].
      destruct (has_key e (senders s)) eqn:Hk; [apply Hdrop; discriminate|].
      cbn [fst]. unfold drop_sender in Hdrop. rewrite Hk in Hdrop. apply add_acked_inv; [apply Hdrop; discriminate|].
      destruct (I_sw s I t e x Ep) as [H|H]; [|exact H]. apply in_has_key in H. congruence.
    + (* RecvCk *)
      assert (If : Inv (finish s t)) by (apply finish_ck_inv; [exact I|rewrite Ep; reflexivity]).
      destruct (mustc s t); [exact If|].
      pose proof (recv_nowait_inv (finish s t) h If) as [I1 Hr].
      destruct (recv_nowait (finish s t) h) as [s1 r]. cbn [fst snd] in *.
      destruct r; cbn [fst]; try exact I1.
      destruct Hr as (H1 & H2 & H3 & H6 & H7 & H8).
      apply enq_receiver_inv; auto; [rewrite H6|rewrite H7|rewrite H8]; apply upd_same.
    + (* RecvWait *)
      pose proof (recv_wake_inv s t e I Ep) as Hw.
      assert (Hd : slot s e = None -> del_key e (inflight s) = inflight s).
      { intros Es. apply del_key_absent. intros Hin. apply keys_in in Hin. destruct Hin as [x0 Hin]. apply (I_infl s I) in Hin. destruct Hin as [Hin _]. congruence. }
      assert (Hlose : fut s e <> FPending -> Inv (finish (lose (pop_receiver s e) e) t)).
      { intros Hf. unfold lose. cbn [slot pop_receiver set_receivers inflight lost]. destruct (slot s e) as [x|] eqn:Es.
        - exact (Hw Hf (returned s) (lost s ++ [x]) (or_intror (conj eq_refl eq_refl))).
        - specialize (Hw Hf (returned s) (lost s) (conj eq_refl eq_refl)). rewrite (Hd eq_refl) in Hw. exact Hw. }
      destruct (fut s e) eqn:Ef; [exact I| |apply Hlose; discriminate].
      cbn [is_cancelled orb]. destruct (mustc s t); [apply Hlose; discriminate|].
      assert (Hf : FSet <> FPending) by discriminate.
      destruct (slot s e) as [x|] eqn:Es; cbn [fst].
      * exact (Hw Hf (returned s ++ [x]) (lost s) (or_introl (conj eq_refl eq_refl))).
      * specialize (Hw Hf (returned s) (lost s) (conj eq_refl eq_refl)). rewrite (Hd eq_refl) in Hw. exact Hw.
  - (* Cancel *)
    destruct (is_idle (phase_of s t)); cbn [fst]; [exact I|]. apply task_cancel_inv, I.
  - (* ScopeCancel *)
    destruct (is_idle (phase_of s t)); cbn [fst]; [exact I|].
    destruct (scopec s t); cbn [fst]; [exact I|]. apply scope_cancel_inv, I.
  - exact I.
Qed.

Theorem reachable_inv m ops : Inv (final step (init m) ops).
Proof. apply final_inv; [apply step_inv|apply inv_init]. Qed.

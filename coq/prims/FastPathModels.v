(* C08: in every primitive model the uncontended / ready path of a blocking call suspends at least once before it
   returns: the call's first segment ends in RBlocked. *)
From AV Require Import Base.
From AV Require Sem Limiter EventCond MemStream.

Lemma lock_uncontended_acquire_yields s t :
  Lock.phase_of s t = Lock.Idle -> Lock.owner s = None -> Lock.waiters s = [] -> Lock.fast s = false ->
  snd (Lock.step s (Lock.AcqBegin t)) = Lock.RBlocked /\
  Lock.owner (fst (Lock.step s (Lock.AcqBegin t))) = Some t /\
  Lock.phase_of (fst (Lock.step s (Lock.AcqBegin t))) t = Lock.FastYield.
Proof.
  intros Hp Ho Hw Hf. cbn [Lock.step]. rewrite Hp, Ho, Hw, Hf. cbn. rewrite upd_same. auto.
Qed.

Lemma lock_fast_acquire_is_exempt s t :
  Lock.phase_of s t = Lock.Idle -> Lock.owner s = None -> Lock.waiters s = [] -> Lock.fast s = true ->
  snd (Lock.step s (Lock.AcqBegin t)) = Lock.RDone.
Proof. intros Hp Ho Hw Hf. cbn [Lock.step]. rewrite Hp, Ho, Hw, Hf. reflexivity. Qed.

Lemma sem_uncontended_acquire_yields s t v :
  Sem.phase_of s t = Sem.Idle -> Sem.value s = S v -> Sem.waiters s = [] -> Sem.fast s = false ->
  snd (Sem.step s (Sem.AcqBegin t)) = Sem.RBlocked /\ Sem.value (fst (Sem.step s (Sem.AcqBegin t))) = v.
Proof.
  intros Hp Hv Hw Hf. cbn [Sem.step]. rewrite Hp. cbn [Sem.is_idle negb]. unfold Sem.acq_body.
  rewrite Hv, Hw, Hf. cbn. auto.
Qed.

Lemma limiter_free_acquire_yields s t b :
  Limiter.phase_of s t = Limiter.Idle -> C10Defs.mem b (Limiter.borrowers s) = false -> Limiter.busy s = false ->
  snd (Limiter.step s (Limiter.AcqOn t b)) = Limiter.RBlocked /\
  Limiter.borrowers (fst (Limiter.step s (Limiter.AcqOn t b))) = b :: Limiter.borrowers s.
Proof.
  intros Hp Hm Hb. unfold Limiter.step, Limiter.step_gen. rewrite Hp. cbn [negb Limiter.is_idle]. rewrite Hm, Hb. cbn. auto.
Qed.

Lemma event_wait_on_set_event_yields s t :
  EventCond.e_is_idle (EventCond.ephase_of s t) = true -> EventCond.eflag s = true ->
  snd (EventCond.estep s (EventCond.EvWait t)) = Lock.RBlocked.
Proof. intros Hp Hf. cbn [EventCond.estep]. rewrite Hp, Hf. reflexivity. Qed.

Lemma memstream_send_checkpoints_first s t h x :
  snd (MemStream.step s (MemStream.Send t h x)) = MemStream.RBlocked \/
  snd (MemStream.step s (MemStream.Send t h x)) = MemStream.RRejected.
Proof.
  cbn [MemStream.step].
  destruct (negb (MemStream.is_idle (MemStream.phase_of s t)) || negb (MemStream.valid_h s h MemStream.SSend)
            || Nat.ltb x (MemStream.nitem s)); auto.
Qed.

Lemma memstream_receive_checkpoints_first s t h :
  snd (MemStream.step s (MemStream.Recv t h)) = MemStream.RBlocked \/
  snd (MemStream.step s (MemStream.Recv t h)) = MemStream.RRejected.
Proof.
  cbn [MemStream.step].
  destruct (negb (MemStream.is_idle (MemStream.phase_of s t)) || negb (MemStream.valid_h s h MemStream.SRecv)); auto.
Qed.

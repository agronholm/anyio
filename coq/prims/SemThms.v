(* C10 clauses for the Semaphore machine, over every op sequence. *)
From AV Require Import Base C10Defs C10Lib Sem SemProofs.

Definition reach (fa : bool) (iv : nat) (mx : option nat) (s : st) : Prop :=
  exists ops, s = final step (init fa iv mx) ops.

Lemma reach_inv fa iv mx s : max_ok iv mx -> reach fa iv mx s -> Inv s.
Proof. intros Hm [ops ->]. now apply reachable_inv. Qed.

Lemma reach_step fa iv mx s o : reach fa iv mx s -> reach fa iv mx (fst (step s o)).
Proof. exact (reach_step step (init fa iv mx) s o). Qed.

(* what one step does to the constructor parameters and to the observer's fields held / extra / enq *)
Lemma rel_core_params s :
  init0 (rel_core s) = init0 s /\ maxv (rel_core s) = maxv s /\ fast (rel_core s) = fast s /\
  held (rel_core s) = held s /\ extra (rel_core s) = extra s /\ dropped (rel_core s) = dropped s /\
  phase_of (rel_core s) = phase_of s /\ enq (rel_core s) = enq s /\ mustc (rel_core s) = mustc s.
Proof. rewrite rel_core_eq. cbn. repeat split. Qed.

Lemma cancel_release_params s :
  init0 (fst (cancel_release s)) = init0 s /\ maxv (fst (cancel_release s)) = maxv s /\
  fast (fst (cancel_release s)) = fast s /\ held (fst (cancel_release s)) = held s /\
  extra (fst (cancel_release s)) = extra s /\ phase_of (fst (cancel_release s)) = phase_of s /\
  enq (fst (cancel_release s)) = enq s.
Proof.
  unfold cancel_release. destruct (at_max s); cbn [fst].
  - cbn. tauto.
  - pose proof (rel_core_params s). tauto.
Qed.

Definition acquire_op (o : op) (t : tid) : Prop :=
  o = AcqBegin t \/ o = AcqNowait t \/ o = Resume t \/ o = CkPass t.

(* the parameters never change; the arrival log grows by the entry of a task that queues; held / extra change only
   when an acquire or a release returns, and then as the result says *)
Definition effect (s : st) (o : op) (s' : st) (r : res) : Prop :=
  (init0 s' = init0 s /\ maxv s' = maxv s /\ fast s' = fast s) /\
  (enq s' = enq s \/ exists t, enq s' = enq s ++ [(t, nfut s)]) /\
  ((r <> RDone /\ held s' = held s /\ extra s' = extra s) \/
   (exists t, acquire_op o t /\ r = RDone /\ held s' = t :: held s /\ extra s' = extra s) \/
   (exists t, o = Release t /\ r = RDone /\ In t (held s) /\ held s' = remove_one t (held s) /\ extra s' = extra s) \/
   (exists t, o = Release t /\ r = RDone /\ ~ In t (held s) /\ held s' = held s /\ extra s' = S (extra s))).

Lemma effect_none s o s' r : r <> RDone ->
  init0 s' = init0 s -> maxv s' = maxv s -> fast s' = fast s -> enq s' = enq s -> held s' = held s ->
  extra s' = extra s -> effect s o s' r.
Proof. intros Hr E1 E2 E3 E4 E5 E6. exact (conj (conj E1 (conj E2 E3)) (conj (or_introl E4) (or_introl (conj Hr (conj E5 E6))))). Qed.

Lemma effect_acquired s o t s' : acquire_op o t ->
  init0 s' = init0 s -> maxv s' = maxv s -> fast s' = fast s -> enq s' = enq s -> held s' = t :: held s ->
  extra s' = extra s -> effect s o s' RDone.
Proof.
  intros Ha E1 E2 E3 E4 E5 E6. refine (conj (conj E1 (conj E2 E3)) (conj (or_introl E4) (or_intror (or_introl _)))).
  exists t. auto.
Qed.

(* acquire() past the check, run in a state s0 that differs from s at most in the task's own phase / mustc / infl *)
Lemma acq_body_effect s o s0 t s' r : acquire_op o t ->
  init0 s0 = init0 s -> maxv s0 = maxv s -> fast s0 = fast s -> enq s0 = enq s -> held s0 = held s ->
  extra s0 = extra s -> nfut s0 = nfut s -> acq_body s0 t = (s', r) -> effect s o s' r.
Proof.
  intros Ha E1 E2 E3 E4 E5 E6 E7. unfold acq_body.
  assert (Hq : forall ws fu nf ph, effect s o (mk (fast s0) (maxv s0) (value s0) ws fu nf ph (mustc s0) (init0 s0) (held s0)
                 (infl s0) (extra s0) (dropped s0) (enq s0 ++ [(t, nfut s0)])) RBlocked).
  { intros. refine (conj (conj E1 (conj E2 E3)) (conj (or_intror _) (or_introl (conj _ (conj E5 E6))))); cbn;
      [rewrite E4, E7; eexists; reflexivity | discriminate]. }
  destruct (value s0) as [|v]; [destruct (waiters s0); intros [= <- <-]; apply Hq|].
  destruct (waiters s0); [|intros [= <- <-]; apply Hq].
  destruct (fast s0); intros [= <- <-].
  - apply (effect_acquired s o t); cbn; congruence.
  - apply effect_none; cbn; auto. discriminate.
Qed.

Lemma step_effect s o s' r : step s o = (s', r) -> effect s o s' r.
Proof.
  assert (Hno : forall s1 r1, r1 <> RDone -> init0 s1 = init0 s -> maxv s1 = maxv s -> fast s1 = fast s ->
            enq s1 = enq s -> held s1 = held s -> extra s1 = extra s -> (s1, r1) = (s', r) -> effect s o s' r).
  { intros s1 r1 Hr E1 E2 E3 E4 E5 E6 [= <- <-]. now apply effect_none. }
  assert (Hs : forall r1, r1 <> RDone -> (s, r1) = (s', r) -> effect s o s' r) by (intros r1 Hr; now apply Hno).
  (* the wake-up of a task for which a permit is reserved, in the shielded yield or handed over *)
  assert (Hrdy : forall t, o = Resume t ->
            (if mustc s t then cancel_release (leave s t) else (add_held (leave s t) t, RDone)) = (s', r) ->
            effect s o s' r).
  { intros t ->. destruct (mustc s t).
    - intros H. pose proof (cancel_release_params (leave s t)) as (E1 & E2 & E3 & E4 & E5 & _ & E6).
      rewrite H in *. cbn [fst] in *. apply effect_none; auto.
      unfold cancel_release in H. destruct (at_max (leave s t)); injection H as _ <-; discriminate.
    - intros [= <- <-]. apply (effect_acquired s _ t); unfold acquire_op; auto. }
  destruct o as [t|t|t|t|t|t|t]; cbn [step].
  - destruct (is_idle (phase_of s t)); cbn [negb]; [|apply Hs; discriminate].
    apply (acq_body_effect s _ s t); unfold acquire_op; auto.
  - destruct (is_idle (phase_of s t)); cbn [negb]; [|apply Hs; discriminate].
    destruct (value s); [apply Hs; discriminate|]. intros [= <- <-].
    apply (effect_acquired s _ t); unfold acquire_op; auto.
  - destruct (is_idle (phase_of s t)); cbn [negb]; [|apply Hs; discriminate].
    destruct (at_max s); [apply Hs; discriminate|].
    pose proof (rel_core_params s) as (E1 & E2 & E3 & E4 & E5 & _ & _ & E6 & _).
    destruct (mem t (held s)) eqn:Em; intros [= <- <-];
      refine (conj (conj E1 (conj E2 E3)) (conj (or_introl E6) (or_intror (or_intror _)))); [left|right]; exists t; cbn.
    + apply mem_In in Em. auto.
    + apply mem_false in Em. auto.
  - destruct (phase_of s t) as [| |f|]; [apply Hs; discriminate|now apply Hrdy| |].
    + destruct (futs s f); [apply Hs; discriminate|now apply Hrdy|apply Hno; [discriminate|reflexivity..]].
    + destruct (mustc s t); [apply Hno; [discriminate|reflexivity..]|apply Hs; discriminate].
  - destruct (phase_of s t) as [| |f|]; [| |destruct (futs s f)|]; apply Hno; (discriminate || reflexivity).
  - destruct (is_idle (phase_of s t)); apply Hno; (discriminate || reflexivity).
  - destruct (phase_of s t) as [| |f|]; try (apply Hs; discriminate).
    destruct (mustc s t); [apply Hno; [discriminate|reflexivity..]|].
    apply (acq_body_effect s _ (leave s t) t); unfold acquire_op; auto.
Qed.

Lemma reach_params fa iv mx s : reach fa iv mx s -> init0 s = iv /\ maxv s = mx /\ fast s = fa.
Proof.
  intros [ops ->].
  apply (final_inv step (fun s => init0 s = iv /\ maxv s = mx /\ fast s = fa)); [|cbn; tauto].
  intros s o (H1 & H2 & H3). destruct (step s o) as [s' r] eqn:E.
  destruct (step_effect s o s' r E) as ((E1 & E2 & E3) & _). cbn [fst]. rewrite E1, E2, E3. tauto.
Qed.

(* value + permits held by tasks + permits reserved for tasks whose acquire() has not returned yet
   (+ permits destroyed at the max_value cap by the release inside a cancelled acquire)
   = initial value + releases by tasks that held nothing.  Hence holders never exceed the permits that exist. *)
Theorem sem_conservation fa iv mx s : max_ok iv mx -> reach fa iv mx s ->
  value s + length (held s) + length (infl s) + dropped s = iv + extra s /\
  length (held s) + length (infl s) <= iv + extra s /\
  dropped s <= extra s /\ (mx = None -> dropped s = 0) /\ (forall m, mx = Some m -> value s <= m).
Proof.
  intros Hm R. pose proof (reach_inv _ _ _ _ Hm R) as I. destruct (reach_params _ _ _ _ R) as (E1 & E2 & _).
  destruct (I_arith s I) as [Hc Hle Hd Hn]. rewrite E1 in Hc. rewrite E2 in Hle, Hn.
  refine (conj _ (conj _ (conj Hd (conj Hn _)))); [lia|lia|]. intros m E. now destruct (Hle m E).
Qed.

(* the reserved permits are exactly those of tasks in the shielded yield or handed a permit and not yet run *)
Theorem sem_reserved_meaning fa iv mx s t : max_ok iv mx -> reach fa iv mx s ->
  NoDup (infl s) /\
  (In t (infl s) <-> phase_of s t = FastYield \/ exists f, phase_of s t = Waiting f /\ futs s f = FSet).
Proof.
  intros Hm R. pose proof (I_struct s (reach_inv _ _ _ _ Hm R)) as St.
  split; [apply (S_inflnd s St)|apply (S_infl s St)].
Qed.

(* the ghost `held`/`extra` are what they claim: a returned acquire adds one entry for the caller, an accepted
   release by a holder removes one of its entries, an accepted release by a non-holder is an extra release,
   nothing else changes them *)
Theorem sem_held_tracks_returns s o s' r : step s o = (s', r) ->
  match r with
  | RDone =>
      (exists t, acquire_op o t /\ held s' = t :: held s /\ extra s' = extra s) \/
      (exists t, o = Release t /\
         ((In t (held s) /\ held s' = remove_one t (held s) /\ extra s' = extra s) \/
          (~ In t (held s) /\ held s' = held s /\ extra s' = S (extra s))))
  | _ => held s' = held s /\ extra s' = extra s
  end.
Proof.
  intros H. destruct (step_effect s o s' r H)
    as (_ & _ & [(Hr & E) | [(t & Ha & -> & E) | [(t & -> & -> & E) | (t & -> & -> & E)]]]); eauto.
  destruct r; auto. contradiction.
Qed.

(* a positive value with waiting tasks never occurs *)
Theorem sem_value_pos_no_waiters fa iv mx s : max_ok iv mx -> reach fa iv mx s ->
  value s > 0 -> waiters s = [].
Proof.
  intros Hm R Hv. destruct (S_pos s (I_struct s (reach_inv _ _ _ _ Hm R))) as [H|H]; [lia|exact H].
Qed.

Theorem sem_queue_in_arrival_order fa iv mx s : max_ok iv mx -> reach fa iv mx s ->
  subseq (waiters s) (enq s).
Proof. intros Hm R. apply (S_fifo s (I_struct s (reach_inv _ _ _ _ Hm R))). Qed.

Theorem sem_arrival_log_append_only s o : exists l, enq (fst (step s o)) = enq s ++ l.
Proof.
  destruct (step s o) as [s' r] eqn:E. cbn [fst].
  destruct (step_effect s o s' r E) as (_ & [-> | (t & ->)] & _); [exists []; now rewrite app_nil_r | eexists; reflexivity].
Qed.

(* release() gives the permit to the first waiter whose future is not cancelled; if there is none, all
   (cancelled) entries are dropped and the value grows by one *)
Theorem sem_handoff_first_live s :
  (exists w pre f, waiters s = pre ++ (w, f) :: waiters (rel_core s) /\ futs s f <> FCancelled /\
      (forall t' f', In (t', f') pre -> futs s f' = FCancelled) /\
      infl (rel_core s) = w :: infl s /\ value (rel_core s) = value s /\ futs (rel_core s) f = FSet) \/
  (waiters (rel_core s) = [] /\ (forall t' f', In (t', f') (waiters s) -> futs s f' = FCancelled) /\
      infl (rel_core s) = infl s /\ value (rel_core s) = S (value s)).
Proof.
  rewrite rel_core_eq. pose proof (handoff_spec (waiters s) (futs s)) as H.
  destruct (handoff (waiters s) (futs s)) as [[[w|] ws] fu]; cbn.
  - left. destruct H as (pre & f & E & Hf & Hu & Hp). exists w, pre, f. subst fu.
    rewrite upd_same. auto 10.
  - right. destruct H as (E & _ & Hp). auto.
Qed.

(* a permit is taken directly only when one is free, and then nobody is waiting (no barging) *)
Lemma acq_body_grant s t : (value s > 0 -> waiters s = []) ->
  length (held (fst (acq_body s t))) + length (infl (fst (acq_body s t))) > length (held s) + length (infl s) ->
  value s = S (value (fst (acq_body s t))) /\ waiters s = [].
Proof.
  intros Hpos. unfold acq_body.
  destruct (value s) as [|v] eqn:Ev; [destruct (waiters s); cbn; lia|].
  rewrite (Hpos ltac:(lia)). destruct (fast s); cbn; auto.
Qed.

(* also for the acquire() that had to sit through a cancellation check that yielded (CkPass): test and
   decrement happen in that one segment, on the state as it is THEN *)
Theorem sem_grant_only_if_free fa iv mx s t o : max_ok iv mx -> reach fa iv mx s ->
  o = AcqBegin t \/ o = AcqNowait t \/ o = CkPass t ->
  length (held (fst (step s o))) + length (infl (fst (step s o))) > length (held s) + length (infl s) ->
  value s = S (value (fst (step s o))) /\ waiters s = [].
Proof.
  intros Hm R Ho. pose proof (sem_value_pos_no_waiters _ _ _ _ Hm R) as Hpos.
  destruct Ho as [-> | [-> | ->]]; cbn [step].
  - destruct (is_idle _); cbn [negb fst]; [|lia]. now apply acq_body_grant.
  - destruct (is_idle _); cbn [negb fst]; [|lia].
    destruct (value s) as [|v] eqn:Ev; cbn; [lia|]. intros _. split; [reflexivity|apply Hpos; lia].
  - destruct (phase_of s t) as [| |f|] eqn:Ep; cbn [fst]; try lia.
    pose proof (I_struct s (reach_inv _ _ _ _ Hm R)) as St.
    assert (Hni : ~ In t (infl s)) by (apply neutral_not_infl; [exact St|right; exact Ep]).
    destruct (mustc s t); cbn [fst].
    + cbn. rewrite (remove_one_notin t (infl s) Hni). lia.
    + intros H. destruct (acq_body_grant (leave s t) t) as [G1 G2]; [exact Hpos| |exact (conj G1 G2)].
      replace (infl (leave s t)) with (infl s) by (cbn; now rewrite remove_one_notin).
      exact H.
Qed.

(* cancellation neither leaks nor duplicates a permit *)
(* (a) the wait was cancelled before a permit was handed over *)
Theorem sem_cancelled_waiter_no_leak fa iv mx s t f : max_ok iv mx -> reach fa iv mx s ->
  phase_of s t = Waiting f -> futs s f = FCancelled ->
  let s' := fst (step s (Resume t)) in
  snd (step s (Resume t)) = RCancelled /\ value s' = value s /\ held s' = held s /\ infl s' = infl s /\
  extra s' = extra s /\ dropped s' = dropped s /\
  ~ In t (map fst (waiters s')) /\ phase_of s' t = Idle.
Proof.
  intros Hm R Hp Hf. pose proof (I_struct s (reach_inv _ _ _ _ Hm R)) as St.
  cbn [step]. rewrite Hp, Hf. cbn.
  pose proof (cancelled_gone s t f St Hp) as Hgone.
  rewrite (remove_one_notin t (infl s) (cancelled_not_infl s t f St Hp Hf)), upd_same. auto 10.
Qed.

(* (b) the task was cancelled (natively) while a permit was already reserved for it - in the shielded yield
   of the uncontended path, or between hand-off and its wake-up: the permit goes back (to the value or to
   the next live waiter); only at value = max_value the internal release() is refused like any other *)
Lemma rel_core_count s :
  value (rel_core s) + length (infl (rel_core s)) = S (value s + length (infl s)).
Proof. rewrite rel_core_eq. cbn. destruct (fst (fst (handoff (waiters s) (futs s)))); cbn; lia. Qed.

Theorem sem_cancelled_grantee_no_leak fa iv mx s t : max_ok iv mx -> reach fa iv mx s ->
  (phase_of s t = FastYield \/ exists f, phase_of s t = Waiting f /\ futs s f = FSet) ->
  mustc s t = true ->
  let s' := fst (step s (Resume t)) in
  let r := snd (step s (Resume t)) in
  phase_of s' t = Idle /\ held s' = held s /\ extra s' = extra s /\ ~ In t (infl s') /\ Inv s' /\
  ((r = RCancelled /\ maxv s <> Some (value s) /\ dropped s' = dropped s /\
      value s' + length (infl s') = value s + length (infl s)) \/
   (r = RValue /\ maxv s = Some (value s) /\ dropped s' = S (dropped s) /\
      value s' = value s /\ S (length (infl s')) = length (infl s))).
Proof.
  intros Hm R Hr Hc. pose proof (reach_inv _ _ _ _ Hm R) as I. pose proof (I_struct s I) as St.
  assert (E : step s (Resume t) = cancel_release (leave s t)).
  { cbn [step]. destruct Hr as [Hr|(f & Hr1 & Hr2)]; [rewrite Hr, Hc|rewrite Hr1, Hr2, Hc]; reflexivity. }
  assert (I' : Inv (fst (step s (Resume t)))) by (now apply step_inv).
  cbv zeta. rewrite E in *. clear E.
  assert (Hin : In t (infl s)) by (apply (S_infl s St); exact Hr).
  pose proof (remove_one_length t (infl s) Hin) as Hl.
  pose proof (cancel_release_params (leave s t)) as (_ & _ & _ & Eh & Ee & Ep & _).
  assert (Hidle : phase_of (fst (cancel_release (leave s t))) t = Idle) by (rewrite Ep; cbn; apply upd_same).
  assert (Hnin : ~ In t (infl (fst (cancel_release (leave s t))))).
  { intros H. apply (S_infl _ (I_struct _ I')) in H. destruct H as [H|(f & H & _)]; congruence. }
  refine (conj Hidle (conj Eh (conj Ee (conj Hnin (conj I' _))))).
  unfold cancel_release in *. destruct (at_max (leave s t)) eqn:Em; cbn [fst snd] in *.
  - (* tid is nat, but lia does not see through the name *)
    right. apply at_max_true in Em. cbn in Em. cbn. unfold tid in *. repeat split; auto; lia.
  - left. pose proof (at_max_false _ Em) as Hne. pose proof (rel_core_count (leave s t)) as Hcnt.
    pose proof (rel_core_params (leave s t)) as (_&_&_&_&_&Ed&_). cbn in Hne, Hcnt, Ed. unfold tid in *.
    repeat split; auto; try lia. intros E. apply (Hne _ E). reflexivity.
Qed.

(* the cancellation check at the start of acquire() (F53) *)
(* acquire() called while a cancelled scope is visible: the check yields before anything of the semaphore is read
   or written - on the uncontended AND on the contended path, in every state *)
Theorem sem_check_yield_noeffect s t : phase_of s t = Idle ->
  step s (AcqBeginC t) = (set_phase s t CkYield, RBlocked) /\
  value (set_phase s t CkYield) = value s /\ waiters (set_phase s t CkYield) = waiters s /\
  futs (set_phase s t CkYield) = futs s /\ held (set_phase s t CkYield) = held s /\
  infl (set_phase s t CkYield) = infl s /\ enq (set_phase s t CkYield) = enq s.
Proof. intros Hp. cbn [step]. rewrite Hp. cbn. auto 10. Qed.

(* the delivered cancellation is raised out of acquire() with nothing touched (also when the scope was cut off in
   the same cycle: the pending Task.cancel() wins) *)
Theorem sem_check_cancelled_noeffect s t : phase_of s t = CkYield -> mustc s t = true ->
  step s (Resume t) = (leave s t, RCancelled) /\ step s (CkPass t) = (leave s t, RCancelled) /\
  value (leave s t) = value s /\ waiters (leave s t) = waiters s /\ futs (leave s t) = futs s /\
  held (leave s t) = held s /\ enq (leave s t) = enq s /\ phase_of (leave s t) t = Idle.
Proof.
  intros Hp Hm. cbn [step]. rewrite Hp, Hm. cbn. rewrite upd_same. auto 10.
Qed.

(* without a pending cancellation the check spins: a further yield, nothing changes *)
Theorem sem_check_spin s t : phase_of s t = CkYield -> mustc s t = false -> step s (Resume t) = (s, RBlocked).
Proof. intros Hp Hm. cbn [step]. now rewrite Hp, Hm. Qed.

(* at HEAD: when the check returns normally after having yielded (the cancelled scope was cut
   off meanwhile), acquire() continues EXACTLY like a fresh acquire() issued at that moment - the test
   `value > 0 and not waiters` and the decrement run in this one segment, on the state as it is now; there is no
   yield between test and decrement *)
Theorem sem_check_pass_is_fresh_acquire s t : phase_of s t = CkYield -> mustc s t = false ->
  step s (CkPass t) = step (leave s t) (AcqBegin t) /\
  value (leave s t) = value s /\ waiters (leave s t) = waiters s /\ held (leave s t) = held s.
Proof.
  intros Hp Hm. cbn [step]. rewrite Hp, Hm. cbn [leave phase_of]. rewrite upd_same. cbn. auto.
Qed.

(* F53 (fixed in /repo by c2fb7fb): with the old order - test; check; decrement - a task that takes the permit
   while the check yields is overwritten.  One permit; task 1 calls acquire() under a visible cancelled scope: the
   test passes and the check yields; task 2 takes the permit (acquire_nowait); the scope is cut off, task 1's
   check returns and it decrements without looking again (Python: value == -1): two holders of ONE permit, the
   conservation equation is off by one.  At HEAD task 1 queues instead. *)
Definition f53_ops : list op := [AcqBeginC 1; AcqNowait 2; CkPass 1; Resume 1].

Theorem sem_check_order_refuted_pinned :
  exists ops, let s := final step_f53_pinned (init false 1 None) ops in
    held s = [1; 2] /\ infl s = [] /\ extra s = 0 /\ dropped s = 0 /\ value s = 0 /\
    length (held s) > 1 + extra s /\
    value s + length (held s) + length (infl s) + dropped s <> 1 + extra s /\
    (forall t, t < 3 -> phase_of s t = Idle).
Proof.
  exists f53_ops. vm_compute. repeat split; try lia.
  intros t Ht. do 3 (destruct t as [|t]; [reflexivity|]). lia.
Qed.

Example f53_fixed_at_head :
  let s := final step (init false 1 None) [AcqBeginC 1; AcqNowait 2; CkPass 1] in
  held s = [2] /\ value s = 0 /\ phase_of s 1 = Waiting 0 /\ waiters s = [(1, 0)] /\
  snd (step (final step (init false 1 None) [AcqBeginC 1; AcqNowait 2]) (CkPass 1)) = RBlocked.
Proof. vm_compute. auto 10. Qed.

Example ex_check_hyps :
  let s := final step (init false 1 None) [AcqBeginC 1] in
  phase_of (init false 1 None) 1 = Idle /\ phase_of s 1 = CkYield /\ mustc s 1 = false /\
  mustc (fst (step s (Cancel 1))) 1 = true /\ phase_of (fst (step s (Cancel 1))) 1 = CkYield.
Proof. vm_compute. auto 10. Qed.

(* releasing beyond max_value is rejected and changes nothing *)
Theorem sem_release_beyond_max_rejected s t :
  phase_of s t = Idle -> maxv s = Some (value s) -> step s (Release t) = (s, RValue).
Proof.
  intros Hp Hm. cbn [step]. rewrite Hp. cbn [is_idle negb]. unfold at_max. rewrite Hm, Nat.eqb_refl. reflexivity.
Qed.

Theorem sem_release_below_max_accepted s t :
  phase_of s t = Idle -> maxv s <> Some (value s) -> snd (step s (Release t)) = RDone.
Proof.
  intros Hp Hm. cbn [step]. rewrite Hp. cbn [is_idle negb].
  destruct (at_max s) eqn:E; [apply at_max_true in E; contradiction|]. destruct (mem t (held s)); reflexivity.
Qed.

(* once everybody has released and nobody is inside a call the semaphore is pristine *)
Theorem sem_quiescent_initial fa iv mx s : max_ok iv mx -> reach fa iv mx s ->
  (forall t, phase_of s t = Idle) -> held s = [] ->
  waiters s = [] /\ infl s = [] /\ value s + dropped s = iv + extra s /\ (extra s = 0 -> value s = iv).
Proof.
  intros Hm R Hall Hh. pose proof (reach_inv _ _ _ _ Hm R) as I. pose proof (I_struct s I) as St.
  assert (Hw : waiters s = []).
  { destruct (waiters s) as [|[t f] r] eqn:E; [reflexivity|]. exfalso.
    destruct (S_w s St t f) as [H _]; [rewrite E; now left|]. rewrite Hall in H. discriminate. }
  assert (Hi : infl s = []).
  { destruct (infl s) as [|t r] eqn:E; [reflexivity|]. exfalso.
    assert (H : In t (infl s)) by (rewrite E; now left). apply (S_infl s St) in H.
    destruct H as [H|(f & H & _)]; rewrite Hall in H; discriminate. }
  destruct (sem_conservation _ _ _ _ Hm R) as (Hc & _ & Hd & _). rewrite Hh, Hi in Hc. cbn in Hc.
  repeat split; auto; lia.
Qed.

(* non-vacuity: concrete reachable states that satisfy the hypotheses *)
(* one permit; 1 takes it, 2 and 3 queue, 2 is cancelled, 1 releases: the permit goes to 3 *)
Definition ex_ops := [AcqBegin 1; Resume 1; AcqBegin 2; AcqBegin 3; Cancel 2; Release 1].

Example ex_handoff_skips_cancelled :
  let s := final step (init false 1 (Some 1)) ex_ops in
  value s = 0 /\ waiters s = [] /\ held s = [] /\ infl s = [3].
Proof. vm_compute. auto. Qed.

Example ex_value_pos :
  let s := final step (init false 2 None) [AcqBegin 1; Resume 1] in value s > 0 /\ held s = [1].
Proof. vm_compute. auto. Qed.

Example ex_cancelled_waiter_hyp :
  let s := final step (init false 1 (Some 1)) ex_ops in phase_of s 2 = Waiting 0 /\ futs s 0 = FCancelled.
Proof. vm_compute. auto. Qed.

(* hand-off race: 2 is handed the permit and then cancelled before it runs: the permit returns to the value *)
Example ex_race_hyp :
  let s := final step (init false 1 None) [AcqBegin 1; Resume 1; AcqBegin 2; Release 1; Cancel 2] in
  phase_of s 2 = Waiting 0 /\ futs s 0 = FSet /\ mustc s 2 = true /\ value s = 0 /\
  value (fst (step s (Resume 2))) = 1 /\ snd (step s (Resume 2)) = RCancelled.
Proof. vm_compute. auto 10. Qed.

(* the same race at the cap: an extra release filled the value to max_value meanwhile, the internal release()
   is refused with ValueError (which replaces the CancelledError) and the reserved permit is dropped *)
Example ex_race_at_max :
  let s := final step (init false 1 (Some 1)) [AcqBegin 1; Release 2; Cancel 1] in
  phase_of s 1 = FastYield /\ mustc s 1 = true /\ maxv s = Some (value s) /\ extra s = 1 /\
  snd (step s (Resume 1)) = RValue /\ dropped (fst (step s (Resume 1))) = 1.
Proof. vm_compute. auto 10. Qed.

Example ex_grant_only_if_free_hyp :
  let s := final step (init false 1 None) [] in
  length (held (fst (step s (AcqNowait 1)))) + length (infl (fst (step s (AcqNowait 1))))
  > length (held s) + length (infl s).
Proof. vm_compute. lia. Qed.

Example ex_release_at_max_hyp :
  let s := final step (init false 1 (Some 1)) [] in phase_of s 1 = Idle /\ maxv s = Some (value s).
Proof. vm_compute. auto. Qed.

Example ex_quiescent :
  let s := final step (init false 1 (Some 1)) (ex_ops ++ [Resume 2; Resume 3; Release 3]) in
  (forall t, t < 5 -> phase_of s t = Idle) /\ held s = [] /\ value s = 1 /\ waiters s = [].
Proof.
  vm_compute. repeat split.
  intros t Ht. do 5 (destruct t as [|t]; [reflexivity|]). lia.
Qed.

(* the same hypothesis in a non-initial state (after a wait, a hand-off, an extra release and a cancelled waiter) *)
Example ex_grant_only_if_free_hyp2 :
  let s := final step (init false 1 (Some 2))
             [AcqBegin 1; Resume 1; AcqBegin 2; AcqBegin 3; Cancel 2; Release 1; Resume 2; Resume 3; Release 1] in
  value s = 1 /\ held s = [3] /\
  length (held (fst (step s (AcqBegin 1)))) + length (infl (fst (step s (AcqBegin 1))))
  > length (held s) + length (infl s).
Proof. vm_compute. repeat split; lia. Qed.

Example ex_grant_only_if_free_hyp_ckpass :
  let s := final step (init false 1 None) [AcqBeginC 1] in
  length (held (fst (step s (CkPass 1)))) + length (infl (fst (step s (CkPass 1))))
  > length (held s) + length (infl s).
Proof. vm_compute. lia. Qed.


(* Facts shared by the C10 proofs: subsequences (FIFO), membership test, removal of one occurrence, the
   interpreter's comparison of queues. *)
From AV Require Import Base C10Defs.
From AV Require PrimImp.

Inductive subseq {A} : list A -> list A -> Prop :=
| ss_nil : subseq [] []
| ss_skip x a b : subseq a b -> subseq a (x :: b)
| ss_take x a b : subseq a b -> subseq (x :: a) (x :: b).

Lemma subseq_refl {A} (l : list A) : subseq l l.
Proof. induction l; [apply ss_nil | apply ss_take; assumption]. Qed.

Lemma subseq_nil_l {A} (l : list A) : subseq [] l.
Proof. induction l; [apply ss_nil | apply ss_skip; assumption]. Qed.

Lemma subseq_trans {A} (a b c : list A) : subseq a b -> subseq b c -> subseq a c.
Proof.
  intros Hab Hbc. revert a Hab. induction Hbc as [|x b c Hbc IH|x b c Hbc IH]; intros a Hab.
  - exact Hab.
  - apply ss_skip. apply IH, Hab.
  - inversion Hab as [|y a' b' H1|y a' b' H1]; subst.
    + apply ss_skip. apply IH. exact H1.
    + apply ss_take. apply IH. exact H1.
Qed.

Lemma subseq_app_tail {A} (a b : list A) x : subseq a b -> subseq (a ++ [x]) (b ++ [x]).
Proof.
  induction 1 as [|y a b H IH|y a b H IH]; cbn.
  - apply ss_take, ss_nil.
  - apply ss_skip, IH.
  - apply ss_take, IH.
Qed.

Lemma subseq_suffix {A} (pre l : list A) : subseq l (pre ++ l).
Proof. induction pre; cbn; [apply subseq_refl|apply ss_skip; assumption]. Qed.

Lemma subseq_in {A} (a b : list A) x : subseq a b -> In x a -> In x b.
Proof.
  induction 1 as [|y a b Hs IH|y a b Hs IH]; cbn; intros Hin; auto.
  destruct Hin as [Hin|Hin]; auto.
Qed.

Lemma subseq_map {A B} (g : A -> B) a b : subseq a b -> subseq (map g a) (map g b).
Proof.
  induction 1 as [|y a b H IH|y a b H IH]; cbn;
    [apply ss_nil | apply ss_skip, IH | apply ss_take, IH].
Qed.

Lemma subseq_nodup {A} (a b : list A) : subseq a b -> NoDup b -> NoDup a.
Proof.
  induction 1 as [|x a b H IH|x a b H IH]; intros Hn; [constructor| |].
  - inversion Hn; auto.
  - inversion Hn as [|y l Hy Hl]; subst. constructor; [|auto].
    intros Hin. apply Hy. eapply subseq_in; eauto.
Qed.

Lemma subseq_tl {A} (x : A) l : subseq l (x :: l).
Proof. apply ss_skip, subseq_refl. Qed.

Lemma subseq_nonnil {A} (a b : list A) : subseq a b -> a <> [] -> b <> [].
Proof. intros H Ha ->. inversion H. now subst. Qed.

(* small list facts *)
Lemma NoDup_app_disj {A} (l1 l2 : list A) :
  NoDup l1 -> NoDup l2 -> (forall x, In x l1 -> ~ In x l2) -> NoDup (l1 ++ l2).
Proof.
  induction l1 as [|a l1 IH]; cbn; intros H1 H2 Hd; [exact H2|].
  inversion H1 as [|y l Hy Hl]; subst. constructor.
  - intros H. apply in_app_or in H. destruct H as [H|H]; [contradiction|]. apply (Hd a); auto.
  - apply IH; auto.
Qed.

Lemma mem_In t l : mem t l = true <-> In t l.
Proof.
  unfold mem. rewrite existsb_exists. split.
  - intros (x & Hx & E). apply Nat.eqb_eq in E. now subst.
  - intros H. exists t. split; [exact H|apply Nat.eqb_refl].
Qed.

Lemma mem_false t l : mem t l = false <-> ~ In t l.
Proof.
  rewrite <- mem_In. destruct (mem t l); split; congruence.
Qed.

Lemma remove_one_length t l : In t l -> S (length (remove_one t l)) = length l.
Proof.
  induction l as [|x r IH]; cbn; [tauto|]. intros H.
  destruct (Nat.eqb_spec x t) as [->|Hne]; [reflexivity|]. cbn. f_equal. apply IH.
  destruct H as [H|H]; [contradiction|exact H].
Qed.

Lemma remove_one_length_le t l : length l <= S (length (remove_one t l)).
Proof. induction l as [|x r IH]; cbn; [lia|]. destruct (Nat.eqb x t); cbn; lia. Qed.

Lemma remove_one_notin t l : ~ In t l -> remove_one t l = l.
Proof.
  induction l as [|x r IH]; cbn; [reflexivity|]. intros H.
  destruct (Nat.eqb_spec x t) as [->|Hne]; [exfalso; apply H; now left|].
  f_equal. apply IH. intros H1. apply H. now right.
Qed.

Lemma remove_one_subseq t l : subseq (remove_one t l) l.
Proof.
  induction l as [|y r IH]; cbn; [apply ss_nil|].
  destruct (Nat.eqb y t); [apply subseq_tl|apply ss_take, IH].
Qed.

Lemma in_remove_one_incl t x l : In x (remove_one t l) -> In x l.
Proof. apply subseq_in, remove_one_subseq. Qed.

Lemma in_remove_one_other t x l : In x l -> x <> t -> In x (remove_one t l).
Proof.
  induction l as [|y r IH]; cbn; [tauto|]. intros H Hne.
  destruct (Nat.eqb_spec y t) as [->|Hyt].
  - destruct H as [H|H]; [congruence|exact H].
  - cbn. destruct H as [H|H]; [now left|right; auto].
Qed.

Lemma nodup_remove_one t l : NoDup l -> NoDup (remove_one t l).
Proof. apply subseq_nodup, remove_one_subseq. Qed.

Lemma remove_one_gone t l : NoDup l -> ~ In t (remove_one t l).
Proof.
  induction l as [|y r IH]; cbn; intros Hn; [tauto|].
  inversion Hn as [|z l' Hy Hl]; subst.
  destruct (Nat.eqb_spec y t) as [->|Hyt]; [exact Hy|].
  cbn. intros [H|H]; [contradiction|]. now apply IH.
Qed.

Lemma in_remove_one t x l : NoDup l -> (In x (remove_one t l) <-> In x l /\ x <> t).
Proof.
  intros Hn. split.
  - intros H. split; [eapply in_remove_one_incl; eauto|]. intros ->. revert H. now apply remove_one_gone.
  - intros [H1 H2]. now apply in_remove_one_other.
Qed.

Lemma wl_eqb_refl l : PrimImp.wl_eqb l l = true.
Proof.
  induction l as [|[t f] r IH]; cbn; [reflexivity|].
  now rewrite !Nat.eqb_refl, IH.
Qed.

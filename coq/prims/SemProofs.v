(* Proofs about the Semaphore machine: an inductive invariant for every op sequence. *)
From AV Require Import Base C10Defs C10Lib WaitQueue Sem.

Lemma remove_fut_subseq f ws : subseq (remove_fut f ws) ws.
Proof.
  induction ws as [|[t' f'] r IH]; cbn; [apply ss_nil|].
  destruct (Nat.eqb f' f); [apply subseq_tl | apply ss_take, IH].
Qed.

Lemma in_remove_fut_other f ws t' f' : In (t', f') ws -> f' <> f -> In (t', f') (remove_fut f ws).
Proof.
  induction ws as [|[t0 f0] r IH]; cbn; [tauto|]. intros [H|H] Hne.
  - injection H as -> ->. destruct (Nat.eqb_spec f' f); [contradiction|now left].
  - destruct (Nat.eqb f0 f); [exact H|right; apply IH; assumption].
Qed.

Lemma remove_fut_gone t f ws :
  NoDup (map fst ws) -> (forall t' f', In (t', f') ws -> (f' = f <-> t' = t)) ->
  ~ In t (map fst (remove_fut f ws)).
Proof.
  induction ws as [|[t0 f0] r IH]; cbn; intros Hn Hf; [tauto|].
  inversion Hn as [|y l Hy Hl]; subst.
  destruct (Nat.eqb_spec f0 f) as [->|Hne].
  - assert (t0 = t) by (apply (Hf t0 f); [now left|reflexivity]). subst. exact Hy.
  - cbn. intros [H|H].
    + subst t0. apply Hne. apply (Hf t f0); [now left|reflexivity].
    + revert H. apply IH; [exact Hl|]. intros t' f' Hin. apply Hf. now right.
Qed.

Lemma handoff_spec ws fu :
  match handoff ws fu with
  | (None, ws', fu') => ws' = [] /\ fu' = fu /\ (forall t f, In (t, f) ws -> fu f = FCancelled)
  | (Some w, ws', fu') =>
      exists pre f, ws = pre ++ (w, f) :: ws' /\ fu f <> FCancelled /\ fu' = upd fu f FSet /\
                    (forall t' f', In (t', f') pre -> fu f' = FCancelled)
  end.
Proof.
  induction ws as [|[t f] r IH]; cbn.
  - refine (conj eq_refl (conj eq_refl _)). intros ? ? [].
  - destruct (fu f) eqn:Ef.
    + exists [], f. cbn. refine (conj eq_refl (conj _ (conj eq_refl _))); [congruence|intros ? ? []].
    + exists [], f. cbn. refine (conj eq_refl (conj _ (conj eq_refl _))); [congruence|intros ? ? []].
    + destruct (handoff r fu) as [[o ws'] fu']. destruct o as [w|].
      * destruct IH as (pre & f0 & E & Hf & Hu & Hp). exists ((t, f) :: pre), f0.
        subst r. cbn. refine (conj eq_refl (conj Hf (conj Hu _))).
        intros t' f' [H|H]; [congruence|eauto].
      * destruct IH as (E1 & E2 & Hp). refine (conj E1 (conj E2 _)).
        intros t' f' [H|H]; [congruence|eauto].
Qed.

(* a permit is reserved for t although its acquire() has not returned yet *)
Definition resv_phase (s : st) (t : tid) : Prop :=
  phase_of s t = FastYield \/ exists f, phase_of s t = Waiting f /\ futs s f = FSet.

Record Struct (s : st) : Prop := {
  S_pos : value s = 0 \/ waiters s = [];
  S_infl : forall t, In t (infl s) <-> resv_phase s t;
  S_inflnd : NoDup (infl s);
  S_w : forall t f, In (t, f) (waiters s) -> phase_of s t = Waiting f /\ futs s f <> FSet;
  S_pend : forall t f, phase_of s t = Waiting f -> futs s f = FPending -> In (t, f) (waiters s);
  S_fresh : forall t f, phase_of s t = Waiting f -> f < nfut s;
  S_inj : forall t1 t2 f, phase_of s t1 = Waiting f -> phase_of s t2 = Waiting f -> t1 = t2;
  S_nd : NoDup (map fst (waiters s));
  S_fifo : subseq (waiters s) (enq s)
}.

(* k = number of permits "in the hands of the running segment" (0 between steps) *)
Record Arith (k : nat) (s : st) : Prop := {
  A_cons : value s + length (held s) + length (infl s) + dropped s + k = init0 s + extra s;
  A_le : forall m, maxv s = Some m -> value s <= m /\ init0 s <= m;
  A_drop : dropped s <= extra s;
  A_nomax : maxv s = None -> dropped s = 0
}.

Record Inv (s : st) : Prop := {
  I_struct : Struct s;
  I_arith : Arith 0 s
}.

Definition max_ok (iv : nat) (mx : option nat) : Prop :=
  match mx with Some m => iv <= m | None => True end.

(* the queue clauses S_w .. S_nd are those of WaitQueue.WQ, resv_phase is WaitQueue.ready *)
Lemma sem_tags : Tags FastYield Waiting FPending FSet FCancelled.
Proof. split; congruence. Qed.

Definition queue_ok (s : st) : Prop :=
  WQ (W := Waiting) (FP := FPending) (FS := FSet) (phase_of s) (futs s) (nfut s) (waiters s).

Lemma struct_queue s : Struct s -> queue_ok s.
Proof. intros St. destruct St. constructor; assumption. Qed.

Lemma struct_intro s :
  value s = 0 \/ waiters s = [] ->
  (forall t, In t (infl s) <-> ready (Yld := FastYield) (W := Waiting) (FS := FSet) (phase_of s) (futs s) t) ->
  NoDup (infl s) -> queue_ok s -> subseq (waiters s) (enq s) -> Struct s.
Proof. intros H1 H2 H3 Q H4. destruct Q. constructor; assumption. Qed.

Lemma inv_init fa iv mx : max_ok iv mx -> Inv (init fa iv mx).
Proof.
  intros Hm. constructor; [apply struct_intro|constructor]; cbn; try lia.
  - now right.
  - intros t. split; [intros []|]. intros [H|(f & H & _)]; discriminate.
  - constructor.
  - constructor; cbn; try discriminate; try contradiction. constructor.
  - apply ss_nil.
  - intros m ->. cbn in Hm. lia.
Qed.

Ltac prj := cbn [fast maxv value waiters futs nfut phase_of mustc init0 held infl extra dropped enq
                 leave add_held set_held set_dropped set_extra set_mustc] in *.

Lemma is_idle_true p : is_idle p = true <-> p = Idle.
Proof. destruct p; cbn; split; congruence. Qed.

(* ghost components the structural part does not mention *)
Lemma struct_ghost s mc h e d :
  Struct s ->
  Struct (mk (fast s) (maxv s) (value s) (waiters s) (futs s) (nfut s) (phase_of s) mc
             (init0 s) h (infl s) e d (enq s)).
Proof. intros St. destruct St. constructor; cbn; assumption. Qed.

(* Naming: foo_S = update foo keeps Struct, foo_A = what foo does to Arith k.  A wake-up is `leave` (the reserved permit
   is no longer accounted to a waiter: Arith 0 -> Arith 1) followed by add_held, rel_core or a drop (Arith 1 -> Arith 0). *)
Lemma take_S s v h fa :
  Struct s -> waiters s = [] ->
  Struct (mk fa (maxv s) v [] (futs s) (nfut s) (phase_of s) (mustc s)
             (init0 s) h (infl s) (extra s) (dropped s) (enq s)).
Proof.
  intros St Hw. apply struct_intro; cbn; [now right|apply (S_infl s St)|apply (S_inflnd s St)| |apply subseq_nil_l].
  unfold queue_ok; cbn. rewrite <- Hw. apply (struct_queue s St).
Qed.

Lemma nowait_S s v h :
  Struct s -> value s = S v ->
  Struct (mk (fast s) (maxv s) v (waiters s) (futs s) (nfut s) (phase_of s) (mustc s)
             (init0 s) h (infl s) (extra s) (dropped s) (enq s)).
Proof.
  intros St Hv. destruct St. constructor; cbn; try assumption.
  destruct S_pos0 as [H|H]; [lia|now right].
Qed.

Lemma take_yield_S s v t fa :
  Struct s -> waiters s = [] -> phase_of s t = Idle ->
  Struct (mk fa (maxv s) v [] (futs s) (nfut s) (upd (phase_of s) t FastYield) (mustc s)
             (init0 s) (held s) (t :: infl s) (extra s) (dropped s) (enq s)).
Proof.
  intros St Hw Hp. apply struct_intro; cbn; [now right| | | |apply subseq_nil_l].
  - intros x. rewrite ready_yield, <- (S_infl s St x). split; (intros [H|H]; [left; congruence|now right]).
  - constructor; [|apply (S_inflnd s St)]. intros H. apply (S_infl s St) in H. destruct H as [H|(f & H & _)]; congruence.
  - unfold queue_ok; cbn. rewrite <- Hw. apply WQ_phase; [apply (struct_queue s St)|discriminate|].
    rewrite Hw. intros f [].
Qed.

Lemma enqueue_S s t :
  Struct s -> phase_of s t = Idle -> value s = 0 ->
  Struct (mk (fast s) (maxv s) (value s) (waiters s ++ [(t, nfut s)]) (upd (futs s) (nfut s) FPending)
             (S (nfut s)) (upd (phase_of s) t (Waiting (nfut s))) (mustc s)
             (init0 s) (held s) (infl s) (extra s) (dropped s) (enq s ++ [(t, nfut s)])).
Proof.
  intros St Hp Hv. pose proof (struct_queue s St) as Q.
  assert (Hnw : forall f, phase_of s t <> Waiting f) by congruence.
  assert (Hny : phase_of s t <> FastYield) by congruence.
  apply struct_intro; cbn.
  - now left.
  - intros x. rewrite (ready_enqueue sem_tags _ _ _ _ t x Q Hnw Hny). apply (S_infl s St).
  - apply (S_inflnd s St).
  - apply (WQ_enqueue sem_tags _ _ _ _ t Q Hnw).
  - apply subseq_app_tail, (S_fifo s St).
Qed.

(* rel_core with the three results of the pop loop as projections: rewriting with this equation instead of unfolding
   rel_core keeps the `let` on the triple out of goals in which rel_core s stands under several projections *)
Lemma rel_core_eq s : rel_core s =
  mk (fast s) (maxv s) (match fst (fst (handoff (waiters s) (futs s))) with Some _ => value s | None => S (value s) end)
     (snd (fst (handoff (waiters s) (futs s)))) (snd (handoff (waiters s) (futs s))) (nfut s) (phase_of s) (mustc s)
     (init0 s) (held s)
     (match fst (fst (handoff (waiters s) (futs s))) with Some w => w :: infl s | None => infl s end)
     (extra s) (dropped s) (enq s).
Proof. unfold rel_core. destruct (handoff (waiters s) (futs s)) as [[[w|] ws] fu]; reflexivity. Qed.

Lemma rel_core_S s : Struct s -> Struct (rel_core s).
Proof.
  intros St. pose proof (struct_queue s St) as Q. unfold queue_ok in Q.
  rewrite rel_core_eq. pose proof (handoff_spec (waiters s) (futs s)) as HS.
  destruct (handoff (waiters s) (futs s)) as [[[w|] ws'] fu']; cbn [fst snd].
  - destruct HS as (pre & f & Ews & _ & -> & Hpre). rewrite Ews in Q.
    pose proof (WQ_skip sem_tags _ _ _ _ _ Q Hpre) as Q1.
    assert (Hwr : ~ In w (infl s)).
    { intros H. apply (S_infl s St) in H. destruct (q_w _ _ _ _ Q1 w f (or_introl eq_refl)) as [Hw Hf].
      destruct H as [H|(g & H & Hg)]; congruence. }
    apply struct_intro; cbn.
    + left. destruct (S_pos s St) as [H|H]; [exact H|]. rewrite H in Ews. now destruct pre.
    + intros x. rewrite (ready_grant _ _ _ _ _ _ x Q1), <- (S_infl s St x). split; (intros [H|H]; [left; congruence|now right]).
    + constructor; [exact Hwr|apply (S_inflnd s St)].
    + exact (WQ_grant sem_tags _ _ _ _ _ _ Q1).
    + eapply subseq_trans; [|apply (S_fifo s St)]. rewrite Ews.
      change (pre ++ (w, f) :: ws') with (pre ++ [(w, f)] ++ ws'). rewrite app_assoc. apply subseq_suffix.
  - destruct HS as (-> & -> & Hall). rewrite <- (app_nil_r (waiters s)) in Q.
    apply struct_intro; cbn; [now right|apply (S_infl s St)|apply (S_inflnd s St)| |apply subseq_nil_l].
    exact (WQ_skip sem_tags _ _ _ _ _ Q Hall).
Qed.

Lemma at_max_false s : at_max s = false -> forall m, maxv s = Some m -> value s <> m.
Proof.
  unfold at_max. intros H m E. rewrite E in H. intros Hv. rewrite Hv, Nat.eqb_refl in H. discriminate.
Qed.

Lemma at_max_true s : at_max s = true -> maxv s = Some (value s).
Proof.
  unfold at_max. destruct (maxv s) as [m|]; [|discriminate]. intros H. apply Nat.eqb_eq in H. now subst.
Qed.

Lemma rel_core_A s : Arith 1 s -> at_max s = false -> Arith 0 (rel_core s).
Proof.
  intros A Hm. pose proof (at_max_false s Hm) as Hne. destruct A as [Hc Hle Hd Hn].
  rewrite rel_core_eq. destruct (fst (fst (handoff (waiters s) (futs s)))) as [w|].
  - constructor; cbn; [lia|exact Hle|exact Hd|exact Hn].
  - constructor; cbn; [lia| |exact Hd|exact Hn].
    intros m E. destruct (Hle m E). specialize (Hne m E). lia.
Qed.

Lemma rel_core_set_held s h : rel_core (set_held s h) = set_held (rel_core s) h.
Proof. rewrite !rel_core_eq. reflexivity. Qed.

Lemma rel_core_set_extra s n : rel_core (set_extra s n) = set_extra (rel_core s) n.
Proof. rewrite !rel_core_eq. reflexivity. Qed.

Lemma cancel_fut_S s t f :
  Struct s -> phase_of s t = Waiting f -> futs s f = FPending ->
  Struct (mk (fast s) (maxv s) (value s) (waiters s) (upd (futs s) f FCancelled) (nfut s) (phase_of s) (mustc s)
             (init0 s) (held s) (infl s) (extra s) (dropped s) (enq s)).
Proof.
  intros St Hp Hf. apply struct_intro; cbn; try apply St.
  - intros x. rewrite (ready_cancel sem_tags); [apply (S_infl s St)|congruence].
  - apply (WQ_cancel sem_tags), (struct_queue s St).
Qed.

(* t stops waiting or yielding: phase p (neither), its reservation - if it had one - ended, its entry - if it had one -
   gone from the queue *)
Lemma leave_to_S s t p mc ws' :
  Struct s -> (forall f, p <> Waiting f) -> p <> FastYield ->
  (forall x f, In (x, f) ws' -> In (x, f) (waiters s) /\ x <> t) ->
  (forall x f, In (x, f) (waiters s) -> x <> t -> In (x, f) ws') -> subseq ws' (waiters s) ->
  Struct (mk (fast s) (maxv s) (value s) ws' (futs s) (nfut s) (upd (phase_of s) t p) mc
             (init0 s) (held s) (remove_one t (infl s)) (extra s) (dropped s) (enq s)).
Proof.
  intros St Hp Hy Hsub Hsup Hss. apply struct_intro; cbn.
  - destruct (S_pos s St) as [H|H]; [now left|right]. rewrite H in Hss. now inversion Hss.
  - intros x. rewrite (ready_leave _ _ t p x Hp Hy), (in_remove_one t x (infl s) (S_inflnd s St)), (S_infl s St x).
    tauto.
  - apply nodup_remove_one, (S_inflnd s St).
  - apply (WQ_leave _ _ _ (waiters s)); auto; [apply (struct_queue s St)|].
    eapply subseq_nodup; [apply subseq_map, Hss|apply (S_nd s St)].
  - eapply subseq_trans; [exact Hss|apply (S_fifo s St)].
Qed.

(* a task without an entry in the queue: it does not wait, or its future is resolved *)
Lemma phase_to_S s t p mc :
  Struct s -> (forall f, p <> Waiting f) -> p <> FastYield ->
  (forall f, phase_of s t = Waiting f -> futs s f = FSet) ->
  Struct (mk (fast s) (maxv s) (value s) (waiters s) (futs s) (nfut s) (upd (phase_of s) t p) mc
             (init0 s) (held s) (remove_one t (infl s)) (extra s) (dropped s) (enq s)).
Proof.
  intros St Hp Hy Hn. pose proof (not_queued _ _ _ _ t (struct_queue s St) Hn) as Hnq.
  apply leave_to_S; auto; [|apply subseq_refl]. intros x f H. split; [exact H|]. intros ->. exact (Hnq f H).
Qed.

Lemma leave_S s t : Struct s -> resv_phase s t -> Struct (leave s t).
Proof.
  intros St Hr. apply phase_to_S; [exact St|discriminate..|].
  intros f Hf. destruct Hr as [H|(g & H & Hg)]; congruence.
Qed.

Lemma leave_A s t : Struct s -> Arith 0 s -> resv_phase s t -> Arith 1 (leave s t).
Proof.
  intros St A Hr. destruct A as [Hc Hle Hd Hn].
  assert (Hin : In t (infl s)) by (apply (S_infl s St); exact Hr).
  pose proof (remove_one_length t (infl s) Hin) as Hl.
  (* tid is nat, but lia does not see through the name *)
  constructor; prj; [unfold tid in *; lia|exact Hle|exact Hd|exact Hn].
Qed.

Lemma add_held_S s t : Struct s -> Struct (add_held s t).
Proof. intros St. unfold add_held, set_held. now apply struct_ghost. Qed.

Lemma add_held_A s t : Arith 1 s -> Arith 0 (add_held s t).
Proof. intros [Hc Hle Hd Hn]. constructor; cbn; [lia|exact Hle|exact Hd|exact Hn]. Qed.

Lemma dropped_A s : Arith 1 s -> at_max s = true -> Arith 0 (set_dropped s (S (dropped s))).
Proof.
  intros [Hc Hle Hd Hn] Hm. apply at_max_true in Hm. destruct (Hle _ Hm) as [_ Hi].
  constructor; cbn; [lia|exact Hle|lia|]. intros E. congruence.
Qed.

Lemma cancel_release_inv s : Struct s -> Arith 1 s -> Inv (fst (cancel_release s)).
Proof.
  intros St A. unfold cancel_release. destruct (at_max s) eqn:Em; cbn [fst].
  - constructor; [unfold set_dropped; now apply struct_ghost|now apply dropped_A].
  - constructor; [now apply rel_core_S|now apply rel_core_A].
Qed.

(* a task whose wait was cancelled has no reservation, and its entry is the one remove_fut takes out *)
Lemma cancelled_not_infl s t f : Struct s -> phase_of s t = Waiting f -> futs s f = FCancelled -> ~ In t (infl s).
Proof. intros St Hp Hf H. apply (S_infl s St) in H. destruct H as [H|(g & H & Hg)]; congruence. Qed.

Lemma cancelled_gone s t f : Struct s -> phase_of s t = Waiting f -> ~ In t (map fst (remove_fut f (waiters s))).
Proof.
  intros St Hp. apply remove_fut_gone; [apply (S_nd s St)|]. intros t' f' H. destruct (S_w s St t' f' H) as [H1 _].
  split; [intros ->; exact (S_inj s St t' t f H1 Hp)|intros ->; congruence].
Qed.

Lemma wake_futcancelled_S s t f :
  Struct s -> phase_of s t = Waiting f -> futs s f = FCancelled ->
  Struct (mk (fast s) (maxv s) (value s) (remove_fut f (waiters s)) (futs s) (nfut s)
             (upd (phase_of s) t Idle) (upd (mustc s) t false)
             (init0 s) (held s) (remove_one t (infl s)) (extra s) (dropped s) (enq s)).
Proof.
  intros St Hp Hf. apply leave_to_S; [exact St|discriminate..| | |apply remove_fut_subseq].
  - intros x g H. split; [exact (subseq_in _ _ _ (remove_fut_subseq f _) H)|].
    intros ->. apply (cancelled_gone s t f St Hp). apply in_map_iff. now exists (t, g).
  - intros x g H Hne. apply in_remove_fut_other; [exact H|]. intros ->. apply Hne.
    destruct (S_w s St x f H) as [H1 _]. exact (S_inj s St x t f H1 Hp).
Qed.

Lemma arith_same k s s' :
  Arith k s -> value s' = value s -> length (held s') = length (held s) ->
  length (infl s') = length (infl s) -> dropped s' = dropped s -> extra s' = extra s ->
  init0 s' = init0 s -> maxv s' = maxv s -> Arith k s'.
Proof.
  intros [Hc Hle Hd Hn] E1 E2 E3 E4 E5 E6 E7.
  constructor; rewrite ?E1, ?E2, ?E3, ?E4, ?E5, ?E6, ?E7; assumption.
Qed.

(* a permit leaves the value for a task: held or reserved *)
Lemma take_A s s' :
  Arith 0 s -> value s = S (value s') -> length (held s') + length (infl s') = S (length (held s) + length (infl s)) ->
  dropped s' = dropped s -> extra s' = extra s -> init0 s' = init0 s -> maxv s' = maxv s -> Arith 0 s'.
Proof.
  intros [Hc Hle Hd Hn] E1 E2 E3 E4 E5 E6. constructor; rewrite ?E3, ?E4, ?E5, ?E6; [lia| |exact Hd|exact Hn].
  intros m E. destruct (Hle m E). lia.
Qed.

Lemma mustc_irrel s mc :
  Inv s -> Inv (mk (fast s) (maxv s) (value s) (waiters s) (futs s) (nfut s) (phase_of s) mc
                   (init0 s) (held s) (infl s) (extra s) (dropped s) (enq s)).
Proof.
  intros I. constructor; [apply struct_ghost, (I_struct s I)|]. eapply arith_same; [exact (I_arith s I)|..]; reflexivity.
Qed.

(* the cancellation check at the start of acquire(): phases Idle / CkYield touch nothing *)
Definition neutral (p : phase) : Prop := p = Idle \/ p = CkYield.

Lemma neutral_not_infl s t : Struct s -> neutral (phase_of s t) -> ~ In t (infl s).
Proof.
  intros St Hn H. apply (S_infl s St) in H. destruct Hn as [E|E]; destruct H as [H|(f & H & _)]; congruence.
Qed.

Lemma neutral_S s t p mc :
  Struct s -> neutral (phase_of s t) -> neutral p ->
  Struct (mk (fast s) (maxv s) (value s) (waiters s) (futs s) (nfut s) (upd (phase_of s) t p) mc
             (init0 s) (held s) (infl s) (extra s) (dropped s) (enq s)).
Proof.
  intros St Hn Hp. rewrite <- (remove_one_notin t (infl s) (neutral_not_infl s t St Hn)).
  apply phase_to_S; [exact St|destruct Hp; congruence..|]. intros f Hf. destruct Hn; congruence.
Qed.

Lemma set_phase_neutral_inv s t p : Inv s -> neutral (phase_of s t) -> neutral p -> Inv (set_phase s t p).
Proof.
  intros I Hn Hp. constructor; [unfold set_phase; now apply neutral_S; [apply (I_struct s I)|..]|].
  eapply arith_same; [exact (I_arith s I)|..]; reflexivity.
Qed.

Lemma leave_neutral_inv s t : Inv s -> neutral (phase_of s t) -> Inv (leave s t).
Proof.
  intros I Hn. pose proof (I_struct s I) as St. unfold leave.
  rewrite (remove_one_notin t (infl s) (neutral_not_infl s t St Hn)). constructor.
  - apply neutral_S; [exact St|exact Hn|now left].
  - eapply arith_same; [exact (I_arith s I)|..]; reflexivity.
Qed.

Lemma acq_body_inv s t : Inv s -> phase_of s t = Idle -> Inv (fst (acq_body s t)).
Proof.
  intros I Ei. pose proof (I_struct s I) as St. pose proof (I_arith s I) as A. unfold acq_body.
  destruct (value s) as [|v] eqn:Ev.
  - (* value 0: enqueue *)
    assert (HI : Inv (mk (fast s) (maxv s) (value s) (waiters s ++ [(t, nfut s)])
                         (upd (futs s) (nfut s) FPending) (S (nfut s))
                         (upd (phase_of s) t (Waiting (nfut s))) (mustc s) (init0 s) (held s) (infl s)
                         (extra s) (dropped s) (enq s ++ [(t, nfut s)]))).
    { constructor; [apply enqueue_S; auto|]. eapply arith_same; [exact A|..]; reflexivity. }
    rewrite Ev in HI. destruct (waiters s); exact HI.
  - destruct (waiters s) as [|w0 wr] eqn:Ew; [|exfalso; destruct (S_pos s St) as [H|H]; [lia|congruence]].
    destruct (fast s); cbn [fst]; (constructor; [|apply (take_A s); cbn; auto; lia]);
      [apply take_S|apply take_yield_S]; auto.
Qed.

Lemma step_inv s o : Inv s -> Inv (fst (step s o)).
Proof.
  intros I. pose proof (I_struct s I) as St. pose proof (I_arith s I) as A.
  (* the wake-up of a task for which a permit is reserved *)
  assert (Hrdy : forall t, resv_phase s t ->
            Inv (fst (if mustc s t then cancel_release (leave s t) else (add_held (leave s t) t, RDone)))).
  { intros t Hr. destruct (mustc s t); [apply cancel_release_inv; [now apply leave_S|now apply leave_A]|].
    constructor; [apply add_held_S; now apply leave_S|apply add_held_A; now apply leave_A]. }
  destruct o as [t|t|t|t|t|t|t]; cbn [step].
  - (* AcqBegin *)
    destruct (is_idle (phase_of s t)) eqn:Ei; cbn [negb fst]; [|exact I].
    apply is_idle_true in Ei. now apply acq_body_inv.
  - (* AcqNowait *)
    destruct (is_idle (phase_of s t)) eqn:Ei; cbn [negb fst]; [|exact I].
    destruct (value s) as [|v] eqn:Ev; cbn [fst]; [exact I|].
    constructor; [now apply nowait_S | apply (take_A s); cbn; auto; lia].
  - (* Release *)
    destruct (is_idle (phase_of s t)) eqn:Ei; cbn [negb fst]; [|exact I].
    destruct (at_max s) eqn:Em; cbn [fst]; [exact I|].
    destruct A as [Hc Hle Hd Hn]. destruct (mem t (held s)) eqn:Eh; cbn [fst].
    + apply mem_In in Eh. pose proof (remove_one_length t (held s) Eh) as Hl.
      rewrite <- rel_core_set_held. constructor; [apply rel_core_S; unfold set_held; now apply struct_ghost|].
      apply rel_core_A; [|exact Em]. constructor; prj; [unfold tid in *; lia|exact Hle|exact Hd|exact Hn].
    + rewrite <- rel_core_set_extra. constructor; [apply rel_core_S; unfold set_extra; now apply struct_ghost|].
      apply rel_core_A; [|exact Em]. constructor; prj; [unfold tid in *; lia|exact Hle|lia|exact Hn].
  - (* Resume *)
    destruct (phase_of s t) as [| |f|] eqn:Ep; [exact I|apply Hrdy; now left| |].
    + destruct (futs s f) eqn:Ef; [exact I|apply Hrdy; right; eauto|].
      cbn [fst leave fast maxv value waiters futs nfut phase_of mustc init0 held infl extra dropped enq].
      constructor; [now apply wake_futcancelled_S|].
      eapply arith_same; [exact A|..]; cbn; try reflexivity.
      now rewrite (remove_one_notin t (infl s) (cancelled_not_infl s t f St Ep Ef)).
    + destruct (mustc s t); cbn [fst]; [|exact I]. apply leave_neutral_inv; [exact I|right; exact Ep].
  - (* Cancel *)
    destruct (phase_of s t) as [| |f|] eqn:Ep; [exact I|apply mustc_irrel, I| |apply mustc_irrel, I].
    destruct (futs s f) eqn:Ef; [|apply mustc_irrel, I..]. cbn [fst].
    constructor; [now apply (cancel_fut_S s t f)|]. eapply arith_same; [exact A|..]; reflexivity.
  - (* AcqBeginC *)
    destruct (is_idle (phase_of s t)) eqn:Ei; cbn [negb fst]; [|exact I].
    apply is_idle_true in Ei. apply set_phase_neutral_inv; [exact I|left; exact Ei|now right].
  - (* CkPass *)
    destruct (phase_of s t) as [| |f|] eqn:Ep; try exact I.
    assert (IL : Inv (leave s t)) by (apply leave_neutral_inv; [exact I|right; exact Ep]).
    destruct (mustc s t); cbn [fst]; [exact IL|].
    apply acq_body_inv; [exact IL|]. cbn. apply upd_same.
Qed.

Theorem reachable_inv fa iv mx ops : max_ok iv mx -> Inv (final step (init fa iv mx) ops).
Proof. intros Hm. apply final_inv; [apply step_inv|now apply inv_init]. Qed.

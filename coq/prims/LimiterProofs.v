(* Proofs about the CapacityLimiter machine: the cases of one step with their successor states (step_case), an
   invariant of every op sequence (Uinv) and a stronger one conditional on the ghost flag `tainted` (Inv, see
   Limiter.v). *)
From AV Require Import Base C10Defs C10Lib Limiter.
From Coq Require Import Permutation.

Lemma queue_set_fresh q b e : ~ In b (keys q) -> queue_set q b e = q ++ [(b, e)].
Proof.
  induction q as [|[b' e'] r IH]; cbn; intros H; [reflexivity|].
  destruct (Nat.eqb_spec b' b) as [->|Hne]; [exfalso; apply H; now left|].
  f_equal. apply IH. intros H1. apply H. now right.
Qed.

Lemma queue_pop_subseq q b : subseq (queue_pop q b) q.
Proof.
  induction q as [|[b' e'] r IH]; cbn; [apply ss_nil|].
  destruct (Nat.eqb b' b); [apply subseq_tl|apply ss_take, IH].
Qed.

Lemma queue_pop_absent q b : ~ In b (keys q) -> queue_pop q b = q.
Proof.
  induction q as [|[b' e'] r IH]; cbn; intros H; [reflexivity|].
  destruct (Nat.eqb_spec b' b) as [->|Hne]; [exfalso; apply H; now left|].
  f_equal. apply IH. intros H1. apply H. now right.
Qed.

Lemma in_queue_pop_other q b b' e' : In (b', e') q -> b' <> b -> In (b', e') (queue_pop q b).
Proof.
  induction q as [|[b0 e0] r IH]; cbn; [tauto|]. intros [H|H] Hne.
  - injection H as -> ->. destruct (Nat.eqb_spec b' b); [contradiction|now left].
  - destruct (Nat.eqb b0 b); [exact H|right; apply IH; assumption].
Qed.

Lemma queue_pop_gone q b : NoDup (keys q) -> ~ In b (keys (queue_pop q b)).
Proof.
  induction q as [|[b0 e0] r IH]; cbn; intros Hn; [tauto|].
  inversion Hn as [|y l Hy Hl]; subst.
  destruct (Nat.eqb_spec b0 b) as [->|Hne]; [exact Hy|].
  cbn. intros [H|H]; [contradiction|]. now apply IH.
Qed.

Lemma in_keys b e q : In (b, e) q -> In b (keys q).
Proof. intros H. unfold keys. apply in_map_iff. exists (b, e). split; [reflexivity|exact H]. Qed.

Lemma set_add_new b l : ~ In b l -> set_add b l = b :: l.
Proof. intros H. unfold set_add. apply mem_false in H. now rewrite H. Qed.

Lemma is_idle_true p : is_idle p = true <-> p = Idle.
Proof. destruct p; cbn; split; congruence. Qed.

Lemma is_nil_true {A} (l : list A) : is_nil l = true <-> l = [].
Proof. destruct l; cbn; split; congruence. Qed.

Lemma free_false bs tot : free bs tot = false -> exists m, tot = Some m /\ m <= length bs.
Proof.
  unfold free. destruct tot as [m|]; [|discriminate]. intros H. exists m. split; [reflexivity|].
  apply Nat.ltb_ge in H. exact H.
Qed.

Lemma free_true bs m : free bs (Some m) = true -> length bs < m.
Proof. unfold free. intros H. now apply Nat.ltb_lt in H. Qed.

Lemma busy_false s : busy s = false -> queue s = [] /\ free (borrowers s) (total s) = true.
Proof.
  unfold busy. intros H. apply orb_false_elim in H. destruct H as [Hq Hf].
  split; [now apply is_nil_true, negb_false_iff|now apply negb_false_iff].
Qed.

Lemma busy_true s : busy s = true -> queue s <> [] \/ free (borrowers s) (total s) = false.
Proof.
  unfold busy. intros H. apply orb_prop in H. destruct H as [Hq|Hf]; [left|right; now apply negb_true_iff].
  intros E. rewrite E in Hq. discriminate.
Qed.

Lemma with_tok_id s : with_tok s (borrowers s) (queue s) (evset s) (resv s) = s.
Proof. destruct s; reflexivity. Qed.

(* _notify_next_waiter: nothing, or the HEAD of the queue gets a token that is free *)
Lemma notify_cases s :
  notify_next s = s \/
  exists b e r, queue s = (b, e) :: r /\ free (borrowers s) (total s) = true /\
                notify_next s = with_tok s (set_add b (borrowers s)) r (upd (evset s) e true) (b :: resv s).
Proof.
  unfold notify_next. destruct (queue s) as [|[b e] r]; [now left|].
  destruct (free (borrowers s) (total s)); [|now left]. right. exists b, e, r. auto.
Qed.

(* rewrite with it once: the right-hand side mentions notify_next s again *)
Lemma notify_frame s :
  notify_next s =
  with_tok s (borrowers (notify_next s)) (queue (notify_next s)) (evset (notify_next s)) (resv (notify_next s)).
Proof. destruct (notify_cases s) as [->|(b & e & r & _ & _ & ->)]; [now rewrite with_tok_id|reflexivity]. Qed.

Lemma give_back_fields_p s b : total (give_back s b) = total s.
Proof. unfold give_back. now rewrite notify_frame. Qed.

Definition set_tot (s : st) (v : option nat) : st :=
  mk v (borrowers s) (queue s) (evset s) (nev s) (phase_of s) (fcanc s) (mustc s)
     (held s) (resv s) (arrivals s) (tainted s).

Lemma set_total_frame s v :
  set_total s v =
  with_tok (set_tot s v) (borrowers (set_total s v)) (queue (set_total s v)) (evset (set_total s v))
           (resv (set_total s v)).
Proof. unfold set_total. destruct (wake_free _ _ _ _ _) as [[[q' bs'] ev'] rv']. reflexivity. Qed.

(* ghost updates commute with _notify_next_waiter *)
Lemma relon_eq s b :
  let s1 := give_back s b in
  mk (total s1) (borrowers s1) (queue s1) (evset s1) (nev s1) (phase_of s1) (fcanc s1) (mustc s1)
     (remove_one b (held s1)) (resv s1) (arrivals s1) (tainted s1 || mem b (resv s)) =
  notify_next (mk (total s) (remove_one b (borrowers s)) (queue s) (evset s) (nev s) (phase_of s) (fcanc s)
                  (mustc s) (remove_one b (held s)) (resv s) (arrivals s) (tainted s || mem b (resv s))).
Proof.
  unfold give_back, notify_next. cbn [queue borrowers total with_tok].
  destruct (queue s) as [|[b' e'] r]; [reflexivity|].
  destruct (free (remove_one b (borrowers s)) (total s)); reflexivity.
Qed.

Lemma taint_notify s c : taint (notify_next s) c = notify_next (taint s c).
Proof.
  destruct s as [tot bs q ev ne ph fc mc h rv ar tn]. unfold notify_next, taint; cbn.
  destruct q as [|[b' e'] r]; [reflexivity|]. destruct (free bs tot); reflexivity.
Qed.

(* a property that survives the grant of a free token to the head of the queue survives _notify_next_waiter and
   the loop of the total_tokens setter, which stops only when no token is free *)
Definition grant_closed (P : st -> Prop) : Prop :=
  forall s bs b e r ev rv, free bs (total s) = true ->
    P (with_tok s bs ((b, e) :: r) ev rv) -> P (with_tok s (set_add b bs) r (upd ev e true) (b :: rv)).

Lemma notify_closed P s : grant_closed P -> P s -> P (notify_next s).
Proof.
  intros G H. destruct (notify_cases s) as [->|(b & e & r & Eq & Ef & ->)]; [exact H|].
  apply G; [exact Ef|]. now rewrite <- Eq, with_tok_id.
Qed.

Lemma wake_free_closed P s : grant_closed P -> forall q bs ev rv, P (with_tok s bs q ev rv) ->
  match wake_free (total s) q bs ev rv with
  | (q', bs', ev', rv') => P (with_tok s bs' q' ev' rv') /\ (q' <> [] -> free bs' (total s) = false)
  end.
Proof.
  intros G. induction q as [|[b e] r IH]; intros bs ev rv H; cbn [wake_free].
  - split; [exact H|]. intros E. now contradiction E.
  - destruct (free bs (total s)) eqn:Ef; [now apply IH, G|]. split; [exact H|]. intros _. exact Ef.
Qed.

Lemma set_total_closed P s v : grant_closed P -> P (set_tot s v) ->
  P (set_total s v) /\ (queue (set_total s v) <> [] -> free (borrowers (set_total s v)) v = false).
Proof.
  intros G H. rewrite <- (with_tok_id (set_tot s v)) in H.
  apply (wake_free_closed P (set_tot s v) G) in H. unfold set_total. cbn [total queue borrowers evset resv set_tot] in H.
  destruct (wake_free _ _ _ _ _) as [[[q' bs'] ev'] rv']. exact H.
Qed.

(* task t owns a token for b although its acquire call has not returned *)
Definition resv_phase (s : st) (t : tid) (b : bid) : Prop :=
  phase_of s t = FastYield b \/ exists e, phase_of s t = Waiting b e /\ evset s e = true.

(* task t is inside an acquire call for b *)
Definition inprog (s : st) (t : tid) (b : bid) : Prop :=
  phase_of s t = FastYield b \/ exists e, phase_of s t = Waiting b e.

Record Core (s : st) : Prop := {
  L_bnd : NoDup (borrowers s);
  L_split : forall b, In b (borrowers s) <-> In b (held s) \/ In b (resv s);
  L_hnd : NoDup (held s);
  L_rnd : NoDup (resv s);
  L_disj : forall b, In b (held s) -> ~ In b (resv s);
  L_resv : forall b, In b (resv s) <-> exists t, resv_phase s t b;
  L_q : forall b e, In (b, e) (queue s) <-> (exists t, phase_of s t = Waiting b e) /\ evset s e = false;
  L_qnd : NoDup (keys (queue s));
  L_qb : forall b, In b (keys (queue s)) -> ~ In b (borrowers s);
  L_uniq : forall t1 t2 b, inprog s t1 b -> inprog s t2 b -> t1 = t2;
  L_efresh : forall t b e, phase_of s t = Waiting b e -> e < nev s;
  L_einj : forall t1 t2 b1 b2 e, phase_of s t1 = Waiting b1 e -> phase_of s t2 = Waiting b2 e -> t1 = t2;
  L_fifo : subseq (queue s) (arrivals s)
}.

(* at most k tokens are free while somebody queues.  k = 0 between steps; inside a step remove_one frees at most one
   token (k = 1), and notify_next hands it to the head of the queue, which restores k = 0 (notify_nofree) *)
Definition NoFreeK (k : nat) (s : st) : Prop :=
  queue s <> [] -> match total s with None => False | Some m => m <= length (borrowers s) + k end.

Record Inv0 (s : st) : Prop := {
  I_core : Core s;
  I_nofree : NoFreeK 0 s
}.

Definition Inv (s : st) : Prop := tainted s = false -> Inv0 s.

(* 
   An invariant that holds in EVERY reachable state, also after the misuse O2 (no `tainted` hypothesis):
   borrowers duplicate-free, at most one wait-queue slot per borrower, queued borrowers hold no token,
   the queue is in arrival order, and no token is free while somebody queues.
 *)
Record Ucore (s : st) : Prop := {
  U_bnd : NoDup (borrowers s);
  U_qnd : NoDup (keys (queue s));
  U_qb : forall b, In b (keys (queue s)) -> ~ In b (borrowers s);
  U_fifo : subseq (queue s) (arrivals s)
}.

Record Uinv (s : st) : Prop := {
  U_core : Ucore s;
  U_nofree : NoFreeK 0 s
}.

(* the clauses about the phases alone *)
Definition Phases (s : st) : Prop :=
  (forall t1 t2 b, inprog s t1 b -> inprog s t2 b -> t1 = t2) /\
  (forall t b e, phase_of s t = Waiting b e -> e < nev s) /\
  (forall t1 t2 b1 b2 e, phase_of s t1 = Waiting b1 e -> phase_of s t2 = Waiting b2 e -> t1 = t2).

(* what Core says beyond Ucore: the tokens are accounted for (every borrower holds its token or has it reserved,
   not both), the reservations and the queue are those of the tasks' phases, the phases are well formed *)
Record Gcore (s : st) : Prop := {
  G_acct : Permutation (borrowers s) (held s ++ resv s);
  G_resv : forall b, In b (resv s) <-> exists t, resv_phase s t b;
  G_q : forall b e, In (b, e) (queue s) <-> (exists t, phase_of s t = Waiting b e) /\ evset s e = false;
  G_phases : Phases s
}.

Lemma core_split s : Core s <-> Ucore s /\ Gcore s.
Proof.
  split.
  - intros C. split; constructor; try apply C; [|repeat split; apply C].
    apply NoDup_Permutation; [apply C|apply NoDup_app_disj; apply C|]. intros x. rewrite in_app_iff. apply C.
  - intros [U [A R Q (P1 & P2 & P3)]].
    destruct (NoDup_app_inv _ _ (Permutation_NoDup A (U_bnd _ U))) as (N1 & N2 & D).
    constructor; try apply U; try assumption.
    intros b. rewrite <- in_app_iff. split; apply Permutation_in; [exact A|symmetry; exact A].
Qed.

Lemma core_ucore s : Core s -> Ucore s.
Proof. intros C. now apply core_split. Qed.

(* the shape of one step: the explicit successor of every accepted op *)
Inductive step_case (s : st) : op -> st -> res -> Prop :=
| SC_none o r : r <> RDone -> step_case s o s r
| SC_enqueue t b :
    phase_of s t = Idle -> ~ In b (borrowers s) -> ~ In b (keys (queue s)) ->
    queue s <> [] \/ free (borrowers s) (total s) = false ->
    step_case s (AcqOn t b)
      (mk (total s) (borrowers s) (queue s ++ [(b, nev s)]) (upd (evset s) (nev s) false) (S (nev s))
          (upd (phase_of s) t (Waiting b (nev s))) (upd (fcanc s) t false) (mustc s)
          (held s) (resv s) (arrivals s ++ [(b, nev s)]) (tainted s)) RBlocked
| SC_fast t b :
    phase_of s t = Idle -> ~ In b (borrowers s) -> queue s = [] -> free (borrowers s) (total s) = true ->
    step_case s (AcqOn t b)
      (mk (total s) (b :: borrowers s) (queue s) (evset s) (nev s)
          (upd (phase_of s) t (FastYield b)) (fcanc s) (mustc s)
          (held s) (b :: resv s) (arrivals s) (tainted s)) RBlocked
| SC_nowait t b :
    ~ In b (borrowers s) -> queue s = [] -> free (borrowers s) (total s) = true ->
    step_case s (AcqOnNowait t b)
      (mk (total s) (b :: borrowers s) (queue s) (evset s) (nev s) (phase_of s) (fcanc s) (mustc s)
          (b :: held s) (resv s) (arrivals s) (tainted s)) RDone
| SC_release t b :
    In b (borrowers s) ->
    step_case s (RelOn t b)
      (notify_next (mk (total s) (remove_one b (borrowers s)) (queue s) (evset s) (nev s) (phase_of s)
                       (fcanc s) (mustc s) (remove_one b (held s)) (resv s) (arrivals s)
                       (tainted s || mem b (resv s)))) RDone
| SC_cancel t fc mc :
    step_case s (Cancel t)
      (mk (total s) (borrowers s) (queue s) (evset s) (nev s) (phase_of s) fc mc
          (held s) (resv s) (arrivals s) (tainted s)) RNone
(* acquire returns: the reserved token becomes a held one *)
| SC_return t b :
    resv_phase s t b ->
    step_case s (Resume t) (add_held (leave s t (remove_one b (resv s))) b) RDone
(* the cancelled owner of a reserved token gives it back; q is the queue without a slot of b, if it had one *)
| SC_giveback t b q :
    resv_phase s t b -> q = queue s \/ q = queue_pop (queue s) b ->
    step_case s (Resume t)
      (notify_next (with_tok (leave s t (remove_one b (resv s))) (remove_one b (borrowers s)) q (evset s)
                             (remove_one b (resv s)))) RCancelled
(* the token of the cancelled task was released behind its back (only after O2) *)
| SC_lost t b :
    phase_of s t = FastYield b -> ~ In b (borrowers s) ->
    step_case s (Resume t) (leave s t (remove_one b (resv s))) RRuntime
(* a waiter whose wait was cancelled before a token was granted leaves the queue *)
| SC_dequeue t b e :
    phase_of s t = Waiting b e -> evset s e = false ->
    step_case s (Resume t) (set_queue (leave s t (resv s)) (queue_pop (queue s) b)) RCancelled
| SC_set_total t v : step_case s (SetTotal t v) (set_total s v) RDone.

Lemma step_cases s o : step_case s o (fst (step s o)) (snd (step s o)).
Proof.
  destruct o as [t b|t b|t b|t|t|t v|t k]; unfold step; cbn [step_gen].
  - destruct (is_idle (phase_of s t)) eqn:Ei; cbn [negb]; [apply is_idle_true in Ei|now constructor].
    destruct (mem b (borrowers s)) eqn:Eb; [now constructor|apply mem_false in Eb].
    destruct (busy s) eqn:Ebusy.
    + unfold enq_head. destruct (mem b (keys (queue s))) eqn:Ek; [now constructor|apply mem_false in Ek].
      unfold enqueue. rewrite (queue_set_fresh _ _ _ Ek). apply SC_enqueue; auto using busy_true.
    + apply busy_false in Ebusy. now apply SC_fast.
  - destruct (is_idle (phase_of s t)); cbn [negb]; [|now constructor].
    destruct (mem b (borrowers s)) eqn:Eb; [now constructor|apply mem_false in Eb].
    destruct (busy s) eqn:Ebusy; [now constructor|]. apply busy_false in Ebusy. now apply SC_nowait.
  - destruct (is_idle (phase_of s t)); cbn [negb]; [|now constructor].
    destruct (mem b (borrowers s)) eqn:Eb; cbn [negb]; [apply mem_In in Eb|now constructor].
    cbv zeta. rewrite relon_eq. now apply SC_release.
  - destruct (phase_of s t) as [|b|b e] eqn:Ep; [now constructor| |].
    + destruct (mustc s t); [|apply SC_return; now left].
      unfold fy_cancel. destruct (mem b (borrowers (leave s t (remove_one b (resv s))))) eqn:Eb.
      * apply (SC_giveback s t b (queue s)); [now left|now left].
      * apply mem_false in Eb. now apply SC_lost.
    + destruct (evset s e) eqn:Ee; cbn [negb andb].
      * destruct (fcanc s t || mustc s t); [|apply SC_return; right; eauto].
        apply (SC_giveback s t b (queue_pop (queue s) b)); [right; eauto|now right].
      * destruct (fcanc s t); cbn [negb orb]; [|now constructor]. now apply (SC_dequeue s t b e).
  - destruct (phase_of s t) as [|b|b e]; [now constructor|apply SC_cancel|].
    destruct (negb (evset s e) && negb (fcanc s t)); apply SC_cancel.
  - destruct (is_idle (phase_of s t)); cbn [negb]; [apply SC_set_total|now constructor].
  - destruct (is_idle (phase_of s t)); cbn [negb]; [|now constructor].
    destruct k as [|[|[|k]]]; now constructor.
Qed.

(* the ghost flag only rises *)
Lemma step_case_tainted s o s' r : step_case s o s' r -> tainted s' = false -> tainted s = false.
Proof.
  destruct 1; try rewrite notify_frame; try rewrite set_total_frame; cbn; try tauto.
  intros Ht. now apply orb_false_elim in Ht.
Qed.

Lemma ucore_sub s s0 :
  Ucore s -> subseq (borrowers s0) (borrowers s) -> subseq (queue s0) (queue s) -> arrivals s0 = arrivals s ->
  Ucore s0.
Proof.
  intros C Hb Hq Ha. constructor.
  - eapply subseq_nodup; [exact Hb|apply (U_bnd _ C)].
  - eapply subseq_nodup; [apply (subseq_map fst), Hq|apply (U_qnd _ C)].
  - intros x Hx H. apply (U_qb _ C x); [eapply subseq_in; [apply (subseq_map fst), Hq|exact Hx]|].
    eapply subseq_in; [exact Hb|exact H].
  - rewrite Ha. eapply subseq_trans; [exact Hq|apply (U_fifo _ C)].
Qed.

(* b, which holds no token and no slot of the remaining queue, takes a token *)
Lemma ucore_add s s0 b :
  Ucore s -> ~ In b (borrowers s) -> borrowers s0 = b :: borrowers s ->
  subseq (queue s0) (queue s) -> ~ In b (keys (queue s0)) -> arrivals s0 = arrivals s -> Ucore s0.
Proof.
  intros C Hb Eb Hq Hk Ha. constructor.
  - rewrite Eb. constructor; [exact Hb|apply (U_bnd _ C)].
  - eapply subseq_nodup; [apply (subseq_map fst), Hq|apply (U_qnd _ C)].
  - rewrite Eb. intros x Hx [<-|H]; [contradiction|].
    apply (U_qb _ C x); [eapply subseq_in; [apply (subseq_map fst), Hq|exact Hx]|exact H].
  - rewrite Ha. eapply subseq_trans; [exact Hq|apply (U_fifo _ C)].
Qed.

Lemma grant_ucore : grant_closed Ucore.
Proof.
  intros s bs b e r ev rv _ C.
  assert (Hnb : ~ In b bs) by (apply (U_qb _ C b); now left).
  pose proof (U_qnd _ C) as Hqn. inversion Hqn as [|y l Hy Hl]; subst.
  apply (ucore_add _ _ b C Hnb); [apply set_add_new, Hnb|apply subseq_tl|exact Hy|reflexivity].
Qed.

Lemma nofree_sub k s s0 :
  NoFreeK 0 s -> total s0 = total s -> length (borrowers s) <= length (borrowers s0) + k ->
  (queue s0 <> [] -> queue s <> []) -> NoFreeK k s0.
Proof.
  intros N Et Hl Hq Hq0. specialize (N (Hq Hq0)). rewrite Et. destruct (total s); [lia|exact N].
Qed.

Lemma notify_nofree s :
  (forall b, In b (keys (queue s)) -> ~ In b (borrowers s)) -> NoFreeK 1 s -> NoFreeK 0 (notify_next s).
Proof.
  intros Hqb N. unfold notify_next. destruct (queue s) as [|[b e] r] eqn:Eq.
  - intros H. rewrite Eq in H. now contradiction H.
  - assert (Hnb : ~ In b (borrowers s)) by (apply (Hqb b); cbn; now left).
    destruct (free (borrowers s) (total s)) eqn:Ef.
    + intros _. cbn. rewrite (set_add_new _ _ Hnb). cbn.
      assert (Hq : queue s <> []) by (rewrite Eq; discriminate). specialize (N Hq).
      destruct (total s) as [m|]; [lia|exact N].
    + intros _. apply free_false in Ef. destruct Ef as (m & -> & Hm). lia.
Qed.

(* a state that differs from s by a shorter queue and in components the invariant does not mention *)
Lemma uinv_same s s0 :
  Uinv s -> total s0 = total s -> borrowers s0 = borrowers s -> subseq (queue s0) (queue s) ->
  arrivals s0 = arrivals s -> Uinv s0.
Proof.
  intros [C N] Et Eb Hq Ha. constructor.
  - apply (ucore_sub s); [exact C|rewrite Eb; apply subseq_refl|exact Hq|exact Ha].
  - apply (nofree_sub 0 s); [exact N|exact Et|rewrite Eb; lia|now apply subseq_nonnil].
Qed.

(* borrowers.remove / discard of b (present or not), then _notify_next_waiter *)
Lemma uinv_give_back s s0 b :
  Uinv s -> total s0 = total s -> borrowers s0 = remove_one b (borrowers s) -> subseq (queue s0) (queue s) ->
  arrivals s0 = arrivals s -> Uinv (notify_next s0).
Proof.
  intros [C N] Et Eb Hq Ha.
  assert (C0 : Ucore s0) by (apply (ucore_sub s); [exact C|rewrite Eb; apply remove_one_subseq|exact Hq|exact Ha]).
  constructor; [now apply notify_closed; [apply grant_ucore|]|].
  apply notify_nofree; [apply (U_qb _ C0)|].
  apply (nofree_sub 1 s); [exact N|exact Et| |now apply subseq_nonnil].
  rewrite Eb. pose proof (remove_one_length_le b (borrowers s)). unfold bid in *. lia.
Qed.

Lemma uinv_init v : Uinv (init v).
Proof.
  constructor; [constructor; cbn|].
  - constructor.
  - constructor.
  - intros b [].
  - apply ss_nil.
  - intros H. now contradiction H.
Qed.

Lemma step_uinv s o s' r : step_case s o s' r -> Uinv s -> Uinv s'.
Proof.
  intros K U. pose proof U as [C N].
  destruct K as [o r Hr|t b Hp Hb Hk Hbusy|t b Hp Hb Hq Hf|t b Hb Hq Hf|t b Hb|t fc mc|t b Hr|t b q Hr Hq|t b Hp Hb
                |t b e Hp He|t v].
  - exact U.
  - constructor; [constructor; cbn|].
    + apply (U_bnd _ C).
    + unfold keys. rewrite map_app. apply NoDup_snoc; [apply (U_qnd _ C)|exact Hk].
    + intros x Hx. unfold keys in Hx. rewrite map_app in Hx. apply in_app_or in Hx.
      destruct Hx as [Hx|[<-|[]]]; [now apply (U_qb _ C)|exact Hb].
    + apply subseq_app_tail, (U_fifo _ C).
    + intros _. cbn. destruct Hbusy as [Hq|Hf]; [now apply N|].
      apply free_false in Hf. destruct Hf as (m & -> & Hm). lia.
  - constructor; [|intros H; now contradiction H].
    apply (ucore_add s _ b); cbn; auto using subseq_refl. now rewrite Hq.
  - constructor; [|intros H; now contradiction H].
    apply (ucore_add s _ b); cbn; auto using subseq_refl. now rewrite Hq.
  - now apply (uinv_give_back s _ b); cbn; auto using subseq_refl.
  - now apply (uinv_same s); cbn; auto using subseq_refl.
  - now apply (uinv_same s); cbn; auto using subseq_refl.
  - apply (uinv_give_back s _ b); cbn; auto.
    destruct Hq as [-> | ->]; [apply subseq_refl|apply queue_pop_subseq].
  - now apply (uinv_same s); cbn; auto using subseq_refl.
  - apply (uinv_same s); cbn; auto using queue_pop_subseq.
  - destruct (set_total_closed Ucore s v grant_ucore) as [C' Hf].
    { now apply (ucore_sub s); cbn; auto using subseq_refl. }
    constructor; [exact C'|]. intros Hq. specialize (Hf Hq). rewrite set_total_frame. cbn.
    apply free_false in Hf. destruct Hf as (m & -> & Hm). lia.
Qed.

Theorem reachable_uinv v ops : Uinv (final step (init v) ops).
Proof.
  apply final_inv; [|apply uinv_init]. intros s o. apply (step_uinv _ _ _ _ (step_cases s o)).
Qed.

Lemma inv_init v : Inv (init v).
Proof.
  intros _. constructor; [|apply (U_nofree _ (uinv_init v))].
  apply core_split. split; [apply (U_core _ (uinv_init v))|]. constructor; cbn.
  - apply perm_nil.
  - intros b. split; [intros []|]. intros (t & [H|(e & H & _)]); discriminate.
  - intros b e. split; [intros []|]. intros ((t & H) & _). discriminate.
  - refine (conj _ (conj _ _)).
    + intros t1 t2 b [H|(e & H)]; discriminate.
    + intros t b e H; discriminate.
    + intros t1 t2 b1 b2 e H; discriminate.
Qed.

Lemma resv_phase_fun s t b b' : resv_phase s t b -> inprog s t b' -> b' = b.
Proof.
  intros [H|(e & H & _)] [H'|(e' & H')]; congruence.
Qed.

Lemma resv_inprog s t b : resv_phase s t b -> inprog s t b.
Proof. intros [H|(e & H & _)]; [now left|right; eauto]. Qed.

Lemma resv_facts s t b : Core s -> resv_phase s t b ->
  In b (resv s) /\ In b (borrowers s) /\ ~ In b (held s) /\ ~ In b (keys (queue s)).
Proof.
  intros C Hr. assert (H1 : In b (resv s)) by (apply (L_resv _ C); eauto).
  assert (H2 : In b (borrowers s)) by (apply (L_split _ C); now right).
  refine (conj H1 (conj H2 (conj _ _))).
  - intros H. now apply (L_disj _ C b H).
  - intros H. now apply (L_qb _ C b H).
Qed.

(* nobody is inside an acquire for a borrower that neither holds a token nor queues *)
Lemma not_inprog s b : Core s -> ~ In b (borrowers s) -> ~ In b (keys (queue s)) -> forall x, ~ inprog s x b.
Proof.
  intros C Hb Hk x [H|(e & H)].
  - apply Hb. apply (L_split _ C). right. apply (L_resv _ C). exists x. now left.
  - destruct (evset s e) eqn:Ee.
    + apply Hb. apply (L_split _ C). right. apply (L_resv _ C). exists x. right. eauto.
    + apply Hk. apply (in_keys b e). apply (L_q _ C). split; eauto.
Qed.

(* task t becomes idle *)
Lemma leave_phases s s' t :
  Core s -> (forall x, x <> t -> phase_of s' x = phase_of s x) -> phase_of s' t = Idle -> nev s' = nev s ->
  Phases s'.
Proof.
  intros C Hold Ht Hn.
  assert (Hin : forall x y, inprog s' x y -> x <> t /\ inprog s x y).
  { intros x y H. destruct (Nat.eq_dec x t) as [->|Hne].
    - destruct H as [H|(e & H)]; congruence.
    - split; [exact Hne|]. unfold inprog in *. now rewrite Hold in H. }
  assert (Hw : forall x y e, phase_of s' x = Waiting y e -> phase_of s x = Waiting y e).
  { intros x y e H. destruct (Nat.eq_dec x t) as [->|Hne]; [congruence|]. now rewrite Hold in H. }
  refine (conj _ (conj _ _)).
  - intros t1 t2 y H1 H2. apply Hin in H1, H2. apply (L_uniq _ C t1 t2 y); tauto.
  - intros x y e H. rewrite Hn. apply (L_efresh _ C x y e), Hw, H.
  - intros t1 t2 b1 b2 e H1 H2. apply (L_einj _ C t1 t2 b1 b2 e); now apply Hw.
Qed.

(* the idle task t starts an acquire for b, for which nobody acquires: into the shielded yield, or waiting on the
   fresh event *)
Lemma enter_phases s s' t b :
  Core s -> (forall x, x <> t -> phase_of s' x = phase_of s x) -> (forall x, ~ inprog s x b) ->
  (phase_of s' t = FastYield b /\ nev s' = nev s \/ phase_of s' t = Waiting b (nev s) /\ nev s' = S (nev s)) ->
  Phases s'.
Proof.
  intros C Hold Hno Hnew.
  assert (Hb : forall y, inprog s' t y -> y = b).
  { intros y [H|(e & H)]; destruct Hnew as [[E _]|[E _]]; congruence. }
  assert (Hin : forall x y, x <> t -> inprog s' x y -> inprog s x y).
  { intros x y Hne H. unfold inprog in *. now rewrite Hold in H. }
  assert (Hw : forall y e, phase_of s' t = Waiting y e -> e = nev s).
  { intros y e H. destruct Hnew as [[E _]|[E _]]; congruence. }
  assert (Hn : nev s <= nev s') by (destruct Hnew as [[_ ->]|[_ ->]]; lia).
  refine (conj _ (conj _ _)).
  - intros t1 t2 y H1 H2.
    destruct (Nat.eq_dec t1 t) as [->|Hne1]; destruct (Nat.eq_dec t2 t) as [->|Hne2]; auto.
    + exfalso. rewrite (Hb y H1) in H2. exact (Hno t2 (Hin _ _ Hne2 H2)).
    + exfalso. rewrite (Hb y H2) in H1. exact (Hno t1 (Hin _ _ Hne1 H1)).
    + apply (L_uniq _ C t1 t2 y); now apply Hin.
  - intros x y e H. destruct (Nat.eq_dec x t) as [->|Hne].
    + rewrite (Hw y e H). destruct Hnew as [[E _]|[_ ->]]; [congruence|lia].
    + rewrite Hold in H by assumption. pose proof (L_efresh _ C x y e H). lia.
  - intros t1 t2 b1 b2 e H1 H2.
    destruct (Nat.eq_dec t1 t) as [->|Hne1]; destruct (Nat.eq_dec t2 t) as [->|Hne2]; auto.
    + exfalso. rewrite Hold in H2 by assumption. pose proof (L_efresh _ C _ _ _ H2). rewrite (Hw _ _ H1) in *. lia.
    + exfalso. rewrite Hold in H1 by assumption. pose proof (L_efresh _ C _ _ _ H1). rewrite (Hw _ _ H2) in *. lia.
    + rewrite Hold in H1, H2 by assumption. exact (L_einj _ C _ _ _ _ _ H1 H2).
Qed.

Lemma core_gcore s : Core s -> Gcore s.
Proof. intros C. now apply core_split. Qed.

Lemma core_acct s : Core s -> Permutation (borrowers s) (held s ++ resv s).
Proof. intros C. apply (G_acct _ (core_gcore s C)). Qed.

Lemma core_phases s : Core s -> Phases s.
Proof. intros C. apply (G_phases _ (core_gcore s C)). Qed.

(* components the ghost accounting and the phases do not mention *)
Lemma gcore_irrel s tot fc mc ar tn :
  Gcore s -> Gcore (mk tot (borrowers s) (queue s) (evset s) (nev s) (phase_of s) fc mc (held s) (resv s) ar tn).
Proof. intros []. constructor; assumption. Qed.

(* the accounting when a token is taken away from a holder, returned to the caller, given back *)
Lemma perm_cons_remove b l : In b l -> Permutation l (b :: remove_one b l).
Proof.
  induction l as [|a l IH]; cbn; [tauto|]. destruct (Nat.eqb_spec a b) as [->|Hne]; [reflexivity|].
  intros [H|H]; [contradiction|]. eapply perm_trans; [apply perm_skip, IH, H|apply perm_swap].
Qed.

Lemma acct_release bs h rv b :
  Permutation bs (h ++ rv) -> In b h -> Permutation (remove_one b bs) (remove_one b h ++ rv).
Proof.
  intros A Hh. assert (Hb : In b bs) by (apply (Permutation_in b (Permutation_sym A)), in_or_app; now left).
  apply (Permutation_cons_inv (a := b)).
  eapply perm_trans; [apply Permutation_sym, perm_cons_remove, Hb|].
  eapply perm_trans; [exact A|]. apply (Permutation_app_tail rv (perm_cons_remove b h Hh)).
Qed.

Lemma acct_return (bs : list bid) h rv b :
  Permutation bs (h ++ rv) -> In b rv -> Permutation bs ((b :: h) ++ remove_one b rv).
Proof.
  intros A Hr. eapply perm_trans; [exact A|].
  eapply perm_trans; [apply Permutation_app_head, perm_cons_remove, Hr|]. apply Permutation_sym, Permutation_middle.
Qed.

Lemma acct_give_back bs h rv b :
  Permutation bs (h ++ rv) -> In b rv -> Permutation (remove_one b bs) (h ++ remove_one b rv).
Proof.
  intros A Hr. assert (Hb : In b bs) by (apply (Permutation_in b (Permutation_sym A)), in_or_app; now right).
  apply (Permutation_cons_inv (a := b)).
  eapply perm_trans; [apply Permutation_sym, perm_cons_remove, Hb|]. now apply acct_return.
Qed.

Lemma grant_core : grant_closed Core.
Proof.
  intros s bs b e r ev rv Hf C. apply core_split. split; [now apply grant_ucore, core_ucore|].
  assert (Hq : In (b, e) (queue (with_tok s bs ((b, e) :: r) ev rv))) by (cbn; now left).
  apply (L_q _ C) in Hq. cbn in Hq. destruct Hq as ((t0 & Ht0) & Hev).
  assert (Hnb : ~ In b bs) by (apply (L_qb _ C b); cbn; now left).
  rewrite (set_add_new b bs Hnb).
  pose proof (L_qnd _ C) as Hqn. cbn in Hqn. inversion Hqn as [|y l Hy Hl]; subst.
  pose proof (L_einj _ C) as Hinj. cbn in Hinj.
  constructor; cbn.
  - apply Permutation_cons_app, (core_acct _ C).
  - intros x. pose proof (L_resv _ C x) as H. unfold resv_phase in *; cbn in *. split.
    + intros [<-|Hx].
      * exists t0. right. exists e. split; [exact Ht0|apply upd_same].
      * apply H in Hx. destruct Hx as (t & [Hx|(e' & Hx1 & Hx2)]); exists t; [now left|].
        right. exists e'. split; [exact Hx1|]. rewrite upd_other; [exact Hx2|]. intros ->. congruence.
    + intros (t & [Hx|(e' & Hx1 & Hx2)]).
      * right. apply H. exists t. now left.
      * destruct (Nat.eq_dec e' e) as [->|Hne].
        -- left. assert (t = t0) by (eapply Hinj; eauto). subst. congruence.
        -- rewrite upd_other in Hx2 by assumption. right. apply H. exists t. right. eauto.
  - intros x e'. pose proof (L_q _ C x e') as H. cbn in H. split.
    + intros Hx. destruct (proj1 H (or_intror Hx)) as ((t & Ht) & He). split; [eauto|].
      destruct (Nat.eq_dec e' e) as [->|Hne].
      * exfalso. assert (t = t0) by (eapply Hinj; eauto). subst.
        assert (x = b) by congruence. subst. apply Hy. eapply in_keys; eauto.
      * now rewrite upd_other by assumption.
    + intros (Ht & He). destruct (Nat.eq_dec e' e) as [->|Hne]; [rewrite upd_same in He; discriminate|].
      rewrite upd_other in He by assumption. destruct (proj2 H (conj Ht He)) as [Hx|Hx]; [congruence|exact Hx].
  - exact (core_phases _ C).
Qed.

Lemma enqueue_gcore s t b :
  Core s -> phase_of s t = Idle -> ~ In b (borrowers s) -> ~ In b (keys (queue s)) ->
  Gcore (mk (total s) (borrowers s) (queue s ++ [(b, nev s)]) (upd (evset s) (nev s) false) (S (nev s))
            (upd (phase_of s) t (Waiting b (nev s))) (upd (fcanc s) t false) (mustc s)
            (held s) (resv s) (arrivals s ++ [(b, nev s)]) (tainted s)).
Proof.
  intros C Hp Hb Hk. set (e0 := nev s).
  assert (Hold : forall x, x <> t -> upd (phase_of s) t (Waiting b e0) x = phase_of s x)
    by (intros; now apply upd_other).
  assert (Hev : forall x y e, phase_of s x = Waiting y e -> upd (evset s) e0 false e = evset s e).
  { intros x y e H. apply upd_other. pose proof (L_efresh _ C x y e H). unfold e0. lia. }
  constructor; cbn.
  - exact (core_acct _ C).
  - intros x. rewrite (L_resv _ C x). unfold resv_phase; cbn. split.
    + intros (t' & H). assert (t' <> t) by (intros ->; destruct H as [H|(e & H & _)]; congruence).
      exists t'. rewrite Hold by assumption. destruct H as [H|(e & H1 & H2)]; [now left|].
      right. exists e. split; [exact H1|]. now rewrite (Hev _ _ _ H1).
    + intros (t' & H). destruct (Nat.eq_dec t' t) as [->|Hne].
      * rewrite upd_same in H. destruct H as [H|(e & H1 & H2)]; [discriminate|].
        injection H1 as _ <-. rewrite upd_same in H2. discriminate.
      * rewrite Hold in H by assumption. exists t'. destruct H as [H|(e & H1 & H2)]; [now left|].
        right. exists e. split; [exact H1|]. now rewrite (Hev _ _ _ H1) in H2.
  - intros x e. split.
    + intros H. apply in_app_or in H. destruct H as [H|[H|[]]].
      * apply (L_q _ C) in H. destruct H as ((t' & Ht') & He).
        assert (t' <> t) by (intros ->; congruence).
        split; [exists t'; now rewrite Hold|]. now rewrite (Hev _ _ _ Ht').
      * injection H as <- <-. split; [exists t; apply upd_same|apply upd_same].
    + intros ((t' & Ht') & He). apply in_or_app. destruct (Nat.eq_dec t' t) as [->|Hne].
      * rewrite upd_same in Ht'. injection Ht' as <- <-. right. now left.
      * rewrite Hold in Ht' by assumption. left. rewrite (Hev _ _ _ Ht') in He.
        apply (L_q _ C). split; eauto.
  - apply (enter_phases s _ t b C); [exact Hold|exact (not_inprog s b C Hb Hk)|]. right. split; [apply upd_same|reflexivity].
Qed.

Lemma fast_gcore s t b :
  Core s -> phase_of s t = Idle -> ~ In b (borrowers s) -> ~ In b (keys (queue s)) ->
  Gcore (mk (total s) (b :: borrowers s) (queue s) (evset s) (nev s)
            (upd (phase_of s) t (FastYield b)) (fcanc s) (mustc s)
            (held s) (b :: resv s) (arrivals s) (tainted s)).
Proof.
  intros C Hp Hb Hk.
  assert (Hold : forall x, x <> t -> upd (phase_of s) t (FastYield b) x = phase_of s x)
    by (intros; now apply upd_other).
  constructor; cbn.
  - apply Permutation_cons_app, (core_acct _ C).
  - intros x. unfold resv_phase; cbn. split.
    + intros [<-|Hx].
      * exists t. left. apply upd_same.
      * apply (L_resv _ C) in Hx. destruct Hx as (t' & H).
        assert (t' <> t) by (intros ->; destruct H as [H|(e & H & _)]; congruence).
        exists t'. now rewrite Hold.
    + intros (t' & H). destruct (Nat.eq_dec t' t) as [->|Hne].
      * rewrite upd_same in H. destruct H as [H|(e & H & _)]; [left; congruence|discriminate].
      * rewrite Hold in H by assumption. right. apply (L_resv _ C). eauto.
  - intros x e. rewrite (L_q _ C x e). split.
    + intros ((t' & Ht') & He). split; [|exact He]. exists t'.
      rewrite Hold; [exact Ht'|]. intros ->. congruence.
    + intros ((t' & Ht') & He). split; [|exact He]. destruct (Nat.eq_dec t' t) as [->|Hne].
      * rewrite upd_same in Ht'. discriminate.
      * rewrite Hold in Ht' by assumption. eauto.
  - apply (enter_phases s _ t b C); [exact Hold|exact (not_inprog s b C Hb Hk)|]. left. split; [apply upd_same|reflexivity].
Qed.

Lemma nowait_gcore s b :
  Core s -> ~ In b (borrowers s) ->
  Gcore (mk (total s) (b :: borrowers s) (queue s) (evset s) (nev s) (phase_of s) (fcanc s) (mustc s)
            (b :: held s) (resv s) (arrivals s) (tainted s)).
Proof.
  intros C Hb. constructor; cbn.
  - apply perm_skip, (core_acct _ C).
  - apply (L_resv _ C).
  - apply (L_q _ C).
  - exact (core_phases _ C).
Qed.

(* release by a holder: the state in which _notify_next_waiter runs *)
Lemma relon_gcore s b tn :
  Core s -> In b (held s) ->
  Gcore (mk (total s) (remove_one b (borrowers s)) (queue s) (evset s) (nev s) (phase_of s) (fcanc s) (mustc s)
            (remove_one b (held s)) (resv s) (arrivals s) tn).
Proof.
  intros C Hh. constructor; cbn.
  - apply acct_release; [exact (core_acct _ C)|exact Hh].
  - apply (L_resv _ C).
  - apply (L_q _ C).
  - exact (core_phases _ C).
Qed.

(* a task that owns a reserved token leaves its call: given the accounting of the new state *)
Lemma leave_resv_gcore s t b bs' h' fc mc tn :
  Core s -> resv_phase s t b -> Permutation bs' (h' ++ remove_one b (resv s)) ->
  Gcore (mk (total s) bs' (queue s) (evset s) (nev s) (upd (phase_of s) t Idle) fc mc
            h' (remove_one b (resv s)) (arrivals s) tn).
Proof.
  intros C Hr A.
  assert (Hold : forall x, x <> t -> upd (phase_of s) t Idle x = phase_of s x)
    by (intros; now apply upd_other).
  constructor; cbn.
  - exact A.
  - intros x. rewrite (in_remove_one b x _ (L_rnd _ C)). unfold resv_phase; cbn. split.
    + intros [Hx Hne]. apply (L_resv _ C) in Hx. destruct Hx as (t' & H).
      assert (t' <> t).
      { intros ->. apply Hne. eapply resv_phase_fun; [exact Hr|now apply resv_inprog]. }
      exists t'. now rewrite Hold.
    + intros (t' & H). destruct (Nat.eq_dec t' t) as [->|Hne].
      * rewrite upd_same in H. destruct H as [H|(e & H & _)]; discriminate.
      * rewrite Hold in H by assumption. split; [apply (L_resv _ C); eauto|].
        intros ->. apply Hne. eapply (L_uniq _ C); apply resv_inprog; eauto.
  - intros x e. rewrite (L_q _ C x e). split.
    + intros ((t' & Ht') & He). split; [|exact He]. exists t'. rewrite Hold; [exact Ht'|].
      intros ->. destruct Hr as [Hr|(e' & Hr1 & Hr2)]; [congruence|].
      assert (e' = e) by congruence. subst. congruence.
    + intros ((t' & Ht') & He). split; [|exact He]. destruct (Nat.eq_dec t' t) as [->|Hne].
      * rewrite upd_same in Ht'. discriminate.
      * rewrite Hold in Ht' by assumption. eauto.
  - apply (leave_phases s _ t C); [exact Hold|apply upd_same|reflexivity].
Qed.

Lemma return_gcore s t b :
  Core s -> resv_phase s t b -> Gcore (add_held (leave s t (remove_one b (resv s))) b).
Proof.
  intros C Hr. destruct (resv_facts s t b C Hr) as (H1 & _).
  unfold add_held, leave. cbn. apply leave_resv_gcore; [exact C|exact Hr|]. now apply acct_return; [apply core_acct|].
Qed.

Lemma giveback_gcore s t b :
  Core s -> resv_phase s t b ->
  Gcore (with_tok (leave s t (remove_one b (resv s))) (remove_one b (borrowers s)) (queue s) (evset s)
                  (remove_one b (resv s))).
Proof.
  intros C Hr. destruct (resv_facts s t b C Hr) as (H1 & _).
  unfold with_tok, leave. cbn. apply leave_resv_gcore; [exact C|exact Hr|]. now apply acct_give_back; [apply core_acct|].
Qed.

Lemma dequeue_gcore s t b e :
  Core s -> phase_of s t = Waiting b e -> evset s e = false ->
  Gcore (set_queue (leave s t (resv s)) (queue_pop (queue s) b)).
Proof.
  intros C Hp He.
  assert (Hold : forall x, x <> t -> upd (phase_of s) t Idle x = phase_of s x)
    by (intros; now apply upd_other).
  assert (Hnr : forall x, ~ resv_phase s t x).
  { intros x [H|(e' & H1 & H2)]; [congruence|]. assert (e' = e) by congruence. subst. congruence. }
  constructor; cbn.
  - exact (core_acct _ C).
  - intros x. rewrite (L_resv _ C x). unfold resv_phase; cbn. split.
    + intros (t' & H). assert (t' <> t) by (intros ->; now apply (Hnr x)).
      exists t'. now rewrite Hold.
    + intros (t' & H). destruct (Nat.eq_dec t' t) as [->|Hne].
      * rewrite upd_same in H. destruct H as [H|(e' & H & _)]; discriminate.
      * rewrite Hold in H by assumption. eauto.
  - intros x e'. split.
    + intros H. assert (H' : In (x, e') (queue s)) by (eapply subseq_in; [apply queue_pop_subseq|exact H]).
      apply (L_q _ C) in H'. destruct H' as ((t' & Ht') & He'). split; [|exact He'].
      exists t'. rewrite Hold; [exact Ht'|]. intros ->.
      assert (x = b) by congruence. subst.
      apply (queue_pop_gone (queue s) b (L_qnd _ C)). eapply in_keys; eauto.
    + intros ((t' & Ht') & He'). destruct (Nat.eq_dec t' t) as [->|Hne].
      * rewrite upd_same in Ht'. discriminate.
      * rewrite Hold in Ht' by assumption. apply in_queue_pop_other.
        -- apply (L_q _ C). split; eauto.
        -- intros ->. apply Hne. eapply (L_uniq _ C); right; eauto.
  - apply (leave_phases s _ t C); [exact Hold|apply upd_same|reflexivity].
Qed.

Lemma step_gcore s o s' r : step_case s o s' r -> Core s -> tainted s' = false -> Gcore s'.
Proof.
  intros K C Ht. pose proof (core_ucore s C) as U.
  destruct K as [o r Hr|t b Hp Hb Hk Hbusy|t b Hp Hb Hq Hf|t b Hb Hq Hf|t b Hb|t fc mc|t b Hr|t b q Hr Hq|t b Hp Hb
                |t b e Hp He|t v].
  - now apply core_gcore.
  - now apply enqueue_gcore.
  - apply fast_gcore; auto. rewrite Hq. intros [].
  - now apply nowait_gcore.
  - rewrite notify_frame in Ht. cbn in Ht. apply orb_false_elim in Ht. destruct Ht as [_ Hr]. apply mem_false in Hr.
    assert (Hh : In b (held s)) by (apply (L_split _ C) in Hb; tauto).
    apply core_gcore, notify_closed; [apply grant_core|]. apply core_split. split; [|now apply relon_gcore].
    apply (ucore_sub s); cbn; auto using remove_one_subseq, subseq_refl.
  - now apply gcore_irrel, core_gcore.
  - now apply return_gcore.
  - destruct (resv_facts s t b C Hr) as (_ & _ & _ & Hk).
    assert (q = queue s) as -> by (destruct Hq as [-> | ->]; [reflexivity|now apply queue_pop_absent]).
    apply core_gcore, notify_closed; [apply grant_core|]. apply core_split. split; [|now apply giveback_gcore].
    apply (ucore_sub s); cbn; auto using remove_one_subseq, subseq_refl.
  - exfalso. apply Hb. apply (resv_facts s t b C). now left.
  - now apply (dequeue_gcore s t b e).
  - apply core_gcore, (set_total_closed Core s v grant_core). apply core_split. split.
    + apply (ucore_sub s); cbn; auto using subseq_refl.
    + now apply gcore_irrel, core_gcore.
Qed.

Lemma step_inv s o : Inv s -> Inv (fst (step s o)).
Proof.
  intros I Ht. pose proof (step_cases s o) as K.
  destruct (I (step_case_tainted _ _ _ _ K Ht)) as [C N].
  destruct (step_uinv _ _ _ _ K) as [U' N']; [constructor; [apply core_ucore, C|exact N]|].
  constructor; [|exact N']. apply core_split. split; [exact U'|exact (step_gcore _ _ _ _ K C Ht)].
Qed.

Theorem reachable_inv v ops : Inv (final step (init v) ops).
Proof. apply final_inv; [apply step_inv|apply inv_init]. Qed.

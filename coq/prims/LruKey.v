(* The construction of the cache key: two calls get the same key tuple iff they are equal in the sense of the
   property (same positional values, same keyword names and values in the same order, and - if typed - the same
   types of positional AND keyword values); the model's numeric key identifies exactly these classes. *)
From AV Require Import Base Lru.

Definition same_call (ty : bool) (c1 c2 : calld) : Prop :=
  map av (cpos c1) = map av (cpos c2) /\
  map (fun na => (fst na, av (snd na))) (ckws c1) = map (fun na => (fst na, av (snd na))) (ckws c2) /\
  (ty = true ->
   map aty_of (cpos c1) = map aty_of (cpos c2) /\
   map (fun na => aty_of (snd na)) (ckws c1) = map (fun na => aty_of (snd na)) (ckws c2)).

(* projections of a key tuple *)
Definition vals_of (l : list katom) : list nat := flat_map (fun a => match a with KVal v => [v] | _ => [] end) l.
Definition names_of (l : list katom) : list nat := flat_map (fun a => match a with KName n => [n] | _ => [] end) l.
Definition tys_of (l : list katom) : list aty := flat_map (fun a => match a with KTy t => [t] | _ => [] end) l.

Definition kwpart (kws : list (nat * argv)) : list katom :=
  match kws with
  | [] => []
  | _ => KSep :: flat_map (fun na => [KName (fst na); KVal (av (snd na))]) kws
  end.

Definition kwtys (kws : list (nat * argv)) : list katom :=
  match kws with
  | [] => []
  | _ => KSep :: map (fun na => KTy (aty_of (snd na))) kws
  end.

Lemma make_key_eq ty c :
  make_key ty c = map (fun a => KVal (av a)) (cpos c) ++ kwpart (ckws c) ++
                  (if ty then map (fun a => KTy (aty_of a)) (cpos c) ++ kwtys (ckws c) else []).
Proof. reflexivity. Qed.

Lemma flat_map_map {A B C} (g : B -> list C) (f : A -> B) l : flat_map g (map f l) = flat_map (fun a => g (f a)) l.
Proof. induction l as [|a r IH]; cbn; [reflexivity|]. now rewrite IH. Qed.

Lemma flat_map_single {A B} (f : A -> B) l : flat_map (fun a => [f a]) l = map f l.
Proof. induction l as [|a r IH]; cbn; [reflexivity|]. now rewrite IH. Qed.

Lemma flat_map_nil {A B} (l : list A) : flat_map (fun _ => @nil B) l = [].
Proof. induction l; cbn; auto. Qed.

Lemma flat_map_pairs {A B C} (g : B -> list C) (f1 f2 : A -> B) l :
  flat_map g (flat_map (fun a => [f1 a; f2 a]) l) = flat_map (fun a => g (f1 a) ++ g (f2 a)) l.
Proof. induction l as [|a t IH]; cbn [flat_map app]; [reflexivity|]. now rewrite IH, app_assoc. Qed.

Lemma flat_make_key {C} (g : katom -> list C) ty c :
  g KSep = [] ->
  flat_map g (make_key ty c) =
  flat_map (fun a => g (KVal (av a))) (cpos c) ++
  flat_map (fun na => g (KName (fst na)) ++ g (KVal (av (snd na)))) (ckws c) ++
  (if ty then flat_map (fun a => g (KTy (aty_of a))) (cpos c) ++ flat_map (fun na => g (KTy (aty_of (snd na)))) (ckws c)
   else []).
Proof.
  intros Hs. rewrite make_key_eq, !flat_map_app, flat_map_map. f_equal. f_equal.
  - unfold kwpart. destruct (ckws c) as [|p r]; [reflexivity|]. generalize (p :: r). intros l.
    cbn [flat_map]. rewrite Hs. apply flat_map_pairs.
  - destruct ty; [|reflexivity]. rewrite flat_map_app, flat_map_map. f_equal.
    unfold kwtys. destruct (ckws c) as [|p r]; [reflexivity|]. generalize (p :: r). intros l.
    cbn [flat_map]. rewrite Hs. apply flat_map_map.
Qed.

Lemma vals_key ty c : vals_of (make_key ty c) = map av (cpos c) ++ map (fun na => av (snd na)) (ckws c).
Proof.
  unfold vals_of. rewrite flat_make_key by reflexivity. cbn [app]. rewrite !flat_map_single. f_equal.
  destruct ty; [rewrite !flat_map_nil|]; apply app_nil_r.
Qed.

Lemma names_key ty c : names_of (make_key ty c) = map fst (ckws c).
Proof.
  unfold names_of. rewrite flat_make_key by reflexivity. cbn [app]. rewrite flat_map_nil, flat_map_single. cbn [app].
  destruct ty; [rewrite !flat_map_nil|]; apply app_nil_r.
Qed.

Lemma tys_key c :
  tys_of (make_key true c) = map aty_of (cpos c) ++ map (fun na => aty_of (snd na)) (ckws c).
Proof. unfold tys_of. rewrite flat_make_key by reflexivity. cbn [app]. now rewrite !flat_map_nil, !flat_map_single. Qed.

Lemma app_split_len {A} (a1 b1 a2 b2 : list A) :
  a1 ++ b1 = a2 ++ b2 -> length b1 = length b2 -> a1 = a2 /\ b1 = b2.
Proof.
  intros H Hl.
  assert (Hl' : length a1 = length a2).
  { apply (f_equal (@length A)) in H. rewrite !app_length in H. lia. }
  revert a2 H Hl'. induction a1 as [|x r IH]; intros [|y s] H Hl'; cbn in *; try discriminate; [auto|].
  injection H as -> H. destruct (IH s H ltac:(lia)) as [-> ->]. auto.
Qed.

Lemma map_pair_split (k1 k2 : list (nat * argv)) :
  map fst k1 = map fst k2 -> map (fun na => av (snd na)) k1 = map (fun na => av (snd na)) k2 ->
  map (fun na => (fst na, av (snd na))) k1 = map (fun na => (fst na, av (snd na))) k2.
Proof.
  revert k2. induction k1 as [|x r IH]; intros [|y s] H1 H2; cbn in *; try discriminate; [reflexivity|].
  injection H1 as E1 H1. injection H2 as E2 H2. rewrite E1, E2. f_equal. now apply IH.
Qed.

Theorem make_key_spec ty c1 c2 : make_key ty c1 = make_key ty c2 <-> same_call ty c1 c2.
Proof.
  split.
  - intros H.
    pose proof (f_equal vals_of H) as Hv. rewrite !vals_key in Hv.
    pose proof (f_equal names_of H) as Hn. rewrite !names_key in Hn.
    assert (Hlen : length (ckws c1) = length (ckws c2)).
    { apply (f_equal (@length nat)) in Hn. now rewrite !map_length in Hn. }
    destruct (app_split_len _ _ _ _ Hv ltac:(now rewrite !map_length)) as [Hv1 Hv2].
    refine (conj Hv1 (conj (map_pair_split _ _ Hn Hv2) _)).
    intros ->. pose proof (f_equal tys_of H) as Ht. rewrite !tys_key in Ht.
    apply (app_split_len _ _ _ _ Ht). now rewrite !map_length.
  - intros (Hv & Hk & Ht). rewrite !make_key_eq.
    assert (E1 : map (fun a => KVal (av a)) (cpos c1) = map (fun a => KVal (av a)) (cpos c2)).
    { rewrite <- (map_map av KVal (cpos c1)), <- (map_map av KVal (cpos c2)). now rewrite Hv. }
    assert (E2 : kwpart (ckws c1) = kwpart (ckws c2)).
    { assert (G : forall k1 k2 : list (nat * argv),
                map (fun na => (fst na, av (snd na))) k1 = map (fun na => (fst na, av (snd na))) k2 ->
                flat_map (fun na => [KName (fst na); KVal (av (snd na))]) k1 =
                flat_map (fun na => [KName (fst na); KVal (av (snd na))]) k2).
      { induction k1 as [|x r IH]; intros [|y s] G; cbn in *; try discriminate; [reflexivity|].
        injection G as G1 G2 G3. rewrite G1, G2. f_equal. f_equal. now apply IH. }
      unfold kwpart. destruct (ckws c1) as [|x r], (ckws c2) as [|y s]; cbn in Hk; try discriminate; [reflexivity|].
      f_equal. now apply G. }
    rewrite E1, E2. f_equal. f_equal. destruct ty; [|reflexivity]. destruct (Ht eq_refl) as [T1 T2].
    assert (E3 : map (fun a => KTy (aty_of a)) (cpos c1) = map (fun a => KTy (aty_of a)) (cpos c2)).
    { rewrite <- (map_map aty_of KTy (cpos c1)), <- (map_map aty_of KTy (cpos c2)). now rewrite T1. }
    assert (E4 : kwtys (ckws c1) = kwtys (ckws c2)).
    { revert T2. generalize (ckws c1) (ckws c2). intros k1 k2 G. unfold kwtys.
      destruct k1 as [|x r], k2 as [|y s]; try discriminate G; [reflexivity|]. f_equal.
      rewrite <- (map_map (fun na : nat * argv => aty_of (snd na)) KTy (x :: r)),
              <- (map_map (fun na : nat * argv => aty_of (snd na)) KTy (y :: s)). now rewrite G. }
    now rewrite E3, E4.
Qed.

(* the boolean comparison is the equality *)
Lemma aty_eqb_spec a b : aty_eqb a b = true <-> a = b.
Proof. destruct a, b; cbn; split; congruence. Qed.

Lemma katom_eqb_spec a b : katom_eqb a b = true <-> a = b.
Proof.
  destruct a, b; cbn; try (split; congruence).
  - rewrite Nat.eqb_eq. split; congruence.
  - rewrite Nat.eqb_eq. split; congruence.
  - rewrite aty_eqb_spec. split; congruence.
Qed.

Lemma keyt_eqb_spec a b : keyt_eqb a b = true <-> a = b.
Proof.
  revert b. induction a as [|x r IH]; intros [|y s]; cbn; try (split; congruence).
  rewrite andb_true_iff, katom_eqb_spec, IH. split; [intros [-> ->]; reflexivity|intros [= -> ->]; auto].
Qed.

(* least element found in an initial segment *)
Lemma find_seq_least P n m k :
  find P (seq k n) = Some m -> P m = true /\ k <= m < k + n /\ forall j, k <= j < m -> P j = false.
Proof.
  revert k. induction n as [|n IH]; intros k; cbn; [discriminate|].
  destruct (P k) eqn:E.
  - intros [= <-]. refine (conj E (conj _ _)); [lia|]. intros j Hj. lia.
  - intros H. destruct (IH (S k) H) as (H1 & H2 & H3). refine (conj H1 (conj _ _)); [lia|].
    intros j Hj. destruct (Nat.eq_dec j k) as [->|N]; [exact E|]. apply H3. lia.
Qed.

Lemma find_seq_some P n k j : k <= j < k + n -> P j = true -> exists m, find P (seq k n) = Some m.
Proof.
  intros Hj Hp. destruct (find P (seq k n)) as [m|] eqn:E; [eauto|].
  rewrite (find_none _ _ E j) in Hp; [discriminate|]. apply in_seq, Hj.
Qed.

Lemma key_of_least cf a :
  let P := fun a' => keyt_eqb (make_key (typed cf) (call_of a')) (make_key (typed cf) (call_of a)) in
  P (key_of cf a) = true /\ key_of cf a <= a /\ forall j, j < key_of cf a -> P j = false.
Proof.
  cbv zeta. unfold key_of.
  assert (Hself : keyt_eqb (make_key (typed cf) (call_of a)) (make_key (typed cf) (call_of a)) = true)
    by now apply keyt_eqb_spec.
  destruct (find_seq_some (fun a' => keyt_eqb (make_key (typed cf) (call_of a')) (make_key (typed cf) (call_of a)))
                          (S a) 0 a ltac:(lia) Hself) as [m Hm]. rewrite Hm.
  destruct (find_seq_least _ _ _ _ Hm) as (H1 & H2 & H3). refine (conj H1 (conj _ _)); [lia|].
  intros j Hj. apply H3. lia.
Qed.

Theorem key_of_spec cf a b :
  key_of cf a = key_of cf b <-> same_call (typed cf) (call_of a) (call_of b).
Proof.
  rewrite <- make_key_spec.
  destruct (key_of_least cf a) as (A1 & A2 & A3). destruct (key_of_least cf b) as (B1 & B2 & B3).
  cbv zeta in *. apply keyt_eqb_spec in A1. apply keyt_eqb_spec in B1. split.
  - intros E. rewrite <- A1, <- B1, E. reflexivity.
  - intros E.
    destruct (Nat.lt_trichotomy (key_of cf a) (key_of cf b)) as [L|[L|L]]; [|exact L|].
    + exfalso. specialize (B3 _ L). assert (keyt_eqb (make_key (typed cf) (call_of (key_of cf a)))
                                                  (make_key (typed cf) (call_of b)) = true)
        by (apply keyt_eqb_spec; congruence). congruence.
    + exfalso. specialize (A3 _ L). assert (keyt_eqb (make_key (typed cf) (call_of (key_of cf b)))
                                                  (make_key (typed cf) (call_of a)) = true)
        by (apply keyt_eqb_spec; congruence). congruence.
Qed.

(* examples: typed distinguishes the type of a keyword value (seed C20_e), untyped does not; keyword order
   matters; positional and keyword are different calls *)
Example ex_keys :
  let ty := mkcfg (Some 2) None false true 4 in
  let un := mkcfg (Some 2) None false false 4 in
  (* 16+20 = f(x=0:int) ... code (form 1, type t, value 1) = 16 + (5 + t) * 4 + 1 *)
  key_of ty 37 <> key_of ty 41 /\ key_of un 37 = key_of un 41 /\ key_of un 37 = key_of un 45 /\
  key_of ty 37 <> key_of ty 45 /\
  (* f(a=1, b=1) vs f(b=1, a=1) *)
  key_of un 77 <> key_of un 97 /\
  (* f(1) vs f(x=1) *)
  key_of un 2 <> key_of un 37 /\ key_of un 2 = key_of un 17 /\ key_of un 2 = key_of un 3 /\ key_of ty 2 <> key_of ty 3.
Proof. vm_compute. repeat split; discriminate. Qed.

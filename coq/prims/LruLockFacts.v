(* Facts about one step of the Lock machine, in the form the Lru proofs use them:
   what a step by task t does to t's own standing in the lock and that it leaves everybody else alone. *)
From AV Require Import Base.
From AV Require Lock LockEntry LockProofs.

(* c is inside an acquire() of L or holds L *)
Definition engaged (L : Lock.st) (c : tid) : Prop :=
  Lock.phase_of L c <> Lock.Idle \/ In c (Lock.held L).

Lemma engaged_other L o c : c <> LockEntry.op_tid o -> engaged (fst (Lock.step L o)) c <-> engaged L c.
Proof. intros Hne. unfold engaged. destruct (LockProofs.step_other L o c Hne) as (-> & _ & ->). tauto. Qed.

Lemma engaged_init fa c : ~ engaged (Lock.init fa) c.
Proof. intros [H|H]; cbn in H; [congruence|contradiction]. Qed.

Lemma held_owner L c : LockProofs.Inv L -> In c (Lock.held L) ->
  Lock.owner L = Some c /\ Lock.phase_of L c = Lock.Idle.
Proof.
  intros I H. split; [apply (LockProofs.I_owner L I); left; exact H | apply (LockProofs.I_heldidle L I), H].
Qed.

Lemma held_unique L c1 c2 : LockProofs.Inv L -> In c1 (Lock.held L) -> In c2 (Lock.held L) -> c1 = c2.
Proof.
  intros I H1 H2. destruct (held_owner L c1 I H1) as [E1 _]. destruct (held_owner L c2 I H2) as [E2 _]. congruence.
Qed.

(* after its own release an idle task is outside the lock *)
Lemma released_out L c : Lock.phase_of L c = Lock.Idle -> ~ engaged (Lock.do_release L c) c.
Proof.
  intros Hp. destruct (LockProofs.do_release_frame L c) as (_ & _ & _ & Ep & _ & Eh & _). unfold engaged.
  rewrite Ep, Eh, LockProofs.in_remove_tid. tauto.
Qed.

(* acquire() begun by a task that is not engaged: either it owns the lock at once or it is suspended inside *)
Lemma acq_begin_cases L c :
  LockProofs.Inv L -> ~ engaged L c ->
  let L' := fst (Lock.step L (Lock.AcqBegin c)) in
  (snd (Lock.step L (Lock.AcqBegin c)) = Lock.RDone /\ In c (Lock.held L')) \/
  (snd (Lock.step L (Lock.AcqBegin c)) = Lock.RBlocked /\ Lock.phase_of L' c <> Lock.Idle).
Proof.
  intros I Hn. cbv zeta.
  destruct (LockProofs.step_acq L (Lock.AcqBegin c) c (or_introl eq_refl))
    as [[Hp _]|[_ [[_ ->]|[[_ ->]|[[Ho _]|[[_ ->]|[(_ & _ & Ho) _]]]]]]]; cbn.
  - elim Hn. now left.
  - left. auto.
  - right. rewrite upd_same. split; [reflexivity|discriminate].
  - (* the owner is engaged *)
    elim Hn. apply (LockProofs.I_owner L I) in Ho. destruct Ho as [H|[H|(f & H & _)]]; [now right|left; congruence..].
  - right. rewrite upd_same. split; [reflexivity|discriminate].
  - discriminate.
Qed.

(* the wake-up of a task: it owns the lock, or its acquire() is cancelled, or it was not suspended inside acquire() *)
Lemma resume_cases L c :
  LockProofs.Inv L ->
  let L' := fst (Lock.step L (Lock.Resume c)) in
  let r := snd (Lock.step L (Lock.Resume c)) in
  (r = Lock.RDone /\ In c (Lock.held L')) \/
  (r = Lock.RCancelled /\ ~ engaged L' c) \/
  r = Lock.RRejected.
Proof.
  intros I. cbv zeta.
  assert (Hready : LockProofs.wake_ready L c ->
            (snd (Lock.step L (Lock.Resume c)) = Lock.RDone /\ In c (Lock.held (fst (Lock.step L (Lock.Resume c))))) \/
            (snd (Lock.step L (Lock.Resume c)) = Lock.RCancelled /\ ~ engaged (fst (Lock.step L (Lock.Resume c))) c) \/
            snd (Lock.step L (Lock.Resume c)) = Lock.RRejected).
  { intros W. destruct (LockProofs.step_resume_ready L c I W) as (_ & [[_ ->]|[_ ->]]); cbn [fst snd].
    - left. split; [reflexivity|now left].
    - right. left. split; [reflexivity|]. apply released_out. cbn. apply upd_same. }
  destruct (LockProofs.step_resume L c) as [[[W _] _]|[[[W _] _]|[[[W _] _]|[(f & [Hp Hf] & ->)|[_ ->]]]]]; auto.
  right. left. split; [reflexivity|]. intros [H|H]; cbn in H.
  - rewrite upd_same in H. congruence.
  - apply (LockProofs.I_heldidle L I) in H. congruence.
Qed.

Lemma release_holder L c :
  LockProofs.Inv L -> In c (Lock.held L) ->
  snd (Lock.step L (Lock.Release c)) = Lock.RDone /\ ~ engaged (fst (Lock.step L (Lock.Release c))) c.
Proof.
  intros I H. destruct (held_owner L c I H) as [Ho Hp].
  destruct (LockProofs.step_release L c) as [[Hn _]|[[_ ->]|[[_ Hn] _]]]; [contradiction| |contradiction].
  split; [reflexivity|apply released_out, Hp].
Qed.

Lemma cancel_same L c :
  Lock.phase_of (fst (Lock.step L (Lock.Cancel c))) = Lock.phase_of L /\
  Lock.held (fst (Lock.step L (Lock.Cancel c))) = Lock.held L.
Proof. destruct (LockProofs.step_cancel L c) as [[_ ->]|[(f & _ & ->)|[_ ->]]]; split; reflexivity. Qed.

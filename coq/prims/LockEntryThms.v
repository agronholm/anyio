(* C09 / F53: the cancellation check of acquire() comes first.  Theorems over every op sequence of the extended
   machine LockEntry.estep; the pre-fix order kept as a refuted (pinned) witness. *)
From AV Require Import Base Lock LockProofs LockThms LockEntry.

Definition ereach (fa : bool) (s : est) : Prop := exists ops, s = final (estep false) (einit fa) ops.

(* one step of the extended machine: the lock component does not move, or moves by ONE Lock.step.  `committed` is set only
   by the pre-fix order (pinned = true), so at HEAD it stays false; without that the resumption of a spinning task could
   take the lock blindly (take_blind), which is no Lock.step *)
Lemma estep_lock s o : (forall t, committed s t = false) ->
  (forall t, committed (fst (estep false s o)) t = false) /\
  (lock (fst (estep false s o)) = lock s \/ exists lo, lock (fst (estep false s o)) = fst (Lock.step (lock s) lo)).
Proof.
  intros C.
  assert (U : forall t u, upd (committed s) t false u = false).
  { intros t u. unfold upd. destruct (Nat.eqb u t); [reflexivity | apply C]. }
  destruct o as [o|t|t|t]; cbn [estep].
  - destruct (spin s (op_tid o)).
    + destruct o as [t|t|t|t|t]; cbn; try (split; [exact C | left; reflexivity]).
      destruct (ckmust s t); cbn; (split; [|left; reflexivity]); [intros u; apply U | exact C].
    + destruct (Lock.step (lock s) o) as [l' r] eqn:E. cbn. split; [exact C|]. right. exists o. now rewrite E.
  - destruct (spin s t || negb (is_idle (phase_of (lock s) t))); cbn; (split; [exact C | left; reflexivity]).
  - destruct (spin s t); cbn; (split; [|left; reflexivity]); [intros u; apply U | exact C].
  - destruct (negb (spin s t)); [split; [exact C | left; reflexivity]|].
    destruct (ckmust s t); [cbn; split; [intros u; apply U | left; reflexivity]|].
    rewrite C. destruct (Lock.step (lock s) (AcqBegin t)) as [l' r] eqn:E. cbn.
    split; [intros u; apply U|]. right. exists (AcqBegin t). now rewrite E.
Qed.

(* every reachable state of the extended machine projects to a reachable state of Lock: the lock component moves only
   by Lock.step (an ordinary op, or the AcqBegin that SpinReturn performs) or not at all.  Hence every theorem about
   `reach fa` states of Lock.v (FIFO hand-over, no barging, cancelled waiters, arrival order, quiescence) is inherited by
   the machine with the yielding check. *)
Lemma ereach_lock fa s : ereach fa s -> reach fa (lock s) /\ forall t, committed s t = false.
Proof.
  intros [ops ->].
  destruct (final_project (estep false) Lock.step lock (fun s => forall t, committed s t = false) estep_lock
              ops (einit fa)) as [C (ops' & E)]; [reflexivity|].
  split; [exists ops'; exact E | exact C].
Qed.

Theorem entry_projects_to_lock fa s : ereach fa s -> reach fa (lock s).
Proof. intros R. apply (ereach_lock fa s R). Qed.

(* mutual exclusion also with acquire() calls whose cancellation check yields and returns *)
Theorem entry_mutex fa s : ereach fa s ->
  (forall t, In t (held (lock s)) -> owner (lock s) = Some t) /\ length (held (lock s)) <= 1.
Proof. intros R. apply (lock_mutex fa), entry_projects_to_lock, R. Qed.

(* one inherited clause stated directly on the extended machine: a free lock never has waiters, and the queue is in
   arrival order - also across acquire() calls whose check yielded and returned *)
Theorem entry_no_free_lock_with_waiters fa s : ereach fa s ->
  (owner (lock s) = None -> waiters (lock s) = []) /\ subseq (waiters (lock s)) (enq (lock s)).
Proof.
  intros R. apply entry_projects_to_lock in R.
  split; [now apply (lock_no_free_with_waiters fa) | now apply (lock_queue_in_arrival_order fa)].
Qed.

(* an acquire() entered in an already effectively cancelled scope touches nothing - whatever the state of the lock,
   also when it is held, has waiters, or is held by the caller - and ends with the cancellation *)
Theorem entry_cancelled_refused s t : spin s t = false -> phase_of (lock s) t = Idle ->
  let s1 := fst (estep false s (EnterCancelled t)) in
  snd (estep false s (EnterCancelled t)) = RBlocked /\ lock s1 = lock s /\ spin s1 t = true /\
  estep false s1 (SpinCancel t) = (unspin s1 (lock s) t, RCancelled).
Proof.
  intros Hs Hp. cbn [estep]. rewrite Hs, Hp. cbn. rewrite upd_same. repeat split.
Qed.

(* whatever is done TO a task that sits in its entry check (native cancel, its own steps), the lock does not move; such a
   step ends the call only with the cancellation, and only after a native cancel *)
Theorem spinner_steps_noeffect s t o : spin s t = true -> op_tid o = t ->
  lock (fst (estep false s (L o))) = lock s /\
  (snd (estep false s (L o)) = RCancelled -> ckmust s t = true /\ o = Resume t).
Proof.
  intros Hs Ht. cbn [estep]. rewrite Ht, Hs.
  destruct o as [u|u|u|u|u]; cbn in Ht; subst; cbn; try (split; [reflexivity | discriminate]).
  destruct (ckmust s t); cbn; (split; [reflexivity|]); [auto | discriminate].
Qed.

(* HEAD has no step between test and take: when the check returns after its yield, the rest of acquire() - the
   `free?` test, the owner assignment or the enqueuing - is ONE step: exactly an ordinary AcqBegin on the lock as it
   is then *)
Theorem no_step_between_test_and_take fa s t : ereach fa s -> spin s t = true -> ckmust s t = false ->
  estep false s (SpinReturn t) =
  (unspin s (fst (Lock.step (lock s) (AcqBegin t))) t, snd (Lock.step (lock s) (AcqBegin t))).
Proof.
  intros R Hs Hm. destruct (ereach_lock fa s R) as [_ C]. cbn [estep]. rewrite Hs, Hm, C. cbn [negb].
  destruct (Lock.step (lock s) (AcqBegin t)); reflexivity.
Qed.

(* the order before the fix: task 1 finds the lock free, its check yields; task 2 takes the lock; the check returns
   and task 1 takes the lock too *)
Definition f53_ops : list eop := [EnterCancelled 1; L (AcqNowait 2); SpinReturn 1].

Theorem check_then_take_across_yield_refuted_pinned :
  let s := final (estep true) (einit true) f53_ops in
  held (lock s) = [1; 2] /\ owner (lock s) = Some 1 /\
  snd (estep true (final (estep true) (einit true) [EnterCancelled 1]) (L (AcqNowait 2))) = RDone /\
  snd (estep true (final (estep true) (einit true) [EnterCancelled 1; L (AcqNowait 2)]) (SpinReturn 1)) = RDone /\
  ~ length (held (lock s)) <= 1.
Proof. vm_compute. repeat split. lia. Qed.

(* the same history at HEAD: task 1 queues behind task 2 *)
Example f53_head :
  let s := final (estep false) (einit true) f53_ops in
  held (lock s) = [2] /\ owner (lock s) = Some 2 /\ phase_of (lock s) 1 = Waiting 0 /\ waiters (lock s) = [(1, 0)].
Proof. vm_compute. repeat split. Qed.

Example ex_entry_hyp :
  let s := final (estep false) (einit false) [L (AcqBegin 2); L (Resume 2); EnterCancelled 1] in
  spin s 1 = true /\ owner (lock s) = Some 2 /\ ereach false s.
Proof. split; [reflexivity|]. split; [reflexivity|]. eexists. reflexivity. Qed.

(* non-vacuity on the F53 history at HEAD: task 1's check yielded and returned, it queues behind task 2 *)
Example ex_entry_projection_f53 :
  let s := final (estep false) (einit true) f53_ops in
  ereach true s /\ owner (lock s) = Some 2 /\ waiters (lock s) = [(1, 0)] /\ enq (lock s) = [(1, 0)].
Proof. split; [eexists; reflexivity|]. vm_compute. repeat split. Qed.

(* non-vacuity of the native-cancel path: task 1 sits in its entry check while task 2 holds the lock; a native cancel
   reaches it; its next step raises and nothing of the lock has moved; SpinReturn ends the same way *)
Example ex_entry_native_cancel :
  let s := final (estep false) (einit false) [L (AcqNowait 2); EnterCancelled 1; L (Cancel 1)] in
  spin s 1 = true /\ ckmust s 1 = true /\ owner (lock s) = Some 2 /\ ereach false s /\
  snd (estep false s (L (Resume 1))) = RCancelled /\ lock (fst (estep false s (L (Resume 1)))) = lock s /\
  snd (estep false s (SpinReturn 1)) = RCancelled.
Proof. split; [reflexivity|]. split; [reflexivity|]. split; [reflexivity|]. split; [eexists; reflexivity|]. repeat split. Qed.

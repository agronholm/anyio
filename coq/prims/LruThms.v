(* C20 clauses as theorems over every op sequence of the Lru machine.  The refutation witnesses for the known
   findings and the non-vacuity examples are in LruWitness.v. *)
From AV Require Import Base Lru LruLockFacts LruDict LruProofs LruInv LruCount LruStep.
From AV Require Lock LockProofs.
From Coq Require Import Sorting.Sorted.

Lemma run_snoc cf ops o : run cf (ops ++ [o]) = fst (step cf (run cf ops) o).
Proof. unfold run. rewrite final_app. reflexivity. Qed.

(* the ghost stamp of an entry is the logical time of its last USE: installation of the placeholder, lookup hit,
   reuse after waiting for the flight, recomputation after expiry.  `touched k ck d d1`: d1 is d after the uses
   of one step: nothing is lost, only entries of key k may carry a new stamp (>= ck), order by stamp is kept. *)
Definition touched (k : key) (ck : nat) (d d1 : list slot) : Prop :=
  StronglySorted stamp_lt d1 /\
  (forall x, In x d -> exists y, In y d1 /\ sk y = sk x /\ ss x <= ss y) /\
  (forall y, In y d1 -> (exists x, In x d /\ sk x = sk y /\ ss x = ss y) \/ (sk y = k /\ ck <= ss y)).

Lemma touched_refl k ck d : StronglySorted stamp_lt d -> touched k ck d d.
Proof.
  intros Hs. refine (conj Hs (conj _ _)).
  - intros x Hx. exists x. auto.
  - intros y Hy. left. exists y. auto.
Qed.

Lemma touched_trans k ck d d1 d2 : touched k ck d d1 -> touched k ck d1 d2 -> touched k ck d d2.
Proof.
  intros (S1 & A1 & B1) (S2 & A2 & B2). refine (conj S2 (conj _ _)).
  - intros x Hx. destruct (A1 x Hx) as (y & Hy & E1 & L1). destruct (A2 y Hy) as (z & Hz & E2 & L2).
    exists z. refine (conj Hz (conj _ _)); [congruence|lia].
  - intros z Hz. destruct (B2 z Hz) as [(y & Hy & E1 & E2)|H]; [|right; exact H].
    destruct (B1 y Hy) as [(x & Hx & E3 & E4)|[E3 E4]].
    + left. exists x. refine (conj Hx (conj _ _)); congruence.
    + right. split; [congruence|lia].
Qed.

Lemma touched_app k ck d e st :
  StronglySorted stamp_lt d -> (forall y, In y d -> ss y < st) -> ck <= st ->
  touched k ck d (d ++ [mkslot k e st]).
Proof.
  intros Hs Hb Hc. refine (conj _ (conj _ _)).
  - apply sorted_app_last; [exact Hs|]. intros y Hy. cbn. now apply Hb.
  - intros x Hx. exists x. split; [apply in_or_app; now left|auto].
  - intros y Hy. apply in_app_or in Hy. destruct Hy as [Hy|[<-|[]]]; [left; exists y; auto|right; cbn; auto].
Qed.

Lemma in_dset_in_conv x k e d : In x d -> exists y, In y (dset_in k e d) /\ sk y = sk x /\ ss y = ss x.
Proof.
  induction d as [|z r IH]; cbn [dset_in]; [intros []|].
  destruct (Nat.eqb_spec (sk z) k) as [E|E]; intros [<-|H].
  - eexists. split; [left; reflexivity|]. cbn. auto.
  - exists x. split; [right; exact H|auto].
  - exists z. split; [left; reflexivity|auto].
  - destruct (IH H) as (y & Hy & E1 & E2). exists y. split; [right; exact Hy|auto].
Qed.

Lemma touched_dset_in k k0 ck e d : StronglySorted stamp_lt d -> touched k0 ck d (dset_in k e d).
Proof.
  intros Hs. refine (conj (sorted_dset_in k e d Hs) (conj _ _)).
  - intros x Hx. destruct (in_dset_in_conv x k e d Hx) as (y & Hy & E1 & E2). exists y. split; [exact Hy|]. split; [exact E1|lia].
  - intros y Hy. left. apply in_dset_in in Hy. destruct Hy as [Hy|(z & Hz & Hk & ->)]; [exists y; auto|].
    exists z. cbn. auto.
Qed.

Lemma touched_dmark k k0 ck d : StronglySorted stamp_lt d -> touched k0 ck d (dmark k d).
Proof.
  intros Hs. unfold dmark. destruct (dfind k d) as [x|]; [|now apply touched_refl].
  destruct (se x); [now apply touched_dset_in|now apply touched_refl].
Qed.

Lemma touched_dmove k ck st d :
  StronglySorted stamp_lt d -> (forall y, In y d -> ss y < st) -> ck <= st -> touched k ck d (dmove k st d).
Proof.
  intros Hs Hb Hc. refine (conj (sorted_dmove k st d Hs Hb) (conj _ _)).
  - intros x Hx. unfold dmove. destruct (dfind k d) as [x0|] eqn:E; [|exists x; auto].
    destruct (Nat.eq_dec (sk x) k) as [Ek|Nk].
    + eexists. split; [apply in_or_app; right; left; reflexivity|]. cbn. split; [auto|]. specialize (Hb x Hx). lia.
    + exists x. split; [|auto]. apply in_or_app. left. unfold dremove. apply filter_In. split; [exact Hx|].
      destruct (Nat.eqb_spec (sk x) k); [contradiction|reflexivity].
  - intros y Hy. apply in_dmove in Hy. destruct Hy as [Hy|(z & Hz & Hk & ->)]; [left; exists y; auto|].
    right. cbn. auto.
Qed.

Lemma touched_dstore k ck e st d :
  StronglySorted stamp_lt d -> (forall y, In y d -> ss y < st) -> ck <= st -> touched k ck d (dstore k e st d).
Proof.
  intros Hs Hb Hc. unfold dstore. destruct (dfind k d); [now apply touched_dset_in|now apply touched_app].
Qed.

Lemma in_dmark_stamp x k d : In x (dmark k d) -> exists y, In y d /\ sk y = sk x /\ ss y = ss x.
Proof.
  unfold dmark. destruct (dfind k d) as [z|]; [|intros H; exists x; auto].
  destruct (se z); [|intros H; exists x; auto].
  intros H. apply in_dset_in in H. destruct H as [H|(y & Hy & Hk & ->)]; [exists x; auto|].
  exists y. cbn. auto.
Qed.

Lemma in_keys_ex key d : In key (keys d) -> exists y, In y d /\ sk y = key.
Proof. unfold keys. intros H. apply in_map_iff in H. destruct H as (y & E & Hy). eauto. Qed.

(* what is missing after the optional eviction of the head (and the ghost mark) was used before everything that
   remains *)
Lemma touched_evict k ck d d1 d' k0 :
  touched k ck d d1 -> d' = d1 \/ d' = dmark k0 d1 \/ d' = dmark k0 (tl d1) ->
  forall x, In x d -> (forall y, In y d' -> sk y <> sk x) -> forall y', In y' d' -> ss x < ss y'.
Proof.
  intros (S1 & A1 & _) Hd x Hx Hgone y' Hy'. destruct (A1 x Hx) as (y & Hy & E & L).
  assert (Hpres : forall t, In y t -> In (sk x) (keys (dmark k0 t))).
  { intros t Ht. rewrite keys_dmark, <- E. apply in_keys, Ht. }
  destruct Hd as [->|[->| ->]].
  - exfalso. eapply Hgone; eauto.
  - exfalso. destruct (in_keys_ex _ _ (Hpres d1 Hy)) as (z & Hz & Ez). eapply Hgone; eauto.
  - destruct d1 as [|h t]; [contradiction|]. cbn [tl] in *.
    destruct Hy as [<-|Hy]; [|exfalso; destruct (in_keys_ex _ _ (Hpres t Hy)) as (z & Hz & Ez); eapply Hgone; eauto].
    inversion S1 as [|a b Hs Hf]; subst. rewrite Forall_forall in Hf.
    destruct (in_dmark_stamp y' k0 t Hy') as (y2 & Hy2 & _ & Es). specialize (Hf y2 Hy2). unfold stamp_lt in Hf. lia.
Qed.

Definition touch_or_evict (k : key) (ck : nat) (d d' : list slot) : Prop :=
  exists d1 k0, touched k ck d d1 /\ (d' = d1 \/ d' = dmark k0 d1 \/ d' = dmark k0 (tl d1)).

Lemma keys_dmove_in k st d key : In key (keys d) -> In key (keys (dmove k st d)).
Proof.
  unfold dmove. destruct (dfind k d) as [x|] eqn:E; [|auto]. intros H.
  unfold keys. rewrite map_app. apply in_or_app. cbn.
  destruct (Nat.eq_dec key k) as [->|N]; [right; now left|left].
  fold (keys (dremove k d)). rewrite keys_dremove. apply filter_In. split; [exact H|].
  destruct (Nat.eqb_spec key k); [contradiction|reflexivity].
Qed.

(* what `body`, `acquire`, `acquire_x` and `enter` do                                                 *)
(* release and return: nothing but the lock and the caller's phase changes *)
Lemma leave_facts s0 c l r0 e :
  e = (let '(s1, ok) := release s0 c l in finish s1 c ok r0) ->
  dicts (fst e) = dicts s0 /\ cur (fst e) = cur s0 /\ produced (fst e) = produced s0 /\
  currsize (fst e) = currsize s0 /\ phase (fst e) c = CIdle /\ (snd e = r0 \/ snd e = RLockErr).
Proof.
  intros ->. rewrite release_eq. cbn [finish fst snd]. sm. rewrite upd_same. destruct (snd (Lock.step _ _)); auto 10.
Qed.

Lemma body_facts cf s c k l g :
  let s' := fst (body cf s c k l g) in
  let r := snd (body cf s c k l g) in
  produced s' = produced s /\ cur s' = cur s /\ (forall g0, g0 <> g -> dicts s' g0 = dicts s g0) /\
  (dicts s' g = dicts s g \/ dicts s' g = dmark k (dicts s g) \/ dicts s' g = dmark k (tl (dicts s g)) \/
   dicts s' g = dmove k (clk s) (dicts s g)) /\
  (r = RLockErr \/
   (r = RKeyError /\ dfind k (dicts s g) = None) \/
   (r = RBlocked /\ (exists x l' b', dfind k (dicts s g) = Some x /\ se x = EPlace l' b') /\
      phase s' c = CInWrapped k l None false g) \/
   (exists x v e, r = RRet v /\ dfind k (dicts s g) = Some x /\ se x = EVal v e /\ phase s' c = CIdle /\
                  dicts s' g = dmove k (clk s) (dicts s g))) /\
  (phase s' c = CIdle \/ phase s' c = CInWrapped k l None false g) /\
  ((exists key, In key (keys (dicts s g)) /\ ~ In key (keys (dicts s' g))) ->
     full cf s = true /\ currsize s' = currsize s).
Proof.
  cbv zeta. remember (body cf s c k l g) as e eqn:He. unfold body in He.
  destruct (dfind k (dicts s g)) as [x|] eqn:Hfind.
  - destruct (se x) as [l' b'|v e0] eqn:Hse; cbv zeta in He.
    + change (full cf (set_counts s (hits s) (S (misses s)) (currsize s))) with (full cf s) in He.
      destruct (full cf s) eqn:Hfull; subst e; cbn [fst snd].
      * unfold evict. sm. destruct (dicts s g) as [|x0 r] eqn:Hdict; [discriminate|]. sm.
        rewrite !upd_same. refine (conj eq_refl (conj eq_refl (conj _ (conj _ (conj _ (conj _ _)))))).
        -- intros g0 N. now rewrite !upd_other.
        -- right. right. left. reflexivity.
        -- right. right. left. split; [reflexivity|]. split; [eauto|reflexivity].
        -- right. reflexivity.
        -- intros _. auto.
      * sm. rewrite !upd_same. refine (conj eq_refl (conj eq_refl (conj _ (conj _ (conj _ (conj _ _)))))).
        -- intros g0 N. now rewrite upd_other.
        -- right. left. reflexivity.
        -- right. right. left. split; [reflexivity|]. split; [eauto|reflexivity].
        -- right. reflexivity.
        -- intros (key & H1 & H2). exfalso. apply H2. now rewrite keys_dmark.
    + destruct (leave_facts _ _ _ _ _ He) as (-> & -> & -> & _ & -> & Hr). sm. rewrite upd_same.
      refine (conj eq_refl (conj eq_refl (conj _ (conj _ (conj _ (conj _ _)))))); auto.
      * intros g0 N. now rewrite upd_other.
      * destruct Hr as [-> | ->]; [|now left]. right. right. right. exists x, v, e0. auto.
      * intros (key & H1 & H2). exfalso. apply H2. now apply keys_dmove_in.
  - destruct (leave_facts _ _ _ _ _ He) as (-> & -> & -> & _ & -> & Hr).
    refine (conj eq_refl (conj eq_refl (conj _ (conj _ (conj _ (conj _ _)))))); auto.
    + destruct Hr as [-> | ->]; auto.
    + intros (key & H1 & H2). contradiction.
Qed.

(* `async with lock`, in a live scope or (x) in an already cancelled one *)
Lemma acquire_facts cf s c k l (x : bool) :
  let s' := fst ((if x then acquire_x else acquire) cf s c k l) in
  let r := snd ((if x then acquire_x else acquire) cf s c k l) in
  let g := cur s in
  produced s' = produced s /\ cur s' = cur s /\ (forall g0, g0 <> g -> dicts s' g0 = dicts s g0) /\
  (dicts s' g = dicts s g \/ dicts s' g = dmark k (dicts s g) \/ dicts s' g = dmark k (tl (dicts s g)) \/
   dicts s' g = dmove k (clk s) (dicts s g)) /\
  (r = RLockErr \/ r = RBlocked \/
   (r = RKeyError /\ dfind k (dicts s g) = None) \/
   (exists x v e, r = RRet v /\ dfind k (dicts s g) = Some x /\ se x = EVal v e)) /\
  (phase s' c = CIdle \/ phase s' c = CInWrapped k l None false g \/ phase s' c = CLockWait k l (now s) g \/
   phase s' c = CEntryCk k) /\
  ((exists key, In key (keys (dicts s g)) /\ ~ In key (keys (dicts s' g))) ->
     full cf s = true /\ currsize s' = currsize s).
Proof.
  destruct x.
  { unfold acquire_x. cbn [fst snd]. sm. rewrite upd_same.
    refine (conj eq_refl (conj eq_refl (conj (fun _ _ => eq_refl) (conj (or_introl eq_refl) (conj _ (conj _ _)))))); auto.
    intros (key & H1 & H2). contradiction. }
  unfold acquire. cbv zeta. rewrite lock_do_eq.
  destruct (snd (Lock.step _ _)); cbn [fst snd]; sm; rewrite ?upd_same;
    try (refine (conj eq_refl (conj eq_refl (conj _ (conj _ (conj _ (conj _ _))))));
         [intros; reflexivity|left; reflexivity|auto|auto|intros (key & H1 & H2); contradiction]).
  match goal with |- context [body cf ?s1 c k l ?g] => pose proof (body_facts cf s1 c k l g) as H end.
  cbv zeta in H. sm. destruct H as (H1 & H2 & H3 & H4 & H5 & H6 & H7).
  refine (conj H1 (conj H2 (conj H3 (conj H4 (conj _ (conj _ H7)))))).
  - destruct H5 as [H5|[[H5 H5']|[[H5 _]|(x & v & e & H5 & H5' & H5'' & _)]]]; eauto 10.
  - destruct H6; auto.
Qed.

(* the wake-up of a caller that waited for the entry's lock *)
Lemma resume_wait cf s c k l t0 g :
  phase s c = CLockWait k l t0 g ->
  let s' := fst (step cf s (Resume c)) in
  let r := snd (step cf s (Resume c)) in
  r = RCancelled \/ r = RRejected \/ r = RLockErr \/
  (r = RKeyError /\ dfind k (dicts s g) = None) \/
  (r = RBlocked /\ exists x l' b', dfind k (dicts s g) = Some x /\ se x = EPlace l' b') \/
  (exists x v e, r = RRet v /\ dfind k (dicts s g) = Some x /\ se x = EVal v e /\
                 dicts s' g = dmove k (clk s) (dicts s g)).
Proof.
  intros Hp. unfold step. rewrite Hp, lock_do_eq. destruct (snd (Lock.step _ _)); cbn [fst snd]; auto.
  pose proof (body_facts cf (set_lock s l (fst (Lock.step (locks s l) (Lock.Resume c)))) c k l g) as F. cbv zeta in F.
  destruct F as (_ & _ & _ & _ & [F|[F|[[F [F' _]]|(x & v & e & F & F1 & F2 & _ & F3)]]] & _); eauto 12.
Qed.

Definition fresh_k (k : key) (ck : nat) (d : list slot) : Prop := forall y, In y d -> sk y = k -> ck <= ss y.

Lemma fresh_dmove k ck st d : ck <= st -> fresh_k k ck (dmove k st d).
Proof.
  intros Hc y Hy Hk. unfold dmove in Hy. destruct (dfind k d) as [x|] eqn:E.
  - apply in_app_or in Hy. destruct Hy as [Hy|[<-|[]]]; [|cbn; exact Hc].
    apply in_dremove in Hy. tauto.
  - exfalso. apply (dfind_none_keys _ _ E). rewrite <- Hk. apply in_keys, Hy.
Qed.

(* the uses on the way to the lock *)
Lemma at_lock_touched cf s sp k l :
  Inv1 cf s -> at_lock s sp k l ->
  touched k (clk s) (dict s) (dict sp) /\ clk s <= clk sp /\
  ((forall l0 b0, dget k (dict s) <> Some (EPlace l0 b0)) -> fresh_k k (clk s) (dict sp)).
Proof.
  intros I [(Ed & Ec & b & Hb)|(Ec & [[Ed Hnone]|Ed])]; rewrite Ed, Ec.
  - refine (conj (touched_refl _ _ _ (I_sorted _ _ I _)) (conj (le_n _) _)). intros Hno. now elim (Hno l b).
  - refine (conj (touched_app _ _ _ _ _ (I_sorted _ _ I _) (I_stamp _ _ I _) (le_n _)) (conj (le_S _ _ (le_n _)) _)).
    intros _ z Hzz Hkz. apply in_app_or in Hzz. destruct Hzz as [Hzz|[<-|[]]]; [|apply le_n].
    exfalso. apply (dfind_none_keys _ _ Hnone). rewrite <- Hkz. apply in_keys, Hzz.
  - assert (Hb : forall z, In z (dset_in k (EPlace l false) (dict s)) -> ss z < clk s).
    { intros z Hzz. apply in_dset_in in Hzz.
      destruct Hzz as [Hzz|(w & Hw & _ & ->)]; [apply (I_stamp _ _ I _ _ Hzz)|apply (I_stamp _ _ I _ _ Hw)]. }
    refine (conj _ (conj (le_S _ _ (le_n _)) (fun _ => fresh_dmove _ _ _ _ (le_n _)))).
    eapply touched_trans; [apply touched_dset_in, (I_sorted _ _ I)|].
    apply touched_dmove; [apply sorted_dset_in, (I_sorted _ _ I)|exact Hb|apply le_n].
Qed.

(* what a call answers at once: nothing is logged, nothing is raised, and a value -- returned, or held through the
   hit checkpoint -- comes from an entry that has not expired *)
Lemma enter_result cf s c a x :
  Inv cf s ->
  let s' := fst (enter cf s c a x) in
  let r := snd (enter cf s c a x) in
  produced s' = produced s /\ (forall e, r <> RExc e) /\
  (forall v, r <> RRejected -> r = RRet v \/ (exists b, phase s' c = CHitCk (key_of cf a) v b) ->
     exists y exp, dfind (key_of cf a) (dict s) = Some y /\ se y = EVal v exp /\ expired exp (now s) = false).
Proof.
  intros IJ. destruct (enter_facts cf s c a x IJ) as (_ & _ & [[-> ->]|[(_ & _ & _ & Hpr & _ & -> & Hph)|[H|H]]]); cbv zeta in *.
  - refine (conj eq_refl (conj _ _)); [discriminate|]. intros v H. now elim H.
  - refine (conj Hpr (conj _ _)); [discriminate|]. intros v _ [H|[b H]]; [discriminate|rewrite Hph in H; discriminate].
  - destruct H as (y & v0 & exp & _ & Hid & Hf & Hse & Hexp & _ & _ & Hpr & _ & Hr).
    refine (conj Hpr (conj _ _)); [destruct Hr as [[-> _]|[-> _]]; discriminate|].
    intros v _ Hres. exists y, exp. refine (conj Hf (conj _ Hexp)).
    destruct Hr as [[Hr Hph]|[Hr Hph]]; destruct Hres as [Hres|[b Hres]]; try congruence;
      exfalso; rewrite Hph in Hres; congruence.
  - destruct H as (sp & l & _ & Hpc & _ & -> & Hpr & _ & _ & _ & [b Hd] & _).
    pose proof (acquire_facts cf sp c (key_of cf a) l x) as F. cbv zeta in F. destruct F as (-> & _ & _ & _ & Hr & Hph & _).
    (* the entry at the lock is a placeholder, not a value *)
    assert (Hnv : forall v, snd ((if x then acquire_x else acquire) cf sp c (key_of cf a) l) <> RRet v).
    { intros v E. rewrite E in Hr. destruct Hr as [Hr|[Hr|[[Hr _]|(y & v2 & e2 & _ & H3 & H4)]]]; try discriminate.
      pose proof (dget_find _ _ _ H3) as Hg. unfold dict in Hd. rewrite Hd, H4 in Hg. discriminate. }
    refine (conj Hpr (conj _ _)).
    + intros e E. rewrite E in Hr. destruct Hr as [Hr|[Hr|[[Hr _]|(y & v2 & e2 & Hr & _)]]]; discriminate.
    + intros v _ [H|[b0 H]]; [now elim (Hnv v)|]. destruct Hph as [F|[F|[F|F]]]; rewrite F in H; discriminate.
Qed.

(* 1. right value                                                                                     *)
Definition call_key (cf : cfg) (s : st) (o : op) : option key :=
  match o with
  | Call c a => Some (key_of cf a)
  | CallX c a => Some (key_of cf a)
  | Resume c =>
      match phase s c with
      | CEntryCk k => Some k
      | CLockWait k _ _ _ => Some k | CInWrapped k _ _ _ _ => Some k | CHitCk k _ _ => Some k
      | CBypass k _ _ => Some k | CIdle => None
      end
  | _ => None
  end.

Lemma step_value cf s o s' v :
  Inv cf s -> step cf s o = (s', RRet v) -> exists k, call_key cf s o = Some k /\ In (k, v) (produced s').
Proof.
  intros IJ Hs. pose proof IJ as [I J]. destruct (step_facts cf s o IJ) as (_ & _ & V). rewrite Hs in V. cbn [fst snd] in V.
  destruct V as [_ [H|[H|H]] _|c a x -> -> Hr|c k l t0 g s1 -> Hp [I1 _] _ _ _ _ _ _ _ -> Hr|c k l g v0 -> Hp [= ->] _ _ _ Hpr
                |c k v0 -> Hp [= ->] _ _ _ Hpr|c k v0 -> Hp [= ->] _ _ _ Hpr|c k e _ _ H]; try discriminate.
  - exists (key_of cf a). split; [now destruct x|]. destruct (enter_result cf s c a x IJ) as (-> & _ & H).
    destruct (H v) as (y & exp & Hf & Hse & _); [congruence|now left|]. destruct (dfind_some _ _ _ Hf) as [<- Hin].
    apply (I_vdict _ _ I _ y v exp Hin Hse).
  - exists k. split; [cbn; now rewrite Hp|]. pose proof (body_facts cf s1 c k l g) as F. cbv zeta in F.
    destruct F as (Hpr & _ & _ & _ & F & _). rewrite Hpr, <- Hr in *.
    destruct F as [F|[[F _]|[[F _]|(y & v2 & e2 & [= <-] & H3 & H4 & _)]]]; try discriminate.
    destruct (dfind_some _ _ _ H3) as [<- Hin]. apply (I_vdict _ _ I1 _ y v e2 Hin H4).
  - exists k. split; [cbn; now rewrite Hp|]. rewrite Hpr. now left.
  - exists k. split; [cbn; now rewrite Hp|]. rewrite Hpr. now left.
  - exists k. split; [cbn; now rewrite Hp|]. rewrite Hpr. apply (I_vhit _ _ I _ _ _ _ Hp).
Qed.

(* a call returns only a value that some execution of the wrapped function returned for the same key *)
Theorem lru_value_faithful cf ops o s' v :
  step cf (run cf ops) o = (s', RRet v) ->
  exists k, call_key cf (run cf ops) o = Some k /\ In (k, v) (produced s').
Proof. apply step_value, reachable_inv. Qed.

(* `produced` grows only when the wrapped function of a caller returns: (k, v) is logged exactly when the
   execution for key k started by that caller is resumed with the oracle value v *)
Theorem lru_produced_only_by_wrapped cf ops o :
  let s := run cf ops in
  produced (fst (step cf s o)) = produced s \/
  exists c k v, o = Resume c /\ produced (fst (step cf s o)) = (k, v) :: produced s /\
    ((exists l g, phase s c = CInWrapped k l (Some (WRet v)) false g) \/ phase s c = CBypass k (Some (WRet v)) false).
Proof.
  cbv zeta. pose proof (reachable_inv cf ops) as IJ. set (s := run cf ops) in *.
  destruct (step_facts cf s o IJ) as (_ & _ & V).
  destruct V as [Hpr _ _|c a x _ -> _|c k l t0 g s1 _ _ _ _ _ _ _ _ Hpr _ -> _|c k l g v -> Hp _ _ _ _ Hpr
                |c k v -> Hp _ _ _ _ Hpr|c k v _ _ _ _ _ _ Hpr|c k e _ _ _ _ _ _ Hpr]; try (left; exact Hpr).
  - left. now apply enter_result.
  - left. rewrite <- Hpr. apply body_facts.
  - right. exists c, k, v. eauto 6.
  - right. exists c, k, v. auto.
Qed.

(* a call raises (other than CancelledError) only what its own execution of the wrapped function raised *)
Theorem lru_raises_own cf ops o e :
  let s := run cf ops in
  snd (step cf s o) = RExc e ->
  exists c k, o = Resume c /\
    ((exists l g, phase s c = CInWrapped k l (Some (WExc e)) false g) \/ phase s c = CBypass k (Some (WExc e)) false).
Proof.
  cbv zeta. pose proof (reachable_inv cf ops) as IJ. set (s := run cf ops) in *.
  intros Hr. destruct (step_facts cf s o IJ) as (_ & _ & V). rewrite Hr in V.
  destruct V as [_ [H|[H|H]] _|c a x _ _ He|c k l t0 g s1 _ _ _ _ _ _ _ _ _ _ _ He|c k l g v _ _ H _ _ _ _
                |c k v _ _ H _ _ _ _|c k v _ _ H _ _ _ _|c k e0 -> Hp [= ->] _ _ _ _]; try discriminate.
  - now elim (proj1 (proj2 (enter_result cf s c a x IJ)) e).
  - exfalso. pose proof (body_facts cf s1 c k l g) as F. cbv zeta in F. rewrite <- He in F.
    destruct F as (_ & _ & _ & _ & [F|[[F _]|[[F _]|(y & v2 & e2 & F & _)]]] & _); discriminate.
  - exists c, k. auto.
Qed.

(* 2. single flight                                                                                   *)
(* caller c is executing the wrapped function for key k *)
Definition executing (s : st) (c : cid) (k : key) : Prop :=
  (exists l p b g, phase s c = CInWrapped k l p b g) \/ (exists p b, phase s c = CBypass k p b).

Theorem lru_single_flight cf ops c1 c2 k l1 p1 b1 g1 l2 p2 b2 g2 :
  no_inflight_eviction cf ops -> no_waited_eviction cf ops -> no_other_loop cf ops ->
  phase (run cf ops) c1 = CInWrapped k l1 p1 b1 g1 -> phase (run cf ops) c2 = CInWrapped k l2 p2 b2 g2 -> c1 = c2.
Proof.
  intros Hf Hw Hph H1 H2. pose proof (reachable_inv1 cf ops) as I. set (s := run cf ops) in *.
  assert (g1 = cur s) by (apply (I_gen _ _ I Hph c1); now rewrite H1).
  assert (g2 = cur s) by (apply (I_gen _ _ I Hph c2); now rewrite H2). subst g1 g2.
  pose proof (I_A _ _ I Hf Hw _ _ _ _ _ _ H1) as A1. pose proof (I_A _ _ I Hf Hw _ _ _ _ _ _ H2) as A2.
  assert (l1 = l2) by congruence. subst l2.
  eapply held_unique; [apply (L_inv _ _ _ _ _ (I_lp _ _ I) l1)| |];
    eapply (L_run _ _ _ _ _ (I_lp _ _ I)); eauto.
Qed.

(* the two ways of executing the wrapped function exclude each other: through the cache (CInWrapped, and the
   lock-wait / entry phases) only if maxsize <> 0, through the lock-free path (CBypass) only if maxsize = 0.  For
   maxsize = 0 there is no single flight at all (finding F32, lru_refuted_maxsize0_double_flight). *)
Theorem lru_paths_exclusive cf ops c :
  (forall k p b, phase (run cf ops) c = CBypass k p b -> is_zero_max cf = true) /\
  (forall k l p b g, phase (run cf ops) c = CInWrapped k l p b g -> is_zero_max cf = false) /\
  (forall k l t0 g, phase (run cf ops) c = CLockWait k l t0 g -> is_zero_max cf = false).
Proof.
  pose proof (reachable_inv1 cf ops) as I. refine (conj _ (conj _ _)).
  - intros k p b H. apply (I_byp _ _ I c). now rewrite H.
  - intros k l p b g H. apply (I_nobyp _ _ I c k l). now rewrite H.
  - intros k l t0 g H. apply (I_nobyp _ _ I c k l). now rewrite H.
Qed.

(* later callers reuse the first result: a caller that waited for the entry's lock and finds the value stored
   returns that value (or is cancelled) and never starts an execution of its own *)
Theorem lru_reuse_first_result cf ops c k l t0 g v e :
  phase (run cf ops) c = CLockWait k l t0 g ->
  dget k (dicts (run cf ops) g) = Some (EVal v e) ->
  let r := snd (step cf (run cf ops) (Resume c)) in
  r = RRet v \/ r = RCancelled \/ r = RRejected.
Proof.
  intros Hp Hd. cbv zeta. destruct (dget_some _ _ _ Hd) as (x & Hx & Hse & _).
  destruct (resume_wait cf _ c k l t0 g Hp) as [H|[H|[H|[[_ H]|[[_ (y & l' & b' & H & H')]|(y & v2 & e2 & -> & H & H' & _)]]]]];
    auto; try congruence.
  - now elim (proj1 (proj2 (step_ok cf _ (Resume c) (reachable_inv cf ops)))).
  - left. congruence.
Qed.

(* 3. calls with different arguments do not block one another                                         *)
Theorem lru_distinct_keys_independent cf ops c k l t0 g :
  phase (run cf ops) c = CLockWait k l t0 g ->
  lkey (run cf ops) l = k /\
  (forall c', Lock.phase_of (locks (run cf ops) l) c' <> Lock.Idle \/ In c' (Lock.held (locks (run cf ops) l)) ->
     (exists t g', phase (run cf ops) c' = CLockWait k l t g') \/
     (exists p b g', phase (run cf ops) c' = CInWrapped k l p b g')) /\
  (forall c', Lock.owner (locks (run cf ops) l) = Some c' ->
     (exists t g', phase (run cf ops) c' = CLockWait k l t g') \/
     (exists p b g', phase (run cf ops) c' = CInWrapped k l p b g')).
Proof.
  intros Hp. pose proof (reachable_inv1 cf ops) as I. set (s := run cf ops) in *.
  pose proof (I_lp _ _ I) as LPs.
  assert (Hk : lkey s l = k) by (apply (L_ref _ _ _ _ _ LPs c); now rewrite Hp).
  assert (Heng : forall c', engaged (locks s l) c' ->
            (exists t g', phase s c' = CLockWait k l t g') \/ (exists p b g', phase s c' = CInWrapped k l p b g')).
  { intros c' He. destruct (L_eng _ _ _ _ _ LPs l c' He) as [k' Hk'].
    destruct (L_ref _ _ _ _ _ LPs c' k' l Hk') as [_ E]. assert (Ek : k' = k) by congruence.
    destruct (phase s c') as [|k1|k1 l1 t1 g1|k1 l1 p1 b1 g1|k1 v1 b1|k1 p1 b1]; cbn in Hk'; try discriminate;
      injection Hk' as E1 E2.
    - left. exists t1, g1. congruence.
    - right. exists p1, b1, g1. congruence. }
  refine (conj Hk (conj Heng _)).
  intros c' Ho. apply Heng. apply (LockProofs.I_owner _ (L_inv _ _ _ _ _ LPs l)) in Ho.
  destruct Ho as [H|[H|(f & H & _)]]; [right; exact H|left; congruence|left; congruence].
Qed.

(* 4. no internal error                                                                               *)
Theorem lru_no_internal_error cf ops o :
  no_inflight_eviction cf (ops ++ [o]) -> no_waited_eviction cf (ops ++ [o]) ->
  snd (step cf (run cf ops) o) <> RKeyError /\ snd (step cf (run cf ops) o) <> RLockErr.
Proof.
  unfold no_inflight_eviction, no_waited_eviction, evicts_inflight, evicts_waited. rewrite run_snoc.
  intros Hf Hw. destruct (step_ok cf (run cf ops) o (reachable_inv cf ops)) as [_ [H1 H2]]. auto.
Qed.

(* the embedded locks never report an error, whatever is evicted *)
Theorem lru_no_lock_error cf ops o : snd (step cf (run cf ops) o) <> RLockErr.
Proof. apply (step_ok cf (run cf ops) o (reachable_inv cf ops)). Qed.

(* 5. bounded retention                                                                               *)
(* results + counted placeholders (in particular: placeholders of running computations) of the running loop's
   dict never exceed maxsize *)
Theorem lru_bounded cf ops m :
  no_inflight_eviction cf ops -> no_waited_eviction cf ops -> no_uncounted_eviction cf ops ->
  maxsize cf = Some m ->
  length (filter (fun x => negb (is_place (se x))) (dict (run cf ops))) +
  length (filter (fun x => match se x with EPlace _ true => true | _ => false end) (dict (run cf ops))) <= m.
Proof.
  intros Hf Hw Hu Hm. destruct (I_bound _ _ (reachable_inv2 cf ops) Hf Hw Hu) as [H1 H2]. specialize (H2 m Hm).
  change (nval (dict (run cf ops)) + ncnt (dict (run cf ops)) <= m). lia.
Qed.

(* every running computation of the current dict owns a counted placeholder (so it is included above) *)
Theorem lru_running_is_counted cf ops c k l p b g :
  no_inflight_eviction cf ops -> no_waited_eviction cf ops ->
  phase (run cf ops) c = CInWrapped k l p b g -> dget k (dicts (run cf ops) g) = Some (EPlace l true).
Proof. intros Hf Hw. apply (I_A _ _ (reachable_inv1 cf ops) Hf Hw). Qed.

(* without any of the finding patterns the count is exact *)
Theorem lru_count_exact cf ops :
  no_inflight_eviction cf ops -> no_waited_eviction cf ops -> no_uncounted_eviction cf ops ->
  no_dead_placeholder cf ops -> no_other_loop cf ops ->
  currsize (run cf ops) =
  Z.of_nat (length (filter (fun x => negb (is_place (se x))) (dict (run cf ops))) +
            length (filter (fun x => match se x with EPlace _ true => true | _ => false end) (dict (run cf ops)))).
Proof.
  intros H1 H2 H3 H4 H5. apply (I_eq _ _ (reachable_inv2 cf ops)). unfold clean5. auto.
Qed.

(* an entry of the current dict disappears in a step (other than cache_clear / a new loop) only when the count
   has reached maxsize ... *)
Lemma step_evict_full cf s o :
  Inv cf s -> o <> Clear -> o <> NewLoop ->
  (exists key, In key (keys (dict s)) /\ ~ In key (keys (dict (fst (step cf s o))))) ->
  exists m, maxsize cf = Some m /\ (Z.of_nat m <= currsize (fst (step cf s o)))%Z.
Proof.
  intros IJ Hn1 Hn2 (key & Hin & Hout). pose proof IJ as [I J].
  assert (Hfull : forall s0, full cf s0 = true -> exists m, maxsize cf = Some m /\ (Z.of_nat m <= currsize s0)%Z).
  { intros s0 H. unfold full in H. destruct (maxsize cf) as [m|]; [|discriminate]. exists m. split; [reflexivity|lia]. }
  assert (Hsame : dicts (fst (step cf s o)) = dicts s -> cur (fst (step cf s o)) = cur s -> False).
  { intros E1 E2. apply Hout. unfold dict. now rewrite E1, E2. }
  destruct (step_facts cf s o IJ) as (_ & _ & V).
  destruct V as [_ _ Hd|c a x _ Hs' _|c k l t0 g s1 _ _ _ _ _ Ed Ec _ _ _ Hs' _|c k l g v _ _ _ Ed Ec _ _
                |c k v _ _ _ Ed Ec _ _|c k v _ _ _ Ed Ec _ _|c k e _ _ _ Ed Ec _ _]; try (now elim (Hsame Ed Ec)).
  - destruct (Hd Hn1 Hn2) as (Ed & Ec & _). now elim (Hsame Ed Ec).
  - rewrite Hs' in *. clear Hs' Hsame.
    destruct (enter_facts cf s c a x IJ) as (_ & _ & [[H _]|[(_ & H & H' & _)|[H|H]]]); cbv zeta in *.
    + exfalso. apply Hout. now rewrite H.
    + exfalso. apply Hout. unfold dict. now rewrite H, H'.
    + destruct H as (y & v0 & exp & _ & _ & _ & _ & _ & Hd & Hc & _). exfalso. apply Hout.
      unfold dict. rewrite Hd, Hc, upd_same. now apply keys_dmove_in.
    + destruct H as (sp & l & _ & _ & _ & E & _ & Hc & _ & _ & _ & _ & HL).
      destruct (at_lock_touched cf s sp _ l I HL) as ((_ & HT & _) & _). rewrite E in *. pose proof (acquire_facts cf sp c (key_of cf a) l x) as F. cbv zeta in F.
      destruct F as (_ & Hc' & _ & _ & _ & _ & Hev).
      assert (Hin' : In key (keys (dicts sp (cur sp)))).
      { destruct (in_keys_ex _ _ Hin) as (z & Hz & <-). destruct (HT z Hz) as (z' & Hz' & <- & _). apply in_keys, Hz'. }
      unfold dict in Hout. rewrite Hc' in Hout.
      destruct (Hev (ex_intro _ key (conj Hin' Hout))) as [Hf Hcc]. rewrite Hcc. now apply Hfull.
  - rewrite Hs' in *. pose proof (body_facts cf s1 c k l g) as F. cbv zeta in F.
    destruct F as (_ & Hc1 & Hoth & _ & _ & _ & Hev). unfold dict in Hin, Hout. rewrite Hc1, Ec in Hout. rewrite <- Ed in Hin.
    destruct (Nat.eq_dec (cur s) g) as [<-|N]; [|exfalso; apply Hout; rewrite (Hoth _ N); exact Hin].
    destruct (Hev (ex_intro _ key (conj Hin Hout))) as [Hf Hc]. rewrite Hc. now apply Hfull.
  - exfalso. apply Hout. unfold dict in *. rewrite Ed, Ec.
    destruct (Nat.eq_dec (cur s) g) as [<-|N]; [rewrite upd_same|now rewrite upd_other].
    unfold dstore. destruct (dfind k (dicts s (cur s))); [now rewrite keys_dset_in|].
    unfold keys. rewrite map_app. apply in_or_app. now left.
Qed.

(* ... and, without any of the finding patterns, exactly when the number of counted live entries is maxsize:
   after the evicting step the dict holds maxsize counted entries (results + the evictor's own placeholder) *)
Theorem lru_evicts_only_when_full cf ops o key :
  no_inflight_eviction cf (ops ++ [o]) -> no_waited_eviction cf (ops ++ [o]) ->
  no_uncounted_eviction cf (ops ++ [o]) -> no_dead_placeholder cf (ops ++ [o]) -> no_other_loop cf (ops ++ [o]) ->
  o <> Clear -> o <> NewLoop ->
  In key (map sk (dict (run cf ops))) -> ~ In key (map sk (dict (run cf (ops ++ [o])))) ->
  exists m, maxsize cf = Some m /\
    length (filter (fun x => negb (is_place (se x))) (dict (run cf (ops ++ [o])))) +
    length (filter (fun x => match se x with EPlace _ true => true | _ => false end) (dict (run cf (ops ++ [o])))) = m.
Proof.
  intros H1 H2 H3 H4 H5 Hn1 Hn2 Hin Hout.
  pose proof (reachable_inv2 cf (ops ++ [o])) as J'.
  assert (HC : clean5 (run cf (ops ++ [o]))) by (unfold clean5; auto).
  pose proof (I_eq _ _ J' HC) as Heq. destruct (I_bound _ _ J' H1 H2 H3) as [_ Hle].
  rewrite run_snoc in *.
  destruct (step_evict_full cf (run cf ops) o (reachable_inv cf ops) Hn1 Hn2 (ex_intro _ key (conj Hin Hout)))
    as (m & Hm & Hge).
  exists m. split; [exact Hm|]. specialize (Hle m Hm).
  change (nval (dict (fst (step cf (run cf ops) o))) + ncnt (dict (fst (step cf (run cf ops) o))) = m). lia.
Qed.

(* 6. least recently used first                                                                       *)
Theorem lru_order cf ops g :
  NoDup (map sk (dicts (run cf ops) g)) /\
  StronglySorted (fun a b => ss a < ss b) (dicts (run cf ops) g) /\
  (forall x, In x (dicts (run cf ops) g) -> ss x < clk (run cf ops)).
Proof.
  pose proof (reachable_inv1 cf ops) as I.
  exact (conj (I_nodup _ _ I g) (conj (I_sorted _ _ I g) (I_stamp _ _ I g))).
Qed.

Lemma after_uses cf sp g k ck d d' :
  Inv1 cf sp -> touched k ck d (dicts sp g) -> ck <= clk sp ->
  d' = dicts sp g \/ d' = dmark k (dicts sp g) \/ d' = dmark k (tl (dicts sp g)) \/
  d' = dmove k (clk sp) (dicts sp g) ->
  touch_or_evict k ck d d'.
Proof.
  intros I HT Hc [->|[->|[->| ->]]].
  - exists (dicts sp g), k. auto.
  - exists (dicts sp g), k. auto.
  - exists (dicts sp g), k. auto.
  - exists (dmove k (clk sp) (dicts sp g)), k. split; [|now left].
    eapply touched_trans; [exact HT|]. apply touched_dmove; [apply (I_sorted _ _ I)|apply (I_stamp _ _ I g)|exact Hc].
Qed.

Lemma step_uses cf s o g :
  Inv cf s -> o <> Clear -> o <> NewLoop ->
  exists k, (call_key cf s o = Some k \/ dicts (fst (step cf s o)) g = dicts s g) /\
            touch_or_evict k (clk s) (dicts s g) (dicts (fst (step cf s o)) g).
Proof.
  intros IJ Hn1 Hn2. pose proof IJ as [I J].
  assert (Hsame : forall d', d' = dicts s g -> exists k, (call_key cf s o = Some k \/ d' = dicts s g) /\
                                                    touch_or_evict k (clk s) (dicts s g) d').
  { intros d' ->. exists 0. split; [now right|]. exists (dicts s g), 0.
    split; [apply touched_refl, (I_sorted _ _ I)|now left]. }
  destruct (step_facts cf s o IJ) as (_ & _ & V).
  destruct V as [_ _ Hd|c a x -> -> _|c k l t0 g0 s1 -> Hp [I1 _] _ _ Ed _ Ec _ _ -> _|c k l g0 v -> Hp _ Ed _ _ _
                |c k v _ _ _ Ed _ _ _|c k v _ _ _ Ed _ _ _|c k e _ _ _ Ed _ _ _]; try (apply Hsame; now rewrite Ed).
  - apply Hsame. destruct (Hd Hn1 Hn2) as (-> & _). reflexivity.
  - exists (key_of cf a). split; [left; now destruct x|].
    assert (Hrefl : forall d', d' = dicts s g -> touch_or_evict (key_of cf a) (clk s) (dicts s g) d').
    { intros d' ->. exists (dicts s g), 0. split; [apply touched_refl, (I_sorted _ _ I)|now left]. }
    destruct (enter_facts cf s c a x IJ) as (_ & _ & [[H _]|[(_ & H & _)|[H|H]]]); cbv zeta in *.
    + apply Hrefl. now rewrite H.
    + apply Hrefl. now rewrite H.
    + destruct H as (y & v0 & exp & _ & _ & _ & _ & _ & Hd & _). rewrite Hd.
      destruct (Nat.eq_dec g (cur s)) as [->|N]; [rewrite upd_same|apply Hrefl; now rewrite upd_other].
      exists (dmove (key_of cf a) (clk s) (dict s)), 0. split; [|now left].
      apply touched_dmove; [apply (I_sorted _ _ I)|apply (I_stamp _ _ I)|lia].
    + destruct H as (sp & l & _ & _ & [Isp _] & E & _ & Hc & Hoth & _ & _ & _ & HL). rewrite E.
      destruct (at_lock_touched cf s sp _ l I HL) as (HT & Hck & _).
      pose proof (acquire_facts cf sp c (key_of cf a) l x) as F. cbv zeta in F. destruct F as (_ & _ & Hoth' & Hd & _).
      rewrite Hc in Hd, Hoth'. unfold dict in HT. rewrite Hc in HT.
      destruct (Nat.eq_dec g (cur s)) as [->|N]; [|apply Hrefl; rewrite (Hoth' _ N); now apply Hoth].
      apply (after_uses cf sp (cur s) (key_of cf a) (clk s) _ _ Isp HT Hck Hd).
  - exists k. split; [left; cbn [call_key]; now rewrite Hp|].
    pose proof (body_facts cf s1 c k l g0) as F. cbv zeta in F. destruct F as (_ & _ & Hoth & Hd & _).
    destruct (Nat.eq_dec g g0) as [->|N].
    + rewrite <- Ed. apply (after_uses cf s1 g0 k (clk s) _ _ I1); [apply touched_refl, (I_sorted _ _ I1)|lia|exact Hd].
    + rewrite (Hoth _ N), Ed. exists (dicts s g), 0. split; [apply touched_refl, (I_sorted _ _ I)|now left].
  - exists k. split; [left; cbn [call_key]; now rewrite Hp|]. rewrite Ed.
    destruct (Nat.eq_dec g g0) as [->|N]; [rewrite upd_same|rewrite upd_other by assumption].
    + exists (dstore k (EVal v (new_exp cf (now s))) (clk s) (dicts s g0)), 0. split; [|now left].
      apply touched_dstore; [apply (I_sorted _ _ I)|apply (I_stamp _ _ I g0)|lia].
    + exists (dicts s g), 0. split; [apply touched_refl, (I_sorted _ _ I)|now left].
Qed.

(* LRU eviction at full strength (ttl included): an entry whose key disappears from a dict in a step other than
   cache_clear() / a new loop was last used (installed, hit, reused after a wait, or recomputed after expiry)
   strictly before every entry that remains *)
Theorem lru_evicts_oldest_use cf ops o g x :
  o <> Clear -> o <> NewLoop -> In x (dicts (run cf ops) g) ->
  (forall y, In y (dicts (fst (step cf (run cf ops) o)) g) -> sk y <> sk x) ->
  forall y', In y' (dicts (fst (step cf (run cf ops) o)) g) -> ss x < ss y'.
Proof.
  intros Hn1 Hn2 Hx Hgone.
  destruct (step_uses cf (run cf ops) o g (reachable_inv cf ops) Hn1 Hn2) as (k & _ & d1 & k0 & HT & Hd).
  eapply touched_evict; eauto.
Qed.

(* stamps change only by a use: after a step every entry either carries the stamp it had, or belongs to the key
   of the call that acted in this step and carries a stamp newer than everything before *)
Theorem lru_stamp_is_last_use cf ops o g y' :
  o <> Clear -> o <> NewLoop -> In y' (dicts (fst (step cf (run cf ops) o)) g) ->
  (exists y, In y (dicts (run cf ops) g) /\ sk y = sk y' /\ ss y = ss y') \/
  (call_key cf (run cf ops) o = Some (sk y') /\ clk (run cf ops) <= ss y').
Proof.
  intros Hn1 Hn2 Hy.
  destruct (step_uses cf (run cf ops) o g (reachable_inv cf ops) Hn1 Hn2) as (k & Hk & d1 & k0 & (_ & _ & HB) & Hd).
  destruct Hk as [Hk|Hk]; [|left; exists y'; rewrite <- Hk; auto].
  assert (Hin : exists y1, In y1 d1 /\ sk y1 = sk y' /\ ss y1 = ss y').
  { destruct Hd as [E|[E|E]]; rewrite E in Hy.
    - exists y'. auto.
    - apply in_dmark_stamp in Hy. exact Hy.
    - apply in_dmark_stamp in Hy. destruct Hy as (y1 & H1 & H2). exists y1. split; [|exact H2].
      destruct d1; [contradiction|now right]. }
  destruct Hin as (y1 & Hy1 & Ek & Es). destruct (HB y1 Hy1) as [(y0 & H0 & E1 & E2)|[E L]].
  - left. exists y0. split; [exact H0|]. split; congruence.
  - right. split; [congruence|lia].
Qed.

(* ... and every use does refresh the stamp: after a call that installs, hits or recomputes after expiry, and
   after a waiter's reuse of a flight's result, the key (while it is in the dict) carries a stamp >= the clock,
   i.e. newer than every stamp of the state before (lru_order) *)
Theorem lru_use_refreshes cf ops o k g :
  ((exists c a, (o = Call c a \/ o = CallX c a) /\ key_of cf a = k /\ g = cur (run cf ops) /\
      snd (step cf (run cf ops) o) <> RRejected /\
      is_zero_max cf = false /\ (forall l b, dget k (dict (run cf ops)) <> Some (EPlace l b))) \/
   (exists c l t0 v, o = Resume c /\ phase (run cf ops) c = CLockWait k l t0 g /\
      snd (step cf (run cf ops) o) = RRet v)) ->
  forall y, In y (dicts (fst (step cf (run cf ops) o)) g) -> sk y = k -> clk (run cf ops) <= ss y.
Proof.
  pose proof (reachable_inv cf ops) as IJ. pose proof IJ as [I J]. set (s := run cf ops) in *.
  intros [(c & a & Ho & Hk & Hg & Hacc & Hz & Hnp)|(c & l & t0 & v & -> & Hp & Hr)].
  - assert (Hx : exists x, step cf s o = enter cf s c a x) by (destruct Ho as [-> | ->]; [exists false|exists true]; reflexivity).
    destruct Hx as [x Ex]. rewrite Ex in *. subst g k.
    destruct (enter_facts cf s c a x IJ) as (_ & _ & [[_ H]|[(H & _)|[H|H]]]); cbv zeta in *; try congruence.
    + destruct H as (y0 & v0 & exp & _ & _ & _ & _ & _ & Hd & _). rewrite Hd, upd_same. apply fresh_dmove. lia.
    + destruct H as (sp & l & _ & _ & _ & E & _ & Hc & _ & _ & _ & _ & HL). rewrite E.
      destruct (at_lock_touched cf s sp _ l I HL) as (_ & Hck & Hfr). specialize (Hfr Hnp). unfold dict in Hfr. rewrite Hc in Hfr.
      pose proof (acquire_facts cf sp c (key_of cf a) l x) as F. cbv zeta in F. destruct F as (_ & _ & _ & Hd & _).
      rewrite Hc in Hd. destruct Hd as [Hd|[Hd|[Hd|Hd]]]; rewrite Hd.
      * exact Hfr.
      * intros y Hy Hky. apply in_dmark_stamp in Hy. destruct Hy as (y1 & H1 & H2 & H3). rewrite <- H3. apply Hfr; congruence.
      * intros y Hy Hky. apply in_dmark_stamp in Hy. destruct Hy as (y1 & H1 & H2 & H3). rewrite <- H3.
        apply Hfr; [|congruence]. destruct (dicts sp (cur s)); [contradiction|now right].
      * apply fresh_dmove. lia.
  - destruct (resume_wait cf s c k l t0 g Hp) as [H|[H|[H|[[H _]|[[H _]|(x & v2 & e2 & _ & _ & _ & Hd)]]]]];
      try congruence.
    rewrite Hd. apply fresh_dmove, le_n.
Qed.

(* 7. an expired entry is recomputed, not served                                                      *)
(* lookup path: a call that is answered from the cache at once (returned, or in the hit checkpoint) found an
   entry that had not expired *)
Theorem lru_expired_recomputed cf ops c a x v :
  let s := run cf ops in
  snd (enter cf s c a x) <> RRejected ->
  (snd (enter cf s c a x) = RRet v \/
   exists b, phase (fst (enter cf s c a x)) c = CHitCk (key_of cf a) v b) ->
  exists y exp, dfind (key_of cf a) (dict s) = Some y /\ se y = EVal v exp /\ expired exp (now s) = false.
Proof.
  cbv zeta. intros Hacc Hres. now apply (enter_result cf _ c a x (reachable_inv cf ops)).
Qed.

(* re-read path (the caller waited for the entry's lock): the value it is served was stored after its call began,
   i.e. it expires no earlier than ttl after the call *)
Theorem lru_reread_serves_fresh cf ops c k l t0 g v :
  phase (run cf ops) c = CLockWait k l t0 g ->
  snd (step cf (run cf ops) (Resume c)) = RRet v ->
  exists exp, dget k (dicts (run cf ops) g) = Some (EVal v exp) /\
              forall e dl, exp = Some e -> ttl cf = Some dl -> t0 + dl <= e.
Proof.
  intros Hp Hr. pose proof (reachable_inv1 cf ops) as I. set (s := run cf ops) in *.
  destruct (resume_wait cf s c k l t0 g Hp) as [H|[H|[H|[[H _]|[[H _]|(y & v2 & e2 & H & H1 & H2 & _)]]]]]; try congruence.
  assert (v2 = v) by congruence. subst v2.
  assert (Hd : dget k (dicts s g) = Some (EVal v e2)) by (rewrite (dget_find _ _ _ H1), H2; reflexivity).
  exists e2. split; [exact Hd|]. intros e dl -> Ht. apply (I_fresh _ _ I c k l t0 g v e dl Hp Hd Ht).
Qed.

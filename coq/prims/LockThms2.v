(* C09, trace-level FIFO and liveness of the owner, without further ghost state.
   enq s is the arrival log (every (task, future) ever enqueued, in order); its entries are unique because futures
   are numbered by the counter nfut. *)
From AV Require Import Base Lock LockProofs LockThms.

(* the arrival log has no duplicates *)
Definition EnqOk (s : st) : Prop :=
  (forall t f, In (t, f) (enq s) -> f < nfut s) /\ NoDup (map snd (enq s)).

Lemma enqok_init fa : EnqOk (init fa).
Proof. split; cbn; [intros t f []|constructor]. Qed.

Lemma enqok_step s o : EnqOk s -> EnqOk (fst (step s o)).
Proof.
  intros [Hlt Hnd]. destruct (step_enq s o) as [[E N]|(t & E & N)]; unfold EnqOk; rewrite E, N.
  - split; assumption.
  - split.
    + intros t' f' H. apply in_app_or in H. destruct H as [H|[H|[]]].
      * apply Hlt in H. lia.
      * inversion H; subst. lia.
    + rewrite map_app. cbn. apply NoDup_snoc; [exact Hnd|].
      intros H. apply in_map_iff in H. destruct H as ([t' f'] & Ef & Hin). cbn in Ef. subst f'.
      apply Hlt in Hin. lia.
Qed.

Lemma reach_enqok fa s : reach fa s -> EnqOk s.
Proof.
  intros [ops ->]. apply (final_inv step EnqOk); [intros; now apply enqok_step|apply enqok_init].
Qed.

Theorem lock_arrival_log_unique fa s : reach fa s -> NoDup (map snd (enq s)).
Proof. intros R. exact (proj2 (reach_enqok fa s R)). Qed.

Lemma subseq_split {A} (a b : list A) x l :
  subseq (a ++ x :: b) l -> exists pre post, l = pre ++ x :: post /\ subseq a pre /\ subseq b post.
Proof.
  revert a. induction l as [|y l IH]; intros a H.
  - inversion H; destruct a; discriminate.
  - inversion H as [|y' a' b' H1|y' a' b' H1]; subst.
    + destruct (IH a H1) as (pre & post & -> & Ha & Hb).
      exists (y :: pre), post. split; [reflexivity|]. split; [now apply ss_skip|exact Hb].
    + destruct a as [|a0 a]; cbn in *.
      * match goal with H0 : y :: _ = x :: b |- _ => inversion H0; subst end.
        exists [], l. split; [reflexivity|]. split; [apply ss_nil|exact H1].
      * match goal with H0 : y :: _ = a0 :: _ |- _ => inversion H0; subst end.
        destruct (IH a H1) as (pre & post & -> & Ha & Hb).
        exists (a0 :: pre), post. split; [reflexivity|]. split; [now apply ss_take|exact Hb].
Qed.

(* grants follow the arrival order *)
Theorem lock_grant_in_arrival_order fa s t : reach fa s -> owner s = Some t -> phase_of s t = Idle ->
  let s' := do_release s t in
  match owner s' with
  | Some w =>
      exists f pre post, enq s = pre ++ (w, f) :: post /\ futs s f <> FCancelled /\ futs s' f = FSet /\
        (* every task that started waiting before w is no longer waiting: it was granted the lock earlier, withdrew
           after a cancellation, or its wait is cancelled and it is skipped right now *)
        (forall x, In x pre -> ~ In x (waiters s')) /\
        (forall t' f', In (t', f') pre -> In (t', f') (waiters s) -> futs s f' = FCancelled)
  | None => forall t' f', In (t', f') (waiters s) -> futs s f' = FCancelled
  end.
Proof.
  intros R Ho Hp s'. pose proof (reach_inv fa s R) as I. destruct (reach_enqok fa s R) as [_ Hnd].
  unfold s', do_release. pose proof (handoff_spec (waiters s) (futs s)) as HS.
  destruct (handoff (waiters s) (futs s)) as [[o ws'] fu']. cbn [owner waiters futs].
  destruct o as [w|].
  - destruct HS as (prew & f & Ew & Hf & Hu & Hpre).
    pose proof (I_fifo s I) as Hss. rewrite Ew in Hss.
    destruct (subseq_split prew ws' (w, f) (enq s) Hss) as (pre & post & Ee & Hpw & Hws).
    exists f, pre, post. split; [exact Ee|]. split; [exact Hf|].
    split; [subst fu'; unfold upd; now rewrite Nat.eqb_refl|].
    rewrite Ee, map_app in Hnd. cbn [map snd] in Hnd.
    assert (Hd1 : forall x, In x pre -> In x post -> False).
    { intros x H1 H2. apply (proj2 (proj2 (NoDup_app_inv (map snd pre) (snd (w, f) :: map snd post) Hnd)) (snd x)).
      - now apply in_map.
      - right. now apply in_map. }
    assert (Hd2 : ~ In (w, f) pre).
    { intros H1. apply (proj2 (proj2 (NoDup_app_inv (map snd pre) (f :: map snd post) Hnd)) f).
      - apply (in_map snd) in H1. exact H1.
      - now left. }
    split.
    + intros x Hin Hw. apply (Hd1 x Hin). exact (subseq_in _ _ _ Hws Hw).
    + intros t' f' Hin Hw. rewrite Ew in Hw. apply in_app_or in Hw. destruct Hw as [Hw|[Hw|Hw]].
      * eapply Hpre; eauto.
      * exfalso. apply Hd2. rewrite Hw. exact Hin.
      * exfalso. apply (Hd1 (t', f') Hin). exact (subseq_in _ _ _ Hws Hw).
  - destruct HS as (_ & _ & Hall). exact Hall.
Qed.

(* the recorded owner is always a live task: it holds the lock or has a wake-up coming *)
Theorem lock_owner_is_live fa s t : reach fa s -> owner s = Some t ->
  In t (held s) \/ phase_of s t = FastYield \/ exists f, phase_of s t = Waiting f /\ futs s f = FSet.
Proof. intros R Ho. apply (I_owner s (reach_inv fa s R) t). exact Ho. Qed.

(* non-vacuity: three waiters, the first one's wait is cancelled; the release grants the second and the arrival log
   shows the first before it *)
Example ex_grant_order :
  let s := final step (init false)
             [AcqNowait 1; AcqBegin 2; AcqBegin 3; AcqBegin 4; Cancel 2] in
  owner s = Some 1 /\ phase_of s 1 = Idle /\ owner (do_release s 1) = Some 3 /\
  enq s = [(2, 0); (3, 1); (4, 2)] /\ waiters (do_release s 1) = [(4, 2)].
Proof. vm_compute. repeat split; reflexivity. Qed.

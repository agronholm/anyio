(* Proofs about the Lru machine, part 3: every step preserves the invariant, and what a step may do and return. *)
From AV Require Import Base Lru LruLockFacts LruDict LruProofs LruInv LruCount.
From AV Require Lock.

Definition Inv (cf : cfg) (s : st) : Prop := Inv1 cf s /\ Inv2 cf s.

(* what a step of a state satisfying the invariant may return *)
Definition good (s' : st) (r : res) : Prop :=
  r <> RLockErr /\ (f_inflight s' = false -> f_waited s' = false -> r <> RKeyError).

Lemma lock_do_eq s l o :
  lock_do s l o = (set_lock s l (fst (Lock.step (locks s l) o)), snd (Lock.step (locks s l) o)).
Proof. unfold lock_do. destruct (Lock.step (locks s l) o). reflexivity. Qed.

Lemma release_eq s c l :
  release s c l =
  (set_lock s l (fst (Lock.step (locks s l) (Lock.Release c))),
   match snd (Lock.step (locks s l) (Lock.Release c)) with Lock.RDone => true | _ => false end).
Proof. unfold release. rewrite lock_do_eq. reflexivity. Qed.

Lemma good_plain s r : r <> RLockErr -> r <> RKeyError -> good s r.
Proof. intros H1 H2. split; auto. Qed.

Lemma init_inv cf : Inv cf init.
Proof. split; [apply init_inv1|apply init_inv2]. Qed.

Lemma inv_same cf s s' :
  Inv cf s ->
  (forall g, dicts s' g = dicts s g) -> cur s' = cur s -> currsize s' = currsize s -> locks s' = locks s ->
  nlock s' = nlock s -> (forall c, phase s' c = phase s c) ->
  now s' = now s -> clk s' = clk s -> lkey s' = lkey s -> produced s' = produced s -> fl s' = fl s ->
  Inv cf s'.
Proof.
  intros [I J] E1 E2 E3 E4 E5 E6 E7 E8 E9 E10 E11.
  split; [apply (inv1_same _ _ _ I)|apply (inv2_same _ _ _ J)]; assumption.
Qed.

(* the building blocks of `step` keep both invariants *)
Lemma counts_inv cf s h m : Inv cf s -> Inv cf (set_counts s h m (currsize s)).
Proof. intros [I J]. split; [apply (inv1_frame cf s), I|apply (inv2_frame cf s), J]. Qed.

Lemma has_dict_inv cf s : Inv cf s -> Inv cf (set_has_dict s).
Proof. intros [I J]. split; [apply (inv1_frame cf s), I|apply (inv2_frame cf s), J]. Qed.

Lemma set_lock_inv2 cf s l L : Inv2 cf s -> Inv2 cf (set_lock s l L).
Proof. apply (inv2_frame cf s). Qed.

(* the five flags the invariants read only ever get set *)
Definition fl_le (f f' : flagset) : Prop :=
  (fl_inflight f' = false -> fl_inflight f = false) /\ (fl_waited f' = false -> fl_waited f = false) /\
  (fl_uncounted f' = false -> fl_uncounted f = false) /\ (fl_dead f' = false -> fl_dead f = false) /\
  (fl_phantom f' = false -> fl_phantom f = false).

Lemma fl_inv cf s f : Inv cf s -> fl_le (fl s) f -> Inv cf (set_fl s f).
Proof. intros [I J] (H1 & H2 & H3 & H4 & H5). split; [now apply inv1_fl|now apply inv2_fl]. Qed.

Lemma fl_le_or f b :
  fl_le f (fl_or_waited f b) /\ fl_le f (fl_or_uncounted f b) /\ fl_le f (fl_or_dead f b) /\ fl_le f (fl_or_bypass2 f b).
Proof.
  unfold fl_le. cbn. repeat split; intros H; try exact H; apply orb_false_elim in H; apply H.
Qed.

Lemma touch_inv cf s g k : Inv cf s -> Inv cf (bump_clk (set_dict s g (dmove k (clk s) (dicts s g)))).
Proof. intros [I J]. split; [apply inv1_touch, I|apply inv2_touch; assumption]. Qed.

Lemma phase_only cf s c p' :
  Inv cf s -> c < ncall cf -> lockref (phase s c) = None -> lockref p' = None -> CallerOK cf s p' ->
  Inv cf (set_phase s c p').
Proof.
  intros [I J] Hc H1 H2 H3. split; [now apply inv1_phase_noref|].
  apply inv2_phase; [exact J| |apply (I_nodup _ _ I)].
  intros k l p b g H. rewrite H in H1. discriminate.
Qed.

Lemma running_only cf s c k l p b g p2 b2 :
  Inv cf s -> phase s c = CInWrapped k l p b g -> Inv cf (set_phase s c (CInWrapped k l p2 b2 g)).
Proof.
  intros [I J] Hp. split; [eapply inv1_phase_running; eauto|].
  apply inv2_phase; [exact J| |apply (I_nodup _ _ I)].
  intros k0 l0 p0 b0 g0 H. left. rewrite Hp in H. injection H as <- <- _ _ <-. eauto.
Qed.

(* release by a holder, then idle *)
Lemma leave_ok cf s c k l r :
  Inv cf s -> lockref (phase s c) = Some (k, l) -> In c (Lock.held (locks s l)) ->
  (forall k0 l0 p b g, phase s c = CInWrapped k0 l0 p b g ->
     clean5 s -> g = cur s -> dget k0 (dict s) <> Some (EPlace l0 true)) ->
  let '(s1, ok) := release s c l in
  finish s1 c ok r = (set_phase (set_lock s l (fst (Lock.step (locks s l) (Lock.Release c)))) c CIdle, r) /\
  Inv cf (set_phase (set_lock s l (fst (Lock.step (locks s l) (Lock.Release c)))) c CIdle).
Proof.
  intros [I J] Hp Hh Hno. rewrite release_eq.
  destruct (release_holder (locks s l) c (L_inv _ _ _ _ _ (I_lp _ _ I) l) Hh) as [E Hne].
  rewrite E. split; [reflexivity|]. split.
  - apply (inv1_out cf s c k l (Lock.Release c) I Hp eq_refl Hne).
  - apply inv2_phase; [apply set_lock_inv2, J| |sm; apply (I_nodup _ _ I)].
    sm. intros k0 l0 p b g H. right. intros HC Hg. apply (Hno _ _ _ _ _ H); auto.
Qed.

(* lines 197-214 *)
Lemma body_ok cf s c k l t0 g :
  Inv cf s -> phase s c = CLockWait k l t0 g -> In c (Lock.held (locks s l)) ->
  Inv cf (fst (body cf s c k l g)) /\ good (fst (body cf s c k l g)) (snd (body cf s c k l g)).
Proof.
  intros IJ Hp Hh. pose proof IJ as [I J]. unfold body. destruct (dfind k (dicts s g)) as [x|] eqn:Hfind.
  - pose proof (dget_find _ _ _ Hfind) as Hd. destruct (se x) as [l' b'|v e] eqn:Hse; cbv zeta.
    + split; [|apply good_plain; discriminate]. cbn [fst].
      destruct (counts_inv cf s (hits s) (S (misses s)) IJ) as [I1 J1].
      change (full cf (set_counts s (hits s) (S (misses s)) (currsize s))) with (full cf s).
      destruct (full cf s) eqn:Hfull; split.
      * destruct (evict_frame cf (set_counts s (hits s) (S (misses s)) (currsize s)) g) as [Ep El].
        apply (inv1_mark_run cf _ c k l t0 g (inv1_evict cf _ g I1)); [now rewrite Ep|now rewrite El|]. intros v e.
        destruct (dget_evict cf _ g k (I_nodup _ _ I1 g)) as [-> | ->]; [sm; congruence|discriminate].
      * exact (inv2_miss_evict cf _ c k l t0 g l' b' I1 J1 Hp Hh Hd).
      * apply (inv1_mark_run cf _ c k l t0 g (inv1_frame cf _ _ _ _ _ I1) Hp Hh). sm. congruence.
      * exact (inv2_miss_noevict cf s c k l t0 g l' b' _ _ I J Hp Hh Hd Hfull).
    + set (s2 := bump_clk _).
      assert (I2 : Inv cf s2) by apply touch_inv, counts_inv, IJ.
      pose proof (leave_ok cf s2 c k l (RRet v) I2) as H. destruct (release s2 c l) as [s3 ok].
      destruct H as [-> H]; [unfold s2; sm; now rewrite Hp|exact Hh|unfold s2; sm; congruence|].
      split; [exact H|apply good_plain; discriminate].
  - pose proof (leave_ok cf s c k l RKeyError IJ) as H. pose proof (release_eq s c l) as Er.
    destruct (release s c l) as [s1 ok]. destruct H as [-> H]; [now rewrite Hp|exact Hh|congruence|].
    split; [exact H|]. split; [discriminate|]. cbn [fst]. sm. intros Hf Hw _.
    destruct (I_B _ _ I Hf Hw _ _ _ _ _ Hp) as [[b H']|(v & e & H')]; rewrite (dget_none_find _ _ Hfind) in H'; discriminate.
Qed.

(* the state after an idle caller was marked and began to acquire the entry's lock *)
Lemma mark_inv cf s c k l b0 :
  Inv cf s -> phase s c = CIdle -> c < ncall cf -> dget k (dict s) = Some (EPlace l b0) ->
  l < nlock s -> lkey s l = k -> is_zero_max cf = false ->
  engaged (fst (Lock.step (locks s l) (Lock.AcqBegin c))) c ->
  Inv cf (set_lock (set_phase s c (CLockWait k l (now s) (cur s))) l
                   (fst (Lock.step (locks s l) (Lock.AcqBegin c)))).
Proof.
  intros [I J] Hp Hc Hd Hl Hk Hz He. split; [apply (inv1_mark cf s c k l b0); auto|].
  apply set_lock_inv2. apply inv2_phase; [exact J| |apply (I_nodup _ _ I)].
  intros k0 l0 p b g H. congruence.
Qed.

Lemma acquire_ok cf s c k l b0 :
  Inv cf s -> phase s c = CIdle -> c < ncall cf -> dget k (dict s) = Some (EPlace l b0) ->
  l < nlock s -> lkey s l = k -> is_zero_max cf = false ->
  Inv cf (fst (acquire cf s c k l)) /\ good (fst (acquire cf s c k l)) (snd (acquire cf s c k l)).
Proof.
  intros IJ Hp Hc Hd Hl Hk Hz. pose proof IJ as [I J]. unfold acquire. cbv zeta. rewrite lock_do_eq. sm.
  assert (Hne : ~ engaged (locks s l) c).
  { eapply LP_idle_not_engaged; [apply (I_lp _ _ I)|]. now rewrite Hp. }
  destruct (acq_begin_cases (locks s l) c (L_inv _ _ _ _ _ (I_lp _ _ I) l) Hne) as [[E Hh]|[E Hph]]; rewrite E.
  - set (s1 := set_lock (set_phase s c (CLockWait k l (now s) (cur s))) l
                        (fst (Lock.step (locks s l) (Lock.AcqBegin c)))).
    assert (I1 : Inv cf s1) by (eapply mark_inv; eauto; right; exact Hh).
    apply (body_ok cf s1 c k l (now s) (cur s) I1).
    + unfold s1. sm. apply upd_same.
    + unfold s1. sm. rewrite upd_same. exact Hh.
  - cbn [fst snd]. split; [|apply good_plain; discriminate].
    eapply mark_inv; eauto. left. exact Hph.
Qed.

Lemma acquire_x_ok cf s c k l :
  Inv cf s -> phase s c = CIdle -> c < ncall cf ->
  Inv cf (fst (acquire_x cf s c k l)) /\ good (fst (acquire_x cf s c k l)) (snd (acquire_x cf s c k l)).
Proof.
  intros IJ Hp Hc. unfold acquire_x. cbn [fst snd]. split; [|apply good_plain; discriminate].
  apply phase_only; [|exact Hc|sm; now rewrite Hp|reflexivity|exact Logic.I].
  apply fl_inv, fl_le_or. exact IJ.
Qed.

(* __call__ up to its first suspension *)
(* how sp, the state in which __call__ reaches `async with lock` l of key k, differs from s: not at all if the key
   has a placeholder; else by a fresh placeholder at the end of the current dict, appended or put in the place of
   the expired value and moved *)
Definition at_lock (s sp : st) (k : key) (l : lid) : Prop :=
  (dict sp = dict s /\ clk sp = clk s /\ exists b, dget k (dict s) = Some (EPlace l b)) \/
  (clk sp = S (clk s) /\
   (dict sp = dict s ++ [mkslot k (EPlace l false) (clk s)] /\ dfind k (dict s) = None \/
    dict sp = dmove k (clk s) (dset_in k (EPlace l false) (dict s)))).

(* It is over at once (rejected / maxsize = 0 / hit), or it goes on with acquire / acquire_x from a state sp that
   satisfies the invariant. *)
Lemma enter_facts cf s c a x :
  Inv cf s ->
  let k := key_of cf a in
  let s' := fst (enter cf s c a x) in
  let r := snd (enter cf s c a x) in
  Inv cf s' /\ good s' r /\
  ((s' = s /\ r = RRejected) \/
   (is_zero_max cf = true /\ dicts s' = dicts s /\ cur s' = cur s /\ produced s' = produced s /\
      currsize s' = currsize s /\ r = RBlocked /\ phase s' c = CBypass k None x) \/
   (exists y v exp, is_zero_max cf = false /\ phase s c = CIdle /\ dfind k (dict s) = Some y /\ se y = EVal v exp /\
      expired exp (now s) = false /\
      dicts s' = upd (dicts s) (cur s) (dmove k (clk s) (dict s)) /\ cur s' = cur s /\ produced s' = produced s /\
      currsize s' = currsize s /\
      ((r = RRet v /\ forall c0, phase s' c0 = phase s c0) \/ (r = RBlocked /\ phase s' c = CHitCk k v x))) \/
   (exists sp l, is_zero_max cf = false /\ phase sp c = CIdle /\ Inv cf sp /\
      enter cf s c a x = (if x then acquire_x else acquire) cf sp c k l /\
      produced sp = produced s /\ cur sp = cur s /\ (forall g, g <> cur s -> dicts sp g = dicts s g) /\
      now sp = now s /\ (exists b, dget k (dict sp) = Some (EPlace l b)) /\ (currsize sp <= currsize s)%Z /\
      at_lock s sp k l)).
Proof.
  intros IJ. pose proof IJ as [I J]. cbv zeta. unfold at_lock.
  (* the case analysis runs on an equation for `enter`: destructing inside the goal would copy the large successor
     state into every branch *)
  remember (enter cf s c a x) as e eqn:He. unfold enter in He.
  destruct (Nat.ltb c (ncall cf)) eqn:Hlt; cbn [negb] in He;
    [|subst e; split; [exact IJ|split; [apply good_plain; discriminate|auto]]].
  apply Nat.ltb_lt in Hlt.
  destruct (phase s c) eqn:Hp; cbn [is_cidle negb] in He;
    try (subst e; split; [exact IJ|split; [apply good_plain; discriminate|auto]]).
  set (k := key_of cf a) in *.
  destruct (is_zero_max cf) eqn:Hz.
  { subst e. cbn [fst snd]. split; [|split; [apply good_plain; discriminate|]].
    - apply phase_only; [|exact Hlt|sm; now rewrite Hp|reflexivity|exact Hz].
      apply fl_inv, fl_le_or. exact IJ.
    - right. left. sm. rewrite upd_same. auto 10. }
  cbv zeta in He.
  (* the rest of the call from sp *)
  assert (Hacq : forall sp l b, Inv cf sp -> phase sp c = CIdle -> dget k (dict sp) = Some (EPlace l b) ->
            l < nlock sp -> lkey sp l = k ->
            let e := (if x then acquire_x else acquire) cf sp c k l in Inv cf (fst e) /\ good (fst e) (snd e)).
  { intros sp l b I1 H1 H2 H3 H4. destruct x; [eapply acquire_x_ok|eapply acquire_ok]; eauto. }
  pose proof (has_dict_inv cf s IJ) as IJ0.
  change (dict (set_has_dict s)) with (dict s) in He. change (now (set_has_dict s)) with (now s) in He.
  destruct (dfind k (dict s)) as [y|] eqn:Hfind.
  - destruct (dfind_some _ _ _ Hfind) as [Hky Hin]. destruct (se y) as [l b|v exp] eqn:Hse.
    + subst e. destruct (I_place _ _ I _ y l b Hin Hse) as [H1 H2].
      assert (Hd : dget k (dict s) = Some (EPlace l b)) by (rewrite (dget_find _ _ _ Hfind), Hse; reflexivity).
      destruct (Hacq (set_has_dict s) l b IJ0 Hp Hd H1 (eq_trans H2 Hky)) as [HI Hg]. refine (conj HI (conj Hg _)).
      right. right. right. exists (set_has_dict s), l.
      refine (conj eq_refl (conj Hp (conj IJ0 (conj eq_refl (conj eq_refl (conj eq_refl (conj (fun _ _ => eq_refl)
               (conj eq_refl (conj (ex_intro _ b Hd) (conj (Z.le_refl _) _)))))))))). left. eauto.
    + destruct (expired exp (now s)) eqn:Hexp; subst e.
      * set (s4 := bump_clk _).
        assert (I4 : Inv cf s4).
        { assert (I1 : Inv cf (set_fl (set_has_dict s) (fl_or_waited (fl s) (waited cf s k (cur s)))))
            by (apply fl_inv, fl_le_or; exact IJ0).
          destruct I1 as [I1 J1]. split.
          - apply (inv1_replace cf _ k (nlock s) y v exp (inv1_new_lock cf _ k (inv1_frame cf _ _ _ _ _ I1))); sm;
              [exact Hfind|exact Hse|lia|apply upd_same|]. intros H. now apply orb_false_elim in H.
          - exact (inv2_replace cf _ k y v exp _ _ (I_nodup _ _ I1 _) J1 Hfind Hse). }
        assert (Hd : dget k (dict s4) = Some (EPlace (nlock s) false)).
        { unfold s4. sm. rewrite upd_same, dget_dmove, dget_dset_in_same, (dget_find _ _ _ Hfind). reflexivity. }
        destruct (Hacq s4 (nlock s) false I4 Hp Hd) as [HI Hg]; [unfold s4; sm; lia|unfold s4; sm; apply upd_same|].
        refine (conj HI (conj Hg _)). right. right. right. exists s4, (nlock s).
        refine (conj eq_refl (conj Hp (conj I4 (conj eq_refl (conj eq_refl (conj eq_refl (conj _ (conj eq_refl
                 (conj (ex_intro _ false Hd) (conj _ _)))))))))).
        -- intros g N. unfold s4. sm. now rewrite upd_other.
        -- unfold s4. sm. lia.
        -- right. split; [reflexivity|]. right. unfold s4. sm. apply upd_same.
      * set (s2 := bump_clk _).
        assert (I2 : Inv cf s2) by apply touch_inv, counts_inv, IJ0.
        assert (HI : Inv cf (fst (if ackpt cf then (set_phase s2 c (CHitCk k v x), RBlocked) else (s2, RRet v)))).
        { destruct (ackpt cf); [|exact I2]. apply phase_only; [exact I2|exact Hlt|unfold s2; sm; now rewrite Hp|reflexivity|].
          unfold s2. sm. rewrite <- Hky. apply (I_vdict _ _ I _ y v exp Hin Hse). }
        refine (conj HI (conj _ _)); [destruct (ackpt cf); apply good_plain; discriminate|].
        right. right. left. exists y, v, exp. refine (conj eq_refl (conj eq_refl (conj eq_refl (conj Hse (conj Hexp _))))).
        destruct (ackpt cf); cbn [fst snd]; unfold s2; sm; rewrite ?upd_same;
          refine (conj eq_refl (conj eq_refl (conj eq_refl (conj eq_refl _)))); auto.
  - subst e. set (s2 := bump_clk _).
    assert (I2 : Inv cf s2).
    { destruct IJ0 as [I0 J0]. split.
      - apply (inv1_append cf _ k (nlock s) (inv1_new_lock cf _ k I0)); sm; [exact Hfind|lia|apply upd_same].
      - exact (inv2_append cf (new_lock cf (set_has_dict s) k) k (nlock s) (inv2_frame cf (set_has_dict s) _ _ _ _ _ _ _ _ _ J0)). }
    assert (Hd : dget k (dict s2) = Some (EPlace (nlock s) false)).
    { unfold s2. sm. rewrite upd_same, dget_app, (dget_none_find _ _ Hfind), Nat.eqb_refl. reflexivity. }
    destruct (Hacq s2 (nlock s) false I2 Hp Hd) as [HI Hg]; [unfold s2; sm; lia|unfold s2; sm; apply upd_same|].
    refine (conj HI (conj Hg _)). right. right. right. exists s2, (nlock s).
    refine (conj eq_refl (conj Hp (conj I2 (conj eq_refl (conj eq_refl (conj eq_refl (conj _ (conj eq_refl
             (conj (ex_intro _ false Hd) (conj (Z.le_refl _) _)))))))))).
    + intros g N. unfold s2. sm. now rewrite upd_other.
    + right. split; [reflexivity|]. left. split; [|reflexivity]. unfold s2. sm. apply upd_same.
Qed.

(* what a step is, by the op and the phase of its caller *)
Inductive step_view (cf : cfg) (s : st) (o : op) (s' : st) (r : res) : Prop :=
| SV_quiet :
    produced s' = produced s -> r = RNone \/ r = RRejected \/ r = RCancelled ->
    (o <> Clear -> o <> NewLoop -> dicts s' = dicts s /\ cur s' = cur s /\ currsize s' = currsize s) ->
    step_view cf s o s' r
| SV_enter (c : cid) (a : nat) (x : bool) :
    o = (if x then CallX c a else Call c a) -> s' = fst (enter cf s c a x) -> r = snd (enter cf s c a x) ->
    step_view cf s o s' r
(* the caller got the lock it waited for: lines 197-214 run in s1, which is s with that lock handed over *)
| SV_body c k l t0 g s1 :
    o = Resume c -> phase s c = CLockWait k l t0 g ->
    Inv cf s1 -> phase s1 = phase s -> In c (Lock.held (locks s1 l)) ->
    dicts s1 = dicts s -> cur s1 = cur s -> clk s1 = clk s -> produced s1 = produced s -> currsize s1 = currsize s ->
    s' = fst (body cf s1 c k l g) -> r = snd (body cf s1 c k l g) -> step_view cf s o s' r
| SV_store c k l g v :
    o = Resume c -> phase s c = CInWrapped k l (Some (WRet v)) false g -> r = RRet v ->
    dicts s' = upd (dicts s) g (dstore k (EVal v (new_exp cf (now s))) (clk s) (dicts s g)) ->
    cur s' = cur s -> currsize s' = currsize s -> produced s' = (k, v) :: produced s -> step_view cf s o s' r
| SV_bypass_ret c k v :
    o = Resume c -> phase s c = CBypass k (Some (WRet v)) false -> r = RRet v ->
    dicts s' = dicts s -> cur s' = cur s -> currsize s' = currsize s -> produced s' = (k, v) :: produced s ->
    step_view cf s o s' r
| SV_hit c k v :
    o = Resume c -> phase s c = CHitCk k v false -> r = RRet v ->
    dicts s' = dicts s -> cur s' = cur s -> currsize s' = currsize s -> produced s' = produced s ->
    step_view cf s o s' r
| SV_exc c k e :
    o = Resume c ->
    (exists l g, phase s c = CInWrapped k l (Some (WExc e)) false g) \/ phase s c = CBypass k (Some (WExc e)) false ->
    r = RExc e ->
    dicts s' = dicts s -> cur s' = cur s -> currsize s' = currsize s -> produced s' = produced s ->
    step_view cf s o s' r.

Lemma quiet_step cf s o s' r :
  Inv cf s' -> dicts s' = dicts s -> cur s' = cur s -> currsize s' = currsize s -> produced s' = produced s ->
  r = RNone \/ r = RRejected \/ r = RCancelled ->
  Inv cf s' /\ good s' r /\ step_view cf s o s' r.
Proof.
  intros HI E1 E2 E3 E4 Hr. refine (conj HI (conj _ (SV_quiet cf s o s' r E4 Hr (fun _ _ => conj E1 (conj E2 E3))))).
  apply good_plain; destruct Hr as [-> |[-> | ->]]; discriminate.
Qed.

Lemma step_facts cf s o :
  Inv cf s ->
  Inv cf (fst (step cf s o)) /\ good (fst (step cf s o)) (snd (step cf s o)) /\
  step_view cf s o (fst (step cf s o)) (snd (step cf s o)).
Proof.
  intros IJ. pose proof IJ as [I J].
  assert (Hrej : forall o, Inv cf s /\ good s RRejected /\ step_view cf s o s RRejected)
    by (intros o0; apply quiet_step; auto).
  assert (Hent : forall c a (x : bool), o = (if x then CallX c a else Call c a) ->
            Inv cf (fst (enter cf s c a x)) /\ good (fst (enter cf s c a x)) (snd (enter cf s c a x)) /\
            step_view cf s o (fst (enter cf s c a x)) (snd (enter cf s c a x))).
  { intros c a x Ho. destruct (enter_facts cf s c a x IJ) as (H1 & H2 & _). refine (conj H1 (conj H2 _)).
    apply (SV_enter cf s o _ _ c a x Ho); reflexivity. }
  (* a caller that references no lock moves to another such phase *)
  assert (Hph : forall c p' r, lockref (phase s c) = None -> phase s c <> CIdle -> lockref p' = None -> CallerOK cf s p' ->
            r = RNone \/ r = RRejected \/ r = RCancelled ->
            Inv cf (set_phase s c p') /\ good (set_phase s c p') r /\ step_view cf s o (set_phase s c p') r).
  { intros c p' r H1 H2 H3 H4 Hr. apply quiet_step; auto.
    apply phase_only; auto. apply (L_ncall _ _ _ _ _ (I_lp _ _ I)), H2. }
  assert (Hbyp : forall c k p b, phase s c = CBypass k p b -> is_zero_max cf = true)
    by (intros c k p b H; apply (I_byp _ _ I c); now rewrite H).
  destruct o as [c a|c a|c v|c e|c|c| | |]; unfold step.
  - (* Call *)
    apply (Hent c a false eq_refl).
  - (* CallX *)
    apply (Hent c a true eq_refl).
  - (* WrappedReturns *)
    destruct (phase s c) as [|k|k l t0 g|k l [w|] [|] g|k v0 b|k [w|] [|]] eqn:Hp; try apply Hrej; cbn [fst snd].
    + apply quiet_step; auto. eapply running_only; eauto.
    + apply Hph; auto; [now rewrite Hp|congruence|eapply Hbyp; eauto].
  - (* WrappedRaises *)
    destruct (phase s c) as [|k|k l t0 g|k l [w|] [|] g|k v0 b|k [w|] [|]] eqn:Hp; try apply Hrej; cbn [fst snd].
    + apply quiet_step; auto. eapply running_only; eauto.
    + apply Hph; auto; [now rewrite Hp|congruence|eapply Hbyp; eauto].
  - (* CancelCaller *)
    destruct (phase s c) as [|k|k l t0 g|k l w b g|k v0 b|k w b] eqn:Hp; try apply Hrej; cbn [fst snd].
    + apply quiet_step; auto.
    + rewrite lock_do_eq. cbn [fst snd]. apply quiet_step; auto.
      assert (Heng : engaged (fst (Lock.step (locks s l) (Lock.Cancel c))) c).
      { destruct (cancel_same (locks s l) c) as [E1 E2]. unfold engaged. rewrite E1, E2.
        apply (L_wait _ _ _ _ _ (I_lp _ _ I) _ _ _ _ _ Hp). }
      split; [exact (inv1_lock_only cf s c k l t0 g (Lock.Cancel c) I Hp eq_refl Heng)|apply set_lock_inv2, J].
    + apply quiet_step; auto. eapply running_only; eauto.
    + apply Hph; auto; [now rewrite Hp|congruence|apply (I_vhit _ _ I _ _ _ _ Hp)].
    + apply Hph; auto; [now rewrite Hp|congruence|eapply Hbyp; eauto].
  - (* Resume *)
    destruct (phase s c) as [|k|k l t0 g|k l w b g|k v0 b|k w b] eqn:Hp; try apply Hrej.
    + (* cancelled at the lock entry *)
      apply Hph; auto; [now rewrite Hp|congruence|exact Logic.I].
    + (* suspended in lock.acquire() *)
      rewrite lock_do_eq.
      destruct (resume_cases (locks s l) c (L_inv _ _ _ _ _ (I_lp _ _ I) l)) as [[E Hh]|[[E Hne]| E]]; rewrite E;
        [| |apply Hrej].
      * set (s1 := set_lock s l _).
        assert (I1 : Inv cf s1).
        { split; [|apply set_lock_inv2, J].
          apply (inv1_lock_only cf s c k l t0 g (Lock.Resume c) I Hp eq_refl). right. exact Hh. }
        assert (Hh1 : In c (Lock.held (locks s1 l))) by (unfold s1; sm; rewrite upd_same; exact Hh).
        destruct (body_ok cf s1 c k l t0 g I1 Hp Hh1) as [HI Hg]. refine (conj HI (conj Hg _)).
        apply (SV_body cf s _ _ _ c k l t0 g s1); auto.
      * cbn [fst snd]. apply quiet_step; auto.
        (* the order of the two setters is immaterial *)
        refine (fl_inv cf (set_phase (set_lock s l (fst (Lock.step (locks s l) (Lock.Resume c)))) c CIdle) _ _
                       (proj1 (proj2 (fl_le_or _ _)))).
        split; [apply (inv1_out cf s c k l (Lock.Resume c) I); [now rewrite Hp|reflexivity|exact Hne]|].
        apply inv2_phase; [apply set_lock_inv2, J| |sm; apply (I_nodup _ _ I)]. sm. intros; congruence.
    + (* inside the wrapped function *)
      pose proof (L_run _ _ _ _ _ (I_lp _ _ I) _ _ _ _ _ _ Hp) as Hh.
      set (sd := set_fl s (fl_or_dead (fl s) (dead_left k (dicts s g)))).
      assert (Id : Inv cf sd) by (apply fl_inv, fl_le_or; exact IJ).
      assert (Hrd : lockref (phase sd c) = Some (k, l)) by (unfold sd; sm; now rewrite Hp).
      assert (Hnod : forall k0 l0 p0 b0 g0, phase sd c = CInWrapped k0 l0 p0 b0 g0 ->
                clean5 sd -> g0 = cur sd -> dget k0 (dict sd) <> Some (EPlace l0 true)).
      { intros k0 l0 p0 b0 g0 H (_ & _ & _ & Hdd & _) Hg Hget. unfold sd in *. sm.
        rewrite Hp in H. injection H as <- <- _ _ <-. subst g.
        apply orb_false_elim in Hdd. destruct Hdd as [_ Hdd]. unfold dead_left in Hdd.
        destruct (dget_some _ _ _ Hget) as (y & Ey & Hsy & _). rewrite Ey, Hsy in Hdd. discriminate. }
      assert (Hleave : forall r, let '(s1, ok) := release sd c l in
                finish s1 c ok r = (set_phase (set_lock sd l (fst (Lock.step (locks s l) (Lock.Release c)))) c CIdle, r) /\
                Inv cf (set_phase (set_lock sd l (fst (Lock.step (locks s l) (Lock.Release c)))) c CIdle))
        by (intros r; apply (leave_ok cf sd c k l r Id Hrd Hh Hnod)).
      destruct b.
      * specialize (Hleave RCancelled). destruct (release sd c l) as [s1 ok]. destruct Hleave as [-> HI].
        apply quiet_step; auto.
      * destruct w as [[v|e]|]; [| |apply Hrej].
        -- cbv zeta. set (s2 := bump_clk _). rewrite (release_eq s2 c l).
           destruct (release_holder (locks s l) c (L_inv _ _ _ _ _ (I_lp _ _ I) l) Hh) as [E Hne].
           change (locks s2 l) with (locks s l). rewrite E. cbn [finish fst snd].
           refine (conj (conj (inv1_store_out cf s c k l v g I Hp) (inv2_store_out cf s c k l v g I J Hp)) (conj _ _));
             [apply good_plain; discriminate|apply (SV_store cf s _ _ _ c k l g v eq_refl Hp); reflexivity].
        -- specialize (Hleave (RExc e)). destruct (release sd c l) as [s1 ok]. destruct Hleave as [-> HI].
           refine (conj HI (conj _ _)); [apply good_plain; discriminate|].
           apply (SV_exc cf s _ _ _ c k e eq_refl); eauto.
    + (* hit checkpoint *)
      cbn [fst snd]. destruct b; [apply Hph; auto; [now rewrite Hp|congruence|exact Logic.I]|].
      assert (HI : Inv cf (set_phase s c CIdle)).
      { apply phase_only; [exact IJ| |now rewrite Hp|reflexivity|exact Logic.I].
        apply (L_ncall _ _ _ _ _ (I_lp _ _ I)). congruence. }
      refine (conj HI (conj _ _)); [apply good_plain; discriminate|apply (SV_hit cf s _ _ _ c k v0 eq_refl Hp); reflexivity].
    + (* maxsize = 0 *)
      assert (Hc : c < ncall cf) by (apply (L_ncall _ _ _ _ _ (I_lp _ _ I)); congruence).
      destruct b; [apply Hph; auto; [now rewrite Hp|congruence|exact Logic.I]|].
      destruct w as [[v|e]|]; [| |apply Hrej]; cbn [fst snd].
      * refine (conj _ (conj _ _));
          [|apply good_plain; discriminate|apply (SV_bypass_ret cf s _ _ _ c k v eq_refl Hp); reflexivity].
        apply phase_only; [|exact Hc|sm; now rewrite Hp|reflexivity|exact Logic.I].
        destruct (counts_inv cf s (hits s) (S (misses s)) IJ) as [I1 J1].
        split; [apply inv1_add_produced, I1|apply (inv2_frame cf (set_counts s (hits s) (S (misses s)) (currsize s))), J1].
      * refine (conj _ (conj _ _)); [|apply good_plain; discriminate|apply (SV_exc cf s _ _ _ c k e eq_refl); auto].
        apply phase_only; [exact IJ|exact Hc|now rewrite Hp|reflexivity|exact Logic.I].
  - (* Tick *)
    cbn [fst snd]. apply quiet_step; auto. split; [apply inv1_tick, I|apply (inv2_frame cf s), J].
  - (* Clear *)
    destruct (has_dict s); [|apply quiet_step; auto]. cbn [fst snd].
    refine (conj (conj _ (inv2_clear cf s false _)) (conj _ _));
      [|apply good_plain; discriminate|apply SV_quiet; auto; intros H; now elim H].
    apply inv1_newgen; [exact I|]. intros H. now destruct (all_idle cf s).
  - (* NewLoop *)
    destruct (all_idle cf s) eqn:Hall; cbn [negb]; [|apply Hrej]. cbn [fst snd].
    refine (conj (conj _ (inv2_newloop cf s false J)) (conj _ _));
      [|apply good_plain; discriminate|apply SV_quiet; auto; intros _ H; now elim H].
    apply inv1_newgen; [exact I|]. intros _. exact Hall.
Qed.

Lemma step_ok cf s o :
  Inv cf s -> Inv cf (fst (step cf s o)) /\ good (fst (step cf s o)) (snd (step cf s o)).
Proof. intros IJ. destruct (step_facts cf s o IJ) as (H1 & H2 & _). auto. Qed.

Definition reach (cf : cfg) (s : st) : Prop := exists ops, s = run cf ops.

Lemma step_inv cf s o : Inv cf s -> Inv cf (fst (step cf s o)).
Proof. intros I. apply (step_ok cf s o I). Qed.

Theorem reachable_inv cf ops : Inv cf (run cf ops).
Proof. unfold run. apply final_inv; [apply step_inv|apply init_inv]. Qed.

Lemma reachable_inv1 cf ops : Inv1 cf (run cf ops).
Proof. apply reachable_inv. Qed.

Lemma reachable_inv2 cf ops : Inv2 cf (run cf ops).
Proof. apply reachable_inv. Qed.

Lemma reach_inv cf s : reach cf s -> Inv cf s.
Proof. intros [ops ->]. apply reachable_inv. Qed.

Lemma reach_step cf s o : reach cf s -> reach cf (fst (step cf s o)).
Proof. intros [ops ->]. exists (ops ++ [o]). unfold run. rewrite final_app. reflexivity. Qed.

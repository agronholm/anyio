(* C20: refutation witnesses for the known findings F3 / F8 / F30 / F31 / F32 / F41 (the hypotheses of the positive
   theorems cannot be dropped), the F15 witness on the pre-fix variant of `step`, and non-vacuity examples. *)
From AV Require Import Base Lru LruLockFacts LruDict LruProofs LruInv LruCount LruStep LruThms.
From AV Require Lock.

Definition cfg_m1 := mkcfg (Some 1) None false false 3.       (* maxsize = 1, three callers *)
Definition cfg_m2 := mkcfg (Some 2) None false false 3.
Definition cfg_ttl0 := mkcfg None (Some 0) false false 3.     (* unbounded, ttl = 0 *)
Definition cfg_m1_ck := mkcfg (Some 1) None true false 3.     (* maxsize = 1, always_checkpoint *)
Definition cfg_m0 := mkcfg (Some 0) None false false 3.       (* maxsize = 0 *)

(* Each witness below states the WHOLE flag set of its history and the conditional clause that fails on it.  only_* = the
   flag set with that one flag: exactly one finding pattern occurs and all other predicates are false; a history that
   shows more than one pattern has its set written out. *)
Definition only_inflight := mkfl true false false false false false.
Definition only_waited := mkfl false true false false false false.
Definition only_uncounted := mkfl false false true false false false.
Definition only_dead := mkfl false false false true false false.
Definition only_phantom := mkfl false false false false true false.
Definition only_bypass2 := mkfl false false false false false true.

(* F3 *)
(* F3(a): caller 2's miss on key 1 evicts the in-flight placeholder of key 0, the computation of key 0 fails,
   the waiter re-reads the entry: KeyError (C20_no_internal_error without no_inflight_eviction) *)
Definition w_f3_keyerror := [Call 0 0; Call 1 0; Call 2 2; WrappedRaises 0 0; Resume 0].
Theorem lru_refuted_keyerror :
  exists cf ops o, fl (run cf (ops ++ [o])) = only_inflight /\ snd (step cf (run cf ops) o) = RKeyError.
Proof. exists cfg_m1, w_f3_keyerror, (Resume 1). vm_compute. auto. Qed.

(* F3(b): the evicted in-flight computation and the evicting one both complete: two results with maxsize = 1
   while currsize = 1 (C20_bounded and C20_count_exact without no_inflight_eviction) *)
Definition w_f3_exceeds :=
  [Call 0 0; Call 2 2; WrappedReturns 0 1; Resume 0; WrappedReturns 2 2; Resume 2].
Theorem lru_refuted_exceeds :
  exists cf ops m, maxsize cf = Some m /\ fl (run cf ops) = only_inflight /\
    m < length (filter (fun x => negb (is_place (se x))) (dict (run cf ops))) /\ currsize (run cf ops) = 1%Z.
Proof. exists cfg_m1, w_f3_exceeds, 1. vm_compute. auto 8. Qed.

(* F3(c): the in-flight placeholder of key 0 is evicted by the miss on key 1; a third caller of key 0 finds no
   entry, installs a new placeholder and runs: two executions for key 0 (C20_single_flight without
   no_inflight_eviction) *)
Definition w_f3_double_flight := [Call 0 0; Call 1 2; Call 2 0].
Theorem lru_refuted_double_flight :
  exists cf ops c1 c2 k l1 l2 g, fl (run cf ops) = only_inflight /\ c1 <> c2 /\
    phase (run cf ops) c1 = CInWrapped k l1 None false g /\ phase (run cf ops) c2 = CInWrapped k l2 None false g.
Proof.
  exists cfg_m1, w_f3_double_flight, 0, 2, 0, 0, 2, 0. vm_compute.
  refine (conj eq_refl (conj _ (conj eq_refl eq_refl))). discriminate.
Qed.

(* F8 *)
(* F8(a): no placeholder is ever evicted, but the completed value of key 0 is evicted while waiter 1 has been
   handed the entry's lock: KeyError (C20_no_internal_error without no_waited_eviction) *)
Definition w_f8_keyerror := [Call 0 0; Call 1 0; WrappedReturns 0 7; Resume 0; Call 2 2].
Theorem lru_refuted_keyerror_waited :
  exists cf ops o, fl (run cf (ops ++ [o])) = only_waited /\ snd (step cf (run cf ops) o) = RKeyError.
Proof. exists cfg_m1, w_f8_keyerror, (Resume 1). vm_compute. auto. Qed.

(* F8(b): ... and caller 0 installs a new placeholder (new lock) before the waiter runs: two executions
   (C20_single_flight without no_waited_eviction) *)
Definition w_f8_double_flight :=
  [Call 0 0; Call 1 0; WrappedReturns 0 1; Resume 0; Call 2 2; WrappedReturns 2 2; Resume 2;
   Call 2 4; WrappedReturns 2 3; Resume 2; Call 0 0; Resume 1].
Theorem lru_refuted_double_flight_waited :
  exists cf ops c1 c2 k l1 l2 g, fl (run cf ops) = only_waited /\ c1 <> c2 /\
    phase (run cf ops) c1 = CInWrapped k l1 None false g /\ phase (run cf ops) c2 = CInWrapped k l2 None false g.
Proof.
  exists cfg_m2, w_f8_double_flight, 0, 1, 0, 3, 0, 0. vm_compute.
  refine (conj eq_refl (conj _ (conj eq_refl eq_refl))). discriminate.
Qed.

(* F8(c): the value expires between the hand-off and the waiter's resumption; a third caller replaces it by a
   placeholder with a new lock: two executions, unbounded cache *)
Definition w_f8_ttl := [Call 0 0; Call 1 0; WrappedReturns 0 1; Resume 0; Call 2 0; Resume 1].
Theorem lru_refuted_double_flight_ttl :
  exists cf ops c1 c2 k l1 l2 g, maxsize cf = None /\ fl (run cf ops) = only_waited /\ c1 <> c2 /\
    phase (run cf ops) c1 = CInWrapped k l1 None false g /\ phase (run cf ops) c2 = CInWrapped k l2 None false g.
Proof.
  exists cfg_ttl0, w_f8_ttl, 2, 1, 0, 1, 0, 0. vm_compute.
  refine (conj eq_refl (conj eq_refl (conj _ (conj eq_refl eq_refl)))). discriminate.
Qed.

(* F30 *)
(* F30, isolated: cache_clear() while caller 0 computes key 0; caller 1 calls key 0 in the fresh dict: two
   executions for key 0, nothing is ever evicted (C20_single_flight without no_other_loop) *)
Definition w_f30_clear := [Call 0 0; Clear; Call 1 0].
Theorem lru_refuted_clear_double_flight :
  exists cf ops c1 c2 k l1 l2 g1 g2, fl (run cf ops) = only_phantom /\ c1 <> c2 /\
    phase (run cf ops) c1 = CInWrapped k l1 None false g1 /\ phase (run cf ops) c2 = CInWrapped k l2 None false g2.
Proof.
  exists cfg_m1, w_f30_clear, 0, 1, 0, 0, 1, 0, 1. vm_compute.
  refine (conj eq_refl (conj _ (conj eq_refl eq_refl))). discriminate.
Qed.

(* F30, isolated: after loop 1 filled the cache (maxsize = 1) a new loop starts with an empty dict but
   currsize = 1 (C20_count_exact without no_other_loop) *)
Definition w_f30_new_loop := [Call 0 0; WrappedReturns 0 1; Resume 0; NewLoop].
Theorem lru_refuted_other_loop_count :
  exists cf ops, fl (run cf ops) = only_phantom /\ dict (run cf ops) = [] /\ currsize (run cf ops) = 1%Z.
Proof. exists cfg_m1, w_f30_new_loop. vm_compute. auto. Qed.

(* F30, consequences (these histories also contain the eviction of the callers' own placeholders, i.e. the F3
   pattern): in the new loop every miss pops its own placeholder and two callers of the same key both run; the
   same inside one loop after cache_clear() raced a flight *)
Definition w_f30_other_loop := [Call 0 0; WrappedReturns 0 1; Resume 0; NewLoop; Call 0 2; Call 1 2].
Theorem lru_refuted_other_loop :
  exists cf ops c1 c2 k, stale_count_other_loop cf ops = true /\ evicts_waited cf ops = false /\
    dead_placeholder_counted cf ops = false /\ uncounted_placeholder cf ops = false /\ c1 <> c2 /\
    executing (run cf ops) c1 k /\ executing (run cf ops) c2 k /\
    fl (run cf (firstn 4 ops)) = only_phantom /\
    dict (run cf (firstn 4 ops)) = [] /\ currsize (run cf (firstn 4 ops)) = 1%Z.
Proof.
  exists cfg_m1, w_f30_other_loop, 0, 1, 2. vm_compute.
  refine (conj eq_refl (conj eq_refl (conj eq_refl (conj eq_refl (conj _ (conj _ (conj _ (conj eq_refl (conj eq_refl eq_refl)))))))));
    [discriminate|left|left]; repeat eexists.
Qed.

Definition w_f30_clear_in_flight :=
  [Call 0 0; Call 1 0; Clear; CancelCaller 0; Resume 0; Resume 1; WrappedReturns 1 5; Resume 1; Call 0 4; Call 2 4].
Theorem lru_refuted_clear_in_flight :
  exists cf ops c1 c2 k, stale_count_other_loop cf ops = true /\ evicts_waited cf ops = false /\
    c1 <> c2 /\ executing (run cf ops) c1 k /\ executing (run cf ops) c2 k /\
    dict (run cf (firstn 8 ops)) = [] /\ currsize (run cf (firstn 8 ops)) = 1%Z.
Proof.
  exists cfg_m1, w_f30_clear_in_flight, 0, 2, 4. vm_compute.
  refine (conj eq_refl (conj eq_refl (conj _ (conj _ (conj _ (conj eq_refl eq_refl))))));
    [discriminate|left|left]; repeat eexists.
Qed.

(* F31 *)
(* F31: a call issued in an already cancelled scope is aborted at the lock entry and leaves an uncounted
   placeholder; a later miss evicts it instead of a result: two results with maxsize = 1, no concurrency at all
   (C20_bounded without no_uncounted_eviction) *)
Definition w_f31_scope :=
  [CallX 0 0; Resume 0; Call 1 2; WrappedReturns 1 1; Resume 1; Call 2 4; WrappedReturns 2 2; Resume 2].
Theorem lru_refuted_uncounted_exceeds :
  exists cf ops m, maxsize cf = Some m /\ fl (run cf ops) = only_uncounted /\
    m < length (filter (fun x => negb (is_place (se x))) (dict (run cf ops))) /\ currsize (run cf ops) = 1%Z.
Proof. exists cfg_m1, w_f31_scope, 1. vm_compute. auto 8. Qed.

(* the same through a native cancellation in the shielded checkpoint of Lock.acquire() (always_checkpoint) *)
Definition w_f31_native :=
  [Call 0 0; CancelCaller 0; Resume 0; Call 1 2; Resume 1; WrappedReturns 1 1; Resume 1;
   Call 2 4; Resume 2; WrappedReturns 2 2; Resume 2].
Theorem lru_refuted_uncounted_exceeds_native :
  exists cf ops m, maxsize cf = Some m /\ fl (run cf ops) = only_uncounted /\
    m < length (filter (fun x => negb (is_place (se x))) (dict (run cf ops))).
Proof. exists cfg_m1_ck, w_f31_native, 1. vm_compute. auto. Qed.

(* F32 *)
(* F32: maxsize = 0 returns before any lock: two calls with the same key run at once *)
Theorem lru_refuted_maxsize0_double_flight :
  exists cf ops c1 c2 k, is_zero_max cf = true /\ fl (run cf ops) = only_bypass2 /\ c1 <> c2 /\
    phase (run cf ops) c1 = CBypass k None false /\ phase (run cf ops) c2 = CBypass k None false.
Proof.
  exists cfg_m0, [Call 0 0; Call 1 0], 0, 1, 0. vm_compute.
  refine (conj eq_refl (conj eq_refl (conj _ (conj eq_refl eq_refl)))). discriminate.
Qed.

(* F41 *)
(* F41: a failed computation leaves its placeholder counted; the retry counts the key a second time; with
   maxsize = 2 the cache is then "full" with ONE result, and the next key evicts it: after the evicting step the dict
   holds one counted entry (C20_evicts_only_when_full and C20_count_exact without no_dead_placeholder) *)
Definition w_f41 := [Call 0 0; WrappedRaises 0 0; Resume 0; Call 0 0; WrappedReturns 0 1; Resume 0].
Theorem lru_refuted_dead_placeholder :
  exists cf ops o key m, maxsize cf = Some m /\ fl (run cf (ops ++ [o])) = only_dead /\
    o <> Clear /\ o <> NewLoop /\
    In key (map sk (dict (run cf ops))) /\ ~ In key (map sk (dict (run cf (ops ++ [o])))) /\
    length (filter (fun x => negb (is_place (se x))) (dict (run cf (ops ++ [o])))) +
    length (filter (fun x => match se x with EPlace _ true => true | _ => false end) (dict (run cf (ops ++ [o])))) < m /\
    currsize (run cf (ops ++ [o])) = Z.of_nat m.
Proof.
  exists cfg_m2, w_f41, (Call 0 2), 0, 2. vm_compute.
  refine (conj eq_refl (conj eq_refl (conj _ (conj _ (conj _ (conj _ (conj _ eq_refl)))))));
    [discriminate|discriminate|now left|intros [H|[]]; discriminate|lia].
Qed.

(* F15 *)
(* F15 (fixed in /repo by 21d8dda): the behaviour before the fix, as a variant of `step`.  The expired entry is
   replaced IN PLACE (position kept) although the recomputation is a use (the ghost stamp is refreshed all the
   same); everything else is `step`. *)
Fixpoint dset_in_stamp (k : key) (e : entry) (st : nat) (d : list slot) : list slot :=
  match d with
  | [] => []
  | x :: r => if Nat.eqb (sk x) k then mkslot k e st :: r else x :: dset_in_stamp k e st r
  end.

Definition old_expiry_step (cf : cfg) (s : st) (o : op) : st * res :=
  match o with
  | Call c a =>
      let k := key_of cf a in
      if andb (andb (Nat.ltb c (ncall cf)) (is_cidle (phase s c))) (negb (is_zero_max cf)) then
        let s := set_has_dict s in
        match dfind k (dict s) with
        | Some x =>
            match se x with
            | EVal v exp =>
                if expired exp (now s) then
                  let l := nlock s in
                  let s1 := set_fl s (fl_or_waited (fl s) (waited cf s k (cur s))) in
                  let s2 := set_counts s1 (hits s1) (misses s1) (currsize s1 - 1)%Z in
                  let s3 := new_lock cf s2 k in
                  let s4 := bump_clk (set_dict s3 (cur s3)
                                         (dset_in_stamp k (EPlace l false) (clk s3) (dict s3))) in
                  acquire cf s4 c k l
                else step cf s o
            | EPlace _ _ => step cf s o
            end
        | None => step cf s o
        end
      else step cf s o
  | _ => step cf s o
  end.

Definition run_old (cf : cfg) (ops : list op) : st := final (old_expiry_step cf) init ops.

(* maxsize = 2, ttl = 2: key 1 at time 0, key 2 at time 1, key 1 again at time 2 (expired: recomputed), then key 3 *)
Definition cfg_f15 := mkcfg (Some 2) (Some 2) false false 1.
Definition w_f15 :=
  [Call 0 2; WrappedReturns 0 1; Resume 0; Tick; Call 0 4; WrappedReturns 0 2; Resume 0; Tick;
   Call 0 2; WrappedReturns 0 3; Resume 0].

(* under the OLD behaviour the statement of lru_evicts_oldest_use fails: the miss on key 3 evicts key 1, which was
   recomputed (used) after key 2 -- none of the finding patterns occurs in this history *)
Theorem lru_refuted_old_expiry_order :
  exists cf ops o x y',
    fl (run_old cf (ops ++ [o])) = mkfl false false false false false false /\
    o <> Clear /\ o <> NewLoop /\ In x (dict (run_old cf ops)) /\
    (forall y, In y (dict (fst (old_expiry_step cf (run_old cf ops) o))) -> sk y <> sk x) /\
    In y' (dict (fst (old_expiry_step cf (run_old cf ops) o))) /\ ss y' < ss x.
Proof.
  exists cfg_f15, w_f15, (Call 0 6), (mkslot 2 (EVal 3 (Some 4)) 4), (mkslot 4 (EVal 2 (Some 3)) 2).
  vm_compute. refine (conj eq_refl (conj _ (conj _ (conj _ (conj _ (conj _ _)))))).
  - discriminate.
  - discriminate.
  - now left.
  - intros y [<-|[<-|[]]]; discriminate.
  - now left.
  - lia.
Qed.

(* the same history on the model of the fixed code: the expired key is moved to the recent end when it is
   recomputed, and the miss on key 3 evicts key 2 *)
Example ex_f15_fixed :
  fl (run cfg_f15 (w_f15 ++ [Call 0 6])) = mkfl false false false false false false /\
  map sk (dict (run cfg_f15 (firstn 8 w_f15))) = [2; 4] /\
  map sk (dict (run cfg_f15 (firstn 9 w_f15))) = [4; 2] /\
  map (fun x => (sk x, ss x)) (dict (run cfg_f15 w_f15)) = [(4, 2); (2, 4)] /\
  map sk (dict (run cfg_f15 (w_f15 ++ [Call 0 6]))) = [2; 6].
Proof. vm_compute. auto 7. Qed.

(* Non-vacuity: concrete reachable histories that satisfy the hypotheses of the positive theorems      *)
(* contention on key 0 (caller 1 waits for caller 0's flight and reuses its result), a second key in flight,
   then a third key whose miss evicts the completed, least recently used entry of key 1 *)
Definition ex_ops :=
  [Call 0 0; Call 1 0; Call 2 2; WrappedReturns 0 5; Resume 0; Resume 1; WrappedReturns 2 6; Resume 2;
   Call 0 4; WrappedReturns 0 7; Resume 0].

Example ex_hypotheses_hold :
  maxsize_pos cfg_m2 /\
  no_inflight_eviction cfg_m2 ex_ops /\ no_waited_eviction cfg_m2 ex_ops /\ no_uncounted_eviction cfg_m2 ex_ops /\
  no_dead_placeholder cfg_m2 ex_ops /\ no_other_loop cfg_m2 ex_ops /\
  (forall n, n <= length ex_ops ->
     fl (run cfg_m2 (firstn n ex_ops)) = mkfl false false false false false false).
Proof.
  refine (conj eq_refl (conj eq_refl (conj eq_refl (conj eq_refl (conj eq_refl (conj eq_refl _)))))).
  intros n Hn. do 12 (destruct n as [|n]; [reflexivity|]). cbn in Hn. lia.
Qed.

Example ex_contended_state :
  let s := run cfg_m2 (firstn 3 ex_ops) in
  phase s 0 = CInWrapped 0 0 None false 0 /\ phase s 1 = CLockWait 0 0 0 0 /\
  phase s 2 = CInWrapped 2 1 None false 0 /\
  Lock.owner (locks s 0) = Some 0 /\ length (Lock.waiters (locks s 0)) = 1 /\
  map se (dict s) = [EPlace 0 true; EPlace 1 true] /\ currsize s = 2%Z.
Proof. vm_compute. auto 8. Qed.

Example ex_outputs :
  map (fun n => snd (step cfg_m2 (run cfg_m2 (firstn n ex_ops)) (nth n ex_ops Tick))) (seq 0 11) =
  [RBlocked; RBlocked; RBlocked; RNone; RRet 5; RRet 5; RNone; RRet 6; RBlocked; RNone; RRet 7].
Proof. vm_compute. reflexivity. Qed.

Example ex_reuse_hyp :
  let s := run cfg_m2 (firstn 5 ex_ops) in
  phase s 1 = CLockWait 0 0 0 0 /\ dget 0 (dicts s 0) = Some (EVal 5 None) /\
  snd (step cfg_m2 s (Resume 1)) = RRet 5.
Proof. vm_compute. auto. Qed.

(* the eviction happens exactly when the count has reached maxsize (hypothesis of lru_evicts_only_when_full) *)
Example ex_evicts_completed_lru :
  let s := run cfg_m2 (firstn 8 ex_ops) in
  map sk (dict s) = [2; 0] /\ map sk (dict (fst (step cfg_m2 s (Call 0 4)))) = [0; 4] /\
  currsize s = 2%Z /\
  currsize (run cfg_m2 ex_ops) = 2%Z /\ hits (run cfg_m2 ex_ops) = 1 /\ misses (run cfg_m2 ex_ops) = 3 /\
  map se (dict (run cfg_m2 ex_ops)) = [EVal 5 None; EVal 7 None].
Proof. vm_compute. auto 8. Qed.

(* ttl = 2: a hit before the expiry, recomputation after it *)
Definition cfg_ttl2 := mkcfg None (Some 2) false false 2.
Definition ex_ttl_ops :=
  [Call 0 0; WrappedReturns 0 5; Resume 0; Call 1 0; Tick; Tick; Call 1 0; WrappedReturns 1 6; Resume 1].

Example ex_ttl :
  map (fun n => snd (step cfg_ttl2 (run cfg_ttl2 (firstn n ex_ttl_ops)) (nth n ex_ttl_ops Tick))) (seq 0 9) =
  [RBlocked; RNone; RRet 5; RRet 5; RNone; RNone; RBlocked; RNone; RRet 6] /\
  fl (run cfg_ttl2 ex_ttl_ops) = mkfl false false false false false false /\
  map se (dict (run cfg_ttl2 ex_ttl_ops)) = [EVal 6 (Some 4)].
Proof. vm_compute. auto. Qed.

(* always_checkpoint: the hit suspends in the checkpoint *)
Definition cfg_ck := mkcfg (Some 2) None true false 2.
Example ex_hit_checkpoint :
  let s := run cfg_ck [Call 0 0; Resume 0; WrappedReturns 0 5; Resume 0] in
  snd (enter cfg_ck s 1 0 false) = RBlocked /\ phase (fst (enter cfg_ck s 1 0 false)) 1 = CHitCk 0 5 false.
Proof. vm_compute. auto. Qed.

(* the wrapped function raises: the exception reaches exactly the caller that executed it *)
Example ex_raises :
  let s := run cfg_m2 [Call 0 0; Call 1 0; WrappedRaises 0 1] in
  snd (step cfg_m2 s (Resume 0)) = RExc 1 /\
  snd (step cfg_m2 (fst (step cfg_m2 s (Resume 0))) (Resume 1)) = RBlocked.
Proof. vm_compute. auto. Qed.

(* a waiter with a ttl: it called at t0 = 0, the value is stored at time 1 and expires at 3 >= t0 + ttl *)
Example ex_reread_ttl :
  let s := run cfg_ttl2 [Call 0 0; Call 1 0; Tick; WrappedReturns 0 5; Resume 0] in
  phase s 1 = CLockWait 0 0 0 0 /\ snd (step cfg_ttl2 s (Resume 1)) = RRet 5 /\
  dget 0 (dict s) = Some (EVal 5 (Some 3)).
Proof. vm_compute. auto. Qed.

(* cache_clear(), NewLoop and CallX without any finding pattern: cache_clear() and a new loop at a quiet moment with nothing counted,
   a call in an already cancelled scope that finds a flight in progress (it is cancelled at the lock entry without
   ever queueing on the lock), a call in an already cancelled scope that is served from the cache *)
Example ex_benign_new_ops :
  let ops := [Call 0 0; CallX 1 0; Resume 1; WrappedReturns 0 5; Resume 0; CallX 1 0; Clear; NewLoop;
              Call 0 0; WrappedReturns 0 6; Resume 0; Call 1 0] in
  fl (run cfg_m2 ops) = mkfl false false false false false false /\
  map (fun n => snd (step cfg_m2 (run cfg_m2 (firstn n ops)) (nth n ops Tick))) (seq 0 12) =
  [RBlocked; RBlocked; RCancelled; RNone; RRet 5; RRet 5; RNone; RNone; RBlocked; RNone; RRet 6; RRet 6] /\
  cur (run cfg_m2 ops) = 2 /\ currsize (run cfg_m2 ops) = 1%Z.
Proof. vm_compute. auto. Qed.

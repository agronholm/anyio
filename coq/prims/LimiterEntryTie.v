(* Tie T for the entry check of CapacityLimiter.acquire_on_behalf_of: the
   three things LimiterEntry.estep does to a call made in an already cancelled scope, in terms of the entry segment that
   tools/translate_prims.py regenerates from the source (LimiterGen.lim_acquire_on_behalf_of_entry, interpreter
   PrimImp.exec).
     1. the check IS the first statement of the regenerated segment; for a fresh call in a live scope the segment is its
        rest (check_first);
     2. interpreted with the caller's scope effectively cancelled the segment ends at the check with nothing touched -
        what EnterCancelled (the call suspends in the check) followed by the delivery (SpinCancel) amounts to
        (entry_cancelled_is_generated);
     3. when the check returns after its yield (SpinReturn), what runs is the interpretation of the SAME segment entered
        afresh in a live scope, on the limiter as it is then (spin_return_is_generated).
   Trusted here: that the yield of checkpoint_if_cancelled() is a suspension during which other tasks run and after which
   the check re-reads the scope chain (C08_ckif_spin_resume on the S machine; PrimImp's SCkIf has no suspension point). *)
From AV Require Import Base Limiter PrimImp LimiterImp LimiterGen LimiterGenEq
  LimiterEntry LimiterEntryThms.

Theorem check_first :
  exists body, lim_acquire_on_behalf_of_entry = SSeq SCkIf body /\
    forall t l g k, l_fresh l = true -> l_canc l = false ->
      exec lim_acquire_on_behalf_of_entry t l g k = exec body t l g k.
Proof.
  eexists. split; [reflexivity|]. intros t l g k Hf Hc.
  destruct l as [lf la lb le lv fr cn]. cbn in Hf, Hc. subst. reflexivity.
Qed.

Theorem entry_cancelled_is_generated s t b : spin s t = None -> phase_of (lim s) t = Idle ->
  (exists l, exec lim_acquire_on_behalf_of_entry t (loc_entry_cancelled (Some b)) log0 (core (lim s)) =
             (l, log0, core (lim s), OCancelled)) /\
  lim (fst (estep false (fst (estep false s (EnterCancelled t b))) (SpinCancel t))) = lim s /\
  snd (estep false (fst (estep false s (EnterCancelled t b))) (SpinCancel t)) = RCancelled.
Proof.
  intros Hs Hp. split; [apply cancelled_entry_noeffect|].
  destruct (entry_cancelled_noeffect s t b Hs Hp) as (_ & _ & _ & A & B & _). split; assumption.
Qed.

Theorem spin_return_is_generated v s t b : ereach v s -> spin s t = Some b -> ckmust s t = false ->
  phase_of (lim s) t = Idle ->
  estep false s (SpinReturn t) =
  (let x := lift (lim s) t (KAcquire b)
              (exec lim_acquire_on_behalf_of_entry t (loc_entry (Some b) None) log0 (core (lim s))) in
   (unspin s (fst x) t, snd x)).
Proof.
  intros R Hs Hm Hp. rewrite (no_step_between_test_and_take v s t b R Hs Hm).
  rewrite (tie_acquire_entry (lim s) t b Hp). reflexivity.
Qed.

(* the hypothesis `phase_of (lim s) t = Idle` of spin_return_is_generated: EnterCancelled requires it and no op of a
   spinning task reaches Limiter.step, so it holds whenever t spins; it is kept as a hypothesis (not proved as an
   invariant of ereach here).  Non-vacuity: *)
Example ex_spin_return_hyp :
  let s := final (estep false) (einit (Some 1)) [EnterCancelled 1 1; L (AcqOnNowait 2 2)] in
  ereach (Some 1) s /\ spin s 1 = Some 1 /\ ckmust s 1 = false /\ phase_of (lim s) 1 = Idle /\
  snd (estep false s (SpinReturn 1)) = RBlocked /\ queue (lim (fst (estep false s (SpinReturn 1)))) = [(1, 0)].
Proof. split; [eexists; reflexivity|]. repeat split. Qed.

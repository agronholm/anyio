(* Which futures can go to FRes in one step. *)
From AV Require Import Base Machine GroupInv GroupInv2 GroupInv3 GroupInv4 GroupWalk.

(* every future that holds a value in s' held it already in s, or was completed with that value by a completion
   allowed by Q; futures allocated in between hold a value only by Q *)
Definition frq (Q : fid -> nat -> Prop) (s s' : st) : Prop :=
  nfut s <= nfut s' /\
  (forall f v, f_st (futs s' f) = FRes v -> f_st (futs s f) = FRes v \/ Q f v) /\
  (forall f v, nfut s <= f -> f < nfut s' -> f_st (futs s' f) = FRes v -> Q f v).

Lemma frq_refl (Q : fid -> nat -> Prop) s : frq Q s s.
Proof. refine (conj (le_n _) (conj _ _)); [auto|intros f v H1 H2; lia]. Qed.

Lemma frq_trans (Q : fid -> nat -> Prop) a b c : frq Q a b -> frq Q b c -> frq Q a c.
Proof.
  intros [A1 [A2 A3]] [B1 [B2 B3]]. refine (conj _ (conj _ _)); [lia| |].
  - intros f v H. destruct (B2 f v H) as [H1|H1]; auto.
  - intros f v H1 H2 H. destruct (Nat.lt_ge_cases f (nfut b)) as [Hl|Hg].
    + destruct (B2 f v H) as [H3|H3]; [apply (A3 f v H1 Hl H3)|exact H3].
    + apply (B3 f v Hg H2 H).
Qed.

Lemma frq_fst_same (Q : fid -> nat -> Prop) s s' : nfut s' = nfut s ->
  (forall f, f_st (futs s' f) = f_st (futs s f)) -> frq Q s s'.
Proof. intros E1 E2. refine (conj _ (conj _ _)); [lia|intros f v; rewrite E2; auto|intros f v H1 H2; lia]. Qed.

Lemma frq_eq (Q : fid -> nat -> Prop) s s' : futs s' = futs s -> nfut s' = nfut s -> frq Q s s'.
Proof. intros E1 E2. apply frq_fst_same; [exact E2|]. intros f. now rewrite E1. Qed.

Lemma frq_kstar (Q : fid -> nat -> Prop) C T s s' : kstar C T s s' -> frq Q s s'.
Proof.
  intros H. pose proof (kframe_kstar _ _ _ _ H) as F. refine (conj _ (conj _ _)).
  - rewrite (fr_nfut _ _ _ _ F). lia.
  - intros f v Hv. left. destruct (fr_fut2 _ _ _ _ F f) as [E|[_ [o Ho]]]; [now rewrite <- E|congruence].
  - intros f v H1 H2. rewrite (fr_nfut _ _ _ _ F) in H2. lia.
Qed.

Lemma frq_nf (Q : fid -> nat -> Prop) s : frq Q s (nf s).
Proof.
  refine (conj _ (conj _ _)).
  - unfold nf, new_fut. cbn. lia.
  - intros f v. unfold nf, new_fut. cbn [fst futs]. unfold upd. destruct (Nat.eqb f (nfut s)); [cbn; discriminate|auto].
  - intros f v H1 H2. unfold nf, new_fut in *. cbn [fst futs nfut] in *. assert (f = nfut s) by lia. subst.
    rewrite upd_same. cbn. discriminate.
Qed.

Lemma frq_fc (Q : fid -> nat -> Prop) s f x : (forall v, x = FRes v -> Q f v) -> frq Q s (fut_complete s f x).
Proof.
  intros HQ. destruct (fc_spec s f x) as [[_ ->]|[Hp [Ef _]]]; [apply frq_refl|].
  refine (conj _ (conj _ _)).
  - rewrite fc_nfut. lia.
  - intros g v. rewrite Ef. unfold upd. destruct (Nat.eqb_spec g f) as [->|Hg]; [cbn; intros ->; right; auto|auto].
  - intros g v H1 H2. rewrite fc_nfut in H2. lia.
Qed.

Lemma nkeeps_fin_unused : True. Proof. exact I. Qed.

Lemma frq_ns (Q : fid -> nat -> Prop) s d sh : frq Q s (ns s d sh). Proof. apply frq_eq; reflexivity. Qed.

Lemma frqle_rec_unused : True. Proof. exact I. Qed.

Lemma frqle_final_unused : True. Proof. exact I. Qed.

Lemma frq_rec_task (Q : fid -> nat -> Prop) s t raw : frq Q s (rec_task s t raw).
Proof. apply frq_eq; reflexivity. Qed.

(* the completions with a value that operation o can perform in state s *)
Definition Qstep (s : st) (o : op) (f : fid) (v : nat) : Prop :=
  match o with
  | AStarted t v' => k_startfut (tasks s t) = Some f /\ v = v'
  | AFinish t _ => In f (e_waiters (events s (k_hevent (tasks s t)))) /\ v = 1
  | ARun (HSleepDone f0 _) => f = f0 /\ v = 0
  | ARun (HTaskDone t) => (exists g, k_group (tasks s t) = Some g /\ g_fut (groups s g) = Some f) /\ v = 0
  | _ => False
  end.

Lemma frq_moves s o a : moves s o a (frq (Qstep s o)).
Proof.
  apply moves_kstar.
  - apply frq_refl.
  - apply frq_trans.
  - apply frq_kstar.
  - intros x g _. apply frq_eq; reflexivity.
  - intros x f y H. apply frq_fc. intros v E.
    destruct H as [t v' -> Hf|t v' -> Hf|tm ->|t g -> Hg Hf|t e -> _|m _]; try discriminate E; injection E as <-; cbn; eauto.
  - intros x k ev _. apply frq_eq; reflexivity.
  - intros x y []; try (apply frq_eq; reflexivity); [|apply frq_nf].
    apply frq_fst_same; [reflexivity|]. intros f. cbn [upd_fut set_futs futs]. unfold upd.
    destruct (Nat.eqb_spec f (nfut s)); [subst; reflexivity|reflexivity].
Qed.

Theorem step_fres s o : reach s -> frq (Qstep s o) s (fst (step s o)).
Proof. intros _. apply (walk s o (frq (Qstep s o))). intros a. apply frq_moves. Qed.

(* C05: entry-relative restoration of Task.cancelling().
   A scope owes something only below a cancelled scope (DebtInv.DBH), every scope hosted by a task lies on the
   parent chain of its current scope (Tree), hence a task whose current scope has no cancelled scope on its
   parent chain (shields ignored: "clean") owes nothing, and its counter is what the potential says. *)
From Coq Require Import ZArith Lia.
From AV Require Import Base Machine MachineFacts ScopeFrames TreeInv PotentialInv TreeStep PotentialThms DebtInv.

Lemma stack_anc s t : forall k l, stack s t k l -> forall c, In c l -> exists x, k = Some x /\ anc s c x.
Proof.
  intros k l H. induction H as [|x l Hh Ha H IH]; intros c Hin; [destruct Hin|].
  exists x. split; [reflexivity|]. destruct Hin as [->|Hin]; [apply anc_here|].
  destruct (IH c Hin) as [p [Ep A]]. eapply anc_up; eauto.
Qed.

Lemma hosted_above s t c :
  Tree s -> alloc_t s t -> s_host (scopes s c) = Some t ->
  exists x, k_cur (tasks s t) = Some x /\ anc s c x.
Proof.
  intros T A Hh.
  assert (Ac : s_active (scopes s c) = true).
  { destruct (s_active (scopes s c)) eqn:E; [reflexivity|]. rewrite (tr_host_inact _ T c E) in Hh. discriminate. }
  destruct (k_tdran (tasks s t)) eqn:Etd.
  - exfalso. now apply (proj2 (tr_tdran _ T t Etd) c).
  - destruct (tr_stack _ T t A Etd) as [l [S In]]. now apply (stack_anc s t _ l S c (In c Ac Hh)).
Qed.

(* no scope on the parent chain of the task's current scope is cancelled (shields do not matter) *)
Definition clean (s : st) (t : tid) : Prop :=
  forall x y, k_cur (tasks s t) = Some x -> anc s y x -> s_cancelled (scopes s y) = false.

Lemma sumf_zero f l : (forall x, In x l -> f x = 0) -> sumf f l = 0.
Proof. induction l as [|x l IH]; intros H; cbn; [reflexivity|]. rewrite (H x (or_introl eq_refl)), IH; auto. intros y Hy. apply H. now right. Qed.

Theorem no_debt_outside_cancelled s t :
  Tree s -> DBH s -> alloc_t s t -> clean s t -> pending_of s t = 0.
Proof.
  intros T D A C. unfold pending_of. apply sumf_zero. intros c _. unfold owed.
  destruct (opt_eqb (s_host (scopes s c)) t) eqn:Eh; [|reflexivity]. apply opt_eqb_Some in Eh.
  destruct (s_pending (scopes s c)) as [|n] eqn:Ep; [reflexivity|exfalso].
  destruct (hosted_above s t c T A Eh) as [x [Ec Ax]].
  destruct (db_w _ D c) as [y [Ay Cy]]; [lia|].
  rewrite (C x y Ec (anc_trans s y c x Ay Ax)) in Cy. discriminate.
Qed.

(* for every task the potential can only grow beyond the outside influences (deliveries from scopes hosted by
   other tasks are never compensated) *)
Theorem cancelling_lower ops : forall s t,
  reach_ok2 s -> ops_ok2 s ops = true -> alloc_t s t ->
  (phi s t + ext_count s ops t <= phi (final step s ops) t)%Z.
Proof. intros s t R H A. apply (potential_along_run ops s t R H A). Qed.

Lemma clean_no_debt s t : reach_ok2 s -> alloc_t s t -> clean s t -> pending_of s t = 0.
Proof.
  intros R A C. pose proof (reach_ok2_reach_ok s R) as R1.
  apply no_debt_outside_cancelled; auto; [now apply reach_tree|now apply reach_dbh].
Qed.

(* root tasks: between two states in which no scope around the task is cancelled, cancelling() moves exactly by
   the native cancels and explicit uncancels in between: every delivery the task received from its own scopes
   has been compensated *)
Theorem cancelling_back_at_entry ops s t :
  reach_ok2 s -> ops_ok2 s ops = true -> alloc_t s t -> k_group (tasks s t) = None ->
  clean s t -> clean (final step s ops) t ->
  Z.of_nat (k_ncancel (tasks (final step s ops) t)) = (Z.of_nat (k_ncancel (tasks s t)) + ext_count s ops t)%Z.
Proof.
  intros R H A G C0 C1.
  apply cancelling_restored_counter; auto; [now apply clean_no_debt|].
  apply clean_no_debt; [now apply reach_ok2_final|now apply (potential_along_run ops s t)|exact C1].
Qed.

(* any task (group children included): at least that much; the surplus are the deliveries that came from scopes
   hosted by other tasks (the group scope and what lies above it), which nobody compensates *)
Theorem cancelling_back_at_entry_lower ops s t :
  reach_ok2 s -> ops_ok2 s ops = true -> alloc_t s t ->
  clean s t -> clean (final step s ops) t ->
  (Z.of_nat (k_ncancel (tasks s t)) + ext_count s ops t <= Z.of_nat (k_ncancel (tasks (final step s ops) t)))%Z.
Proof.
  intros R H A C0 C1.
  pose proof (cancelling_lower ops s t R H A) as L. unfold phi in L.
  rewrite (clean_no_debt s t R A C0) in L.
  rewrite (clean_no_debt (final step s ops) t) in L;
    [lia|now apply reach_ok2_final|now apply (potential_along_run ops s t)|exact C1].
Qed.

(* hand-over, then a shield:
   Root task 1 in scopes 1 > 2 > 3.  Scopes 1 and 3 are cancelled while the task runs; it sleeps; the delivery of
   scope 3 cancels the sleep (cancelling() = 1, debt on scope 3); leaving scope 3 hands the debt to scope 2,
   because scope 2's parent chain shows the cancelled scope 1; then the task raises the shield of scope 2.
   Now its current scope is NOT effectively cancelled, yet cancelling() is 1 (0 when it entered scope 3) and the
   debt sits on the shielded scope 2.  "count restored once no enclosing scope is effectively cancelled" is
   therefore refuted; "once no enclosing scope is cancelled at all" holds (cancelling_back_at_entry): after
   leaving scopes 2 and 1 the count is 0 again. *)
Definition handover_pre : list op :=
  [ANewRoot; ANewScope 1 None false; AEnter 1 1; ANewScope 1 None false; AEnter 1 2; ANewScope 1 None false].
Definition handover_mid : list op :=
  [AEnter 1 3; ACancel 1 1; ACancel 1 3; ASleep 1 None; ARun (HDeliver 1); ARun (HDeliver 3); ARun (HWake 1 10);
   AExit 1 3 false; ASetShield 1 2 true].
Definition handover_post : list op := [AExit 1 2 false; AExit 1 1 false].

Lemma count_elevated_behind_shield_witness :
  let s0 := final step init handover_pre in
  let s1 := final step s0 handover_mid in
  let s2 := final step s1 handover_post in
  ops_ok2 init (handover_pre ++ handover_mid ++ handover_post) = true /\
  k_ncancel (tasks s0 1) = 0 /\ k_cur (tasks s0 1) = Some 2 /\
  k_ncancel (tasks s1 1) = 1 /\ k_cur (tasks s1 1) = Some 2 /\ idle s1 1 = true /\
  eff_cancelled_from (nscope s1) s1 (k_cur (tasks s1 1)) = false /\
  s_pending (scopes s1 2) = 1 /\ s_shield (scopes s1 2) = true /\ s_cancelled (scopes s1 2) = false /\
  ext_count s0 handover_mid 1 = 0%Z /\
  k_ncancel (tasks s2 1) = 0 /\ k_cur (tasks s2 1) = None.
Proof. vm_compute. repeat split; reflexivity. Qed.

(* group children: deliveries from the group scope are not compensated:
   Child 2 of group 1 enters its own scope 3 (cancelling() = 0), sleeps; the host cancels the group scope; the
   delivery cancels the child's sleep with the group scope as origin: cancelling() = 1 and no scope of the child
   owes anything.  After leaving scope 3 the count is still 1; it stays 1 if the child then shields its own
   handle scope, although it is then not effectively cancelled. *)
Definition child_pre : list op :=
  [ANewRoot; AGroupNew 1; AGroupEnter 1 1; ASpawn 1 1; ARun (HStep 2); ANewScope 2 None false].
Definition child_mid : list op :=
  [AEnter 2 3; ASleep 2 None; ACancel 1 1; ARun (HWake 2 8); AExit 2 3 false; ASetShield 2 2 true].

Lemma child_foreign_delivery_witness :
  let s0 := final step init child_pre in
  let s1 := final step s0 child_mid in
  ops_ok2 init (child_pre ++ child_mid) = true /\
  k_group (tasks s0 2) = Some 1 /\ k_ncancel (tasks s0 2) = 0 /\ k_cur (tasks s0 2) = Some 2 /\
  k_ncancel (tasks s1 2) = 1 /\ k_cur (tasks s1 2) = Some 2 /\ pending_of s1 2 = 0 /\ idle s1 2 = true /\
  eff_cancelled_from (nscope s1) s1 (k_cur (tasks s1 2)) = false /\
  s_host (scopes s1 1) = Some 1 /\ s_cancelled (scopes s1 1) = true /\
  ext_count s0 child_mid 2 = 0%Z.
Proof. vm_compute. repeat split; reflexivity. Qed.

(* non-vacuity of cancelling_back_at_entry: the hand-over run from before scope 3 is entered to after scope 1
   has been left: clean at both ends (no scope around at all at the end), the count is back *)
Lemma back_at_entry_premises :
  let s0 := final step init [ANewRoot] in
  let ops := tl handover_pre ++ handover_mid ++ handover_post in
  ops_ok2 init (ANewRoot :: ops) = true /\
  k_cur (tasks s0 1) = None /\ k_cur (tasks (final step s0 ops) 1) = None /\
  k_group (tasks s0 1) = None /\ ext_count s0 ops 1 = 0%Z /\
  k_ncancel (tasks (final step s0 ops) 1) = k_ncancel (tasks s0 1).
Proof. vm_compute. repeat split; reflexivity. Qed.

(* clean is the shield-blind strengthening of "not effectively cancelled" *)
Lemma clean_not_effectively_cancelled s t fuel :
  clean s t -> eff_cancelled_from fuel s (k_cur (tasks s t)) = false.
Proof.
  intros C. destruct (k_cur (tasks s t)) as [x|] eqn:Ec; [|destruct fuel; reflexivity].
  destruct (eff_cancelled_from fuel s (Some x)) eqn:E; [|reflexivity].
  destruct (eff_anc s fuel x E) as [z [A Cz]]. rewrite (C x z Ec A) in Cz. discriminate.
Qed.

(* the same statement for one scope: from before `with scope:` to after it *)
Corollary cancelling_back_at_entry_scope s t c mid fa :
  reach_ok2 s -> alloc_t s t -> k_group (tasks s t) = None ->
  let ops := AEnter t c :: mid ++ [AExit t c fa] in
  ops_ok2 s ops = true -> clean s t -> clean (final step s ops) t ->
  Z.of_nat (k_ncancel (tasks (final step s ops) t)) = (Z.of_nat (k_ncancel (tasks s t)) + ext_count s ops t)%Z.
Proof. intros R A G ops H C0 C1. now apply cancelling_back_at_entry. Qed.

Lemma debts_only_under_cancelled s :
  reach_ok s ->
  (forall x, s_host (scopes s x) = None -> s_pending (scopes s x) = 0) /\
  (forall x, 0 < s_pending (scopes s x) -> exists y, anc s y x /\ s_cancelled (scopes s y) = true).
Proof. intros R. exact (conj (db_un s (reach_dbh s R)) (db_w s (reach_dbh s R))). Qed.

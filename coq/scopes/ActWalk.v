(* C03: what ANY op that is not an act of task t (an API call of another task, an environment op, the run of a
   callback that does not resume t) can do to t and to the walk from t's current scope to a cancelled scope.
   One light relation (aw) is carried through every helper and every op; the tracking theorems are in ActThms. *)
From Coq Require Import ZArith Lia.
From AV Require Import Base Machine MachineFacts ScopeFrames DeliverInv TreeInv DeliverAlive TreeStep KernelInv
  TimerInv CycleThms DebtInv.

Definition view3 (c : scope) := (s_parent c, s_shield c, s_cancelled c).

Section AW.
  Variable t : tid.

  (* t's record and its wait across a step that is not t's: tfr of CycleThms written out, so its lemmas apply *)
  Definition tframe (a b : st) : Prop :=
    (forall f, k_waiter (tasks a t) = Some f -> byst t f a b) /\ (k_waiter (tasks a t) = None -> bym t a b).

  Lemma tframe_core a b : tframe a b -> tk_core (tasks b t) = tk_core (tasks a t).
  Proof. apply tfr_core. Qed.

  (* what a step does to a task t that does not act.  XE: the scopes whose parent link the step may set (those it
     enters); X: the scopes whose cancelled flag it may set or whose shield it may lower *)
  Record aw (XE X : list sid) (a b : st) : Prop := {
    aw_k : KInv a -> KInv b;
    aw_nf : nfut a <= nfut b;
    aw_ns : nscope a <= nscope b;
    aw_nt : ntask a <= ntask b;
    aw_t : KInv a -> tframe a b;
    aw_q : rsh a b;
    aw_run : running a <> Some t -> running b <> Some t;
    aw_par : forall y, y < nscope a -> ~ In y XE -> s_parent (scopes b y) = s_parent (scopes a y);
    aw_v : forall y, y < nscope a -> ~ In y X ->
           s_cancelled (scopes b y) = s_cancelled (scopes a y) /\
           (s_shield (scopes a y) = true -> s_shield (scopes b y) = true);
    aw_mono : forall y, y < nscope a -> s_cancelled (scopes a y) = true -> s_cancelled (scopes b y) = true
  }.

  Lemma aw_refl XE X a : aw XE X a a.
  Proof. constructor; auto. - intros _. apply tfr_refl. - apply rsh_refl. Qed.

  Lemma aw_trans XE X a b c : aw XE X a b -> aw XE X b c -> aw XE X a c.
  Proof.
    intros H1 H2. pose proof (aw_ns _ _ _ _ H1) as N1. constructor.
    - intros K. apply H2, H1, K.
    - pose proof (aw_nf _ _ _ _ H1). pose proof (aw_nf _ _ _ _ H2). lia.
    - pose proof (aw_ns _ _ _ _ H2). lia.
    - pose proof (aw_nt _ _ _ _ H1). pose proof (aw_nt _ _ _ _ H2). lia.
    - intros K. apply (tfr_trans t a b c); [now apply H1|]. apply H2. now apply H1.
    - eapply rsh_trans; [apply H1|apply H2].
    - intros R. apply H2, H1, R.
    - intros y Hy Hn. rewrite (aw_par _ _ _ _ H2 y); [now apply H1|lia|exact Hn].
    - intros y Hy Hn. destruct (aw_v _ _ _ _ H1 y Hy Hn) as [A2 A3].
      destruct (aw_v _ _ _ _ H2 y) as [B2 B3]; [lia|exact Hn|]. rewrite B2, A2. split; auto.
    - intros y Hy Hc. apply (aw_mono _ _ _ _ H2); [lia|]. now apply H1.
  Qed.

  Lemma aw_weaken XE X XE' X' a b : incl XE XE' -> incl X X' -> aw XE X a b -> aw XE' X' a b.
  Proof.
    intros I0 I1 H. constructor; try apply H.
    - intros y Hy Hn. apply (aw_par _ _ _ _ H y Hy). intros Hin. apply Hn, I0, Hin.
    - intros y Hy Hn. apply (aw_v _ _ _ _ H y Hy). intros Hin. apply Hn, I1, Hin.
  Qed.

  (* a step that keeps the walk view of every scope *)
  Lemma aw_of XE X a b :
    (KInv a -> KInv b) -> nfut a <= nfut b -> nscope a <= nscope b -> ntask a <= ntask b ->
    (KInv a -> tframe a b) -> rsh a b -> (running a <> Some t -> running b <> Some t) ->
    (forall y, y < nscope a -> view3 (scopes b y) = view3 (scopes a y)) -> aw XE X a b.
  Proof.
    intros K Nf Ns Nt Tf Q R V. constructor; auto.
    - intros y Hy _. pose proof (V y Hy) as E. unfold view3 in E. now inversion E.
    - intros y Hy _. pose proof (V y Hy) as E. unfold view3 in E. inversion E as [[E1 E2 E3]]. rewrite E2, E3. now split.
    - intros y Hy Hc. pose proof (V y Hy) as E. unfold view3 in E. inversion E. congruence.
  Qed.

  Lemma aw_plain XE X a b :
    (KInv a -> KInv b) -> nfut a <= nfut b -> nscope a <= nscope b -> ntask a <= ntask b ->
    tasks b t = tasks a t -> (forall f, f < nfut a -> futs b f = futs a f) ->
    rsh a b ->
    (running a <> Some t -> running b <> Some t) ->
    (forall y, y < nscope a -> view3 (scopes b y) = view3 (scopes a y)) ->
    aw XE X a b.
  Proof.
    intros K Nf Ns Nt Et Ef Q R V. apply aw_of; auto.
    intros Ka. apply tfr_same; [exact Et| |exact Q]. intros f Hf. apply Ef, (k_alloc _ Ka t f Hf).
  Qed.

  (* steps that only touch other parts of the state *)
  Lemma aw_light XE X a b :
    kq a b -> tasks b t = tasks a t -> futs b = futs a -> rsh a b -> scopes b = scopes a -> nscope b = nscope a ->
    ntask b = ntask a -> (running a <> Some t -> running b <> Some t) -> aw XE X a b.
  Proof.
    intros K Et Ef Q Es En Ent R. apply aw_plain; auto; try lia.
    - intros Ka. now apply (KInv_kq a).
    - apply (kq_nfut _ _ K).
    - intros f _. now rewrite Ef.
    - intros y _. now rewrite Es.
  Qed.
End AW.

Section AWHelpers.
  Variable t : tid.
  Notation aw := (aw t).

  Lemma tframe_mk a b :
    (forall f, k_waiter (tasks a t) = Some f -> byst t f a b) ->
    (k_waiter (tasks a t) = None -> bym t a b) -> tframe t a b.
  Proof. intros H1 H2. now split. Qed.

  Lemma aw_upd_task XE X a u g : u <> t -> (forall k, k_waiter (g k) = k_waiter k \/ k_waiter (g k) = None) ->
    aw XE X a (upd_task a u g).
  Proof.
    intros Hu Hg. apply aw_light; try reflexivity; [now apply kq_upd_task|cbn; apply upd_other; congruence|apply rsh_same; reflexivity|auto].
  Qed.

  Lemma aw_upd_group XE X a g h : aw XE X a (upd_group a g h).
  Proof. apply aw_light; try reflexivity; [apply kq_upd_group|apply rsh_same; reflexivity|auto]. Qed.

  Lemma aw_set_running XE X a v : v <> Some t -> aw XE X a (set_running a v).
  Proof. intros Hv. apply aw_light; try reflexivity; [apply kq_set_running|apply rsh_same; reflexivity|]. intros _. exact Hv. Qed.

  Lemma aw_call_soon XE X a h : aw XE X a (call_soon a h).
  Proof.
    apply aw_light; try reflexivity; [apply kq_tasks_same; reflexivity|apply (rsh_append _ _ [h]); reflexivity|auto].
  Qed.

  Lemma aw_set_ctl XE X a u c : u <> t -> aw XE X a (set_ctl a u c).
  Proof. intros Hu. apply aw_light; try reflexivity; [apply kq_set_ctl|cbn; apply upd_other; congruence|apply rsh_same; reflexivity|auto]. Qed.

  Lemma aw_bare_yield XE X a u : aw XE X a (bare_yield a u).
  Proof. apply aw_call_soon. Qed.

  (* a scope record changes: its parent link stays unless the scope is listed in XE; its cancelled flag stays and
     its shield is not lowered unless it is listed in X; it is never uncancelled *)
  Lemma aw_upd_scope XE X a c g :
    (In c XE \/ forall k, s_parent (g k) = s_parent k) ->
    (In c X \/ forall k, s_cancelled (g k) = s_cancelled k /\ (s_shield k = true -> s_shield (g k) = true)) ->
    (forall k, s_cancelled k = true -> s_cancelled (g k) = true) -> aw XE X a (upd_scope a c g).
  Proof.
    intros Hp Hv Hm. constructor; try (cbn; lia).
    - intros K. apply (KInv_kq a); [exact K|apply kq_upd_scope].
    - intros K. apply tfr_same; [reflexivity|reflexivity|apply rsh_same; reflexivity].
    - apply rsh_same. reflexivity.
    - auto.
    - intros y _ Hn. cbn. unfold upd. destruct (Nat.eqb_spec y c) as [->|]; [|reflexivity].
      destruct Hp as [Hp|Hp]; [contradiction|apply Hp].
    - intros y _ Hn. cbn. unfold upd. destruct (Nat.eqb_spec y c) as [->|]; [|now split].
      destruct Hv as [Hv|Hv]; [contradiction|apply Hv].
    - intros y _. cbn. unfold upd. destruct (Nat.eqb_spec y c) as [->|]; [apply Hm|auto].
  Qed.

  (* only fields outside the walk view *)
  Lemma aw_upd_scope_keep XE X a c g : (forall k, view3 (g k) = view3 k) -> aw XE X a (upd_scope a c g).
  Proof.
    intros Hg. apply aw_upd_scope; [right|right|]; intros k; injection (Hg k) as E1 E2 E3; rewrite ?E1, ?E2, ?E3; auto.
  Qed.

  (* raising a shield needs no exception *)
  Lemma aw_shield_true XE X a c : aw XE X a (upd_scope a c (sc_shield true)).
  Proof. apply aw_upd_scope; [right|right|]; intros k; auto. Qed.

  Lemma aw_fut_complete XE X a g v : v <> FPend -> aw XE X a (fut_complete a g v).
  Proof.
    intros Hv. pose proof (kframe_fut_complete a g v) as K. apply aw_of.
    - intros Ka. apply (KInv_kq a); [exact Ka|now apply kq_kframe].
    - rewrite (kf_nfut _ _ K). lia.
    - rewrite (kf_nscope _ _ K). lia.
    - rewrite (kf_ntask _ _ K). lia.
    - intros _. apply tfr_fut_complete.
    - now apply rsh_kframe.
    - now rewrite (kf_running _ _ K).
    - intros y _. now rewrite fut_complete_scopes.
  Qed.

  Lemma view3_core x y : sc_core x = sc_core y -> view3 x = view3 y.
  Proof. intros H. unfold view3. now rewrite (core_parent _ _ H), (core_shield _ _ H), (core_cancelled _ _ H). Qed.

  Lemma aw_deliver_top XE X a c : aw XE X a (deliver_top a c).
  Proof.
    pose proof (kframe_deliver_top a c) as K. apply aw_of.
    - intros Ka. apply (KInv_kq a); [exact Ka|now apply kq_kframe].
    - rewrite (kf_nfut _ _ K). lia.
    - rewrite (kf_nscope _ _ K). lia.
    - rewrite (kf_ntask _ _ K). lia.
    - intros Ka. apply tfr_deliver_top, (k_link _ Ka).
    - now apply rsh_kframe.
    - now rewrite (kf_running _ _ K).
    - intros y _. symmetry. apply view3_core. symmetry. apply (kf_scopes _ _ K y).
  Qed.

  Lemma aw_restart XE X a x : aw XE X a (restart a x).
  Proof.
    unfold restart. generalize (nscope a) as fuel. intros fuel. revert x.
    induction fuel as [|fu IH]; intros x; cbn [restart_from]; [apply aw_refl|].
    destruct x as [c|]; [|apply aw_refl].
    destruct (s_cancelled (scopes a c)).
    - destruct (s_chandle (scopes a c)); [apply aw_refl|apply aw_deliver_top].
    - destruct (s_shield (scopes a c)); [apply aw_refl|apply IH].
  Qed.

  Lemma aw_timer_cancel XE X a tm : aw XE X a (timer_cancel a tm).
  Proof.
    apply aw_light; try reflexivity; [apply kq_tasks_same; reflexivity|apply rsh_timer_cancel|auto].
  Qed.

  Lemma aw_cancel_timeout XE X a c : aw XE X a (cancel_timeout a c).
  Proof.
    revert a. apply (cancel_timeout_closed (aw XE X) c (aw_refl t XE X) (aw_trans t XE X)); intros a;
      [intros tm _; apply aw_timer_cancel|apply aw_upd_scope_keep; intros k; reflexivity].
  Qed.

  Lemma aw_scope_cancel XE X a c b : In c X -> aw XE X a (scope_cancel a c b).
  Proof.
    intros Hin. revert a. apply (scope_cancel_closed (aw XE X) c (aw_refl t XE X) (aw_trans t XE X) b); intros a;
      [apply aw_cancel_timeout| |intros _ _; apply aw_deliver_top].
    apply aw_upd_scope; [right; intros k; reflexivity|now left|intros k _; reflexivity].
  Qed.

  Lemma aw_scope_timeout XE X a c : In c X -> aw XE X a (scope_timeout a c).
  Proof.
    intros Hin. revert a. apply (scope_timeout_closed (aw XE X) c (aw_refl t XE X)); intros a; [now apply aw_scope_cancel|].
    intros d _ _. eapply aw_trans; [|apply aw_upd_scope_keep; intros k; reflexivity].
    apply aw_light; try reflexivity; [apply kq_tasks_same; reflexivity|apply rsh_same; reflexivity|auto].
  Qed.
End AWHelpers.

(* counters and the running slot across the kernel helpers *)
Lemma fut_complete_cnt a g v :
  nfut (fut_complete a g v) = nfut a /\ running (fut_complete a g v) = running a.
Proof. unfold fut_complete. destruct (f_st (futs a g)); try (now split). destruct (f_waiter (futs a g)); now split. Qed.

Lemma suspend_on_cnt a u f : nfut (suspend_on a u f) = nfut a /\ running (suspend_on a u f) = running a.
Proof.
  unfold suspend_on. destruct (f_st (futs a f)); try (now split).
  destruct (k_must (tasks a u)); [|now split].
  set (s2 := upd_task (upd_fut a f (fun x => mkFut (f_st x) (Some u))) u (tk_waiter (Some f))).
  destruct (fut_complete_cnt s2 f (FCanc (k_msg (tasks a u)))) as [E1 E2]. cbn [nfut running upd_task set_tasks].
  now rewrite E1, E2.
Qed.

Lemma park_cnt a u : nfut (park a u) = S (nfut a) /\ running (park a u) = running a.
Proof.
  unfold park, new_fut. cbn [nfut running upd_task set_tasks].
  destruct (suspend_on_cnt (fst (new_fut a)) u (nfut a)) as [E1 E2]. cbn [fst new_fut] in *. now rewrite E1, E2.
Qed.

Section AWHelpers2.
  Variable t : tid.
  Notation aw := (aw t).

  Lemma aw_begin_act XE X a u : u <> t -> aw XE X a (begin_act a u).
  Proof.
    intros Hu. apply aw_light; try reflexivity; [apply kq_begin_act| |apply rsh_same; reflexivity|].
    - cbn. unfold upd. destruct (Nat.eqb_spec t u); [congruence|reflexivity].
    - intros _. cbn. congruence.
  Qed.

  Lemma aw_park XE X a u : u <> t -> aw XE X a (park a u).
  Proof.
    intros Hu. destruct (park_cnt a u) as [E1 E2]. apply aw_of.
    - apply K_park.
    - rewrite E1. lia.
    - rewrite (qt_nscope _ _ _ (quiet_park a u)). lia.
    - rewrite (qt_ntask _ _ _ (quiet_park a u)). lia.
    - now apply tfr_park_other.
    - apply rsh_park.
    - now rewrite E2.
    - intros y _. now rewrite (proj1 (ss_park a u)).
  Qed.

  Lemma aw_ret XE X a u r : u <> t -> aw XE X a (fst (ret_to_puppet a u r)).
  Proof.
    intros Hu. unfold ret_to_puppet. cbn [fst].
    set (s1 := match r with RExc e => upd_task a u (tk_held (Some e)) | _ => a end).
    assert (K1 : aw XE X a s1).
    { unfold s1. destruct r; try apply aw_refl. apply aw_upd_task; [exact Hu|intros k; now left]. }
    apply (aw_trans t XE X a s1); [exact K1|]. apply (aw_trans t XE X s1 (park s1 u)); [now apply aw_park|].
    now apply aw_set_running.
  Qed.

  Lemma aw_then_ret XE X a p u :
    u <> t -> aw XE X a (fst p) -> aw XE X a (fst (let '(s2, r) := p in ret_to_puppet s2 u r)).
  Proof.
    intros Hu. destruct p as [s2 r]. cbn [fst]. intros K. apply (aw_trans t XE X a s2); [exact K|now apply aw_ret].
  Qed.

  Lemma aw_incoming XE X a u fo : u <> t -> aw XE X a (fst (incoming a u fo)).
  Proof.
    intros Hu. unfold incoming. cbn [fst].
    match goal with |- aw XE X a (set_running ?x ?v) => apply (aw_trans t XE X a x) end.
    - apply aw_upd_task; [exact Hu|intros k; now right].
    - apply aw_set_running. congruence.
  Qed.

  Lemma aw_task_cancel XE X a u o : u <> t -> aw XE X a (task_cancel a u o).
  Proof.
    intros Hu. unfold task_cancel. destruct (k_done (tasks a u)); [apply aw_refl|].
    set (s1 := upd_task a u (tk_ncancel (S (k_ncancel (tasks a u))))).
    assert (K1 : aw XE X a s1) by (apply aw_upd_task; [exact Hu|intros k; now left]).
    destruct (k_waiter (tasks a u)) as [f|].
    - destruct (fut_pending s1 f).
      + apply (aw_trans t XE X a s1); [exact K1|]. apply aw_fut_complete. discriminate.
      + apply (aw_trans t XE X a s1); [exact K1|]. apply aw_upd_task; [exact Hu|intros k; now left].
    - apply (aw_trans t XE X a s1); [exact K1|]. apply aw_upd_task; [exact Hu|intros k; now left].
  Qed.

  Lemma aw_task_uncancel XE X a u : u <> t -> aw XE X a (task_uncancel a u).
  Proof. intros Hu. apply aw_upd_task; [exact Hu|intros k; now left]. Qed.

  Lemma aw_new_scope XE X a d sh : aw XE X a (fst (new_scope a d sh)).
  Proof.
    apply aw_plain; [|cbn; lia|cbn; lia|cbn; lia|reflexivity|intros f _; reflexivity|apply rsh_same; reflexivity|auto|].
    - intros K. apply (KInv_kq a); [exact K|apply kq_new_scope].
    - intros y Hy. cbn. unfold upd. destruct (Nat.eqb_spec y (nscope a)); [lia|reflexivity].
  Qed.

  Lemma aw_fold_fut_complete XE X v fs : v <> FPend -> forall a, aw XE X a (fold_left (fun a f => fut_complete a f v) fs a).
  Proof.
    intros Hv. induction fs as [|f fs IH]; intros a; cbn [fold_left]; [apply aw_refl|].
    apply (aw_trans t XE X a (fut_complete a f v)); [now apply aw_fut_complete|apply IH].
  Qed.

  Lemma aw_event_set XE X a e : aw XE X a (event_set a e).
  Proof.
    unfold event_set. destruct (e_set (events a e)); [apply aw_refl|].
    match goal with |- aw XE X a (fold_left _ ?l ?m) => apply (aw_trans t XE X a m) end.
    - apply aw_light; try reflexivity; [apply kq_tasks_same; reflexivity|apply rsh_same; reflexivity|auto].
    - apply aw_fold_fut_complete. discriminate.
  Qed.

  Lemma aw_event_unwait XE X a e fo : aw XE X a (event_unwait a e fo).
  Proof.
    destruct fo; [|apply aw_refl]. apply aw_light; try reflexivity; [apply kq_tasks_same; reflexivity|apply rsh_same; reflexivity|auto].
  Qed.

  (* the acting task suspends on the fresh future nfut a *)
  Lemma aw_fresh_suspend XE X a a2 u :
    u <> t -> aw XE X (fst (new_fut a)) a2 -> nfut a2 = S (nfut a) -> kq (fst (new_fut a)) a2 ->
    aw XE X a (suspend_on a2 u (nfut a)).
  Proof.
    intros Hu H2 En Kq.
    assert (H1 : aw XE X a (fst (new_fut a))).
    { apply aw_plain; [|cbn; lia|cbn; lia|cbn; lia|reflexivity| |apply rsh_same; reflexivity|auto|intros y _; reflexivity].
      - intros K. destruct K as [A L]. constructor.
        + intros x y Hw. cbn in *. pose proof (A x y Hw). lia.
        + intros x y Hw Hp. cbn in *. pose proof (A x y Hw) as Hy. unfold upd in *.
          destruct (Nat.eqb_spec y (nfut a)); [lia|]. now apply L.
      - intros f Hf. cbn. unfold upd. destruct (Nat.eqb_spec f (nfut a)); [lia|reflexivity]. }
    pose proof (aw_trans t XE X _ _ _ H1 H2) as H12.
    destruct (suspend_on_cnt a2 u (nfut a)) as [C1 C2].
    constructor.
    - intros K. now apply (K_fresh_suspend a a2 u K).
    - rewrite C1, En. lia.
    - rewrite (qt_nscope _ _ _ (quiet_suspend_on a2 u (nfut a))). apply H12.
    - rewrite (qt_ntask _ _ _ (quiet_suspend_on a2 u (nfut a))). apply H12.
    - intros K. apply (tfr_trans t a a2); [now apply H12|]. apply tfr_suspend_other; [exact Hu|]. intros f Hf.
      pose proof (tfr_core t a a2 (aw_t _ _ _ _ _ H12 K)) as E. rewrite (tcore_waiter _ _ E) in Hf.
      pose proof (k_alloc _ K t f Hf). lia.
    - eapply rsh_trans; [apply H12|apply rsh_suspend_on].
    - intros R. rewrite C2. now apply H12.
    - intros y Hy Hn. rewrite (proj1 (ss_suspend_on a2 u (nfut a))). now apply (aw_par _ _ _ _ _ H12).
    - intros y Hy Hn. rewrite (proj1 (ss_suspend_on a2 u (nfut a))). now apply (aw_v _ _ _ _ _ H12).
    - intros y Hy Hc. rewrite (proj1 (ss_suspend_on a2 u (nfut a))). now apply (aw_mono _ _ _ _ _ H12).
  Qed.
End AWHelpers2.

Section AWHelpers3.
  Variable t : tid.
  Notation aw := (aw t).

  Lemma aw_event_wait XE X a u e : u <> t -> aw XE X a (fst (event_wait a u e)).
  Proof.
    intros Hu. unfold event_wait. destruct (e_set (events a e)); cbn [fst]; [apply aw_bare_yield|].
    unfold new_fut. cbn [fst].
    apply (aw_fresh_suspend t XE X a _ u Hu); [|reflexivity|apply kq_tasks_same; reflexivity].
    apply aw_light; try reflexivity; [apply kq_tasks_same; reflexivity|apply rsh_same; reflexivity|auto].
  Qed.

  Lemma aw_finish_task XE X a u o : u <> t -> aw XE X a (finish_task a u o).
  Proof.
    intros Hu. unfold finish_task.
    set (s1 := upd_task a u _).
    assert (K1 : aw XE X a s1) by (apply aw_upd_task; [exact Hu|intros k; now right]).
    destruct (k_group (tasks a u)).
    - apply (aw_trans t XE X a s1); [exact K1|]. apply (aw_trans t XE X s1 (call_soon s1 (HTaskDone u))); [apply aw_call_soon|].
      apply aw_set_running. discriminate.
    - apply (aw_trans t XE X a s1); [exact K1|]. apply aw_set_running. discriminate.
  Qed.

  Lemma aw_tick XE X a dt : aw XE X a (tick a dt).
  Proof.
    apply aw_light; try reflexivity; [apply kq_tasks_same; reflexivity| |auto].
    apply (rsh_append a _ (map handle_of_timer (sort_timers (filter (fun x => Z.leb (tm_when x) (now a + dt)%Z) (timers a))))).
    reflexivity.
  Qed.

  Lemma aw_enter XE X a c u : u <> t -> In c XE -> In c X -> aw XE X a (fst (scope_enter a c u)).
  Proof.
    intros Hu Hie Hin. destruct (s_active (scopes a c)) eqn:Ea; [rewrite (scope_enter_fail a c u Ea); apply aw_refl|].
    rewrite (scope_enter_eq a c u Ea).
    assert (K3 : aw XE X a (enter_s3 a c u)).
    { unfold enter_s3. set (par := k_cur (tasks a u)).
      set (s1 := upd_scope a c (fun x => sc_parent par (sc_tasks (add u (s_tasks x)) (sc_host (Some u) x)))).
      set (s2 := upd_task s1 u (tk_cur (Some c))).
      assert (K2 : aw XE X a s2).
      { apply (aw_trans t XE X a s1); [apply aw_upd_scope; [now left|now left|intros k Hk; exact Hk]|].
        apply aw_upd_task; [exact Hu|intros k; now left]. }
      destruct par as [p|]; [|exact K2]. apply (aw_trans t XE X a s2); [exact K2|].
      apply aw_upd_scope_keep. intros k; reflexivity. }
    assert (K5 : aw XE X a (enter_s5 a c u)).
    { unfold enter_s5. apply (aw_trans t XE X a (scope_timeout (enter_s3 a c u) c)).
      - apply (aw_trans t XE X a (enter_s3 a c u)); [exact K3|now apply aw_scope_timeout].
      - apply aw_upd_scope_keep. intros k; reflexivity. }
    destruct (s_cancelled (scopes (enter_s5 a c u) c)); [|exact K5].
    apply (aw_trans t XE X a (enter_s5 a c u)); [exact K5|apply aw_deliver_top].
  Qed.

  Lemma aw_iter_uncancel XE X n u : u <> t -> forall a, aw XE X a (iter n (fun a => task_uncancel a u) a).
  Proof.
    intros Hu. induction n as [|n IH]; intros a; cbn [iter]; [apply aw_refl|].
    apply (aw_trans t XE X a (task_uncancel a u)); [now apply aw_task_uncancel|apply IH].
  Qed.

  Lemma aw_exit_struct XE X a c u : u <> t -> aw XE X a (exit_struct a c u).
  Proof.
    intros Hu. unfold exit_struct.
    set (s0 := upd_scope a c (sc_active false)).
    set (s1 := cancel_timeout s0 c).
    set (s2 := upd_scope s1 c (fun x => sc_tasks (del u (s_tasks x)) x)).
    assert (K2 : aw XE X a s2).
    { apply (aw_trans t XE X a s1).
      - apply (aw_trans t XE X a s0); [apply aw_upd_scope_keep; intros k; reflexivity|apply aw_cancel_timeout].
      - apply aw_upd_scope_keep. intros k; reflexivity. }
    destruct (s_parent (scopes a c)) as [p|].
    - match goal with |- aw XE X a (upd_task ?m u ?g) => apply (aw_trans t XE X a m) end.
      + apply (aw_trans t XE X a s2); [exact K2|apply aw_upd_scope_keep; intros k; reflexivity].
      + apply aw_upd_task; [exact Hu|intros k; now left].
    - apply (aw_trans t XE X a s2); [exact K2|]. apply aw_upd_task; [exact Hu|intros k; now left].
  Qed.

  Lemma aw_exit XE X a c u exc : u <> t -> aw XE X a (fst (scope_exit a c u exc)).
  Proof.
    intros Hu. destruct (exit_ok_dec a c u) as [Hok|Hno]; [|rewrite (scope_exit_fail a c u exc Hno); apply aw_refl].
    destruct (scope_exit_shape a c u exc Hok) as [s6 [x [S ->]]]. cbn [fst].
    assert (Keep : forall m y g, (forall k, view3 (g k) = view3 k) -> aw XE X a m -> aw XE X a (upd_scope m y g)).
    { intros m y g Hg Hm. apply (aw_trans t XE X a m _ Hm). now apply aw_upd_scope_keep. }
    apply Keep; [intros k; reflexivity|].
    assert (K5 : aw XE X a (restart (exit_links a c u) (s_parent (scopes a c)))).
    { apply (aw_trans t XE X a (exit_struct a c u)); [now apply aw_exit_struct|apply aw_restart]. }
    destruct S as [x| |p].
    - assert (KA : aw XE X a sA).
      { apply Keep; [intros k; reflexivity|]. eapply aw_trans; [exact K5|now apply aw_iter_uncancel]. }
      destruct x; [apply Keep; [intros k; reflexivity|exact KA]|exact KA|apply Keep; [intros k; reflexivity|exact KA]].
    - exact K5.
    - apply Keep; [intros k; reflexivity|]. apply Keep; [intros k; reflexivity|exact K5].
  Qed.
End AWHelpers3.

Section AWHelpers4.
  Variable t : tid.
  Notation aw := (aw t).

  Lemma aw_spawn XE X a g sf : t < ntask a -> aw XE X a (fst (spawn_task a g sf)).
  Proof.
    intros At. rewrite spawn_task_eq. cbn [fst].
    set (s1 := fst (new_scope a None false)).
    assert (K1 : aw XE X a s1) by apply aw_new_scope.
    assert (K4 : aw XE X a (spawn_struct a g sf)).
    { unfold spawn_struct. fold s1. cbv zeta.
      match goal with |- aw XE X a (upd_group (upd_scope ?m ?c ?f) ?g0 ?h) =>
        apply (aw_trans t XE X a (upd_scope m c f)); [|apply aw_upd_group];
        apply (aw_trans t XE X a m); [|apply aw_upd_scope_keep; intros k; reflexivity] end.
      apply (aw_trans t XE X a s1); [exact K1|].
      apply aw_plain; [|cbn; lia|cbn; lia|cbn; lia| |intros f _; reflexivity|apply rsh_same; reflexivity|auto|intros y _; reflexivity].
      - intros K. apply (KInv_kq s1); [exact K|]. apply kq_same; [reflexivity|reflexivity|].
        intros x. cbn. unfold upd. destruct (Nat.eqb_spec x (ntask a)); [now right|now left].
      - cbn. unfold upd. destruct (Nat.eqb_spec t (ntask a)); [lia|reflexivity]. }
    apply (aw_trans t XE X a (restart (spawn_struct a g sf) (Some (g_scope (groups a g))))); [|apply aw_call_soon].
    apply (aw_trans t XE X a (spawn_struct a g sf)); [exact K4|apply aw_restart].
  Qed.

  Lemma aw_run_task_done XE X a u :
    u <> t -> (forall g, k_group (tasks a u) = Some g -> In (g_scope (groups a g)) X) -> aw XE X a (run_task_done a u).
  Proof.
    intros Hu Hg. rewrite run_task_done_eq.
    destruct (k_group (tasks a u)) as [g|]; [|apply aw_set_running; discriminate].
    specialize (Hg g eq_refl). set (s3 := done_struct (set_running a None) u g).
    assert (K3 : aw XE X a s3).
    { unfold s3, done_struct. cbv zeta.
      match goal with |- aw XE X a (upd_task (upd_group ?m ?g0 ?h) u ?f) =>
        apply (aw_trans t XE X a (upd_group m g0 h)); [|apply aw_upd_task; [exact Hu|intros k; now left]];
        apply (aw_trans t XE X a m); [|apply aw_upd_group] end.
      change (tasks (set_running a None) u) with (tasks a u). destruct (k_cur (tasks a u)).
      - apply (aw_trans t XE X a (set_running a None)); [apply aw_set_running; discriminate|].
        apply aw_upd_scope_keep. intros k; reflexivity.
      - apply aw_set_running. discriminate. }
    assert (G3 : g_scope (groups s3 g) = g_scope (groups a g)).
    { unfold s3, done_struct. cbn. rewrite upd_same. destruct (k_cur (tasks a u)); reflexivity. }
    clearbody s3. destruct (td_tail_shape s3 (tasks a u) g u) as [W E].
    assert (K4 : aw XE X a (done_wake s3 g) /\ g_scope (groups (done_wake s3 g) g) = g_scope (groups a g)).
    { destruct W; [now split|]. split; [apply (aw_trans t XE X a s3 _ K3); apply aw_fut_complete; discriminate|].
      now rewrite (kf_groups _ _ (kframe_fut_complete s3 f (FRes 0))). }
    destruct K4 as [K4 G4]. apply (aw_trans t XE X a _ _ K4).
    destruct E as [|f Ef Ep|e Ee Ec Ef|e Ee Ec].
    - apply aw_refl.
    - apply aw_fut_complete. destruct (done_exc (tasks a u)); discriminate.
    - apply aw_scope_cancel. now rewrite G4.
    - eapply aw_trans; [apply aw_upd_group|apply aw_scope_cancel]. now rewrite G4.
  Qed.

  Lemma aw_aexit_raise XE X a u g e : u <> t -> aw XE X a (fst (aexit_raise a u g e)).
  Proof.
    intros Hu. unfold aexit_raise. pose proof (aw_exit t XE X a (g_scope (groups a g)) u (Some e) Hu) as K1.
    destruct (scope_exit a (g_scope (groups a g)) u (Some e)) as [s1 x]. cbn [fst] in K1.
    assert (K2 : aw XE X a (upd_group s1 g (gr_left true))) by (apply (aw_trans t XE X a s1); [exact K1|apply aw_upd_group]).
    destruct x; cbn [fst]; try exact K2.
    apply (aw_trans t XE X a _ _ K2). apply aw_upd_task; [exact Hu|intros k; now left].
  Qed.

  Lemma aw_aexit_finish XE X a u g exc : u <> t -> aw XE X a (fst (aexit_finish a u g exc)).
  Proof.
    intros Hu. unfold aexit_finish. destruct (map snd (g_excs (groups a g))) as [|e0 l]; [|now apply aw_aexit_raise].
    destruct exc as [e|]; [now apply aw_aexit_raise|].
    pose proof (aw_exit t XE X a (g_scope (groups a g)) u None Hu) as K1.
    destruct (scope_exit a (g_scope (groups a g)) u None) as [s1 x]. cbn [fst] in K1.
    destruct x; cbn [fst]; (apply (aw_trans t XE X a s1); [exact K1|apply aw_upd_group]).
  Qed.

  Lemma aw_new_enter XE X a d sh u :
    u <> t -> In (nscope a) XE -> In (nscope a) X -> aw XE X a (fst (scope_enter (fst (new_scope a d sh)) (nscope a) u)).
  Proof.
    intros Hu H1 H2. apply (aw_trans t XE X a (fst (new_scope a d sh))); [apply aw_new_scope|now apply aw_enter].
  Qed.

  Lemma aw_block XE X a a1 u c : u <> t -> aw XE X a a1 -> aw XE X a (fst (blocked (set_ctl a1 u c))).
  Proof.
    intros Hu H. cbn [fst blocked]. apply (aw_trans t XE X a (set_ctl a1 u c)).
    - apply (aw_trans t XE X a a1); [exact H|now apply aw_set_ctl].
    - apply aw_set_running. discriminate.
  Qed.

  (* a fresh shielded scope is entered and the task yields inside it *)
  Lemma aw_shield_ck XE X a u k :
    u <> t -> In (nscope a) XE -> In (nscope a) X ->
    aw XE X a (fst (let '(s2, c) := new_scope a None true in
                    blocked (set_ctl (bare_yield (fst (scope_enter s2 c u)) u) u (k c)))).
  Proof.
    intros Hu I1 I2. unfold new_scope. cbv zeta. apply aw_block; [exact Hu|].
    eapply aw_trans; [now apply (aw_new_enter XE X a None true u)|apply aw_bare_yield].
  Qed.

  (* start(): the caller, cancelled while the child is still starting, joins it in a fresh shielded scope *)
  Lemma aw_start_join XE X a u child e :
    u <> t -> In (nscope a) XE -> In (nscope a) X ->
    aw XE X a (fst (let '(s2, c) := new_scope a None true in
                    let s3 := fst (scope_enter s2 c u) in
                    let '(s4, wf) := event_wait s3 u (k_hevent (tasks s3 child)) in
                    blocked (set_ctl s4 u (CStartJoin child c e wf)))).
  Proof.
    intros Hu I1 I2. unfold new_scope. cbv zeta.
    pose proof (aw_new_enter XE X a None true u Hu I1 I2) as K3. unfold new_scope in K3. cbn [fst] in K3.
    match goal with |- context [scope_enter ?m ?c u] => set (s3 := fst (scope_enter m c u)) in * end.
    pose proof (aw_event_wait t XE X s3 u (k_hevent (tasks s3 child)) Hu) as K4.
    destruct (event_wait s3 u (k_hevent (tasks s3 child))) as [s4 wf]. cbn [fst] in K4.
    apply aw_block; [exact Hu|]. eapply aw_trans; eauto.
  Qed.

  Lemma aw_wof XE X a u g ws exc :
    u <> t -> (ws = None -> In (nscope a) XE /\ In (nscope a) X) -> aw XE X a (fst (aexit_wait_or_finish a u g ws exc)).
  Proof.
    intros Hu HS. unfold aexit_wait_or_finish. destruct (g_tasks (groups a g)) as [|c0 cs].
    - destruct ws as [w|]; [|now apply aw_then_ret, aw_aexit_finish].
      pose proof (aw_exit t XE X a w u None Hu) as K1. destruct (scope_exit a w u None) as [s1 x]. cbn [fst] in K1.
      destruct x; (apply aw_then_ret; [exact Hu|]); apply (aw_trans t XE X a s1 _ K1);
        [now apply aw_aexit_finish|now apply aw_aexit_finish|now apply aw_aexit_raise].
    - assert (Tail : forall m w, aw XE X a m ->
                aw XE X a (fst (let '(s1, f) := new_fut m in
                          blocked (set_ctl (suspend_on (upd_group s1 g (gr_fut (Some f))) u f) u (CAexitWait g w exc))))).
      { intros m w Hm. unfold new_fut. cbv beta iota zeta. apply aw_block; [exact Hu|]. apply (aw_trans t XE X a m _ Hm).
        apply (aw_fresh_suspend t XE X m _ u Hu); [apply aw_upd_group|reflexivity|apply kq_upd_group]. }
      destruct ws as [w|]; [apply Tail, aw_refl|].
      unfold new_scope. cbv beta iota zeta. destruct (HS eq_refl) as [I1 I2].
      apply Tail. now apply (aw_new_enter XE X a None false u).
  Qed.

  (* __aexit__ once the body's exception is recorded: the shielded checkpoint of an empty group, or the wait loop *)
  Lemma aw_aexit_body XE X a u g exc :
    u <> t -> In (nscope a) XE -> In (nscope a) X ->
    aw XE X a (fst (match g_tasks (groups a g) with
                    | [] => let '(s2, c) := new_scope a None true in
                            let s3 := fst (scope_enter s2 c u) in
                            blocked (set_ctl (bare_yield s3 u) u (CAexitCk g c exc))
                    | _ => aexit_wait_or_finish a u g None exc
                    end)).
  Proof.
    intros Hu I1 I2. destruct (g_tasks (groups a g)).
    - now apply (aw_shield_ck XE X a u (fun c => CAexitCk g c exc)).
    - apply aw_wof; [exact Hu|now split].
  Qed.
End AWHelpers4.

(* the exception lists of an op: scopes it enters (possibly the fresh id), and scopes whose
   cancelled flag it may set or whose shield it lowers ---------------- *)
Definition xe_ctl (a : st) (u : tid) : list sid :=
  match k_ctl (tasks a u) with
  | CNew => [k_hscope (tasks a u)]
  | CAexitCk _ _ _ | CStartWait _ _ _ => [nscope a]
  | _ => []
  end.

Definition xc_ctl (a : st) (u : tid) : list sid :=
  match k_ctl (tasks a u) with
  | CAexitWait g _ _ | CAexitCk g _ _ => [g_scope (groups a g)]
  | CStartWait _ child _ => [k_hscope (tasks a child)]
  | _ => []
  end.

Definition xe (a : st) (o : op) : list sid :=
  match o with
  | AEnter _ c => [c]
  | AFailAt _ _ _ | AGroupExit _ _ | AShieldCk _ => [nscope a]
  | AGroupEnter _ g => [g_scope (groups a g)]
  | ARun (HStep u) | ARun (HWake u _) => xe_ctl a u
  | _ => []
  end.

Definition xc (a : st) (o : op) : list sid :=
  match o with
  | ACancel _ c | ASetDeadline _ c _ | AExtCancel c | ARun (HTimeout c _) => [c]
  | ASetShield _ c b => if b then [] else [c]
  | AGroupExit _ g => [g_scope (groups a g)]
  | AHandleCancel _ h => [k_hscope (tasks a h)]
  | ARun (HTaskDone u) => match k_group (tasks a u) with Some g => [g_scope (groups a g)] | None => [] end
  | ARun (HStep u) | ARun (HWake u _) => xc_ctl a u
  | _ => []
  end.

Lemma spawn_nfut m g sf : nfut (fst (spawn_task m g sf)) = nfut m.
Proof.
  (* no conversion may get to compare call_soon (restart ...) with restart ...: it would run the restart *)
  assert (E : forall a h, nfut (call_soon a h) = nfut a) by reflexivity.
  rewrite spawn_task_eq. unfold fst. rewrite E.
  apply (kf_nfut _ _ (kframe_restart (spawn_struct m g sf) (Some (g_scope (groups m g))))).
Qed.

Section AWOps.
  Variable t : tid.
  Notation aw := (aw t).

  Lemma begin_hscope a u h : k_hscope (tasks (begin_act a u) h) = k_hscope (tasks a h).
  Proof. cbn. unfold upd. destruct (Nat.eqb_spec h u); [subst|]; reflexivity. Qed.

  Lemma aw_op_group_exit XE X a u g :
    u <> t -> In (nscope a) XE -> In (nscope a) X -> In (g_scope (groups a g)) X ->
    aw XE X a (fst (puppet_op a u (AGroupExit u g))).
  Proof.
    intros Hu I1 I2 I3. unfold puppet_op. set (s := begin_act a u).
      set (s1 := match k_held (tasks s u) with Some e => _ | None => s end).
      assert (H1 : aw XE X s s1).
      { unfold s1. destruct (k_held (tasks s u)) as [e|]; [|apply aw_refl]. cbv zeta.
        assert (Hc : aw XE X s (scope_cancel s (g_scope (groups s g)) false)) by (apply aw_scope_cancel; exact I3).
        destruct (is_cancel e); [exact Hc|]. eapply aw_trans; [exact Hc|apply aw_upd_group]. }
      assert (N1 : nscope s1 = nscope a).
      { unfold s1. destruct (k_held (tasks s u)) as [e|]; [|reflexivity]. cbv zeta.
        destruct (is_cancel e); cbn [nscope upd_group set_groups]; apply (tq_nscope _ _ (treq_scope_cancel s _ false)). }
      apply (aw_trans t XE X a s1); [apply (aw_trans t XE X a s); [now apply aw_begin_act|exact H1]|].
      apply aw_aexit_body; [exact Hu|now rewrite N1|now rewrite N1].
  Qed.

  Lemma aw_puppet_op a u o :
    u <> t -> t < ntask a -> aw (xe a o) (xe a o ++ xc a o) a (fst (puppet_op a u o)).
  Proof.
    intros Hu At. unfold puppet_op.
    set (XE := xe a o). set (X := xe a o ++ xc a o).
    assert (K0 : aw XE X a (begin_act a u)) by now apply aw_begin_act.
    set (s := begin_act a u) in *.
    assert (At' : t < ntask s) by exact At.
    assert (Q : forall s1 r, aw XE X s s1 -> aw XE X a (fst (ret_to_puppet s1 u r))).
    { intros s1 r H. apply (aw_trans t XE X a s1); [eapply aw_trans; eauto|now apply aw_ret]. }
    assert (B : forall s1 c, aw XE X s s1 -> aw XE X a (fst (blocked (set_ctl s1 u c)))).
    { intros s1 c H. apply aw_block; [exact Hu|eapply aw_trans; eauto]. }
    destruct o; try (apply aw_refl); subst XE X; cbn [xe xc app] in *.
    - unfold new_scope. cbv zeta. apply Q. apply (aw_new_scope t _ _ s d sh).
    - (* AEnter *)
      pose proof (aw_enter t [c] [c] s c u Hu (or_introl eq_refl) (or_introl eq_refl)) as H.
      destruct (scope_enter s c u) as [s1 e]. now apply Q.
    - (* AExit *)
      pose proof (aw_exit t [] [] s c u (k_held (tasks s u)) Hu) as H.
      destruct (scope_exit s c u (k_held (tasks s u))) as [s1 x]. cbn [fst] in H. destruct x.
      + assert (H2 : aw [] [] s (upd_task s1 u (tk_held None))).
        { eapply aw_trans; [exact H|]. apply aw_upd_task; [exact Hu|intros k; now left]. }
        destruct (_ && _); now apply Q.
      + now apply Q.
      + now apply Q.
    - apply Q. apply aw_scope_cancel. now left.
    - (* ASetShield *)
      destruct (Bool.eqb _ b); [apply Q, aw_refl|]. apply Q. destruct b.
      + apply aw_shield_true.
      + apply (aw_trans t [] [c] s (upd_scope s c (sc_shield false))); [|apply aw_restart].
        apply aw_upd_scope; [right; intros k; reflexivity|left; now left|intros k Hk; exact Hk].
    - (* ASetDeadline *)
      apply Q. set (s1 := cancel_timeout _ c).
      assert (H : aw [] [c] s s1).
      { unfold s1. apply (aw_trans t [] [c] s (upd_scope s c (sc_deadline d))); [apply aw_upd_scope_keep; intros k; reflexivity|].
        apply aw_cancel_timeout. }
      destruct (_ && _); [|exact H]. eapply aw_trans; [exact H|apply aw_scope_timeout; now left].
    - (* AGroupNew *)
      unfold new_scope. cbv zeta. apply Q.
      match goal with |- aw [] [] s ?b => apply (aw_trans t [] [] s (fst (new_scope s None false))) end; [apply aw_new_scope|].
      apply aw_light; try reflexivity; [apply kq_tasks_same; reflexivity|apply rsh_same; reflexivity|auto].
    - (* AGroupEnter *)
      destruct (g_entered (groups s g)); [apply Q, aw_refl|].
      set (s1 := upd_group s g (gr_entered true)).
      assert (Eg : g_scope (groups s1 g) = g_scope (groups a g)).
      { unfold s1. cbn. unfold upd. now rewrite Nat.eqb_refl. }
      assert (Hin : In (g_scope (groups s1 g)) [g_scope (groups a g)]) by (rewrite Eg; now left).
      pose proof (aw_enter t [g_scope (groups a g)] [g_scope (groups a g)] s1 (g_scope (groups s1 g)) u Hu Hin Hin) as H.
      destruct (scope_enter _ _ u) as [s2 e]. cbn [fst] in H. apply Q.
      apply (aw_trans t _ _ s s1); [apply aw_upd_group|exact H].
    - (* AGroupExit *)
      apply (aw_op_group_exit [nscope a] [nscope a; g_scope (groups a g)] a u g Hu); [now left|now left|right; now left].
    - (* ASpawn *)
      destruct (group_active s g); cbn [negb]; [|apply Q, aw_refl].
      pose proof (aw_spawn t [] [] s g None At') as H. destruct (spawn_task s g None) as [s1 c]. now apply Q.
    - (* AStart *)
      destruct (group_active s g); cbn [negb]; [|apply Q, aw_refl].
      unfold new_fut. cbv beta iota zeta.
      match goal with |- context [spawn_task ?m g ?sf] =>
        pose proof (aw_spawn t [] [] m g sf At') as H; pose proof (kq_spawn_task m g sf) as Hk;
        pose proof (spawn_nfut m g sf) as Hn; destruct (spawn_task m g sf) as [s2 c] end.
      cbn [fst] in *. apply B. apply (aw_fresh_suspend t [] [] s s2 u Hu); [exact H|exact Hn|exact Hk].
    - (* AStarted *)
      destruct (k_startfut (tasks s u)) as [f|]; [|apply Q, aw_refl].
      destruct (f_st (futs s f)); apply Q; try apply aw_refl. apply aw_fut_complete. discriminate.
    - (* AHandleCancel *)
      destruct (e_set _); apply Q; [apply aw_refl|]. apply aw_scope_cancel. unfold s. rewrite begin_hscope. now left.
    - (* AHandleWait *)
      pose proof (aw_event_wait t [] [] s u (k_hevent (tasks s h)) Hu) as H.
      destruct (event_wait s u (k_hevent (tasks s h))) as [s1 f]. cbn [fst] in H. now apply B.
    - apply B. apply aw_bare_yield.
    - destruct (ckif_spins _ _ _); [apply B, aw_bare_yield|apply Q, aw_refl].
    - (* AShieldCk *)
      apply (aw_trans t _ _ a s); [exact K0|].
      apply (aw_shield_ck t [nscope a] [nscope a] s u (fun c => CYield (YShield c)) Hu); now left.
    - (* ASleep *)
      unfold new_fut. cbv beta iota zeta. destruct d as [dt|].
      + unfold call_at. cbv beta iota zeta. apply B.
        apply (aw_fresh_suspend t [] [] s _ u Hu); [|reflexivity|apply kq_tasks_same; reflexivity].
        apply aw_light; try reflexivity; [apply kq_tasks_same; reflexivity|apply rsh_same; reflexivity|auto].
      + apply B. apply (aw_fresh_suspend t [] [] s _ u Hu); [apply aw_refl|reflexivity|apply kq_refl].
    - apply Q. apply aw_upd_task; [exact Hu|intros k; now left].
    - apply Q. apply aw_upd_task; [exact Hu|intros k; now left].
    - apply Q. apply aw_upd_task; [exact Hu|intros k; now left].
    - apply Q. now apply aw_task_uncancel.
    - cbn [fst]. apply (aw_trans t [] [] a (park s u)); [|apply aw_set_running; discriminate].
      apply (aw_trans t [] [] a s); [exact K0|now apply aw_park].
    - (* AFailAt *)
      unfold new_scope. cbv zeta.
      match goal with |- context [scope_enter ?m ?c u] =>
        assert (H : aw [nscope a] [nscope a] s (fst (scope_enter m c u)))
          by (apply (aw_new_enter t [nscope a] [nscope a] s d sh u Hu); now left);
        destruct (scope_enter m c u) as [s2 e] end.
      cbn [fst] in H. now apply Q.
  Qed.
End AWOps.

Lemma scope_cancel_groups s c b : groups (scope_cancel s c b) = groups s.
Proof.
  pose (R := fun a b : st => groups b = groups a).
  assert (Rt : forall a b z, R a b -> R b z -> R a z) by (unfold R; intros a0 b0 z H1 H2; now rewrite H2).
  revert s. apply (scope_cancel_closed R c (fun _ => eq_refl) Rt b); intros a;
    [|reflexivity|intros _ _; apply (kf_groups _ _ (kframe_deliver_top a c))].
  revert a. apply (cancel_timeout_closed R c (fun _ => eq_refl) Rt); reflexivity.
Qed.

Section AWOps2.
  Variable t : tid.
  Notation aw := (aw t).

  Lemma aw_puppet_finish a u v : u <> t -> aw [] [] a (fst (puppet_finish a u v)).
  Proof.
    intros Hu. unfold puppet_finish.
    set (s := begin_act a u).
    set (raw := match k_held (tasks s u) with Some e => OExc e | None => ORet v end).
    set (s1 := upd_task s u (tk_final (Some raw))).
    assert (H1 : aw [] [] a s1).
    { apply (aw_trans t [] [] a s); [now apply aw_begin_act|]. apply aw_upd_task; [exact Hu|intros k; now left]. }
    destruct (k_group (tasks s u)).
    - set (s2 := upd_task s1 u _). set (s3 := event_set s2 (k_hevent (tasks s u))).
      assert (H3 : aw [] [] a s3).
      { apply (aw_trans t [] [] a s2); [|apply aw_event_set]. apply (aw_trans t [] [] a s1); [exact H1|].
        apply aw_upd_task; [exact Hu|]. intros k. destruct raw; now left. }
      pose proof (aw_exit t [] [] s3 (k_hscope (tasks s u)) u (k_held (tasks s u)) Hu) as H4.
      destruct (scope_exit s3 (k_hscope (tasks s u)) u (k_held (tasks s u))) as [s4 x]. cbn [fst] in H4.
      destruct x; cbn [fst]; (apply (aw_trans t [] [] a s4); [eapply aw_trans; eauto|now apply aw_finish_task]).
    - cbn [fst]. apply (aw_trans t [] [] a s1); [exact H1|now apply aw_finish_task].
  Qed.

  Lemma incoming_hscope a u fo x : k_hscope (tasks (fst (incoming a u fo)) x) = k_hscope (tasks a x).
  Proof. unfold incoming. cbn. unfold upd. destruct (Nat.eqb_spec x u); [subst|]; reflexivity. Qed.

  Lemma aw_resume_gen XE X a u fo :
    u <> t ->
    (k_ctl (tasks a u) = CNew -> In (k_hscope (tasks a u)) XE /\ In (k_hscope (tasks a u)) X) ->
    (forall g ws e, k_ctl (tasks a u) = CAexitWait g ws e -> snd (incoming a u fo) <> None -> In (g_scope (groups a g)) X) ->
    (forall g c e, k_ctl (tasks a u) = CAexitCk g c e ->
                   In (nscope a) XE /\ In (nscope a) X /\ In (g_scope (groups a g)) X) ->
    (forall g child f, k_ctl (tasks a u) = CStartWait g child f -> snd (incoming a u fo) <> None ->
                   In (nscope a) XE /\ In (nscope a) X /\ In (k_hscope (tasks a child)) X) ->
    aw XE X a (fst (resume a u fo)).
  Proof.
    intros Hu H1 H2 H3 H4. unfold resume.
    pose proof (aw_incoming t XE X a u fo Hu) as K0. pose proof (incoming_ctl a u fo) as Ec.
    pose proof (incoming_hscope a u fo) as Eh.
    assert (Eg : groups (fst (incoming a u fo)) = groups a) by reflexivity.
    assert (En : nscope (fst (incoming a u fo)) = nscope a) by reflexivity.
    destruct (incoming a u fo) as [s inc]. cbn [fst snd] in *.
    assert (Q : forall s1 r, aw XE X s s1 -> aw XE X a (fst (ret_to_puppet s1 u r))).
    { intros s1 r H. apply (aw_trans t XE X a s1); [eapply aw_trans; eauto|now apply aw_ret]. }
    rewrite Ec. destruct (k_ctl (tasks a u)) eqn:Ectl; try apply aw_refl.
    - (* CNew *)
      destruct (H1 eq_refl) as [I1 I2].
      set (s1 := upd_task s u (tk_started true)).
      assert (K1 : aw XE X a s1) by (apply (aw_trans t XE X a s); [exact K0|apply aw_upd_task; [exact Hu|intros k; now left]]).
      destruct inc as [e|].
      + cbn [fst]. apply (aw_trans t XE X a s1); [exact K1|now apply aw_finish_task].
      + cbn [fst]. set (s2 := match k_group (tasks s1 u) with Some _ => _ | None => s1 end).
        assert (K2 : aw XE X a s2).
        { unfold s2. destruct (k_group (tasks s1 u)); [|exact K1]. apply (aw_trans t XE X a s1); [exact K1|].
          assert (E : k_hscope (tasks s1 u) = k_hscope (tasks a u)).
          { unfold s1. cbn. unfold upd. rewrite Nat.eqb_refl. cbn. apply Eh. }
          apply aw_enter; [exact Hu|now rewrite E|now rewrite E]. }
        apply (aw_trans t XE X a (park s2 u)); [|apply aw_set_running; discriminate].
        apply (aw_trans t XE X a s2); [exact K2|now apply aw_park].
    - (* CIdle *)
      cbn [fst]. set (s1 := match inc with Some e => upd_task s u (tk_held (Some e)) | None => s end).
      assert (K1 : aw XE X a s1).
      { unfold s1. destruct inc; [|exact K0]. apply (aw_trans t XE X a s); [exact K0|apply aw_upd_task; [exact Hu|intros k; now left]]. }
      apply (aw_trans t XE X a (park s1 u)); [|apply aw_set_running; discriminate].
      apply (aw_trans t XE X a s1); [exact K1|now apply aw_park].
    - (* CYield *)
      destruct k as [| |c].
      + apply Q, aw_refl.
      + destruct inc; [apply Q, aw_refl|]. destruct (ckif_spins _ _ _); [|apply Q, aw_refl]. cbn [fst blocked].
        apply (aw_trans t XE X a (bare_yield s u)); [|apply aw_set_running; discriminate].
        apply (aw_trans t XE X a s); [exact K0|apply aw_bare_yield].
      + pose proof (aw_exit t XE X s c u inc Hu) as K. destruct (scope_exit s c u inc) as [s1 x]. cbn [fst] in K.
        destruct x; now apply Q.
    - (* CSleep *) apply Q. apply aw_timer_cancel.
    - (* CAexitWait *)
      pose proof (H2 _ _ _ eq_refl) as I.
      set (s1 := upd_group s g (gr_fut None)).
      assert (K1 : aw XE X a s1) by (apply (aw_trans t XE X a s); [exact K0|apply aw_upd_group]).
      assert (G1 : g_scope (groups s1 g) = g_scope (groups a g)).
      { unfold s1. cbn. unfold upd. rewrite Nat.eqb_refl. cbn. now rewrite Eg. }
      destruct inc as [e|].
      + match goal with |- _ (fst (aexit_wait_or_finish ?m u g (Some ws) ?ex)) => apply (aw_trans t XE X a m) end.
        * apply (aw_trans t XE X a (upd_scope s1 ws (sc_shield true))); [apply (aw_trans t XE X a s1); [exact K1|apply aw_shield_true]|].
          apply aw_scope_cancel. change (groups (upd_scope s1 ws (sc_shield true)) g) with (groups s1 g). rewrite G1. apply I. discriminate.
        * apply aw_wof; [exact Hu|discriminate].
      + apply (aw_trans t XE X a s1); [exact K1|]. apply aw_wof; [exact Hu|discriminate].
    - (* CAexitCk *)
      destruct (H3 _ _ _ eq_refl) as [I1 [I2 I3]].
      pose proof (aw_exit t XE X s sc u inc Hu) as K. pose proof (sfr_exit s sc u inc) as Fx.
      pose proof (scope_exit_groups s sc u inc) as Gx.
      destruct (scope_exit s sc u inc) as [s1 x]. cbn [fst] in K, Fx, Gx.
      assert (K1 : aw XE X a s1) by (eapply aw_trans; eauto).
      assert (N1 : nscope s1 = nscope a) by (rewrite (sf_ns _ _ Fx); exact En).
      assert (G1 : g_scope (groups s1 g) = g_scope (groups a g)) by (now rewrite Gx, Eg).
      assert (W : forall m ex, aw XE X a m -> nscope m = nscope a ->
                  aw XE X a (fst (aexit_wait_or_finish m u g None ex))).
      { intros m ex Hm Nm. apply (aw_trans t XE X a m); [exact Hm|]. apply aw_wof; [exact Hu|]. intros _. now rewrite Nm. }
      destruct x as [| |e].
      + now apply W.
      + destruct inc as [e|]; [|now apply W].
        destruct (is_cancel e).
        * apply W.
          -- apply (aw_trans t XE X a s1); [exact K1|]. apply aw_scope_cancel. now rewrite G1.
          -- rewrite (tq_nscope _ _ (treq_scope_cancel s1 _ false)). exact N1.
        * apply (aw_then_ret t XE X a _ u Hu), (aw_trans t XE X a s1 _ K1). now apply aw_aexit_raise.
      + apply (aw_then_ret t XE X a _ u Hu), (aw_trans t XE X a s1 _ K1). now apply aw_aexit_raise.
    - (* CStartWait *)
      destruct inc as [e|]; [|apply Q, aw_refl].
      destruct (H4 _ _ _ eq_refl) as [I1 [I2 I3]]; [discriminate|].
      destruct (handle_pending s child); [|destruct (f_st (futs s _)); apply Q, aw_refl].
      set (s1 := scope_cancel s (k_hscope (tasks s child)) false).
      assert (K1 : aw XE X a s1).
      { apply (aw_trans t XE X a s); [exact K0|]. apply aw_scope_cancel. now rewrite Eh. }
      assert (N1 : nscope s1 = nscope a) by (unfold s1; rewrite (tq_nscope _ _ (treq_scope_cancel s _ false)); exact En).
      apply (aw_trans t XE X a s1); [exact K1|]. apply aw_start_join; [exact Hu|now rewrite N1|now rewrite N1].
    - (* CStartJoin *)
      set (s1 := event_unwait s (k_hevent (tasks s child)) f).
      pose proof (aw_exit t XE X s1 sc u inc Hu) as K. destruct (scope_exit s1 sc u inc) as [s2 x]. cbn [fst] in K.
      assert (K2 : aw XE X s s2) by (apply (aw_trans t XE X s s1); [apply aw_event_unwait|exact K]).
      destruct x; [| destruct inc |]; now apply Q.
    - (* CHandleWait *) apply Q. apply aw_event_unwait.
  Qed.

  Lemma aw_resume a u fo :
    u <> t -> aw (xe_ctl a u) (xe_ctl a u ++ xc_ctl a u) a (fst (resume a u fo)).
  Proof.
    intros Hu. apply aw_resume_gen; [exact Hu| | | |]; unfold xe_ctl, xc_ctl.
    - intros E. rewrite E. cbn. auto.
    - intros g ws e E _. rewrite E. cbn. auto.
    - intros g c e E. rewrite E. cbn. auto.
    - intros g child f E _. rewrite E. cbn. auto.
  Qed.

  (* an op that is not an act of t: API calls of other tasks, environment ops *)
  Definition other_act (o : op) : Prop :=
    match o with
    | ARun _ => False
    | ANativeCancel u => u <> t
    | _ => actor o <> Some t
    end.

  Lemma aw_step_act a o :
    other_act o -> t < ntask a -> aw (xe a o) (xe a o ++ xc a o) a (fst (step a o)).
  Proof.
    intros Ho At. unfold step. destruct (actor o) as [u|] eqn:Ea.
    - assert (Hu : u <> t).
      { destruct o; cbn [other_act actor] in *; try discriminate; inversion Ea; subst; intros ->; now apply Ho. }
      destruct (negb (idle a u)); [apply aw_refl|].
      destruct o; cbn [actor] in Ea; try discriminate; inversion Ea; subst;
        try (now apply aw_puppet_op). cbn [xe xc app fst]. now apply aw_puppet_finish.
    - destruct o; cbn [actor] in Ea; try discriminate; cbn [xe xc app]; try apply aw_refl.
      + (* ANewRoot *)
        unfold new_root. cbn [fst].
        match goal with |- _ (set_running (park ?m ?u) None) => set (s1 := m) end.
        assert (Hu : ntask a <> t) by lia.
        apply (aw_trans t [] [] a (park s1 (ntask a))); [|apply aw_set_running; discriminate].
        apply (aw_trans t [] [] a s1); [|now apply aw_park].
        apply aw_plain; [|cbn; lia|cbn; lia|cbn; lia| |intros f _; reflexivity|apply rsh_same; reflexivity|auto|intros y _; reflexivity].
        * intros K. apply (KInv_kq a); [exact K|]. apply kq_same; [reflexivity|reflexivity|].
          intros x. unfold s1. cbn. unfold upd. destruct (Nat.eqb_spec x (ntask a)); [now right|now left].
        * unfold s1. cbn. unfold upd. destruct (Nat.eqb_spec t (ntask a)); [lia|reflexivity].
      + (* ANativeCancel *) cbn [fst]. now apply aw_task_cancel.
      + (* AExtCancel *)
        cbn [fst]. apply (aw_trans t [] [c] a (scope_cancel (set_running a None) c false)); [|apply aw_set_running; discriminate].
        apply (aw_trans t [] [c] a (set_running a None)); [apply aw_set_running; discriminate|apply aw_scope_cancel; now left].
      + (* ARun *) destruct Ho.
      + (* ATick *) destruct (Z.ltb dt 0); [apply aw_refl|]. cbn [fst]. apply aw_tick.
  Qed.

  (* running the head of the ready queue, when it is not t's own step or wake-up *)
  Definition other_head (h : handle) : Prop :=
    match h with HStep u | HWake u _ | HTaskDone u => u <> t | _ => True end.

  Lemma step_run_head a h r : ready a = h :: r ->
    fst (step a (ARun h)) =
    fst (match h with
         | HStep u => resume (set_ready a r) u None
         | HWake u f => resume (set_ready a r) u (Some f)
         | HDeliver c => (set_running (deliver_top (set_running (set_ready a r) None) c) None, RNone)
         | HTaskDone u => (run_task_done (set_ready a r) u, RNone)
         | HSleepDone f _ => (fut_complete (set_ready a r) f (FRes 0), RNone)
         | HTimeout c _ => (set_running (scope_timeout (set_running (set_ready a r) None) c) None, RNone)
         end).
  Proof.
    intros E. cbn [step actor]. unfold run_handle. rewrite E. cbn [existsb remove_first].
    rewrite handle_eqb_refl. cbn [orb negb]. reflexivity.
  Qed.

  Lemma aw_run_head a h r :
    ready a = h :: r -> other_head h ->
    aw (xe a (ARun h)) (xe a (ARun h) ++ xc a (ARun h)) (set_ready a r) (fst (step a (ARun h))).
  Proof.
    intros E Ho. rewrite (step_run_head a h r E). set (s1 := set_ready a r).
    destruct h as [u|u f|c|u|f tm|c tm]; cbn [other_head xe xc app fst] in *.
    - apply (aw_resume s1 u None Ho).
    - apply (aw_resume s1 u (Some f) Ho).
    - apply (aw_trans t [] [] s1 (deliver_top (set_running s1 None) c)); [|apply aw_set_running; discriminate].
      apply (aw_trans t [] [] s1 (set_running s1 None)); [apply aw_set_running; discriminate|apply aw_deliver_top].
    - apply aw_run_task_done; [exact Ho|]. intros g Eg. change (tasks s1 u) with (tasks a u) in Eg. rewrite Eg.
      now left.
    - apply aw_fut_complete. discriminate.
    - apply (aw_trans t [] [c] s1 (scope_timeout (set_running s1 None) c)); [|apply aw_set_running; discriminate].
      apply (aw_trans t [] [c] s1 (set_running s1 None)); [apply aw_set_running; discriminate|apply aw_scope_timeout; now left].
  Qed.
End AWOps2.

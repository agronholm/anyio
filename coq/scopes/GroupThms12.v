(* C02 under the discipline: the body tag 0 occurs at most once in g_excs, hence all source tags are distinct;
   then what the exception group raised by __aexit__ is made of (group_result_composition). *)
From AV Require Import Base Machine MachineFacts GroupInv GroupInv2 GroupInv3 GroupInv5 GroupInv8 GroupInv9
  GroupWalk GroupThms GroupThms3 GroupThms8 GroupThms10.

(* a task inside __aexit__ of g stays there until the step in which the block is left *)
Lemma aexit_persist s o t g w : reach s -> DInv s -> in_aexit s t g w ->
  g_left (groups (fst (step s o)) g) = true \/ exists w', in_aexit (fst (step s o)) t g w'.
Proof.
  intros R D Hax. pose proof (alloc_of_in_aexit s t g w R Hax) as Hal.
  assert (Hni : idle s t = false).
  { unfold idle. destruct Hax as [exc [H|H]]; rewrite H; reflexivity. }
  assert (Same : fst (step s o) = s -> exists w', in_aexit (fst (step s o)) t g w').
  { intros E. rewrite E. eauto. }
  destruct (Nat.eq_dec t (acting o)) as [Hact|Hna].
  - assert (Ht0 : t <> 0) by (destruct Hal; lia).
    destruct (acting_cases o t Hact Ht0) as [Ea|[h [-> Hh]]]; [right; now apply Same, (step_not_idle s o t)|].
    destruct (in_dec_handle h (ready s)) as [Hin|Hnin]; [|right; apply Same; now rewrite (step_run_notin s _ Hnin)].
    destruct Hh as [Hh| ->].
    + destruct (step_resumes s h t R Hin Hh) as [fo [W ->]].
      destruct (resume_aexit_result (dequeue s h) t fo g w W Hax (ax_facts_of s t g w R D Hax))
        as [[_ [_ L]]|[_ [w' [H _]]]]; [left; exact L|right; eauto].
    + exfalso. destruct (reachable s R) as [[K Ci G J] _]. destruct (k_td s K t Hin) as [Hd _].
      pose proof (c_done1 s Ci t Hd) as Hc. destruct Hax as [exc [H|H]]; congruence.
  - right. exists w. destruct (ctl_changes_only_when_acting s o t (proj2 Hal) Hna) as [Ec _].
    destruct Hax as [exc H]. exists exc. now rewrite Ec.
Qed.

Definition zc (l : list (nat * exn)) : nat := length (filter (fun x => Nat.eqb x 0) (map fst l)).

Definition ZInv (s : st) : Prop := forall g,
  zc (g_excs (groups s g)) <= 1 /\
  (zc (g_excs (groups s g)) <> 0 -> g_left (groups s g) = true \/ exists t w, in_aexit s t g w).

Lemma zc_app l tag e : zc (l ++ [(tag, e)]) = zc l + (if Nat.eqb tag 0 then 1 else 0).
Proof. unfold zc. rewrite map_app, filter_app, app_length. cbn. destruct (Nat.eqb tag 0); reflexivity. Qed.

Lemma zinv_step s o : reach s -> DInv s -> ZInv s -> okop s o = true -> ZInv (fst (step s o)).
Proof.
  intros R D Z Ho g. set (s' := fst (step s o)). destruct (Z g) as [Z1 Z2].
  assert (Keep : g_excs (groups s' g) = g_excs (groups s g) ->
                 (g_left (groups s g) = true -> g_left (groups s' g) = true) ->
                 zc (g_excs (groups s' g)) <= 1 /\
                 (zc (g_excs (groups s' g)) <> 0 -> g_left (groups s' g) = true \/ exists t w, in_aexit s' t g w)).
  { intros E Hl. rewrite E. split; [exact Z1|]. intros Hz. destruct (Z2 Hz) as [L|[t [w Hax]]]; [left; auto|].
    destruct (aexit_persist s o t g w R D Hax) as [L|[w' H]]; [left; exact L|right; eauto]. }
  destruct (step_group_cases s o g R) as [E|[[t [E1 [E0 [E2 E]]]]|[[t [E1 E]]|[[t [E1 [E2 [E3 E]]]]|[[t [e [E1 [E2 [E3 [E4 E]]]]]]|[[E P]|[t [E1 [E2 [E3 E]]]]]]]]]];
    fold s' in E.
  - apply Keep; rewrite E; auto.
  - rewrite E. cbn. split; [lia|]. intros H. contradiction.
  - apply Keep; rewrite E; auto.
  - apply Keep; rewrite E; auto.
  - (* body exception *)
    subst o. destruct (okop_gexit s t g Ho) as [Hr [Ha [Hh Hc]]].
    destruct E as [_ [_ [_ [Ex _]]]]. rewrite Ex. cbn [add_exc g_excs gr_excs]. rewrite zc_app. cbn [Nat.eqb].
    assert (Hz : zc (g_excs (groups s g)) = 0).
    { destruct (Nat.eq_dec (zc (g_excs (groups s g))) 0) as [H|H]; [exact H|]. exfalso.
      destruct (Z2 H) as [L|[t' [w Hax]]].
      - destruct (d_left s D g L) as [_ [_ [Hi _]]]. congruence.
      - destruct (d_ax s D t' g w Hax) as [_ [_ [_ [_ [Hh' _]]]]]. assert (t' = t) by congruence. subst t'.
        unfold idle in E2. destruct Hax as [exc [H1|H1]]; rewrite H1 in E2; discriminate. }
    rewrite Hz. split; [lia|]. intros _. right. exists t.
    destruct (reachable s R) as [M _].
    pose proof (group_exit_result s t g Ha Hh Hc (b_gscope s (m_g s M) g)) as [_ [w' [Hax _]]].
    exists w'. unfold s'. now rewrite (step_group_exit s t g E2).
  - apply Keep; [apply E|]. destruct E as [_ [_ [_ [_ [_ [L|[L _]]]]]]]; [intros H; congruence|auto].
  - assert (Ht0 : t <> 0).
    { destruct (reachable s R) as [[K _ _ _] _]. destruct (k_td s K t E2) as [_ [_ [_ [H _]]]]. lia. }
    destruct E as [E|[e [_ E]]].
    + apply Keep; rewrite E; auto.
    + assert (Hz : zc (g_excs (groups s' g)) = zc (g_excs (groups s g))).
      { rewrite E. cbn [add_exc g_excs gr_excs td_grp gr_tasks]. rewrite zc_app.
        destruct (Nat.eqb_spec t 0); [contradiction|lia]. }
      rewrite Hz. split; [exact Z1|]. intros H. destruct (Z2 H) as [L|[t' [w Hax]]].
      * left. rewrite E. cbn. exact L.
      * destruct (aexit_persist s o t' g w R D Hax) as [L|[w' H']]; [left; exact L|right; eauto].
Qed.

Lemma zinv_init : ZInv init.
Proof. intros g. cbn. split; [lia|]. intros H. contradiction. Qed.

Theorem dreach_zinv s : dreach s -> ZInv s.
Proof.
  apply (dreach_ind ZInv); [exact zinv_init|].
  intros s0 o D0 Z0 Ho. apply zinv_step; auto; [apply dreach_reach, D0|apply dreach_dinv, D0].
Qed.

Lemma nodup_from_parts (l : list nat) :
  NoDup (filter nzb l) -> length (filter (fun x => Nat.eqb x 0) l) <= 1 -> NoDup l.
Proof.
  induction l as [|a l IH]; [constructor|]. cbn [filter]. unfold nzb at 1.
  destruct (Nat.eqb_spec a 0) as [->|Ha]; cbn [negb].
  - cbn [length]. intros Hn Hz. constructor.
    + intros Hin. assert (H : In 0 (filter (fun x => Nat.eqb x 0) l)) by (apply filter_In; auto).
      destruct (filter (fun x => Nat.eqb x 0) l); [contradiction|cbn in Hz; lia].
    + apply IH; [exact Hn|lia].
  - intros Hn Hz. inversion Hn as [|? ? Hni Hnd]; subst. constructor.
    + intros Hin. apply Hni. apply filter_In. split; [exact Hin|]. unfold nzb. destruct (Nat.eqb_spec a 0); [contradiction|reflexivity].
    + apply IH; assumption.
Qed.

(* C02: under the discipline all source tags of the exception list are distinct (each member and the body
   contribute at most one exception) *)
Theorem group_excs_nodup_tags s g : dreach s -> NoDup (map fst (g_excs (groups s g))).
Proof.
  intros D. apply nodup_from_parts.
  - apply (group_excs_exactly_member_errors s g (dreach_reach s D)).
  - apply (dreach_zinv s D g).
Qed.

Theorem group_excs_nodup_tags_ops ops g : disciplined ops = true ->
  NoDup (map fst (g_excs (groups (final step init ops) g))).
Proof. intros H. apply group_excs_nodup_tags, dreach_final, H. Qed.

Example ex_nodup_tags_body :
  let ops := [ANewRoot; AGroupNew 1; AGroupEnter 1 1; ASpawn 1 1; ARun (HStep 2); AHold 2 7; AFinish 2 0;
              ARun (HTaskDone 2); ARun (HWake 1 4); AWrap 1 5; AGroupExit 1 1] in
  disciplined ops = true /\ map fst (g_excs (groups (final step init ops) 1)) = [2; 0].
Proof. vm_compute. auto. Qed.

(* C02 end to end (disciplined runs): what the exception group raised by __aexit__ is made of *)
From Coq Require Import Permutation.
From AV Require Import GroupThmsPure GroupThms6.

Definition ztag (x : nat * exn) : bool := Nat.eqb (fst x) 0.

Lemma filter_map_fst_nz (l : list (nat * exn)) :
  filter nzb (map fst l) = map fst (filter (fun x => negb (ztag x)) l).
Proof.
  induction l as [|[t e] l IH]; [reflexivity|]. cbn [map filter fst]. unfold nzb at 1, ztag at 1. cbn [fst].
  destruct (Nat.eqb t 0); cbn [negb]; [exact IH|]. cbn [map fst]. now rewrite IH.
Qed.

Lemma ztag_length (l : list (nat * exn)) :
  length (filter ztag l) = length (filter (fun x => Nat.eqb x 0) (map fst l)).
Proof.
  induction l as [|[t e] l IH]; [reflexivity|]. cbn [filter map fst]. unfold ztag at 1. cbn [fst].
  destruct (Nat.eqb t 0); cbn [length]; now rewrite IH.
Qed.

Lemma flat_map_map_comp {A B C} (f : B -> list C) (g : A -> B) l :
  flat_map f (map g l) = flat_map (fun x => f (g x)) l.
Proof. induction l as [|a l IH]; [reflexivity|]. cbn. now rewrite IH. Qed.

(* the list handed to BaseExceptionGroup by aexit_finish is a permutation of: the body exception (at most one entry,
   tag 0, never a cancellation) followed by the outcomes of the members `ms`; ms has no repetition, consists of
   members of g whose task_done ran with a non-cancellation exception, and contains every such member of g_ever
   unless its exception was routed to the start future (the caller of start()) *)
Theorem group_result_composition s g : dreach s ->
  let L := g_excs (groups s g) in
  let body := map snd (filter ztag L) in
  let ms := filter nzb (map fst L) in
  Permutation (map snd L) (body ++ map (fun t => routed_exc (k_done (tasks s t))) ms) /\
  Permutation (flat_map leaves (map snd L))
              (flat_map leaves body ++ flat_map (fun t => leaves (routed_exc (k_done (tasks s t)))) ms) /\
  length body <= 1 /\ (forall e, In e body -> is_cancel e = false) /\
  NoDup ms /\
  (forall t, In t ms -> k_group (tasks s t) = Some g /\ k_tdran (tasks s t) = true /\
                        exists e, k_done (tasks s t) = Some (OExc e) /\ is_cancel e = false) /\
  (forall t e, In t (g_ever (groups s g)) -> k_tdran (tasks s t) = true -> k_done (tasks s t) = Some (OExc e) ->
     In t ms \/ exists f, k_startfut (tasks s t) = Some f /\ f_st (futs s f) = FExc e).
Proof.
  intros D. cbn zeta. pose proof (dreach_reach s D) as R.
  destruct (group_excs_exactly_member_errors s g R) as [Hnd [Htags [Hzero Hconv]]].
  set (L := g_excs (groups s g)) in *.
  assert (Hnz : map snd (filter (fun x => negb (ztag x)) L) =
                map (fun t => routed_exc (k_done (tasks s t))) (filter nzb (map fst L))).
  { rewrite filter_map_fst_nz, map_map. apply map_ext_in. intros [t e] Hin. apply filter_In in Hin.
    destruct Hin as [Hin Hz]. cbn [fst snd]. unfold ztag in Hz. cbn [fst] in Hz.
    assert (Ht : t <> 0) by (intros ->; discriminate).
    destruct (Htags t e Hin Ht) as [_ [_ [Hd _]]]. now rewrite Hd. }
  assert (P1 : Permutation (map snd L) (map snd (filter ztag L) ++
                 map (fun t => routed_exc (k_done (tasks s t))) (filter nzb (map fst L)))).
  { rewrite <- Hnz, <- map_app. apply Permutation_map, filter_partition_perm. }
  refine (conj P1 (conj _ (conj _ (conj _ (conj Hnd (conj _ _)))))).
  - rewrite <- (flat_map_map_comp leaves (fun t => routed_exc (k_done (tasks s t)))), <- flat_map_app.
    apply Permutation_flat_map, P1.
  - pose proof (dreach_zinv s D g) as [Hz _]. unfold zc in Hz. fold L in Hz.
    rewrite map_length, ztag_length. exact Hz.
  - intros e Hin. apply in_map_iff in Hin. destruct Hin as [[t e'] [<- Hin]]. apply filter_In in Hin.
    destruct Hin as [Hin Hz]. unfold ztag in Hz. cbn [fst] in Hz. apply Nat.eqb_eq in Hz. subst t. apply (Hzero e' Hin).
  - intros t Hin. apply filter_In in Hin. destruct Hin as [Hin Hz]. apply in_map_iff in Hin.
    destruct Hin as [[t' e] [Et Hin]]. cbn in Et. subst t'.
    assert (Ht : t <> 0) by (intros ->; discriminate).
    destruct (Htags t e Hin Ht) as [H1 [H2 [H3 H4]]]. eauto 6.
  - intros t e H1 H2 H3. destruct (Hconv t e H1 H2 H3) as [_ [Hin|Hr]]; [left|right; exact Hr].
    apply filter_In. split; [apply in_map_iff; exists (t, e); auto|].
    unfold nzb. destruct (reachable s R) as [[_ _ Gi _] _]. destruct (g_grp s Gi g t H1) as [_ [H0 _]].
    destruct (Nat.eqb_spec t 0); [lia|reflexivity].
Qed.

Theorem group_result_composition_ops ops g : disciplined ops = true ->
  let s := final step init ops in
  let L := g_excs (groups s g) in
  let body := map snd (filter ztag L) in
  let ms := filter nzb (map fst L) in
  Permutation (map snd L) (body ++ map (fun t => routed_exc (k_done (tasks s t))) ms) /\
  Permutation (flat_map leaves (map snd L))
              (flat_map leaves body ++ flat_map (fun t => leaves (routed_exc (k_done (tasks s t)))) ms) /\
  length body <= 1 /\ (forall e, In e body -> is_cancel e = false) /\
  NoDup ms /\
  (forall t, In t ms -> k_group (tasks s t) = Some g /\ k_tdran (tasks s t) = true /\
                        exists e, k_done (tasks s t) = Some (OExc e) /\ is_cancel e = false) /\
  (forall t e, In t (g_ever (groups s g)) -> k_tdran (tasks s t) = true -> k_done (tasks s t) = Some (OExc e) ->
     In t ms \/ exists f, k_startfut (tasks s t) = Some f /\ f_st (futs s f) = FExc e).
Proof. intros H. apply (group_result_composition (final step init ops) g (dreach_final ops H)). Qed.

Example ex_result_composition :
  let ops := [ANewRoot; AGroupNew 1; AGroupEnter 1 1; ASpawn 1 1; ARun (HStep 2); AHold 2 7; AFinish 2 0;
              ARun (HTaskDone 2); ARun (HWake 1 4); AWrap 1 5; AGroupExit 1 1] in
  disciplined ops = true /\
  map snd (g_excs (groups (final step init ops) 1)) = [EErr 7; EGroup [ECancel 2; EErr 5]].
Proof. vm_compute. auto. Qed.

(* C01/C02 step-level theorems (every op sequence): the step that leaves a group block, growth of the member
   list and of the exception list. *)
From AV Require Import Base Machine GroupInv GroupInv3 GroupInv9 GroupThms GroupThms3.

(* C01: at the step at which __aexit__ of group g returns or raises (g_left flips), every task ever spawned
   into g is done and its task_done callback has run.  Holds for EVERY op sequence. *)
Theorem group_exit_joins_all_step s o g : reach s ->
  g_left (groups s g) = false -> g_left (groups (fst (step s o)) g) = true ->
  g_tasks (groups (fst (step s o)) g) = [] /\
  forall t, In t (g_ever (groups (fst (step s o)) g)) ->
    k_done (tasks (fst (step s o)) t) <> None /\ k_tdran (tasks (fst (step s o)) t) = true.
Proof.
  intros R H0 H1.
  assert (He : g_tasks (groups (fst (step s o)) g) = []).
  { destruct (step_group_cases s o g R) as [E|[[t [_ [_ [_ E]]]]|[[t [_ E]]|[[t [_ [_ [_ E]]]]|[[t [e [_ [_ [_ [_ E]]]]]]|[[E _]|[t [_ [_ [_ E]]]]]]]]]].
    - rewrite E in H1. congruence.
    - rewrite E in H1. discriminate.
    - rewrite E in H1. cbn in H1. congruence.
    - rewrite E in H1. cbn in H1. congruence.
    - destruct E as [_ [E2 [_ [_ [_ [E6|[_ E6]]]]]]]; [cbn in E6; congruence|]. rewrite E2. exact E6.
    - destruct E as [_ [E2 [_ [_ [_ [E6|[_ E6]]]]]]]; [congruence|]. rewrite E2. exact E6.
    - destruct E as [E|[e [_ E]]]; rewrite E in H1; cbn in H1; congruence. }
  split; [exact He|]. apply empty_group_all_joined; [apply reach_step, R|exact He].
Qed.

(* C01: the member list of an existing group grows only through an accepted ASpawn/AStart, i.e. only while
   the group is entered and its cancel scope is active; the new member is the fresh task id *)
Theorem group_members_grow_only_by_spawn s o g : reach s ->
  g_ever (groups (fst (step s o)) g) <> g_ever (groups s g) ->
  (exists t, (o = ASpawn t g \/ o = AStart t g) /\ idle s t = true /\ group_active s g = true /\
             g_ever (groups (fst (step s o)) g) = g_ever (groups s g) ++ [ntask s]) \/
  (exists t, o = AGroupNew t /\ g = ngroup s).
Proof.
  intros R Hne.
  destruct (step_group_cases s o g R) as [E|[[t [E1 [_ [E2 E]]]]|[[t [_ E]]|[[t [E1 [E2 [E3 E]]]]|[[t [e [_ [_ [_ [_ E]]]]]]|[[E _]|[t [_ [_ [_ E]]]]]]]]]].
  - rewrite E in Hne. contradiction.
  - right. eauto.
  - rewrite E in Hne. cbn in Hne. contradiction.
  - left. exists t. rewrite E. cbn. auto.
  - destruct E as [E _]. rewrite E in Hne. cbn in Hne. contradiction.
  - destruct E as [E _]. rewrite E in Hne. contradiction.
  - destruct E as [E|[e [_ E]]]; rewrite E in Hne; cbn in Hne; contradiction.
Qed.

(* C02: the exception list of a group grows only by (a) the task_done callback of a member whose outcome is a
   non-cancellation exception, (b) the body exception handed to __aexit__ *)
Theorem group_excs_grow_only_by s o g : reach s ->
  g_excs (groups (fst (step s o)) g) <> g_excs (groups s g) ->
  (exists t e, o = ARun (HTaskDone t) /\ In (HTaskDone t) (ready s) /\ k_group (tasks s t) = Some g /\
               k_done (tasks s t) = Some (OExc e) /\ is_cancel e = false /\
               g_excs (groups (fst (step s o)) g) = g_excs (groups s g) ++ [(t, e)]) \/
  (exists t e, o = AGroupExit t g /\ idle s t = true /\ k_held (tasks s t) = Some e /\ is_cancel e = false /\
               g_excs (groups (fst (step s o)) g) = g_excs (groups s g) ++ [(0, e)]) \/
  (exists t, o = AGroupNew t /\ g = ngroup s).
Proof.
  intros R Hne.
  destruct (step_group_cases s o g R) as [E|[[t [E1 [_ [E2 E]]]]|[[t [_ E]]|[[t [_ [_ [_ E]]]]|[[t [e [E1 [E2 [E3 [E4 E]]]]]]|[[E _]|[t [E1 [E2 [E3 E]]]]]]]]]].
  - rewrite E in Hne. contradiction.
  - right; right. eauto.
  - rewrite E in Hne. cbn in Hne. contradiction.
  - rewrite E in Hne. cbn in Hne. contradiction.
  - right; left. exists t, e. destruct E as [_ [_ [_ [E _]]]]. rewrite E. cbn. auto.
  - destruct E as [_ [_ [_ [E _]]]]. rewrite E in Hne. contradiction.
  - destruct E as [E|[e [He E]]]; [rewrite E in Hne; cbn in Hne; contradiction|].
    left. exists t, e. refine (conj E1 (conj E2 (conj E3 (conj He (conj _ _))))).
    + destruct (reachable s R) as [[K Ci G J] _]. apply (c_oc s Ci t e), He.
    + rewrite E. reflexivity.
Qed.

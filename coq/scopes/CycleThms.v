(* FIFO event-loop cycles of the S machine: the loop goes idle once every task is done (C05), and the
   bounded-response statements of C03. *)
From Coq Require Import ZArith Lia.
From AV Require Import Base Machine MachineFacts ScopeFrames DeliverInv TreeInv DeliverAlive TreeStep KernelInv
  DeliverThms TimerInv TimerThms CheckpointFacts.

(* one callback: the head of the ready queue is run *)
Definition run_head (s : st) : st :=
  match ready s with [] => s | h :: _ => fst (step s (ARun h)) end.

(* one iteration of the loop: the callbacks that were ready at its start, in order; what they schedule runs
   in the next iteration *)
Definition fifo_cycle (s : st) : st := iter (length (ready s)) run_head s.

Lemma run_head_cons s h r : ready s = h :: r ->
  run_head s = fst (match h with
                    | HStep t => resume (set_ready s r) t None
                    | HWake t f => resume (set_ready s r) t (Some f)
                    | HDeliver c => (set_running (deliver_top (set_running (set_ready s r) None) c) None, RNone)
                    | HTaskDone t => (run_task_done (set_ready s r) t, RNone)
                    | HSleepDone f _ => (fut_complete (set_ready s r) f (FRes 0), RNone)
                    | HTimeout c _ => (set_running (scope_timeout (set_running (set_ready s r) None) c) None, RNone)
                    end).
Proof.
  intros E. unfold run_head. rewrite E. cbn [step actor]. unfold run_handle. rewrite E.
  cbn [existsb remove_first]. rewrite handle_eqb_refl. cbn [orb negb]. reflexivity.
Qed.

Definition all_done (s : st) : Prop :=
  forall t, k_ctl (tasks s t) = CDone /\ (alloc_t s t -> k_done (tasks s t) <> None).

(* what the drain needs, stable under the callbacks that can still run *)
Record Drain (s : st) : Prop := {
  dr_ctl : forall t, k_ctl (tasks s t) = CDone;
  dr_members : forall x t, In t (s_tasks (scopes s x)) -> k_done (tasks s t) <> None;
  dr_notimeout : forall c tm, ~ In (HTimeout c tm) (ready s)
}.

(* delivery among finished tasks: nothing but the handle flag changes *)
Record cheq (a b : st) : Prop := {
  ce_tasks : tasks b = tasks a;
  ce_ready : ready b = ready a;
  ce_timers : timers b = timers a;
  ce_scopes : forall x, sc_core (scopes b x) = sc_core (scopes a x)
}.

Lemma cheq_refl a : cheq a a.
Proof. constructor; auto. Qed.

Lemma cheq_trans a b c : cheq a b -> cheq b c -> cheq a c.
Proof.
  intros H1 H2. constructor.
  - now rewrite (ce_tasks _ _ H2), (ce_tasks _ _ H1).
  - now rewrite (ce_ready _ _ H2), (ce_ready _ _ H1).
  - now rewrite (ce_timers _ _ H2), (ce_timers _ _ H1).
  - intros x. now rewrite (ce_scopes _ _ H2), (ce_scopes _ _ H1).
Qed.

Definition members_done (s : st) : Prop :=
  forall x t, In t (s_tasks (scopes s x)) -> k_done (tasks s t) <> None.

Lemma members_done_cheq a b : members_done a -> cheq a b -> members_done b.
Proof.
  intros M H x t Hin. rewrite (core_tasks _ _ (ce_scopes _ _ H x)) in Hin. rewrite (ce_tasks _ _ H). now apply (M x t).
Qed.

Lemma deliver_done origin fu : forall a self, members_done a ->
  cheq a (fst (deliver fu a self origin)) /\ snd (deliver fu a self origin) = false.
Proof.
  induction fu as [|fu IH]; intros a self M; [split; [apply cheq_refl|reflexivity]|].
  rewrite deliver_S.
  assert (F1 : forall l b, (forall t, In t l -> k_done (tasks b t) <> None) ->
               fold_left (deliver_task self origin) l (b, false) = (b, false)).
  { induction l as [|t l IHl]; intros b Hl; cbn [fold_left]; [reflexivity|].
    assert (E : deliver_task self origin (b, false) t = (b, false)).
    { unfold deliver_task. destruct (k_done (tasks b t)) eqn:Ed; [reflexivity|]. exfalso. now apply (Hl t (or_introl eq_refl)). }
    rewrite E. apply IHl. intros x Hx. apply Hl. now right. }
  rewrite (F1 (s_tasks (scopes a self)) a (fun t H => M self t H)).
  assert (F2 : forall l b, members_done b -> cheq b (fst (fold_left (deliver_sub fu origin) l (b, false))) /\
                                            snd (fold_left (deliver_sub fu origin) l (b, false)) = false).
  { induction l as [|c l IHl]; intros b Mb; cbn [fold_left]; [split; [apply cheq_refl|reflexivity]|].
    unfold deliver_sub at 2 4. destruct (negb (s_shield (scopes b c)) && negb (s_cancelled (scopes b c))).
    - destruct (IH b c Mb) as [H1 H2]. destruct (deliver fu b c origin) as [b' r']. cbn [fst snd] in *. subst r'.
      cbn [orb]. destruct (IHl b' (members_done_cheq _ _ Mb H1)) as [H3 H4].
      split; [eapply cheq_trans; eauto|exact H4].
    - now apply IHl. }
  destruct (F2 (s_children (scopes a self)) a M) as [H1 H2].
  destruct (fold_left (deliver_sub fu origin) (s_children (scopes a self)) (a, false)) as [s2 r2]. cbn [fst snd] in *. subst r2.
  destruct (Nat.eqb origin self); cbn [fst snd]; [|split; [exact H1|reflexivity]].
  split; [|reflexivity]. eapply cheq_trans; [exact H1|]. constructor; try reflexivity.
  intros x. cbn. unfold upd. destruct (Nat.eqb_spec x self); [subst|]; reflexivity.
Qed.

(* the measure: a task-done callback can schedule two wake-ups, a sleep timer callback one *)
Definition hw (h : handle) : nat :=
  match h with HTaskDone _ => 3 | HSleepDone _ _ => 2 | _ => 1 end.
Fixpoint mu (l : list handle) : nat := match l with [] => 0 | h :: r => hw h + mu r end.

Lemma mu_app a b : mu (a ++ b) = mu a + mu b.
Proof. induction a as [|h a IH]; cbn; [reflexivity|]. rewrite IH. lia. Qed.

Lemma mu_filter P l : mu (filter P l) <= mu l.
Proof. induction l as [|h l IH]; cbn; [lia|]. destruct (P h); cbn; lia. Qed.

Lemma mu_le_3len l : mu l <= 3 * length l.
Proof. induction l as [|h l IH]; cbn [mu length]; [lia|]. destruct h; cbn [hw]; lia. Qed.

(* effect of one helper on a draining loop: k = number of callbacks it may add *)
Definition drel (k : nat) (a b : st) : Prop :=
  Drain a -> Drain b /\ mu (ready b) <= mu (ready a) + k /\ incl (timers b) (timers a).

Lemma drel_refl a : drel 0 a a.
Proof. intros D. split; [exact D|]. split; [lia|apply incl_refl]. Qed.

Lemma drel_trans k1 k2 a b c : drel k1 a b -> drel k2 b c -> drel (k1 + k2) a c.
Proof.
  intros H1 H2 D. destruct (H1 D) as [Db [M1 I1]]. destruct (H2 Db) as [Dc [M2 I2]].
  split; [exact Dc|]. split; [lia|]. eapply incl_tran; eauto.
Qed.

Lemma drel_weaken k k' a b : k <= k' -> drel k a b -> drel k' a b.
Proof. intros Hk H D. destruct (H D) as [Db [M I]]. split; [exact Db|]. split; [lia|exact I]. Qed.

Lemma drel_fut_complete s f v : drel 1 s (fut_complete s f v).
Proof.
  intros [D1 D2 D3]. unfold fut_complete. destruct (f_st (futs s f)); try (split; [now constructor|split; [lia|apply incl_refl]]).
  destruct (f_waiter (futs s f)) as [w|].
  - split; [|split; [|apply incl_refl]].
    + constructor; [exact D1|exact D2|]. intros c tm H. cbn in H. apply in_app_or in H.
      destruct H as [H|[H|[]]]; [now apply (D3 c tm)|discriminate].
    + cbn. rewrite mu_app. cbn. lia.
  - split; [now constructor|split; [cbn; lia|apply incl_refl]].
Qed.

Lemma drel_same a b : tasks b = tasks a -> ready b = ready a -> timers b = timers a ->
  (forall x, s_tasks (scopes b x) = s_tasks (scopes a x)) -> drel 0 a b.
Proof.
  intros E1 E2 E3 E4 [D1 D2 D3]. split; [|split; [rewrite E2; lia|rewrite E3; apply incl_refl]].
  constructor.
  - intros t. rewrite E1. apply D1.
  - intros x t. rewrite E4, E1. apply D2.
  - intros c tm. rewrite E2. apply D3.
Qed.

Lemma drel_cheq a b : cheq a b -> drel 0 a b.
Proof.
  intros H. apply drel_same; [apply H|apply H|apply H|]. intros x. apply (core_tasks _ _ (ce_scopes _ _ H x)).
Qed.

Lemma drel_upd_scope s c g : (forall k, s_tasks (g k) = s_tasks k) -> drel 0 s (upd_scope s c g).
Proof.
  intros Hg. apply drel_same; try reflexivity. intros x. cbn. unfold upd. destruct (Nat.eqb_spec x c); [subst; apply Hg|reflexivity].
Qed.

Lemma drel_scope_cancel s c b : drel 0 s (scope_cancel s c b).
Proof.
  revert s. apply (scope_cancel_closed (drel 0) c drel_refl (drel_trans 0 0) b).
  - apply (cancel_timeout_closed (drel 0) c drel_refl (drel_trans 0 0)); [|intros a; now apply drel_upd_scope].
    intros a tm _ [D1 D2 D3]. split; [|split].
    + constructor; [exact D1|exact D2|]. intros c' tm' H. cbn in H. apply filter_In in H. now apply (D3 c' tm').
    + cbn. pose proof (mu_filter (fun h => negb (is_timer_handle tm h)) (ready a)). lia.
    + cbn. intros x H. apply filter_In in H. apply H.
  - intros a. now apply drel_upd_scope.
  - intros a _ _ D. apply drel_cheq; [|exact D]. apply (deliver_done c (S (nscope a)) a c). exact (dr_members _ D).
Qed.

Lemma drel_td_tail s3 k g t : drel 2 s3 (td_tail s3 k g t).
Proof.
  change (td_tail s3 k g t) with (done_tail s3 k g t). destruct (td_tail_shape s3 k g t) as [W E].
  apply (drel_trans 1 1 s3 (done_wake s3 g)).
  - destruct W; [apply (drel_weaken 0); [lia|apply drel_refl]|apply drel_fut_complete].
  - destruct E; [apply (drel_weaken 0); [lia|apply drel_refl]|apply drel_fut_complete| |];
      (apply (drel_weaken 0); [lia|]); [apply drel_scope_cancel|].
    apply (drel_trans 0 0 _ (upd_group (done_wake s3 g) g (fun x => gr_excs (g_excs x ++ [(t, e)]) x))); [|apply drel_scope_cancel].
    apply drel_same; reflexivity.
Qed.

Lemma drel_td_struct s t g : drel 0 s (td_struct s t g).
Proof.
  intros [D1 D2 D3].
  assert (Ek : forall x, k_ctl (tasks (td_struct s t g) x) = k_ctl (tasks s x) /\
                         k_done (tasks (td_struct s t g) x) = k_done (tasks s x)).
  { intros x. unfold td_struct. destruct (k_cur (tasks s t)); cbn; unfold upd;
      (destruct (Nat.eqb_spec x t) as [->|]; now split). }
  assert (Er : ready (td_struct s t g) = ready s /\ timers (td_struct s t g) = timers s).
  { unfold td_struct. destruct (k_cur (tasks s t)); now split. }
  destruct Er as [Er Et].
  split; [|split; [rewrite Er; lia|rewrite Et; apply incl_refl]].
  constructor.
  - intros x. destruct (Ek x) as [E _]. rewrite E. apply D1.
  - intros x t' Hin. destruct (Ek t') as [_ E]. rewrite E. apply (D2 x).
    unfold td_struct in Hin. destruct (k_cur (tasks s t)) as [c|]; cbn in Hin; [|exact Hin].
    unfold upd in Hin. destruct (Nat.eqb_spec x c) as [->|]; [|exact Hin]. cbn in Hin. apply in_del in Hin. apply Hin.
  - intros c tm. rewrite Er. apply D3.
Qed.

(* one callback of the draining loop *)
Lemma drain_step s h r : Drain s -> ready s = h :: r ->
  Drain (run_head s) /\ mu (ready (run_head s)) < mu (ready s) /\ incl (timers (run_head s)) (timers s).
Proof.
  intros D E. rewrite (run_head_cons s h r E). rewrite E. cbn [mu].
  set (s1 := set_ready s r).
  assert (D1 : Drain s1).
  { destruct D as [A B C]. constructor; [exact A|exact B|]. intros c tm H. apply (C c tm). rewrite E. now right. }
  assert (Rej : forall t fo, fst (resume s1 t fo) = s1).
  { intros t fo. unfold resume. pose proof (incoming_ctl s1 t fo) as Ec.
    destruct (incoming s1 t fo) as [s2 inc]. cbn [fst] in Ec. rewrite Ec, (dr_ctl _ D1 t). reflexivity. }
  destruct h as [t|t f|c|t|f tm|c tm]; cbn [hw].
  - rewrite Rej. split; [exact D1|]. split; [cbn; lia|apply incl_refl].
  - rewrite Rej. split; [exact D1|]. split; [cbn; lia|apply incl_refl].
  - cbn [fst].
    assert (K : drel 0 s1 (set_running (deliver_top (set_running s1 None) c) None)).
    { apply (drel_trans 0 0 s1 (set_running s1 None)); [apply drel_same; reflexivity|].
      apply (drel_trans 0 0 _ (deliver_top (set_running s1 None) c)); [|apply drel_same; reflexivity].
      intros D0. apply drel_cheq; [|exact D0]. apply (deliver_done c (S (nscope (set_running s1 None)))). exact (dr_members _ D0). }
    destruct (K D1) as [D2 [M I]]. split; [exact D2|]. split; [cbn in M; cbn; lia|exact I].
  - cbn [fst]. rewrite run_task_done_eq. change (tasks s1 t) with (tasks s t).
    destruct (k_group (tasks s t)) as [g|].
    + assert (K : drel 2 s1 (done_tail (done_struct (set_running s1 None) t g) (tasks s t) g t)).
      { apply (drel_trans 0 2 s1 (set_running s1 None)); [apply drel_same; reflexivity|].
        apply (drel_trans 0 2 _ (td_struct (set_running s1 None) t g)); [apply drel_td_struct|apply drel_td_tail]. }
      destruct (K D1) as [D2 [M I]]. split; [exact D2|]. split; [cbn in M; lia|exact I].
    + destruct (drel_same s1 (set_running s1 None) eq_refl eq_refl eq_refl (fun _ => eq_refl) D1) as [D2 [M I]].
      split; [exact D2|]. split; [cbn in M; cbn; lia|exact I].
  - cbn [fst]. destruct (drel_fut_complete s1 f (FRes 0) D1) as [D2 [M I]].
    split; [exact D2|]. split; [cbn in M; lia|exact I].
  - exfalso. apply (dr_notimeout _ D c tm). rewrite E. now left.
Qed.

Lemma drain_runs n : forall s, Drain s -> mu (ready s) <= n ->
  exists k, k <= n /\ ready (iter k run_head s) = [] /\ incl (timers (iter k run_head s)) (timers s).
Proof.
  induction n as [|n IH]; intros s D M.
  - exists 0. split; [lia|]. split; [|apply incl_refl]. cbn. destruct (ready s) as [|h r]; [reflexivity|].
    cbn in M. destruct h; cbn in M; lia.
  - destruct (ready s) as [|h r] eqn:E.
    + exists 0. split; [lia|]. split; [exact E|apply incl_refl].
    + destruct (drain_step s h r D E) as [D' [M' I']]. rewrite E in M'.
      destruct (IH (run_head s) D' ltac:(lia)) as [k [Hk [Hr Hi]]].
      exists (S k). split; [lia|]. cbn [iter]. split; [exact Hr|]. eapply incl_tran; eauto.
Qed.

Lemma ops_ok_wf ops : forall s, ops_ok s ops = true -> wf_run s ops.
Proof.
  induction ops as [|o r IH]; intros s H; cbn in *; [exact I|].
  apply andb_true_iff in H. destruct H as [H1 H2]. split; [|now apply IH].
  destruct o; cbn; try exact I. cbn [op_ok] in H1. rewrite !andb_true_iff, !Nat.ltb_lt in H1. lia.
Qed.

Lemma reach_ok_wf s : reach_ok s -> reach_wf s.
Proof. intros [ops [H E]]. exists ops. split; [now apply ops_ok_wf|exact E]. Qed.

(* with every task done no scope is active any more *)
Lemma all_done_inactive s c : reach_ok s -> all_done s -> s_active (scopes s c) = false.
Proof.
  intros R AD. destruct (s_active (scopes s c)) eqn:Ea; [|reflexivity]. exfalso.
  destruct (reach_sinv s R) as [[T C] _]. destruct (tr_host_act _ T c Ea) as [t [Hh A]].
  destruct (c_ok _ C t A) as [_ [_ [_ [Kd _]]]]. apply (Kd (proj1 (AD t)) c Hh).
Qed.

(* C05 loop_goes_idle: once every task is done, running the remaining callbacks empties the ready queue within
   3 * length (ready s) callback runs (a task-done callback may schedule two wake-ups, a sleep-timer callback
   one; a delivery callback never re-schedules itself); no timer is added meanwhile, and the timers that remain
   are sleep timers only: no deadline timer of any scope is left *)
Theorem loop_goes_idle s :
  reach_ok s -> all_done s ->
  exists k, k <= 3 * length (ready s) /\
            ready (iter k run_head s) = [] /\
            incl (timers (iter k run_head s)) (timers s) /\
            (forall x, In x (timers (iter k run_head s)) -> exists f, tm_what x = TSleep f).
Proof.
  intros R AD. pose proof (reach_ok_wf s R) as W. destruct (reach_sinv s R) as [[T C] _].
  assert (D : Drain s).
  { constructor.
    - intros t. apply AD.
    - intros x t Hin. apply (tr_task _ T) in Hin. apply AD. now apply (tr_cur_alloc _ T t x).
    - intros c tm. destruct (no_timer_after_exit s c W (all_done_inactive s c R AD)) as [_ [_ H]]. apply H. }
  destruct (drain_runs (mu (ready s)) s D (le_n _)) as [k [Hk [Hr Hi]]].
  exists k. split; [pose proof (mu_le_3len (ready s)); lia|]. split; [exact Hr|]. split; [exact Hi|].
  intros x Hx. apply Hi in Hx. destruct (tm_what x) as [f|c] eqn:Ew; [now exists f|exfalso].
  destruct (no_timer_after_exit s c W (all_done_inactive s c R AD)) as [_ [H _]]. now apply (H x Hx).
Qed.

(* non-vacuity: a child finishes, its parent leaves the group and finishes; the loop then drains *)
Definition idle_ops : list op :=
  [ANewRoot; AGroupNew 1; AGroupEnter 1 1; ASpawn 1 1; ARun (HStep 2); AFinish 2 0; ARun (HTaskDone 2);
   AGroupExit 1 1; ARun (HStep 1); AFinish 1 0].

Example idle_ok : ops_ok init idle_ops = true.
Proof. vm_compute. reflexivity. Qed.

Example idle_all_done :
  let s := final step init idle_ops in
  (forall t, t < 4 -> k_ctl (tasks s t) = CDone) /\ k_done (tasks s 1) <> None /\ k_done (tasks s 2) <> None /\
  ntask s = 3.
Proof.
  cbv zeta. split; [|vm_compute; repeat split; discriminate].
  intros t Ht. destruct t as [|[|[|[|t]]]]; try lia; vm_compute; reflexivity.
Qed.

(* the callbacks run in n iterations of run_head, with the state each one starts from *)
Fixpoint heads (n : nat) (s : st) : list (st * handle) :=
  match n with
  | 0 => []
  | S m => match ready s with [] => [] | h :: _ => (s, h) :: heads m (run_head s) end
  end.

Lemma heads_cons n s h r : ready s = h :: r -> heads (S n) s = (s, h) :: heads n (run_head s).
Proof. intros E. cbn. now rewrite E. Qed.

Lemma run_head_step s h r : ready s = h :: r -> run_head s = fst (step s (ARun h)).
Proof. intros E. unfold run_head. now rewrite E. Qed.

Lemma iter_run_head_dry n s : ready s = [] -> iter n run_head s = s.
Proof.
  intros E. induction n as [|n IH]; cbn [iter]; [reflexivity|]. unfold run_head at 2. now rewrite E.
Qed.

Definition nontimer (h : handle) : bool :=
  match h with HSleepDone _ _ | HTimeout _ _ => false | _ => true end.

Definition rsh (a b : st) : Prop :=
  exists P new, ready b = filter P (ready a) ++ new /\ forall h, nontimer h = true -> P h = true.

(* the same, from the queue r that is left when the head has been taken off *)
Definition rshT (r : list handle) (b : st) : Prop :=
  exists P new, ready b = filter P r ++ new /\ forall x, nontimer x = true -> P x = true.

Lemma filter_true {A} (l : list A) : filter (fun _ => true) l = l.
Proof. induction l as [|h l IH]; cbn; [reflexivity|now rewrite IH]. Qed.

Lemma rsh_refl a : rsh a a.
Proof. exists (fun _ => true), []. split; [|auto]. now rewrite app_nil_r, filter_true. Qed.

Lemma filter_filter {A} (P Q : A -> bool) l : filter Q (filter P l) = filter (fun x => P x && Q x) l.
Proof.
  induction l as [|x l IH]; cbn; [reflexivity|]. destruct (P x); cbn; [destruct (Q x); cbn; now rewrite IH|exact IH].
Qed.

Lemma rsh_trans a b c : rsh a b -> rsh b c -> rsh a c.
Proof.
  intros [P [n1 [E1 H1]]] [Q [n2 [E2 H2]]]. exists (fun x => P x && Q x), (filter Q n1 ++ n2). split.
  - rewrite E2, E1, filter_app, filter_filter, app_assoc. reflexivity.
  - intros h Hh. now rewrite (H1 h Hh), (H2 h Hh).
Qed.

Lemma rsh_append a b l : ready b = ready a ++ l -> rsh a b.
Proof.
  intros E. exists (fun _ => true), l. split; [|auto]. now rewrite E, filter_true.
Qed.

Lemma rsh_same a b : ready b = ready a -> rsh a b.
Proof. intros E. apply (rsh_append a b []). now rewrite app_nil_r. Qed.

Lemma rsh_kframe a b : kframe a b -> rsh a b.
Proof. intros K. destruct (kf_ready _ _ K) as [l [E _]]. now apply (rsh_append a b l). Qed.

Lemma rsh_timer_cancel a tm : rsh a (timer_cancel a tm).
Proof.
  exists (fun h => negb (is_timer_handle tm h)), []. split; [cbn; now rewrite app_nil_r|].
  intros h Hh. destruct h; cbn in *; try reflexivity; discriminate.
Qed.

Lemma rsh_cancel_timeout a c : rsh a (cancel_timeout a c).
Proof.
  revert a. apply (cancel_timeout_closed rsh c rsh_refl rsh_trans); intros a; [intros tm _; apply rsh_timer_cancel|].
  apply rsh_same; reflexivity.
Qed.

Lemma rsh_scope_cancel a c b : rsh a (scope_cancel a c b).
Proof.
  revert a. apply (scope_cancel_closed rsh c rsh_refl rsh_trans b); intros a;
    [apply rsh_cancel_timeout|apply rsh_same; reflexivity|intros _ _; apply rsh_kframe, kframe_deliver_top].
Qed.

Lemma rsh_suspend_on a t g : rsh a (suspend_on a t g).
Proof.
  unfold suspend_on.
  set (s2 := upd_task (upd_fut a g (fun x => mkFut (f_st x) (Some t))) t (tk_waiter (Some g))).
  assert (K : rsh a s2) by (apply rsh_same; reflexivity).
  destruct (f_st (futs a g)); try (eapply rsh_trans; [exact K|apply (rsh_append _ _ [HWake t g]); reflexivity]).
  destruct (k_must (tasks a t)); [|exact K].
  eapply rsh_trans; [exact K|]. eapply rsh_trans; [apply rsh_kframe, kframe_fut_complete|apply rsh_same; reflexivity].
Qed.

Lemma rsh_park a t : rsh a (park a t).
Proof.
  unfold park, new_fut. eapply rsh_trans; [|apply rsh_same; reflexivity].
  eapply rsh_trans; [|apply rsh_suspend_on]. apply rsh_same; reflexivity.
Qed.

Lemma rsh_keep a b h : rsh a b -> In h (ready a) -> nontimer h = true -> In h (ready b).
Proof.
  intros [P [new [E HP]]] Hin Hn. rewrite E. apply in_or_app. left. apply filter_In. split; [exact Hin|now apply HP].
Qed.

Lemma filter_len {A} (P : A -> bool) l : length (filter P l) <= length l.
Proof. induction l as [|x l IH]; cbn; [lia|]. destruct (P x); cbn; lia. Qed.

(* a callback that is not a timer's keeps its place or moves towards the head *)
Lemma rshT_split r b pre h0 post :
  rshT r b -> r = pre ++ h0 :: post -> nontimer h0 = true ->
  exists P post', ready b = filter P pre ++ h0 :: post' /\ forall x, nontimer x = true -> P x = true.
Proof.
  intros [P [new [E HP]]] -> Hn. exists P, (filter P post ++ new). split; [|exact HP].
  rewrite E, filter_app. cbn [filter]. rewrite (HP h0 Hn). now rewrite <- app_assoc.
Qed.

Lemma in_split_lt {A} (x : A) l : In x l -> exists pre post, l = pre ++ x :: post /\ length pre < length l.
Proof.
  intros H. destruct (in_split _ _ H) as [pre [post E]]. exists pre, post. split; [exact E|].
  rewrite E, app_length. cbn. lia.
Qed.

Lemma fstate_pending_dec (x : fstate) : x = FPend \/ x <> FPend.
Proof. destruct x; [now left| | |]; right; discriminate. Qed.

Section Bystander.
  Variables (t : tid) (f : fid).

  Record byst (a b : st) : Prop := {
    by_core : tk_core (tasks b t) = tk_core (tasks a t);
    by_fw : f_waiter (futs b f) = f_waiter (futs a f);
    by_keep : In (HWake t f) (ready a) -> In (HWake t f) (ready b);
    by_done : f_st (futs a f) <> FPend -> f_st (futs b f) = f_st (futs a f);
    by_pend : f_st (futs a f) = FPend -> f_waiter (futs a f) = Some t -> k_waiter (tasks a t) = Some f ->
              k_must (tasks a t) = false ->
              (f_st (futs b f) = FPend /\ k_must (tasks b t) = false) \/
              (f_st (futs b f) <> FPend /\ In (HWake t f) (ready b))
  }.

  Lemma byst_refl a : byst a a.
  Proof. constructor; auto. Qed.

  Lemma byst_trans a b c : byst a b -> byst b c -> byst a c.
  Proof.
    intros H1 H2. constructor.
    - now rewrite (by_core _ _ H2), (by_core _ _ H1).
    - now rewrite (by_fw _ _ H2), (by_fw _ _ H1).
    - intros H. apply H2, H1, H.
    - intros H. rewrite (by_done _ _ H2); [now apply H1|]. now rewrite (by_done _ _ H1).
    - intros Hp Hw Hk Hm. destruct (by_pend _ _ H1 Hp Hw Hk Hm) as [[P M]|[P I]].
      + apply (by_pend _ _ H2 P); [now rewrite (by_fw _ _ H1)|now rewrite (tcore_waiter _ _ (by_core _ _ H1))|exact M].
      + right. split; [now rewrite (by_done _ _ H2 P)|now apply H2].
  Qed.

  (* the step does not touch t's record nor f at all *)
  Lemma byst_exact a b :
    tasks b t = tasks a t -> futs b f = futs a f -> (In (HWake t f) (ready a) -> In (HWake t f) (ready b)) ->
    byst a b.
  Proof.
    intros E1 E2 E3. constructor; rewrite ?E1, ?E2; auto.
  Qed.

  Lemma byst_fut_complete a g v : byst a (fut_complete a g v).
  Proof.
    unfold fut_complete. destruct (f_st (futs a g)) eqn:Eg; try apply byst_refl.
    destruct (Nat.eq_dec g f) as [->|Hne].
    - set (s1 := upd_fut a f (fun x => mkFut v (f_waiter x))).
      set (b := match f_waiter (futs a f) with Some w => call_soon s1 (HWake w f) | None => s1 end).
      assert (Et : tasks b = tasks a) by (unfold b; destruct (f_waiter (futs a f)); reflexivity).
      assert (Ef : futs b f = mkFut v (f_waiter (futs a f))).
      { unfold b, s1. destruct (f_waiter (futs a f)) eqn:Ew; cbn; unfold upd; rewrite Nat.eqb_refl; now rewrite Ew. }
      constructor.
      + now rewrite Et.
      + now rewrite Ef.
      + intros H. unfold b. destruct (f_waiter (futs a f)); cbn; [apply in_or_app; now left|exact H].
      + intros H. congruence.
      + intros _ Hw _ Hm. rewrite Ef, Et. cbn [f_st]. destruct (fstate_pending_dec v) as [Hv|Hv]; [now left|right].
        split; [exact Hv|]. unfold b. rewrite Hw. cbn. apply in_or_app. right. now left.
    - apply byst_exact.
      + destruct (f_waiter (futs a g)); reflexivity.
      + destruct (f_waiter (futs a g)); cbn; unfold upd; destruct (Nat.eqb_spec f g); congruence.
      + intros H. destruct (f_waiter (futs a g)); cbn; [apply in_or_app; now left|exact H].
  Qed.

  Lemma byst_same_tf a b : tasks b = tasks a -> futs b = futs a ->
    (forall h, is_timer_handle 0 h = false -> (forall tm, is_timer_handle tm h = false) -> In h (ready a) -> In h (ready b)) ->
    byst a b.
  Proof.
    intros E1 E2 E3. apply byst_exact; [now rewrite E1|now rewrite E2|]. apply E3; reflexivity.
  Qed.
End Bystander.

Section Frame.
  Variable t : tid.

  (* what a callback does to a task t in a bare yield that it does not resume: nothing, or it records a request *)
  Record bym (a b : st) : Prop := {
    bm_core : tk_core (tasks b t) = tk_core (tasks a t);
    bm_must : k_must (tasks a t) = true -> k_must (tasks b t) = true
  }.

  Lemma bym_exact a b : tasks b t = tasks a t -> bym a b.
  Proof. intros E. constructor; now rewrite E. Qed.

  (* t's record and its wait across a step that is not t's, whichever way t is suspended *)
  Definition tfr (a b : st) : Prop :=
    (forall f, k_waiter (tasks a t) = Some f -> byst t f a b) /\ (k_waiter (tasks a t) = None -> bym a b).

  Lemma tfr_refl a : tfr a a.
  Proof. split; intros; [apply byst_refl|now apply bym_exact]. Qed.

  Lemma tfr_core a b : tfr a b -> tk_core (tasks b t) = tk_core (tasks a t).
  Proof.
    intros [H1 H2]. destruct (k_waiter (tasks a t)) as [f|] eqn:E; [apply (by_core _ _ _ _ (H1 f eq_refl))|apply (bm_core _ _ (H2 eq_refl))].
  Qed.

  Lemma tfr_trans a b c : tfr a b -> tfr b c -> tfr a c.
  Proof.
    intros H1 H2. pose proof (tfr_core a b H1) as E. split.
    - intros f Hf. apply (byst_trans t f a b c); [now apply H1|]. apply H2. now rewrite (tcore_waiter _ _ E).
    - intros Hn. assert (Hb : k_waiter (tasks b t) = None) by now rewrite (tcore_waiter _ _ E).
      pose proof (proj2 H1 Hn) as B1. pose proof (proj2 H2 Hb) as B2. constructor.
      + now rewrite (bm_core _ _ B2), (bm_core _ _ B1).
      + intros H. apply B2, B1, H.
  Qed.

  (* the step touches neither t's record nor the future t waits on, and keeps the queue in order *)
  Lemma tfr_same a b :
    tasks b t = tasks a t -> (forall f, k_waiter (tasks a t) = Some f -> futs b f = futs a f) -> rsh a b -> tfr a b.
  Proof.
    intros E F Q. split; [|intros _; now apply bym_exact].
    intros f Hf. apply byst_exact; [exact E|now apply F|]. intros H. now apply (rsh_keep a b).
  Qed.

  Lemma tfr_upd_task_other a u g : u <> t -> tfr a (upd_task a u g).
  Proof.
    intros Hu. apply tfr_same; [|reflexivity|apply rsh_same; reflexivity]. cbn. apply upd_other. congruence.
  Qed.

  Lemma tfr_fut_complete a g v : tfr a (fut_complete a g v).
  Proof.
    split; [intros f _; apply byst_fut_complete|intros _; apply bym_exact; now rewrite fut_complete_tasks].
  Qed.

  Lemma tfr_deliver_top a x : wait_link a -> tfr a (deliver_top a x).
  Proof.
    intros WL. pose proof (kframe_deliver_top a x) as K. pose proof (kf_tasks _ _ K t) as Ec.
    pose proof (deliver_top_task a x t WL) as D. split.
    - intros f Hk. constructor.
      + exact Ec.
      + apply (kf_fwaiter _ _ K f).
      + intros H. destruct (kf_ready _ _ K) as [l [E _]]. rewrite E. apply in_or_app. now left.
      + apply (kf_fdone _ _ K f).
      + intros Hp _ _ Hm. destruct D as [[E1 E2]|[[_ [_ Hn]]|[f' [_ [Hw' [Hf Hr]]]]]].
        * left. rewrite E1, (E2 f Hk). now split.
        * rewrite (tcore_waiter _ _ Ec), Hk in Hn. discriminate.
        * rewrite (tcore_waiter _ _ Ec), Hk in Hw'. inversion Hw'; subst f'.
          right. split; [rewrite Hf; discriminate|exact Hr].
    - intros Hw. constructor; [exact Ec|].
      intros Hm. destruct D as [[E _]|[[M _]|[f' [_ [Hw' _]]]]]; [now rewrite E|exact M|].
      rewrite (tcore_waiter _ _ Ec), Hw in Hw'. discriminate.
  Qed.

  (* another task suspends on a future that is not t's *)
  Lemma tfr_suspend_other a u g :
    u <> t -> (forall f, k_waiter (tasks a t) = Some f -> f <> g) -> tfr a (suspend_on a u g).
  Proof.
    intros Hu Hg. unfold suspend_on.
    set (s2 := upd_task (upd_fut a g (fun x => mkFut (f_st x) (Some u))) u (tk_waiter (Some g))).
    assert (K : tfr a s2).
    { apply tfr_same; [cbn; apply upd_other; congruence| |apply rsh_same; reflexivity].
      intros f Hf. cbn. apply upd_other. now apply Hg. }
    destruct (f_st (futs a g)).
    2-4: apply (tfr_trans a s2 _ K); apply tfr_same; [reflexivity|reflexivity|apply (rsh_append _ _ [HWake u g]); reflexivity].
    destruct (k_must (tasks a u)); [|exact K].
    apply (tfr_trans a s2 _ K). eapply tfr_trans; [apply tfr_fut_complete|now apply tfr_upd_task_other].
  Qed.

  Lemma tfr_park_other a u : u <> t -> KInv a -> tfr a (park a u).
  Proof.
    intros Hu K. unfold park, new_fut.
    assert (Hf : forall f, k_waiter (tasks a t) = Some f -> f <> nfut a).
    { intros f Hw. pose proof (k_alloc _ K t f Hw). lia. }
    eapply tfr_trans; [|now apply tfr_upd_task_other]. eapply tfr_trans; [|apply tfr_suspend_other; [exact Hu|exact Hf]].
    apply tfr_same; [reflexivity| |apply rsh_same; reflexivity]. intros f Hw. cbn. apply upd_other. now apply Hf.
  Qed.

  (* t takes requests; it waits on a pending future or sits in a bare yield *)
  Definition eligG (s : st) : Prop :=
    k_done (tasks s t) = None /\ k_must (tasks s t) = false /\ k_started (tasks s t) = true /\
    match k_waiter (tasks s t) with Some f => f_st (futs s f) = FPend | None => True end.

  (* a request is recorded: the future t waits on is done (cancelled or completed), or _must_cancel is set *)
  Definition reqG (s : st) : Prop :=
    match k_waiter (tasks s t) with
    | Some f => f_st (futs s f) <> FPend
    | None => k_must (tasks s t) = true
    end.

  Lemma reqG_dec s : reqG s \/ ~ reqG s.
  Proof.
    unfold reqG. destruct (k_waiter (tasks s t)) as [f|].
    - destruct (fstate_pending_dec (f_st (futs s f))); [right|left]; auto.
    - destruct (k_must (tasks s t)); [now left|right; discriminate].
  Qed.

  Lemma requested_reqG s o : requested s t o -> reqG s.
  Proof. intros [[M [_ W]]|[f [_ [W [F _]]]]]; unfold reqG; rewrite W; [exact M|rewrite F; discriminate]. Qed.

  Lemma reqG_mono a b : tfr a b -> reqG a -> reqG b.
  Proof.
    intros F R. pose proof (tfr_core a b F) as E. destruct F as [F1 F2]. unfold reqG in *.
    rewrite (tcore_waiter _ _ E). destruct (k_waiter (tasks a t)) as [f|] eqn:Ew.
    - rewrite (by_done _ _ _ _ (F1 f eq_refl) R). exact R.
    - now apply (bm_must _ _ (F2 eq_refl)).
  Qed.

  Lemma eligG_keep a b : KInv a -> tfr a b -> eligG a -> ~ reqG b -> eligG b.
  Proof.
    intros K F [Hd [Hm [Hs Hw]]] Nr. pose proof (tfr_core a b F) as E. destruct F as [F1 F2]. unfold eligG, reqG in *.
    rewrite (tcore_done _ _ E), (tcore_started _ _ E), (tcore_waiter _ _ E) in *.
    destruct (k_waiter (tasks a t)) as [f|] eqn:Ew.
    - assert (Hp : f_st (futs b f) = FPend) by (destruct (fstate_pending_dec (f_st (futs b f))); [assumption|contradiction]).
      refine (conj Hd (conj _ (conj Hs Hp))).
      destruct (by_pend _ _ _ _ (F1 f eq_refl) Hw (k_link _ K t f Ew Hw) Ew Hm) as [[_ M]|[N _]]; [exact M|congruence].
    - refine (conj Hd (conj _ (conj Hs I))). destruct (k_must (tasks b t)); [now elim Nr|reflexivity].
  Qed.

  (* when the request is recorded on a task that waits on a future, its wake-up is scheduled *)
  Lemma tfr_wake a b f : KInv a -> tfr a b -> k_waiter (tasks a t) = Some f -> eligG a -> reqG b -> In (HWake t f) (ready b).
  Proof.
    intros K F Ew [_ [Hm [_ Hw]]] R. pose proof (tfr_core a b F) as E. unfold reqG in R.
    rewrite (tcore_waiter _ _ E), Ew in *.
    destruct (by_pend _ _ _ _ (proj1 F f Ew) Hw (k_link _ K t f Ew Hw) Ew Hm) as [[P _]|[_ I]]; [contradiction|exact I].
  Qed.
End Frame.

Lemma reaches_dq a b t c : dq a b -> reaches a t c -> reaches b t c.
Proof.
  intros Q [D [x [Hc Hv]]]. split; [now rewrite (dq_done _ _ Q)|]. exists x. split; [now rewrite (dq_cur _ _ Q)|].
  apply (vis_view b a c x); [|exact Hv]. intros y. pose proof (dq_scope _ _ Q y) as E.
  now rewrite (vw_shield _ _ E), (vw_cancelled _ _ E), (vw_parent _ _ E).
Qed.

(* two states that agree on the links and flags of every scope but x: the walk to c is the same, or x lies on it *)
Lemma vis_cancel_split a b x c k :
  (forall y, y <> x -> sc_core (scopes b y) = sc_core (scopes a y)) -> vis a c k -> vis b c k \/ (vis a x k /\ vis b x k).
Proof.
  intros Eo H. induction H as [|y p E1 E2 E3 H IH]; [left; apply vis_here|].
  destruct (Nat.eq_dec y x) as [->|Hne]; [right; split; apply vis_here|]. pose proof (Eo y Hne) as Ey.
  destruct IH as [IH|[IH1 IH2]]; [left|right; split; [eapply vis_up; eauto|]];
    (eapply vis_up; [| | |eassumption]);
    [rewrite (core_shield _ _ Ey)|rewrite (core_cancelled _ _ Ey)|rewrite (core_parent _ _ Ey)
    |rewrite (core_shield _ _ Ey)|rewrite (core_cancelled _ _ Ey)|rewrite (core_parent _ _ Ey)]; assumption.
Qed.

(* cancel() changes of the other scopes only what a delivery changes *)
Lemma scope_cancel_core a x bd y : y <> x -> sc_core (scopes (scope_cancel a x bd) y) = sc_core (scopes a y).
Proof.
  intros Hy. revert a.
  assert (Up : forall a g, sc_core (scopes (upd_scope a x g) y) = sc_core (scopes a y)) by (intros a g; cbn; now rewrite upd_other).
  pose (R := fun a b : st => sc_core (scopes b y) = sc_core (scopes a y)).
  assert (Rt : forall a b z, R a b -> R b z -> R a z) by (unfold R; intros a b z H1 H2; now rewrite H2).
  apply (scope_cancel_closed R x (fun _ => eq_refl) Rt bd); intros a; [|apply Up|intros _ _; apply (kf_scopes _ _ (kframe_deliver_top a x))].
  revert a. apply (cancel_timeout_closed R x (fun _ => eq_refl) Rt); intros a; [reflexivity|apply Up].
Qed.

Lemma walk_active s k y : TreeL s -> s_active (scopes s k) = true -> vis s y k -> s_active (scopes s y) = true.
Proof. intros T Ak V. induction V as [|x p F1 F2 F3 V IH]; [exact Ak|]. apply IH. now apply (tl_par_act _ T x p). Qed.

Section Track.
  Variables (t : tid) (c : sid).

  Definition trk (s : st) : Prop :=
    reaches s t c /\ s_cancelled (scopes s c) = true /\ s_host (scopes s c) <> None.

  Record Good (s : st) : Prop := {
    gd_tl : TreeL s;
    gd_k : KInv s;
    gd_run : running s <> Some t;
    gd_host : forall y, s_active (scopes s y) = true -> s_host (scopes s y) <> None
  }.

  Lemma good_reach s : reach_ok s -> running s <> Some t -> Good s.
  Proof.
    intros R Hr. pose proof (reach_tree s R) as T. constructor.
    - now apply Tree_TreeL.
    - destruct R as [ops [_ ->]]. apply reach_kinv.
    - exact Hr.
    - intros y Ha. destruct (tr_host_act _ T y Ha) as [x [E _]]. rewrite E. discriminate.
  Qed.

  Lemma Good_kframe a b : Good a -> kframe a b -> Good b.
  Proof.
    intros [G1 G2 G3 G4] K. constructor.
    - now apply (TreeL_kframe a).
    - apply (KInv_kq a); [exact G2|now apply kq_kframe].
    - now rewrite (kf_running _ _ K).
    - intros y. rewrite (core_active _ _ (kf_scopes _ _ K y)), (core_host _ _ (kf_scopes _ _ K y)). apply G4.
  Qed.

  (* same links, hosts, kernel objects *)
  Lemma Good_same a b :
    Good a -> nscope b = nscope a -> running b <> Some t -> scopes b = scopes a ->
    tasks b = tasks a -> futs b = futs a -> nfut b = nfut a -> Good b.
  Proof.
    intros [G1 G2 G3 G4] En Er Es Et Ef Enf. constructor.
    - apply (TreeL_ext a b G1 En); [intros x; now rewrite Es|intros x; now rewrite Et].
    - apply (KInv_kq a); [exact G2|]. now apply kq_tasks_same.
    - exact Er.
    - intros y. rewrite Es. apply G4.
  Qed.

  Lemma Good_treq a b : Good a -> treq a b -> KInv b -> running b <> Some t -> Good b.
  Proof.
    intros G K Kb Rb. constructor; [now apply (TreeL_treq a); [apply G|]|exact Kb|exact Rb|].
    intros y. rewrite (tq_active _ _ K), (tq_host _ _ K). apply G.
  Qed.

  Lemma Good_upd_scope a x g : (forall k, sc_tree (g k) = sc_tree k) -> Good a -> Good (upd_scope a x g).
  Proof.
    intros Hg G. apply (Good_treq a _ G); [now apply treq_upd_scope|apply (KInv_kq a); [apply G|apply kq_upd_scope]|apply G].
  Qed.

  Lemma Good_cancel_timeout a x : Good a -> Good (cancel_timeout a x).
  Proof.
    revert a. apply (cancel_timeout_closed (fun a b => Good a -> Good b) x (fun _ G => G) (fun _ _ _ H1 H2 G => H2 (H1 G)));
      intros a; [|now apply Good_upd_scope].
    intros tm _ G. apply (Good_same a); try reflexivity; [exact G|apply G].
  Qed.

  Lemma Good_scope_cancel a x bd : Good a -> Good (scope_cancel a x bd).
  Proof.
    revert a. apply (scope_cancel_closed (fun a b => Good a -> Good b) x (fun _ G => G) (fun _ _ _ H1 H2 G => H2 (H1 G)) bd);
      intros a; [apply Good_cancel_timeout|now apply Good_upd_scope|].
    intros _ _ G. apply (Good_kframe _ _ G), kframe_deliver_top.
  Qed.

  (* the delivery of a scope t reaches records a request *)
  Lemma hitsG a x : Good a -> eligG t a -> reaches a t x -> reqG t (deliver_top a x).
  Proof.
    intros G [Hd [Hm [Hs Hw]]] [_ [k [Hc Hv]]].
    destruct (deliver_top_spec a x (k_link _ (gd_k _ G))) as [_ [_ [Req _]]].
    apply (requested_reqG t _ (S x)), (Req k t); [now apply vis_dreach; [apply G| |]|].
    exact (conj Hd (conj Hm (conj (gd_run _ G) (conj (or_intror Hs) Hw)))).
  Qed.

  Lemma trk_kframe a b : kframe a b -> trk a -> trk b.
  Proof.
    intros K [R [C H]]. split; [now apply (reaches_kframe a b t c K)|].
    split; [now rewrite (core_cancelled _ _ (kf_scopes _ _ K c))|now rewrite (core_host _ _ (kf_scopes _ _ K c))].
  Qed.

  Lemma trk_dq a b : dq a b -> trk a -> trk b.
  Proof.
    intros Q [R [C H]]. pose proof (dq_scope _ _ Q c) as E. split; [now apply (reaches_dq a b)|].
    split; [now rewrite (vw_cancelled _ _ E)|now rewrite (vw_host _ _ E)].
  Qed.

  Lemma trk_view a b :
    (forall y, sc_view (scopes b y) = sc_view (scopes a y)) ->
    k_cur (tasks b t) = k_cur (tasks a t) -> k_done (tasks b t) = k_done (tasks a t) ->
    trk a -> trk b.
  Proof.
    intros V Ec Ed [[D [x [Hc Hv]]] [Cc Hh]]. pose proof (V c) as E.
    split; [|split; [now rewrite (vw_cancelled _ _ E)|now rewrite (vw_host _ _ E)]].
    split; [now rewrite Ed|]. exists x. split; [now rewrite Ec|].
    apply (vis_view b a c x); [|exact Hv]. intros y. pose proof (V y) as Ey.
    now rewrite (vw_shield _ _ Ey), (vw_cancelled _ _ Ey), (vw_parent _ _ Ey).
  Qed.

  (* cancel() of a scope that t reaches (but for the flag) records a request at once *)
  Lemma cancel_hits a x bd k :
    Good a -> eligG t a -> k_cur (tasks a t) = Some k -> vis a x k -> s_cancelled (scopes a x) = false ->
    reqG t (scope_cancel a x bd).
  Proof.
    intros G El Hc V Cx. unfold scope_cancel. rewrite Cx.
    pose proof (Good_upd_scope _ x (fun y => sc_bydeadline bd (sc_cancelled true y)) (fun _ => eq_refl)
                  (Good_cancel_timeout a x G)) as G2.
    pose proof (dq_cancel_timeout a x) as Q1.
    set (s1 := cancel_timeout a x) in *.
    assert (E1 : tasks s1 = tasks a /\ futs s1 = futs a)
      by (unfold s1, cancel_timeout; destruct (s_timeout (scopes a x)); now split).
    destruct E1 as [E1t E1f].
    set (s2 := upd_scope s1 x (fun y => sc_bydeadline bd (sc_cancelled true y))) in *.
    assert (El2 : eligG t s2).
    { unfold eligG in *. change (tasks s2) with (tasks s1). change (futs s2) with (futs s1). now rewrite E1t, E1f. }
    assert (Hc2 : k_cur (tasks s2 t) = Some k) by (change (tasks s2) with (tasks s1); now rewrite E1t).
    assert (V2 : vis s2 x k).
    { (* the two states agree on the walk view of every scope but x, and the walk stops at x *)
      clear - V Q1. induction V as [|z p F1 F2 F3 V IH]; [apply vis_here|].
      destruct (Nat.eq_dec z x) as [->|Hz]; [apply vis_here|].
      assert (Ez : scopes s2 z = scopes s1 z) by (unfold s2; cbn; now apply upd_other).
      pose proof (dq_scope _ _ Q1 z) as E.
      eapply vis_up; [| | |exact IH]; rewrite Ez;
        [now rewrite (vw_shield _ _ E)|now rewrite (vw_cancelled _ _ E)|now rewrite (vw_parent _ _ E)]. }
    assert (Ax : s_active (scopes s2 x) = true).
    { apply (walk_active s2 k x (gd_tl _ G2)); [apply (tl_cur_act _ (gd_tl _ G2) t k Hc2)|exact V2]. }
    destruct (s_host (scopes s2 x)) eqn:Eh; [|exfalso; now apply (gd_host _ G2 x Ax)].
    apply (hitsG s2 x G2 El2). split; [apply El2|]. exists k. now split.
  Qed.
End Track.

Section Steps.
  Variables (t : tid) (c : sid).

  (* Good is kept; t's frame; the queue stays in order; the walk to c survives unless a request is recorded *)
  Definition Out (a b : st) : Prop :=
    Good t a ->
    Good t b /\ tfr t a b /\ rsh a b /\ (eligG t a -> trk t c a -> ~ reqG t b -> trk t c b).

  Lemma out_refl a : Out a a.
  Proof. intros G. split; [exact G|]. split; [apply tfr_refl|]. split; [apply rsh_refl|auto]. Qed.

  Lemma out_trans a b d : Out a b -> Out b d -> Out a d.
  Proof.
    intros H1 H2 G. destruct (H1 G) as [Gb [B1 [Q1 T1]]]. destruct (H2 Gb) as [Gd [B2 [Q2 T2]]].
    split; [exact Gd|]. split; [eapply tfr_trans; eauto|]. split; [eapply rsh_trans; eauto|].
    intros El Tk Nr.
    assert (Nb : ~ reqG t b) by (intros Rb; apply Nr; now apply (reqG_mono t b d)).
    apply T2; [now apply (eligG_keep t a b (gd_k _ _ G))|now apply T1|exact Nr].
  Qed.

  (* a step that keeps the tree, the delivery view, t's record and its future *)
  Lemma out_light a b :
    treq a b -> kstep a b -> (running a <> Some t -> running b <> Some t) -> (KInv a -> tfr t a b) -> rsh a b -> dq a b ->
    Out a b.
  Proof.
    intros T K R F Q D G. split; [apply (Good_treq t a b G T); [apply K, G|apply R, G]|].
    split; [apply F, G|]. split; [exact Q|]. intros _ Tk _. now apply (trk_dq t c a).
  Qed.

  (* a step that touches neither scopes, tasks nor futures *)
  Lemma out_same a b :
    scopes b = scopes a -> nscope b = nscope a -> tasks b = tasks a -> futs b = futs a -> nfut b = nfut a ->
    (running a <> Some t -> running b <> Some t) -> rsh a b -> Out a b.
  Proof.
    intros Es En Et Ef Enf R Q G. split; [apply (Good_same t a b G); auto; apply R, G|].
    split; [apply tfr_same; [now rewrite Et|intros; now rewrite Ef|exact Q]|]. split; [exact Q|].
    intros _ Tk _. apply (trk_view t c a); [intros y; now rewrite Es|now rewrite Et|now rewrite Et|exact Tk].
  Qed.

  Lemma out_fut_complete a g v : Out a (fut_complete a g v).
  Proof.
    intros G. pose proof (kframe_fut_complete a g v) as K. split; [now apply (Good_kframe t a)|].
    split; [apply tfr_fut_complete|]. split; [now apply rsh_kframe|].
    intros _ Tk _. apply (trk_dq t c a); [apply (quiet_dq t), quiet_fut_complete|exact Tk].
  Qed.

  Lemma out_deliver_top a x : Out a (deliver_top a x).
  Proof.
    intros G. pose proof (kframe_deliver_top a x) as K. split; [now apply (Good_kframe t a)|].
    split; [apply tfr_deliver_top, (gd_k _ _ G)|]. split; [now apply rsh_kframe|].
    intros _ Tk _. now apply (trk_kframe t c a).
  Qed.

  Lemma out_set_running a : Out a (set_running a None).
  Proof. apply out_same; try reflexivity; [intros _; cbn; discriminate|apply rsh_same; reflexivity]. Qed.

  Lemma out_upd_group a g h : Out a (upd_group a g h).
  Proof. apply out_same; try reflexivity; [auto|apply rsh_same; reflexivity]. Qed.
End Steps.

(* the callback kinds covered: everything but the resumption of a library frame (task start, shielded
   checkpoint, TaskGroup.__aexit__, start()) *)
Definition simple_ctl (k : ctl) : bool :=
  match k with
  | CIdle | CYield YCheckpoint | CYield YCkIf | CSleep _ _ | CHandleWait _ _ | CDone => true
  | _ => false
  end.

Section Callback.
  Variables (t : tid) (c : sid).
  Notation Out := (Out t c).

  Lemma tfr_scope_cancel a x bd : KInv a -> tfr t a (scope_cancel a x bd).
  Proof.
    pose (R := fun a b : st => KInv a -> tfr t a b /\ KInv b).
    assert (Rt : forall a b z, R a b -> R b z -> R a z).
    { intros a0 b z H1 H2 K. destruct (H1 K) as [F1 K1]. destruct (H2 K1) as [F2 K2]. split; [now apply (tfr_trans t a0 b)|exact K2]. }
    assert (Up : forall a g, R a (upd_scope a x g)).
    { intros a0 g K. split; [apply tfr_same; [reflexivity|reflexivity|apply rsh_same; reflexivity]|].
      apply (KInv_kq a0); [exact K|apply kq_upd_scope]. }
    intros K. revert a K.
    refine (fun a K => proj1 (scope_cancel_closed R x (fun _ K => conj (tfr_refl t _) K) Rt bd _ (fun a => Up a _) _ a K)).
    - apply (cancel_timeout_closed R x (fun _ K => conj (tfr_refl t _) K) Rt); [|intros a0; apply Up].
      intros a0 tm _ K0. split; [apply tfr_same; [reflexivity|reflexivity|apply rsh_timer_cancel]|].
      apply (KInv_kq a0); [exact K0|apply kq_tasks_same; reflexivity].
    - intros a0 _ _ K0. split; [apply tfr_deliver_top, K0|]. apply (KInv_kq a0); [exact K0|apply kq_kframe, kframe_deliver_top].
  Qed.

  Lemma out_scope_cancel a x bd : Out a (scope_cancel a x bd).
  Proof.
    intros G. pose proof (tfr_scope_cancel a x bd (gd_k _ _ G)) as F.
    split; [now apply Good_scope_cancel|]. split; [exact F|]. split; [apply rsh_scope_cancel|].
    intros El [[Hd [k [Hc V]]] [Cc Hh]] Nr. rewrite <- (scope_cancel_idem a x bd) in *.
    destruct (s_cancelled (scopes a x)) eqn:Ex; [exact (conj (conj Hd (ex_intro _ k (conj Hc V))) (conj Cc Hh))|].
    (* the walk to c survives, or the cancelled scope was on it and its delivery hit t *)
    destruct (vis_cancel_split a _ x c k (scope_cancel_core a x bd) V) as [V2|[Va _]];
      [|elim Nr; now apply (cancel_hits t a x bd k)].
    assert (Hxc : c <> x) by (intros ->; congruence). pose proof (scope_cancel_core a x bd c Hxc) as Ecc.
    pose proof (tfr_core t _ _ F) as Ec. rewrite <- (tcore_done _ _ Ec), <- (tcore_cur _ _ Ec) in *.
    split; [split; [exact Hd|exists k; now split]|]. now rewrite (core_cancelled _ _ Ecc), (core_host _ _ Ecc).
  Qed.

  Lemma out_scope_timeout a x : Out a (scope_timeout a x).
  Proof.
    revert a. apply (scope_timeout_closed Out x (out_refl t c)); intros a; [apply out_scope_cancel|]. intros d _ _.
    apply out_light.
    - constructor; try reflexivity. intros y. cbn. unfold upd. destruct (Nat.eqb_spec y x); [subst|]; reflexivity.
    - apply kstep_kq, kq_tasks_same; reflexivity.
    - auto.
    - intros _. apply tfr_same; [reflexivity|reflexivity|apply rsh_same; reflexivity].
    - apply rsh_same; reflexivity.
    - constructor; auto. intros y. cbn. unfold upd. destruct (Nat.eqb_spec y x); [subst|]; reflexivity.
  Qed.

  Lemma out_td_tail s3 k g u : Out s3 (td_tail s3 k g u).
  Proof.
    exact (td_tail_closed Out g u (out_refl t c) (out_trans t c) (out_fut_complete t c)
             (fun a e => out_upd_group t c a g _) (fun a => out_scope_cancel a _ false) s3 k).
  Qed.

  Lemma out_td_struct a u g :
    Tree a -> (forall x, s_host (scopes a x) <> Some u) -> u <> t -> Out a (td_struct a u g).
  Proof.
    intros T Hn Hu G. set (b := td_struct a u g).
    assert (Es : forall y, sc_view (scopes b y) = sc_view (scopes a y) /\ s_active (scopes b y) = s_active (scopes a y)).
    { intros y. unfold b, td_struct. destruct (k_cur (tasks a u)) as [x|]; cbn; [|now split].
      unfold upd. destruct (Nat.eqb_spec y x); [subst|]; now split. }
    assert (Ek : tasks b t = tasks a t).
    { unfold b, td_struct. destruct (k_cur (tasks a u)); cbn; apply upd_other; congruence. }
    assert (Ew : forall x, k_waiter (tasks b x) = k_waiter (tasks a x)).
    { intros x. unfold b, td_struct. destruct (k_cur (tasks a u)); cbn; unfold upd;
        (destruct (Nat.eqb_spec x u) as [->|]; reflexivity). }
    assert (Em : futs b = futs a /\ nfut b = nfut a /\ ready b = ready a /\ running b = running a).
    { unfold b, td_struct. destruct (k_cur (tasks a u)); now repeat split. }
    destruct Em as [Ef [Enf [Er Ern]]].
    assert (Q : rsh a b) by now apply rsh_same.
    split; [|split; [|split; [exact Q|]]].
    - constructor.
      + apply Tree_TreeL. now apply Tree_td.
      + apply (KInv_kq a); [apply G|]. apply kq_same; [exact Enf|exact Ef|]. intros x. left. apply Ew.
      + rewrite Ern. apply G.
      + intros y. destruct (Es y) as [V A]. rewrite A, (vw_host _ _ V). apply G.
    - apply tfr_same; [exact Ek|intros; now rewrite Ef|exact Q].
    - intros _ Tk _. apply (trk_view t c a b); [intros y; apply Es|now rewrite Ek|now rewrite Ek|exact Tk].
  Qed.

  Lemma out_incoming a u fo : u <> t -> Out a (fst (incoming a u fo)).
  Proof.
    intros Hu. apply out_light;
      [apply (quiet_treq u), quiet_incoming|apply kstep_kq, kq_incoming|intros _; cbn; congruence| |apply rsh_same; reflexivity
      |apply (quiet_dq u), quiet_incoming].
    intros _. apply tfr_same; [|reflexivity|apply rsh_same; reflexivity]. cbn. apply upd_other. congruence.
  Qed.

  Lemma out_held a u e : u <> t -> Out a (upd_task a u (tk_held (Some e))).
  Proof.
    intros Hu. apply out_light;
      [apply treq_upd_task; intros k; reflexivity|apply kstep_kq, kq_upd_task; intros k; now left|auto
      |intros _; now apply tfr_upd_task_other|apply rsh_same; reflexivity|apply dq_upd_task; intros k; now split].
  Qed.

  (* back at the decision point *)
  Lemma out_parked a u : u <> t -> Out a (set_running (park a u) None).
  Proof.
    intros Hu. apply out_light.
    - apply (quiet_treq u), (quiet_trans u _ _ _ (quiet_park a u)), quiet_set_running.
    - intros K. apply (KInv_kq (park a u)); [now apply K_park|apply kq_set_running].
    - intros _. cbn. discriminate.
    - intros K. apply (tfr_trans t a (park a u)); [now apply tfr_park_other|].
      apply tfr_same; [reflexivity|reflexivity|apply rsh_same; reflexivity].
    - eapply rsh_trans; [apply rsh_park|apply rsh_same; reflexivity].
    - apply (quiet_dq u), (quiet_trans u _ _ _ (quiet_park a u)), quiet_set_running.
  Qed.

  Lemma out_ret a u r : u <> t -> Out a (fst (ret_to_puppet a u r)).
  Proof.
    intros Hu. unfold ret_to_puppet. cbn [fst]. destruct r; try now apply out_parked.
    apply (out_trans t c a (upd_task a u (tk_held (Some e)))); [now apply out_held|now apply out_parked].
  Qed.

  (* the resumed task goes straight back to its program, or yields again *)
  Lemma out_resume_simple a u fo : u <> t -> simple_ctl (k_ctl (tasks a u)) = true -> Out a (fst (resume a u fo)).
  Proof.
    intros Hu Hs. unfold resume. pose proof (incoming_ctl a u fo) as Ec. pose proof (out_incoming a u fo Hu) as O0.
    destruct (incoming a u fo) as [s inc]. cbn [fst] in *. rewrite Ec.
    assert (Ret : forall s1 r, Out s s1 -> Out a (fst (ret_to_puppet s1 u r))).
    { intros s1 r O1. eapply out_trans; [exact O0|]. eapply out_trans; [exact O1|now apply out_ret]. }
    destruct (k_ctl (tasks a u)) as [| |[| |x]| | | | | | |]; try discriminate.
    - cbn [fst]. eapply out_trans; [exact O0|].
      destruct inc as [e|]; [apply (out_trans t c s (upd_task s u (tk_held (Some e)))); [now apply out_held|]|];
        now apply out_parked.
    - apply Ret, out_refl.
    - destruct inc; [apply Ret, out_refl|]. destruct (ckif_spins _ _ _); [|apply Ret, out_refl]. cbn [fst blocked].
      eapply out_trans; [exact O0|].
      apply out_same; try reflexivity; [intros _; cbn; discriminate|apply (rsh_append _ _ [HStep u]); reflexivity].
    - apply Ret. apply out_same; try reflexivity; [auto|apply rsh_timer_cancel].
    - apply Ret. destruct f; [|apply out_refl]. apply out_same; try reflexivity; [auto|apply rsh_same; reflexivity].
    - cbn [fst]. apply out_refl.
  Qed.

  (* a callback that does not resume t, of one of the covered kinds *)
  Definition covered (s : st) (h : handle) : Prop :=
    match h with
    | HStep u | HWake u _ => u <> t /\ simple_ctl (k_ctl (tasks s u)) = true
    | _ => True
    end.

  Lemma callback_out s h r :
    reach_ok s -> k_ctl (tasks s t) <> CDone -> ready s = h :: r -> covered s h ->
    Out (set_ready s r) (run_head s) /\
    (h = HDeliver c -> Good t s -> eligG t s -> trk t c s -> reqG t (run_head s)).
  Proof.
    intros R Nd E Hk. destruct (reach_sinv s R) as [[T C] _].
    rewrite (run_head_cons s h r E). set (s1 := set_ready s r).
    destruct h as [u|u f|x|u|g tm|x tm]; cbn [fst covered] in *.
    - split; [|discriminate]. now apply out_resume_simple.
    - split; [|discriminate]. now apply out_resume_simple.
    - split.
      + eapply out_trans; [apply out_set_running|]. eapply out_trans; [apply out_deliver_top|apply out_set_running].
      + intros Ec G El Tk. inversion Ec; subst x.
        apply (hitsG t (set_running s1 None) c); [|exact El|apply (trk_view t c s); auto].
        apply (Good_same t s); try reflexivity; [exact G|cbn; discriminate].
    - split; [|discriminate]. rewrite run_task_done_eq. fold s1.
      assert (Hin : In (HTaskDone u) (ready s)) by (rewrite E; now left).
      destruct (c_td _ C u Hin) as [A Ed].
      assert (Hu : u <> t) by (intros ->; contradiction).
      destruct (c_ok _ C u A) as [_ [_ [_ [Kd _]]]]. specialize (Kd Ed).
      destruct (k_group (tasks s1 u)) as [g|]; [|apply out_set_running].
      eapply out_trans; [apply out_set_running|]. eapply out_trans; [|apply out_td_tail].
      apply out_td_struct; [|exact Kd|exact Hu].
      apply (Tree_treq s); [exact T|]. eapply treq_trans; [apply treq_set_ready|apply (quiet_treq u), quiet_set_running].
    - split; [|discriminate]. apply out_fut_complete.
    - split; [|discriminate].
      eapply out_trans; [apply out_set_running|]. eapply out_trans; [apply out_scope_timeout|apply out_set_running].
  Qed.
End Callback.

Section HeadRuns.
  Variables (Inv : st -> Prop) (W Q : nat -> st -> Prop).
  (* Q n s speaks of the next n head runs from s; it is enough to show it from the second run on *)
  Hypothesis Q_next : forall n s h r, ready s = h :: r -> Q n (run_head s) -> Q (S n) s.
  (* a head run inside the window W keeps the invariant and the order of the queue, unless Q holds outright *)
  Hypothesis Hstep : forall n s h r, Inv s -> W (S n) s -> ready s = h :: r ->
    Q (S n) s \/ (Inv (run_head s) /\ W n (run_head s) /\ rshT r (run_head s)).

  (* to the end of the window *)
  Lemma heads_keep :
    (forall n s, Inv s -> n = 0 \/ ready s = [] -> Q n s) -> forall n s, Inv s -> W n s -> Q n s.
  Proof.
    intros Q_stop. induction n as [|n IH]; intros s I Wn; [apply Q_stop; auto|].
    destruct (ready s) as [|h r] eqn:E; [apply Q_stop; auto|].
    destruct (Hstep n s h r I Wn E) as [Hq|[I' [W' _]]]; [exact Hq|]. apply (Q_next n s h r E). now apply IH.
  Qed.

  (* a callback h0 that is not a timer's, queued at a position below the length of the window, gets to the head
     within the window *)
  Lemma heads_reach h0 :
    nontimer h0 = true -> (forall n s r, Inv s -> W (S n) s -> ready s = h0 :: r -> Q (S n) s) ->
    forall n s pre post, Inv s -> W n s -> ready s = pre ++ h0 :: post -> length pre < n -> Q n s.
  Proof.
    intros Hn Q_hit. induction n as [|n IH]; intros s pre post I Wn E Hl; [lia|].
    destruct pre as [|h pre]; cbn [app] in E; [now apply (Q_hit n s post)|].
    destruct (Hstep n s h _ I Wn E) as [Hq|[I' [W' R']]]; [exact Hq|].
    destruct (rshT_split _ _ pre h0 post R' eq_refl Hn) as [P [post' [E' _]]].
    apply (Q_next n s h _ E), (IH _ (filter P pre) post' I' W' E').
    pose proof (filter_len P pre). cbn [length] in Hl. lia.
  Qed.
End HeadRuns.

Definition wait_ctl (k : ctl) : bool :=
  match k with CIdle | CYield YCheckpoint | CYield YCkIf | CSleep _ _ | CHandleWait _ _ => true | _ => false end.

Section Latency.
  Variables (t : tid) (c : sid).

  (* t has not finished and is not running; a request is recorded, or t can take one and reaches the cancelled
     hosted scope c *)
  Record LInv (s : st) : Prop := {
    li_reach : reach_ok s;
    li_run : running s <> Some t;
    li_live : k_ctl (tasks s t) <> CDone;
    li_cases : reqG t s \/ (eligG t s /\ trk t c s)
  }.

  Lemma linv_alloc s : LInv s -> t < ntask s.
  Proof.
    intros L. destruct (reach_sinv s (li_reach _ L)) as [[_ C] _].
    destruct (alloc_t_dec s t) as [A|A]; [apply A|]. elim (li_live _ L). apply (c_unalloc _ C t A).
  Qed.

  Lemma linv_step s h r :
    LInv s -> ready s = h :: r -> op_ok s (ARun h) = true -> covered t s h ->
    LInv (run_head s) /\ tfr t (set_ready s r) (run_head s) /\ rshT r (run_head s) /\
    (h = HDeliver c -> reqG t (run_head s)).
  Proof.
    intros L E Hok Hk. pose proof (good_reach t s (li_reach _ L) (li_run _ L)) as G.
    destruct (callback_out t c s h r (li_reach _ L) (li_live _ L) E Hk) as [O Hd].
    assert (G1 : Good t (set_ready s r)) by (apply (Good_same t s); try reflexivity; [exact G|apply G]).
    destruct (O G1) as [G' [F [Q Tp]]].
    assert (R' : reach_ok (run_head s)) by (rewrite (run_head_step s h r E); apply reach_ok_step; [apply L|exact Hok]).
    split; [|split; [exact F|split; [exact Q|]]].
    - constructor; [exact R'|apply G'|rewrite (tcore_ctl _ _ (tfr_core t _ _ F)); apply L|].
      destruct (li_cases _ L) as [Rq|[El Tk]]; [left; now apply (reqG_mono t (set_ready s r))|].
      destruct (reqG_dec t (run_head s)) as [Rb|Nb]; [now left|right].
      split; [now apply (eligG_keep t (set_ready s r) _ (gd_k _ _ G1) F)|].
      apply Tp; [exact El| |exact Nb]. apply (trk_view t c s); auto.
    - intros Eh. destruct (li_cases _ L) as [Rq|[El Tk]]; [now apply (reqG_mono t (set_ready s r))|now apply Hd].
  Qed.

  (* t's own callback: the wake-up by the future w it waits on, or the step after a bare yield *)
  Definition own (w : option fid) : handle := match w with Some f => HWake t f | None => HStep t end.

  (* the way t is suspended does not change, and its own callback is queued when it is due *)
  Record OInv (w : option fid) (K : ctl -> Prop) (s : st) : Prop := {
    oi_linv : LInv s;
    oi_waiter : k_waiter (tasks s t) = w;
    oi_ctl : K (k_ctl (tasks s t));
    oi_own : w = None \/ reqG t s -> In (own w) (ready s)
  }.

  Lemma oinv_step w K s h r :
    OInv w K s -> ready s = h :: r -> op_ok s (ARun h) = true -> covered t s h ->
    OInv w K (run_head s) /\ rshT r (run_head s) /\ (h = HDeliver c -> reqG t (run_head s)) /\
    (reqG t s -> reqG t (run_head s)).
  Proof.
    intros [L Hw Hc Ho] E Hok Hk. destruct (linv_step s h r L E Hok Hk) as [L' [F [Q Hd]]].
    pose proof (tfr_core t _ _ F) as Ec. change (tasks (set_ready s r) t) with (tasks s t) in Ec.
    assert (Keep : reqG t s -> reqG t (run_head s)) by (intros Rq; now apply (reqG_mono t (set_ready s r))).
    split; [|auto].
    constructor; [exact L'|now rewrite (tcore_waiter _ _ Ec)|now rewrite (tcore_ctl _ _ Ec)|].
    assert (Due : w = None \/ reqG t s -> In (own w) (ready (run_head s))).
    { intros Hb. apply (rsh_keep (set_ready s r) _ _ Q); [|now destruct w].
      specialize (Ho Hb). rewrite E in Ho. destruct Ho as [->|Ho]; [|exact Ho].
      exfalso. destruct w; cbn in Hk; now apply (proj1 Hk). }
    intros [Hb|Rb]; [now apply Due; left|]. destruct (reqG_dec t s) as [Rq|Nq]; [now apply Due; right|].
    destruct w as [f|]; [|now apply Due; left].
    destruct (li_cases _ L) as [Rq|[El _]]; [contradiction|].
    assert (K1 : KInv (set_ready s r)).
    { apply (KInv_kq s); [destruct (li_reach _ L) as [ops [_ ->]]; apply reach_kinv|apply kq_tasks_same; reflexivity]. }
    exact (tfr_wake t (set_ready s r) _ f K1 F Hw El Rb).
  Qed.

  Section Cycles.
    Variables (w : option fid) (K : ctl -> Prop) (W : nat -> st -> Prop).
    Notation OInv := (OInv w K).
    (* inside the window W the head of the queue is t's own callback with a request recorded, or a callback
       that keeps the invariant *)
    Hypothesis HW : forall n s h r, OInv s -> W (S n) s -> ready s = h :: r ->
      (h = own w /\ reqG t s) \/
      (OInv (run_head s) /\ W n (run_head s) /\ rshT r (run_head s) /\
       (h = HDeliver c -> reqG t (run_head s)) /\ (reqG t s -> reqG t (run_head s))).

    (* t's callback is run with a request recorded *)
    Definition found (tr : list (st * handle)) : Prop :=
      exists si q, In (si, own w) tr /\ ready si = own w :: q /\ OInv si /\ reqG t si.

    Definition kept (n : nat) (s : st) : Prop :=
      found (heads n s) \/ (OInv (iter n run_head s) /\ reqG t (iter n run_head s)).

    Lemma found_next n s h r : ready s = h :: r -> found (heads n (run_head s)) -> found (heads (S n) s).
    Proof. intros E [si [q [Hi Hs]]]. exists si, q. split; [rewrite (heads_cons n s h r E); now right|exact Hs]. Qed.

    Lemma found_here n s r : ready s = own w :: r -> OInv s -> reqG t s -> found (heads (S n) s).
    Proof. intros E I Rq. exists s, r. split; [rewrite (heads_cons n s _ r E); now left|exact (conj E (conj I Rq))]. Qed.

    Lemma kept_next n s h r : ready s = h :: r -> kept n (run_head s) -> kept (S n) s.
    Proof. intros E [F|Kp]; [left; now apply (found_next n s h r)|right; exact Kp]. Qed.

    Lemma hw_found n s h r : OInv s -> W (S n) s -> ready s = h :: r -> h = own w /\ reqG t s -> found (heads (S n) s).
    Proof. intros I _ E [-> Rq]. now apply (found_here n s r). Qed.

    (* once a request is recorded it stays, until t's callback runs *)
    Lemma phase_keep n s : OInv s -> reqG t s -> W n s -> kept n s.
    Proof.
      intros I Rq Wn.
      apply (heads_keep (fun s => OInv s /\ reqG t s) W kept kept_next); [| |now split|exact Wn].
      - intros m a h r [Ia Ra] Wa E. destruct (HW m a h r Ia Wa E) as [Hf|[I' [W' [Q' [_ Kp]]]]]; [left; left|right; auto].
        now apply (hw_found m a h r).
      - intros m a Ia [->|E]; right; [exact Ia|now rewrite (iter_run_head_dry m a E)].
    Qed.

    (* and t's callback, queued below the length of the cycle, runs in this cycle *)
    Lemma phase_own n s pre post :
      OInv s -> reqG t s -> W n s -> ready s = pre ++ own w :: post -> length pre < n -> found (heads n s).
    Proof.
      intros I Rq Wn E Hl.
      apply (heads_reach (fun s => OInv s /\ reqG t s) W (fun n s => found (heads n s)) found_next) with (h0 := own w) (pre := pre) (post := post);
        [| | |now split|exact Wn|exact E|exact Hl].
      - intros m a h r [Ia Ra] Wa Ea. destruct (HW m a h r Ia Wa Ea) as [Hf|[I' [W' [Q' [_ Kp]]]]]; [left|right; auto].
        now apply (hw_found m a h r).
      - now destruct w.
      - intros m a r [Ia Ra] _ Ea. now apply (found_here m a r).
    Qed.

    (* the delivery callback of c, queued below the length of the cycle, runs in this cycle and records a request *)
    Lemma phase_deliver n s pre post :
      OInv s -> W n s -> ready s = pre ++ HDeliver c :: post -> length pre < n -> kept n s.
    Proof.
      intros I Wn E Hl.
      apply (heads_reach OInv W kept kept_next) with (h0 := HDeliver c) (pre := pre) (post := post);
        [|reflexivity| |exact I|exact Wn|exact E|exact Hl].
      - intros m a h r Ia Wa Ea. destruct (HW m a h r Ia Wa Ea) as [Hf|[I' [W' [Q' _]]]]; [left; left|right; auto].
        now apply (hw_found m a h r).
      - intros m a r Ia Wa Ea. destruct (HW m a _ r Ia Wa Ea) as [[Eh _]|[I' [W' [_ [Hd _]]]]]; [destruct w; discriminate|].
        apply (kept_next m a _ r Ea). apply phase_keep; auto.
    Qed.

    Lemma found_app l1 l2 : found l1 \/ found l2 -> found (l1 ++ l2).
    Proof. intros [[si [q [Hi Hs]]]|[si [q [Hi Hs]]]]; exists si, q; (split; [apply in_or_app; auto|exact Hs]). Qed.

    Lemma two_cycles s :
      OInv s -> In (HDeliver c) (ready s) ->
      W (length (ready s)) s -> W (length (ready (fifo_cycle s))) (fifo_cycle s) ->
      found (heads (length (ready s)) s ++ heads (length (ready (fifo_cycle s))) (fifo_cycle s)).
    Proof.
      intros I Hin W1 W2. destruct (in_split_lt _ _ Hin) as [pre [post [E Hl]]].
      apply found_app. destruct (phase_deliver _ s pre post I W1 E Hl) as [F|[I1 R1]]; [now left|right].
      fold (fifo_cycle s) in I1, R1.
      destruct (in_split_lt _ _ (oi_own _ _ _ I1 (or_intror R1))) as [pre1 [post1 [E1 Hl1]]].
      exact (phase_own _ _ pre1 post1 I1 R1 W2 E1 Hl1).
    Qed.
  End Cycles.
End Latency.

Lemma wake_result t f si r :
  k_waiter (tasks si t) = Some f -> wait_ctl (k_ctl (tasks si t)) = true -> ready si = HWake t f :: r ->
  f_st (futs si f) <> FPend ->
  (exists o, snd (step si (ARun (HWake t f))) = RExc (ECancel o)) \/
  (exists v, f_st (futs si f) = FRes v) \/ (exists e, f_st (futs si f) = FExc e).
Proof.
  intros Hw Hc E Hn. destruct (f_st (futs si f)) as [|v|e|o] eqn:Ef; [now elim Hn|right; left; now exists v|right; right; now exists e|].
  left. exists o. cbn [step actor]. unfold run_handle. rewrite E. cbn [existsb remove_first]. rewrite handle_eqb_refl.
  cbn [orb negb]. set (s1 := set_ready si r).
  unfold resume. pose proof (incoming_ctl s1 t (Some f)) as Ec.
  assert (Hi : snd (incoming s1 t (Some f)) = Some (ECancel o)).
  { unfold incoming. cbn [snd]. change (futs s1 f) with (futs si f). rewrite Ef.
    destruct (k_must (tasks s1 t)); reflexivity. }
  destruct (incoming s1 t (Some f)) as [s2 inc]. cbn [fst snd] in *. subst inc. rewrite Ec.
  change (tasks s1 t) with (tasks si t).
  destruct (k_ctl (tasks si t)) as [| |[| |x]| | | | | | |]; try discriminate; reflexivity.
Qed.

(* the step of a task in a checkpoint or a checkpoint_if_cancelled spin with a request recorded raises it *)
Lemma own_result t si r :
  ready si = HStep t :: r -> k_must (tasks si t) = true ->
  k_ctl (tasks si t) = CYield YCkIf \/ k_ctl (tasks si t) = CYield YCheckpoint ->
  exists o, snd (step si (ARun (HStep t))) = RExc (ECancel o).
Proof.
  intros E Hm Hc. exists (k_msg (tasks si t)). cbn [step actor]. unfold run_handle. rewrite E.
  cbn [existsb remove_first]. rewrite handle_eqb_refl. cbn [orb negb]. set (s1 := set_ready si r).
  unfold resume. pose proof (incoming_ctl s1 t None) as Ec.
  assert (Hi : snd (incoming s1 t None) = Some (ECancel (k_msg (tasks si t)))).
  { unfold incoming. cbn [snd]. change (tasks s1 t) with (tasks si t). now rewrite Hm. }
  destruct (incoming s1 t None) as [s2 inc]. cbn [fst snd] in *. subst inc. rewrite Ec.
  change (tasks s1 t) with (tasks si t). destruct Hc as [-> | ->]; reflexivity.
Qed.

Section Covered.
  Variables (t : tid) (f : fid).

  (* a callback other than t's own wake-up, of one of the covered kinds *)
  Definition bystander (s : st) (h : handle) : Prop :=
    op_ok s (ARun h) = true /\ h <> HWake t f /\
    match h with
    | HStep t' | HWake t' _ => t' <> t /\ simple_ctl (k_ctl (tasks s t')) = true
    | _ => True
    end.
End Covered.

Section Wait.
  Variables (t : tid) (f : fid).

  (* the next n callbacks: t's own wake-up once its future is done, or covered callbacks of others *)
  Fixpoint cycle_ok (n : nat) (s : st) : Prop :=
    match n with
    | 0 => True
    | S m => match ready s with
             | [] => True
             | h :: _ => (h = HWake t f /\ f_st (futs s f) <> FPend) \/
                         (bystander t f s h /\ cycle_ok m (run_head s))
             end
    end.

  Lemma cycle_ok_window c K n s h r :
    OInv t c (Some f) K s -> cycle_ok (S n) s -> ready s = h :: r ->
    (h = HWake t f /\ reqG t s) \/
    (OInv t c (Some f) K (run_head s) /\ cycle_ok n (run_head s) /\ rshT r (run_head s) /\
     (h = HDeliver c -> reqG t (run_head s)) /\ (reqG t s -> reqG t (run_head s))).
  Proof.
    intros I Ok E. cbn [cycle_ok] in Ok. rewrite E in Ok. destruct Ok as [[-> Hn]|[[Hok [_ Hk]] Ok]].
    - left. split; [reflexivity|]. unfold reqG. now rewrite (oi_waiter _ _ _ _ _ I).
    - right. destruct (oinv_step t c _ K s h r I E Hok Hk) as [I' [Q [Hd Kp]]]. auto.
  Qed.
End Wait.

(* C03 cancel_latency_le_2_cycles.  At a cycle boundary of a reachable state, task t is blocked on the pending
   future f (not yet cancelled: no request is pending on it), it has started, and it reaches the cancelled,
   hosted scope c.  If the callbacks of this and the next FIFO cycle are of the covered kinds (cycle_ok: t's own
   wake-up once f is done; or, for other tasks, delivery, task-done, sleep-timer and deadline callbacks and the
   resumption of tasks that go straight back to their program or yield again), then within these two cycles t's
   wake-up runs, and it raises a cancellation (with the origin of whichever scope delivered first: c or a nearer
   scope cancelled meanwhile) unless somebody completed f with a result or an exception first. *)
Theorem cancel_latency_le_2_cycles t f c s :
  reach_ok s -> running s <> Some t ->
  s_cancelled (scopes s c) = true -> s_host (scopes s c) <> None -> reaches s t c ->
  k_must (tasks s t) = false -> k_started (tasks s t) = true ->
  k_waiter (tasks s t) = Some f -> f_st (futs s f) = FPend -> wait_ctl (k_ctl (tasks s t)) = true ->
  cycle_ok t f (length (ready s)) s -> cycle_ok t f (length (ready (fifo_cycle s))) (fifo_cycle s) ->
  exists si,
    In (si, HWake t f) (heads (length (ready s)) s ++ heads (length (ready (fifo_cycle s))) (fifo_cycle s)) /\
    ((exists o, snd (step si (ARun (HWake t f))) = RExc (ECancel o)) \/
     (exists v, f_st (futs si f) = FRes v) \/ (exists e, f_st (futs si f) = FExc e)).
Proof.
  intros R Hr Cc Hh Rt Hm Hs Hw Hp Hctl Ok1 Ok2.
  assert (I : OInv t c (Some f) (fun k => wait_ctl k = true) s).
  { constructor; [constructor; [exact R|exact Hr|intros E; now rewrite E in Hctl|right]|exact Hw|exact Hctl|].
    - split; [|exact (conj Rt (conj Cc Hh))]. unfold eligG. rewrite Hw. exact (conj (proj1 Rt) (conj Hm (conj Hs Hp))).
    - unfold reqG. rewrite Hw. intros [N|N]; [discriminate|contradiction]. }
  destruct (two_cycles t c _ _ _ (cycle_ok_window t f c _) s I (proj2 (delivery_alive s c R Cc Hh (ex_intro _ t Rt))) Ok1 Ok2)
    as [si [r [Hi [Er [Ii Ri]]]]].
  exists si. split; [exact Hi|].
  unfold reqG in Ri. rewrite (oi_waiter _ _ _ _ _ Ii) in Ri.
  exact (wake_result t f si r (oi_waiter _ _ _ _ _ Ii) (oi_ctl _ _ _ _ _ Ii) Er Ri).
Qed.

Section Spin.
  Variable t : tid.

  Definition bystander_y (s : st) (h : handle) : Prop :=
    op_ok s (ARun h) = true /\ h <> HStep t /\
    match h with
    | HStep t' | HWake t' _ => t' <> t /\ simple_ctl (k_ctl (tasks s t')) = true
    | _ => True
    end.

  Fixpoint cycle_oky (n : nat) (s : st) : Prop :=
    match n with
    | 0 => True
    | S m => match ready s with
             | [] => True
             | h :: _ => (h = HStep t \/ bystander_y s h) /\ cycle_oky m (run_head s)
             end
    end.

  (* the cancelled scope c is visible from t: the re-check of the spin (F46) finds it *)
  Lemma trk_spins c s : reach_ok s -> trk t c s -> ckif_spins (nscope s) s (k_cur (tasks s t)) = true.
  Proof.
    intros R [[_ [x [Ex Hv]]] [Cc _]]. pose proof (reach_tree s R) as T. rewrite Ex, ckif_spins_is_eff_cancelled.
    apply (vis_cancelled_eff s c x (nscope s) Hv Cc). intros n Hn.
    apply (upn_bound s x n (Tree_TreeL s T) Hn (tr_cur_act _ T t x Ex)).
  Qed.

  (* t's own step while no request is recorded and a cancelled scope is still visible: checkpoint_if_cancelled
     yields once more *)
  Lemma own_eq s r :
    ready s = HStep t :: r -> k_must (tasks s t) = false -> k_ctl (tasks s t) = CYield YCkIf ->
    ckif_spins (nscope s) s (k_cur (tasks s t)) = true ->
    run_head s =
    set_running (bare_yield (set_running (upd_task (set_ready s r) t
                   (fun x => tk_must false (k_msg x) (tk_waiter None x))) (Some t)) t) None.
  Proof.
    intros E Hm Hc Hsp. rewrite (run_head_cons s _ r E). set (s1 := set_ready s r).
    unfold resume. pose proof (incoming_ctl s1 t None) as Ec.
    assert (Hi : incoming s1 t None =
                 (set_running (upd_task s1 t (fun x => tk_must false (k_msg x) (tk_waiter None x))) (Some t), None)).
    { unfold incoming. change (tasks s1 t) with (tasks s t). now rewrite Hm. }
    rewrite Hi in *. cbn [fst] in Ec. rewrite Ec. change (tasks s1 t) with (tasks s t). rewrite Hc.
    match goal with |- context [ckif_spins ?n ?a ?x] => assert (Esp : ckif_spins n a x = true) end.
    { rewrite (ckif_spins_scopes _ s); [|reflexivity]. rewrite <- Hsp. f_equal.
      cbn [set_running upd_task set_tasks tasks]. rewrite upd_same. reflexivity. }
    rewrite Esp. reflexivity.
  Qed.

  Notation spinning := (fun k => k = CYield YCkIf).

  Lemma spin_again c s r :
    OInv t c None spinning s -> ready s = HStep t :: r -> ~ reqG t s ->
    OInv t c None spinning (run_head s) /\ rshT r (run_head s) /\ ~ reqG t (run_head s).
  Proof.
    intros [L Hw Hc Ho] E Nr. unfold reqG in Nr. rewrite Hw in Nr.
    assert (Hm : k_must (tasks s t) = false) by (destruct (k_must (tasks s t)); [now elim Nr|reflexivity]).
    destruct (li_cases _ _ _ L) as [Rq|[[Hd [_ [Hs _]]] Tk]]; [unfold reqG in Rq; rewrite Hw in Rq; contradiction|].
    assert (R' : reach_ok (run_head s)).
    { rewrite (run_head_step s _ r E). apply reach_ok_step; [apply L|reflexivity]. }
    revert R'. rewrite (own_eq s r E Hm Hc (trk_spins c s (li_reach _ _ _ L) Tk)). intros R'.
    set (s' := set_running _ None) in *.
    assert (Et : tasks s' t = tk_must false (k_msg (tasks s t)) (tk_waiter None (tasks s t))).
    { unfold s'. cbn. now rewrite upd_same. }
    assert (Nr' : ~ reqG t s') by (unfold reqG; rewrite Et; cbn; discriminate).
    split; [|split; [|exact Nr']].
    - constructor; [constructor| | |].
      + exact R'.
      + discriminate.
      + rewrite Et. cbn. rewrite Hc. discriminate.
      + right. split; [unfold eligG; rewrite Et; cbn; now repeat split|].
        apply (trk_view t c s s'); [reflexivity|now rewrite Et|now rewrite Et|exact Tk].
      + now rewrite Et.
      + now rewrite Et.
      + intros _. unfold s'. cbn. apply in_or_app. right. now left.
    - exists (fun _ => true), [HStep t]. split; [unfold s'; cbn; now rewrite filter_true|auto].
  Qed.

  Lemma cycle_oky_window c n s h r :
    OInv t c None spinning s -> cycle_oky (S n) s -> ready s = h :: r ->
    (h = HStep t /\ reqG t s) \/
    (OInv t c None spinning (run_head s) /\ cycle_oky n (run_head s) /\ rshT r (run_head s) /\
     (h = HDeliver c -> reqG t (run_head s)) /\ (reqG t s -> reqG t (run_head s))).
  Proof.
    intros I Ok E. cbn [cycle_oky] in Ok. rewrite E in Ok. destruct Ok as [[->|[Hok [_ Hk]]] Ok].
    - destruct (reqG_dec t s) as [Rq|Nr]; [now left|right].
      destruct (spin_again c s r I E Nr) as [I' [Q _]].
      split; [exact I'|]. split; [exact Ok|]. split; [exact Q|]. split; [discriminate|contradiction].
    - right. destruct (oinv_step t c _ _ s h r I E Hok Hk) as [I' [Q [Hd Kp]]]. auto.
  Qed.
End Spin.

(* C03 ckif_spin_terminates.  A task spinning on checkpoint_if_cancelled (suspended in the bare yield of
   CYield YCkIf, its step callback scheduled) that reaches a cancelled, hosted scope c is resumed with a
   cancellation within the current and the next FIFO cycle -- so the spin makes at most one more round --
   provided the callbacks of these two cycles are of the covered kinds (cycle_oky: t's own step; or, for other
   tasks, delivery, task-done, sleep-timer and deadline callbacks and resumptions of tasks that go straight back
   to their program or yield again). *)
Theorem ckif_spin_terminates t c s :
  reach_ok s -> running s <> Some t ->
  s_cancelled (scopes s c) = true -> s_host (scopes s c) <> None -> reaches s t c ->
  k_started (tasks s t) = true -> k_waiter (tasks s t) = None ->
  k_ctl (tasks s t) = CYield YCkIf -> In (HStep t) (ready s) ->
  cycle_oky t (length (ready s)) s -> cycle_oky t (length (ready (fifo_cycle s))) (fifo_cycle s) ->
  exists si,
    In (si, HStep t) (heads (length (ready s)) s ++ heads (length (ready (fifo_cycle s))) (fifo_cycle s)) /\
    exists o, snd (step si (ARun (HStep t))) = RExc (ECancel o).
Proof.
  intros R Hr Cc Hh Rt Hs Hw Hctl Hin0 Ok1 Ok2.
  assert (I : OInv t c None (fun k => k = CYield YCkIf) s).
  { constructor; [constructor; [exact R|exact Hr|rewrite Hctl; discriminate|]|exact Hw|exact Hctl|intros _; exact Hin0].
    unfold reqG, eligG. rewrite Hw. destruct (k_must (tasks s t)); [now left|right].
    exact (conj (conj (proj1 Rt) (conj eq_refl (conj Hs I))) (conj Rt (conj Cc Hh))). }
  destruct (two_cycles t c _ _ _ (cycle_oky_window t c) s I (proj2 (delivery_alive s c R Cc Hh (ex_intro _ t Rt))) Ok1 Ok2)
    as [si [r [Hi [Er [Ii Ri]]]]].
  exists si. split; [exact Hi|].
  unfold reqG in Ri. rewrite (oi_waiter _ _ _ _ _ Ii) in Ri.
  exact (own_result t si r Er Ri (or_introl (oi_ctl _ _ _ _ _ Ii))).
Qed.

(* non-vacuity of the two latency theorems:
   Task 1 cancels its own scope 1 while running (the delivery callback skips the running task and stays
   scheduled), then (a) sleeps forever / (b) calls checkpoint_if_cancelled.  All premises hold, the covered-cycle
   predicates included, and the observed schedules are
     (a) [HDeliver 1] ; [HWake 1 5; HDeliver 1]       (b) [HDeliver 1; HStep 1] ; [HDeliver 1]. *)
Definition lat_ops : list op := [ANewRoot; ANewScope 1 None false; AEnter 1 1; ACancel 1 1; ASleep 1 None].
Definition spin_ops : list op := [ANewRoot; ANewScope 1 None false; AEnter 1 1; ACancel 1 1; ACkIf 1].

Example lat_reach : reach_ok (final step init lat_ops).
Proof. exists lat_ops. split; [vm_compute; reflexivity|reflexivity]. Qed.

Example spin_reach : reach_ok (final step init spin_ops).
Proof. exists spin_ops. split; [vm_compute; reflexivity|reflexivity]. Qed.

Ltac vc := vm_compute; reflexivity.

Example lat_premises :
  let s := final step init lat_ops in
  running s <> Some 1 /\ s_cancelled (scopes s 1) = true /\ s_host (scopes s 1) <> None /\ reaches s 1 1 /\
  k_must (tasks s 1) = false /\ k_started (tasks s 1) = true /\ k_waiter (tasks s 1) = Some 5 /\
  f_st (futs s 5) = FPend /\ wait_ctl (k_ctl (tasks s 1)) = true /\
  cycle_ok 1 5 (length (ready s)) s /\ cycle_ok 1 5 (length (ready (fifo_cycle s))) (fifo_cycle s) /\
  map snd (heads (length (ready s)) s ++ heads (length (ready (fifo_cycle s))) (fifo_cycle s))
  = [HDeliver 1; HWake 1 5; HDeliver 1].
Proof.
  cbv zeta. set (s := final step init lat_ops).
  assert (E1 : ready s = [HDeliver 1]) by vc.
  assert (E2 : ready (fifo_cycle s) = [HWake 1 5; HDeliver 1]) by vc.
  assert (F2 : f_st (futs (fifo_cycle s) 5) = FCanc 2) by vc.
  refine (conj _ (conj _ (conj _ (conj _ (conj _ (conj _ (conj _ (conj _ (conj _ (conj _ (conj _ _))))))))))).
  - assert (E : running s = None) by vc. rewrite E. discriminate.
  - vc.
  - assert (E : s_host (scopes s 1) = Some 1) by vc. rewrite E. discriminate.
  - split; [vc|]. exists 1. split; [vc|apply vis_here].
  - vc.
  - vc.
  - vc.
  - vc.
  - vc.
  - rewrite E1. cbn [length cycle_ok]. rewrite E1. right. split; [|exact I].
    split; [reflexivity|]. split; [discriminate|exact I].
  - rewrite E2. cbn [length cycle_ok]. rewrite E2. left. split; [reflexivity|]. rewrite F2. discriminate.
  - vc.
Qed.

Example spin_premises :
  let s := final step init spin_ops in
  running s <> Some 1 /\ s_cancelled (scopes s 1) = true /\ s_host (scopes s 1) <> None /\ reaches s 1 1 /\
  k_started (tasks s 1) = true /\ k_waiter (tasks s 1) = None /\ k_ctl (tasks s 1) = CYield YCkIf /\
  In (HStep 1) (ready s) /\
  cycle_oky 1 (length (ready s)) s /\ cycle_oky 1 (length (ready (fifo_cycle s))) (fifo_cycle s) /\
  map snd (heads (length (ready s)) s ++ heads (length (ready (fifo_cycle s))) (fifo_cycle s))
  = [HDeliver 1; HStep 1; HDeliver 1].
Proof.
  cbv zeta. set (s := final step init spin_ops).
  assert (E1 : ready s = [HDeliver 1; HStep 1]) by vc.
  assert (E1' : ready (run_head s) = [HStep 1; HDeliver 1]) by vc.
  assert (E2 : ready (fifo_cycle s) = [HDeliver 1]) by vc.
  refine (conj _ (conj _ (conj _ (conj _ (conj _ (conj _ (conj _ (conj _ (conj _ (conj _ _)))))))))).
  - assert (E : running s = None) by vc. rewrite E. discriminate.
  - vc.
  - assert (E : s_host (scopes s 1) = Some 1) by vc. rewrite E. discriminate.
  - split; [vc|]. exists 1. split; [vc|apply vis_here].
  - vc.
  - vc.
  - vc.
  - rewrite E1. right. now left.
  - rewrite E1. cbn [length cycle_oky]. rewrite E1.
    split; [right; split; [reflexivity|split; [discriminate|exact I]]|].
    rewrite E1'. split; [now left|exact I].
  - rewrite E2. cbn [length cycle_oky]. rewrite E2.
    split; [right; split; [reflexivity|split; [discriminate|exact I]]|exact I].
  - vc.
Qed.

(* the theorems applied to these states *)
Example lat_instance :
  let s := final step init lat_ops in
  exists si, In (si, HWake 1 5) (heads (length (ready s)) s ++ heads (length (ready (fifo_cycle s))) (fifo_cycle s)) /\
    ((exists o, snd (step si (ARun (HWake 1 5))) = RExc (ECancel o)) \/
     (exists v, f_st (futs si 5) = FRes v) \/ (exists e, f_st (futs si 5) = FExc e)).
Proof.
  cbv zeta. destruct lat_premises as [H1 [H2 [H3 [H4 [H5 [H6 [H7 [H8 [H9 [H10 [H11 _]]]]]]]]]]].
  exact (cancel_latency_le_2_cycles 1 5 1 _ lat_reach H1 H2 H3 H4 H5 H6 H7 H8 H9 H10 H11).
Qed.

Example spin_instance :
  let s := final step init spin_ops in
  exists si, In (si, HStep 1) (heads (length (ready s)) s ++ heads (length (ready (fifo_cycle s))) (fifo_cycle s)) /\
    exists o, snd (step si (ARun (HStep 1))) = RExc (ECancel o).
Proof.
  cbv zeta. destruct spin_premises as [H1 [H2 [H3 [H4 [H5 [H6 [H7 [H8 [H9 [H10 _]]]]]]]]]].
  exact (ckif_spin_terminates 1 1 _ spin_reach H1 H2 H3 H4 H5 H6 H7 H8 H9 H10).
Qed.

(* non-vacuity of loop_goes_idle with a leftover callback: the root task cancels and leaves its scope and
   finishes; the scope's delivery callback is still scheduled, and one head run removes it *)
Definition idle2_ops : list op :=
  [ANewRoot; ANewScope 1 (Some 5%Z) false; AEnter 1 1; ACancel 1 1; AExit 1 1 false; AFinish 1 0].

Example idle2_premises :
  let s := final step init idle2_ops in
  reach_ok s /\ all_done s /\ ready s = [HDeliver 1] /\ ready (run_head s) = [] /\ timers (run_head s) = [].
Proof.
  cbv zeta. set (s := final step init idle2_ops).
  assert (R : reach_ok s) by (exists idle2_ops; split; [vm_compute; reflexivity|reflexivity]).
  split; [exact R|]. split; [|repeat split; vm_compute; reflexivity].
  destruct (reach_sinv s R) as [[_ C] _]. intros t.
  assert (En : ntask s = 2) by (vm_compute; reflexivity).
  destruct (Nat.eq_dec t 1) as [->|Hn].
  - split; [vm_compute; reflexivity|]. intros _. vm_compute. discriminate.
  - assert (Na : ~ alloc_t s t) by (unfold alloc_t; rewrite En; lia).
    split; [exact (c_unalloc _ C t Na)|]. intros A. contradiction.
Qed.

(* C03 — level-triggered cancellation: the theorems. *)
From AV Require Import Base Machine MachineFacts ScopeFrames DeliverInv DeliverAlive TreeStep KernelInv
  CheckpointFacts.

(* I4 for every reachable state of the generated domain *)
Theorem delivery_alive s c :
  reach_ok s -> s_cancelled (scopes s c) = true -> s_host (scopes s c) <> None ->
  (exists t, reaches s t c) ->
  s_chandle (scopes s c) = true /\ In (HDeliver c) (ready s).
Proof.
  intros R C H Ex. destruct (reach_dinv s R) as [Al Hd].
  assert (E : s_chandle (scopes s c) = true) by now apply Al. split; [exact E|now apply Hd].
Qed.

(* what the task-side walk means in terms of the machine's own predicate *)
Lemma vis_cancelled_eff s c x fuel :
  vis s c x -> s_cancelled (scopes s c) = true -> (forall n, upn s x n -> n < fuel) ->
  eff_cancelled_from fuel s (Some x) = true.
Proof.
  intros H C. revert fuel. induction H as [|x p E1 E2 E3 H IH]; intros fuel Hf.
  - destruct fuel; [specialize (Hf 0 (upn_0 s c)); lia|]. cbn. now rewrite C.
  - destruct fuel; [specialize (Hf 0 (upn_0 s x)); lia|]. cbn. rewrite E2, E1, E3.
    apply IH. intros n Hn. assert (S n < S fuel) by (apply Hf; eapply upn_S; eauto). lia.
Qed.

(* task t can take a cancellation request right now *)
Definition takes_request (s : st) (t : tid) : Prop :=
  k_must (tasks s t) = false /\
  (k_started (tasks s t) = true \/
   exists x, k_cur (tasks s t) = Some x /\ s_host (scopes s x) = Some t) /\
  match k_waiter (tasks s t) with Some f => f_st (futs s f) = FPend | None => True end.

Theorem deliver_cancels_reach_wl s c :
  reach_ok s -> wait_link s -> In (HDeliver c) (ready s) ->
  let s' := fst (step s (ARun (HDeliver c))) in
  (forall t, reaches s t c -> takes_request s t -> requested s' t (S c)) /\
  ((exists t, reaches s t c) -> s_chandle (scopes s' c) = true /\ In (HDeliver c) (ready s')) /\
  (~ (exists t, reaches s t c) -> s_chandle (scopes s' c) = false) /\
  (forall c', c' <> c -> scopes s' c' = scopes s c').
Proof.
  intros R WL Hin s'. pose proof (Tree_TreeL s (reach_tree s R)) as TL.
  unfold s'. cbn [step actor]. rewrite (run_handle_in s _ Hin). cbn [fst].
  set (s1 := set_running (dequeue s (HDeliver c)) None).
  assert (T1 : TreeL s1).
  { apply (TreeL_ext s s1 TL eq_refl); [intros x; now repeat split|intros t; reflexivity]. }
  assert (WL1 : wait_link s1) by exact WL.
  destruct (deliver_top_spec s1 c WL1) as [K [Oth [Req [Hyes Hno]]]].
  assert (Rs : forall t, reaches s1 t c <-> reaches s t c).
  { intros t. unfold reaches. split; intros [D [x [Hc Hv]]]; (split; [exact D|exists x; split; [exact Hc|]]).
    - apply (vis_view s s1 c x); [intros y; now repeat split|exact Hv].
    - apply (vis_view s1 s c x); [intros y; now repeat split|exact Hv]. }
  refine (conj _ (conj _ (conj _ _))).
  - intros t Rt [Hm [Hs Hw]]. apply Rs in Rt. destruct Rt as [D [x [Hc Hv]]].
    assert (requested (deliver_top s1 c) t (S c)).
    { apply (Req x t); [now apply vis_dreach|].
      unfold elig. refine (conj D (conj Hm (conj _ (conj _ Hw)))); [cbn; discriminate|].
      destruct Hs as [Hs|[x' [Hc' Hh]]]; [now right|left].
      change (tasks s1 t) with (tasks s t) in Hc. rewrite Hc in Hc'. inversion Hc'; subst x'. exact Hh. }
    destruct H as [H|[f [H0 [H1 [H2 H3]]]]]; [left; exact H|right; exists f; repeat split; assumption].
  - intros [t Rt]. apply Rs in Rt.
    destruct Hyes as [E1 E2]; [apply (reaches_iff_dreach s1 c T1); now exists t|].
    split; [exact E1|exact E2].
  - intros Hn. apply Hno. intros Hd. apply Hn. apply (reaches_iff_dreach s1 c T1) in Hd.
    destruct Hd as [t Rt]. exists t. now apply Rs.
  - intros c' Hne. cbn [scopes set_running]. now rewrite (Oth c' Hne).
Qed.

(* the kernel link holds in every reachable state *)
Lemma reach_ok_wait_link s : reach_ok s -> wait_link s.
Proof. intros [ops [_ ->]]. apply reach_wait_link. Qed.

Theorem deliver_cancels_reach s c :
  reach_ok s -> In (HDeliver c) (ready s) ->
  let s' := fst (step s (ARun (HDeliver c))) in
  (forall t, reaches s t c -> takes_request s t -> requested s' t (S c)) /\
  ((exists t, reaches s t c) -> s_chandle (scopes s' c) = true /\ In (HDeliver c) (ready s')) /\
  (~ (exists t, reaches s t c) -> s_chandle (scopes s' c) = false) /\
  (forall c', c' <> c -> scopes s' c' = scopes s c').
Proof. intros R Hin. apply deliver_cancels_reach_wl; [exact R|now apply reach_ok_wait_link|exact Hin]. Qed.

Theorem cancelled_request_is_delivered s t o :
  requested s t o -> snd (incoming s t (k_waiter (tasks s t))) = Some (ECancel o).
Proof.
  intros [[Hm [Hmsg Hw]]|[f [Hm [Hw [Hf _]]]]]; unfold incoming; cbn [snd].
  - rewrite Hw, Hm, Hmsg. reflexivity.
  - rewrite Hw, Hm, Hf. reflexivity.
Qed.

(* ... and for the plain waits it is the result of the interrupted operation *)
Theorem cancelled_wait_raises s t o :
  requested s t o ->
  match k_ctl (tasks s t) with
  | CYield YCheckpoint | CYield YCkIf | CSleep _ _ | CHandleWait _ _ => True
  | _ => False
  end ->
  snd (resume s t (k_waiter (tasks s t))) = RExc (ECancel o).
Proof. intros Rq Hc. apply (resume_raises s t _ _ Hc). now apply cancelled_request_is_delivered. Qed.

Lemma corner_running self o a r t :
  running a = Some t -> k_done (tasks a t) = None -> deliver_task self o (a, r) t = (a, true).
Proof.
  intros Hr Hd. unfold deliver_task. rewrite Hd, Hr. cbn [opt_eqb]. rewrite Nat.eqb_refl. cbn.
  destruct (k_must (tasks a t)); reflexivity.
Qed.

Lemma corner_not_started self o a r t :
  k_started (tasks a t) = false -> s_host (scopes a self) <> Some t -> k_done (tasks a t) = None ->
  deliver_task self o (a, r) t = (a, true).
Proof.
  intros Hs Hh Hd. unfold deliver_task. rewrite Hd, Hs. apply opt_eqb_false in Hh. rewrite Hh.
  destruct (k_must (tasks a t)); [reflexivity|]. now rewrite andb_false_r.
Qed.

Lemma corner_about_to_resume self o a r t f :
  k_waiter (tasks a t) = Some f -> f_st (futs a f) <> FPend -> k_done (tasks a t) = None ->
  deliver_task self o (a, r) t = (a, true).
Proof.
  intros Hw Hf Hd. unfold deliver_task. rewrite Hd, Hw. unfold fut_pending.
  destruct (k_must (tasks a t)); [reflexivity|]. destruct (_ && _); [|reflexivity].
  destruct (f_st (futs a f)); try reflexivity. now elim Hf.
Qed.

Lemma corner_already_requested self o a r t :
  k_must (tasks a t) = true -> k_done (tasks a t) = None -> deliver_task self o (a, r) t = (a, true).
Proof. intros Hm Hd. unfold deliver_task. now rewrite Hd, Hm. Qed.

(* in all four cases the delivery asks to be run again *)
Lemma corner_retry self o a r t :
  k_done (tasks a t) = None -> snd (deliver_task self o (a, r) t) = true.
Proof. intros Hd. rewrite deliver_task_retry. now rewrite Hd. Qed.

(* a scope cancelled before it is entered delivers on entry *)
Lemma enter_s3_cancelled s c t : k_cur (tasks s t) <> Some c ->
  s_cancelled (scopes (enter_s3 s c t) c) = s_cancelled (scopes s c).
Proof.
  intros Hpc. pose proof (enter_s3_view s c t c Hpc) as E. rewrite Nat.eqb_refl in E.
  change (s_cancelled (scopes (enter_s3 s c t) c)) with (snd (fst (fst (sc_view (scopes (enter_s3 s c t) c))))).
  now rewrite E.
Qed.

Theorem cancelled_before_entry_delivers s c t :
  s_active (scopes s c) = false -> s_cancelled (scopes s c) = true -> k_cur (tasks s t) <> Some c ->
  fst (scope_enter s c t) = deliver_top (enter_s5 s c t) c.
Proof.
  intros Ia Ca Hpc. rewrite (scope_enter_eq s c t Ia).
  assert (E : s_cancelled (scopes (enter_s5 s c t) c) = true).
  { unfold enter_s5. cbn. unfold upd. rewrite Nat.eqb_refl. cbn.
    destruct (dqx_scope_timeout (enter_s3 s c t) c) as [Q _]. apply (dx_canc _ _ _ Q).
    now rewrite enter_s3_cancelled. }
  now rewrite E.
Qed.

(* leaving a scope restarts the delivery of the nearest cancelled ancestor *)
Theorem exit_restarts_parent s c t exc :
  s_active (scopes s c) = true -> s_host (scopes s c) = Some t -> k_cur (tasks s t) = Some c ->
  exists s6, kframe (restart (exit_struct s c t) (s_parent (scopes s c))) s6 /\
             fst (scope_exit s c t exc) = upd_scope s6 c (sc_host None).
Proof. intros Ha Hh Hc. apply scope_exit_spec. now repeat split. Qed.

Definition ex_ops : list op :=
  [ANewRoot; ANewScope 1 None false; AEnter 1 1; AGroupNew 1; AGroupEnter 1 1; ASpawn 1 1;
   ARun (HStep 2); AYield 2; AYield 1; AExtCancel 1].

Example ex_ops_ok : ops_ok init ex_ops = true.
Proof. vm_compute. reflexivity. Qed.

Example ex_reach : reach_ok (final step init ex_ops).
Proof. exists ex_ops. split; [apply ex_ops_ok|reflexivity]. Qed.

(* scope 1 is cancelled and hosted; task 2 (a group child in its handle scope, two levels below) reaches it *)
Example ex_alive_premises :
  let s := final step init ex_ops in
  s_cancelled (scopes s 1) = true /\ s_host (scopes s 1) = Some 1 /\ reaches s 2 1 /\
  s_chandle (scopes s 1) = true /\ In (HDeliver 1) (ready s).
Proof.
  cbv zeta. refine (conj _ (conj _ (conj _ (conj _ _)))); try (vm_compute; reflexivity).
  - split; [vm_compute; reflexivity|]. exists 3. split; [vm_compute; reflexivity|].
    eapply vis_up; [vm_compute; reflexivity|vm_compute; reflexivity|vm_compute; reflexivity|].
    eapply vis_up; [vm_compute; reflexivity|vm_compute; reflexivity|vm_compute; reflexivity|].
    apply vis_here.
  - vm_compute. auto.
Qed.

(* bounded response, the one-cycle pieces:
   In a reachable state, a task blocked on a pending future inside a cancelled scope:
   (1) the scope's delivery callback is in the ready queue (it runs within the current FIFO cycle);
   (2) when it runs, the task's wait is cancelled with the scope as origin and its wake-up is scheduled
       (it runs within the next cycle);
   (3) that wake-up raises the cancellation in the task.
   That no other callback running between these three moments disturbs the picture (completes the wait, flips a
   shield, cancels natively ...) is CycleThms.cancel_latency_le_2_cycles. *)
Lemma run_deliver_task_core s c t :
  In (HDeliver c) (ready s) ->
  tk_core (tasks (fst (step s (ARun (HDeliver c)))) t) = tk_core (tasks s t).
Proof.
  intros Hin. cbn [step actor]. rewrite (run_handle_in s _ Hin). cbn [fst tasks set_running].
  apply (kf_tasks _ _ (kframe_deliver_top (set_running (dequeue s (HDeliver c)) None) c) t).
Qed.

Lemma cancelled_wait_raises_core s t o f :
  k_must (tasks s t) = false -> k_waiter (tasks s t) = Some f -> f_st (futs s f) = FCanc o ->
  match k_ctl (tasks s t) with
  | CYield YCheckpoint | CYield YCkIf | CSleep _ _ | CHandleWait _ _ => True
  | _ => False
  end ->
  snd (resume s t (Some f)) = RExc (ECancel o).
Proof.
  intros Hm Hw Hf Hc. apply (resume_raises s t _ _ Hc). unfold incoming. cbn [snd]. now rewrite Hm, Hf.
Qed.

Theorem cancel_latency_le_2_cycles_partial s t c f :
  reach_ok s -> s_cancelled (scopes s c) = true -> s_host (scopes s c) <> None -> reaches s t c ->
  k_must (tasks s t) = false -> k_started (tasks s t) = true ->
  k_waiter (tasks s t) = Some f -> f_st (futs s f) = FPend ->
  match k_ctl (tasks s t) with
  | CYield YCheckpoint | CYield YCkIf | CSleep _ _ | CHandleWait _ _ => True
  | _ => False
  end ->
  let s1 := fst (step s (ARun (HDeliver c))) in
  In (HDeliver c) (ready s) /\
  In (HWake t f) (ready s1) /\
  snd (step s1 (ARun (HWake t f))) = RExc (ECancel (S c)).
Proof.
  intros R C Hh Rt Hm Hs Hw Hp Hctl s1.
  destruct (delivery_alive s c R C Hh (ex_intro _ t Rt)) as [_ Hin]. split; [exact Hin|].
  destruct (deliver_cancels_reach s c R Hin) as [Req _]. fold s1 in Req.
  assert (Tk : takes_request s t).
  { split; [exact Hm|]. split; [now left|]. now rewrite Hw. }
  pose proof (Req t Rt Tk) as Rq.
  pose proof (run_deliver_task_core s c t Hin) as Ec. fold s1 in Ec.
  assert (Hw1 : k_waiter (tasks s1 t) = Some f) by (rewrite (tcore_waiter _ _ Ec); exact Hw).
  destruct Rq as [[_ [_ Hn]]|[f' [Hm1 [Hw' [Hf Hr]]]]]; [congruence|].
  rewrite Hw1 in Hw'. inversion Hw'; subst f'. split; [exact Hr|].
  cbn [step actor]. rewrite (run_handle_in s1 _ Hr).
  apply cancelled_wait_raises_core; cbn [tasks futs set_ready dequeue]; try assumption.
  rewrite (tcore_ctl _ _ Ec). exact Hctl.
Qed.

(* the same for a task suspended in a bare yield (checkpoint, the checkpoint_if_cancelled spin loop): the
   request is recorded in the task (_must_cancel) and its scheduled step raises it -- ckif_spin_terminates *)
Theorem ckif_spin_terminates_partial s t c :
  reach_ok s -> s_cancelled (scopes s c) = true -> s_host (scopes s c) <> None -> reaches s t c ->
  k_must (tasks s t) = false -> k_started (tasks s t) = true -> k_waiter (tasks s t) = None ->
  In (HStep t) (ready s) ->
  match k_ctl (tasks s t) with CYield YCheckpoint | CYield YCkIf => True | _ => False end ->
  let s1 := fst (step s (ARun (HDeliver c))) in
  In (HDeliver c) (ready s) /\
  In (HStep t) (ready s1) /\
  snd (step s1 (ARun (HStep t))) = RExc (ECancel (S c)).
Proof.
  intros R C Hh Rt Hm Hs Hw Hst Hctl s1.
  destruct (delivery_alive s c R C Hh (ex_intro _ t Rt)) as [_ Hin]. split; [exact Hin|].
  destruct (deliver_cancels_reach s c R Hin) as [Req _]. fold s1 in Req.
  assert (Tk : takes_request s t).
  { split; [exact Hm|]. split; [now left|]. now rewrite Hw. }
  pose proof (Req t Rt Tk) as Rq.
  pose proof (run_deliver_task_core s c t Hin) as Ec. fold s1 in Ec.
  assert (Hw1 : k_waiter (tasks s1 t) = None) by (rewrite (tcore_waiter _ _ Ec); exact Hw).
  destruct Rq as [[Hm1 [Hmsg _]]|[f' [_ [Hw' _]]]]; [|congruence].
  assert (Hst1 : In (HStep t) (ready s1)).
  { unfold s1. cbn [step actor]. rewrite (run_handle_in s _ Hin). cbn [fst ready set_running].
    destruct (kf_ready _ _ (kframe_deliver_top (set_running (dequeue s (HDeliver c)) None) c)) as [l [El _]].
    rewrite El. apply in_or_app. left. cbn. apply in_remove_first_ne; [exact Hst|discriminate]. }
  split; [exact Hst1|].
  cbn [step actor]. rewrite (run_handle_in s1 _ Hst1).
  apply resume_raises; cbn [tasks set_ready dequeue].
  - rewrite (tcore_ctl _ _ Ec). destruct (k_ctl (tasks s t)) as [| |[| |c0]| | | | | | |]; try contradiction; exact I.
  - unfold incoming. cbn [snd tasks set_ready dequeue]. now rewrite Hm1, Hmsg.
Qed.

(* non-vacuity of the latency statements: the task cancels its own scope while running (the delivery skips it
   and re-schedules itself), then suspends in a checkpoint *)
Definition ex_ops2 : list op := [ANewRoot; ANewScope 1 None false; AEnter 1 1; ACancel 1 1; AYield 1].

Example ex_latency_premises :
  let s := final step init ex_ops2 in
  ops_ok init ex_ops2 = true /\
  s_cancelled (scopes s 1) = true /\ s_host (scopes s 1) = Some 1 /\
  k_must (tasks s 1) = false /\ k_started (tasks s 1) = true /\ k_waiter (tasks s 1) = None /\
  In (HStep 1) (ready s) /\ k_ctl (tasks s 1) = CYield YCheckpoint /\ In (HDeliver 1) (ready s) /\
  snd (step (fst (step s (ARun (HDeliver 1)))) (ARun (HStep 1))) = RExc (ECancel 2).
Proof. vm_compute. repeat split; auto. Qed.

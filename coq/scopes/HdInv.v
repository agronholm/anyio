(* A delivery callback in the ready queue belongs to a cancelled, allocated scope (otherwise a stale callback of
   a scope that is not cancelled would create a debt nobody pays, see DebtInv).  Carried along: parents, hosts and
   current scopes are allocated scope ids.  Here: preservation by the building blocks of a step; TreeStep walks
   over the ops. *)
From Coq Require Import ZArith Lia.
From AV Require Import Base Machine MachineFacts ScopeFrames TreeInv DeliverAlive PotentialInv DebtInv.

Record HDI (s : st) : Prop := {
  hd_c : forall c, In (HDeliver c) (ready s) -> s_cancelled (scopes s c) = true /\ c < nscope s;
  hd_p : forall x p, s_parent (scopes s x) = Some p -> p < nscope s;
  hd_h : forall c, s_host (scopes s c) <> None -> c < nscope s;
  hd_k : forall t x, k_cur (tasks s t) = Some x -> x < nscope s
}.

Definition hstep (a b : st) : Prop := HDI a -> HDI b.

(* no new delivery callback *)
Definition rdq (a b : st) : Prop := forall c, In (HDeliver c) (ready b) -> In (HDeliver c) (ready a).
Lemma rdq_refl a : rdq a a. Proof. intros c H; exact H. Qed.
Lemma rdq_trans a b c : rdq a b -> rdq b c -> rdq a c.
Proof. intros H1 H2 x H. apply H1, H2, H. Qed.
Lemma rdq_same a b : ready b = ready a -> rdq a b.
Proof. intros E c. now rewrite E. Qed.
Lemma rdq_grow (P : handle -> Prop) a b :
  (exists l, ready b = ready a ++ l /\ Forall P l) -> (forall c, ~ P (HDeliver c)) -> rdq a b.
Proof.
  intros [l [E F]] HP c H. rewrite E in H. apply in_app_or in H. destruct H as [H|H]; [exact H|].
  rewrite Forall_forall in F. now apply F, HP in H.
Qed.

Lemma rdq_soon a b h : ready b = ready a ++ [h] -> (forall c, h <> HDeliver c) -> rdq a b.
Proof.
  intros E Hh. apply (rdq_grow (fun x => x = h)); [exists [h]; split; [exact E|now repeat constructor]|].
  intros c Hc. now apply (Hh c).
Qed.

Lemma rdq_quiet t a b : quiet t a b -> rdq a b.
Proof. intros H. apply (rdq_grow wake_or_step); [apply H|intros c []]. Qed.

Lemma rdq_task_cancel s t o : rdq s (task_cancel s t o).
Proof.
  unfold task_cancel. destruct (k_done (tasks s t)); [apply rdq_refl|].
  destruct (k_waiter (tasks s t)) as [f|]; [|now apply rdq_same].
  destruct (fut_pending _ f); [|now apply rdq_same].
  eapply rdq_trans; [|apply (rdq_quiet 0), quiet_fut_complete]. now apply rdq_same.
Qed.

Lemma rdq_finish_task s t o : rdq s (finish_task s t o).
Proof.
  unfold finish_task. destruct (k_group (tasks s t)); [|now apply rdq_same].
  apply (rdq_soon _ _ (HTaskDone t)); [reflexivity|discriminate].
Qed.

Lemma rdq_timer_cancel s tm : rdq s (timer_cancel s tm).
Proof. intros c H. cbn in H. apply filter_In in H. apply H. Qed.

Lemma rdq_cancel_timeout s c : rdq s (cancel_timeout s c).
Proof.
  unfold cancel_timeout. destruct (s_timeout (scopes s c)); [|apply rdq_refl].
  eapply rdq_trans; [apply rdq_timer_cancel|now apply rdq_same].
Qed.

Lemma rdq_tick s dt : rdq s (tick s dt).
Proof.
  intros c H. cbn in H. apply in_app_or in H. destruct H as [H|H]; [exact H|exfalso].
  apply in_map_iff in H. destruct H as [x [E _]]. unfold handle_of_timer in E. destruct (tm_what x); discriminate.
Qed.

Lemma rdq_remove_first s h : rdq s (set_ready s (remove_first h (ready s))).
Proof.
  intros c H. cbn [ready set_ready] in H. revert H. generalize (ready s) as l. induction l as [|x l IH]; cbn [remove_first In]; [auto|].
  destruct (handle_eqb x h); [intros H; now right|]. cbn [In]. intros [H|H]; [now left|right; now apply IH].
Qed.

Lemma HDI_neutral a b :
  HDI a -> treq a b -> (forall x, s_cancelled (scopes a x) = true -> s_cancelled (scopes b x) = true) -> rdq a b -> HDI b.
Proof.
  intros [C P H K] Q M R. constructor.
  - intros c Hc. destruct (C c (R c Hc)) as [C1 C2]. split; [now apply M|now rewrite (tq_nscope _ _ Q)].
  - intros x p. rewrite (tq_parent _ _ Q), (tq_nscope _ _ Q). apply P.
  - intros c. rewrite (tq_host _ _ Q), (tq_nscope _ _ Q). apply H.
  - intros t x. rewrite (tq_cur _ _ Q), (tq_nscope _ _ Q). apply K.
Qed.

Lemma HDI_ssame a b : HDI a -> treq a b -> ssame a b -> rdq a b -> HDI b.
Proof. intros H Q [E _] R. apply (HDI_neutral a b H Q); [|exact R]. intros x. now rewrite E. Qed.

Lemma H_call_soon s h : (forall c, h <> HDeliver c) -> hstep s (call_soon s h).
Proof.
  intros Hh H. apply (HDI_neutral s _ H (treq_call_soon s h)); [auto|now apply (rdq_soon _ _ h)].
Qed.

Lemma HDI_frame a b :
  HDI a -> nscope a <= nscope b ->
  (forall x p, s_parent (scopes b x) = Some p -> s_parent (scopes a x) = Some p \/ p < nscope b) ->
  (forall c, s_host (scopes b c) <> None -> s_host (scopes a c) <> None \/ c < nscope b) ->
  (forall t x, k_cur (tasks b t) = Some x -> k_cur (tasks a t) = Some x \/ x < nscope b) ->
  (forall c, c < nscope a -> s_cancelled (scopes a c) = true -> s_cancelled (scopes b c) = true) ->
  rdq a b -> HDI b.
Proof.
  intros [C P H K] N Fp Fh Fk M R. constructor.
  - intros c Hc. destruct (C c (R c Hc)) as [C1 C2]. split; [now apply M|lia].
  - intros x p Hp. destruct (Fp x p Hp) as [E|E]; [|exact E]. pose proof (P x p E). lia.
  - intros c Hc. destruct (Fh c Hc) as [E|E]; [|exact E]. pose proof (H c E). lia.
  - intros t x Hx. destruct (Fk t x Hx) as [E|E]; [|exact E]. pose proof (K t x E). lia.
Qed.

Lemma H_upd_scope s c g :
  (forall k, s_parent (g k) = s_parent k /\ s_host (g k) = s_host k /\ (s_cancelled k = true -> s_cancelled (g k) = true)) ->
  hstep s (upd_scope s c g).
Proof.
  intros Hg H. apply (HDI_frame s); [exact H|cbn; lia| | | | |now apply rdq_same].
  - intros x p. cbn. unfold upd. destruct (Nat.eqb_spec x c); [subst; rewrite (proj1 (Hg _))|]; auto.
  - intros x. cbn. unfold upd. destruct (Nat.eqb_spec x c); [subst; rewrite (proj1 (proj2 (Hg _)))|]; auto.
  - intros t x. cbn. auto.
  - intros x _. cbn. unfold upd. destruct (Nat.eqb_spec x c); [subst; apply Hg|]; auto.
Qed.

Lemma H_deliver_top s c : s_cancelled (scopes s c) = true -> c < nscope s -> hstep s (deliver_top s c).
Proof.
  intros Hc Ha H.
  apply (deliver_top_closed (fun a b => HDI a /\ s_cancelled (scopes a c) = true /\ c < nscope a ->
                                        HDI b /\ s_cancelled (scopes b c) = true /\ c < nscope b) c);
    [auto|auto| | | |exact (conj H (conj Hc Ha))].
  - intros self a t a' Ht [Da [Ca Aa]]. destruct Ht as [_|_ a1]; [now split|].
    destruct (ss_task_cancel a t (S c)) as [Es En]. fold a1 in Es, En.
    assert (D1 : HDI a1).
    { apply (HDI_neutral a a1 Da (treq_task_cancel a t (S c))); [|apply rdq_task_cancel]. intros x. now rewrite Es. }
    rewrite <- Es in Ca. rewrite <- En in Aa. destruct (opt_eqb _ t); [|now split].
    split; [apply H_upd_scope; [intros k; now repeat split|exact D1]|].
    split; [cbn; unfold upd; now rewrite Nat.eqb_refl|exact Aa].
  - intros a b [Da [Ca Aa]]. split; [apply H_upd_scope; [intros k; now repeat split|exact Da]|].
    split; [cbn; unfold upd; now rewrite Nat.eqb_refl|exact Aa].
  - intros a [Da [Ca Aa]]. split; [|now split]. destruct Da as [C P Hh K]. constructor; auto.
    intros x Hx. cbn in Hx. apply in_app_or in Hx. destruct Hx as [Hx|[Hx|[]]]; [now apply C|].
    inversion Hx; subst x. now split.
Qed.

Lemma H_restart s x : (forall c, x = Some c -> c < nscope s) -> hstep s (restart s x).
Proof.
  intros Hx H.
  destruct (restart_cases (fun c y => y < nscope s -> c < nscope s) s x) as [->|[y [c [Ex [V [C [_ ->]]]]]]];
    [auto| |exact H|].
  - intros c y p _ _ Ep Vp _. apply Vp. now apply (hd_p _ H y p).
  - apply H_deliver_top; [exact C|now apply V, Hx|exact H].
Qed.

Lemma H_scope_cancel s c b : hstep s (scope_cancel s c b).
Proof.
  apply (scope_cancel_closed hstep c (fun a H => H) (fun a x z F G H => G (F H)) b).
  - intros a H. apply (HDI_neutral a _ H (treq_cancel_timeout a c)); [|apply rdq_cancel_timeout].
    intros x. now rewrite (vw_cancelled _ _ (dq_scope _ _ (dq_cancel_timeout a c) x)).
  - intros a. apply H_upd_scope. intros k; now repeat split.
  - intros a C Hh H. apply H_deliver_top; [exact C|now apply (hd_h _ H)|exact H].
Qed.

Lemma H_scope_timeout s c : hstep s (scope_timeout s c).
Proof.
  intros H. pose proof (treq_scope_timeout s c) as Q. unfold scope_timeout in *.
  destruct (s_deadline (scopes s c)); [|exact H].
  destruct (Z.leb z (now s)); [now apply H_scope_cancel|].
  apply (HDI_neutral s); [exact H|exact Q| |now apply rdq_same].
  intros x. cbn. unfold upd. destruct (Nat.eqb_spec x c); [subst|]; auto.
Qed.

Record hq (a b : st) : Prop := {
  hq_t : treq a b;
  hq_m : forall x, s_cancelled (scopes a x) = true -> s_cancelled (scopes b x) = true;
  hq_r : rdq a b
}.

Lemma hq_refl a : hq a a.
Proof. constructor; [apply treq_refl|auto|apply rdq_refl]. Qed.

Lemma hq_upd_scope s c g :
  (forall k, sc_tree (g k) = sc_tree k) -> (forall k, s_cancelled k = true -> s_cancelled (g k) = true) -> hq s (upd_scope s c g).
Proof.
  intros H1 H2. constructor; [now apply treq_upd_scope| |now apply rdq_same].
  intros x. cbn. unfold upd. destruct (Nat.eqb_spec x c); [subst|]; auto.
Qed.

Lemma H_enter s c t : c < nscope s -> hstep s (fst (scope_enter s c t)).
Proof.
  intros Ac H. destruct (s_active (scopes s c)) eqn:Ea; [now rewrite (scope_enter_fail s c t Ea)|].
  rewrite (scope_enter_eq s c t Ea).
  assert (H3 : HDI (enter_s3 s c t)).
  { unfold enter_s3. set (par := k_cur (tasks s t)).
    set (s1 := upd_scope s c (fun x => sc_parent par (sc_tasks (add t (s_tasks x)) (sc_host (Some t) x)))).
    set (s2 := upd_task s1 t (tk_cur (Some c))).
    assert (H2 : HDI s2).
    { apply (HDI_frame s); [exact H|cbn; lia| | | | |now apply rdq_same].
      - intros x p. unfold s2, s1. cbn. unfold upd. destruct (Nat.eqb_spec x c) as [->|Hx]; [|auto].
        cbn. intros E. right. unfold par in E. now apply (hd_k _ H t p).
      - intros x. unfold s2, s1. cbn. unfold upd. destruct (Nat.eqb_spec x c) as [->|Hx]; [|auto]. intros _. now right.
      - intros t' x. unfold s2, s1. cbn. unfold upd. destruct (Nat.eqb_spec t' t) as [->|Ht]; [|auto].
        cbn. intros E. inversion E; subst x. now right.
      - intros x _. unfold s2, s1. cbn. unfold upd. destruct (Nat.eqb_spec x c) as [->|Hx]; auto. }
    destruct par as [p|]; [|exact H2]. apply H_upd_scope; [|exact H2]. intros k; now repeat split. }
  assert (H5 : HDI (enter_s5 s c t)).
  { unfold enter_s5. apply H_upd_scope; [intros k; now repeat split|]. now apply H_scope_timeout. }
  destruct (s_cancelled (scopes (enter_s5 s c t) c)) eqn:Ec; [|exact H5].
  apply H_deliver_top; [exact Ec| |exact H5].
  unfold enter_s5. cbn [nscope upd_scope set_scopes].
  rewrite (tq_nscope _ _ (treq_scope_timeout (enter_s3 s c t) c)). unfold enter_s3.
  destruct (k_cur (tasks s t)); exact Ac.
Qed.

Lemma H_new_scope s d sh : hstep s (fst (new_scope s d sh)).
Proof.
  intros H. apply (HDI_frame s); [exact H|cbn; lia| | | | |now apply rdq_same].
  - intros x p. cbn. unfold upd. destruct (Nat.eqb_spec x (nscope s)); [cbn; discriminate|auto].
  - intros x. cbn. unfold upd. destruct (Nat.eqb_spec x (nscope s)); [cbn; intros E; now elim E|auto].
  - intros t x. cbn. auto.
  - intros x Hx. cbn. unfold upd. destruct (Nat.eqb_spec x (nscope s)); [lia|auto].
Qed.

Lemma iter_uncancel_ready n t : forall a, ready (iter n (fun a => task_uncancel a t) a) = ready a.
Proof. induction n as [|n IH]; intros a; cbn [iter]; [reflexivity|]. now rewrite IH. Qed.

Lemma iter_uncancel_cur n t : forall a x, k_cur (tasks (iter n (fun a => task_uncancel a t) a) x) = k_cur (tasks a x).
Proof.
  induction n as [|n IH]; intros a x; cbn [iter]; [reflexivity|]. rewrite IH.
  unfold task_uncancel. cbn. unfold upd. destruct (Nat.eqb_spec x t); [subst|]; reflexivity.
Qed.

Lemma H_exit s c t exc : hstep s (fst (scope_exit s c t exc)).
Proof.
  intros H. destruct (exit_ok_dec s c t) as [Hok|Hno]; [|now rewrite (scope_exit_fail s c t exc Hno)].
  destruct (scope_exit_shape s c t exc Hok) as [s6 [x [X ->]]]. cbn [fst].
  change (exit_links s c t) with (exit_struct s c t) in X.
  set (par := s_parent (scopes s c)) in *.
  assert (H4 : HDI (exit_struct s c t)).
  { apply (HDI_frame s); [exact H|rewrite (in_nscope _ _ (exit_struct_inert s c t)); lia| | | | |].
    - intros y p. rewrite (vw_parent _ _ (exit_struct_view s c t y)). auto.
    - intros y. rewrite (vw_host _ _ (exit_struct_view s c t y)). auto.
    - intros t' y. rewrite exit_struct_task. destruct (Nat.eqb_spec t' t) as [->|Ht]; [|auto].
      intros E. right. rewrite (in_nscope _ _ (exit_struct_inert s c t)). apply (hd_p _ H c y). exact E.
    - intros y _. now rewrite (vw_cancelled _ _ (exit_struct_view s c t y)).
    - intros y Hy. apply (rdq_cancel_timeout (upd_scope s c (sc_active false)) c).
      unfold exit_struct in Hy. fold par in Hy. destruct par; exact Hy. }
  set (s5 := restart (exit_struct s c t) par) in *.
  assert (H5 : HDI s5).
  { apply H_restart; [|exact H4]. intros p Hp. rewrite (in_nscope _ _ (exit_struct_inert s c t)).
    now apply (hd_p _ H c p). }
  clearbody s5.
  (* every outcome differs from s5 in the debts, the counter of t, caught, and the host of c only *)
  assert (Tail : forall sB, nscope sB = nscope s5 -> ready sB = ready s5 ->
             (forall y, s_parent (scopes sB y) = s_parent (scopes s5 y) /\ s_host (scopes sB y) = s_host (scopes s5 y) /\
                        s_cancelled (scopes sB y) = s_cancelled (scopes s5 y)) ->
             (forall y, k_cur (tasks sB y) = k_cur (tasks s5 y)) ->
             HDI (upd_scope sB c (sc_host None))).
  { intros sB En Er Es Ek. apply (HDI_frame s5); [exact H5|cbn; lia| | | | |].
    - intros y p. cbn. unfold upd. destruct (Nat.eqb_spec y c) as [->|Hy]; cbn; rewrite (proj1 (Es _)); auto.
    - intros y. cbn. unfold upd. destruct (Nat.eqb_spec y c) as [->|Hy]; cbn; [intros E; now elim E|].
      rewrite (proj1 (proj2 (Es _))). auto.
    - intros t' y. cbn. rewrite Ek. auto.
    - intros y _. cbn. unfold upd. destruct (Nat.eqb_spec y c) as [->|Hy]; cbn; rewrite (proj2 (proj2 (Es _))); auto.
    - intros y. cbn. now rewrite Er. }
  destruct X as [x _ sA|Hb Hp|p Hb Epar Ehp Hn].
  - pose proof (iter_uncancel_spec (s_pending (scopes s5 c)) t s5) as [U1 [U2 _]].
    assert (TA : forall g, (forall k, s_parent (g k) = s_parent k /\ s_host (g k) = s_host k /\ s_cancelled (g k) = s_cancelled k) ->
               HDI (upd_scope (upd_scope sA c g) c (sc_host None))).
    { intros g Hg. apply Tail; [exact U2|apply iter_uncancel_ready| |intros y; cbn; apply iter_uncancel_cur].
      intros y. unfold sA. cbn [scopes upd_scope set_scopes]. rewrite U1. unfold upd.
      destruct (Nat.eqb_spec y c) as [->|Hy]; [|now repeat split]. rewrite ?Nat.eqb_refl.
      destruct (Hg (sc_pending 0 (scopes s5 c))) as [G1 [G2 G3]]. now rewrite G1, G2, G3. }
    destruct x; [apply TA; intros k; now repeat split| |apply TA; intros k; now repeat split].
    apply Tail; [exact U2|apply iter_uncancel_ready| |intros y; cbn; apply iter_uncancel_cur].
    intros y. unfold sA. cbn [scopes upd_scope set_scopes]. rewrite U1. unfold upd.
    destruct (Nat.eqb_spec y c) as [->|Hy]; now repeat split.
  - apply Tail; auto.
  - apply Tail; [reflexivity|reflexivity| |reflexivity].
    intros y. cbn. unfold upd. destruct (Nat.eqb_spec y c) as [->|Hy]; [rewrite ?Nat.eqb_refl|];
      try (destruct (Nat.eqb_spec c p)); try (destruct (Nat.eqb_spec y p)); try subst; now repeat split.
Qed.

Lemma H_spawn s g sf : g_scope (groups s g) < nscope s -> hstep s (fst (spawn_task s g sf)).
Proof.
  intros Ag H. rewrite spawn_task_eq. cbn [fst].
  pose proof (H_new_scope s None false H) as H1. set (s1 := fst (new_scope s None false)) in *.
  assert (N1 : nscope s1 = S (nscope s)) by reflexivity.
  assert (H4 : HDI (spawn_struct s g sf)).
  { apply (HDI_frame s1); [exact H1|unfold spawn_struct; cbn; lia| | | | |].
    - intros x p. unfold spawn_struct. fold s1. cbn. unfold upd.
      destruct (Nat.eqb_spec x (g_scope (groups s g))) as [->|Hx]; cbn; auto.
    - intros x. unfold spawn_struct. fold s1. cbn. unfold upd.
      destruct (Nat.eqb_spec x (g_scope (groups s g))) as [->|Hx]; cbn; auto.
    - intros t x. unfold spawn_struct. fold s1. cbn. unfold upd. destruct (Nat.eqb_spec t (ntask s)) as [->|Ht]; [|auto].
      cbn. intros E. inversion E; subst x. right. lia.
    - intros x _. unfold spawn_struct. fold s1. cbn. unfold upd.
      destruct (Nat.eqb_spec x (g_scope (groups s g))) as [->|Hx]; cbn; auto.
    - apply rdq_same. reflexivity. }
  assert (N4 : nscope (spawn_struct s g sf) = S (nscope s)) by reflexivity.
  apply H_call_soon; [discriminate|].
  apply H_restart; [|exact H4]. intros c Hc. inversion Hc; subst c. lia.
Qed.

Lemma H_same_fields a b :
  HDI a -> nscope b = nscope a -> scopes b = scopes a -> (forall t, k_cur (tasks b t) = k_cur (tasks a t)) ->
  rdq a b -> HDI b.
Proof.
  intros H N Es Et R. apply (HDI_frame a); [exact H|lia| | | | |exact R].
  - intros x p. rewrite Es. auto.
  - intros x. rewrite Es. auto.
  - intros t x. rewrite Et. auto.
  - intros x _. now rewrite Es.
Qed.

Lemma H_group_new s : hstep s (gnew_struct s).
Proof.
  intros H. apply (H_same_fields (fst (new_scope s None false)));
    [now apply H_new_scope|reflexivity|reflexivity|reflexivity|now apply rdq_same].
Qed.

Lemma H_new_root s : Tree s -> hstep s (root_struct s).
Proof.
  intros T H. apply (H_same_fields s); [exact H|reflexivity|reflexivity| |now apply rdq_same].
  intros t. unfold root_struct. cbn. unfold upd. destruct (Nat.eqb_spec t (ntask s)) as [->|Ht]; [|reflexivity].
  cbn. destruct (k_cur (tasks s (ntask s))) as [x|] eqn:E; [|reflexivity].
  exfalso. pose proof (tr_cur_alloc _ T _ _ E) as A. unfold alloc_t in A. lia.
Qed.

Lemma H_set_shield s c (b : bool) :
  hstep s (if b then upd_scope s c (sc_shield true)
           else restart (upd_scope s c (sc_shield false)) (s_parent (scopes (upd_scope s c (sc_shield false)) c))).
Proof.
  intros H.
  assert (H1 : forall v, HDI (upd_scope s c (sc_shield v))) by (intros v; apply H_upd_scope; [intros k; now repeat split|exact H]).
  destruct b; [apply H1|]. apply H_restart; [|apply H1]. intros p Hp. now apply (hd_p _ (H1 false) c p).
Qed.

Lemma H_td_struct s t g : hstep s (td_struct s t g).
Proof.
  intros H. change (td_struct s t g) with (done_struct s t g).
  apply (HDI_frame s); [exact H|rewrite done_struct_rest; cbn; lia| | | | |rewrite done_struct_rest; now apply rdq_same].
  - intros x p. rewrite done_struct_scopes. destruct (opt_eqb _ x); auto.
  - intros x. rewrite done_struct_scopes. destruct (opt_eqb _ x); auto.
  - intros t' x. rewrite done_struct_tasks. destruct (Nat.eqb t' t); [discriminate|auto].
  - intros x _. rewrite done_struct_scopes. destruct (opt_eqb _ x); auto.
Qed.

Lemma HDI_init : HDI init.
Proof. constructor; cbn; [intros c []|discriminate|intros c H; now elim H|discriminate]. Qed.


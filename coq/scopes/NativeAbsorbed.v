(* Known findings F19 (C05), F25 (C04) and F24 (C01), as kernel-checked witnesses on the S machine.  First F19.

   The full clause - "every native cancellation request made on a task is eventually raised in that task, or is
   still pending" - is FALSE of the faithful model (and of the code, see corpus/C05/f19_*.json, which the harness
   replays against the real implementation on every run).  History: the task sleeps inside scope 1; the scope is
   cancelled and its delivery cancels the task's wait (the wake-up is now in the ready queue); a native
   Task.cancel() arrives before the task runs (it can only set _must_cancel, which the wake-up clears without
   changing the exception: asyncio keeps the CancelledError of the already cancelled wait); the task receives only
   the scope's own cancellation and the scope absorbs it at exit.  Afterwards the native request is still counted
   (cancelling() = 1, it was 0 on entry), nothing is pending (_must_cancel = false, no exception held), no result
   of any step was a native cancellation, and the task checkpoints undisturbed. *)
From AV Require Import Base Machine.
Local Open Scope Z_scope.

Definition f19_case : list Z :=
  [30; 0; 0; 0;  0; 1; -1; 0;  1; 1; 1; 0;  17; 1; -1; 0;  32; 1; 0; 0;  35; 1; 0; 0;  31; 1; 0; 0;  34; 1; 0; 0;
   2; 1; 1; 0;  14; 1; 0; 0;  33; 1; 0; 0].

Definition f19_ops : list op := ops_of_flat init f19_case (length f19_case).

Definition is_native_result (r : res) : bool :=
  match r with RExc (ECancel O) => true | _ => false end.

Fixpoint results (s : st) (ops : list op) : list res :=
  match ops with
  | [] => []
  | o :: r => let '(s1, x) := step s o in x :: results s1 r
  end.

Definition requests_native (o : op) : bool := match o with ANativeCancel _ => true | _ => false end.

Lemma native_request_absorbed_witness :
  let s := final step init f19_ops in
  existsb requests_native f19_ops = true /\
  existsb is_native_result (results init f19_ops) = false /\
  k_ncancel (tasks s 1%nat) = 1%nat /\ k_must (tasks s 1%nat) = false /\ k_held (tasks s 1%nat) = None /\
  k_ctl (tasks s 1%nat) = CIdle /\
  s_caught (scopes s 1%nat) = true /\ s_active (scopes s 1%nat) = false /\ s_pending (scopes s 1%nat) = 0%nat.
Proof. vm_compute. repeat split; reflexivity. Qed.

(* Known finding F25 (C04): a shield raised after the request was placed does not retract it.
   Task 1 sleeps in scope 2 inside scope 1; scope 1 is cancelled (the delivery cancels the wait at once); task 2
   then sets shield=True on scope 2; when task 1 runs it receives the cancellation of scope 1 although its current
   scope is shielded and not effectively cancelled. *)
Definition f25_case : list Z :=
  [30; 0; 0; 0;  0; 1; -1; 0;  1; 1; 1; 0;  0; 1; -1; 0;  1; 1; 2; 0;  17; 1; -1; 0;  32; 1; 0; 0;  30; 0; 0; 0;
   4; 2; 2; 1;  34; 1; 0; 0].
Definition f25_ops : list op := ops_of_flat init f25_case (length f25_case).

Lemma shield_raised_after_request_witness :
  let pre := final step init (removelast f25_ops) in
  k_cur (tasks pre 1%nat) = Some 2%nat /\ s_shield (scopes pre 2%nat) = true /\ eff_cancelled pre 2%nat = false /\
  last (results init f25_ops) RNone = RExc (ECancel 2%nat).
Proof. vm_compute. repeat split; reflexivity. Qed.

(* Known finding F24 (C01): a child natively cancelled before its first step.  After the group block has been left
   (g_left) the child is done, yet its handle's finished event was never set and no outcome was recorded: the
   handle reports PENDING for ever. *)
Definition f24_case : list Z :=
  [30; 0; 0; 0;  6; 1; 0; 0;  7; 1; 1; 0;  9; 1; 1; 0;  31; 2; 0; 0;  33; 2; 0; 0;  36; 2; 0; 0;  34; 1; 0; 0;
   8; 1; 1; 0;  33; 1; 0; 0].
Definition f24_ops : list op := ops_of_flat init f24_case (length f24_case).

Lemma never_ran_handle_pending_witness :
  let s := final step init f24_ops in
  g_left (groups s 1%nat) = true /\ k_ctl (tasks s 2%nat) = CDone /\
  e_set (events s (k_hevent (tasks s 2%nat))) = false /\ k_hexc (tasks s 2%nat) = None /\ k_hret (tasks s 2%nat) = None.
Proof. vm_compute. repeat split; reflexivity. Qed.

(* Stability of task facts across one step: for an allocated task the group, handle scope, handle event and
   start future never change; done / task_done-ran / final are never retracted. *)
From AV Require Import Base Machine GroupInv GroupInv2 GroupInv3 GroupInv4 GroupInv5 GroupInv9 GroupWalk.

Definition tk_stable (k k' : task) : Prop :=
  k_group k' = k_group k /\ k_hscope k' = k_hscope k /\ k_hevent k' = k_hevent k /\ k_startfut k' = k_startfut k /\
  (forall o, k_done k = Some o -> k_done k' = Some o) /\ (k_tdran k = true -> k_tdran k' = true) /\
  (forall o, k_final k = Some o -> k_final k' = Some o).

Definition tstab (s s' : st) : Prop :=
  (ntask s <= ntask s' /\ ngroup s <= ngroup s') /\ forall t, t < ntask s -> tk_stable (tasks s t) (tasks s' t).

Lemma tk_stable_refl k : tk_stable k k.
Proof. unfold tk_stable. tauto. Qed.

Lemma tk_stable_trans a b c : tk_stable a b -> tk_stable b c -> tk_stable a c.
Proof.
  intros [A1 [A2 [A3 [A4 [A5 [A6 A7]]]]]] [B1 [B2 [B3 [B4 [B5 [B6 B7]]]]]].
  unfold tk_stable. refine (conj _ (conj _ (conj _ (conj _ (conj _ (conj _ _)))))); try congruence; auto.
Qed.

Lemma tstab_refl s : tstab s s.
Proof. split; [lia|]. intros t _. apply tk_stable_refl. Qed.

Lemma tstab_ngroup s s' : tstab s s' -> ngroup s <= ngroup s'.
Proof. intros [[_ H] _]. exact H. Qed.

Lemma tstab_trans a b c : tstab a b -> tstab b c -> tstab a c.
Proof.
  intros [[A1 A1'] A2] [[B1 B1'] B2]. split; [lia|]. intros t Ht.
  eapply tk_stable_trans; [apply A2; exact Ht|apply B2; lia].
Qed.

Lemma tstab_eq s s' : tasks s' = tasks s -> ntask s' = ntask s -> ngroup s <= ngroup s' -> tstab s s'.
Proof. intros E1 E2 E3. split; [lia|]. intros t _. rewrite E1. apply tk_stable_refl. Qed.

Lemma tstab_kstar C T s s' : kstar C T s s' -> tstab s s'.
Proof.
  intros H. pose proof (kframe_kstar _ _ _ _ H) as F. split; [rewrite (fr_ntask _ _ _ _ F), (fr_ngroup _ _ _ _ F); lia|].
  intros t _. pose proof (tview_inv _ _ (fr_tv _ _ _ _ F t)) as V.
  destruct V as [_ [V2 [_ [V4 [V5 [V6 [_ [_ [V9 [V10 V11]]]]]]]]]].
  unfold tk_stable. rewrite V2, V4, V5, V6, V9, V10, V11. tauto.
Qed.

Lemma tstab_upd_task s t g : tk_stable (tasks s t) (g (tasks s t)) -> tstab s (upd_task s t g).
Proof.
  intros Hg. split; [cbn; lia|]. intros x _. cbn [upd_task set_tasks tasks]. unfold upd.
  destruct (Nat.eqb_spec x t); [subst; apply Hg|apply tk_stable_refl].
Qed.

(* a transformer of task records that keeps the stable facts *)
Definition tk_keeps (g : task -> task) : Prop := forall k, tk_stable k (g k).

Lemma keeps_hres a b : tk_keeps (tk_hres a b). Proof. intros k. unfold tk_stable. cbn. tauto. Qed.

Lemma keeps_fin d : tk_keeps (fin_rec d) -> True. Proof. auto. Qed.

(* the two updates that set an outcome act on a task that has none: the acting task is not done before its
   coroutine ends, and has not ended before *)
Lemma tstab_moves s0 o a : Inv s0 -> moves s0 o a tstab.
Proof.
  intros I0. apply moves_kstar.
  - apply tstab_refl.
  - apply tstab_trans.
  - apply tstab_kstar.
  - intros s g H. apply tstab_upd_task. unfold tk_stable.
    destruct H as [c| | |m|h| | | |raw Hf|raw|d Hd|]; try (cbn; tauto).
    + cbn. rewrite (Hf I0). intuition discriminate.
    + destruct raw; cbn; tauto.
    + cbn. rewrite (Hd I0). intuition discriminate.
  - intros s f x _. apply tstab_eq; [apply fc_tasks|apply fc_ntask|rewrite fc_ngroup; lia].
  - intros s k ev _. split; [cbn; lia|]. intros t Ht. unfold talloc. cbn [tasks].
    rewrite upd_other; [apply tk_stable_refl|lia].
  - intros s s' []; apply tstab_eq; try reflexivity. cbn. lia.
Qed.

(* C01: stability. For every already allocated task: its group, handle scope, finished event and start future
   never change; once done / task_done-ran / coroutine-ended, always so (with the same outcome) *)
Theorem task_facts_stable s o : reach s -> tstab s (fst (step s o)).
Proof. intros R. apply walk. intros a. apply tstab_moves, reachable, R. Qed.

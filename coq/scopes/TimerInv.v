(* C06, invariant I3 (one live timer per armed scope, no stray timers, never missed), proved for EVERY op
   sequence through the generic step walk of ChainWalk.v. *)
From AV Require Import Base Machine MachineFacts ChainFrame ChainThms ChainWalk.
From Coq Require Import ZifyBool.

Definition tcount (tm : tmid) (l : list timer) : nat := length (filter (fun x => Nat.eqb (tm_id x) tm) l).
Definition rcount (tm : tmid) (l : list handle) : nat := length (filter (is_timer_handle tm) l).
(* number of live loop entries carrying timer id tm: still in the timer heap, or fired and in the ready queue *)
Definition live (s : st) (tm : tmid) : nat := tcount tm (timers s) + rcount tm (ready s).

Lemma tcount_app tm l1 l2 : tcount tm (l1 ++ l2) = tcount tm l1 + tcount tm l2.
Proof. unfold tcount. now rewrite filter_app, app_length. Qed.

Lemma rcount_app tm l1 l2 : rcount tm (l1 ++ l2) = rcount tm l1 + rcount tm l2.
Proof. unfold rcount. now rewrite filter_app, app_length. Qed.

Lemma tcount_cons tm x l : tcount tm (x :: l) = (if Nat.eqb (tm_id x) tm then 1 else 0) + tcount tm l.
Proof. unfold tcount. cbn [filter]. destruct (Nat.eqb (tm_id x) tm); reflexivity. Qed.

Lemma rcount_cons tm h l : rcount tm (h :: l) = (if is_timer_handle tm h then 1 else 0) + rcount tm l.
Proof. unfold rcount. cbn [filter]. destruct (is_timer_handle tm h); reflexivity. Qed.

Lemma tcount_zero_notin tm l : tcount tm l = 0 -> forall x, In x l -> tm_id x <> tm.
Proof.
  induction l as [|y l IH]; intros H x Hx; [destruct Hx|]. rewrite tcount_cons in H.
  destruct (Nat.eqb_spec (tm_id y) tm) as [E|E]; [discriminate|]. destruct Hx as [->|Hx]; [exact E|]. apply IH; auto.
Qed.

Lemma tcount_in tm l x : In x l -> tm_id x = tm -> 1 <= tcount tm l.
Proof.
  induction l as [|y l IH]; intros Hx E; [destruct Hx|]. rewrite tcount_cons. destruct Hx as [->|Hx].
  - rewrite E, Nat.eqb_refl. lia.
  - specialize (IH Hx E). lia.
Qed.

Lemma rcount_in tm l h : In h l -> is_timer_handle tm h = true -> 1 <= rcount tm l.
Proof.
  induction l as [|y l IH]; intros Hx E; [destruct Hx|]. rewrite rcount_cons. destruct Hx as [->|Hx].
  - rewrite E. lia.
  - specialize (IH Hx E). lia.
Qed.

Lemma tcount_filter_ne tm tm' l :
  tcount tm' (filter (fun x => negb (Nat.eqb (tm_id x) tm)) l) = if Nat.eqb tm' tm then 0 else tcount tm' l.
Proof.
  induction l as [|y l IH]; cbn [filter]; [destruct (Nat.eqb tm' tm); reflexivity|].
  destruct (Nat.eqb_spec (tm_id y) tm) as [E|E]; cbn [negb]; rewrite ?tcount_cons, IH;
    destruct (Nat.eqb_spec tm' tm) as [E2|E2]; try reflexivity.
  - subst. destruct (Nat.eqb_spec (tm_id y) tm'); [congruence|reflexivity].
  - subst. destruct (Nat.eqb_spec (tm_id y) tm); [contradiction|reflexivity].
Qed.

Lemma rcount_filter_ne tm tm' l :
  rcount tm' (filter (fun h => negb (is_timer_handle tm h)) l) = if Nat.eqb tm' tm then 0 else rcount tm' l.
Proof.
  induction l as [|y l IH]; cbn [filter]; [destruct (Nat.eqb tm' tm); reflexivity|].
  assert (K : is_timer_handle tm y = true -> is_timer_handle tm' y = Nat.eqb tm' tm).
  { destruct y; cbn; try discriminate; intros H; apply Nat.eqb_eq in H; subst; apply Nat.eqb_sym. }
  destruct (is_timer_handle tm y) eqn:E; cbn [negb]; rewrite ?rcount_cons, IH.
  - rewrite (K eq_refl). destruct (Nat.eqb tm' tm); reflexivity.
  - destruct (Nat.eqb_spec tm' tm) as [E2|E2]; [|reflexivity]. subst. now rewrite E.
Qed.

Lemma rcount_remove_first_le tm h l : rcount tm (remove_first h l) <= rcount tm l.
Proof.
  induction l as [|y l IH]; cbn [remove_first]; [lia|]. destruct (handle_eqb y h); rewrite !rcount_cons; lia.
Qed.

(* removing one occurrence of a timer handle with id tm lowers its count *)
Lemma rcount_remove_first_in tm h l :
  In h l -> is_timer_handle tm h = true -> S (rcount tm (remove_first h l)) = rcount tm l.
Proof.
  intros Hin Hh. induction l as [|y l IH]; [destruct Hin|]. cbn [remove_first].
  destruct (handle_eqb y h) eqn:E.
  - apply handle_eqb_eq in E. subst y. rewrite rcount_cons, Hh. lia.
  - destruct Hin as [->|Hin]; [rewrite handle_eqb_refl in E; discriminate|].
    rewrite !rcount_cons, <- (IH Hin). lia.
Qed.

(* the timer handles are all that counts *)
Lemma rcount_ths tm l : rcount tm (ths l) = rcount tm l.
Proof.
  induction l as [|y l IH]; [reflexivity|]. cbn [ths filter]. fold (ths l).
  destruct (is_th y) eqn:E; rewrite ?rcount_cons, IH; [reflexivity|].
  destruct y; cbn in E; try discriminate; reflexivity.
Qed.

Lemma in_ths c tm l : In (HTimeout c tm) (ths l) <-> In (HTimeout c tm) l.
Proof. unfold ths. rewrite filter_In. cbn. tauto. Qed.

(* insertion sort of the due timers *)
Lemma tcount_insert_timer tm x l : tcount tm (insert_timer x l) = tcount tm (x :: l).
Proof.
  induction l as [|z l IH]; cbn [insert_timer]; [reflexivity|].
  destruct (Z.ltb (tm_when x) (tm_when z)); [reflexivity|]. rewrite !tcount_cons, IH, tcount_cons. lia.
Qed.

Lemma sort_timers_acc l : forall acc,
  (forall y, In y (fold_left (fun a x => insert_timer x a) l acc) <-> In y l \/ In y acc) /\
  (forall tm, tcount tm (fold_left (fun a x => insert_timer x a) l acc) = tcount tm l + tcount tm acc).
Proof.
  induction l as [|x l IH]; intros acc; cbn [fold_left].
  - split; [intros y; cbn; tauto|intros tm; reflexivity].
  - destruct (IH (insert_timer x acc)) as [H1 H2]. split.
    + intros y. rewrite H1, in_insert_timer. cbn [In]. intuition auto.
    + intros tm. rewrite H2, tcount_insert_timer, !tcount_cons. lia.
Qed.

Lemma tcount_sort_timers tm l : tcount tm (sort_timers l) = tcount tm l.
Proof. unfold sort_timers. destruct (sort_timers_acc l []) as [_ H]. rewrite H. cbn. lia. Qed.

Lemma rcount_map_handle tm l : rcount tm (map handle_of_timer l) = tcount tm l.
Proof.
  induction l as [|x l IH]; [reflexivity|]. cbn [map]. rewrite rcount_cons, tcount_cons, IH.
  unfold handle_of_timer. destruct (tm_what x); reflexivity.
Qed.

Lemma tcount_partition tm (p : timer -> bool) l :
  tcount tm (filter p l) + tcount tm (filter (fun x => negb (p x)) l) = tcount tm l.
Proof.
  induction l as [|x l IH]; [reflexivity|]. cbn [filter]. destruct (p x); cbn [negb]; rewrite !tcount_cons; lia.
Qed.

(* global part: timer ids are unique and fresh, handles stored in scopes/sleepers are distinct, ids in range *)
Record GInv (s : st) : Prop := mk_GInv {
  gi_ntimer_pos : 0 < ntimer s;
  gi_nscope_pos : 0 < nscope s;
  gi_uniq : forall tm, live s tm <= 1;
  gi_fresh : forall tm, ntimer s <= tm -> live s tm = 0;
  gi_tm_lt : forall c tm, s_timeout (scopes s c) = Some tm -> 0 < tm < ntimer s;
  gi_inj : forall c c' tm, s_timeout (scopes s c) = Some tm -> s_timeout (scopes s c') = Some tm -> c = c';
  gi_sleep : forall tm, sleep_id s tm -> tm < ntimer s /\ forall c, s_timeout (scopes s c) <> Some tm;
  gi_unalloc : forall c, nscope s <= c -> s_active (scopes s c) = false;
  gi_gscope : forall g, g_scope (groups s g) < nscope s;
  gi_hscope : forall t, k_hscope (tasks s t) < nscope s
}.

(* per scope; `a` stands for the scope's _active flag (a parameter so that __enter__, which arms the timer
   before setting _active, can be handled) *)
Record PInv' (s : st) (c : sid) (a : bool) : Prop := mk_PInv {
  (* no stray timers: every timer / fired timeout callback of c is the one c remembers, set for its deadline *)
  pi_timer : forall x, In x (timers s) -> tm_what x = TScope c ->
             s_timeout (scopes s c) = Some (tm_id x) /\ s_deadline (scopes s c) = Some (tm_when x);
  pi_ready : forall tm, In (HTimeout c tm) (ready s) ->
             s_timeout (scopes s c) = Some tm /\ exists d, s_deadline (scopes s c) = Some d /\ (d <= now s)%Z;
  (* the handle of an uncancelled scope is live, and only active scopes have one *)
  pi_armed : forall tm, s_timeout (scopes s c) = Some tm -> s_cancelled (scopes s c) = false ->
             a = true /\
             ((exists d, In (mkTimer tm d (TScope c)) (timers s)) \/ In (HTimeout c tm) (ready s));
  pi_inactive : a = false -> s_timeout (scopes s c) = None;
  (* never missed *)
  pi_never_missed : forall d, a = true -> s_cancelled (scopes s c) = false -> s_deadline (scopes s c) = Some d ->
             exists tm, s_timeout (scopes s c) = Some tm
}.

Definition PInv (s : st) (c : sid) : Prop := PInv' s c (s_active (scopes s c)).

Definition TInv (s : st) : Prop := GInv s /\ forall c, PInv s c.

(* scope c has no loop entry at all and remembers none *)
Record NE (s : st) (c : sid) : Prop := mk_NE {
  ne_timers : forall x, In x (timers s) -> tm_what x <> TScope c;
  ne_ready : forall tm, ~ In (HTimeout c tm) (ready s);
  ne_timeout : s_timeout (scopes s c) = None
}.

(* the loop entries of c, if any, are the one c remembers *)
Record WE (s : st) (c : sid) : Prop := mk_WE {
  we_timers : forall x, In x (timers s) -> tm_what x = TScope c -> s_timeout (scopes s c) = Some (tm_id x);
  we_ready : forall tm, In (HTimeout c tm) (ready s) -> s_timeout (scopes s c) = Some tm
}.

Lemma pinv_we s c a : PInv' s c a -> WE s c.
Proof.
  intros P. constructor.
  - intros x Hx Hw. apply (pi_timer _ _ _ P x Hx Hw).
  - intros tm H. apply (pi_ready _ _ _ P tm H).
Qed.

Lemma ne_pinv s c a :
  NE s c -> (a = false \/ s_cancelled (scopes s c) = true \/ s_deadline (scopes s c) = None) -> PInv' s c a.
Proof.
  intros [N1 N2 N3] H. constructor.
  - intros x Hx Hw. destruct (N1 x Hx Hw).
  - intros tm Hin. destruct (N2 tm Hin).
  - intros tm E. congruence.
  - intros _. exact N3.
  - intros d Ha Hc Hd. destruct H as [H|[H|H]]; congruence.
Qed.

Lemma pinv_none_ne s c a : PInv' s c a -> s_timeout (scopes s c) = None -> NE s c.
Proof.
  intros P E. constructor; [| |exact E].
  - intros x Hx Hw. destruct (pi_timer _ _ _ P x Hx Hw) as [H _]. congruence.
  - intros tm Hin. destruct (pi_ready _ _ _ P tm Hin) as [H _]. congruence.
Qed.

Record tframe (s s' : st) : Prop := mk_tframe {
  tf_timers : timers s' = timers s;
  tf_ntimer : ntimer s' = ntimer s;
  tf_now : now s' = now s;
  tf_nscope : nscope s' = nscope s;
  tf_ths : ths (ready s') = ths (ready s);
  tf_deadline : forall c, s_deadline (scopes s' c) = s_deadline (scopes s c);
  tf_cancelled : forall c, s_cancelled (scopes s' c) = s_cancelled (scopes s c);
  tf_active : forall c, s_active (scopes s' c) = s_active (scopes s c);
  tf_timeout : forall c, s_timeout (scopes s' c) = s_timeout (scopes s c);
  tf_gscope : forall g, g_scope (groups s' g) = g_scope (groups s g);
  tf_hscope : forall t, k_hscope (tasks s' t) = k_hscope (tasks s t);
  tf_sleep : forall tm, sleep_id s' tm -> sleep_id s tm
}.

Lemma tframe_trans a b c : tframe a b -> tframe b c -> tframe a c.
Proof. intros [] []. constructor; try congruence; auto. Qed.

Lemma frame_tframe s s' : frame s s' -> tframe s s'.
Proof.
  intros [F1 F2 F3 F4 F5 F6 F7 F8 F9]. constructor; auto; intros c; destruct (F6 c); assumption.
Qed.

Lemma tframe_upd_scope s x g :
  (forall k, s_deadline (g k) = s_deadline k /\ s_cancelled (g k) = s_cancelled k /\
             s_active (g k) = s_active k /\ s_timeout (g k) = s_timeout k) ->
  tframe s (upd_scope s x g).
Proof.
  intros Hg. constructor; try reflexivity; auto; intros c; cbn [upd_scope set_scopes scopes]; rewrite upd_eq;
    destruct (Nat.eqb c x) eqn:E; try reflexivity; apply Nat.eqb_eq in E; subst c; apply Hg.
Qed.

Lemma tframe_live s s' tm : tframe s s' -> live s' tm = live s tm.
Proof.
  intros F. unfold live. rewrite (tf_timers _ _ F), <- (rcount_ths tm (ready s')), (tf_ths _ _ F), rcount_ths.
  reflexivity.
Qed.

Lemma tframe_in_ready s s' c tm : tframe s s' -> (In (HTimeout c tm) (ready s') <-> In (HTimeout c tm) (ready s)).
Proof. intros F. rewrite <- (in_ths c tm (ready s')), (tf_ths _ _ F), in_ths. tauto. Qed.

Lemma ginv_tframe s s' : tframe s s' -> GInv s -> GInv s'.
Proof.
  intros F G. constructor.
  - rewrite (tf_ntimer _ _ F). apply G.
  - rewrite (tf_nscope _ _ F). apply G.
  - intros tm. rewrite (tframe_live _ _ tm F). apply G.
  - intros tm. rewrite (tframe_live _ _ tm F), (tf_ntimer _ _ F). apply G.
  - intros c tm. rewrite (tf_timeout _ _ F), (tf_ntimer _ _ F). apply G.
  - intros c c' tm. rewrite !(tf_timeout _ _ F). apply G.
  - intros tm H. apply (tf_sleep _ _ F) in H. rewrite (tf_ntimer _ _ F).
    destruct (gi_sleep _ G tm H) as [H1 H2]. split; [exact H1|]. intros c. rewrite (tf_timeout _ _ F). apply H2.
  - intros c. rewrite (tf_nscope _ _ F), (tf_active _ _ F). apply G.
  - intros g. rewrite (tf_gscope _ _ F), (tf_nscope _ _ F). apply G.
  - intros t. rewrite (tf_hscope _ _ F), (tf_nscope _ _ F). apply G.
Qed.

Lemma pinv_tframe s s' c a : tframe s s' -> PInv' s c a -> PInv' s' c a.
Proof.
  intros F P. constructor.
  - intros x. rewrite (tf_timers _ _ F), (tf_timeout _ _ F), (tf_deadline _ _ F). apply P.
  - intros tm. rewrite (tframe_in_ready _ _ c tm F), (tf_timeout _ _ F), (tf_deadline _ _ F), (tf_now _ _ F). apply P.
  - intros tm. rewrite (tf_timeout _ _ F), (tf_cancelled _ _ F), (tf_timers _ _ F), (tframe_in_ready _ _ c tm F).
    apply P.
  - rewrite (tf_timeout _ _ F). apply P.
  - intros d. rewrite (tf_timeout _ _ F), (tf_cancelled _ _ F), (tf_deadline _ _ F). apply P.
Qed.

Lemma ne_tframe s s' c : tframe s s' -> NE s c -> NE s' c.
Proof.
  intros F [N1 N2 N3]. constructor.
  - rewrite (tf_timers _ _ F). exact N1.
  - intros tm. rewrite (tframe_in_ready _ _ c tm F). apply N2.
  - now rewrite (tf_timeout _ _ F).
Qed.

Lemma tinv_tframe s s' : tframe s s' -> TInv s -> TInv s'.
Proof.
  intros F [G P]. split; [now apply (ginv_tframe s s')|]. intros c. unfold PInv. rewrite (tf_active _ _ F).
  apply (pinv_tframe s s'); auto. apply P.
Qed.

Lemma tinv_frame s s' : frame s s' -> TInv s -> TInv s'.
Proof. intros F. apply tinv_tframe, frame_tframe, F. Qed.

(* GInv survives when nothing is added: live entries, remembered handles, sleepers, active scopes only shrink *)
Lemma ginv_shrink s s' :
  GInv s -> ntimer s' = ntimer s -> nscope s <= nscope s' ->
  (forall tm, live s' tm <= live s tm) ->
  (forall c tm, s_timeout (scopes s' c) = Some tm -> s_timeout (scopes s c) = Some tm) ->
  (forall tm, sleep_id s' tm -> sleep_id s tm) ->
  (forall c, s_active (scopes s' c) = true -> s_active (scopes s c) = true) ->
  (forall g, g_scope (groups s' g) = g_scope (groups s g)) ->
  (forall t, k_hscope (tasks s' t) = k_hscope (tasks s t)) -> GInv s'.
Proof.
  intros G Hnt Hns Hl Ht Hs Ha Hg Hh. constructor.
  - rewrite Hnt. apply G.
  - pose proof (gi_nscope_pos _ G). lia.
  - intros tm. specialize (Hl tm). pose proof (gi_uniq _ G tm). lia.
  - intros tm Htm. rewrite Hnt in Htm. specialize (Hl tm). pose proof (gi_fresh _ G tm Htm). lia.
  - intros c tm H. rewrite Hnt. apply (gi_tm_lt _ G c tm), Ht, H.
  - intros c c' tm H1 H2. apply (gi_inj _ G c c' tm); auto.
  - intros tm H. destruct (gi_sleep _ G tm (Hs tm H)) as [H1 H2]. rewrite Hnt. split; [exact H1|].
    intros c E. apply (H2 c). auto.
  - intros c Hc. assert (Hc' : nscope s <= c) by lia. pose proof (gi_unalloc _ G c Hc') as E.
    destruct (s_active (scopes s' c)) eqn:E'; [|reflexivity]. rewrite (Ha c E') in E. discriminate.
  - intros g. rewrite Hg. pose proof (gi_gscope _ G g). lia.
  - intros t. rewrite Hh. pose proof (gi_hscope _ G t). lia.
Qed.

(* PInv of a scope whose own fields are unchanged survives when its entries only shrink, provided the entry it
   remembers is still there (possibly moved from the timer heap to the ready queue) *)
Lemma pinv_transfer s s' c a :
  PInv' s c a ->
  (forall x, In x (timers s') -> tm_what x = TScope c -> In x (timers s) \/
             (s_timeout (scopes s c) = Some (tm_id x) /\ s_deadline (scopes s c) = Some (tm_when x))) ->
  (forall tm, In (HTimeout c tm) (ready s') -> In (HTimeout c tm) (ready s) \/
              exists x, In x (timers s) /\ tm_what x = TScope c /\ tm_id x = tm /\ (tm_when x <= now s')%Z) ->
  (forall tm, s_timeout (scopes s c) = Some tm ->
              ((exists d, In (mkTimer tm d (TScope c)) (timers s)) \/ In (HTimeout c tm) (ready s)) ->
              ((exists d, In (mkTimer tm d (TScope c)) (timers s')) \/ In (HTimeout c tm) (ready s'))) ->
  s_timeout (scopes s' c) = s_timeout (scopes s c) -> s_deadline (scopes s' c) = s_deadline (scopes s c) ->
  s_cancelled (scopes s' c) = s_cancelled (scopes s c) -> (now s <= now s')%Z -> PInv' s' c a.
Proof.
  intros P H1 H2 H3 Et Ed Ec Hn. constructor.
  - intros x Hx Hw. rewrite Et, Ed. destruct (H1 x Hx Hw) as [H|H]; [now apply P|exact H].
  - intros tm Hin. rewrite Et, Ed. destruct (H2 tm Hin) as [H|(x & Hx & Hw & Hi & Hle)].
    + destruct (pi_ready _ _ _ P tm H) as (A & d & B & C). split; [exact A|]. exists d. split; [exact B|lia].
    + destruct (pi_timer _ _ _ P x Hx Hw) as [A B]. subst tm. split; [exact A|]. exists (tm_when x). auto.
  - intros tm. rewrite Et, Ec. intros E1 E2. destruct (pi_armed _ _ _ P tm E1 E2) as [A B]. split; [exact A|].
    now apply H3.
  - rewrite Et. apply P.
  - intros d. rewrite Et, Ec, Ed. apply P.
Qed.

Lemma pinv_upd_scope_other s c g x a : x <> c -> PInv' s x a -> PInv' (upd_scope s c g) x a.
Proof.
  intros Hx P. apply (pinv_transfer s); auto; rewrite ?(scopes_upd_other s c g x Hx); auto; try reflexivity.
Qed.

Lemma PInv_upd_scope_other s c g x : x <> c -> PInv s x -> PInv (upd_scope s c g) x.
Proof. intros Hx P. unfold PInv. rewrite (scopes_upd_other s c g x Hx). now apply pinv_upd_scope_other. Qed.

Lemma ne_upd_scope s c g : (forall k, s_timeout (g k) = s_timeout k) -> NE s c -> NE (upd_scope s c g) c.
Proof.
  intros Hg [N1 N2 N3]. constructor; [exact N1|exact N2|]. now rewrite scopes_upd_same, Hg.
Qed.

Lemma we_upd_scope s c g : (forall k, s_timeout (g k) = s_timeout k) -> WE s c -> WE (upd_scope s c g) c.
Proof.
  intros Hg [W1 W2]. constructor; rewrite scopes_upd_same, Hg; [exact W1|exact W2].
Qed.

Lemma ginv_upd_scope s c g :
  (forall k, s_timeout (g k) = s_timeout k /\ (s_active (g k) = true -> s_active k = true)) ->
  GInv s -> GInv (upd_scope s c g).
Proof.
  intros Hg G. apply (ginv_shrink s); [exact G|reflexivity|apply Nat.le_refl|intros tm; apply Nat.le_refl| | |
                                       |reflexivity|reflexivity].
  - intros x tm. cbn [upd_scope set_scopes scopes]. rewrite upd_eq. destruct (Nat.eqb x c) eqn:E; [|auto].
    apply Nat.eqb_eq in E. subst x. now rewrite (proj1 (Hg _)).
  - auto.
  - intros x. cbn [upd_scope set_scopes scopes]. rewrite upd_eq. destruct (Nat.eqb x c) eqn:E; [|auto].
    apply Nat.eqb_eq in E. subst x. apply Hg.
Qed.

Lemma ginv_set_active s c : c < nscope s -> GInv s -> GInv (upd_scope s c (sc_active true)).
Proof.
  intros Hc G.
  assert (St : forall x, s_timeout (scopes (upd_scope s c (sc_active true)) x) = s_timeout (scopes s x)).
  { intros x. cbn [upd_scope set_scopes scopes]. rewrite upd_eq. destruct (Nat.eqb x c) eqn:E; [|reflexivity].
    apply Nat.eqb_eq in E. now subst x. }
  destruct G. constructor; auto.
  - intros x tm. rewrite St. apply gi_tm_lt0.
  - intros x x' tm. rewrite !St. apply gi_inj0.
  - intros tm H. destruct (gi_sleep0 tm H) as [H1 H2]. split; [exact H1|]. intros x. rewrite St. apply H2.
  - intros x Hx. cbn [upd_scope set_scopes scopes nscope] in *. rewrite upd_other by lia. auto.
Qed.

Lemma live_timer_cancel s tm tm' : live (timer_cancel s tm) tm' = if Nat.eqb tm' tm then 0 else live s tm'.
Proof.
  unfold live. cbn [timer_cancel set_ready set_timers timers ready]. rewrite tcount_filter_ne, rcount_filter_ne.
  destruct (Nat.eqb tm' tm); reflexivity.
Qed.

(* TimerHandle.cancel(); self._timeout_handle = None *)
Lemma cancel_timeout_spec s c :
  GInv s -> (forall x, x <> c -> PInv s x) -> WE s c ->
  GInv (cancel_timeout s c) /\ (forall x, x <> c -> PInv (cancel_timeout s c) x) /\ NE (cancel_timeout s c) c.
Proof.
  intros G P W. unfold cancel_timeout. destruct (s_timeout (scopes s c)) as [tm|] eqn:Et.
  - refine (conj _ (conj _ _)).
    + apply (ginv_shrink s); [exact G|reflexivity|apply Nat.le_refl| | |auto| |reflexivity|reflexivity].
      * intros tm'. change (live (timer_cancel s tm) tm' <= live s tm'). rewrite live_timer_cancel.
        destruct (Nat.eqb tm' tm); lia.
      * intros x tm'. cbn [upd_scope set_scopes scopes timer_cancel set_ready set_timers]. rewrite upd_eq.
        destruct (Nat.eqb x c); [discriminate|auto].
      * intros x. cbn [upd_scope set_scopes scopes timer_cancel set_ready set_timers]. rewrite upd_eq.
        destruct (Nat.eqb x c) eqn:E; [|auto]. apply Nat.eqb_eq in E. now subst x.
    + intros x Hx. apply PInv_upd_scope_other; [exact Hx|]. specialize (P x Hx). unfold PInv in *.
      change (s_active (scopes (timer_cancel s tm) x)) with (s_active (scopes s x)).
      assert (Ne : forall tm', s_timeout (scopes s x) = Some tm' -> Nat.eqb tm' tm = false).
      { intros tm' E. apply Nat.eqb_neq. intros ->. apply Hx. apply (gi_inj _ G x c tm); auto. }
      apply (pinv_transfer s); auto; try reflexivity; cbn [timer_cancel set_ready set_timers timers ready now]; try lia.
      * intros y Hy _. apply filter_In in Hy. now left.
      * intros tm' Hin. apply filter_In in Hin. now left.
      * intros tm' E [[d Hd]|Hr]; [left; exists d|right]; apply filter_In; (split; [assumption|]); cbn;
          rewrite (Ne tm' E); reflexivity.
    + constructor.
      * intros y Hy Hw. cbn [upd_scope set_scopes timer_cancel set_ready set_timers timers] in Hy.
        apply filter_In in Hy. destruct Hy as [Hy Hf]. pose proof (we_timers _ _ W y Hy Hw) as E.
        rewrite Et in E. injection E as ->. rewrite Nat.eqb_refl in Hf. discriminate.
      * intros tm' Hin. cbn [upd_scope set_scopes timer_cancel set_ready set_timers ready] in Hin.
        apply filter_In in Hin. destruct Hin as [Hin Hf]. pose proof (we_ready _ _ W tm' Hin) as E.
        rewrite Et in E. injection E as ->. cbn in Hf. rewrite Nat.eqb_refl in Hf. discriminate.
      * now rewrite scopes_upd_same.
  - refine (conj G (conj P _)). constructor; [| |exact Et].
    + intros y Hy Hw. pose proof (we_timers _ _ W y Hy Hw). congruence.
    + intros tm Hin. pose proof (we_ready _ _ W tm Hin). congruence.
Qed.

Lemma cancel_timeout_fields s c :
  now (cancel_timeout s c) = now s /\ nscope (cancel_timeout s c) = nscope s /\ ntimer (cancel_timeout s c) = ntimer s /\
  forall x, s_deadline (scopes (cancel_timeout s c) x) = s_deadline (scopes s x) /\
            s_cancelled (scopes (cancel_timeout s c) x) = s_cancelled (scopes s x) /\
            s_active (scopes (cancel_timeout s c) x) = s_active (scopes s x).
Proof.
  unfold cancel_timeout. destruct (s_timeout (scopes s c)); [|refine (conj eq_refl (conj eq_refl (conj eq_refl _))); auto].
  refine (conj eq_refl (conj eq_refl (conj eq_refl _))). intros x.
  cbn [upd_scope set_scopes scopes timer_cancel set_ready set_timers]. rewrite upd_eq.
  destruct (Nat.eqb x c) eqn:E; [|auto]. apply Nat.eqb_eq in E. subst x. auto.
Qed.

(* CancelScope.cancel() *)
Lemma scope_cancel_spec s c b a :
  GInv s -> (forall x, x <> c -> PInv s x) -> WE s c -> (s_cancelled (scopes s c) = true -> PInv' s c a) ->
  GInv (scope_cancel s c b) /\ (forall x, x <> c -> PInv (scope_cancel s c b) x) /\ PInv' (scope_cancel s c b) c a /\
  (forall x, s_active (scopes (scope_cancel s c b) x) = s_active (scopes s x)) /\
  nscope (scope_cancel s c b) = nscope s.
Proof.
  intros G P W Pc. unfold scope_cancel. destruct (s_cancelled (scopes s c)) eqn:Ec; [auto 6|].
  destruct (cancel_timeout_spec s c G P W) as (G1 & P1 & N1).
  destruct (cancel_timeout_fields s c) as (F1 & F2 & F3 & F4).
  set (s1 := cancel_timeout s c) in *.
  set (s2 := upd_scope s1 c (fun x => sc_bydeadline b (sc_cancelled true x))).
  assert (G2 : GInv s2) by (apply ginv_upd_scope; [intros k; auto|exact G1]).
  assert (P2 : forall x, x <> c -> PInv s2 x) by (intros x Hx; apply PInv_upd_scope_other; auto).
  assert (Pc2 : PInv' s2 c a).
  { apply ne_pinv; [apply ne_upd_scope; auto|]. right; left. unfold s2. now rewrite scopes_upd_same. }
  assert (A2 : forall x, s_active (scopes s2 x) = s_active (scopes s x)).
  { intros x. rewrite <- (proj2 (proj2 (F4 x))). unfold s2. cbn [upd_scope set_scopes scopes]. rewrite upd_eq.
    destruct (Nat.eqb x c) eqn:E; [|reflexivity]. apply Nat.eqb_eq in E. now subst x. }
  destruct (s_host (scopes s2 c)); [|auto 6].
  pose proof (frame_tframe _ _ (frame_deliver_top s2 c)) as F.
  refine (conj (ginv_tframe _ _ F G2) (conj _ (conj (pinv_tframe _ _ _ _ F Pc2) (conj _ _)))).
  - intros x Hx. unfold PInv. rewrite (tf_active _ _ F). apply (pinv_tframe _ _ _ _ F), P2, Hx.
  - intros x. now rewrite (tf_active _ _ F).
  - now rewrite (tf_nscope _ _ F).
Qed.

(* loop.call_at: a timer with the fresh id ntimer s, which nobody remembers yet *)
Lemma ginv_call_at s w what : GInv s -> GInv (fst (call_at s w what)).
Proof.
  intros G. set (s' := fst (call_at s w what)).
  assert (Lv : forall tm, live s' tm = live s tm + (if Nat.eqb (ntimer s) tm then 1 else 0)).
  { intros tm. unfold live, s'. cbn [call_at fst timers ready]. rewrite tcount_app, tcount_cons.
    cbn [tm_id tcount filter length]. lia. }
  constructor.
  - cbn. lia.
  - apply G.
  - intros tm. rewrite Lv. destruct (Nat.eqb_spec (ntimer s) tm) as [<-|E].
    + rewrite (gi_fresh _ G (ntimer s)); lia.
    + pose proof (gi_uniq _ G tm). lia.
  - intros tm Htm. cbn [s' call_at fst ntimer] in Htm. rewrite Lv.
    destruct (Nat.eqb_spec (ntimer s) tm); [lia|]. rewrite (gi_fresh _ G tm); lia.
  - intros c tm E. cbn [s' call_at fst ntimer]. pose proof (gi_tm_lt _ G c tm E). lia.
  - apply (gi_inj _ G).
  - intros tm H. destruct (gi_sleep _ G tm H) as [H1 H2]. cbn [s' call_at fst ntimer]. split; [lia|exact H2].
  - apply (gi_unalloc _ G).
  - apply G.
  - apply G.
Qed.

Lemma pinv_call_at s w what c : what <> TScope c -> PInv s c -> PInv (fst (call_at s w what)) c.
Proof.
  intros Hw P. unfold PInv in *. change (s_active (scopes (fst (call_at s w what)) c)) with (s_active (scopes s c)).
  apply (pinv_transfer s); auto; try reflexivity; cbn [call_at fst timers ready now]; try lia.
  - intros y Hy E. apply in_app_iff in Hy. destruct Hy as [Hy|[<-|[]]]; [now left|]. cbn in E. congruence.
  - intros tm E [[d' Hd]|Hr]; [left; exists d'; apply in_app_iff; now left|now right].
Qed.

(* self._timeout_handle = h for a handle h that is live, that nobody else remembers and that no sleeper holds *)
Lemma ginv_remember a c tm :
  GInv a -> 0 < tm < ntimer a -> (forall x, s_timeout (scopes a x) <> Some tm) -> ~ sleep_id a tm ->
  GInv (upd_scope a c (sc_timeout (Some tm))).
Proof.
  intros G Htm Hno Hns.
  assert (St : forall x, s_timeout (scopes (upd_scope a c (sc_timeout (Some tm))) x) =
                         if Nat.eqb x c then Some tm else s_timeout (scopes a x)).
  { intros x. cbn [upd_scope set_scopes scopes]. rewrite upd_eq. destruct (Nat.eqb x c); reflexivity. }
  destruct G. constructor; auto.
  - intros x tm'. rewrite St. destruct (Nat.eqb x c); [intros E; injection E as <-; exact Htm|apply gi_tm_lt0].
  - intros x x' tm'. rewrite !St. destruct (Nat.eqb_spec x c) as [->|E1]; destruct (Nat.eqb_spec x' c) as [->|E2]; auto.
    + intros A B. injection A as <-. destruct (Hno _ B).
    + intros A B. injection B as <-. destruct (Hno _ A).
    + apply gi_inj0.
  - intros tm' H. destruct (gi_sleep0 tm' H) as [H1 H2]. split; [exact H1|]. intros x. rewrite St.
    destruct (Nat.eqb x c); [|apply H2]. intros E. injection E as ->. exact (Hns H).
  - intros x Hx. cbn [upd_scope set_scopes scopes nscope] in *. rewrite upd_eq.
    destruct (Nat.eqb_spec x c) as [->|_]; [cbn [sc_timeout s_active]|]; now apply gi_unalloc0.
Qed.

(* arming: loop.call_at(deadline, self._timeout) *)
Lemma arm_spec s c d :
  GInv s -> (forall x, x <> c -> PInv s x) -> NE s c ->
  let s' := upd_scope (fst (call_at s d (TScope c))) c (sc_timeout (Some (ntimer s))) in
  s_deadline (scopes s c) = Some d ->
  GInv s' /\ (forall x, x <> c -> PInv s' x) /\ PInv' s' c true.
Proof.
  intros G P N s' Ed. refine (conj _ (conj _ _)).
  - apply ginv_remember; [now apply ginv_call_at|pose proof (gi_ntimer_pos _ G); cbn; lia| |].
    + intros x E. pose proof (gi_tm_lt _ G x _ E). lia.
    + intros H. pose proof (proj1 (gi_sleep _ G _ H)). lia.
  - intros x Hx. apply PInv_upd_scope_other; [exact Hx|]. apply pinv_call_at; [congruence|now apply P].
  - assert (St : s_timeout (scopes s' c) = Some (ntimer s)) by (unfold s'; now rewrite scopes_upd_same).
    constructor; rewrite ?St.
    + intros y Hy Hw. unfold s' in Hy. cbn [upd_scope set_scopes call_at fst timers] in Hy.
      apply in_app_iff in Hy. destruct Hy as [Hy|[<-|[]]]; [destruct (ne_timers _ _ N y Hy Hw)|].
      cbn [tm_id tm_when]. split; [reflexivity|].
      unfold s'. rewrite scopes_upd_same. cbn [sc_timeout s_deadline call_at fst scopes]. exact Ed.
    + intros tm Hin. destruct (ne_ready _ _ N tm Hin).
    + intros tm E _. injection E as <-. split; [reflexivity|]. left. exists d.
      unfold s'. cbn [upd_scope set_scopes call_at fst timers]. apply in_app_iff. right. now left.
    + discriminate.
    + intros d' _ _ _. eauto.
Qed.

(* CancelScope._timeout() on a scope without loop entry *)
Lemma scope_timeout_spec s c :
  GInv s -> (forall x, x <> c -> PInv s x) -> NE s c ->
  GInv (scope_timeout s c) /\ (forall x, x <> c -> PInv (scope_timeout s c) x) /\ PInv' (scope_timeout s c) c true /\
  (forall x, s_active (scopes (scope_timeout s c) x) = s_active (scopes s x)) /\
  nscope (scope_timeout s c) = nscope s.
Proof.
  intros G P N. unfold scope_timeout. destruct (s_deadline (scopes s c)) as [d|] eqn:Ed.
  - destruct (Z.leb d (now s)).
    + apply scope_cancel_spec; auto.
      * constructor; [intros y Hy Hw; destruct (ne_timers _ _ N y Hy Hw)|intros tm Hin; destruct (ne_ready _ _ N tm Hin)].
      * intros Ec. apply ne_pinv; auto.
    + pose proof (arm_spec s c d G P N Ed) as (G1 & P1 & Pc1). cbn [call_at] in *.
      refine (conj G1 (conj P1 (conj Pc1 (conj _ eq_refl)))). intros x.
      cbn [upd_scope set_scopes scopes]. rewrite upd_eq. destruct (Nat.eqb x c) eqn:E; [|reflexivity].
      apply Nat.eqb_eq in E. now subst x.
  - refine (conj G (conj P (conj _ (conj _ eq_refl)))); [|auto]. apply ne_pinv; auto.
Qed.

(* PInv' with a = true is what PInv needs once _active is set *)
Lemma pinv_set_active s c : PInv' s c true -> PInv (upd_scope s c (sc_active true)) c.
Proof.
  intros P. unfold PInv. rewrite scopes_upd_same. cbn [sc_active s_active].
  apply (pinv_transfer s); auto; rewrite ?scopes_upd_same; try reflexivity.
Qed.

(* CancelScope.__enter__ *)
Lemma scope_enter_tinv s c t : c < nscope s -> TInv s -> TInv (fst (scope_enter s c t)).
Proof.
  intros Hc [G P]. rewrite scope_enter_eq. destruct (s_active (scopes s c)) eqn:Ea; [split; assumption|].
  cbv zeta. cbn [fst].
  pose proof (frame_tframe _ _ (frame_enter_links s c t)) as F3. set (s3 := enter_links s c t) in *.
  destruct (tinv_tframe _ _ F3 (conj G P)) as [G3 P3].
  assert (N3 : NE s3 c).
  { apply (pinv_none_ne s3 c (s_active (scopes s3 c))); [apply P3|]. apply (pi_inactive _ _ _ (P3 c)).
    now rewrite (tf_active _ _ F3). }
  destruct (scope_timeout_spec s3 c G3 (fun x _ => P3 x) N3) as (G4 & P4 & Pc4 & A4 & N4).
  set (s4 := scope_timeout s3 c) in *.
  assert (T5 : TInv (upd_scope s4 c (sc_active true))).
  { split.
    - apply ginv_set_active; [|exact G4]. rewrite N4, (tf_nscope _ _ F3). exact Hc.
    - intros x. destruct (Nat.eq_dec x c) as [->|Hx]; [now apply pinv_set_active|].
      apply PInv_upd_scope_other; auto. }
  destruct (s_cancelled _); [|exact T5]. apply (tinv_frame _ _ (frame_deliver_top _ c) T5).
Qed.

(* CancelScope.__exit__ *)
Lemma exit_tframe s c t exc :
  exit_guards s c t = true ->
  tframe (cancel_timeout (upd_scope s c (sc_active false)) c) (fst (scope_exit s c t exc)).
Proof.
  apply exit_tail_closed; [apply tframe_trans|apply frame_tframe|].
  intros a _. apply tframe_upd_scope. intros k; auto.
Qed.

Lemma scope_exit_tinv s c t exc : TInv s -> TInv (fst (scope_exit s c t exc)).
Proof.
  intros [G P]. destruct (exit_guards s c t) eqn:Gd.
  2: { rewrite (scope_exit_guards_fail s c t exc Gd). split; assumption. }
  apply (tinv_tframe _ _ (exit_tframe s c t exc Gd)).
  set (s0 := upd_scope s c (sc_active false)).
  assert (G0 : GInv s0).
  { apply ginv_upd_scope; [|exact G]. intros k. split; [reflexivity|]. cbn. discriminate. }
  assert (P0 : forall x, x <> c -> PInv s0 x) by (intros x Hx; apply PInv_upd_scope_other; auto).
  assert (W0 : WE s0 c) by (apply we_upd_scope; [auto|apply (pinv_we s c _ (P c))]).
  destruct (cancel_timeout_spec s0 c G0 P0 W0) as (G1 & P1 & N1).
  split; [exact G1|]. intros x. destruct (Nat.eq_dec x c) as [->|Hx]; [|now apply P1].
  apply ne_pinv; [exact N1|]. left. destruct (cancel_timeout_fields s0 c) as (_ & _ & _ & F).
  rewrite (proj2 (proj2 (F c))). unfold s0. now rewrite scopes_upd_same.
Qed.

Lemma scope_cancel_tinv s c b : TInv s -> TInv (scope_cancel s c b).
Proof.
  intros [G P]. destruct (scope_cancel_spec s c b (s_active (scopes s c)) G (fun x _ => P x) (pinv_we _ _ _ (P c))
                                            (fun _ => P c)) as (G1 & P1 & Pc & A & _).
  split; [exact G1|]. intros x. destruct (Nat.eq_dec x c) as [->|Hx]; [|now apply P1].
  unfold PInv. now rewrite A.
Qed.

Lemma set_deadline_tinv s c d : TInv s -> TInv (set_deadline_body s c d).
Proof.
  intros [G P]. unfold set_deadline_body. cbv zeta.
  set (s0 := upd_scope s c (sc_deadline d)).
  assert (G0 : GInv s0) by (apply ginv_upd_scope; [intros k; auto|exact G]).
  assert (P0 : forall x, x <> c -> PInv s0 x) by (intros x Hx; apply PInv_upd_scope_other; auto).
  assert (W0 : WE s0 c) by (apply we_upd_scope; [auto|apply (pinv_we s c _ (P c))]).
  destruct (cancel_timeout_spec s0 c G0 P0 W0) as (G1 & P1 & N1).
  set (s1 := cancel_timeout s0 c) in *.
  destruct (s_active (scopes s1 c)) eqn:Ea; cbn [andb].
  - destruct (s_cancelled (scopes s1 c)) eqn:Ec; cbn [negb].
    + split; [exact G1|]. intros x. destruct (Nat.eq_dec x c) as [->|Hx]; [|now apply P1]. apply ne_pinv; auto.
    + destruct (scope_timeout_spec s1 c G1 P1 N1) as (G2 & P2 & Pc2 & A2 & _).
      split; [exact G2|]. intros x. destruct (Nat.eq_dec x c) as [->|Hx]; [|now apply P2].
      unfold PInv. now rewrite A2, Ea.
  - split; [exact G1|]. intros x. destruct (Nat.eq_dec x c) as [->|Hx]; [|now apply P1]. apply ne_pinv; auto.
Qed.

Lemma new_scope_tinv s d sh : TInv s -> TInv (fst (new_scope s d sh)).
Proof.
  intros [G P]. set (c0 := nscope s).
  assert (Sx : forall x, scopes (fst (new_scope s d sh)) x =
                         if Nat.eqb x c0 then sc_shield sh (sc_deadline d scope0) else scopes s x).
  { intros x. cbn [new_scope fst scopes]. apply upd_eq. }
  assert (N0 : NE s c0).
  { apply (pinv_none_ne s c0 _ (P c0)). apply (pi_inactive _ _ _ (P c0)). apply (gi_unalloc _ G). unfold c0. lia. }
  split.
  - apply (ginv_shrink s); [exact G|reflexivity|cbn; lia|intros tm; apply Nat.le_refl| |auto| |reflexivity|reflexivity].
    + intros x tm. rewrite Sx. destruct (Nat.eqb x c0); [discriminate|auto].
    + intros x. rewrite Sx. destruct (Nat.eqb x c0); [discriminate|auto].
  - intros x. unfold PInv. rewrite Sx. destruct (Nat.eqb x c0) eqn:E.
    + apply Nat.eqb_eq in E. subst x. apply ne_pinv; [|now left].
      destruct N0 as [N1 N2 N3]. constructor; [exact N1|exact N2|]. now rewrite Sx, Nat.eqb_refl.
    + apply (pinv_transfer s); auto; rewrite ?Sx, ?E; try reflexivity. apply P.
Qed.

(* changes of the task / group tables that keep the stored scope ids in range and invent no sleeper *)
Lemma tinv_tables s s' :
  timers s' = timers s -> ntimer s' = ntimer s -> now s' = now s -> nscope s' = nscope s -> ready s' = ready s ->
  scopes s' = scopes s ->
  (forall tm, sleep_id s' tm -> tm < ntimer s /\ forall c, s_timeout (scopes s c) <> Some tm) ->
  (forall t, k_hscope (tasks s' t) < nscope s) -> (forall g, g_scope (groups s' g) < nscope s) ->
  TInv s -> TInv s'.
Proof.
  intros E1 E2 E3 E4 E5 E6 Hs Hh Hg [G P]. split.
  - destruct G. constructor; unfold live in *; rewrite ?E1, ?E2, ?E4, ?E5, ?E6; auto.
  - intros c. unfold PInv. rewrite E6. apply (pinv_transfer s); auto; rewrite ?E1, ?E5, ?E6, ?E3; auto; try reflexivity.
    apply P.
Qed.

Lemma add_group_tinv s c : c < nscope s -> TInv s -> TInv (add_group s c).
Proof.
  intros Hc T. apply (tinv_tables s); try reflexivity; auto.
  - intros tm H. apply (gi_sleep _ (proj1 T)). exact H.
  - intros t. apply (gi_hscope _ (proj1 T)).
  - intros g. cbn [add_group groups]. rewrite upd_eq. destruct (Nat.eqb g (ngroup s)); [exact Hc|apply (gi_gscope _ (proj1 T))].
Qed.

Lemma install_task_sleep (tk : tid -> task) t k tm :
  nosleep (k_ctl k) -> (exists t0 f, k_ctl (upd tk t k t0) = CSleep f tm) -> exists t0 f, k_ctl (tk t0) = CSleep f tm.
Proof.
  intros Hk (t0 & f & H). rewrite upd_eq in H. destruct (Nat.eqb t0 t); [rewrite H in Hk; destruct Hk|eauto].
Qed.

Lemma add_root_tinv s : TInv s -> TInv (add_root s).
Proof.
  intros T. apply (tinv_tables s); try reflexivity; auto.
  - intros tm H. apply (gi_sleep _ (proj1 T)). apply (install_task_sleep (tasks s) (ntask s) root_task tm I H).
  - intros t. cbn [add_root tasks]. rewrite upd_eq. destruct (Nat.eqb t (ntask s)); [apply (gi_nscope_pos _ (proj1 T))|apply (gi_hscope _ (proj1 T))].
  - intros g. apply (gi_gscope _ (proj1 T)).
Qed.

Lemma add_child_tinv s g sf : TInv s -> TInv (add_child (fst (new_scope s None false)) (nscope s) g sf).
Proof.
  intros T. pose proof (new_scope_tinv s None false T) as T1. set (s1 := fst (new_scope s None false)) in *.
  apply (tinv_tables s1); try reflexivity; auto.
  - intros tm H. apply (gi_sleep _ (proj1 T1)). eapply (install_task_sleep (tasks s1) (ntask s)); [|exact H]. exact I.
  - intros t. cbn [add_child tasks]. rewrite upd_eq. destruct (Nat.eqb t (ntask s1)).
    + cbn [k_hscope]. unfold s1. cbn. lia.
    + apply (gi_hscope _ (proj1 T1)).
  - intros g0. apply (gi_gscope _ (proj1 T1)).
Qed.

Lemma call_at_sleep_tinv s w f : TInv s -> TInv (fst (call_at s w (TSleep f))).
Proof. intros [G P]. split; [now apply ginv_call_at|]. intros c. apply pinv_call_at; [discriminate|apply P]. Qed.

Lemma set_ctl_sleep_tinv s t f tm :
  tm < ntimer s -> (forall c, s_timeout (scopes s c) <> Some tm) -> TInv s -> TInv (set_ctl s t (CSleep f tm)).
Proof.
  intros H1 H2 T. apply (tinv_tables s); try reflexivity; auto.
  - intros tm' (t0 & f0 & H). cbn [set_ctl upd_task set_tasks tasks] in H. rewrite upd_eq in H.
    destruct (Nat.eqb t0 t).
    + cbn in H. injection H as _ <-. auto.
    + apply (gi_sleep _ (proj1 T)). exists t0, f0. exact H.
  - intros t0. cbn [set_ctl upd_task set_tasks tasks]. rewrite upd_eq.
    destruct (Nat.eqb t0 t); [cbn|]; apply (gi_hscope _ (proj1 T)).
  - intros g. apply (gi_gscope _ (proj1 T)).
Qed.

Lemma sleep_arm_tinv s t f w :
  TInv s -> TInv (set_ctl (suspend_on (fst (call_at s w (TSleep f))) t f) t (CSleep f (ntimer s))).
Proof.
  intros T. pose proof (call_at_sleep_tinv s w f T) as T1. set (s1 := fst (call_at s w (TSleep f))) in *.
  pose proof (frame_tframe _ _ (frame_suspend_on s1 t f)) as F.
  apply set_ctl_sleep_tinv; [| |exact (tinv_tframe _ _ F T1)].
  - rewrite (tf_ntimer _ _ F). unfold s1. cbn. lia.
  - intros c. rewrite (tf_timeout _ _ F). unfold s1. cbn [call_at fst scopes]. intros E.
    pose proof (gi_tm_lt _ (proj1 T) c _ E). lia.
Qed.

Lemma sleep0_tinv s t f : TInv s -> TInv (set_ctl s t (CSleep f 0)).
Proof.
  intros T. apply set_ctl_sleep_tinv; [apply (gi_ntimer_pos _ (proj1 T))| |exact T].
  intros c E. pose proof (gi_tm_lt _ (proj1 T) c _ E). lia.
Qed.

(* the sleeper's `h.cancel()` on resumption *)
Lemma sleep_wake_tinv s tm : sleep_id s tm -> TInv s -> TInv (timer_cancel s tm).
Proof.
  intros Hs [G P]. destruct (gi_sleep _ G tm Hs) as [_ Hne]. split.
  - apply (ginv_shrink s); [exact G|reflexivity|apply Nat.le_refl| |auto|auto|auto|reflexivity|reflexivity].
    intros tm'. rewrite live_timer_cancel. destruct (Nat.eqb tm' tm); lia.
  - intros c. unfold PInv. change (s_active (scopes (timer_cancel s tm) c)) with (s_active (scopes s c)).
    apply (pinv_transfer s); auto; try reflexivity; [apply P| | |].
    + intros y Hy _. cbn [timer_cancel set_ready set_timers timers] in Hy. apply filter_In in Hy. now left.
    + intros tm' Hin. cbn [timer_cancel set_ready set_timers ready] in Hin. apply filter_In in Hin. now left.
    + intros tm' E. assert (Ne : Nat.eqb tm' tm = false).
      { apply Nat.eqb_neq. intros ->. exact (Hne c E). }
      cbn [timer_cancel set_ready set_timers timers ready].
      intros [[d Hd]|Hr]; [left; exists d|right]; apply filter_In; (split; [assumption|]); cbn; rewrite Ne; reflexivity.
Qed.

(* running a fired sleep timer *)
Lemma pop_sleepdone_tinv s f tm : TInv s -> TInv (dequeue s (HSleepDone f tm)).
Proof.
  intros [G P]. split.
  - apply (ginv_shrink s); [exact G|reflexivity|apply Nat.le_refl| |auto|auto|auto|reflexivity|reflexivity].
    intros tm'. unfold live, dequeue. cbn [set_ready timers ready]. pose proof (rcount_remove_first_le tm' (HSleepDone f tm) (ready s)). lia.
  - intros c. unfold PInv. change (s_active (scopes (dequeue s (HSleepDone f tm)) c)) with (s_active (scopes s c)).
    apply (pinv_transfer s); auto; try reflexivity; [apply P| |].
    + intros tm' Hin. left. unfold dequeue in Hin. cbn [set_ready ready] in Hin. eapply in_remove_first; eauto.
    + intros tm' E [Hd|Hr]; [now left|right]. unfold dequeue. cbn [set_ready ready].
      apply in_remove_first_ne; [exact Hr|discriminate].
Qed.

(* running a fired deadline timer: by the invariant it is due, so _timeout cancels the scope *)
Lemma timeout_run_tinv s c tm :
  In (HTimeout c tm) (ready s) -> TInv s -> TInv (scope_timeout (set_running (dequeue s (HTimeout c tm)) None) c).
Proof.
  intros Hin [G P]. destruct (pi_ready _ _ _ (P c) tm Hin) as (Et & d & Ed & Hd).
  set (s1 := set_running (dequeue s (HTimeout c tm)) None).
  assert (G1 : GInv s1).
  { apply (ginv_shrink s); [exact G|reflexivity|apply Nat.le_refl| |auto|auto|auto|reflexivity|reflexivity].
    intros tm'. unfold live, s1, dequeue. cbn [set_running set_ready timers ready].
    pose proof (rcount_remove_first_le tm' (HTimeout c tm) (ready s)). lia. }
  assert (Sub : forall x tm', In (HTimeout x tm') (ready s1) -> In (HTimeout x tm') (ready s)).
  { intros x tm' H. unfold s1, dequeue in H. cbn [set_running set_ready ready] in H. eapply in_remove_first; eauto. }
  assert (P1 : forall x, x <> c -> PInv s1 x).
  { intros x Hx. unfold PInv. change (s_active (scopes s1 x)) with (s_active (scopes s x)).
    apply (pinv_transfer s); [apply P|auto| | |reflexivity|reflexivity|reflexivity|reflexivity].
    - intros tm' H. left. now apply Sub.
    - intros tm' E [Hd'|Hr]; [now left|right]. unfold s1, dequeue. cbn [set_running set_ready ready].
      apply in_remove_first_ne; [exact Hr|]. intros E'. injection E' as -> _. now apply Hx. }
  assert (W1 : WE s1 c).
  { constructor.
    - intros y Hy Hw. apply (pi_timer _ _ _ (P c) y Hy Hw).
    - intros tm' H. apply (pi_ready _ _ _ (P c) tm'), Sub, H. }
  assert (Pc1 : s_cancelled (scopes s1 c) = true -> PInv' s1 c (s_active (scopes s c))).
  { intros Ec. constructor.
    - apply (pi_timer _ _ _ (P c)).
    - intros tm' H. apply (pi_ready _ _ _ (P c) tm'), Sub, H.
    - intros tm' _ E. change (s_cancelled (scopes s1 c)) with (s_cancelled (scopes s c)) in *. congruence.
    - apply (pi_inactive _ _ _ (P c)).
    - intros d' _ E. change (s_cancelled (scopes s1 c)) with (s_cancelled (scopes s c)) in *. congruence. }
  unfold scope_timeout. change (s_deadline (scopes s1 c)) with (s_deadline (scopes s c)). rewrite Ed.
  change (now s1) with (now s). assert (El : Z.leb d (now s) = true) by now apply Z.leb_le. rewrite El.
  destruct (scope_cancel_spec s1 c true _ G1 P1 W1 Pc1) as (G2 & P2 & Pc2 & A2 & _).
  split; [exact G2|]. intros x. destruct (Nat.eq_dec x c) as [->|Hx]; [|now apply P2].
  unfold PInv. rewrite A2. exact Pc2.
Qed.

Lemma tick_tinv s dt : (0 <= dt)%Z -> TInv s -> TInv (tick s dt).
Proof.
  intros Hdt [G P]. unfold tick. cbv zeta.
  set (n' := (now s + dt)%Z).
  set (due := filter (fun x => Z.leb (tm_when x) n') (timers s)).
  set (rest := filter (fun x => negb (Z.leb (tm_when x) n')) (timers s)).
  cbn [set_now timers now ready].
  fold due rest.
  set (s' := set_ready (set_timers (set_now s n') rest) (ready s ++ map handle_of_timer (sort_timers due))).
  assert (Lv : forall tm, live s' tm = live s tm).
  { intros tm. unfold live, s'. cbn [set_ready set_timers set_now timers ready].
    rewrite rcount_app, rcount_map_handle, tcount_sort_timers.
    pose proof (tcount_partition tm (fun x => Z.leb (tm_when x) n') (timers s)) as H. unfold due, rest. lia. }
  split.
  - apply (ginv_shrink s); [exact G|reflexivity|apply Nat.le_refl| |auto|auto|auto|reflexivity|reflexivity].
    intros tm. rewrite Lv. apply Nat.le_refl.
  - intros c. unfold PInv. change (s_active (scopes s' c)) with (s_active (scopes s c)).
    apply (pinv_transfer s); auto; try reflexivity; [apply P| | | |].
    + intros y Hy _. left. unfold s', rest in Hy. cbn [set_ready set_timers set_now timers] in Hy.
      apply filter_In in Hy. tauto.
    + intros tm Hin. unfold s' in Hin. cbn [set_ready set_timers set_now ready] in Hin.
      apply in_app_iff in Hin. destruct Hin as [H|H]; [now left|right].
      apply in_map_iff in H. destruct H as (y & Ey & Hy). apply (proj1 (in_sort_timers _ _)) in Hy. unfold due in Hy.
      apply filter_In in Hy. destruct Hy as [Hy Hle]. exists y.
      unfold handle_of_timer in Ey. destruct (tm_what y) as [f|c'] eqn:Ew; [discriminate|]. injection Ey as -> <-.
      refine (conj Hy (conj eq_refl (conj eq_refl _))). unfold s'. cbn [set_ready set_timers set_now now].
      now apply Z.leb_le.
    + intros tm E [[d Hd]|Hr].
      * destruct (Z.leb d n') eqn:El.
        -- right. unfold s'. cbn [set_ready set_timers set_now ready]. apply in_app_iff. right.
           apply in_map_iff. exists (mkTimer tm d (TScope c)). split; [reflexivity|].
           apply (proj2 (in_sort_timers _ _)). unfold due. apply filter_In. split; [exact Hd|exact El].
        -- left. exists d. unfold s', rest. cbn [set_ready set_timers set_now timers]. apply filter_In.
           split; [exact Hd|]. cbn [tm_when]. now rewrite El.
      * right. unfold s'. cbn [set_ready set_timers set_now ready]. apply in_app_iff. now left.
    + unfold s'. cbn [set_ready set_timers set_now now]. unfold n'. lia.
Qed.

Definition RT (s s' : st) : Prop := TInv s -> TInv s'.

(* programs enter only scopes that exist *)
Definition tinv_oks : oks :=
  mk_oks (fun s c => c < nscope s) (fun _ _ _ => True) (fun _ _ => True) (fun _ => True) (fun _ _ => True)
         (fun _ _ => True) (fun _ _ _ => True) (fun _ _ => True).

Lemma tinv_walk : walk_hyps RT tinv_oks.
Proof.
  constructor; unfold RT; cbn [tinv_oks ok_enter ok_setdl ok_tick ok_new ok_genter ok_henter ok_trun ok_cancel].
  - auto.
  - auto.
  - intros a b F. now apply tinv_frame.
  - exact I.
  - intros s d sh. apply new_scope_tinv.
  - intros s d sh t _ T. apply scope_enter_tinv; [cbn; lia|now apply new_scope_tinv].
  - intros s c t Hc. now apply scope_enter_tinv.
  - intros s g t _ T. apply scope_enter_tinv; [apply (gi_gscope _ (proj1 T))|exact T].
  - intros s t _ T. apply scope_enter_tinv; [apply (gi_hscope _ (proj1 T))|exact T].
  - intros s c t exc. apply scope_exit_tinv.
  - intros s c _. apply scope_cancel_tinv.
  - intros s g. apply scope_cancel_tinv.
  - intros s t. apply scope_cancel_tinv.
  - intros s c d _. apply set_deadline_tinv.
  - intros s T. apply add_group_tinv; [cbn; lia|now apply new_scope_tinv].
  - apply (spawn_closed RT); [unfold RT; auto|exact tinv_frame|exact add_child_tinv].
  - intros s t f w. apply sleep_arm_tinv.
  - intros s t f. apply sleep0_tinv.
  - intros s t f tm E. apply sleep_wake_tinv. exists t, f. exact E.
  - intros s f tm. apply pop_sleepdone_tinv.
  - intros s c tm _ Hin. now apply timeout_run_tinv.
  - intros s. apply add_root_tinv.
  - intros s dt Hdt _. now apply tick_tinv.
Qed.

(* programs can only enter scopes that exist: the one side condition on ops (see TimerThms.tinv_needs_wf) *)
Definition op_wf (s : st) (o : op) : Prop :=
  match o with AEnter _ c => c < nscope s | _ => True end.

Theorem step_tinv s o : op_wf s o -> TInv s -> TInv (fst (step s o)).
Proof.
  intros Hwf. apply (walk_step tinv_walk). destruct o; cbn; auto. destruct h; cbn; auto.
Qed.

Lemma tinv_init : TInv init.
Proof.
  split.
  - constructor.
    + cbn; lia.
    + cbn; lia.
    + intros tm. cbn. lia.
    + intros tm _. reflexivity.
    + intros c tm H. discriminate H.
    + intros c c' tm H. discriminate H.
    + intros tm (t & f & H). discriminate H.
    + intros c _. reflexivity.
    + intros g. cbn. lia.
    + intros t. cbn. lia.
  - intros c. apply ne_pinv; [|now left]. constructor.
    + intros x [].
    + intros tm [].
    + reflexivity.
Qed.

(* well-formed runs *)
Fixpoint wf_run (s : st) (ops : list op) : Prop :=
  match ops with
  | [] => True
  | o :: r => op_wf s o /\ wf_run (fst (step s o)) r
  end.

Definition reach_wf (s : st) : Prop := exists ops, wf_run init ops /\ s = final step init ops.

Lemma wf_run_tinv ops : forall s, TInv s -> wf_run s ops -> TInv (final step s ops).
Proof.
  induction ops as [|o r IH]; intros s T W; [exact T|]. destruct W as [W1 W2]. cbn [final fold_left].
  apply IH; [now apply step_tinv|exact W2].
Qed.

Theorem reach_tinv s : reach_wf s -> TInv s.
Proof. intros (ops & W & ->). apply wf_run_tinv; [apply tinv_init|exact W]. Qed.

Lemma wf_run_app ops : forall s o, wf_run s ops -> op_wf (final step s ops) o -> wf_run s (ops ++ [o]).
Proof.
  induction ops as [|x r IH]; intros s o W Ho.
  - cbn. split; [exact Ho|exact I].
  - destruct W as [W1 W2]. cbn [app wf_run]. split; [exact W1|]. apply IH; [exact W2|exact Ho].
Qed.

Lemma reach_wf_step s o : reach_wf s -> op_wf s o -> reach_wf (fst (step s o)).
Proof.
  intros (ops & W & ->) Ho. exists (ops ++ [o]). split; [now apply wf_run_app|]. now rewrite final_app.
Qed.

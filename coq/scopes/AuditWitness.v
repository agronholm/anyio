(* Non-vacuity witnesses for C03 / C04 / C05: concrete
   runs of the generated domain on which the hypotheses of the run-level / per-op theorems hold and their
   conclusions are visible.  Everything is computed (vm_compute) on states reached from init. *)

From AV Require Import Base Machine TreeInv DeliverAlive TreeStep PotentialThms DebtThms CycleThms CycleMore ActThms
  ChainWindow ReceiptWalk ReceiptRun NativeHonoured NativeAbsorbed.

Ltac vc := vm_compute; reflexivity.

(* task 1 enters scopes 1 > 2 and sleeps (future 6); scope 1 is cancelled from a callback; a new root task appears;
   then task 1's wake-up is run *)
Definition rw_pre : list op :=
  [ANewRoot; ANewScope 1 None false; AEnter 1 1; ANewScope 1 None false; AEnter 1 2; ASleep 1 None].
Definition rw_ops : list op := rw_pre ++ [AExtCancel 1; ANewRoot].

Lemma rw_ok : ops_ok init rw_ops = true. Proof. vc. Qed.
Lemma rw_pre_ok : ops_ok init rw_pre = true. Proof. vc. Qed.
Lemma rw_pre1_ok : ops_ok init (rw_pre ++ [AExtCancel 1]) = true. Proof. vc. Qed.

(* (a): the op AExtCancel 1 does not affect task 1; before it task 1 holds no request, after it it holds one tagged
   with scope 1, and scope 1 is cancelled and visible from its current scope 2 in the state after the op *)
Example request_only_by_visible_delivery_witness :
  let a := final step init rw_pre in
  let b := fst (step a (AExtCancel 1)) in
  ops_ok init rw_pre = true /\ op_ok a (AExtCancel 1) = true /\ ~ In 1 (aff a (AExtCancel 1)) /\
  Held b 1 1 /\ ~ Held a 1 1 /\ ~ OC a 1 1 /\ OC b 1 1.
Proof.
  cbv zeta. split; [vc|]. split; [vc|]. split; [intros H; vm_compute in H; exact H|].
  split; [right; exists 6; split; vc|].
  split.
  { intros [[A _]|[f [A B]]].
    - assert (E : k_must (tasks (final step init rw_pre) 1) = false) by vc. rewrite E in A. discriminate A.
    - assert (E : k_waiter (tasks (final step init rw_pre) 1) = Some 6) by vc. rewrite E in A. injection A as <-.
      assert (E2 : f_st (futs (final step init rw_pre) 6) = FPend) by vc. rewrite E2 in B. discriminate B. }
  split.
  { intros [x [_ [_ C]]]. assert (E : s_cancelled (scopes (final step init rw_pre) 1) = false) by vc.
    rewrite E in C. discriminate C. }
  exists 2. split; [vc|]. split; [|vc].
  apply (vis_up _ 1 2 1); [vc|vc|vc|apply vis_here].
Qed.

(* (b) on the same step: its premises hold for task 1 *)
Example suspended_task_frame_witness :
  let a := final step init rw_pre in
  let b := fst (step a (AExtCancel 1)) in
  ops_ok init rw_pre = true /\ op_ok a (AExtCancel 1) = true /\ 1 < ntask a /\ ~ In 1 (aff a (AExtCancel 1)) /\
  k_cur (tasks b 1) = Some 2 /\ k_cur (tasks a 1) = Some 2 /\
  s_active (scopes a 2) = true /\ s_parent (scopes b 2) = Some 1 /\ s_parent (scopes a 2) = Some 1 /\
  s_cancelled (scopes a 1) = false /\ s_cancelled (scopes b 1) = true.
Proof.
  cbv zeta. split; [vc|]. split; [vc|]. split; [vm_compute; lia|]. split; [intros H; vm_compute in H; exact H|].
  repeat split; vc.
Qed.

(* the affected-task theorem: task 1, holding the request and not yet run, tries to act (AYield 1); the op is
   rejected (the task is not at a decision point) and changes nothing -- the `Same` disjunct.  (The other disjunct
   bounds what a freshly created task can hold; in the model a delivery skips a task that has not started, no run
   with a created task holding a request is known.) *)
Example request_of_affected_task_witness :
  let a := final step init (rw_pre ++ [AExtCancel 1]) in
  ops_ok init (rw_pre ++ [AExtCancel 1]) = true /\ op_ok a (AYield 1) = true /\ MP a /\ In 1 (aff a (AYield 1)) /\
  Held (fst (step a (AYield 1))) 1 1 /\ k_done (tasks (fst (step a (AYield 1))) 1) = None /\
  Same a (fst (step a (AYield 1))).
Proof.
  cbv zeta. split; [vc|]. split; [vc|]. split; [apply (reach_mp _ rw_pre1_ok)|]. split; [now left|].
  split; [right; exists 6; split; vc|]. split; [vc|].
  assert (E : fst (step (final step init (rw_pre ++ [AExtCancel 1])) (AYield 1)) = final step init (rw_pre ++ [AExtCancel 1])).
  { cbn [step actor]. assert (Ei : idle (final step init (rw_pre ++ [AExtCancel 1])) 1 = false) by vc. now rewrite Ei. }
  rewrite E. repeat split; reflexivity.
Qed.

(* a recorded request next to a wait: F19's history up to the native request (7 ops): _must_cancel is set while the
   task still waits on future 4 -- which is not pending (the scope's delivery cancelled it) *)
Example request_excludes_pending_wait_witness :
  let s := final step init (firstn 7 f19_ops) in
  ops_ok init (firstn 7 f19_ops) = true /\
  k_must (tasks s 1) = true /\ k_waiter (tasks s 1) = Some 4 /\ f_st (futs s 4) = FCanc 2.
Proof. vm_compute. repeat split; reflexivity. Qed.

(* the run-level window: the receipt of task 1 at the end of rw_ops is a request placed by the delivery run of
   AExtCancel 1: prefix = rw_pre ++ [AExtCancel 1] (7 of 8 ops), x = 2, n = 1, org = 1; the first disjunct of
   C04_receipt_visible_unless_shield_raised is false (the future was cancelled, it carries no exception), the
   second holds with a non-trivial prefix and the walk at receipt still finds the cancelled scope *)
Example receipt_window_witness :
  let pre := rw_pre ++ [AExtCancel 1] in let post := [ANewRoot] in
  let s0 := final step init pre in let s1 := final step init rw_ops in
  ops_ok init rw_ops = true /\ receives s1 (HWake 1 6) 1 1 /\
  snd (step s1 (ARun (HWake 1 6))) = RExc (ECancel 2) /\
  f_st (futs s1 6) = FCanc 2 /\
  rw_ops = pre ++ post /\
  k_cur (tasks s0 1) = Some 2 /\ k_cur (tasks s1 1) = Some 2 /\ up s0 2 1 = Some 1 /\
  s_cancelled (scopes s0 1) = true /\
  (forall j y, j < 1 -> up s0 2 j = Some y -> s_cancelled (scopes s0 y) = false /\ s_shield (scopes s0 y) = false) /\
  eff_cancelled s1 2 = true.
Proof.
  cbv zeta. split; [vc|]. split.
  { split; [vm_compute; now left|]. right. exists 6. split; [reflexivity|vc]. }
  split; [vc|]. split; [vc|]. split; [vc|]. split; [vc|]. split; [vc|]. split; [vc|]. split; [vc|]. split; [|vc].
  intros j y Hj Hy. assert (j = 0) by lia. subst j. cbn [up] in Hy. injection Hy as <-. split; vc.
Qed.

(* C05: a native request with other tasks acting between the request and the receipt *)
(* task 1 sleeps (future 2); Task.cancel() on it; then a second root task appears, creates and enters scope 1,
   cancels it, the scope's delivery callback runs (it cancels task 2's own wait), time passes; task 1 is in aff of
   none of these ops; its wake-up then raises the native CancelledError *)
Definition nat_ops : list op :=
  [ANewRoot; ANewScope 2 None false; AEnter 2 1; ACancel 2 1; ARun (HDeliver 1); ATick 3].

Lemma nat_a_ok : ops_ok init nat_pre = true. Proof. vc. Qed.

Lemma nat_unaffected :
  unaffected 1 (fst (step (final step init nat_pre) (ANativeCancel 1))) nat_ops.
Proof.
  unfold nat_ops. cbn [unaffected].
  repeat split; try (intros H; vm_compute in H; destruct H as [H|H]; [discriminate H|exact H]);
    try (intros H; vm_compute in H; exact H).
Qed.

Example native_request_run_premises :
  let a := final step init nat_pre in
  let a1 := fst (step a (ANativeCancel 1)) in
  let s := final step a1 nat_ops in
  ops_ok init nat_pre = true /\ k_done (tasks a 1) = None /\ 1 < ntask a /\ wait_cancelled_by_scope a 1 = false /\
  ops_ok a1 nat_ops = true /\ unaffected 1 a1 nat_ops /\
  ready s = [HWake 1 2; HWake 2 6; HDeliver 1] /\ s_cancelled (scopes s 1) = true /\
  snd (step s (ARun (HWake 1 2))) = RExc (ECancel 0).
Proof.
  cbv zeta. split; [vc|]. split; [vc|]. split; [vm_compute; lia|]. split; [vc|]. split; [vc|].
  split; [exact nat_unaffected|]. repeat split; vc.
Qed.

Lemma final_nil' (s : st) : final step s [] = s.
Proof. reflexivity. Qed.

Example native_request_run_instance :
  let a := final step init nat_pre in
  let a1 := fst (step a (ANativeCancel 1)) in
  let s := final step a1 nat_ops in
  NHeld s 1 /\ receives_native s (HWake 1 2) 1.
Proof.
  cbv zeta.
  assert (R : reach_ok (final step init nat_pre)) by (exists nat_pre; split; [exact nat_a_ok|reflexivity]).
  pose proof native_request_run_premises as P. cbv zeta in P.
  destruct P as (_ & Hd & At & Hw & Hok & Hu & Hr & _).
  pose proof (native_request_honoured (final step init nat_pre) 1 nat_ops R Hd At Hw Hok Hu) as HH. cbv zeta in HH.
  destruct HH as [Hn Hrec]. split; [exact Hn|]. apply Hrec; [rewrite Hr; now left|]. right. now exists 2.
Qed.

(* one op of that run for C05_native_request_stays_pending: the delivery callback of scope 1 runs while task 1
   holds the native request *)
Example native_request_stays_pending_witness :
  let a := final step (fst (step (final step init nat_pre) (ANativeCancel 1))) (firstn 4 nat_ops) in
  ops_ok init (nat_pre ++ ANativeCancel 1 :: firstn 4 nat_ops) = true /\
  op_ok a (ARun (HDeliver 1)) = true /\ In (HDeliver 1) (ready a) /\ ~ In 1 (aff a (ARun (HDeliver 1))) /\
  k_waiter (tasks a 1) = Some 2 /\ f_st (futs a 2) = FCanc 0 /\
  f_st (futs (fst (step a (ARun (HDeliver 1)))) 2) = FCanc 0 /\
  k_waiter (tasks (fst (step a (ARun (HDeliver 1)))) 2) = Some 6 /\
  f_st (futs (fst (step a (ARun (HDeliver 1)))) 6) = FCanc 2.
Proof.
  cbv zeta. split; [vc|]. split; [vc|]. split; [vm_compute; right; now left|]. split; [intros H; vm_compute in H; exact H|].
  repeat split; vc.
Qed.

(* C03: the reached cancelled scope of the new-task witness is hosted *)
Example nt_host : s_host (scopes (final step init nt_pre) 1) = Some 1.
Proof. vc. Qed.

Example nt_premises_host :
  let s := final step init nt_pre in
  s_host (scopes s 1) <> None /\
  (reach_ok s /\ running s <> Some 2 /\ k_ctl (tasks s 2) = CNew /\ k_started (tasks s 2) = false /\
   k_waiter (tasks s 2) = None /\ k_done (tasks s 2) = None /\ In (HStep 2) (ready s) /\ 2 < ntask s /\
   s_cancelled (scopes s 1) = true /\ reaches s 2 1 /\ k_must (tasks s 2) = false /\
   wokn 2 s nt_ops /\ exists s', wcyc (length (ready s)) s nt_ops s').
Proof. cbv zeta. split; [rewrite nt_host; intros H; discriminate H|exact nt_premises]. Qed.

(* the task-group witness of C03_cancel_latency_any_activity lies outside the FIFO theorem: cycle_ok fails on it (the
   second head run resumes the host inside TaskGroup.__aexit__, a frame that is not simple_ctl) *)
Lemma grp_ready : ready (final step init grp_pre) = [HWake 2 8; HWake 1 9; HDeliver 1].
Proof. vc. Qed.
Lemma grp_ready1 : hd (HStep 0) (ready (run_head (final step init grp_pre))) = HWake 1 9.
Proof. vc. Qed.
Lemma grp_ctl1 : simple_ctl (k_ctl (tasks (run_head (final step init grp_pre)) 1)) = false.
Proof. vc. Qed.

Example grp_cycle_ok_fails :
  ~ cycle_ok 3 11 (length (ready (final step init grp_pre))) (final step init grp_pre).
Proof.
  rewrite grp_ready. cbn [length cycle_ok]. rewrite grp_ready. intros [[E _]|[_ H]]; [discriminate E|].
  destruct (ready (run_head (final step init grp_pre))) as [|h r] eqn:Er; [pose proof grp_ready1 as G; rewrite Er in G; discriminate G|].
  pose proof grp_ready1 as G. rewrite Er in G. cbn [hd] in G. subst h.
  destruct H as [[E _]|[[_ [_ [_ B]]] _]]; [discriminate E|]. rewrite grp_ctl1 in B. discriminate B.
Qed.

(* C05: entry-relative restoration, a root task and a task-group child *)
Lemma clean_none s t : k_cur (tasks s t) = None -> clean s t.
Proof. intros E x y Hx. rewrite E in Hx. discriminate Hx. Qed.

Lemma clean_chain2 s t x p :
  k_cur (tasks s t) = Some x -> s_parent (scopes s x) = Some p -> s_parent (scopes s p) = None ->
  s_cancelled (scopes s x) = false -> s_cancelled (scopes s p) = false -> clean s t.
Proof.
  intros Ec Ex Ep Cx Cp x' y Hx A. rewrite Ec in Hx. injection Hx as <-.
  inversion A as [|x0 p0 H0 A0]; subst; [exact Cx|]. rewrite Ex in H0. injection H0 as <-.
  inversion A0 as [|x1 p1 H1 A1]; subst; [exact Cp|]. rewrite Ep in H1. discriminate H1.
Qed.

(* root task 1: enters 1 > 2 > 3, scopes 1 and 3 are cancelled, the delivery of 3 hits the sleeping task, scope 3
   hands its debt to 2, the task leaves 3, 2 and 1 *)
Definition root_ops : list op := tl handover_pre ++ handover_mid ++ handover_post.

Lemma root_ok2 : ops_ok2 init (ANewRoot :: root_ops) = true. Proof. vc. Qed.

Example back_at_entry_root_instance :
  let s0 := final step init [ANewRoot] in
  reach_ok2 s0 /\ ops_ok2 s0 root_ops = true /\ alloc_t s0 1 /\ k_group (tasks s0 1) = None /\
  clean s0 1 /\ clean (final step s0 root_ops) 1 /\
  ext_count s0 root_ops 1 = 0%Z /\ k_ncancel (tasks s0 1) = 0 /\ k_ncancel (tasks (final step s0 root_ops) 1) = 0 /\
  (* in between the count was raised by the deliveries *)
  k_ncancel (tasks (final step s0 (tl handover_pre ++ handover_mid)) 1) = 1.
Proof.
  cbv zeta. split; [exists [ANewRoot]; split; [vc|reflexivity]|]. split; [vc|].
  split; [split; vm_compute; lia|]. split; [vc|]. split; [apply clean_none; vc|]. split; [apply clean_none; vc|].
  repeat split; vc.
Qed.

(* a task-group child (task 2, group 1, handle scope 2 inside the group scope 1): it enters its own scope 3,
   cancels it, sleeps; the delivery raises its counter to 1; it receives the cancellation and leaves the scope,
   which absorbs it and takes its uncancel back.  No scope on the child's chain (2, 1) is cancelled at either end.
   This is an instance of C05_cancelling_back_at_entry_lower (the theorem for every task) in which the bound is
   attained; C05_cancelling_back_at_entry itself is about root tasks only *)
Definition child_own : list op :=
  [AEnter 2 3; ACancel 2 3; ASleep 2 None; ARun (HDeliver 3); ARun (HWake 2 9); AExit 2 3 false].

Example back_at_entry_child_instance :
  let s0 := final step init child_pre in
  let s1 := final step s0 child_own in
  reach_ok2 s0 /\ ops_ok2 s0 child_own = true /\ alloc_t s0 2 /\ k_group (tasks s0 2) = Some 1 /\
  clean s0 2 /\ clean s1 2 /\
  ext_count s0 child_own 2 = 0%Z /\ k_ncancel (tasks s0 2) = 0 /\ k_ncancel (tasks s1 2) = 0 /\
  k_ncancel (tasks (final step s0 (firstn 4 child_own)) 2) = 1.
Proof.
  cbv zeta. split; [exists child_pre; split; [vc|reflexivity]|]. split; [vc|].
  split; [split; vm_compute; lia|]. split; [vc|].
  split; [apply (clean_chain2 _ 2 2 1); vc|]. split; [apply (clean_chain2 _ 2 2 1); vc|].
  repeat split; vc.
Qed.

(* C03: checkpoint under the FIFO loop with a bystander queued in front *)
(* task 1 enters scope 1; a second root task 2 goes into a checkpoint (its step is queued first); task 1 cancels its own
   scope (the delivery skips the running task and re-schedules itself) and goes into a checkpoint:
   ready = [HStep 2; HDeliver 1; HStep 1].  The head run resumes the bystander task 2 (frame CYield YCheckpoint) *)
Definition ckb_ops : list op :=
  [ANewRoot; ANewScope 1 None false; AEnter 1 1; ANewRoot; AYield 2; ACancel 1 1; AYield 1].

Example ckb_premises :
  let s := final step init ckb_ops in
  reach_ok s /\ running s <> Some 1 /\ s_cancelled (scopes s 1) = true /\ s_host (scopes s 1) <> None /\
  reaches s 1 1 /\ k_started (tasks s 1) = true /\ k_waiter (tasks s 1) = None /\
  k_ctl (tasks s 1) = CYield YCheckpoint /\ ready s = [HStep 2; HDeliver 1] ++ HStep 1 :: [] /\
  ~ In (HStep 1) [HStep 2; HDeliver 1] /\ In (HDeliver 1) [HStep 2; HDeliver 1] /\
  k_ctl (tasks s 2) = CYield YCheckpoint /\
  CycleMore.cycle_okc 1 (length (ready s)) s.
Proof.
  cbv zeta. set (s := final step init ckb_ops).
  assert (R : reach_ok s) by (exists ckb_ops; split; [vc|reflexivity]).
  assert (E1 : ready s = [HStep 2; HDeliver 1; HStep 1]) by vc.
  refine (conj R _). repeat (match goal with |- _ /\ _ => split end).
  - assert (E : running s = None) by vc. rewrite E. intros H; discriminate H.
  - vc.
  - assert (E : s_host (scopes s 1) = Some 1) by vc. rewrite E. intros H; discriminate H.
  - split; [vc|]. exists 1. split; [vc|apply vis_here].
  - vc.
  - vc.
  - vc.
  - exact E1.
  - intros [H|[H|[]]]; discriminate H.
  - right. now left.
  - vc.
  - rewrite E1. cbn [length CycleMore.cycle_okc]. rewrite E1. right. split.
    { split; [vc|]. split; [intros H; discriminate H|]. split; [intros H; discriminate H|vc]. }
    assert (E2 : ready (run_head s) = [HDeliver 1; HStep 1]) by vc. rewrite E2. right. split.
    { split; [vc|]. split; [intros H; discriminate H|exact I]. }
    assert (E3 : ready (run_head (run_head s)) = [HStep 1; HDeliver 1]) by vc. rewrite E3. now left.
Qed.

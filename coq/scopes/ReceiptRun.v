(* C04, run level: every receipt of a scope-tagged cancellation REQUEST in every run of the generated domain was
   placed when its origin was cancelled and visible from the task's current scope, and at receipt it still is --
   unless a shield was raised in between on a scope strictly below the origin (F25) -- or the exception was not
   a request at all but was read from a future completed with an exception (start() re-raising the child's
   exception, C07's routing). *)
From Coq Require Import ZArith Lia.
From AV Require Import Base Machine MachineFacts ScopeFrames TreeInv DeliverAlive TreeStep KernelInv CycleThms ActWalk
  ActThms ChainWindow ReceiptWalk.
From AV Require GroupInv GroupInv2 GroupInv3 GroupInv9.

Lemma reach_ok_greach s : reach_ok s -> GroupInv.reach s.
Proof. intros [ops [_ ->]]. now exists ops. Qed.

Lemma reach_run s : reach_ok s -> running s = None.
Proof. intros R. apply (GroupInv3.i_run _ (GroupInv9.reachable s (reach_ok_greach s R))). Qed.

Lemma reach_gk s : reach_ok s -> GroupInv2.KInv s.
Proof. intros R. apply (GroupInv3.m_k _ (GroupInv3.i_m _ (GroupInv9.reachable s (reach_ok_greach s R)))). Qed.

Lemma reach_gc s : reach_ok s -> GroupInv3.CInv s.
Proof. intros R. apply (GroupInv3.m_c _ (GroupInv3.i_m _ (GroupInv9.reachable s (reach_ok_greach s R)))). Qed.

Lemma step_run_any a h : In h (ready a) ->
  fst (step a (ARun h)) =
  fst (match h with
       | HStep u => resume (pop a h) u None
       | HWake u f => resume (pop a h) u (Some f)
       | HDeliver c => (set_running (deliver_top (set_running (pop a h) None) c) None, RNone)
       | HTaskDone u => (run_task_done (pop a h) u, RNone)
       | HSleepDone f _ => (fut_complete (pop a h) f (FRes 0), RNone)
       | HTimeout c _ => (set_running (scope_timeout (set_running (pop a h) None) c) None, RNone)
       end).
Proof.
  intros Hin. cbn [step actor]. unfold run_handle. apply existsb_handle in Hin. rewrite Hin. cbn [negb]. reflexivity.
Qed.

(* ActWalk proves this for the handle at the head of the ready list; the list does not enter the walk *)
Lemma aw_run_any t a h :
  In h (ready a) -> other_head t h ->
  aw t (xe a (ARun h)) (xe a (ARun h) ++ xc a (ARun h)) (pop a h) (fst (step a (ARun h))).
Proof.
  intros Hin Ho. rewrite (step_run_any a h Hin).
  set (a' := set_ready a (h :: remove_first h (ready a))).
  pose proof (aw_run_head t a' h (remove_first h (ready a)) eq_refl Ho) as H.
  rewrite (step_run_head a' h (remove_first h (ready a)) eq_refl) in H. exact H.
Qed.

(* the frame of one op, seen from a task t that is not affected by it *)
Definition frame_t (t : tid) (a b : st) : Prop :=
  tk_core (tasks b t) = tk_core (tasks a t) /\
  (forall y, s_active (scopes a y) = true -> s_parent (scopes b y) = s_parent (scopes a y)) /\
  (forall y, y < nscope a -> s_cancelled (scopes a y) = true -> s_cancelled (scopes b y) = true) /\
  (forall f, k_waiter (tasks a t) = Some f -> f_st (futs a f) <> FPend -> f_st (futs b f) = f_st (futs a f)).

Lemma frame_t_refl t a : frame_t t a a.
Proof. repeat split; auto. Qed.

Lemma frame_of_aw t XE X a b :
  Tree a -> KInv a -> aw t XE X a b ->
  (forall y, In y XE -> s_active (scopes a y) = false \/ s_parent (scopes b y) = s_parent (scopes a y)) ->
  frame_t t a b.
Proof.
  intros T K W HX. repeat split.
  - apply (tframe_core t a b), (aw_t _ _ _ _ _ W), K.
  - intros y Ha. pose proof (tr_act_alloc _ T y Ha) as [_ Hy].
    destruct (in_dec Nat.eq_dec y XE) as [Hin|Hn]; [|now apply (aw_par _ _ _ _ _ W)].
    destruct (HX y Hin) as [E|E]; [congruence|exact E].
  - intros y Hy Hc. now apply (aw_mono _ _ _ _ _ W).
  - intros f Hf Hd. destruct (aw_t _ _ _ _ _ W K) as [B _]. apply (by_done _ _ _ _ (B f Hf) Hd).
Qed.

Theorem frame_step t a o :
  reach_ok a -> op_ok a o = true -> t < ntask a -> ~ In t (aff a o) -> frame_t t a (fst (step a o)).
Proof.
  intros R Hok At Hn. pose proof (reach_tree a R) as T. pose proof (reach_k a R) as K.
  destruct (actor o) as [u|] eqn:Ea.
  - assert (Hu : u <> t) by (intros ->; apply Hn; unfold aff; rewrite Ea; now left).
    destruct (idle a u) eqn:Ei.
    + assert (Ho : other_act t o).
      { destruct o; cbn [actor] in Ea; try discriminate; cbn [other_act actor]; congruence. }
      apply (frame_of_aw t _ _ a _ T K (aw_step_act t a o Ho At)). intros y Hy.
      assert (Es : (forall v, o <> AFinish u v) -> fst (step a o) = fst (puppet_op a u o)).
      { intros Hv. unfold step. rewrite Ea, Ei. cbn [negb]. destruct o; try reflexivity.
        cbn [actor] in Ea. injection Ea as ->. now elim (Hv v). }
      destruct o; cbn [actor] in Ea; try discriminate; injection Ea as ->;
        try (rewrite Es by (intros v0; discriminate);
             match goal with |- context [puppet_op a u ?oo] => apply (xe_act_ok t a u oo R Hu eq_refl y Hy) end).
      cbn [xe] in Hy. destruct Hy.
    + unfold step. rewrite Ea, Ei. cbn [negb fst]. apply frame_t_refl.
  - destruct o; cbn [actor] in Ea; try discriminate; try apply frame_t_refl.
    + (* ANewRoot *)
      apply (frame_of_aw t _ _ a _ T K (aw_step_act t a ANewRoot ltac:(cbn; discriminate) At)). intros y [].
    + (* ANativeCancel *)
      destruct (Nat.eq_dec t0 t) as [->|Hne].
      * cbn [step actor fst]. pose proof (kframe_task_cancel a t 0) as Kf. repeat split.
        -- apply (kf_tasks _ _ Kf t).
        -- intros y _. now rewrite (core_parent _ _ (kf_scopes _ _ Kf y)).
        -- intros y _ Hc. now rewrite (core_cancelled _ _ (kf_scopes _ _ Kf y)).
        -- intros f _ Hd. apply (kf_fdone _ _ Kf f Hd).
      * apply (frame_of_aw t _ _ a _ T K (aw_step_act t a (ANativeCancel t0) Hne At)). intros y [].
    + (* AExtCancel *)
      apply (frame_of_aw t _ _ a _ T K (aw_step_act t a (AExtCancel c) ltac:(cbn; discriminate) At)). intros y [].
    + (* ARun *)
      destruct (existsb (handle_eqb h) (ready a)) eqn:Ee.
      2:{ cbn [step actor]. unfold run_handle. rewrite Ee. cbn [negb fst]. apply frame_t_refl. }
      assert (Hin : In h (ready a)) by now apply existsb_handle.
      assert (Hh : other_head t h).
      { destruct h; cbn [other_head]; auto; intros ->; apply Hn; cbn [aff actor]; now left. }
      set (s1 := pop a h).
      assert (T1 : Tree s1) by (apply (Tree_treq a); [exact T|apply treq_set_ready]).
      assert (K1 : KInv s1) by (apply (KInv_kq a); [exact K|apply kq_tasks_same; reflexivity]).
      apply (frame_of_aw t _ _ s1 _ T1 K1 (aw_run_any t a h Hin Hh)).
      intros y Hy. left. change (scopes s1 y) with (scopes a y).
      destruct h as [u|u g|x|u|g tm|x tm]; cbn [xe] in Hy; try (destruct Hy; fail);
        unfold xe_ctl in Hy; destruct (k_ctl (tasks a u)) eqn:Ec; try (destruct Hy; fail); destruct Hy as [<-|[]];
        first [apply (fresh_inactive a R)|apply (new_hscope_inactive a u R Ec)].
    + (* ATick *)
      apply (frame_of_aw t _ _ a _ T K (aw_step_act t a (ATick dt) ltac:(cbn; discriminate) At)). intros y [].
Qed.

(* (a) a tagged request that a task holds after an op and did not hold before was placed by a delivery run of its
   origin: the origin is cancelled and visible from the task's current scope, before or after the op *)
Theorem request_only_by_visible_delivery a o t org :
  reach_ok a -> op_ok a o = true -> ~ In t (aff a o) ->
  Held (fst (step a o)) t org -> Held a t org \/ OC a t org \/ OC (fst (step a o)) t org.
Proof.
  intros R Hok Hn Hh. pose proof (W_step a o R (reach_run a R) Hok) as W.
  destruct (w_h _ _ _ _ _ _ _ W (TO_reach a R) (reach_k a R) t org Hn Hh) as [A|[[_ A]|[_ A]]]; auto.
Qed.

(* ... and the tasks an op affects directly: the acting / resumed task holds no request afterwards (or the op was
   rejected and changed nothing), a task it creates holds none or one justified in the state after the op *)
Theorem request_of_affected_task a o t org :
  reach_ok a -> op_ok a o = true -> MP a -> In t (aff a o) ->
  Held (fst (step a o)) t org -> k_done (tasks (fst (step a o)) t) = None ->
  Same a (fst (step a o)) \/ OC (fst (step a o)) t org.
Proof.
  intros R Hok M Hin Hh Hd. pose proof (reach_run a R) as Hr.
  unfold aff in Hin. destruct (actor o) as [u|] eqn:Ea.
  - destruct Hin as [<-|Hin].
    + destruct (own_step a o u R Hr Hok M (or_introl Ea)) as [S|N]; [now left|now elim (N org)].
    + assert (Eo : exists g, (o = ASpawn u g \/ o = AStart u g) /\ group_active a g = true /\ t = ntask a).
      { destruct o; cbn [uo] in Hin; try (destruct Hin; fail); cbn [actor] in Ea; injection Ea as ->;
          destruct (group_active a g) eqn:Eg; try (destruct Hin; fail); destruct Hin as [<-|[]]; exists g; auto. }
      destruct Eo as (g & Ho & Hg & ->). destruct (idle a u) eqn:Ei.
      * right. now apply (child_step a u g o R Hr Ei Ho Hg).
      * left. unfold step. rewrite Ea, Ei. cbn [negb fst]. repeat split; reflexivity.
  - destruct o; cbn [actor] in Ea; try discriminate; try (destruct Hin; fail).
    + destruct Hin as [<-|[]]. now elim (root_step a org).
    + destruct h as [u|u f|c|u|f tm|c tm]; try (destruct Hin; fail); destruct Hin as [<-|[]].
      * destruct (own_step a _ u R Hr Hok M (or_intror (or_introl eq_refl))) as [S|N]; [now left|now elim (N org)].
      * destruct (own_step a _ u R Hr Hok M (or_intror (or_intror (ex_intro _ f eq_refl)))) as [S|N];
          [now left|now elim (N org)].
      * destruct (existsb (handle_eqb (HTaskDone u)) (ready a)) eqn:Ee.
        -- exfalso. assert (Hin : In (HTaskDone u) (ready a)) by now apply existsb_handle.
           destruct (GroupInv2.k_td _ (reach_gk a R) u Hin) as [Hdn _]. apply Hdn.
           rewrite (step_run_any a _ Hin) in Hd. cbn [fst] in Hd. rewrite td_done in Hd. exact Hd.
        -- left. cbn [step actor]. unfold run_handle. rewrite Ee. cbn [negb fst]. repeat split; reflexivity.
Qed.

(* (b) a task that an op does not affect keeps its record up to the cancel counter and the request flag (so its
   current scope, its wait and its outcome), the parent link of every entered scope is unchanged, and no scope is
   un-cancelled *)
Theorem suspended_task_frame a o t :
  reach_ok a -> op_ok a o = true -> t < ntask a -> ~ In t (aff a o) ->
  tk_core (tasks (fst (step a o)) t) = tk_core (tasks a t) /\
  (forall y, s_active (scopes a y) = true -> s_parent (scopes (fst (step a o)) y) = s_parent (scopes a y)) /\
  (forall y, y < nscope a -> s_cancelled (scopes a y) = true -> s_cancelled (scopes (fst (step a o)) y) = true).
Proof. intros R Hok At Hn. destruct (frame_step t a o R Hok At Hn) as (F1 & F2 & F3 & _). auto. Qed.

Theorem held_step_cases a o t org :
  reach_ok a -> op_ok a o = true -> MP a ->
  (Held a t org -> k_done (tasks a t) = None -> t < ntask a) ->
  let b := fst (step a o) in
  Held b t org -> k_done (tasks b t) = None ->
  (Held a t org /\ k_done (tasks a t) = None /\ (frame_t t a b \/ Same a b)) \/
  (OC a t org /\ frame_t t a b) \/ OC b t org.
Proof.
  intros R Hok M HJ b Hh Hd. pose proof (reach_tree a R) as Tr.
  destruct (in_dec Nat.eq_dec t (aff a o)) as [Hin|Hn].
  - destruct (request_of_affected_task a o t org R Hok M Hin Hh Hd) as [S|A]; [left|now right; right].
    pose proof S as (Et & _ & Ef & _). fold b in Et, Ef.
    split; [revert Hh; apply held_eq; [now rewrite Et|exact Ef]|]. split; [now rewrite <- Et|now right].
  - destruct (request_only_by_visible_delivery a o t org R Hok Hn Hh) as [A|[A|A]].
    + assert (At : t < ntask a).
      { destruct (Nat.lt_ge_cases t (ntask a)) as [L|G]; [exact L|]. apply HJ; [exact A|].
        apply (GroupInv3.c_unalloc _ (reach_gc a R) t). unfold GroupInv2.alloc. lia. }
      pose proof (frame_step t a o R Hok At Hn) as F. left. split; [exact A|]. split; [|now left].
      rewrite <- (tcore_done _ _ (proj1 F)). exact Hd.
    + assert (At : t < ntask a).
      { destruct A as [x [Hx _]]. apply (tr_cur_alloc _ Tr t x Hx). }
      right. left. split; [exact A|]. now apply frame_step.
    + right. now right.
Qed.

Definition Placed (s0 s1 : st) (t : tid) (org x : sid) (n : nat) : Prop :=
  k_cur (tasks s0 t) = Some x /\ k_cur (tasks s1 t) = Some x /\ up s0 x n = Some org /\
  s_cancelled (scopes s0 org) = true /\
  (forall j y, j < n -> up s0 x j = Some y ->
               s_cancelled (scopes s0 y) = false /\ s_shield (scopes s0 y) = false) /\
  (forall j y, j < n -> up s0 x j = Some y -> s_parent (scopes s1 y) = s_parent (scopes s0 y)) /\
  s_cancelled (scopes s1 org) = true.

Lemma vis_up_chain s org x : vis s org x ->
  exists n, up s x n = Some org /\
    forall j y, j < n -> up s x j = Some y -> s_cancelled (scopes s y) = false /\ s_shield (scopes s y) = false.
Proof.
  induction 1 as [|x p E1 E2 E3 V [n [U O]]]; [exists 0; split; [reflexivity|intros j y Hj; lia]|].
  exists (S n). split; [cbn [up]; now rewrite E3|].
  intros j y Hj Hy. destruct j as [|j]; [cbn in Hy; injection Hy as <-; now split|].
  cbn [up] in Hy. rewrite E3 in Hy. apply (O j y); [lia|exact Hy].
Qed.

Lemma up_same s0 a : forall j x,
  (forall i y, i < j -> up s0 x i = Some y -> s_parent (scopes a y) = s_parent (scopes s0 y)) ->
  up a x j = up s0 x j.
Proof.
  induction j as [|j IH]; intros x H; [reflexivity|]. cbn [up].
  rewrite (H 0 x ltac:(lia) eq_refl). destruct (s_parent (scopes s0 x)) as [p|] eqn:Ep; [|reflexivity].
  apply IH. intros i y Hi Hy. apply (H (S i) y); [lia|]. cbn [up]. now rewrite Ep.
Qed.

Lemma up_active a : Tree a -> forall j x y, s_active (scopes a x) = true -> up a x j = Some y -> s_active (scopes a y) = true.
Proof.
  intros T. induction j as [|j IH]; intros x y Ha Hy; [cbn in Hy; now injection Hy as <-|].
  cbn [up] in Hy. destruct (s_parent (scopes a x)) as [p|] eqn:Ep; [|discriminate].
  apply (IH p y); [apply (tr_par_act _ T x p Ha Ep)|exact Hy].
Qed.

Lemma up_prefix s x : forall n j org, up s x n = Some org -> j <= n -> exists y, up s x j = Some y.
Proof.
  intros n. revert x. induction n as [|n IH]; intros x j org H Hj.
  - assert (j = 0) by lia. subst. now exists x.
  - destruct j as [|j]; [now exists x|]. cbn [up] in *. destruct (s_parent (scopes s x)) as [p|]; [|discriminate].
    apply (IH p j org H). lia.
Qed.

Lemma placed_step s0 a b t org x n : Tree a -> Placed s0 a t org x n -> frame_t t a b -> Placed s0 b t org x n.
Proof.
  intros T (C0 & C1 & U & Cc & Op & Pa & Ca) (Fk & Fp & Fc & _).
  assert (Same_up : forall j, j <= n -> up a x j = up s0 x j).
  { intros j Hj. apply up_same. intros i y Hi Hy. apply (Pa i y); [lia|exact Hy]. }
  assert (Act : forall j y, j <= n -> up s0 x j = Some y -> s_active (scopes a y) = true).
  { intros j y Hj Hy. apply (up_active a T j x y); [apply (tr_cur_act _ T t x C1)|]. now rewrite Same_up. }
  refine (conj C0 (conj _ (conj U (conj Cc (conj Op (conj _ _)))))).
  - rewrite (tcore_cur _ _ Fk). exact C1.
  - intros j y Hj Hy. rewrite (Fp y); [now apply (Pa j y)|]. apply (Act j y); [lia|exact Hy].
  - pose proof (Act n org (le_n _) U) as Ao. pose proof (tr_act_alloc _ T org Ao) as [_ Lo]. now apply Fc.
Qed.

Lemma placed_same s0 a b t org x n : Same a b -> Placed s0 a t org x n -> Placed s0 b t org x n.
Proof.
  intros (Et & Es & _ & _) (C0 & C1 & U & Cc & Op & Pa & Ca).
  refine (conj C0 (conj _ (conj U (conj Cc (conj Op (conj _ _)))))).
  - now rewrite Et.
  - intros j y Hj Hy. rewrite Es. now apply (Pa j y).
  - now rewrite Es.
Qed.

Lemma placed_new s t org : OC s t org -> exists x n, Placed s s t org x n.
Proof.
  intros [x [Hx [V C]]]. destruct (vis_up_chain s org x V) as [n [U O]]. exists x, n.
  exact (conj Hx (conj Hx (conj U (conj C (conj O (conj (fun _ _ _ _ => eq_refl) C)))))).
Qed.

Lemma ops_ok_app s l1 : forall l2, ops_ok s (l1 ++ l2) = ops_ok s l1 && ops_ok (final step s l1) l2.
Proof. intros l2. apply TreeStep.ops_ok_app. Qed.

Lemma final_snoc s ops o : final step s (ops ++ [o]) = fst (step (final step s ops) o).
Proof. rewrite final_app. reflexivity. Qed.

Definition J (ops : list op) : Prop :=
  let s1 := final step init ops in
  MP s1 /\
  forall t org, Held s1 t org -> k_done (tasks s1 t) = None ->
    exists pre post x n, ops = pre ++ post /\ Placed (final step init pre) s1 t org x n.

Theorem J_all ops : ops_ok init ops = true -> J ops.
Proof.
  induction ops as [|o ops IH] using rev_ind; intros Hok.
  - split.
    + intros t f Hm. cbn in Hm. discriminate.
    + intros t org [[A _]|[f [A _]]]; cbn in A; discriminate.
  - rewrite ops_ok_app in Hok. apply andb_true_iff in Hok. destruct Hok as [Hok1 Hok2].
    cbn [ops_ok] in Hok2. rewrite andb_true_r in Hok2.
    destruct (IH Hok1) as [M HJ]. unfold J. rewrite final_snoc.
    set (a := final step init ops) in *.
    assert (R : reach_ok a) by (exists ops; now split).
    pose proof (reach_run a R) as Hr. pose proof (reach_tree a R) as Tr.
    split.
    + apply (w_mp _ _ _ _ _ _ _ (W_step a o R Hr Hok2) (reach_k a R) M).
    + intros t org Hh Hd.
      assert (HJ' : Held a t org -> k_done (tasks a t) = None -> t < ntask a).
      { intros A D. destruct (HJ t org A D) as (pre & post & x & n & _ & (_ & C1 & _)).
        apply (tr_cur_alloc _ Tr t x C1). }
      destruct (held_step_cases a o t org R Hok2 M HJ' Hh Hd) as [(A & D & F)|[(A & F)|A]].
      * destruct (HJ t org A D) as (pre & post & x & n & E & P).
        exists pre, (post ++ [o]), x, n. split; [now rewrite E, app_assoc|].
        destruct F as [F|F]; [now apply (placed_step _ a)|now apply (placed_same _ a)].
      * destruct (placed_new a t org A) as (x & n & P).
        exists ops, [o], x, n. split; [reflexivity|]. now apply (placed_step _ a).
      * destruct (placed_new _ t org A) as (x & n & P).
        exists (ops ++ [o]), [], x, n. split; [now rewrite app_nil_r|]. now rewrite final_snoc.
Qed.

Lemma upn_of_up s : forall n x org, up s x n = Some org ->
  (forall j y, j < n -> up s x j = Some y -> s_cancelled (scopes s y) = false /\ s_shield (scopes s y) = false) ->
  upn s x n.
Proof.
  induction n as [|n IH]; intros x org U O; [apply upn_0|].
  destruct (O 0 x ltac:(lia) eq_refl) as [E1 E2]. cbn [up] in U.
  destruct (s_parent (scopes s x)) as [p|] eqn:Ep; [|discriminate].
  apply (upn_S s x p n E2 E1 Ep). apply (IH p org U). intros j y Hj Hy. apply (O (S j) y); [lia|].
  cbn [up]. now rewrite Ep.
Qed.

Lemma nscope_run : forall ops s, reach_ok s -> ops_ok s ops = true -> nscope s <= nscope (final step s ops).
Proof.
  induction ops as [|o r IH]; intros s R Hok; [cbn; lia|].
  cbn [ops_ok] in Hok. apply andb_true_iff in Hok. destruct Hok as [H1 H2].
  pose proof (w_ns _ _ _ _ _ _ _ (W_step s o R (reach_run s R) H1)) as N.
  pose proof (IH (fst (step s o)) (reach_ok_step s o R H1) H2) as N2.
  change (final step s (o :: r)) with (final step (fst (step s o)) r). lia.
Qed.

(* the body of the window statement, for one request *)
Definition window (ops : list op) (t : tid) (org : sid) : Prop :=
  exists pre post x n,
    ops = pre ++ post /\
    let s0 := final step init pre in let s1 := final step init ops in
    k_cur (tasks s0 t) = Some x /\ k_cur (tasks s1 t) = Some x /\ up s0 x n = Some org /\
    s_cancelled (scopes s0 org) = true /\
    (forall j y, j < n -> up s0 x j = Some y -> s_cancelled (scopes s0 y) = false /\ s_shield (scopes s0 y) = false) /\
    (eff_cancelled s1 x = true \/
     exists j y, j < n /\ up s0 x j = Some y /\ s_shield (scopes s0 y) = false /\ s_shield (scopes s1 y) = true).

Theorem request_window ops t org :
  ops_ok init ops = true ->
  Held (final step init ops) t org -> k_done (tasks (final step init ops) t) = None -> window ops t org.
Proof.
  intros Hok Hh Hd. destruct (J_all ops Hok) as [_ HJ].
  destruct (HJ t org Hh Hd) as (pre & post & x & n & E & (C0 & C1 & U & Cc & Op & Pa & Ca)).
  exists pre, post, x, n. split; [exact E|]. cbv zeta.
  refine (conj C0 (conj C1 (conj U (conj Cc (conj Op _))))).
  set (s0 := final step init pre) in *. set (s1 := final step init ops) in *.
  assert (Hok' : ops_ok init pre = true /\ ops_ok s0 post = true).
  { rewrite E, ops_ok_app in Hok. now apply andb_true_iff in Hok. }
  destruct Hok' as [Hp Hq].
  assert (R0 : reach_ok s0) by (exists pre; now split).
  pose proof (reach_tree s0 R0) as T0.
  assert (Hn : n < nscope s0).
  { apply (upn_bound s0 x n (Tree_TreeL s0 T0)); [now apply (upn_of_up s0 n x org)|apply (tr_cur_act _ T0 t x C0)]. }
  assert (Hm : nscope s0 <= nscope s1).
  { unfold s1. rewrite E, final_app. now apply nscope_run. }
  destruct (receipt_visible_unless_shield_raised s0 s1 n x org (nscope s1 - S n) U Op Cc Pa Ca) as [H|(j & y & Hj & Hy & S0 & S1 & _)].
  - left. unfold eff_cancelled. replace (nscope s1) with (S n + (nscope s1 - S n)) by lia. exact H.
  - right. exists j, y. auto.
Qed.

(* what a receipt is: a request held by the task, or an exception read from a future *)
Theorem receipt_is_request_or_future s h t org :
  reach_ok s -> receives s h t org ->
  (Held s t org /\ k_done (tasks s t) = None) \/
  (exists f, h = HWake t f /\ f_st (futs s f) = FExc (ECancel (S org))).
Proof.
  intros R [Hin Hr]. pose proof (reach_gk s R) as G.
  destruct Hr as [[-> Hi]|[f [-> Hi]]]; unfold incoming in Hi; cbn [snd] in Hi;
    change (tasks (ChainWindow.pop s _) t) with (tasks s t) in Hi; change (futs (ChainWindow.pop s _)) with (futs s) in Hi.
  - destruct (GroupInv2.k_step _ G t Hin) as (_ & Hd & _). left. split; [|exact Hd].
    destruct (k_must (tasks s t)) eqn:Em; [|discriminate]. injection Hi as Hi. left. now split.
  - destruct (GroupInv2.k_wake _ G t f Hin) as [Hw _]. destruct (GroupInv2.k_w1 _ G t f Hw) as (_ & Hd & _).
    destruct (f_st (futs s f)) as [|v|e|o] eqn:Ef.
    + left. split; [|exact Hd]. destruct (k_must (tasks s t)) eqn:Em; [|discriminate]. injection Hi as Hi. left. now split.
    + left. split; [|exact Hd]. destruct (k_must (tasks s t)) eqn:Em; [|discriminate]. injection Hi as Hi. left. now split.
    + destruct (k_must (tasks s t)) eqn:Em.
      * destruct e as [o| | | |l]; try (left; split; [|exact Hd]; injection Hi as Hi; left; now split).
        right. exists f. split; [reflexivity|]. injection Hi as ->. exact Ef.
      * right. exists f. split; [reflexivity|]. injection Hi as ->. exact Ef.
    + left. split; [|exact Hd]. right. exists f. split; [exact Hw|].
      destruct (k_must (tasks s t)); injection Hi as ->; exact Ef.
Qed.

(* every receipt of every run *)
Theorem receipt_window_run ops h t org :
  ops_ok init ops = true -> receives (final step init ops) h t org ->
  (exists f, h = HWake t f /\ f_st (futs (final step init ops) f) = FExc (ECancel (S org))) \/
  window ops t org.
Proof.
  intros Hok Hr. assert (R : reach_ok (final step init ops)) by (exists ops; now split).
  destruct (receipt_is_request_or_future _ h t org R Hr) as [[Hh Hd]|H]; [right|now left].
  now apply request_window.
Qed.

Theorem receipt_window_run_holds : receipt_window_run_statement.
Proof. intros ops h t org Hok Hr. exact (receipt_window_run ops h t org Hok Hr). Qed.

(* the invariant behind (a): a recorded request and a pending wait exclude each other, in every reachable state *)
Theorem reach_mp ops : ops_ok init ops = true -> MP (final step init ops).
Proof. intros Hok. apply (J_all ops Hok). Qed.

Theorem request_excludes_pending_wait (ops : list op) (t : tid) (f : fid) :
  ops_ok init ops = true ->
  k_must (tasks (final step init ops) t) = true -> k_waiter (tasks (final step init ops) t) = Some f ->
  f_st (futs (final step init ops) f) <> FPend.
Proof. intros H. exact (reach_mp ops H t f). Qed.

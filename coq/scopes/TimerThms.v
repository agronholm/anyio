(* C06 clauses as theorems over every (well-formed) op sequence of the S machine. *)
From AV Require Import Base Machine MachineFacts ChainFrame ChainThms ChainWalk ChainMono TimerInv.
From Coq Require Import Sorted.

(* I3: the handle an uncancelled scope remembers is live exactly once, is the scope's own, is set for the current
   deadline (or has already fired and sits in the ready queue), and the scope is active *)
Theorem one_live_timer s c tm :
  reach_wf s -> s_timeout (scopes s c) = Some tm -> s_cancelled (scopes s c) = false ->
  s_active (scopes s c) = true /\ live s tm = 1 /\
  ((exists d, In (mkTimer tm d (TScope c)) (timers s) /\ s_deadline (scopes s c) = Some d) \/
   (In (HTimeout c tm) (ready s) /\ exists d, s_deadline (scopes s c) = Some d /\ (d <= now s)%Z)).
Proof.
  intros R Et Ec. destruct (reach_tinv s R) as [G P].
  destruct (pi_armed _ _ _ (P c) tm Et Ec) as [Ha He]. split; [exact Ha|].
  pose proof (gi_uniq _ G tm) as Hu. split.
  - unfold live in *. destruct He as [[d Hd]|Hr].
    + pose proof (tcount_in tm (timers s) _ Hd eq_refl). lia.
    + pose proof (rcount_in tm (ready s) _ Hr). cbn in H. rewrite Nat.eqb_refl in H. specialize (H eq_refl). lia.
  - destruct He as [[d Hd]|Hr].
    + left. exists d. split; [exact Hd|]. apply (pi_timer _ _ _ (P c) _ Hd eq_refl).
    + right. split; [exact Hr|]. apply (pi_ready _ _ _ (P c) tm Hr).
Qed.

(* never missed: an active, uncancelled scope with a finite deadline always has its timeout callback pending *)
Theorem never_missed s c d :
  reach_wf s -> s_active (scopes s c) = true -> s_cancelled (scopes s c) = false ->
  s_deadline (scopes s c) = Some d ->
  exists tm, s_timeout (scopes s c) = Some tm /\ live s tm = 1 /\
             (In (mkTimer tm d (TScope c)) (timers s) \/ (In (HTimeout c tm) (ready s) /\ (d <= now s)%Z)).
Proof.
  intros R Ha Ec Ed. destruct (reach_tinv s R) as [G P].
  destruct (pi_never_missed _ _ _ (P c) d Ha Ec Ed) as [tm Et]. exists tm. split; [exact Et|].
  destruct (one_live_timer s c tm R Et Ec) as (_ & Hl & He). split; [exact Hl|].
  destruct He as [(d' & Hd & Ed')|(Hr & d' & Ed' & Hle)]; rewrite Ed in Ed'; injection Ed' as <-; auto.
Qed.

(* no stray timers: every deadline timer / fired timeout callback in the loop belongs to the scope that
   remembers it; a fired one is due *)
Theorem no_stray_timers s :
  reach_wf s ->
  (forall x c, In x (timers s) -> tm_what x = TScope c ->
               s_timeout (scopes s c) = Some (tm_id x) /\ s_deadline (scopes s c) = Some (tm_when x)) /\
  (forall c tm, In (HTimeout c tm) (ready s) ->
                s_timeout (scopes s c) = Some tm /\ exists d, s_deadline (scopes s c) = Some d /\ (d <= now s)%Z).
Proof.
  intros R. destruct (reach_tinv s R) as [G P]. split.
  - intros x c. apply (pi_timer _ _ _ (P c)).
  - intros c tm. apply (pi_ready _ _ _ (P c)).
Qed.

(* never after the scope was left: an inactive scope has no handle, no timer and no pending timeout callback *)
Theorem no_timer_after_exit s c :
  reach_wf s -> s_active (scopes s c) = false ->
  s_timeout (scopes s c) = None /\ (forall x, In x (timers s) -> tm_what x <> TScope c) /\
  (forall tm, ~ In (HTimeout c tm) (ready s)).
Proof.
  intros R Ha. destruct (reach_tinv s R) as [G P]. pose proof (pi_inactive _ _ _ (P c) Ha) as Et.
  destruct (pinv_none_ne s c _ (P c) Et) as [N1 N2 N3]. auto.
Qed.

(* and leaving a scope really leaves it inactive with its timer gone, whatever __exit__ returns *)
Theorem exit_deactivates s c t exc :
  exit_guards s c t = true -> s_active (scopes (fst (scope_exit s c t exc)) c) = false.
Proof.
  intros G. pose proof (exit_tframe s c t exc G) as F. rewrite (tf_active _ _ F).
  destruct (cancel_timeout_fields (upd_scope s c (sc_active false)) c) as (_ & _ & _ & K).
  rewrite (proj2 (proj2 (K c))). now rewrite scopes_upd_same.
Qed.

(* timer ids are never reused *)
Theorem timer_ids_unique s tm : reach_wf s -> live s tm <= 1 /\ (ntimer s <= tm -> live s tm = 0).
Proof. intros R. destruct (reach_tinv s R) as [G _]. split; [apply G|apply G]. Qed.

Definition when_le (a b : timer) : Prop := (tm_when a <= tm_when b)%Z.

Lemma insert_timer_sorted x l : StronglySorted when_le l -> StronglySorted when_le (insert_timer x l).
Proof.
  induction 1 as [|y l Hs IH Hy]; cbn [insert_timer]; [repeat constructor|].
  destruct (Z.ltb (tm_when x) (tm_when y)) eqn:E.
  - constructor; [constructor; assumption|]. constructor; [unfold when_le; lia|].
    rewrite Forall_forall in *. intros z Hz. specialize (Hy z Hz). unfold when_le in *. lia.
  - constructor; [exact IH|]. rewrite Forall_forall in *. intros z Hz. apply in_insert_timer in Hz.
    destruct Hz as [->|Hz]; [unfold when_le; lia|now apply Hy].
Qed.

Lemma sort_timers_sorted l : StronglySorted when_le (sort_timers l).
Proof.
  unfold sort_timers. assert (H : StronglySorted when_le []) by constructor. revert H. generalize (@nil timer).
  induction l as [|x l IH]; intros acc H; cbn [fold_left]; [exact H|]. apply IH. now apply insert_timer_sorted.
Qed.

(* after ATick no due timer is left in the heap; the due ones were appended to the ready queue as their callbacks,
   sorted by firing time (insertion sort, stable w.r.t. creation order) *)
Theorem tick_moves_due_timers s dt :
  (0 <= dt)%Z ->
  let s' := fst (step s (ATick dt)) in
  now s' = (now s + dt)%Z /\
  (forall x, In x (timers s') <-> In x (timers s) /\ (now s' < tm_when x)%Z) /\
  exists moved, ready s' = ready s ++ map handle_of_timer moved /\
                (forall x, In x moved <-> In x (timers s) /\ (tm_when x <= now s')%Z) /\
                length moved = length (filter (fun x => Z.leb (tm_when x) (now s')) (timers s)) /\
                StronglySorted when_le moved.
Proof.
  intros Hdt. unfold step. cbn [actor]. assert (E : Z.ltb dt 0 = false) by lia. rewrite E. cbn [fst].
  unfold tick. cbv zeta. cbn [set_ready set_timers set_now now timers ready].
  refine (conj eq_refl (conj _ _)).
  - intros x. rewrite filter_In. rewrite negb_true_iff, Z.leb_gt. tauto.
  - exists (sort_timers (filter (fun x => Z.leb (tm_when x) (now s + dt)) (timers s))).
    refine (conj eq_refl (conj _ (conj _ (sort_timers_sorted _)))).
    + intros x. rewrite in_sort_timers, filter_In, Z.leb_le. tauto.
    + generalize (filter (fun x => Z.leb (tm_when x) (now s + dt)) (timers s)). intros l.
      unfold sort_timers. replace (length l) with (length l + length (@nil timer)) by (cbn; lia).
      generalize (@nil timer). induction l as [|x l IH]; intros acc; cbn [fold_left length]; [reflexivity|].
      rewrite IH. assert (L : length (insert_timer x acc) = S (length acc)).
      { clear. induction acc as [|y acc IH]; cbn [insert_timer]; [reflexivity|].
        destruct (Z.ltb _ _); cbn [length]; [reflexivity|now rewrite IH]. }
      rewrite L. lia.
Qed.

Lemma scope_cancel_cancels s c b : s_cancelled (scopes (scope_cancel s c b) c) = true.
Proof.
  unfold scope_cancel. destruct (s_cancelled (scopes s c)) eqn:E; [exact E|].
  set (s2 := upd_scope (cancel_timeout s c) c _).
  assert (E2 : s_cancelled (scopes s2 c) = true) by (unfold s2; now rewrite scopes_upd_same).
  destruct (s_host (scopes s2 c)); [|exact E2].
  now rewrite (ce_cancelled _ _ (df_scopes _ _ (deliver_top_dframe s2 c) c)).
Qed.

Lemma scope_cancel_bydeadline s c :
  s_cancelled (scopes s c) = false -> s_bydeadline (scopes (scope_cancel s c true) c) = true.
Proof.
  intros Ec. unfold scope_cancel. rewrite Ec. set (s2 := upd_scope (cancel_timeout s c) c _).
  assert (E2 : s_bydeadline (scopes s2 c) = true) by (unfold s2; now rewrite scopes_upd_same).
  destruct (s_host (scopes s2 c)); [|exact E2].
  now rewrite (ce_bydeadline _ _ (df_scopes _ _ (deliver_top_dframe s2 c) c)).
Qed.

(* a scope entered after its deadline is cancelled by __enter__ itself *)
Theorem past_deadline_cancels_on_enter s c t d :
  s_active (scopes s c) = false -> s_deadline (scopes s c) = Some d -> (d <= now s)%Z ->
  let s' := fst (scope_enter s c t) in
  s_cancelled (scopes s' c) = true /\ s_active (scopes s' c) = true /\
  (s_cancelled (scopes s c) = false -> s_bydeadline (scopes s' c) = true).
Proof.
  intros Ea Ed Hd. rewrite scope_enter_eq, Ea. cbv zeta. cbn [fst].
  pose proof (frame_enter_links s c t) as F3. destruct (fr_scopes _ _ F3 c) as [Fd Fc _ _ _ _].
  set (s3 := enter_links s c t) in *.
  assert (E4 : scope_timeout s3 c = scope_cancel s3 c true).
  { unfold scope_timeout. rewrite Fd, Ed, (fr_now _ _ F3). assert (El : Z.leb d (now s) = true) by lia. now rewrite El. }
  rewrite E4. pose proof (scope_cancel_cancels s3 c true) as C4.
  pose proof (scope_cancel_bydeadline s3 c) as B4. rewrite Fc in B4. set (s4 := scope_cancel s3 c true) in *.
  set (s5 := upd_scope s4 c (sc_active true)).
  assert (C5 : s_cancelled (scopes s5 c) = true /\ s_active (scopes s5 c) = true /\
               (s_cancelled (scopes s c) = false -> s_bydeadline (scopes s5 c) = true)).
  { unfold s5. rewrite scopes_upd_same. cbn [sc_active s_cancelled s_active s_bydeadline]. auto. }
  destruct C5 as (C5 & A5 & B5). rewrite C5.
  pose proof (deliver_top_dframe s5 c) as D. destruct (df_scopes _ _ D c) as [_ _ _ _ Xc _ Xa _ _ _ Xb].
  rewrite Xc, Xa, Xb. auto.
Qed.

(* assigning a deadline: stored; timer re-armed by the invariant that holds afterwards (earlier, later, +inf) *)
Theorem deadline_assignment_rearms s t c d :
  reach_wf s -> idle s t = true ->
  let s' := fst (step s (ASetDeadline t c d)) in
  reach_wf s' /\ s_deadline (scopes s' c) = d /\
  (s_active (scopes s' c) = true -> s_cancelled (scopes s' c) = false ->
   match d with
   | Some z => exists tm, s_timeout (scopes s' c) = Some tm /\ In (mkTimer tm z (TScope c)) (timers s') /\ (now s' < z)%Z
   | None => s_timeout (scopes s' c) = None
   end).
Proof.
  intros R Hi s'. assert (R' : reach_wf s') by (apply reach_wf_step; [exact R|exact I]).
  assert (Ed : s_deadline (scopes s' c) = d /\ now s' = now s /\
               (forall z, d = Some z -> (z <= now s)%Z -> s_active (scopes s' c) = true -> s_cancelled (scopes s' c) = true)).
  { unfold s'. rewrite (step_setdl s t c d Hi).
    pose proof (frame_ret (set_deadline_body (begin_act s t) c d) t (RRet 0)) as F.
    destruct (fr_scopes _ _ F c) as [Fd Fc _ Fa _ _]. rewrite Fd, Fc, Fa, (fr_now _ _ F).
    set (s0 := begin_act s t). unfold set_deadline_body. cbv zeta.
    set (s1 := cancel_timeout (upd_scope s0 c (sc_deadline d)) c).
    destruct (cancel_timeout_fields (upd_scope s0 c (sc_deadline d)) c) as (K1 & _ & _ & K4). fold s1 in K1, K4.
    assert (D1 : s_deadline (scopes s1 c) = d) by (rewrite (proj1 (K4 c)); now rewrite scopes_upd_same).
    assert (N1 : now s1 = now s) by (rewrite K1; reflexivity).
    destruct (s_active (scopes s1 c) && negb (s_cancelled (scopes s1 c))) eqn:Eg.
    - pose proof (srel_scope_timeout s1 c) as [Sn _ _].
      assert (Dk : forall x, s_deadline (scopes (scope_timeout s1 c) x) = s_deadline (scopes s1 x)).
      { intros x. unfold scope_timeout. destruct (s_deadline (scopes s1 c)) as [z|]; [|reflexivity].
        destruct (Z.leb z (now s1)).
        - unfold scope_cancel. destruct (s_cancelled (scopes s1 c)); [reflexivity|].
          set (s2 := upd_scope (cancel_timeout s1 c) c _).
          assert (E2 : s_deadline (scopes s2 x) = s_deadline (scopes s1 x)).
          { unfold s2. cbn [upd_scope set_scopes scopes]. rewrite upd_eq.
            destruct (cancel_timeout_fields s1 c) as (_ & _ & _ & Q).
            destruct (Nat.eqb x c) eqn:E; [apply Nat.eqb_eq in E; subst x; cbn|]; apply (proj1 (Q _)). }
          destruct (s_host (scopes s2 c)); [|exact E2].
          now rewrite (ce_deadline _ _ (df_scopes _ _ (deliver_top_dframe s2 c) x)).
        - cbn [call_at upd_scope set_scopes scopes]. rewrite upd_eq.
          destruct (Nat.eqb x c) eqn:E; [apply Nat.eqb_eq in E; subst x|]; reflexivity. }
      refine (conj _ (conj _ _)); [now rewrite Dk|congruence|].
      intros z -> Hz _. unfold scope_timeout. rewrite D1, N1. rewrite (proj2 (Z.leb_le z (now s)) Hz).
      apply scope_cancel_cancels.
    - refine (conj D1 (conj N1 _)). intros z _ _ Ha. apply andb_false_iff in Eg. destruct Eg as [Eg|Eg]; [congruence|].
      now apply negb_false_iff in Eg. }
  destruct Ed as (Ed & En & Ep). refine (conj R' (conj Ed _)). intros Ha Ec.
  destruct d as [z|].
  - destruct (never_missed s' c z R' Ha Ec Ed) as (tm & Et & _ & He). exists tm. split; [exact Et|].
    assert (Hlt : (now s' < z)%Z).
    { destruct (Z.le_gt_cases z (now s)) as [Hle|Hgt]; [|lia]. rewrite (Ep z eq_refl Hle Ha) in Ec. discriminate. }
    destruct He as [Hd|[_ Hle]]; [auto|lia].
  - destruct (s_timeout (scopes s' c)) as [tm|] eqn:Et; [|reflexivity].
    destruct (one_live_timer s' c tm R' Et Ec) as (_ & _ & [(z & _ & Ez)|(_ & z & Ez & _)]); congruence.
Qed.

Lemma split_rest_is_group l m r : split_exn (EGroup l) = (Some m, Some r) -> exists l', r = EGroup l'.
Proof.
  cbn [split_exn]. intros H. injection H as _ H.
  destruct (somes (map snd (map split_exn l))); [discriminate|]. injection H as <-. eauto.
Qed.

Lemma scope_exit_raise_not_timeout s c t exc e : snd (scope_exit s c t exc) = XRaise e -> e <> ETimeout.
Proof.
  destruct (exit_guards s c t) eqn:G.
  - intros H. apply (absorb_rest_iff s c t exc e G) in H. destruct H as (_ & _ & l & m & _ & H).
    destruct (split_rest_is_group l m e H) as [l' ->]. discriminate.
  - rewrite (scope_exit_guards_fail s c t exc G). cbn. intros H. injection H as <-. discriminate.
Qed.

(* `with fail_at(d)` raises TimeoutError exactly when its scope's __exit__ swallowed (so cancelled_caught is set)
   and the clock has reached the scope's deadline *)
Theorem fail_at_timeout_iff s t c :
  idle s t = true ->
  let s0 := begin_act s t in
  let exc := k_held (tasks s0 t) in
  (snd (step s (AExit t c true)) = RExc ETimeout <->
   snd (scope_exit s0 c t exc) = XTrue /\ s_caught (scopes (fst (scope_exit s0 c t exc)) c) = true /\
   exists d, s_deadline (scopes s c) = Some d /\ (d <= now s)%Z).
Proof.
  intros Hi s0 exc. unfold step. cbn [actor]. rewrite Hi. cbn [negb]. unfold puppet_op. cbv zeta. fold s0. fold exc.
  pose proof (scope_exit_chain_frame s0 c t exc) as (Fn & _ & Fk).
  pose proof (scope_exit_raise_not_timeout s0 c t exc) as Hr.
  destruct (scope_exit s0 c t exc) as [s1 x] eqn:E. cbn [fst snd] in *.
  destruct (Fk c) as (_ & _ & _ & Fd & _).
  destruct x as [| |e].
  - cbn [andb]. change (s_caught (scopes (upd_task s1 t (tk_held None)) c)) with (s_caught (scopes s1 c)).
    change (s_deadline (scopes (upd_task s1 t (tk_held None)) c)) with (s_deadline (scopes s1 c)).
    change (now (upd_task s1 t (tk_held None))) with (now s1). rewrite Fd, Fn.
    change (s_deadline (scopes s0 c)) with (s_deadline (scopes s c)). change (now s0) with (now s).
    destruct (s_caught (scopes s1 c)); cbn [andb].
    + destruct (s_deadline (scopes s c)) as [d|].
      * destruct (Z.leb d (now s)) eqn:El; cbn [snd ret_to_puppet].
        -- split; [intros _|reflexivity]. refine (conj eq_refl (conj eq_refl _)). exists d. split; [reflexivity|lia].
        -- split; [discriminate|]. intros (_ & _ & d' & Ed & Hd). injection Ed as <-. lia.
      * cbn [snd ret_to_puppet]. split; [discriminate|]. intros (_ & _ & d' & Ed & _). discriminate.
    + cbn [snd ret_to_puppet]. split; [discriminate|]. intros (_ & H & _). discriminate.
  - cbn [snd ret_to_puppet]. split; [discriminate|]. intros (H & _). discriminate.
  - cbn [snd ret_to_puppet]. split.
    + intros H. injection H as ->. exfalso. now apply (Hr ETimeout).
    + intros (H & _). discriminate.
Qed.

(* in terms of the caller's state: the scope was cancelled, no cancelled parent is visible, the block ended with
   nothing but AnyIO cancellations, and the deadline has passed *)
Corollary fail_at_timeout_iff' s t c :
  idle s t = true ->
  let s0 := begin_act s t in
  (snd (step s (AExit t c true)) = RExc ETimeout <->
   exit_guards s0 c t = true /\ s_cancelled (scopes s c) = true /\ parent_visible s c = false /\
   only_anyio_cancel (k_held (tasks s t)) /\ exists d, s_deadline (scopes s c) = Some d /\ (d <= now s)%Z).
Proof.
  intros Hi s0. rewrite (fail_at_timeout_iff s t c Hi). fold s0.
  assert (Pv : parent_visible s0 c = parent_visible s c).
  { apply parent_visible_ext; [reflexivity|]. intros x. auto. }
  change (k_held (tasks s0 t)) with (k_held (tasks (upd_task s t (tk_waiter None)) t)).
  assert (Hh : k_held (tasks (upd_task s t (tk_waiter None)) t) = k_held (tasks s t)).
  { cbn [upd_task set_tasks tasks]. now rewrite upd_same. }
  rewrite Hh. destruct (exit_guards s0 c t) eqn:G.
  - rewrite (absorb_iff s0 c t _ G). change (s_cancelled (scopes s0 c)) with (s_cancelled (scopes s c)). rewrite Pv.
    split.
    + intros ((A & B & C) & _ & D). auto 6.
    + intros (_ & A & B & C & D). refine (conj (conj A (conj B C)) (conj _ D)).
      destruct (caught_iff_absorbed s0 c t (k_held (tasks s t)) G) as [K _]. rewrite K.
      assert (X : snd (scope_exit s0 c t (k_held (tasks s t))) = XTrue).
      { apply (proj2 (absorb_iff s0 c t _ G)). rewrite Pv. auto. }
      rewrite X. cbn. apply orb_true_r.
  - rewrite (scope_exit_guards_fail s0 c t _ G). cbn [snd]. split; [intros (H & _); discriminate|intros (H & _); discriminate].
Qed.

(* The machine is total: it also accepts AEnter on a scope id that was never allocated.  Without the side
   condition op_wf (programs enter only scopes that exist) "no stray timers" is false of the model: *)
Definition stray_ops : list op :=
  [ANewRoot; ASetDeadline 1 2 (Some 100%Z); AEnter 1 2; ANewScope 1 None false; ANewScope 1 None false].

Example tinv_needs_wf :
  let s := final step init stray_ops in
  In (mkTimer 1 100%Z (TScope 2)) (timers s) /\ s_timeout (scopes s 2) = None /\ s_active (scopes s 2) = false /\
  ~ wf_run init stray_ops.
Proof.
  vm_compute. refine (conj _ (conj eq_refl (conj eq_refl _))); [now left|]. intros (_ & _ & H & _). lia.
Qed.

(* a deadline scope: armed on enter, fired by the clock, cancelled by its callback, reported by fail_at *)
Definition dl_ops : list op := [ANewRoot; AFailAt 1 (Some 5%Z) false; ASleep 1 None].

Example dl_wf : wf_run init (dl_ops ++ [ATick 5; ARun (HTimeout 1 1)]).
Proof. cbn. tauto. Qed.

Example dl_armed :
  let s := final step init dl_ops in
  reach_wf s /\ s_active (scopes s 1) = true /\ s_cancelled (scopes s 1) = false /\
  s_timeout (scopes s 1) = Some 1 /\ timers s = [mkTimer 1 5%Z (TScope 1)] /\ live s 1 = 1.
Proof.
  split; [exists dl_ops; split; [cbn; tauto|reflexivity]|]. vm_compute. repeat split; reflexivity.
Qed.

Example dl_fires :
  let s1 := final step init (dl_ops ++ [ATick 4]) in
  let s2 := final step init (dl_ops ++ [ATick 5]) in
  let s3 := fst (step s2 (ARun (HTimeout 1 1))) in
  timers s1 = [mkTimer 1 5%Z (TScope 1)] /\ ready s1 = [] /\
  timers s2 = [] /\ ready s2 = [HTimeout 1 1] /\ s_cancelled (scopes s2 1) = false /\
  s_cancelled (scopes s3 1) = true /\ s_bydeadline (scopes s3 1) = true /\ s_timeout (scopes s3 1) = None /\
  now s3 = 5%Z.
Proof. vm_compute. repeat split; reflexivity. Qed.

Example dl_fail_at_raises :
  let s3 := final step init (dl_ops ++ [ATick 5; ARun (HTimeout 1 1)]) in
  let f := match k_waiter (tasks s3 1) with Some f => f | None => 0 end in
  let s4 := fst (step s3 (ARun (HWake 1 f))) in
  snd (step s3 (ARun (HWake 1 f))) = RExc (ECancel 2) /\
  idle s4 1 = true /\ snd (step s4 (AExit 1 1 true)) = RExc ETimeout /\
  s_caught (scopes (fst (step s4 (AExit 1 1 true))) 1) = true.
Proof. vm_compute. repeat split; reflexivity. Qed.

(* past deadline on entry *)
Example dl_past_on_enter :
  let s := final step init [ANewRoot; ATick 10; AFailAt 1 (Some 5%Z) false] in
  s_cancelled (scopes s 1) = true /\ s_bydeadline (scopes s 1) = true /\ s_active (scopes s 1) = true /\
  timers s = [] /\ s_timeout (scopes s 1) = None.
Proof. vm_compute. repeat split; reflexivity. Qed.

(* re-arming: later, earlier, infinity *)
Example dl_rearm :
  let s := final step init (dl_ops ++ [ANewRoot]) in
  timers (fst (step s (ASetDeadline 2 1 (Some 9%Z)))) = [mkTimer 2 9%Z (TScope 1)] /\
  timers (fst (step s (ASetDeadline 2 1 (Some 3%Z)))) = [mkTimer 2 3%Z (TScope 1)] /\
  timers (fst (step s (ASetDeadline 2 1 None))) = [] /\
  s_timeout (scopes (fst (step s (ASetDeadline 2 1 None))) 1) = None.
Proof. vm_compute. repeat split; reflexivity. Qed.

(* after the block is left: no handle, no timer, nothing in the ready queue *)
Example dl_after_exit :
  let s := final step init [ANewRoot; AFailAt 1 (Some 5%Z) false; AExit 1 1 true] in
  reach_wf s /\ s_active (scopes s 1) = false /\ s_timeout (scopes s 1) = None /\ timers s = [] /\
  live s 1 = 0.
Proof.
  split; [exists [ANewRoot; AFailAt 1 (Some 5%Z) false; AExit 1 1 true]; split; [cbn; tauto|reflexivity]|].
  vm_compute. repeat split; reflexivity.
Qed.

(* Facts about task records allocated during a step: a new group child gets the fresh scope id nscope s as its
   handle scope, and a start future allocated in that step. *)
From AV Require Import Base Machine GroupInv GroupInv2 GroupInv3 GroupInv4 GroupInv5 GroupWalk.

Definition Qh (h0 : nat * nat) (k : task) : Prop :=
  (k_group k = None /\ k_startfut k = None) \/
  (k_hscope k = fst h0 /\ forall f, k_startfut k = Some f -> snd h0 <= f).

Definition nstab (h0 : nat * nat) (s s' : st) : Prop := forall t, Qh h0 (tasks s t) -> Qh h0 (tasks s' t).

Lemma nstab_refl h0 s : nstab h0 s s.
Proof. intros t H. exact H. Qed.

Lemma nstab_trans h0 a b c : nstab h0 a b -> nstab h0 b c -> nstab h0 a c.
Proof. intros A B t H. apply B, A, H. Qed.

Lemma nstab_kstar h0 C T s s' : kstar C T s s' -> nstab h0 s s'.
Proof.
  intros H t. pose proof (tview_inv _ _ (fr_tv _ _ _ _ (kframe_kstar _ _ _ _ H) t)) as V.
  destruct V as [_ [_ [_ [V4 [V5 [_ [_ [_ [V9 _]]]]]]]]]. unfold Qh. now rewrite V4, V5, V9.
Qed.

Definition nk_keeps (g : task -> task) : Prop :=
  forall k, k_group (g k) = k_group k /\ k_hscope (g k) = k_hscope k /\ k_startfut (g k) = k_startfut k.

Lemma nstab_upd_task h0 s t g : nk_keeps g -> nstab h0 s (upd_task s t g).
Proof.
  intros Hg x. cbn [upd_task set_tasks tasks]. unfold upd. destruct (Nat.eqb_spec x t); [subst|auto].
  destruct (Hg (tasks s t)) as [E1 [E2 E3]]. unfold Qh. now rewrite E1, E2, E3.
Qed.

Lemma nkeeps_hres a b : nk_keeps (tk_hres a b). Proof. intros k. cbn. tauto. Qed.

Lemma nkeeps_fin_unused : True. Proof. exact I. Qed.

Lemma nstab_ns h0 s d sh : nstab h0 s (ns s d sh). Proof. intros t H. exact H. Qed.

Lemma nstable_rec_unused : True. Proof. exact I. Qed.

Lemma nstable_final_unused : True. Proof. exact I. Qed.

Lemma nstab_rec_task h0 s t raw : nstab h0 s (rec_task s t raw).
Proof.
  intros x. destruct (rec_task_fields s t raw x) as [_ [_ [_ [E4 [E5 [_ [E7 _]]]]]]]. unfold Qh. now rewrite E4, E5, E7.
Qed.

Lemma nstab_moves s o a : moves s o a (nstab (nscope s, nfut s)).
Proof.
  apply moves_kstar.
  - apply nstab_refl.
  - apply nstab_trans.
  - apply nstab_kstar.
  - intros x g H. apply nstab_upd_task. intros k. destruct H; try (cbn; tauto). destruct raw; cbn; tauto.
  - intros x f v _ t H. now rewrite fc_tasks.
  - intros x k ev H t Ht. unfold talloc. cbn [tasks]. unfold upd. destruct (Nat.eqb t (ntask x)); [|exact Ht].
    destruct H as [_|gs g e sf Hsf]; [left; split; reflexivity|right]. split; [reflexivity|].
    cbn. intros f E. destruct Hsf as [->| ->]; [discriminate|injection E as <-; apply le_n].
  - intros x y Hb t H. destruct Hb; exact H.
Qed.

Theorem new_task_qh h0 s o : reach s -> h0 = (nscope s, nfut s) -> nstab h0 s (fst (step s o)).
Proof. intros _ ->. apply (walk s o (nstab (nscope s, nfut s))). intros a. apply nstab_moves. Qed.

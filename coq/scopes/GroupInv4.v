(* Building blocks of a step (begin/suspend/yield/park/allocate/complete ...) preserve the mid-step invariant MInv. *)
From AV Require Import Base Machine GroupInv GroupInv2 GroupInv3.

Ltac tcase x t := cbn [upd_task set_tasks set_running set_ctl set_ready call_soon bare_yield tasks]; unfold upd;
  destruct (Nat.eqb_spec x t).

Ltac tkc := cbn [k_ctl k_started k_done k_waiter k_must k_msg k_ncancel k_cur k_held k_group k_hscope
  k_hevent k_hexc k_hret k_startfut k_final k_tdran tk_ctl tk_started tk_done tk_waiter tk_must tk_ncancel
  tk_cur tk_held tk_hres tk_final tk_tdran f_st f_waiter].
Tactic Notation "tkc" "in" hyp(H) := cbn [k_ctl k_started k_done k_waiter k_must k_msg k_ncancel k_cur k_held
  k_group k_hscope k_hevent k_hexc k_hret k_startfut k_final k_tdran tk_ctl tk_started tk_done tk_waiter tk_must
  tk_ncancel tk_cur tk_held tk_hres tk_final tk_tdran f_st f_waiter] in H.

Lemma running_none_ne (s : st) t : running s = None -> running s <> Some t.
Proof. intros ->. discriminate. Qed.

Lemma K_run_waiter s t : KInv s -> running s = Some t -> k_waiter (tasks s t) = None.
Proof.
  intros K Hr. destruct (k_waiter (tasks s t)) as [f|] eqn:E; [|reflexivity].
  destruct (k_w1 s K t f E) as [_ [_ [H _]]]. contradiction.
Qed.

Definition clears_waiter (g : task -> task) (k : task) : Prop :=
  k_waiter (g k) = None /\ cview (g k) = cview k /\ k_cur (g k) = k_cur k.

Lemma K_start_running s t g : KInv s -> running s = None -> clears_waiter g (tasks s t) ->
  ~ In t (thtasks (ready s)) -> k_done (tasks s t) = None -> alloc s t ->
  (forall f, k_waiter (tasks s t) = Some f -> ~ refd s f \/ f_st (futs s f) <> FPend) ->
  KInv (set_running (upd_task s t g) (Some t)).
Proof.
  intros K Hrun [Hgw [Hgc _]] Hnt Hd Hal Hw.
  set (s' := set_running (upd_task s t g) (Some t)).
  assert (Vo : forall x, x <> t -> tasks s' x = tasks s x).
  { intros x Hx. unfold s'. tcase x t; [contradiction|reflexivity]. }
  assert (Vt : tasks s' t = g (tasks s t)).
  { unfold s'. tcase t t; [reflexivity|contradiction]. }
  destruct (cview_inv _ _ Hgc) as [_ [Ed [Eg [_ [_ [_ [_ [Esf [_ Etd]]]]]]]]].
  assert (Hrefd : forall f, refd s' f -> refd s f).
  { apply refd_mono; auto.
    - intros g0 f H. exists g0. exact H.
    - intros c f H. exists c. destruct (Nat.eq_dec c t) as [->|Hc]; [now rewrite Vt, Esf in H|now rewrite (Vo c Hc) in H]. }
  assert (Hin : forall x, In x (thtasks (ready s)) -> x <> t) by (intros x H ->; contradiction).
  constructor; unfold alloc; change (ready s') with (ready s); change (futs s') with (futs s);
    change (nfut s') with (nfut s); change (ntask s') with (ntask s); change (running s') with (Some t).
  - apply K.
  - apply K.
  - intros x f H. rewrite Vo; [apply (k_wake s K x f H)|]. apply Hin, in_thtasks. eauto.
  - intros x H. assert (Hx : x <> t) by (apply Hin, in_thtasks; eauto). rewrite (Vo x Hx).
    destruct (k_step s K x H) as [H1 [H2 [H3 H4]]]. refine (conj H1 (conj H2 (conj _ H4))). congruence.
  - intros x f H. destruct (Nat.eq_dec x t) as [->|Hx]; [congruence|].
    rewrite (Vo x Hx) in *. destruct (k_w1 s K x f H) as [H1 [H2 [H3 H4]]].
    refine (conj H1 (conj H2 (conj _ H4))). congruence.
  - intros x f H. destruct (Nat.eq_dec x t) as [->|Hx]; [congruence|].
    rewrite (Vo x Hx) in *. apply (k_pend s K x f H).
  - intros x Hx. injection Hx as <-. rewrite Vt, Ed. auto.
  - intros x H. destruct (Nat.eq_dec x t) as [->|Hx]; [rewrite Vt, Ed, Etd, Eg|rewrite (Vo x Hx)]; apply (k_td s K _ H).
  - intros f Hx. apply Hrefd in Hx. destruct (k_ref s K f Hx) as [H1 H2]. split; [exact H1|].
    intros Hp x Hwx. specialize (H2 Hp x Hwx). destruct (Nat.eq_dec x t) as [->|Hxt].
    + destruct (Hw f H2) as [H|H]; contradiction.
    + now rewrite (Vo x Hxt).
  - intros x f H1 H2 Hx. apply Hrefd in Hx. destruct (Nat.eq_dec x t) as [->|Hxt]; [congruence|].
    rewrite (Vo x Hxt) in *. eapply k_idle; eauto.
Qed.

Lemma M_start_running s t g : MInv s -> running s = None -> clears_waiter g (tasks s t) ->
  ~ In t (thtasks (ready s)) -> k_done (tasks s t) = None -> alloc s t ->
  (forall f, k_waiter (tasks s t) = Some f -> ~ refd s f \/ f_st (futs s f) <> FPend) ->
  MInv (set_running (upd_task s t g) (Some t)).
Proof.
  intros [K Ci G J] Hrun Hg Hnt Hd Hal Hw.
  assert (Hcv : forall x, cview (tasks (set_running (upd_task s t g) (Some t)) x) = cview (tasks s x)).
  { intros x. tcase x t; [subst; apply Hg|reflexivity]. }
  constructor.
  - apply K_start_running; auto.
  - revert Ci. apply C_ext2; try (cbn; lia); auto.
    + intros x Hx. cbn [running set_running] in Hx. tcase x t; [subst; congruence|reflexivity].
    + intros x _. now apply running_none_ne.
    + intros x c Hr Ht. split; [|auto]. tcase x t; [|reflexivity]. subst. apply Hg.
  - revert G. apply G_ext; try (cbn; lia); auto.
    intros x. specialize (Hcv x). pose proof (cview_inv _ _ Hcv) as V. unfold gview.
    destruct V as [_ [-> [-> [_ [_ [_ [_ [-> [_ ->]]]]]]]]]. reflexivity.
  - revert J. apply J_ext; auto.
    intros x _. now apply running_none_ne.
Qed.

Lemma M_begin_act s t : Inv s -> idle s t = true ->
  MInv (begin_act s t) /\ running (begin_act s t) = Some t /\ k_ctl (tasks s t) = CIdle /\ alloc s t.
Proof.
  intros [M Hrun] Hi. unfold idle in Hi.
  destruct (k_ctl (tasks s t)) eqn:Ec; try discriminate.
  destruct (k_waiter (tasks s t)) as [f|] eqn:Ew; try discriminate.
  apply andb_prop in Hi. destruct Hi as [Hi H0]. apply andb_prop in Hi. destruct Hi as [Hp Hlt].
  apply Nat.ltb_lt in H0, Hlt.
  assert (Hpend : f_st (futs s f) = FPend).
  { unfold fut_pending in Hp. destruct (f_st (futs s f)); try discriminate. reflexivity. }
  assert (Hal : alloc s t) by (split; assumption).
  refine (conj _ (conj eq_refl (conj eq_refl Hal))).
  unfold begin_act. pose proof (m_k s M) as K.
  apply M_start_running; auto.
  - repeat split.
  - eapply k_pend; eauto.
  - apply (k_w1 s K t f Ew).
  - intros f0 E0. left. rewrite Ew in E0. injection E0 as <-. eapply k_idle; eauto.
Qed.

(* state equivalence: same components, task table pointwise equal *)
Record st_eqv (s s' : st) : Prop := {
  sq_tasks : forall t, tasks s' t = tasks s t;
  sq_ntask : ntask s' = ntask s; sq_scopes : scopes s' = scopes s; sq_nscope : nscope s' = nscope s;
  sq_groups : groups s' = groups s; sq_ngroup : ngroup s' = ngroup s; sq_futs : futs s' = futs s;
  sq_nfut : nfut s' = nfut s; sq_events : events s' = events s; sq_nevent : nevent s' = nevent s;
  sq_ready : ready s' = ready s; sq_timers : timers s' = timers s; sq_running : running s' = running s
}.

Lemma M_seq s s' : st_eqv s s' -> MInv s -> MInv s'.
Proof.
  intros [Qt Qnt Qs Qns Qg Qng Qf Qnf Qe Qne Qr Qtm Qrun] [K Ci G J].
  assert (Qv : forall t, tview (tasks s' t) = tview (tasks s t)) by (intros t; now rewrite Qt).
  constructor.
  - revert K. apply KInv_mono; rewrite ?Qr, ?Qtm; auto. intros t. now rewrite Qt.
  - revert Ci. apply C_ext; rewrite ?Qs, ?Qe, ?Qns, ?Qne; auto. intros t c _ _. now rewrite Qt.
  - revert G. apply G_ext; rewrite ?Qg, ?Qf, ?Qnt, ?Qns, ?Qnf; auto. intros t. apply tview_gview, Qv.
  - revert J. apply J_ext; rewrite ?Qg, ?Qf, ?Qrun; auto; [intros t; apply tview_cview, Qv|].
    unfold sleepref. now rewrite Qr, Qtm.
Qed.

Lemma M_call_soon s h : MInv s -> handle_ok s h -> MInv (call_soon s h).
Proof.
  intros [K Ci G J] Hh. constructor.
  - apply K_call_soon; auto.
  - revert Ci. apply C_ext; try reflexivity; auto.
  - revert G. apply G_ext; try reflexivity; auto.
  - revert J. apply J_ext; try reflexivity; auto.
    intros f [[tm H]|H]; [|right; exact H]. cbn [call_soon set_ready ready] in H. apply in_app_iff in H.
    destruct H as [H|[->|[]]]; [left; eauto|exact Hh].
Qed.

Lemma fc_set_running s r f v : fut_complete (set_running s r) f v = set_running (fut_complete s f v) r.
Proof.
  unfold fut_complete. cbn [futs set_running]. destruct (f_st (futs s f)); try reflexivity.
  destruct (f_waiter (futs s f)); reflexivity.
Qed.

Lemma fc_upd_task s t g f v : fut_complete (upd_task s t g) f v = upd_task (fut_complete s f v) t g.
Proof.
  unfold fut_complete. cbn [futs upd_task set_tasks]. destruct (f_st (futs s f)); try reflexivity.
  destruct (f_waiter (futs s f)); reflexivity.
Qed.

Lemma kframe_like_fc s f v x : f_st (futs s x) <> FPend -> futs (fut_complete s f v) x = futs s x.
Proof.
  intros H. destruct (fc_spec s f v) as [[_ ->]|[Hp [Ef _]]]; [reflexivity|].
  rewrite Ef. apply upd_other. congruence.
Qed.

Lemma fc_frame_other s f v : forall x, x <> f -> futs (fut_complete s f v) x = futs s x.
Proof.
  intros x Hx. destruct (fc_spec s f v) as [[_ ->]|[Hp [Ef _]]]; [reflexivity|].
  rewrite Ef. now apply upd_other.
Qed.

Lemma sleepref_fc s f v x : sleepref (fut_complete s f v) x -> sleepref s x.
Proof.
  destruct (fc_spec s f v) as [[_ ->]|[Hp [Ef Er]]]; [auto|].
  intros [[tm H]|[y [H1 H2]]].
  - left. exists tm. rewrite Er, in_app_iff in H. destruct H as [H|H]; [exact H|].
    destruct (f_waiter (futs s f)); cbn in H; [destruct H as [H|[]]; discriminate|contradiction].
  - right. exists y. rewrite fc_timers in H1. auto.
Qed.

Lemma C_fut_complete s f v : CInv s -> CInv (fut_complete s f v).
Proof.
  apply C_ext; rewrite ?fc_tasks, ?fc_scopes, ?fc_events, ?fc_running, ?fc_ntask, ?fc_nscope, ?fc_nevent; auto.
Qed.

Lemma GP_fut_complete P s f v : GInvP P s -> GInvP P (fut_complete s f v).
Proof.
  apply GP_ext; rewrite ?fc_tasks, ?fc_groups, ?fc_ntask, ?fc_nscope, ?fc_nfut; auto.
  intros x e _ H. rewrite kframe_like_fc; [exact H|]. rewrite H. discriminate.
Qed.

Lemma J_fut_complete s f v : JInv s ->
  (forall r e, v = FRes r -> In f (e_waiters (events s e)) -> e_set (events s e) = true) ->
  JInv (fut_complete s f v).
Proof.
  intros J Hres. destruct (fc_spec s f v) as [[_ ->]|[Hp [Ef Er]]]; [exact J|].
  assert (V : forall x, f_st (futs (fut_complete s f v) x) = if Nat.eqb x f then v else f_st (futs s x)).
  { intros x. rewrite Ef. unfold upd. destruct (Nat.eqb x f); reflexivity. }
  constructor; rewrite ?fc_tasks, ?fc_groups, ?fc_events, ?fc_running; try apply J.
  + intros x e H Hs. apply sleepref_fc in Hs. revert Hs. apply (kk_et s J x e H).
  + intros x c H Hs. apply sleepref_fc in Hs. revert Hs. apply (kk_st s J x c H).
  + intros x e r H1. rewrite V. destruct (Nat.eqb_spec x f) as [->|Hx].
    * intros ->. eapply Hres; eauto.
    * apply (j_ev s J x e r H1).
Qed.

(* the kernel precondition: a pending future with a waiter is what that task waits for *)
Lemma M_fut_complete' s f v : MInv s -> v <> FPend ->
  (f_st (futs s f) = FPend -> forall t, f_waiter (futs s f) = Some t -> k_waiter (tasks s t) = Some f) ->
  (forall r e, v = FRes r -> In f (e_waiters (events s e)) -> e_set (events s e) = true) ->
  MInv (fut_complete s f v).
Proof.
  intros [K Ci G J] Hv Hw Hres. constructor.
  - apply K_fut_complete; auto.
  - apply C_fut_complete, Ci.
  - apply G_P, GP_fut_complete, G_P, G.
  - apply J_fut_complete; auto.
Qed.

Lemma M_fut_complete s f v : MInv s -> v <> FPend -> refd s f ->
  (forall r e, v = FRes r -> In f (e_waiters (events s e)) -> e_set (events s e) = true) ->
  MInv (fut_complete s f v).
Proof. intros M Hv Hr. apply M_fut_complete'; auto. apply (k_ref s (m_k s M) f Hr). Qed.

Lemma M_upd_task_irrel s t g : tk_irrel g -> MInv s -> MInv (upd_task s t g).
Proof. intros Hg. apply M_kstar_none, ks_one, kp_task, Hg. Qed.

Definition nf (s : st) : st := fst (new_fut s).

Lemma new_fut_eq s : new_fut s = (nf s, nfut s).
Proof. reflexivity. Qed.

Lemma M_new_fut s : MInv s -> MInv (nf s) /\ fresh (nf s) (nfut s).
Proof.
  intros [K Ci G J].
  assert (Hfo : forall f, f < nfut s -> futs (nf s) f = futs s f).
  { intros f Hf. unfold nf, new_fut. cbn [fst futs]. apply upd_other. lia. }
  assert (Hfn : futs (nf s) (nfut s) = fut0).
  { unfold nf, new_fut. cbn [fst futs]. apply upd_same. }
  split; [constructor|].
  - revert K. apply KInv_ext; try reflexivity; auto. unfold nf, new_fut. cbn. lia.
  - revert Ci. apply C_ext; auto.
  - revert G. apply G_ext; auto.
    + intros f e Hf. now rewrite (Hfo f Hf).
    + unfold nf, new_fut. cbn. lia.
  - revert J. apply J_ext; auto.
    intros f v. destruct (Nat.eq_dec f (nfut s)) as [->|Hne].
    + rewrite Hfn. discriminate.
    + unfold nf, new_fut. cbn [fst futs]. now rewrite upd_other.
  - unfold fresh. change (nfut (nf s)) with (S (nfut s)). refine (conj _ (conj Hfn (conj _ _))).
    + lia.
    + intros Hx. change (refd s (nfut s)) in Hx. pose proof (k_ref s K _ Hx). lia.
    + intros t H. change (tasks (nf s)) with (tasks s) in H. pose proof (k_w1 s K t _ H). lia.
Qed.

Definition ctl_ok (s : st) (t : tid) (c : ctl) : Prop :=
  c <> CDone /\
  (forall x, top_scope c = Some x ->
     s_active (scopes s x) = true /\ s_host (scopes s x) = Some t /\ k_cur (tasks s t) = Some x /\ x < nscope s) /\
  (forall g ch f, c = CStartWait g ch f ->
     alloc s ch /\ k_startfut (tasks s ch) = Some f /\ k_group (tasks s ch) = Some g /\ ch <> t) /\
  (forall ch x e wf, c = CStartJoin ch x e wf ->
     alloc s ch /\ k_group (tasks s ch) <> None /\ ch <> t /\
     forall f, wf = Some f -> In f (e_waiters (events s (k_hevent (tasks s ch))))).

(* t's record in s' differs from the one in s at most in ctl and waiter *)
Definition same_but_ctl (k k' : task) : Prop :=
  k_done k' = k_done k /\ k_group k' = k_group k /\ k_hscope k' = k_hscope k /\ k_hevent k' = k_hevent k /\
  k_hexc k' = k_hexc k /\ k_hret k' = k_hret k /\ k_startfut k' = k_startfut k /\ k_final k' = k_final k /\
  k_tdran k' = k_tdran k /\ k_cur k' = k_cur k.

Lemma same_but_refl k : same_but_ctl k k.
Proof. unfold same_but_ctl. tauto. Qed.

(* the running task t, not finished, takes the control state and waiter of k' *)
Lemma CTask_block s s' t k' : CInv s -> same_but_ctl (tasks s t) k' ->
  k_done (tasks s t) = None -> alloc s t -> k_final (tasks s t) = None ->
  ctl_waiter (k_ctl k') (k_waiter k') -> ctl_ok s t (k_ctl k') ->
  scopes s' = scopes s -> events s' = events s -> ntask s' = ntask s -> nscope s' = nscope s ->
  nevent s' = nevent s -> (forall x, x <> t -> tasks s' x = tasks s x) ->
  CTask s' t k'.
Proof.
  intros I [S1 [S2 [S3 [S4 [S5 [S6 [S7 [S8 [S9 S10]]]]]]]]] Hd Hal Hfin Hcw [O1 [O2 [O3 O4]]] Hsc Hev Hnt Hns Hne Vo.
  destruct (C_task s t I) as [W D1 D2 U Td Oc Top Sw Sj Bev Bsc Fin Nofin Dn Fd].
  constructor; unfold alloc; rewrite ?Hsc, ?Hev, ?Hnt, ?Hns, ?Hne, ?S1, ?S2, ?S3, ?S4, ?S5, ?S6, ?S8, ?S9, ?S10;
    try assumption; rewrite ?Hd, ?Hfin; try contradiction; try discriminate.
  - intros _. exact Hcw.
  - intros c _. apply O2.
  - intros g ch f _ E. destruct (O3 g ch f E) as [H1 [H2 [H3 H4]]]. rewrite (Vo ch H4). auto.
  - intros ch c e wf _ E. destruct (O4 ch c e wf E) as [H1 [H2 [H3 _]]]. rewrite (Vo ch H3). auto.
Qed.

Lemma K_stop s t g : KInv s -> running s = Some t ->
  k_waiter (g (tasks s t)) = None -> k_startfut (g (tasks s t)) = k_startfut (tasks s t) ->
  KInv (set_running (upd_task s t g) None).
Proof.
  intros K Hrun Hw Hsf.
  set (s' := set_running (upd_task s t g) None).
  destruct (k_run s K t Hrun) as [Hnt [Hd Hal]].
  pose proof (K_run_waiter s t K Hrun) as Hw0.
  assert (Vo : forall x, x <> t -> tasks s' x = tasks s x).
  { intros x Hx. unfold s'. tcase x t; [contradiction|reflexivity]. }
  assert (Vt : tasks s' t = g (tasks s t)).
  { unfold s'. tcase t t; [reflexivity|contradiction]. }
  assert (Hrefd : forall x, refd s' x -> refd s x).
  { apply refd_mono; auto.
    - intros g0 x H. exists g0. exact H.
    - intros x y H. exists x. destruct (Nat.eq_dec x t) as [->|Hx]; [now rewrite Vt, Hsf in H|now rewrite (Vo x Hx) in H]. }
  assert (Hin : forall x, In x (thtasks (ready s)) -> x <> t) by (intros x H ->; contradiction).
  constructor; unfold alloc; change (ready s') with (ready s); change (nfut s') with (nfut s);
    change (futs s') with (futs s); change (ntask s') with (ntask s); change (running s') with (@None tid).
  - apply K.
  - apply K.
  - intros x y H. rewrite Vo; [apply (k_wake s K x y H)|]. apply Hin, in_thtasks. eauto.
  - intros x H. rewrite Vo; [|apply Hin, in_thtasks; eauto].
    destruct (k_step s K x H) as [H1 [H2 [H3 H4]]]. refine (conj H1 (conj H2 (conj _ H4))). discriminate.
  - intros x y. destruct (Nat.eq_dec x t) as [->|Hx]; [rewrite Vt, Hw; discriminate|].
    rewrite (Vo x Hx). intros H. destruct (k_w1 s K x y H) as [H1 [H2 [H3 H4]]].
    refine (conj H1 (conj H2 (conj _ H4))). discriminate.
  - intros x y. destruct (Nat.eq_dec x t) as [->|Hx]; [rewrite Vt, Hw; discriminate|].
    rewrite (Vo x Hx). apply (k_pend s K x y).
  - discriminate.
  - intros x H. rewrite Vo; [apply (k_td s K x H)|]. intros ->. apply (k_td s K t) in H. tauto.
  - intros y Hy. apply Hrefd in Hy. destruct (k_ref s K y Hy) as [H1 H2]. split; [exact H1|].
    intros Hp x Hwx. specialize (H2 Hp x Hwx). rewrite Vo; [exact H2|]. intros ->. congruence.
  - intros x y. destruct (Nat.eq_dec x t) as [->|Hx]; [rewrite Vt, Hw; discriminate|].
    rewrite (Vo x Hx). intros H1 H2 Hy. apply Hrefd in Hy. eapply k_idle; eauto.
Qed.

(* t stops with the record g k, which has no waiter: C asks for t's clauses afresh; G and J read fields of
   t that do not change *)
Lemma M_stop s t g : MInv s -> running s = Some t ->
  let k := tasks s t in let s' := set_running (upd_task s t g) None in
  k_waiter (g k) = None -> k_group (g k) = k_group k -> k_hevent (g k) = k_hevent k ->
  k_startfut (g k) = k_startfut k -> k_tdran (g k) = k_tdran k ->
  (k_final k <> None -> k_final (g k) <> None) ->
  CTask s' t (g k) -> MInv s'.
Proof.
  intros [K Ci G J] Hrun k s' Hw Hg He Hsf Htd Hfin Ct.
  assert (Vo : forall x, x <> t -> tasks s' x = tasks s x).
  { intros x Hx. unfold s'. tcase x t; [contradiction|reflexivity]. }
  assert (Vt : tasks s' t = g k).
  { unfold s'. tcase t t; [reflexivity|contradiction]. }
  assert (Hro : forall x, x <> t -> running s <> Some x) by (intros x Hx; rewrite Hrun; congruence).
  constructor.
  - apply K_stop; auto.
  - apply (C_upd_one s s' t Ci); auto; try (cbn; lia).
    + rewrite Vt. auto.
    + now rewrite Vt.
  - apply G_P. apply G_P in G. revert G. apply GP_ext; auto; try (cbn; lia).
    intros x. destruct (Nat.eq_dec x t) as [->|Hx]; [rewrite Vt|rewrite (Vo x Hx); auto].
    refine (conj Hg (conj Hsf (conj Htd _))). intros E. apply (c_td s Ci t) in E.
    destruct (k_run s K t Hrun) as [_ [E' _]]. contradiction.
  - apply (J_upd_one s s' t J); auto.
    + intros x. destruct (Nat.eq_dec x t) as [->|Hx]; [rewrite Vt; auto|rewrite (Vo x Hx); auto].
    + intros x Hx. now rewrite (Vo x Hx).
    + intros ch c e f Hr E. pose proof (ct_w _ _ _ Ct Hr) as W. rewrite Vt in E. rewrite E, Hw in W. discriminate.
Qed.

Lemma M_block_yield s t c : MInv s -> running s = Some t -> k_final (tasks s t) = None ->
  ctl_waiter c None -> ctl_ok s t c ->
  MInv (set_running (set_ctl (bare_yield s t) t c) None).
Proof.
  intros M Hrun Hfin Hcw Hok.
  destruct (k_run s (m_k s M) t Hrun) as [Hnt [Hd Hal]].
  pose proof (K_run_waiter s t (m_k s M) Hrun) as Hw0.
  change (MInv (call_soon (set_running (upd_task s t (tk_ctl c)) None) (HStep t))).
  apply M_call_soon.
  - apply M_stop; auto. apply (CTask_block s); auto; try apply (m_c s M).
    + unfold same_but_ctl. tkc. tauto.
    + tkc. now rewrite Hw0.
    + intros x Hx. tcase x t; [contradiction|reflexivity].
  - refine (conj (conj _ (conj _ (conj _ Hal))) Hnt); [tcase t t; tkc; auto..|discriminate].
Qed.

Lemma tk_ctl_id k : tk_ctl (k_ctl k) k = k.
Proof. destruct k; reflexivity. Qed.

(* re-spin of checkpoint_if_cancelled: yield again without changing the control state *)
Lemma M_block_yield_same s t : MInv s -> running s = Some t -> k_final (tasks s t) = None ->
  ctl_waiter (k_ctl (tasks s t)) None -> ctl_ok s t (k_ctl (tasks s t)) ->
  MInv (set_running (bare_yield s t) None).
Proof.
  intros M Hrun Hfin Hcw Hok. pose proof (M_block_yield s t _ M Hrun Hfin Hcw Hok) as M1.
  revert M1. apply M_seq. constructor; try reflexivity.
  intros x. tcase x t; [subst; symmetry; apply tk_ctl_id|reflexivity].
Qed.

Definition unwaited (s : st) (f : fid) : Prop :=
  f < nfut s /\ f_st (futs s f) = FPend /\ forall x, k_waiter (tasks s x) <> Some f.

Lemma fresh_unwaited s f : fresh s f -> unwaited s f.
Proof. intros [H1 [H2 [_ H4]]]. refine (conj H1 (conj _ H4)). now rewrite H2. Qed.

(* the cancel-scope machinery only touches futures that some task waits for *)
Lemma unwaited_kframe C T s s' f : kframe C T s s' -> unwaited s f -> unwaited s' f.
Proof.
  intros F [U1 [U2 U3]].
  assert (Ef : futs s' f = futs s f).
  { destruct (fr_fut2 _ _ _ _ F f) as [E|[_ [o Ho]]]; [exact E|]. exfalso.
    destruct (fr_fut3 _ _ _ _ F f) as [x Hx]; [|exact (U3 x Hx)]. intros E. rewrite E, U2 in Ho. discriminate. }
  refine (conj _ (conj _ _)).
  - now rewrite (fr_nfut _ _ _ _ F).
  - now rewrite Ef.
  - intros x. pose proof (tview_inv _ _ (fr_tv _ _ _ _ F x)) as V. destruct V as [_ [_ [-> _]]]. apply U3.
Qed.

(* the suspension without a pending must-cancel *)
Definition susp (s : st) (t : tid) (f : fid) : st :=
  upd_task (upd_fut s f (fun x => mkFut (f_st x) (Some t))) t (tk_waiter (Some f)).

Lemma K_block_on s t f c : KInv s -> running s = Some t -> unwaited s f ->
  (c = CIdle -> ~ refd s f) ->
  KInv (set_running (set_ctl (susp s t f) t c) None).
Proof.
  intros K Hrun [Hlt [Hp Hnw]] Hidle.
  set (s' := set_running (set_ctl (susp s t f) t c) None).
  destruct (k_run s K t Hrun) as [Hnt [Hd Hal]].
  pose proof (K_run_waiter s t K Hrun) as Hw0.
  assert (Vo : forall x, x <> t -> tasks s' x = tasks s x).
  { intros x Hx. unfold s', susp. tcase x t; [contradiction|reflexivity]. }
  assert (Vt : tasks s' t = tk_ctl c (tk_waiter (Some f) (tasks s t))).
  { unfold s', susp. tcase t t; [reflexivity|contradiction]. }
  assert (Ff : futs s' f = mkFut FPend (Some t)).
  { unfold s', susp. cbn [set_running set_ctl upd_task set_tasks upd_fut set_futs futs]. rewrite upd_same.
    now rewrite Hp. }
  assert (Fo : forall x, x <> f -> futs s' x = futs s x).
  { intros x Hx. unfold s', susp. cbn [set_running set_ctl upd_task set_tasks upd_fut set_futs futs].
    now apply upd_other. }
  assert (Hrefd : forall x, refd s' x -> refd s x).
  { apply refd_mono; auto.
    - intros g x H. exists g. exact H.
    - intros x y H. exists x. destruct (Nat.eq_dec x t) as [->|Hx]; [rewrite Vt in H; exact H|now rewrite (Vo x Hx) in H]. }
  assert (Hin : forall x, In x (thtasks (ready s)) -> x <> t) by (intros x H ->; contradiction).
  constructor; unfold alloc; change (ready s') with (ready s); change (nfut s') with (nfut s);
    change (ntask s') with (ntask s); change (running s') with (@None tid).
  - apply K.
  - apply K.
  - intros x y H. assert (Hx : x <> t) by (apply Hin, in_thtasks; eauto). rewrite (Vo x Hx).
    destruct (k_wake s K x y H) as [H1 H2]. split; [exact H1|]. rewrite Fo; [exact H2|].
    intros ->. exact (Hnw x H1).
  - intros x H. assert (Hx : x <> t) by (apply Hin, in_thtasks; eauto). rewrite (Vo x Hx).
    destruct (k_step s K x H) as [H1 [H2 [H3 H4]]]. refine (conj H1 (conj H2 (conj _ H4))). discriminate.
  - intros x y. destruct (Nat.eq_dec x t) as [->|Hx].
    + rewrite Vt. tkc. intros E. injection E as <-. rewrite Ff. tkc.
      refine (conj eq_refl (conj Hd (conj _ (conj Hal Hlt)))). discriminate.
    + rewrite (Vo x Hx). intros H. destruct (k_w1 s K x y H) as [H1 [H2 [H3 H4]]].
      rewrite Fo; [|intros ->; exact (Hnw x H)]. refine (conj H1 (conj H2 (conj _ H4))). discriminate.
  - intros x y. destruct (Nat.eq_dec x t) as [->|Hx]; [intros; exact Hnt|].
    rewrite (Vo x Hx). intros H. rewrite Fo; [|intros ->; exact (Hnw x H)]. apply (k_pend s K x y H).
  - intros x Hx. discriminate.
  - intros x H. destruct (Nat.eq_dec x t) as [->|Hx]; [rewrite Vt; tkc|rewrite (Vo x Hx)]; apply (k_td s K _ H).
  - intros y Hy. apply Hrefd in Hy. destruct (k_ref s K y Hy) as [H1 H2]. split; [exact H1|].
    destruct (Nat.eq_dec y f) as [->|Hyf].
    + rewrite Ff. tkc. intros _ x E. injection E as <-. rewrite Vt. reflexivity.
    + rewrite (Fo y Hyf). intros Hpy x Hwx. specialize (H2 Hpy x Hwx).
      assert (Hx : x <> t) by (intros ->; congruence). now rewrite (Vo x Hx).
  - intros x y. destruct (Nat.eq_dec x t) as [->|Hx].
    + rewrite Vt. tkc. intros -> E Hy. injection E as <-. apply Hrefd in Hy. now apply Hidle.
    + rewrite (Vo x Hx). intros H1 H2 Hy. apply Hrefd in Hy. eapply k_idle; eauto.
Qed.

Lemma M_block_on0 s t f c : MInv s -> running s = Some t -> k_final (tasks s t) = None -> unwaited s f ->
  ctl_waiter c (Some f) -> (c = CIdle -> ~ refd s f) -> ctl_ok s t c ->
  MInv (set_running (set_ctl (susp s t f) t c) None).
Proof.
  intros [K Ci G J] Hrun Hfin Hu Hcw Hidle Hok.
  destruct (k_run s K t Hrun) as [Hnt [Hd Hal]].
  set (s' := set_running (set_ctl (susp s t f) t c) None).
  assert (Vo : forall x, x <> t -> tasks s' x = tasks s x).
  { intros x Hx. unfold s', susp. tcase x t; [contradiction|reflexivity]. }
  assert (Vt : tasks s' t = tk_ctl c (tk_waiter (Some f) (tasks s t))).
  { unfold s', susp. tcase t t; [reflexivity|contradiction]. }
  assert (Sb : same_but_ctl (tasks s t) (tasks s' t)) by (rewrite Vt; unfold same_but_ctl; tkc; tauto).
  assert (Fo : forall x, f_st (futs s' x) = f_st (futs s x)).
  { intros x. unfold s', susp. cbn [set_running set_ctl upd_task set_tasks upd_fut set_futs futs].
    unfold upd. destruct (Nat.eqb_spec x f); [subst; reflexivity|reflexivity]. }
  assert (Hro : forall x, x <> t -> running s <> Some x) by (intros x Hx; rewrite Hrun; congruence).
  constructor.
  - apply K_block_on; auto.
  - apply (C_upd_one s s' t Ci); auto; try (cbn; lia).
    + rewrite Vt. auto.
    + apply (CTask_block s); auto; rewrite Vt; auto.
  - revert G. apply G_ext; auto; try (cbn; lia).
    + intros x. destruct (Nat.eq_dec x t) as [->|Hx]; [now rewrite Vt|now rewrite (Vo x Hx)].
    + intros x e _. now rewrite Fo.
  - apply (J_upd_one s s' t J); auto.
    + intros x. destruct (Nat.eq_dec x t) as [->|Hx]; [rewrite Vt; auto|rewrite (Vo x Hx); auto].
    + intros x Hx. now rewrite (Vo x Hx).
    + intros ch y e w _ E. rewrite Vt in E. destruct Hok as [_ [_ [_ O4]]].
      destruct (O4 ch y e (Some w) E) as [_ [_ [_ H]]]. now apply H.
    + intros x v. now rewrite Fo.
Qed.

Lemma suspend_on_pending s t f : f_st (futs s f) = FPend ->
  suspend_on s t f =
  if k_must (tasks s t)
  then upd_task (fut_complete (susp s t f) f (FCanc (k_msg (tasks s t)))) t (tk_must false (k_msg (tasks s t)))
  else susp s t f.
Proof. intros H. unfold suspend_on. now rewrite H. Qed.

(* two updates of the same task record in either order: the task tables are equal pointwise only *)
Lemma seq_upd_swap s t g1 g2 r : (forall k, g2 (g1 k) = g1 (g2 k)) ->
  st_eqv (upd_task (set_running (upd_task s t g1) r) t g2) (set_running (upd_task (upd_task s t g2) t g1) r).
Proof.
  intros H. constructor; try reflexivity.
  intros x. cbn [set_running upd_task set_tasks tasks]. unfold upd.
  destruct (Nat.eqb_spec x t); [|reflexivity]. rewrite Nat.eqb_refl. symmetry. apply H.
Qed.

(* with a pending must-cancel the future is cancelled at once: the block, then the cancellation *)
Lemma M_block_on s t f c : MInv s -> running s = Some t -> k_final (tasks s t) = None -> unwaited s f ->
  ctl_waiter c (Some f) -> (c = CIdle -> ~ refd s f) -> ctl_ok s t c ->
  MInv (set_running (set_ctl (suspend_on s t f) t c) None).
Proof.
  intros M Hrun Hfin Hu Hcw Hidle Hok.
  pose proof (M_block_on0 s t f c M Hrun Hfin Hu Hcw Hidle Hok) as M0.
  destruct Hu as [Hlt [Hp Hnw]]. rewrite (suspend_on_pending s t f Hp).
  destruct (k_must (tasks s t)); [|exact M0].
  generalize (k_msg (tasks s t)). intros o.
  assert (M1 : MInv (upd_task (fut_complete (set_running (set_ctl (susp s t f) t c) None) f (FCanc o)) t
                       (tk_must false o))).
  { apply M_upd_task_irrel; [apply irrel_must|]. apply M_fut_complete'; [exact M0|discriminate| |discriminate].
    intros _ x Hx. unfold susp in *. cbn [set_running set_ctl upd_task set_tasks upd_fut set_futs futs tasks] in *.
    rewrite upd_same in Hx. cbn in Hx. injection Hx as <-. rewrite upd_same. cbn. rewrite upd_same. reflexivity. }
  revert M1. apply M_seq. rewrite fc_set_running. unfold set_ctl. rewrite fc_upd_task.
  apply seq_upd_swap. reflexivity.
Qed.

Lemma ctl_ok_idle s t : ctl_ok s t CIdle.
Proof. unfold ctl_ok. refine (conj _ (conj _ (conj _ _))); try discriminate. Qed.

Lemma ctl_ok_ext s s' t c : ctl_ok s t c ->
  scopes s' = scopes s -> k_cur (tasks s' t) = k_cur (tasks s t) -> nscope s <= nscope s' ->
  ntask s <= ntask s' ->
  (forall x, k_startfut (tasks s' x) = k_startfut (tasks s x) /\ k_group (tasks s' x) = k_group (tasks s x) /\
             k_hevent (tasks s' x) = k_hevent (tasks s x)) ->
  events s' = events s -> ctl_ok s' t c.
Proof.
  intros [O1 [O2 [O3 O4]]] Hsc Hcur Hns Hnt Hv Hev. unfold ctl_ok, alloc. rewrite Hsc, Hcur, Hev.
  refine (conj O1 (conj _ (conj _ _))).
  - intros x Hx. destruct (O2 x Hx) as [H1 [H2 [H3 H4]]]. refine (conj H1 (conj H2 (conj H3 _))). lia.
  - intros g ch f E. destruct (Hv ch) as [-> [-> _]]. destruct (O3 g ch f E) as [[H0 H1] [H2 [H3 H4]]].
    refine (conj (conj H0 _) (conj H2 (conj H3 H4))). lia.
  - intros ch x e wf E. destruct (Hv ch) as [_ [-> ->]]. destruct (O4 ch x e wf E) as [[H0 H1] [H2 [H3 H4]]].
    refine (conj (conj H0 _) (conj H2 (conj H3 H4))). lia.
Qed.

Lemma M_park s t : MInv s -> running s = Some t -> k_final (tasks s t) = None ->
  MInv (set_running (park s t) None).
Proof.
  intros M Hrun Hfin. unfold park. rewrite new_fut_eq.
  destruct (M_new_fut s M) as [M1 Hfr].
  change (upd_task (suspend_on (nf s) t (nfut s)) t (tk_ctl CIdle))
    with (set_ctl (suspend_on (nf s) t (nfut s)) t CIdle).
  apply M_block_on; auto.
  - apply fresh_unwaited, Hfr.
  - exact I.
  - intros _. apply Hfr.
  - apply ctl_ok_idle.
Qed.

Lemma M_ret_to_puppet s t r : MInv s -> running s = Some t -> k_final (tasks s t) = None ->
  MInv (fst (ret_to_puppet s t r)).
Proof.
  intros M Hrun Hfin. unfold ret_to_puppet. cbn [fst].
  destruct r; try (apply M_park; assumption).
  apply M_park; [|exact Hrun|].
  - apply M_upd_task_irrel; [apply irrel_held|exact M].
  - tcase t t; [exact Hfin|exact Hfin].
Qed.

Lemma ret_to_puppet_running s t r : running (fst (ret_to_puppet s t r)) = None.
Proof. reflexivity. Qed.

Lemma M_set_running_same s r : running s = r -> MInv s -> MInv (set_running s r).
Proof. intros <-. apply M_seq. constructor; reflexivity. Qed.

Lemma Inv_idle s : Inv s -> Inv (set_running s None).
Proof. intros [M Hr]. split; [exact (M_set_running_same s None Hr M)|reflexivity]. Qed.

Definition ns (s : st) (d : option Z) (sh : bool) : st := fst (new_scope s d sh).

Lemma new_scope_eq s d sh : new_scope s d sh = (ns s d sh, nscope s).
Proof. reflexivity. Qed.

Lemma M_new_scope s d sh : MInv s -> MInv (ns s d sh).
Proof.
  intros [K Ci G J]. constructor.
  - revert K. apply KInv_mono; try reflexivity; auto.
  - pose proof Ci as Ci'. revert Ci'. apply C_ext; try reflexivity; auto; try (unfold ns, new_scope; cbn; lia).
    intros t c Hr Ht. split; [reflexivity|].
    destruct (c_top s Ci t c Hr Ht) as [_ [_ [_ Hc]]].
    unfold ns, new_scope. cbn [fst scopes]. rewrite upd_other; [auto|lia].
  - revert G. apply G_ext; try reflexivity; auto; try (unfold ns, new_scope; cbn; lia).
  - revert J. apply J_ext; try reflexivity; auto.
Qed.

Lemma ns_scope_new s d sh : scopes (ns s d sh) (nscope s) = sc_shield sh (sc_deadline d scope0).
Proof. unfold ns, new_scope. cbn [fst scopes]. apply upd_same. Qed.

Lemma ns_scope_old s d sh c : c <> nscope s -> scopes (ns s d sh) c = scopes s c.
Proof. intros H. unfold ns, new_scope. cbn [fst scopes]. now apply upd_other. Qed.

Lemma fresh_not_ref s f : fresh s f ->
  (forall e, ~ In f (e_waiters (events s e))) /\ (forall g, g_fut (groups s g) <> Some f) /\
  (forall c, k_startfut (tasks s c) <> Some f) /\ ~ sleepref s f.
Proof.
  intros [_ [_ [H _]]]. unfold refd in H. refine (conj _ (conj _ (conj _ _))).
  - intros e He. apply H. left. eauto.
  - intros g Hg. apply H. right; left. eauto.
  - intros c Hc. apply H. right; right; left. eauto.
  - intros Hs. apply H. right; right; right. exact Hs.
Qed.

(* only the events differ: a waiter of s' was one in s or is a fresh future added to event e0; flags are only
   set; the futures awaited in a join are still registered *)
Lemma J_events s s' e0 : JInv s ->
  tasks s' = tasks s -> groups s' = groups s -> futs s' = futs s -> running s' = running s ->
  (forall f, sleepref s' f -> sleepref s f) ->
  (forall e f, In f (e_waiters (events s' e)) -> In f (e_waiters (events s e)) \/ (fresh s f /\ e = e0)) ->
  (forall t ch c e f, running s <> Some t -> k_ctl (tasks s t) = CStartJoin ch c e (Some f) ->
     In f (e_waiters (events s' (k_hevent (tasks s ch))))) ->
  (forall e, e_set (events s e) = true -> e_set (events s' e) = true) ->
  (forall t, k_group (tasks s t) <> None -> e_set (events s' (k_hevent (tasks s t))) = true ->
     e_set (events s (k_hevent (tasks s t))) = true \/ k_final (tasks s t) <> None) ->
  JInv s'.
Proof.
  intros J Et Eg Ef Er Hsl W Hj S1 S2.
  constructor; rewrite ?Et, ?Eg, ?Ef, ?Er; try apply J; auto.
  - intros f e c H. destruct (W e f H) as [H0|[Hfr _]]; [apply (kk_es s J f e c H0)|apply (fresh_not_ref s f Hfr)].
  - intros f e g H. destruct (W e f H) as [H0|[Hfr _]]; [apply (kk_eg s J f e g H0)|apply (fresh_not_ref s f Hfr)].
  - intros f e H Hs. apply Hsl in Hs. revert Hs.
    destruct (W e f H) as [H0|[Hfr _]]; [apply (kk_et s J f e H0)|apply (fresh_not_ref s f Hfr)].
  - intros f c H Hs. apply Hsl in Hs. revert Hs. apply (kk_st s J f c H).
  - intros f e e' H H'. destruct (W e f H) as [H0|[Hfr ->]], (W e' f H') as [H0'|[Hfr' ->]]; auto.
    + apply (kk_ee s J f e e' H0 H0').
    + exfalso. exact (proj1 (fresh_not_ref s f Hfr') _ H0).
    + exfalso. exact (proj1 (fresh_not_ref s f Hfr) _ H0').
  - intros f e v H Hv. destruct (W e f H) as [H0|[[_ [F2 _]] _]]; [apply S1, (j_ev s J f e v H0 Hv)|].
    rewrite F2 in Hv. discriminate.
  - intros t Hg Hs. destruct (S2 t Hg Hs) as [H|H]; [apply (e_hev s J t Hg H)|exact H].
Qed.

Lemma event_set_fold_M l : forall s e, MInv s -> e_set (events s e) = true ->
  (forall f, In f l -> In f (e_waiters (events s e))) ->
  let s' := fold_left (fun a f => fut_complete a f (FRes 1)) l s in
  MInv s' /\ tasks s' = tasks s /\ events s' = events s /\ groups s' = groups s /\ scopes s' = scopes s /\
  running s' = running s /\ ntask s' = ntask s /\ nscope s' = nscope s /\ nevent s' = nevent s /\
  nfut s' = nfut s /\ ngroup s' = ngroup s /\ timers s' = timers s.
Proof.
  induction l as [|f l IH]; intros s e M He Hl; cbn [fold_left].
  - cbn. tauto.
  - assert (M1 : MInv (fut_complete s f (FRes 1))).
    { apply M_fut_complete; auto; [discriminate| |].
      - left. exists e. apply Hl. now left.
      - intros r e' _ Hin. assert (e' = e) as ->; [|exact He].
        eapply (kk_ee s (m_j s M)); eauto. apply Hl. now left. }
    specialize (IH (fut_complete s f (FRes 1)) e M1).
    rewrite fc_events in IH. specialize (IH He (fun x Hx => Hl x (or_intror Hx))).
    cbn zeta in IH. rewrite ?fc_tasks, ?fc_events, ?fc_groups, ?fc_scopes, ?fc_running, ?fc_ntask, ?fc_nscope,
      ?fc_nevent, ?fc_nfut, ?fc_ngroup, ?fc_timers in IH. exact IH.
Qed.

Definition evset (s : st) (e : eid) : st := upd_event s e (fun x => mkEvent true (e_waiters x)).

Lemma evset_waiters s e x : e_waiters (events (evset s e) x) = e_waiters (events s x).
Proof.
  unfold evset. cbn [upd_event set_events events]. unfold upd.
  destruct (Nat.eqb_spec x e); [subst; reflexivity|reflexivity].
Qed.
Lemma evset_set1 s e x : e_set (events (evset s e) x) = true -> x = e \/ e_set (events s x) = true.
Proof.
  unfold evset. cbn [upd_event set_events events]. unfold upd. destruct (Nat.eqb_spec x e); auto.
Qed.
Lemma evset_set2 s e x : e_set (events s x) = true -> e_set (events (evset s e) x) = true.
Proof.
  unfold evset. cbn [upd_event set_events events]. unfold upd.
  destruct (Nat.eqb_spec x e); [subst; reflexivity|auto].
Qed.
Lemma evset_set3 s e : e_set (events (evset s e) e) = true.
Proof. unfold evset. cbn [upd_event set_events events]. now rewrite upd_same. Qed.

Lemma K_evset s e : KInv s -> KInv (evset s e).
Proof.
  apply KInv_mono_refd; try reflexivity; auto.
  apply refd_mono; auto.
  - intros x f. now rewrite evset_waiters.
  - intros g f H. exists g. exact H.
  - intros c f H. exists c. exact H.
Qed.

Lemma C_evset s e : CInv s -> CInv (evset s e).
Proof. apply C_ext; try reflexivity; auto. intros x. apply evset_set2. Qed.

Lemma G_evset s e : GInv s -> GInv (evset s e).
Proof. apply G_ext; try reflexivity; auto. Qed.

Lemma J_evset s e : JInv s ->
  (forall t, k_group (tasks s t) <> None -> k_hevent (tasks s t) = e -> k_final (tasks s t) <> None) ->
  JInv (evset s e).
Proof.
  intros J Hfin. apply (J_events s _ e J); try reflexivity; auto.
  - intros x f. rewrite evset_waiters. auto.
  - intros t ch c x f Hr Hc. rewrite evset_waiters. apply (j_join s J t ch c x f Hr Hc).
  - apply evset_set2.
  - intros t Hg Hs. apply evset_set1 in Hs. destruct Hs as [Hs|Hs]; auto.
Qed.

Lemma M_evset s e : MInv s ->
  (forall t, k_group (tasks s t) <> None -> k_hevent (tasks s t) = e -> k_final (tasks s t) <> None) ->
  MInv (evset s e).
Proof.
  intros [K Ci G J] Hfin. constructor.
  - apply K_evset, K.
  - apply C_evset, Ci.
  - apply G_evset, G.
  - apply J_evset; auto.
Qed.

Lemma event_set_eq s e : event_set s e =
  if e_set (events s e) then s
  else fold_left (fun a f => fut_complete a f (FRes 1)) (e_waiters (events s e)) (evset s e).
Proof. reflexivity. Qed.

(* the event, not set yet, is set and its waiters are woken; stated from the invariant of the state where the
   flag alone is set, which the caller may have established together with other updates *)
Lemma M_event_fire s e : MInv (evset s e) -> e_set (events s e) = false ->
  let s' := event_set s e in
  MInv s' /\ tasks s' = tasks s /\ groups s' = groups s /\ scopes s' = scopes s /\
  running s' = running s /\ ntask s' = ntask s /\ nscope s' = nscope s /\ nevent s' = nevent s /\
  nfut s' = nfut s /\ ngroup s' = ngroup s /\ timers s' = timers s /\
  e_set (events s' e) = true /\ (forall x, e_set (events s x) = true -> e_set (events s' x) = true).
Proof.
  intros M1 Ee. cbn zeta. rewrite event_set_eq, Ee.
  destruct (event_set_fold_M (e_waiters (events s e)) (evset s e) e M1 (evset_set3 s e))
    as [M2 [H1 [H2 [H3 [H4 [H5 [H6 [H7 [H8 [H9 [H10 H11]]]]]]]]]]].
  { intros f Hf. rewrite evset_waiters. exact Hf. }
  rewrite H2. exact (conj M2 (conj H1 (conj H3 (conj H4 (conj H5 (conj H6 (conj H7 (conj H8 (conj H9
    (conj H10 (conj H11 (conj (evset_set3 s e) (evset_set2 s e))))))))))))).
Qed.

Lemma M_event_set s e : MInv s ->
  (forall t, k_group (tasks s t) <> None -> k_hevent (tasks s t) = e -> k_final (tasks s t) <> None) ->
  let s' := event_set s e in
  MInv s' /\ tasks s' = tasks s /\ groups s' = groups s /\ scopes s' = scopes s /\
  running s' = running s /\ ntask s' = ntask s /\ nscope s' = nscope s /\ nevent s' = nevent s /\
  nfut s' = nfut s /\ ngroup s' = ngroup s /\ timers s' = timers s /\
  e_set (events s' e) = true /\ (forall x, e_set (events s x) = true -> e_set (events s' x) = true).
Proof.
  intros M Hfin. destruct (e_set (events s e)) eqn:Ee; [|apply M_event_fire; [apply M_evset; auto|exact Ee]].
  cbn zeta. rewrite event_set_eq, Ee. split; [exact M|]. repeat (split; [reflexivity|]). split; [exact Ee|auto].
Qed.

Definition evadd (s : st) (e : eid) (f : fid) : st :=
  upd_event s e (fun x => mkEvent (e_set x) (e_waiters x ++ [f])).

Lemma evadd_waiters s e f x y :
  In y (e_waiters (events (evadd s e f) x)) <-> In y (e_waiters (events s x)) \/ (x = e /\ y = f).
Proof.
  unfold evadd. cbn [upd_event set_events events]. unfold upd. destruct (Nat.eqb_spec x e).
  - subst. cbn. rewrite in_app_iff. cbn. intuition.
  - intuition.
Qed.

Lemma evadd_set s e f x : e_set (events (evadd s e f) x) = e_set (events s x).
Proof.
  unfold evadd. cbn [upd_event set_events events]. unfold upd.
  destruct (Nat.eqb_spec x e); [subst; reflexivity|reflexivity].
Qed.

Lemma M_evadd s e f : MInv s -> fresh s f -> MInv (evadd s e f).
Proof.
  intros [K Ci G J] Hfr. constructor.
  - revert K. apply KInv_ext; try reflexivity; auto.
    intros x [[y H]|[[g H]|[[c H]|H]]].
    + apply evadd_waiters in H. destruct H as [H|[_ ->]]; [left; left; eauto|right; exact Hfr].
    + left. right; left. eauto.
    + left. right; right; left. eauto.
    + left. right; right; right. exact H.
  - revert Ci. apply C_ext; try reflexivity; auto. intros x. now rewrite evadd_set.
  - revert G. apply G_ext; try reflexivity; auto.
  - apply (J_events s _ e J); try reflexivity; auto.
    + intros x y H. apply evadd_waiters in H. destruct H as [H|[-> ->]]; auto.
    + intros t ch c x y Hr Hc. apply evadd_waiters. left. apply (j_join s J t ch c x y Hr Hc).
    + intros x. now rewrite evadd_set.
    + intros t _. rewrite evadd_set. auto.
Qed.

Lemma unwaited_evadd s e f : fresh s f -> unwaited (evadd s e f) f.
Proof. intros H. apply fresh_unwaited in H. exact H. Qed.

Lemma del_in x y l : In y (del x l) <-> In y l /\ y <> x.
Proof.
  unfold del. rewrite filter_In. split; intros [H1 H2]; split; auto.
  - intros ->. rewrite Nat.eqb_refl in H2. discriminate.
  - destruct (Nat.eqb_spec y x); [contradiction|reflexivity].
Qed.

Definition evdel (s : st) (e : eid) (f : fid) : st :=
  upd_event s e (fun x => mkEvent (e_set x) (del f (e_waiters x))).

Lemma evdel_waiters s e f x y :
  In y (e_waiters (events (evdel s e f) x)) -> In y (e_waiters (events s x)).
Proof.
  unfold evdel. cbn [upd_event set_events events]. unfold upd. destruct (Nat.eqb_spec x e); [|auto].
  subst. cbn. rewrite del_in. tauto.
Qed.

Lemma evdel_waiters2 s e f x y : y <> f ->
  In y (e_waiters (events s x)) -> In y (e_waiters (events (evdel s e f) x)).
Proof.
  intros Hy. unfold evdel. cbn [upd_event set_events events]. unfold upd. destruct (Nat.eqb_spec x e); [|auto].
  subst. cbn. rewrite del_in. tauto.
Qed.

Lemma evdel_set s e f x : e_set (events (evdel s e f) x) = e_set (events s x).
Proof.
  unfold evdel. cbn [upd_event set_events events]. unfold upd.
  destruct (Nat.eqb_spec x e); [subst; reflexivity|reflexivity].
Qed.

Lemma M_evdel s e f t : MInv s -> running s = Some t -> f_waiter (futs s f) = Some t -> MInv (evdel s e f).
Proof.
  intros [K Ci G J] Hrun Hfw. constructor.
  - revert K. apply KInv_mono_refd; try reflexivity; auto.
    apply refd_mono; auto.
    + intros x y. apply evdel_waiters.
    + intros g y H. exists g. exact H.
    + intros c y H. exists c. exact H.
  - revert Ci. apply C_ext; try reflexivity; auto. intros x. now rewrite evdel_set.
  - revert G. apply G_ext; try reflexivity; auto.
  - apply (J_events s _ e J); try reflexivity; auto.
    + intros x y H. left. exact (evdel_waiters s e f x y H).
    + intros x ch c y z Hr Hc. apply evdel_waiters2; [|apply (j_join s J x ch c y z Hr Hc)].
      intros ->. pose proof (c_w s Ci x Hr) as Hw. rewrite Hc in Hw. cbn in Hw.
      destruct (k_w1 s K x f Hw) as [H1 _]. rewrite Hfw in H1. injection H1 as <-. contradiction.
    + intros x. now rewrite evdel_set.
    + intros x _. rewrite evdel_set. auto.
Qed.

Lemma event_unwait_eq s e fo : event_unwait s e fo = match fo with Some f => evdel s e f | None => s end.
Proof. reflexivity. Qed.

Definition fin_outcome (k : task) (o : outcome) : outcome :=
  match o with
  | ORet v => if k_must k then OCanc (ECancel (k_msg k)) else ORet v
  | OExc e => if is_cancel e then OCanc e else OExc e
  | OCanc e => OCanc e
  end.

Definition fin_rec (d : outcome) (x : task) : task :=
  tk_must false (k_msg x) (tk_waiter None (tk_ctl CDone (tk_done (Some d) x))).

Lemma finish_task_eq s t o :
  finish_task s t o =
  let d := fin_outcome (tasks s t) o in
  let s1 := upd_task s t (fin_rec d) in
  set_running (match k_group (tasks s t) with Some _ => call_soon s1 (HTaskDone t) | None => s1 end) None.
Proof. reflexivity. Qed.

Lemma fin_outcome_shape k o : (forall e, o <> OCanc e) ->
  forall e, (fin_outcome k o = OCanc e -> is_cancel e = true) /\ (fin_outcome k o = OExc e -> is_cancel e = false).
Proof.
  intros Ho e. destruct o as [v|x|x]; cbn.
  - destruct (k_must k); split; intros H; try discriminate. injection H as <-. reflexivity.
  - destruct (is_cancel x) eqn:E; split; intros H; try discriminate; injection H as <-; exact E.
  - exfalso. exact (Ho x eq_refl).
Qed.

Lemma M_finish_task s t o : MInv s -> running s = Some t -> (forall e, o <> OCanc e) ->
  (k_final (tasks s t) = None -> exists e, o = OExc e /\ is_cancel e = true) ->
  MInv (finish_task s t o).
Proof.
  intros M Hrun Ho Hfin. rewrite finish_task_eq. cbn zeta.
  set (d := fin_outcome (tasks s t) o).
  destruct (k_run s (m_k s M) t Hrun) as [Hnt [Hd Hal]].
  destruct (C_task s t (m_c s M)) as [W D1 D2 U Td Oc Top Sw Sj Bev Bsc Fin Nofin Dn Fd].
  assert (Htd : k_tdran (tasks s t) = false).
  { destruct (k_tdran (tasks s t)); [|reflexivity]. exfalso. exact (Td eq_refl Hd). }
  assert (M1 : MInv (set_running (upd_task s t (fin_rec d)) None)).
  { apply M_stop; auto. constructor; unfold fin_rec; tkc; try assumption; try discriminate; try reflexivity.
    - contradiction.
    - intros e. destruct (fin_outcome_shape (tasks s t) o Ho e) as [H1 H2].
      split; intros H; injection H as H; auto.
    - intros _ Hf. destruct (Hfin Hf) as [e [-> He]]. exists e. unfold d. cbn. now rewrite He. }
  destruct (k_group (tasks s t)) eqn:Eg; [|exact M1].
  change (MInv (call_soon (set_running (upd_task s t (fin_rec d)) None) (HTaskDone t))).
  apply M_call_soon; [exact M1|]. split.
  - tcase t t; [|contradiction]. unfold fin_rec. tkc. rewrite Eg.
    refine (conj _ (conj Htd (conj _ Hal))); discriminate.
  - rewrite in_tdtasks. intros H. apply (k_td s (m_k s M) t) in H. tauto.
Qed.

Definition hres_of (raw : outcome) : task -> task :=
  match raw with
  | ORet r => tk_hres None (Some r)
  | OExc e => tk_hres (Some e) None
  | OCanc e => tk_hres (Some e) None
  end.

Definition rec_task (s : st) (t : tid) (raw : outcome) : st :=
  upd_task (upd_task s t (tk_final (Some raw))) t (hres_of raw).

Lemma rec_task_other s t raw x : x <> t -> tasks (rec_task s t raw) x = tasks s x.
Proof. intros Hx. unfold rec_task. tcase x t; [contradiction|reflexivity]. Qed.

Lemma rec_task_same s t raw : tasks (rec_task s t raw) t = hres_of raw (tk_final (Some raw) (tasks s t)).
Proof. unfold rec_task. tcase t t; [reflexivity|contradiction]. Qed.

Lemma rec_task_fields s t raw x :
  k_ctl (tasks (rec_task s t raw) x) = k_ctl (tasks s x) /\ k_done (tasks (rec_task s t raw) x) = k_done (tasks s x) /\
  k_waiter (tasks (rec_task s t raw) x) = k_waiter (tasks s x) /\ k_group (tasks (rec_task s t raw) x) = k_group (tasks s x) /\
  k_hscope (tasks (rec_task s t raw) x) = k_hscope (tasks s x) /\ k_hevent (tasks (rec_task s t raw) x) = k_hevent (tasks s x) /\
  k_startfut (tasks (rec_task s t raw) x) = k_startfut (tasks s x) /\ k_tdran (tasks (rec_task s t raw) x) = k_tdran (tasks s x) /\
  k_cur (tasks (rec_task s t raw) x) = k_cur (tasks s x).
Proof.
  destruct (Nat.eq_dec x t) as [->|Hx]; [|rewrite rec_task_other; tauto].
  rewrite rec_task_same. destruct raw; cbn; tauto.
Qed.

(* the running task t, not finished, records how its coroutine ended: k' is its record with final, hexc and
   hret rewritten *)
Lemma CTask_final s s' t k' raw : CInv s -> running s' = Some t -> k_done (tasks s t) = None -> alloc s t ->
  k_ctl k' = k_ctl (tasks s t) /\ k_done k' = k_done (tasks s t) /\ k_waiter k' = k_waiter (tasks s t) /\
  k_group k' = k_group (tasks s t) /\ k_hscope k' = k_hscope (tasks s t) /\ k_hevent k' = k_hevent (tasks s t) /\
  k_startfut k' = k_startfut (tasks s t) /\ k_tdran k' = k_tdran (tasks s t) /\ k_cur k' = k_cur (tasks s t) ->
  k_final k' = Some raw ->
  (k_group (tasks s t) <> None -> e_set (events s' (k_hevent (tasks s t))) = true /\ outcome_ok k' raw) ->
  ntask s' = ntask s -> nscope s' = nscope s -> nevent s' = nevent s ->
  CTask s' t k'.
Proof.
  intros I Hr Hd Hal [E1 [E2 [_ [E4 [E5 [E6 [E7 [E8 _]]]]]]]] Ef Hok Hnt Hns Hne.
  destruct (C_task s t I) as [W D1 D2 U Td Oc Top Sw Sj Bev Bsc Fin Nofin Dn Fd]. unfold alloc in Hal.
  constructor; unfold alloc; rewrite ?Hnt, ?Hns, ?Hne, ?E1, ?E2, ?E4, ?E5, ?E6, ?E7, ?E8, ?Ef;
    try assumption; try contradiction.
  - intros o Hg E. injection E as <-. exact (Hok Hg).
  - discriminate.
Qed.

Lemma M_record s t raw : MInv s -> running s = Some t -> k_final (tasks s t) = None ->
  k_group (tasks s t) <> None -> (forall e, raw <> OCanc e) ->
  MInv (evset (rec_task s t raw) (k_hevent (tasks s t))).
Proof.
  intros [K Ci G J] Hrun Hfin Hg Hraw.
  set (e := k_hevent (tasks s t)). set (s2 := rec_task s t raw).
  assert (F := rec_task_fields s t raw). fold s2 in F.
  destruct (k_run s K t Hrun) as [_ [Hd Hal]].
  assert (Ft : k_final (tasks s2 t) = Some raw /\ outcome_ok (tasks s2 t) raw).
  { unfold s2. rewrite rec_task_same. destruct raw; cbn; auto. exfalso. exact (Hraw e0 eq_refl). }
  assert (J2 : JInv s2).
  { apply (J_upd_one s s2 t J); auto.
    - intros x. destruct (F x) as [_ [_ [_ [-> [_ [-> [-> _]]]]]]]. refine (conj eq_refl (conj eq_refl (conj eq_refl _))).
      destruct (Nat.eq_dec x t) as [->|Hx]; [|unfold s2; now rewrite rec_task_other].
      intros _. destruct Ft as [-> _]. discriminate.
    - intros x _. apply F.
    - intros ch c y f Hr. contradiction. }
  constructor.
  - apply K_evset. revert K. apply KInv_mono; try reflexivity; auto.
    intros x. unfold kview. destruct (F x) as [-> [-> [-> [-> [_ [_ [-> [-> _]]]]]]]]. reflexivity.
  - apply (C_upd_one s (evset s2 e) t Ci); auto.
    + intros x Hx. apply rec_task_other, Hx.
    + intros _. change (tasks (evset s2 e)) with (tasks s2). destruct (F t) as [_ [_ [_ [-> [_ [_ [-> _]]]]]]]. auto.
    + intros x _. apply (evset_set2 s2).
    + change (tasks (evset s2 e)) with (tasks s2).
      apply (CTask_final s (evset s2 e) t _ raw Ci Hrun Hd Hal (F t) (proj1 Ft)); auto.
      intros _. split; [apply evset_set3|apply Ft].
  - apply G_evset. revert G. apply G_ext; try reflexivity; auto.
    intros x. destruct (F x) as [_ [E1 [_ [E2 [_ [_ [E3 [E4 _]]]]]]]]. unfold gview. now rewrite E1, E2, E3, E4.
  - apply J_evset; [exact J2|].
    intros x Hgx Hex. destruct (Nat.eq_dec x t) as [->|Hx]; [destruct Ft as [-> _]; discriminate|].
    exfalso. apply Hx. destruct (F x) as [_ [_ [_ [E1 [_ [E2 _]]]]]]. rewrite E1 in Hgx. rewrite E2 in Hex.
    apply (e_inj s J x t Hgx Hg Hex).
Qed.

(* the finished event was not set before (the coroutine had not ended) *)
Lemma not_set_before_finish s t : MInv s -> k_final (tasks s t) = None -> k_group (tasks s t) <> None ->
  e_set (events s (k_hevent (tasks s t))) = false.
Proof.
  intros M Hf Hg. destruct (e_set (events s (k_hevent (tasks s t)))) eqn:E; [|reflexivity].
  exfalso. apply (e_hev s (m_j s M) t Hg E). exact Hf.
Qed.

(* a root task (no group, no handle) records how its coroutine ended *)
Lemma M_set_final_root s t raw : MInv s -> running s = Some t -> k_group (tasks s t) = None ->
  MInv (upd_task s t (tk_final (Some raw))).
Proof.
  intros [K Ci G J] Hrun Hg.
  set (s2 := upd_task s t (tk_final (Some raw))).
  destruct (k_run s K t Hrun) as [_ [Hd Hal]].
  assert (Vo : forall x, x <> t -> tasks s2 x = tasks s x).
  { intros x Hx. unfold s2. tcase x t; [contradiction|reflexivity]. }
  assert (Vt : tasks s2 t = tk_final (Some raw) (tasks s t)).
  { unfold s2. tcase t t; [reflexivity|contradiction]. }
  constructor.
  - revert K. apply KInv_mono; try reflexivity; auto.
    intros x. destruct (Nat.eq_dec x t) as [->|Hx]; [rewrite Vt; reflexivity|now rewrite (Vo x Hx)].
  - apply (C_upd_one s s2 t Ci); auto.
    + now rewrite Vt.
    + rewrite Vt. apply (CTask_final s s2 t _ raw); auto; [tkc; tauto|contradiction].
  - revert G. apply G_ext; try reflexivity; auto.
    intros x. destruct (Nat.eq_dec x t) as [->|Hx]; [rewrite Vt; reflexivity|now rewrite (Vo x Hx)].
  - apply (J_upd_one s s2 t J); auto.
    + intros x. destruct (Nat.eq_dec x t) as [->|Hx]; [rewrite Vt; tkc|rewrite (Vo x Hx); auto].
      refine (conj eq_refl (conj eq_refl (conj eq_refl _))). discriminate.
    + intros x Hx. now rewrite (Vo x Hx).
    + intros ch c y f Hr. contradiction.
Qed.

(* fields the invariants do not look at: g_entered, g_left *)
Lemma M_upd_group_irrel s g h : MInv s ->
  (forall x, g_tasks (h x) = g_tasks x /\ g_ever (h x) = g_ever x /\ g_excs (h x) = g_excs x /\
             g_scope (h x) = g_scope x /\ g_fut (h x) = g_fut x) ->
  MInv (upd_group s g h).
Proof.
  intros [K Ci G J] Hh.
  assert (V : forall x, g_tasks (groups (upd_group s g h) x) = g_tasks (groups s x) /\
     g_ever (groups (upd_group s g h) x) = g_ever (groups s x) /\ g_excs (groups (upd_group s g h) x) = g_excs (groups s x) /\
     g_scope (groups (upd_group s g h) x) = g_scope (groups s x) /\ g_fut (groups (upd_group s g h) x) = g_fut (groups s x)).
  { intros x. cbn [upd_group set_groups groups]. unfold upd. destruct (Nat.eqb_spec x g); [subst; apply Hh|tauto]. }
  constructor.
  - revert K. apply KInv_mono_refd; try reflexivity; auto.
    apply refd_mono; auto.
    + intros x f H. exists x. destruct (V x) as [_ [_ [_ [_ E]]]]. now rewrite <- E.
    + intros c f H. exists c. exact H.
  - revert Ci. apply C_ext; try reflexivity; auto.
  - revert G. apply G_ext; try reflexivity; auto. intros x. destruct (V x) as [H1 [H2 [H3 [H4 _]]]]. auto.
  - revert J. apply J_ext; try reflexivity; auto. intros x. apply V.
Qed.

Lemma M_gr_entered s g b : MInv s -> MInv (upd_group s g (gr_entered b)).
Proof. intros M. apply M_upd_group_irrel; [exact M|]. intros x. cbn. tauto. Qed.

Lemma M_gr_left s g b : MInv s -> MInv (upd_group s g (gr_left b)).
Proof. intros M. apply M_upd_group_irrel; [exact M|]. intros x. cbn. tauto. Qed.

Lemma gr_fut_groups s g fo x :
  g_tasks (groups (upd_group s g (gr_fut fo)) x) = g_tasks (groups s x) /\
  g_ever (groups (upd_group s g (gr_fut fo)) x) = g_ever (groups s x) /\
  g_excs (groups (upd_group s g (gr_fut fo)) x) = g_excs (groups s x) /\
  g_scope (groups (upd_group s g (gr_fut fo)) x) = g_scope (groups s x) /\
  g_fut (groups (upd_group s g (gr_fut fo)) x) = if Nat.eqb x g then fo else g_fut (groups s x).
Proof.
  cbn [upd_group set_groups groups]. unfold upd. destruct (Nat.eqb x g) eqn:E; [|tauto].
  apply Nat.eqb_eq in E. subst. cbn. tauto.
Qed.

Lemma M_gr_fut_none s g : MInv s -> MInv (upd_group s g (gr_fut None)).
Proof.
  intros [K Ci G J]. pose proof (gr_fut_groups s g None) as V.
  constructor.
  - revert K. apply KInv_mono_refd; try reflexivity; auto.
    apply refd_mono; auto.
    + intros x f H. destruct (V x) as [_ [_ [_ [_ E]]]]. rewrite E in H.
      destruct (Nat.eqb x g); [discriminate|eauto].
    + intros c f H. exists c. exact H.
  - revert Ci. apply C_ext; try reflexivity; auto.
  - revert G. apply G_ext; try reflexivity; auto. intros x. destruct (V x) as [H1 [H2 [H3 [H4 _]]]]. auto.
  - constructor; change (tasks (upd_group s g (gr_fut None))) with (tasks s);
      change (events (upd_group s g (gr_fut None))) with (events s);
      change (running (upd_group s g (gr_fut None))) with (running s);
      change (futs (upd_group s g (gr_fut None))) with (futs s); try apply J.
    + intros f e x H. destruct (V x) as [_ [_ [_ [_ ->]]]]. destruct (Nat.eqb x g); [discriminate|apply (kk_eg s J f e x H)].
    + intros f c x H. destruct (V x) as [_ [_ [_ [_ ->]]]]. destruct (Nat.eqb x g); [discriminate|apply (kk_sg s J f c x H)].
Qed.

Lemma M_gr_fut_some s g f : MInv s -> fresh s f -> MInv (upd_group s g (gr_fut (Some f))).
Proof.
  intros [K Ci G J] Hfr. pose proof (gr_fut_groups s g (Some f)) as V.
  destruct (fresh_not_ref s f Hfr) as [N1 [N2 [N3 N4]]].
  constructor.
  - revert K. apply KInv_ext; try reflexivity; auto.
    intros x [[y H]|[[y H]|[[c H]|H]]].
    + left. left. eauto.
    + destruct (V y) as [_ [_ [_ [_ E]]]]. rewrite E in H. destruct (Nat.eqb y g).
      * injection H as <-. right. exact Hfr.
      * left. right; left. eauto.
    + left. right; right; left. eauto.
    + left. right; right; right. exact H.
  - revert Ci. apply C_ext; try reflexivity; auto.
  - revert G. apply G_ext; try reflexivity; auto. intros x. destruct (V x) as [H1 [H2 [H3 [H4 _]]]]. auto.
  - constructor; change (tasks (upd_group s g (gr_fut (Some f)))) with (tasks s);
      change (events (upd_group s g (gr_fut (Some f)))) with (events s);
      change (running (upd_group s g (gr_fut (Some f)))) with (running s);
      change (futs (upd_group s g (gr_fut (Some f)))) with (futs s); try apply J.
    + intros y e x H. destruct (V x) as [_ [_ [_ [_ ->]]]]. destruct (Nat.eqb x g); [|apply (kk_eg s J y e x H)].
      intros E. injection E as <-. exact (N1 e H).
    + intros y c x H. destruct (V x) as [_ [_ [_ [_ ->]]]]. destruct (Nat.eqb x g); [|apply (kk_sg s J y c x H)].
      intros E. injection E as <-. exact (N3 c H).
Qed.

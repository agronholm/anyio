(* C07: the caller waiting in CStartJoin is not reached by any delivery of cancellation.
   Part 2: the state in which the join begins satisfies JP; the run-level theorem. *)
From AV Require Import Base Machine GroupInv GroupInv2 GroupInv3 GroupInv9 GroupWalk GroupThms2 GroupThms5
  GroupThms6 GroupThms13.
From AV Require TreeStep.

(* the join predicate holds when the join begins *)
Lemma join_begins_JP s t g ch f h : TreeStep.reach_ok s -> TreeStep.op_ok s (ARun h) = true ->
  k_ctl (tasks s t) = CStartWait g ch f -> In h (ready s) -> (h = HStep t \/ exists f', h = HWake t f') ->
  snd (step s (ARun h)) = RBlocked ->
  let s0 := fst (step s (ARun h)) in
  exists e wf, k_ctl (tasks s0 t) = CStartJoin ch (nscope s) e wf /\
    forall fj, wf = Some fj -> JP t fj (nscope s) ch e s0 /\ f_st (futs s0 fj) = FPend.
Proof.
  intros RO Hop Hc Hin Hh Hb. cbn zeta.
  pose proof (TreeStep.reach_ok_reach s RO) as R.
  destruct (join_entry_shape s t g ch f h R Hc Hin Hh Hb) as [e [wf [Hc0 [Hcfg [Hnt [Hpend _]]]]]].
  exists e, wf. split; [exact Hc0|]. intros fj ->. split; [|apply Hpend; reflexivity].
  set (s0 := fst (step s (ARun h))) in *.
  pose proof (reach_step s (ARun h) R) as R0. fold s0 in R0.
  destruct (reachable s0 R0) as [[K0 C0 G0 J0] Hrun0].
  destruct (reachable s R) as [[K C G J] Hrun].
  pose proof (TreeStep.reach_tree s0 (TreeStep.reach_ok_step s (ARun h) RO Hop)) as T0.
  assert (Hnr : running s0 <> Some t) by (rewrite Hrun0; discriminate).
  destruct (c_top s0 C0 t (nscope s) Hnr) as [Ha [Hho [Hcur Hlt]]]; [rewrite Hc0; reflexivity|].
  pose proof (c_w s0 C0 t Hnr) as Hw. rewrite Hc0 in Hw. cbn [ctl_waiter] in Hw.
  destruct (k_w1 s0 K0 t fj Hw) as [Hfw [_ [_ [[_ Hal] Hfn]]]].
  pose proof (j_join s0 J0 t ch (nscope s) e fj Hnr Hc0) as Hjoin.
  destruct (c_n s C) as [Hn1 _].
  unfold cfg in Hcfg. injection Hcfg as Hsh Hca Hdl.
  constructor; auto.
  - intros x Hx. apply (TreeInv.tr_task s0 T0) in Hx. congruence.
  - intros x Hx. destruct (k_w1 s0 K0 x fj Hx) as [Hfx _]. congruence.
  - intros x. apply (kk_es s0 J0 fj _ x Hjoin).
  - lia.
  - intros x. destruct (Nat.lt_ge_cases x (ntask s)) as [Hl|Hg].
    + destruct (task_facts_stable s (ARun h) R) as [_ St]. destruct (St x Hl) as [_ [E _]]. fold s0 in E.
      rewrite E. pose proof (c_bsc s C x). lia.
    + destruct (c_unalloc s0 C0 x) as [_ [_ [_ [_ [_ [_ [_ [E _]]]]]]]]; [unfold alloc; lia|]. rewrite E. lia.
  - intros g0. assert (Eg : groups s0 = groups s).
    { unfold s0. apply step_groups_frame. destruct Hh as [->|[f' ->]]; cbn [touches_groups]; rewrite Hc; reflexivity. }
    rewrite Eg. pose proof (b_gscope s G g0). lia.
Qed.

(* the operations excluded while the join lasts, as a boolean predicate:
   quietb t sc o = false exactly for:
   - ANativeCancel t              Task.cancel() called on the caller from outside AnyIO (native cancellation);
   - ACancel _ sc / AExtCancel sc cancel() of the private join scope (it is not reachable from user code);
   - ASetShield _ sc false        un-shielding the private join scope;
   - ASetDeadline _ sc _          giving the private join scope a deadline;
   - ARun (HDeliver sc)           the delivery callback of the join scope itself (only scheduled by a cancel of sc);
   - ARun (HWake t _)             the resumption of the caller: this ends the join. *)
Definition quietb (t : tid) (sc : sid) (o : op) : bool :=
  match o with
  | ACancel _ c | AExtCancel c | ASetDeadline _ c _ => negb (Nat.eqb c sc)
  | ASetShield _ c b => b || negb (Nat.eqb c sc)
  | ANativeCancel x => negb (Nat.eqb x t)
  | ARun (HWake x _) => negb (Nat.eqb x t)
  | ARun (HDeliver c) => negb (Nat.eqb c sc)
  | _ => true
  end.

Lemma negb_eqb_ne a b : negb (Nat.eqb a b) = true -> a <> b.
Proof. intros H ->. rewrite Nat.eqb_refl in H. discriminate. Qed.

Lemma quietb_jok t sc o : quietb t sc o = true -> jok t sc o.
Proof.
  destruct o; cbn; auto using negb_eqb_ne.
  - intros H ->. cbn in H. now apply negb_eqb_ne.
  - destruct h; auto using negb_eqb_ne.
Qed.

Lemma quiet_run t fj sc ch e : forall ops s, reach s -> JP t fj sc ch e s -> forallb (quietb t sc) ops = true ->
  reach (final step s ops) /\ JP t fj sc ch e (final step s ops) /\ jres t fj s (final step s ops).
Proof.
  induction ops as [|o ops IH]; intros s R J Hq.
  - cbn. split; [exact R|split; [exact J|split; auto]].
  - cbn [forallb] in Hq. apply andb_true_iff in Hq. destruct Hq as [Ho Hq].
    destruct (step_jr t fj sc ch e s o R (quietb_jok t sc o Ho) J) as [J1 [E1 F1]].
    destruct (IH (fst (step s o)) (reach_step s o R) J1 Hq) as [R2 [J2 [E2 F2]]].
    change (final step s (o :: ops)) with (final step (fst (step s o)) ops).
    split; [exact R2|split; [exact J2|]]. split; [congruence|].
    destruct F2 as [F2|F2]; [|right; exact F2]. destruct F1 as [F1|[v F1]]; [left; congruence|right; exists v; congruence].
Qed.

(* C07: start() re-raises only after the child's coroutine ended *)
(* The caller t of start() is interrupted while it waits for started() (CStartWait) and begins to join the child
   ch (the step returns RBlocked): it is now in CStartJoin ch sc e wf with the fresh private scope sc = nscope s.
   If the child's finished event was already set (wf = None) the child's coroutine has ended.  Otherwise
   (wf = Some fj), for every continuation ops of the run that contains none of the operations excluded by
   quietb t sc (ops is otherwise arbitrary, API misuse included):
   - the caller's task record is unchanged - in particular it is still in CStartJoin, no cancellation request
     (k_must, k_ncancel) has reached it;
   - its join future fj is still pending, or holds a value; it holds a value only if the child's finished event is
     set and the child's coroutine has ended (k_final <> None);
   - the only handle in the ready queue that resumes the caller is the wake-up by fj, and then fj holds a value:
     the caller is resumed, and start() re-raises, only after the child's coroutine ended. *)
Theorem start_join_resumed_only_by_finished_event s t g ch f h ops :
  TreeStep.reach_ok s -> TreeStep.op_ok s (ARun h) = true ->
  k_ctl (tasks s t) = CStartWait g ch f -> In h (ready s) -> (h = HStep t \/ exists f', h = HWake t f') ->
  snd (step s (ARun h)) = RBlocked ->
  let s0 := fst (step s (ARun h)) in
  let sc := nscope s in
  exists e wf, k_ctl (tasks s0 t) = CStartJoin ch sc e wf /\
    (wf = None -> k_final (tasks s0 ch) <> None) /\
    forall fj, wf = Some fj -> forallb (quietb t sc) ops = true ->
      let s1 := final step s0 ops in
      tasks s1 t = tasks s0 t /\
      (f_st (futs s1 fj) = FPend \/ exists v, f_st (futs s1 fj) = FRes v) /\
      (forall v, f_st (futs s1 fj) = FRes v ->
         e_set (events s1 (k_hevent (tasks s1 ch))) = true /\ k_final (tasks s1 ch) <> None) /\
      (forall h', In h' (ready s1) -> (h' = HStep t \/ exists f', h' = HWake t f') ->
         h' = HWake t fj /\ (exists v, f_st (futs s1 fj) = FRes v) /\ k_final (tasks s1 ch) <> None).
Proof.
  intros RO Hop Hc Hin Hh Hb. cbn zeta.
  pose proof (TreeStep.reach_ok_reach s RO) as R.
  pose proof (reach_step s (ARun h) R) as R0.
  destruct (join_begins_JP s t g ch f h RO Hop Hc Hin Hh Hb) as [e [wf [Hc0 HJ]]].
  exists e, wf. split; [exact Hc0|]. split.
  - intros ->. destruct (join_entry_shape s t g ch f h R Hc Hin Hh Hb) as [e' [wf' [Hc0' [_ [_ [_ [Hset _]]]]]]].
    rewrite Hc0 in Hc0'. injection Hc0' as <- <-. specialize (Hset eq_refl).
    destruct (reachable _ R0) as [[K0 C0 G0 J0] Hrun0].
    assert (Hnr : running (fst (step s (ARun h))) <> Some t) by (rewrite Hrun0; discriminate).
    destruct (c_sj _ C0 t ch _ e None Hnr Hc0) as [_ Hg]. apply (e_hev _ J0 ch Hg Hset).
  - intros fj -> Hq. destruct (HJ fj eq_refl) as [J0 Hp].
    destruct (quiet_run t fj (nscope s) ch e ops _ R0 J0 Hq) as [R1 [J1 [E1 F1]]].
    set (s1 := final step (fst (step s (ARun h))) ops) in *.
    assert (Hfin : forall v, f_st (futs s1 fj) = FRes v ->
              e_set (events s1 (k_hevent (tasks s1 ch))) = true /\ k_final (tasks s1 ch) <> None).
    { intros v Hv. apply (start_join_wakeup_means_child_finished s1 t ch (nscope s) e fj v R1 (jp_ctl _ _ _ _ _ _ J1) Hv). }
    assert (Hst : f_st (futs s1 fj) = FPend \/ exists v, f_st (futs s1 fj) = FRes v).
    { destruct F1 as [F1|F1]; [left; congruence|right; exact F1]. }
    split; [exact E1|]. split; [exact Hst|]. split; [exact Hfin|].
    intros h' Hin' Hh'. destruct (reachable s1 R1) as [[K1 C1 G1 Jv1] Hrun1].
    destruct Hh' as [->|[f' ->]].
    + exfalso. destruct (k_step s1 K1 t Hin') as [Hw _]. rewrite (jp_w _ _ _ _ _ _ J1) in Hw. discriminate.
    + destruct (k_wake s1 K1 t f' Hin') as [Hw Hnp]. rewrite (jp_w _ _ _ _ _ _ J1) in Hw. injection Hw as <-.
      destruct Hst as [Hst|[v Hv]]; [contradiction|]. split; [reflexivity|]. split; [eauto|apply (Hfin v Hv)].
Qed.

(* non-vacuity: an op_ok run in which the caller (task 1) of start() is interrupted by a native cancellation, joins
   its child (task 2) in the private scope 3; meanwhile an outsider (task 3) cancels the group's scope 1 and its
   delivery callback runs: the shielded caller is not touched, the child is cancelled, and when its coroutine ends
   the caller's join future 5 gets its value and the wake-up HWake 1 5 is scheduled *)
Example ex_start_join_quiet :
  let pre := [ANewRoot; AGroupNew 1; AGroupEnter 1 1; AStart 1 1; ANativeCancel 1] in
  let s := final step init pre in
  let h := HWake 1 4 in
  let ops := [ANewRoot; ACancel 3 1; ARun (HStep 2); ARun (HDeliver 2); ARun (HDeliver 1); ARun (HWake 2 8);
              ATick 5; AFinish 2 0] in
  let s0 := fst (step s (ARun h)) in
  let s1 := final step s0 ops in
  TreeStep.reach_ok s /\ TreeStep.op_ok s (ARun h) = true /\ k_ctl (tasks s 1) = CStartWait 1 2 4 /\
  In h (ready s) /\ snd (step s (ARun h)) = RBlocked /\
  k_ctl (tasks s0 1) = CStartJoin 2 (nscope s) (ECancel 0) (Some 5) /\
  forallb (quietb 1 (nscope s)) ops = true /\
  s_cancelled (scopes s1 1) = true /\
  f_st (futs s1 5) = FRes 1 /\ In (HWake 1 5) (ready s1) /\ k_final (tasks s1 2) = Some (OExc (ECancel 3)).
Proof.
  cbv zeta. split.
  - exists [ANewRoot; AGroupNew 1; AGroupEnter 1 1; AStart 1 1; ANativeCancel 1]. split; vm_compute; reflexivity.
  - vm_compute. repeat split; auto.
Qed.

(* the exclusions are needed: a native cancellation of the caller, un-shielding the join scope and then cancelling
   the group's scope, or cancelling the join scope itself wake the caller while the child's coroutine still runs *)
Example start_join_disturbed_witnesses :
  let s := final step init [ANewRoot; AGroupNew 1; AGroupEnter 1 1; AStart 1 1; ANativeCancel 1] in
  let s0 := fst (step s (ARun (HWake 1 4))) in
  forall ops, In ops [[ANativeCancel 1]; [ANewRoot; ASetShield 3 3 false; ACancel 3 1]; [ANewRoot; ACancel 3 3]] ->
  let s1 := final step s0 ops in
  forallb (quietb 1 3) ops = false /\ In (HWake 1 5) (ready s1) /\
  (exists o, f_st (futs s1 5) = FCanc o) /\ k_final (tasks s1 2) = None.
Proof.
  cbv zeta. intros ops [<-|[<-|[<-|[]]]]; vm_compute; repeat split; eauto.
Qed.

(* Model observation (faithful to the source: start() joins only `if handle.status is PENDING`): when the child's
   handle scope was already cancelled by somebody else (status CANCELLING), the interrupted start() re-raises at once
   although the child's coroutine has not ended (here it has not even started).  In Python nobody can hold the
   handle of a child before start() returns, so `AHandleCancel 3 2` below is not expressible by a program. *)
Example start_reraises_without_join_refuted :
  let s := final step init [ANewRoot; AGroupNew 1; AGroupEnter 1 1; AStart 1 1; ANewRoot; AHandleCancel 3 2;
                            ANativeCancel 1] in
  k_ctl (tasks s 1) = CStartWait 1 2 4 /\ snd (step s (ARun (HWake 1 4))) = RExc (ECancel 0) /\
  k_final (tasks (fst (step s (ARun (HWake 1 4)))) 2) = None /\
  k_ctl (tasks (fst (step s (ARun (HWake 1 4)))) 2) = CNew.
Proof. vm_compute. auto. Qed.

(* The done-callback of a group child (TaskGroup._spawn.task_done) preserves the invariants. *)
From AV Require Import Base Machine MachineFacts GroupInv GroupInv2 GroupInv3 GroupInv4 GroupInv5.

Record GInvE (ex : tid) (s : st) : Prop := {
  ge_mem : forall g t, In t (g_tasks (groups s g)) <->
                      In t (g_ever (groups s g)) /\ k_tdran (tasks s t) = false;
  ge_grp : forall g t, In t (g_ever (groups s g)) -> k_group (tasks s t) = Some g /\ alloc s t;
  ge_tags : forall g t e, In (t, e) (g_excs (groups s g)) -> t <> 0 ->
      k_group (tasks s t) = Some g /\ k_tdran (tasks s t) = true /\ k_done (tasks s t) = Some (OExc e);
  ge_zero : forall g e, In (0, e) (g_excs (groups s g)) -> is_cancel e = false;
  ge_nd : forall g, NoDup (filter nzb (map fst (g_excs (groups s g))));
  ge_conv : forall g t e, t <> ex -> In t (g_ever (groups s g)) -> k_tdran (tasks s t) = true ->
      k_done (tasks s t) = Some (OExc e) ->
      In (t, e) (g_excs (groups s g)) \/
      exists f, k_startfut (tasks s t) = Some f /\ f_st (futs s f) = FExc e;
  ge_gscope : forall g, g_scope (groups s g) < nscope s;
  ge_sf : forall t f, k_startfut (tasks s t) = Some f -> f < nfut s
}.

Lemma GE_P ex s : GInvE ex s <-> GInvP (fun t => t <> ex) s.
Proof.
  split; intros G; constructor; apply G.
Qed.

Lemma GE_kframe ex C T s s' : kframe C T s s' -> GInvE ex s -> GInvE ex s'.
Proof. intros F G. apply GE_P. apply GE_P in G. exact (GP_kframe _ C T s s' F G). Qed.

Lemma GE_fut_complete ex s f v : GInvE ex s -> GInvE ex (fut_complete s f v).
Proof. intros G. apply GE_P, GP_fut_complete, GE_P, G. Qed.

Lemma G_to_E ex s : GInv s -> GInvE ex s.
Proof.
  intros G. constructor; try apply G. intros g t e _. apply (x_conv s G g t e).
Qed.

(* closing the suspension: the converse clause holds for the exempted task as well *)
Lemma GE_close ex s : GInvE ex s ->
  (forall g e, In ex (g_ever (groups s g)) -> k_tdran (tasks s ex) = true -> k_done (tasks s ex) = Some (OExc e) ->
     In (ex, e) (g_excs (groups s g)) \/ exists f, k_startfut (tasks s ex) = Some f /\ f_st (futs s f) = FExc e) ->
  GInv s.
Proof.
  intros E H. constructor; try apply E.
  intros g t e. destruct (Nat.eq_dec t ex) as [->|Hne]; [apply H|apply (ge_conv ex s E g t e Hne)].
Qed.

Definition td_rec (x : task) : task := tk_tdran true (tk_cur None x).
Definition td_grp (t : tid) (x : group) : group := gr_tasks (del t (g_tasks x)) x.
Definition tdcore (s : st) (t : tid) (g : gid) : st := upd_task (upd_group s g (td_grp t)) t td_rec.

Lemma tdcore_other s t g x : x <> t -> tasks (tdcore s t g) x = tasks s x.
Proof. intros Hx. unfold tdcore. tcase x t; [contradiction|reflexivity]. Qed.
Lemma tdcore_same s t g : tasks (tdcore s t g) t = td_rec (tasks s t).
Proof. unfold tdcore. tcase t t; [reflexivity|contradiction]. Qed.

Lemma tdcore_groups s t g x :
  g_ever (groups (tdcore s t g) x) = g_ever (groups s x) /\ g_excs (groups (tdcore s t g) x) = g_excs (groups s x) /\
  g_scope (groups (tdcore s t g) x) = g_scope (groups s x) /\ g_fut (groups (tdcore s t g) x) = g_fut (groups s x) /\
  g_tasks (groups (tdcore s t g) x) = if Nat.eqb x g then del t (g_tasks (groups s x)) else g_tasks (groups s x).
Proof.
  unfold tdcore. cbn [upd_task set_tasks upd_group set_groups groups]. unfold upd.
  destruct (Nat.eqb x g) eqn:E; [|tauto]. apply Nat.eqb_eq in E. subst. cbn. tauto.
Qed.

Lemma tdcore_fields s t g x :
  k_ctl (tasks (tdcore s t g) x) = k_ctl (tasks s x) /\ k_done (tasks (tdcore s t g) x) = k_done (tasks s x) /\
  k_waiter (tasks (tdcore s t g) x) = k_waiter (tasks s x) /\ k_group (tasks (tdcore s t g) x) = k_group (tasks s x) /\
  k_hscope (tasks (tdcore s t g) x) = k_hscope (tasks s x) /\ k_hevent (tasks (tdcore s t g) x) = k_hevent (tasks s x) /\
  k_startfut (tasks (tdcore s t g) x) = k_startfut (tasks s x) /\ k_final (tasks (tdcore s t g) x) = k_final (tasks s x) /\
  k_hexc (tasks (tdcore s t g) x) = k_hexc (tasks s x) /\ k_hret (tasks (tdcore s t g) x) = k_hret (tasks s x) /\
  (k_tdran (tasks s x) = true -> k_tdran (tasks (tdcore s t g) x) = true) /\
  (x <> t -> k_tdran (tasks (tdcore s t g) x) = k_tdran (tasks s x) /\ k_cur (tasks (tdcore s t g) x) = k_cur (tasks s x)).
Proof.
  destruct (Nat.eq_dec x t) as [->|Hx].
  - rewrite tdcore_same. cbn. refine (conj eq_refl (conj eq_refl (conj eq_refl (conj eq_refl (conj eq_refl
      (conj eq_refl (conj eq_refl (conj eq_refl (conj eq_refl (conj eq_refl (conj _ _))))))))))); auto.
    intros H. contradiction.
  - rewrite tdcore_other; auto. tauto.
Qed.

Lemma K_tdcore s t g : KInv s -> ~ In (HTaskDone t) (ready s) -> KInv (tdcore s t g).
Proof.
  intros K Hnt. pose proof (tdcore_fields s t g) as F. pose proof (tdcore_groups s t g) as Gr.
  revert K. apply KInv_ext; try reflexivity; auto.
  - intros x. destruct (F x) as [E1 [E2 [E3 [E4 [_ [_ [E7 _]]]]]]]. auto.
  - intros x H. destruct (F x) as [_ [_ [_ [_ [_ [_ [_ [_ [_ [_ [_ Ho]]]]]]]]]]]. apply Ho. intros ->. contradiction.
  - intros f H. left. revert f H. apply refd_mono; auto.
    + intros x f H. exists x. destruct (Gr x) as [_ [_ [_ [E _]]]]. now rewrite <- E.
    + intros c f H. exists c. destruct (F c) as [_ [_ [_ [_ [_ [_ [E _]]]]]]]. now rewrite <- E.
Qed.

Lemma C_tdcore s t g : CInv s -> k_done (tasks s t) <> None -> CInv (tdcore s t g).
Proof.
  intros Ci Hd. pose proof (tdcore_fields s t g) as F.
  apply (C_upd_one s (tdcore s t g) t Ci); auto.
  - intros x Hx. apply tdcore_other, Hx.
  - intros _. destruct (F t) as [_ [_ [_ [-> [_ [_ [-> _]]]]]]]. auto.
  - rewrite tdcore_same. destruct (C_task s t Ci) as [W D1 D2 U Td Oc Top Sw Sj Bev Bsc Fin Nofin Dn Fd].
    pose proof (D1 Hd) as Ec.
    constructor; unfold td_rec; tkc; try assumption; rewrite ?Ec; try discriminate.
    + intros H. apply U in H. tauto.
    + intros _. exact Hd.
Qed.

Lemma J_tdcore s t g : JInv s -> k_ctl (tasks s t) = CDone -> JInv (tdcore s t g).
Proof.
  intros J Hctl. pose proof (tdcore_fields s t g) as F. pose proof (tdcore_groups s t g) as Gr.
  apply (J_upd_one s (tdcore s t g) t J); auto.
  - intros x. destruct (F x) as [_ [_ [_ [-> [_ [-> [-> [-> _]]]]]]]]. auto.
  - intros x _. apply F.
  - intros ch c e f _. destruct (F t) as [-> _]. rewrite Hctl. discriminate.
  - intros x. apply Gr.
Qed.

Lemma GE_tdcore s t g : GInv s -> k_group (tasks s t) = Some g -> GInvE t (tdcore s t g).
Proof.
  intros G Hg. pose proof (tdcore_fields s t g) as F. pose proof (tdcore_groups s t g) as Gr.
  constructor; unfold alloc; change (futs (tdcore s t g)) with (futs s); change (nfut (tdcore s t g)) with (nfut s);
    change (ntask (tdcore s t g)) with (ntask s); change (nscope (tdcore s t g)) with (nscope s).
  - intros x y. destruct (Gr x) as [-> [_ [_ [_ ->]]]]. destruct (Nat.eq_dec y t) as [->|Hy].
    + rewrite tdcore_same. cbn [k_tdran td_rec tk_tdran]. split; [|intros [_ H]; discriminate].
      intros H. exfalso. destruct (Nat.eqb_spec x g) as [E|Hx].
      * apply del_in in H. destruct H as [_ H]. apply H. reflexivity.
      * apply (g_mem s G x t) in H. destruct H as [H _]. apply (g_grp s G x t) in H. destruct H as [H _]. congruence.
    + rewrite tdcore_other; auto. pose proof (g_mem s G x y) as H. destruct (Nat.eqb x g); [|exact H].
      rewrite del_in. tauto.
  - intros x y. destruct (Gr x) as [-> _]. destruct (F y) as [_ [_ [_ [-> _]]]]. apply (g_grp s G x y).
  - intros x y e. destruct (Gr x) as [_ [-> _]]. destruct (F y) as [_ [-> [_ [-> [_ [_ [_ [_ [_ [_ [Hm _]]]]]]]]]]].
    intros H1 H2. destruct (x_tags s G x y e H1 H2) as [H3 [H4 H5]]. auto.
  - intros x e. destruct (Gr x) as [_ [-> _]]. apply (x_zero s G x e).
  - intros x. destruct (Gr x) as [_ [-> _]]. apply (x_nd s G x).
  - intros x y e Hne. destruct (Gr x) as [-> [-> _]]. destruct (F y) as [_ [-> [_ [_ [_ [_ [-> [_ [_ [_ [_ Ho]]]]]]]]]]].
    destruct (Ho Hne) as [-> _]. apply (x_conv s G x y e).
  - intros x. destruct (Gr x) as [_ [_ [-> _]]]. apply (b_gscope s G x).
  - intros x f. destruct (F x) as [_ [_ [_ [_ [_ [_ [-> _]]]]]]]. apply (b_sf s G x f).
Qed.

Record TInv (t : tid) (s : st) : Prop := { t_k : KInv s; t_c : CInv s; t_j : JInv s; t_g : GInvE t s }.

Lemma T_fut_complete t s f v : TInv t s -> v <> FPend -> refd s f ->
  (forall r e, v = FRes r -> In f (e_waiters (events s e)) -> e_set (events s e) = true) ->
  TInv t (fut_complete s f v).
Proof.
  intros [K Ci J G] Hv Hr Hres. constructor.
  - apply K_fut_complete; auto. apply (k_ref s K f Hr).
  - apply C_fut_complete, Ci.
  - apply J_fut_complete; auto.
  - apply GE_fut_complete, G.
Qed.

Lemma T_close t s : TInv t s ->
  (forall g e, In t (g_ever (groups s g)) -> k_tdran (tasks s t) = true -> k_done (tasks s t) = Some (OExc e) ->
     In (t, e) (g_excs (groups s g)) \/ exists f, k_startfut (tasks s t) = Some f /\ f_st (futs s f) = FExc e) ->
  MInv s.
Proof. intros [K Ci J G] H. constructor; auto. apply (GE_close t s G H). Qed.

Lemma T_append t s g e : TInv t s -> k_group (tasks s t) = Some g -> k_tdran (tasks s t) = true ->
  k_done (tasks s t) = Some (OExc e) -> t <> 0 ->
  (forall e', ~ In (t, e') (g_excs (groups s g))) ->
  MInv (upd_group s g (add_exc t e)).
Proof.
  intros [K Ci J G] Hg Htd Hd Ht0 Hnew.
  destruct (KCJ_upd_group s g (add_exc t e)) as [HK [HC HJ]]; [intros x; reflexivity|].
  constructor; auto. apply G_P. apply GE_P in G. apply (GP_add_exc _ _ s g t e G); auto.
  - intros E. contradiction.
  - intros x _. destruct (Nat.eq_dec x t); auto.
Qed.

Lemma Inv_of_M s : MInv s -> running s = None -> Inv s.
Proof. intros M H. split; auto. Qed.

Lemma run_task_done_inv s0 t : MInv s0 -> running s0 = None -> ~ In (HTaskDone t) (ready s0) ->
  k_done (tasks s0 t) <> None -> k_tdran (tasks s0 t) = false -> alloc s0 t -> Inv (run_task_done s0 t).
Proof.
  intros M0 Hr0 Hnt Hd Htd Hal. rewrite run_task_done_eq.
  destruct (k_group (tasks s0 t)) as [g|] eqn:Eg; [|apply Inv_idle, Inv_of_M; assumption].
  set (s := set_running s0 None).
  assert (M : MInv s) by (apply M_set_running_same; auto).
  set (s1 := match k_cur (tasks s0 t) with Some c => upd_scope s c (fun x => sc_tasks (del t (s_tasks x)) x) | None => s end).
  change (done_struct s t g) with (tdcore s1 t g).
  assert (M1 : MInv s1).
  { unfold s1. destruct (k_cur (tasks s0 t)); [|exact M]. apply (M_kstar_none s); [|exact M].
    apply ks_one, kp_scope_keeps, keeps_tasks. }
  assert (E1 : tasks s1 = tasks s0 /\ ready s1 = ready s0 /\ running s1 = None /\ groups s1 = groups s0).
  { unfold s1. destruct (k_cur (tasks s0 t)); cbn; tauto. }
  destruct E1 as [T1 [Rd1 [Hr1 G1]]].
  assert (Hd1 : k_done (tasks s1 t) <> None) by (rewrite T1; exact Hd).
  set (s3 := tdcore s1 t g).
  assert (T3 : TInv t s3).
  { destruct M1 as [K1 C1 Gi1 J1]. constructor.
    - apply K_tdcore; auto. now rewrite Rd1.
    - apply C_tdcore; auto.
    - apply J_tdcore; auto. apply (c_done1 s1 C1 t Hd1).
    - apply GE_tdcore; auto. now rewrite T1. }
  (* the on_completed future of the group *)
  assert (T4 : TInv t (done_wake s3 g) /\ tasks (done_wake s3 g) = tasks s3 /\ groups (done_wake s3 g) = groups s3 /\
               running (done_wake s3 g) = None).
  { destruct (td_wake_shape s3 g) as [|f Ef Et]; [auto|]. rewrite fc_tasks, fc_groups, fc_running.
    refine (conj _ (conj eq_refl (conj eq_refl Hr1))). apply T_fut_complete; auto; [discriminate| |].
    - right; left. eauto.
    - intros r e _ Hin. exfalso. exact (kk_eg s3 (t_j t s3 T3) f e g Hin Ef). }
  unfold done_tail. set (s4 := done_wake s3 g) in *. clearbody s4. destruct T4 as [T4 [T4e [G4e Hr4]]].
  set (k := tasks s0 t) in *.
  assert (Ft4 : tasks s4 t = td_rec k) by (rewrite T4e; unfold s3; rewrite tdcore_same, T1; reflexivity).
  assert (Ht0 : t <> 0) by (unfold alloc in Hal; lia).
  pose proof (c_oc s0 (m_c s0 M0) t) as Hoc. fold k in Hoc.
  (* the converse clause for t holds once its exception, if it ended with one, is accounted for *)
  assert (Close : forall s5, TInv t s5 -> tasks s5 = tasks s4 ->
            (forall e, k_done k = Some (OExc e) ->
               In (t, e) (g_excs (groups s5 g)) \/ f_st (futs s5 match k_startfut k with Some f => f | None => 0 end) = FExc e /\ k_startfut k <> None) ->
            MInv s5).
  { intros s5 T5 E5 H. apply (T_close t s5 T5). intros g0 e Hin _ Hde. rewrite E5, Ft4 in Hde.
    destruct (ge_grp t s5 (t_g t s5 T5) g0 t Hin) as [Hg0 _]. rewrite E5, Ft4 in Hg0. cbn in Hg0.
    assert (g0 = g) as -> by congruence.
    destruct (H e Hde) as [Hi|[Hf Hs]]; [left; exact Hi|right]. rewrite E5, Ft4. cbn [td_rec k_startfut tk_tdran tk_cur].
    destruct (k_startfut k) as [f|]; [eauto|contradiction]. }
  assert (Hfail : forall e, done_exc k = Some e -> is_cancel e = false -> k_done k = Some (OExc e)).
  { intros e H Hc. unfold done_exc in H. destruct (k_done k) as [[v|x|x]|] eqn:Ed; try discriminate;
      injection H as ->; [reflexivity|]. destruct (Hoc e) as [Ho _]. rewrite (Ho eq_refl) in Hc. discriminate. }
  assert (Hcanc : forall e e', done_exc k = Some e -> is_cancel e = true -> k_done k <> Some (OExc e')).
  { intros e e' H Hc Hde. unfold done_exc in H. rewrite Hde in H. injection H as ->.
    destruct (Hoc e) as [_ Ho]. rewrite (Ho Hde) in Hc. discriminate. }
  destruct (td_fate_shape s4 k g t) as [Hnc|f Esf Ep|e Ee Ec Ef|e Ee Ec].
  - apply Inv_of_M; [|exact Hr4]. apply (Close s4 T4 eq_refl). intros e Hde. exfalso.
    refine (Hcanc e e _ (Hnc e _) Hde); unfold done_exc; now rewrite Hde.
  - apply Inv_of_M; [|rewrite fc_running; exact Hr4].
    apply Close; [|apply fc_tasks|].
    + apply T_fut_complete; auto; [discriminate| |discriminate]. right; right; left. exists t. now rewrite Ft4.
    + intros e Hde. right. rewrite Esf. split; [|discriminate]. unfold done_exc. rewrite Hde.
      destruct (fc_spec s4 f (FExc e)) as [[H _]|[_ [Ef _]]]; [contradiction|]. rewrite Ef, upd_same. reflexivity.
  - apply (Inv_kstar _ _ (ks_scope_cancel _ _ _ _ false)), Inv_of_M; [|exact Hr4].
    apply (Close s4 T4 eq_refl). intros e' Hde. exfalso. exact (Hcanc e e' Ee Ec Hde).
  - apply (Inv_kstar _ _ (ks_scope_cancel _ _ _ _ false)), Inv_of_M; [|exact Hr4].
    change (fun x => gr_excs (g_excs x ++ [(t, e)]) x) with (add_exc t e).
    apply T_append; auto; rewrite ?Ft4; auto.
    intros e' Hin. rewrite G4e in Hin. destruct (tdcore_groups s1 t g g) as [_ [E _]]. fold s3 in E. rewrite E, G1 in Hin.
    destruct (x_tags s0 (m_g s0 M0) g t e' Hin Ht0) as [_ [H _]]. fold k in H. congruence.
Qed.

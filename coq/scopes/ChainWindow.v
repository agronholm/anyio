(* C04: the window between the instant a cancellation request is placed on a task and the instant the task receives
   it (finding F25), and the behaviour of a re-used scope. *)
From AV Require Import Base Machine DeliverInv TreeInv TreeStep.
From AV Require Import ChainThms ChainReach NativeAbsorbed.

(* the n-th scope above x along _parent_scope *)
Fixpoint up (s : st) (x : sid) (n : nat) : option sid :=
  match n with
  | 0 => Some x
  | S m => match s_parent (scopes s x) with Some p => up s p m | None => None end
  end.

(* Request time (s0): org is the n-th scope above the task's current scope x, it is cancelled, and every scope
   strictly below it on that chain is neither cancelled nor shielded (this is what the request-time theorems give).
   Receipt time (s1): the chain is the same and cancel_called was not reset (it never is).
   Then at receipt time the walk from x still finds a cancelled scope -- UNLESS a scope strictly between x
   (inclusive) and org has had its shield raised in the meantime and is not itself cancelled.  That is exactly the
   pattern of F25, and it is the only gap. *)
Theorem receipt_visible_unless_shield_raised s0 s1 n : forall x org k,
  up s0 x n = Some org ->
  (forall j y, j < n -> up s0 x j = Some y ->
               s_cancelled (scopes s0 y) = false /\ s_shield (scopes s0 y) = false) ->
  s_cancelled (scopes s0 org) = true ->
  (forall j y, j < n -> up s0 x j = Some y -> s_parent (scopes s1 y) = s_parent (scopes s0 y)) ->
  s_cancelled (scopes s1 org) = true ->
  eff_cancelled_from (S n + k) s1 (Some x) = true \/
  exists j y, j < n /\ up s0 x j = Some y /\ s_shield (scopes s0 y) = false /\
              s_shield (scopes s1 y) = true /\ s_cancelled (scopes s1 y) = false.
Proof.
  induction n as [|n IH]; intros x org k Hup Hopen Hc0 Hpar Hc1.
  - cbn in Hup. injection Hup as <-. left. cbn [plus eff_cancelled_from]. now rewrite Hc1.
  - cbn [up] in Hup. destruct (s_parent (scopes s0 x)) as [p|] eqn:Ep; [|discriminate].
    destruct (Hopen 0 x ltac:(lia) eq_refl) as [_ Hs0].
    cbn [plus eff_cancelled_from].
    destruct (s_cancelled (scopes s1 x)) eqn:Ec1; [now left|].
    destruct (s_shield (scopes s1 x)) eqn:Es1.
    + right. exists 0, x. refine (conj _ (conj eq_refl (conj Hs0 (conj Es1 Ec1)))). lia.
    + rewrite (Hpar 0 x ltac:(lia) eq_refl), Ep.
      assert (Sh : forall j y, up s0 p j = Some y -> up s0 x (S j) = Some y) by (intros j y H; cbn [up]; now rewrite Ep).
      destruct (IH p org k Hup) as [H|(j & y & Hj & Hy & H)]; auto.
      * intros j y Hj Hy. apply (Hopen (S j) y); [lia|now apply Sh].
      * intros j y Hj Hy. apply (Hpar (S j) y); [lia|now apply Sh].
      * right. exists (S j), y. split; [lia|]. split; [now apply Sh|exact H].
Qed.

(* a downward path of open scopes, read upwards *)
Lemma vpath_up s c x n :
  (forall p k, In k (s_children (scopes s p)) -> s_parent (scopes s k) = Some p) ->
  vpath s c x n ->
  up s x n = Some c /\
  forall j y, j < n -> up s x j = Some y -> s_cancelled (scopes s y) = false /\ s_shield (scopes s y) = false.
Proof.
  intros T. induction 1 as [x|self ch x n Hc Hs Hk Hp IH]; [split; [reflexivity|intros j y Hj; lia]|].
  destruct IH as [IH1 IH2].
  (* up s x (S n): n steps reach ch, one more reaches self *)
  assert (App : forall m z, up s x m = Some z -> forall q, s_parent (scopes s z) = Some q -> up s x (S m) = Some q).
  { clear. intros m. revert x. induction m as [|m IHm]; intros x z H q Hq.
    - cbn in H. injection H as <-. cbn. now rewrite Hq.
    - cbn [up] in *. destruct (s_parent (scopes s x)) as [p|]; [|discriminate]. now apply (IHm p z). }
  split; [apply (App n ch IH1 self (T self ch Hc))|].
  intros j y Hj Hy. destruct (Nat.eq_dec j n) as [->|Hne]; [|apply (IH2 j y); [lia|exact Hy]].
  rewrite IH1 in Hy. injection Hy as <-. auto.
Qed.

(* the request-time facts in the form the window theorem wants, for reachable states of the generated domain *)
Theorem reach_request_chain s c t :
  reach_ok s -> s_cancelled (scopes s c) = true -> tasks (deliver_top s c) t <> tasks s t ->
  exists x n, k_cur (tasks s t) = Some x /\ up s x n = Some c /\
    forall j y, j < n -> up s x j = Some y -> s_cancelled (scopes s y) = false /\ s_shield (scopes s y) = false.
Proof.
  intros R Hc H. destruct (reach_cancel_only_if_effectively_cancelled s c t R Hc H) as (x & E & _ & _ & n & Hp).
  pose proof (reach_tree s R) as T.
  destruct (vpath_up s c x n (fun p k Hk => proj2 (proj1 (tr_child _ T p k) Hk)) Hp) as [U O].
  exists x, n. auto.
Qed.

Definition pop (s : st) (h : handle) : st := set_ready s (remove_first h (ready s)).

(* handle h is in the ready queue and running it makes task t receive CancelledError tagged with scope org *)
Definition receives (s : st) (h : handle) (t : tid) (org : sid) : Prop :=
  In h (ready s) /\
  ((h = HStep t /\ snd (incoming (pop s h) t None) = Some (ECancel (S org))) \/
   (exists f, h = HWake t f /\ snd (incoming (pop s h) t (Some f)) = Some (ECancel (S org)))).

(* The window statement for EVERY receipt of EVERY run of the generated domain (proved in scopes/ReceiptRun.v as
   receipt_window_run_holds, from two facts established for every op of `step` in scopes/ReceiptWalk.v /
   ReceiptRun.v: a tagged request is only ever placed by a delivery run of its origin, which is then cancelled and
   visible from the task's current scope; and a task that does not act keeps its current scope while the parent links
   of entered scopes and the cancel flags never change back).
   Either the exception is not a cancellation REQUEST at all but was read from a future that was completed with an
   exception -- in the model only TaskGroup.start()'s future is, by the child's task_done with the child's own
   exception: "if the child ends before calling started(), start() raises the child's exception" (property C07,
   DESIGN 11.9) -- or there is a prefix of the run (the moment the request was placed) at which the origin was
   cancelled and visible from the task's current scope through unshielded, uncancelled scopes, the task's current scope
   is the same at receipt, and at receipt the walk still finds a cancelled scope unless a shield was raised in between
   on a scope strictly below the origin (F25, and nothing else). *)
Definition receipt_window_run_statement : Prop :=
  forall ops h t org,
    ops_ok init ops = true -> receives (final step init ops) h t org ->
    (exists f, h = HWake t f /\ f_st (futs (final step init ops) f) = FExc (ECancel (S org))) \/
    exists pre post x n,
      ops = pre ++ post /\
      let s0 := final step init pre in let s1 := final step init ops in
      k_cur (tasks s0 t) = Some x /\ k_cur (tasks s1 t) = Some x /\ up s0 x n = Some org /\
      s_cancelled (scopes s0 org) = true /\
      (forall j y, j < n -> up s0 x j = Some y -> s_cancelled (scopes s0 y) = false /\ s_shield (scopes s0 y) = false) /\
      (eff_cancelled s1 x = true \/
       exists j y, j < n /\ up s0 x j = Some y /\ s_shield (scopes s0 y) = false /\ s_shield (scopes s1 y) = true).

(* The same WITHOUT the first disjunct is FALSE (this is how the statement read before; it is kept only to record its
   refutation): a receipt through a start future is not a request of the receiving task. *)
Definition receipt_window_without_future_path : Prop :=
  forall ops h t org,
    ops_ok init ops = true -> receives (final step init ops) h t org ->
    exists pre post x n,
      ops = pre ++ post /\
      let s0 := final step init pre in let s1 := final step init ops in
      k_cur (tasks s0 t) = Some x /\ k_cur (tasks s1 t) = Some x /\ up s0 x n = Some org /\
      s_cancelled (scopes s0 org) = true /\
      (forall j y, j < n -> up s0 x j = Some y -> s_cancelled (scopes s0 y) = false /\ s_shield (scopes s0 y) = false) /\
      (eff_cancelled s1 x = true \/
       exists j y, j < n /\ up s0 x j = Some y /\ s_shield (scopes s0 y) = false /\ s_shield (scopes s1 y) = true).

(* Witness: task 1 sits in scope 2, shielded from its creation, inside the group's scope 1, and calls start(); the
   child (task 2) is cancelled through scope 1 before it calls started() and ends with "Cancelled via cancel scope 1";
   its task_done hands that exception to the start future (6); task 1's wake-up reads it from the future and start()
   re-raises it -- although scope 1 was never visible from task 1's current scope.  C07 governs this path (start()
   raises the child's exception), not C04. *)
Definition start_reraise_ops : list op :=
  [ANewRoot; AGroupNew 1; AGroupEnter 1 1; ANewScope 1 None true; AEnter 1 2; AStart 1 1; ARun (HStep 2); ANewRoot;
   ACancel 3 1; ARun (HWake 2 7); AFinish 2 0; ARun (HDeliver 1); ARun (HTaskDone 2)].

Example start_reraises_child_cancellation_witness :
  let s := final step init start_reraise_ops in
  ops_ok init start_reraise_ops = true /\
  receives s (HWake 1 6) 1 1 /\ snd (step s (ARun (HWake 1 6))) = RExc (ECancel 2) /\
  (* the exception is in the start future of the child, put there by the child's task_done *)
  k_startfut (tasks s 2) = Some 6 /\ f_st (futs s 6) = FExc (ECancel 2) /\
  k_done (tasks s 2) = Some (OCanc (ECancel 2)) /\
  (* task 1 itself holds no request, its current scope is the shielded scope 2, not effectively cancelled *)
  k_must (tasks s 1) = false /\ k_cur (tasks s 1) = Some 2 /\ s_shield (scopes s 2) = true /\
  eff_cancelled s 2 = false.
Proof.
  vm_compute. refine (conj eq_refl (conj _ _)); [|repeat split; reflexivity].
  split; [now left|]. right. exists 6. split; reflexivity.
Qed.

Lemma firstn_prefix {A} (pre post : list A) : firstn (length pre) (pre ++ post) = pre.
Proof. rewrite firstn_app, Nat.sub_diag, firstn_all. cbn. apply app_nil_r. Qed.

Lemma start_reraise_cur : k_cur (tasks (final step init start_reraise_ops) 1) = Some 2.
Proof. vm_compute. reflexivity. Qed.

(* in every prefix of the witness in which task 1's current scope is 2, scope 2 is shielded *)
Lemma start_reraise_prefixes :
  forallb (fun k => let s0 := final step init (firstn k start_reraise_ops) in
                    negb (opt_eqb (k_cur (tasks s0 1)) 2) || s_shield (scopes s0 2)) (seq 0 14) = true.
Proof. vm_compute. reflexivity. Qed.

Theorem receipt_window_without_future_path_refuted : ~ receipt_window_without_future_path.
Proof.
  intros H.
  pose proof start_reraises_child_cancellation_witness as Wt. cbv zeta in Wt. destruct Wt as (Hok & Hr & _).
  destruct (H start_reraise_ops (HWake 1 6) 1 1 Hok Hr) as (pre & post & x & n & E & C0 & C1 & U & _ & Op & _).
  pose proof (eq_trans (eq_sym C1) start_reraise_cur) as Ex. injection Ex as ->.
  destruct n as [|n]; [cbn [up] in U; discriminate U|].
  assert (U0 : up (final step init pre) 2 0 = Some 2) by (cbn [up]; reflexivity).
  destruct (Op 0 2 (Nat.lt_0_succ n) U0) as [_ Hs]. clear H Hok Hr Op U C1 U0.
  pose proof start_reraise_prefixes as Hall. rewrite forallb_forall in Hall.
  assert (Hl : length pre <= 13).
  { assert (L : length (pre ++ post) = 13) by (rewrite <- E; reflexivity). rewrite app_length in L. lia. }
  specialize (Hall (length pre) ltac:(apply in_seq; lia)). cbv zeta in Hall.
  assert (Ef : firstn (length pre) start_reraise_ops = pre) by (rewrite E; apply firstn_prefix).
  rewrite Ef, C0 in Hall. cbn [opt_eqb] in Hall. rewrite Nat.eqb_refl, Hs in Hall. discriminate Hall.
Qed.

(* F25 is an instance of the gap: request placed by AExtCancel 1 (prefix of 7 ops) while scope 2 was unshielded;
   the shield of scope 2 (index 0 of the chain 2 -> 1) is raised before task 1 runs *)
Example f25_is_the_gap :
  let s0 := final step init (firstn 7 f25_ops) in
  let s1 := final step init (removelast f25_ops) in
  ops_ok init f25_ops = true /\
  receives s1 (HWake 1 6) 1 1 /\
  k_cur (tasks s0 1) = Some 2 /\ k_cur (tasks s1 1) = Some 2 /\ up s0 2 1 = Some 1 /\
  s_cancelled (scopes s0 1) = true /\ s_cancelled (scopes s0 2) = false /\ s_shield (scopes s0 2) = false /\
  eff_cancelled s0 2 = true /\ requested s0 1 2 /\
  eff_cancelled s1 2 = false /\ s_shield (scopes s1 2) = true.
Proof.
  vm_compute. refine (conj eq_refl (conj _ _)).
  - split; [now left|]. right. exists 6. split; reflexivity.
  - repeat split; try reflexivity. right. exists 6. repeat split; try reflexivity. now left.
Qed.

(* a scope used for two `with` blocks in sequence *)
(* The domain predicate ops_ok admits it (__enter__ only rejects an ACTIVE scope); the case generator of the
   harness never does it (every scope is entered once), so tie X does not exercise it.  Behaviour on record: the
   second block starts with cancel_called and cancelled_caught already true -- "cancelled_caught is true exactly
   for the scopes that absorbed one" fails for the second use -- and its first checkpoint is cancelled at once. *)
Definition s4_first : list op :=
  [ANewRoot; ANewScope 1 None false; AEnter 1 1; ACancel 1 1; AYield 1; ARun (HDeliver 1); ARun (HStep 1);
   AExit 1 1 false].
Definition s4_ops : list op := s4_first ++ [AEnter 1 1].

Example reused_scope_born_cancelled_refuted :
  let s1 := final step init s4_first in
  let s2 := final step init s4_ops in
  ops_ok init s4_ops = true /\
  (* first use: cancelled, absorbed its own cancellation, left *)
  s_active (scopes s1 1) = false /\ s_caught (scopes s1 1) = true /\ k_held (tasks s1 1) = None /\
  (* second use, before anything ran inside the block *)
  s_active (scopes s2 1) = true /\ s_cancelled (scopes s2 1) = true /\ s_caught (scopes s2 1) = true /\
  (* ... and the first checkpoint of the second block is cancelled at once *)
  let s3 := final step s2 [AYield 1; ARun (HDeliver 1)] in
  snd (step s3 (ARun (HStep 1))) = RExc (ECancel 2).
Proof. vm_compute. repeat split; reflexivity. Qed.

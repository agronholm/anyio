(* C03 — delivery of cancellation: what one run of _deliver_cancellation does (function level,
   by induction on the fuel of the recursion over child scopes). *)
From AV Require Import Base Machine MachineFacts ScopeFrames.

(* a pending wait is registered on its future (Task._fut_waiter <-> the future's wake-up callback) *)
Definition wait_link (s : st) : Prop :=
  forall t f, k_waiter (tasks s t) = Some f -> f_st (futs s f) = FPend -> f_waiter (futs s f) = Some t.

(* task t carries a cancellation request with origin o that its next step will receive *)
Definition requested (s : st) (t : tid) (o : nat) : Prop :=
  (k_must (tasks s t) = true /\ k_msg (tasks s t) = o /\ k_waiter (tasks s t) = None) \/
  (exists f, k_must (tasks s t) = false /\ k_waiter (tasks s t) = Some f /\ f_st (futs s f) = FCanc o /\
             In (HWake t f) (ready s)).

(* the recursive walk of deliver, from the tree side: t is a member of scope x, which lies below `self`
   through child links that are neither shielded nor cancelled; fuel as in `deliver` *)
Inductive dreach (s : st) : nat -> sid -> sid -> tid -> Prop :=
| dr_here fu self t : In t (s_tasks (scopes s self)) -> dreach s (S fu) self self t
| dr_child fu self ch x t :
    In ch (s_children (scopes s self)) ->
    s_shield (scopes s ch) = false -> s_cancelled (scopes s ch) = false ->
    dreach s fu ch x t -> dreach s (S fu) self x t.

Lemma task_cancel_nowaiter s t o :
  k_done (tasks s t) = None -> k_waiter (tasks s t) = None ->
  task_cancel s t o =
  upd_task (upd_task s t (tk_ncancel (S (k_ncancel (tasks s t))))) t (tk_must true o).
Proof. intros Hd Hw. unfold task_cancel. now rewrite Hd, Hw. Qed.

Lemma task_cancel_pending s t o f :
  k_done (tasks s t) = None -> k_waiter (tasks s t) = Some f -> f_st (futs s f) = FPend ->
  task_cancel s t o =
  let s1 := upd_task s t (tk_ncancel (S (k_ncancel (tasks s t)))) in
  let s2 := upd_fut s1 f (fun x => mkFut (FCanc o) (f_waiter x)) in
  match f_waiter (futs s f) with Some w => call_soon s2 (HWake w f) | None => s2 end.
Proof.
  intros Hd Hw Hp. unfold task_cancel. rewrite Hd, Hw.
  unfold fut_pending, fut_complete. cbn [futs upd_task set_tasks]. now rewrite Hp.
Qed.

Lemma fut_complete_scopes s f v : scopes (fut_complete s f v) = scopes s.
Proof. exact (qt_scopes _ _ _ (quiet_fut_complete 0 s f v)). Qed.

Lemma fut_complete_tasks s f v : tasks (fut_complete s f v) = tasks s.
Proof.
  unfold fut_complete. destruct (f_st (futs s f)); try reflexivity. destruct (f_waiter (futs s f)); reflexivity.
Qed.

Lemma task_cancel_scopes s t o : scopes (task_cancel s t o) = scopes s.
Proof.
  unfold task_cancel. destruct (k_done (tasks s t)); [reflexivity|].
  destruct (k_waiter (tasks s t)); [|reflexivity].
  destruct (fut_pending _ f); [|reflexivity]. now rewrite fut_complete_scopes.
Qed.

(* Task.cancel() completes at most the pending future the task waits on *)
Lemma task_cancel_futs s t o f :
  (k_waiter (tasks s t) = Some f -> f_st (futs s f) <> FPend) -> futs (task_cancel s t o) f = futs s f.
Proof.
  intros Hf. unfold task_cancel. destruct (k_done (tasks s t)); [reflexivity|].
  destruct (k_waiter (tasks s t)) as [f'|]; [|reflexivity].
  unfold fut_pending, fut_complete. cbn [futs upd_task set_tasks].
  destruct (f_st (futs s f')) eqn:Ep; try reflexivity.
  assert (f <> f') by (intros ->; now apply (Hf eq_refl)).
  destruct (f_waiter (futs s f')); cbn; unfold upd; destruct (Nat.eqb_spec f f'); try contradiction; reflexivity.
Qed.

(* the request Task.cancel() places on a task that has none yet *)
Lemma task_cancel_requests s t o :
  k_done (tasks s t) = None -> k_must (tasks s t) = false ->
  (forall f, k_waiter (tasks s t) = Some f -> f_st (futs s f) = FPend /\ f_waiter (futs s f) = Some t) ->
  requested (task_cancel s t o) t o.
Proof.
  intros Hd Hm Hw. unfold requested. destruct (k_waiter (tasks s t)) as [f|] eqn:Ew.
  - destruct (Hw f eq_refl) as [Hp Hf]. right. exists f.
    rewrite (task_cancel_pending s t o f Hd Ew Hp). cbv zeta. rewrite Hf.
    cbn. unfold upd. rewrite !Nat.eqb_refl. cbn.
    split; [exact Hm|]. split; [exact Ew|]. split; [reflexivity|]. apply in_or_app. right. now left.
  - left. rewrite (task_cancel_nowaiter s t o Hd Ew). cbn. unfold upd. rewrite !Nat.eqb_refl. cbn.
    repeat split. exact Ew.
Qed.

Inductive dmove (origin : sid) (a : st) : st -> Prop :=
| dm_task self t a' : dtask self origin a t a' -> dmove origin a a'
| dm_mark b : dmove origin a (upd_scope a origin (sc_chandle b))
| dm_soon : dmove origin a (call_soon a (HDeliver origin)).

Lemma kframe_dmove origin a a' : dmove origin a a' -> kframe a a'.
Proof.
  intros [self t a1 D|b|]; [exact (kframe_dtask _ _ _ _ _ D)| |now apply kframe_call_soon].
  apply kframe_upd_scope. intros k; reflexivity.
Qed.

Lemma dmove_closed (R : st -> st -> Prop) origin :
  (forall a, R a a) -> (forall a b c, R a b -> R b c -> R a c) -> (forall a a', dmove origin a a' -> R a a') ->
  forall fu s self, R s (fst (deliver fu s self origin)).
Proof.
  intros Rr Rt Rm. apply (deliver_closed R origin Rr Rt).
  - intros self a t a' D. exact (Rm _ _ (dm_task origin a self t a' D)).
  - intros a b. apply Rm, dm_mark.
  - intros a. apply Rm, dm_soon.
Qed.

(* a request, once placed, is not disturbed by the rest of the delivery *)
Lemma requested_kframe a b t o : kframe a b -> tasks b t = tasks a t -> requested a t o -> requested b t o.
Proof.
  intros K E R. unfold requested. rewrite E. destruct R as [R|[f [R0 [R1 [R2 R3]]]]]; [now left|right].
  exists f. repeat split; try assumption.
  - rewrite (kf_fdone _ _ K f); [exact R2|]. rewrite R2. discriminate.
  - destruct (kf_ready _ _ K) as [l [El _]]. rewrite El. apply in_or_app. now left.
Qed.

Lemma requested_dmove origin a a' t o : dmove origin a a' -> requested a t o -> requested a' t o.
Proof.
  intros M R. apply (requested_kframe a a'); [exact (kframe_dmove _ _ _ M)| |exact R].
  destruct M as [self u a2 [_|[Hd [Hm [Hr [Hh Hw]]]] a1]|b|]; try reflexivity.
  assert (Hne : t <> u).
  { intros ->. destruct R as [[R1 _]|[f [_ [R1 [R2 _]]]]]; [congruence|].
    specialize (Hw f R1). unfold fut_pending in Hw. rewrite R2 in Hw. discriminate. }
  transitivity (tasks a1 t); [destruct (opt_eqb _ u); reflexivity|now apply task_cancel_other].
Qed.

(* the walk of deliver against the tree of a reference state:
   s0 is the state the delivery started from; every intermediate state differs from it by a kframe, so the
   members and children the loops run over are those of s0.  I is carried from move to move; a visit of task t
   of scope x establishes G x t, which later moves do not undo; P is what is known of the scopes walked. *)
Section DeliverWalk.
  Variables (s0 : st) (origin : sid).
  Variable P : sid -> Prop.
  Variable I : st -> Prop.
  Variable G : sid -> tid -> st -> Prop.
  Hypothesis P_child : forall self ch, P self -> In ch (s_children (scopes s0 self)) ->
    s_shield (scopes s0 ch) = false -> s_cancelled (scopes s0 ch) = false -> P ch.
  Hypothesis I_frame : forall a, I a -> kframe s0 a.
  Hypothesis I_task : forall self t a r, P self -> In t (s_tasks (scopes s0 self)) -> I a ->
    I (fst (deliver_task self origin (a, r) t)) /\ G self t (fst (deliver_task self origin (a, r) t)).
  Hypothesis I_mark : forall a b, I a -> I (upd_scope a origin (sc_chandle b)).
  Hypothesis I_soon : forall a, I a -> I (call_soon a (HDeliver origin)).
  Hypothesis G_move : forall x t a a', dmove origin a a' -> G x t a -> G x t a'.

  Let keeps (a b : st) : Prop := forall x t, G x t a -> G x t b.

  Lemma keeps_deliver fu a self : keeps a (fst (deliver fu a self origin)).
  Proof.
    apply (dmove_closed keeps origin); unfold keeps; auto. intros b b' M x t. now apply G_move.
  Qed.

  Lemma keeps_tasks self l a r : keeps a (fst (fold_left (deliver_task self origin) l (a, r))).
  Proof.
    apply (fold_closed keeps); unfold keeps; auto. intros b r' u x t.
    apply G_move. exact (dm_task origin b self u _ (deliver_task_shape self origin b r' u)).
  Qed.

  Lemma keeps_subs fu l a r : keeps a (fst (fold_left (deliver_sub fu origin) l (a, r))).
  Proof.
    apply (fold_closed keeps); unfold keeps; auto. intros b r' u. unfold deliver_sub.
    destruct (negb _ && negb _); [|auto]. pose proof (keeps_deliver fu b u) as K.
    destruct (deliver fu b u origin). exact K.
  Qed.

  Lemma walk_tasks self : P self -> forall l a r,
    (forall t, In t l -> In t (s_tasks (scopes s0 self))) -> I a ->
    I (fst (fold_left (deliver_task self origin) l (a, r))) /\
    forall t, In t l -> G self t (fst (fold_left (deliver_task self origin) l (a, r))).
  Proof.
    intros Ps. induction l as [|t l IH]; intros a r Hl Ia; cbn [fold_left]; [split; [exact Ia|intros t []]|].
    destruct (I_task self t a r Ps (Hl t (or_introl eq_refl)) Ia) as [I1 G1].
    destruct (deliver_task self origin (a, r) t) as [a1 r1]. cbn [fst] in I1, G1.
    destruct (IH a1 r1 (fun u Hu => Hl u (or_intror Hu)) I1) as [I2 G2]. split; [exact I2|].
    intros u [<-|Hu]; [now apply keeps_tasks|now apply G2].
  Qed.

  Lemma deliver_walk fu : forall a self, P self -> I a ->
    I (fst (deliver fu a self origin)) /\
    forall x t, dreach s0 fu self x t -> G x t (fst (deliver fu a self origin)).
  Proof.
    induction fu as [|fu IH]; intros a self Ps Ia; [split; [exact Ia|intros x t H; inversion H]|].
    rewrite deliver_S.
    destruct (walk_tasks self Ps (s_tasks (scopes a self)) a false) as [I1 G1]; [|exact Ia|].
    { intros t. now rewrite (core_tasks _ _ (kf_scopes _ _ (I_frame a Ia) self)). }
    destruct (fold_left (deliver_task self origin) (s_tasks (scopes a self)) (a, false)) as [s1 r1].
    cbn [fst] in I1, G1.
    assert (F : forall l b r, (forall ch, In ch l -> In ch (s_children (scopes s0 self))) -> I b ->
              I (fst (fold_left (deliver_sub fu origin) l (b, r))) /\
              forall ch x t, In ch l -> s_shield (scopes s0 ch) = false -> s_cancelled (scopes s0 ch) = false ->
                dreach s0 fu ch x t -> G x t (fst (fold_left (deliver_sub fu origin) l (b, r)))).
    { induction l as [|c l IHl]; intros b r Hl Ib; cbn [fold_left]; [split; [exact Ib|intros ch x t []]|].
      pose proof (kf_scopes _ _ (I_frame b Ib) c) as Ec.
      assert (S1 : I (fst (deliver_sub fu origin (b, r) c)) /\
                   (s_shield (scopes s0 c) = false -> s_cancelled (scopes s0 c) = false ->
                    forall x t, dreach s0 fu c x t -> G x t (fst (deliver_sub fu origin (b, r) c)))).
      { unfold deliver_sub. rewrite (core_shield _ _ Ec), (core_cancelled _ _ Ec).
        destruct (s_shield (scopes s0 c)) eqn:Sc; cbn [negb andb]; [split; [exact Ib|discriminate]|].
        destruct (s_cancelled (scopes s0 c)) eqn:Cc; cbn [negb]; [split; [exact Ib|discriminate]|].
        destruct (IH b c (P_child self c Ps (Hl c (or_introl eq_refl)) Sc Cc) Ib) as [I3 G3].
        destruct (deliver fu b c origin) as [b' r']. split; [exact I3|intros _ _; exact G3]. }
      destruct S1 as [I2 G2]. destruct (deliver_sub fu origin (b, r) c) as [b1 r1']. cbn [fst] in I2, G2.
      destruct (IHl b1 r1' (fun u Hu => Hl u (or_intror Hu)) I2) as [I3 G3]. split; [exact I3|].
      intros ch x t [<-|Hch] Hs Hc Hd; [now apply keeps_subs, G2|now apply (G3 ch)]. }
    destruct (F (s_children (scopes s1 self)) s1 r1) as [I2 G2]; [|exact I1|].
    { intros ch. now rewrite (core_children _ _ (kf_scopes _ _ (I_frame s1 I1) self)). }
    pose proof (keeps_subs fu (s_children (scopes s1 self)) s1 r1) as K2.
    destruct (fold_left (deliver_sub fu origin) (s_children (scopes s1 self)) (s1, r1)) as [s2 r2].
    cbn [fst] in I2, G2, K2.
    assert (G3 : forall x t, dreach s0 (S fu) self x t -> G x t s2).
    { intros x t Hd. inversion Hd; subst.
      { apply K2, G1. now rewrite (core_tasks _ _ (kf_scopes _ _ (I_frame a Ia) x)). }
      apply (G2 ch); try assumption.
      now rewrite (core_children _ _ (kf_scopes _ _ (I_frame s1 I1) self)). }
    destruct (Nat.eqb_spec origin self) as [<-|_]; [|split; assumption].
    destruct r2; cbn [fst]; (split; [auto|]); intros x t Hd; specialize (G3 x t Hd).
    - apply (G_move x t _ _ (dm_soon origin _)), (G_move x t _ _ (dm_mark origin _ true)), G3.
    - apply (G_move x t _ _ (dm_mark origin _ false)), G3.
  Qed.
End DeliverWalk.

Lemma deliver_task_retry self origin a r t :
  snd (deliver_task self origin (a, r) t) = match k_done (tasks a t) with Some _ => r | None => true end.
Proof. apply deliver_task_snd. Qed.

Lemma deliver_retry s0 origin fu : forall a self, kframe s0 a ->
  (snd (deliver fu a self origin) = true <-> exists x t, dreach s0 fu self x t /\ k_done (tasks s0 t) = None).
Proof.
  induction fu as [|fu IH]; intros a self K.
  - cbn. split; [discriminate|]. intros [x [t [H _]]]. inversion H.
  - rewrite deliver_S.
    assert (F1 : forall l b r, kframe s0 b ->
              (snd (fold_left (deliver_task self origin) l (b, r)) = true <->
               r = true \/ exists t, In t l /\ k_done (tasks s0 t) = None)).
    { induction l as [|t l IHl]; intros b r Kb; cbn [fold_left].
      - cbn. split; [now left|]. intros [H|[t [[] _]]]. exact H.
      - pose proof (deliver_task_snd self origin b r t) as Hr.
        pose proof (kframe_deliver_task self origin b r t) as Ks.
        destruct (deliver_task self origin (b, r) t) as [b1 r1]. cbn [fst snd] in *.
        rewrite (IHl b1 r1 (kframe_trans _ _ _ Kb Ks)). subst r1.
        rewrite (tcore_done _ _ (kf_tasks _ _ Kb t)). split.
        + intros [H|[u [Hu Hd]]]; [|right; exists u; split; [now right|exact Hd]].
          destruct (k_done (tasks s0 t)) eqn:Ed; [now left|]. right. exists t. split; [now left|exact Ed].
        + intros [H|[u [[->|Hu] Hd]]]; [left; destruct (k_done (tasks s0 t)); auto|left; now rewrite Hd|].
          right. exists u. now split. }
    pose proof (F1 (s_tasks (scopes a self)) a false K) as Hr1.
    pose proof (fold_closed kframe (deliver_task self origin) kframe_refl kframe_trans
                  (kframe_deliver_task self origin) (s_tasks (scopes a self)) a false) as K1.
    destruct (fold_left (deliver_task self origin) (s_tasks (scopes a self)) (a, false)) as [s1 r1].
    cbn [fst snd] in *.
    assert (Ks1 : kframe s0 s1) by (eapply kframe_trans; eauto).
    assert (F : forall l b r, kframe s0 b ->
              (snd (fold_left (deliver_sub fu origin) l (b, r)) = true <-> r = true \/
               exists ch x t, In ch l /\ s_shield (scopes s0 ch) = false /\ s_cancelled (scopes s0 ch) = false /\
                              dreach s0 fu ch x t /\ k_done (tasks s0 t) = None)).
    { induction l as [|c l IHl]; intros b r Kb; cbn [fold_left].
      - cbn. split; [now left|]. intros [H|[ch [x [t [[] _]]]]]. exact H.
      - pose proof (kf_scopes _ _ Kb c) as Ec. unfold deliver_sub at 2.
        rewrite (core_shield _ _ Ec), (core_cancelled _ _ Ec).
        destruct (negb (s_shield (scopes s0 c)) && negb (s_cancelled (scopes s0 c))) eqn:Eg.
        + apply andb_true_iff in Eg. destruct Eg as [Eg1 Eg2]. apply negb_true_iff in Eg1, Eg2.
          pose proof (IH b c Kb) as Hr. pose proof (kframe_deliver fu b c origin) as Kd.
          destruct (deliver fu b c origin) as [b' r']. cbn [fst snd] in *.
          rewrite (IHl b' (r' || r) (kframe_trans _ _ _ Kb Kd)), orb_true_iff, Hr. split.
          * intros [[[x [t [Hd Hk]]]|H]|[ch [x [t [Hin H]]]]]; [right; exists c, x, t; repeat split; auto; now left|now left|].
            right. exists ch, x, t. split; [now right|exact H].
          * intros [H|[ch [x [t [[->|Hin] [H1 [H2 [H3 H4]]]]]]]]; [left; now right|left; left; now exists x, t|].
            right. exists ch, x, t. auto.
        + rewrite (IHl b r Kb). split.
          * intros [H|[ch [x [t [Hin H]]]]]; [now left|]. right. exists ch, x, t. split; [now right|exact H].
          * intros [H|[ch [x [t [[->|Hin] [H1 [H2 [H3 H4]]]]]]]]; [now left|rewrite H1, H2 in Eg; discriminate|].
            right. exists ch, x, t. auto. }
    pose proof (F (s_children (scopes s1 self)) s1 r1 Ks1) as Hr2.
    destruct (fold_left (deliver_sub fu origin) (s_children (scopes s1 self)) (s1, r1)) as [s2 r2].
    cbn [snd] in Hr2.
    assert (G3 : r2 = true <-> exists x t, dreach s0 (S fu) self x t /\ k_done (tasks s0 t) = None).
    { rewrite Hr2, Hr1, (core_tasks _ _ (kf_scopes _ _ K self)), (core_children _ _ (kf_scopes _ _ Ks1 self)). split.
      - intros [[H|[t [Hin Hd]]]|[ch [x [t [Hin [H1 [H2 [H3 H4]]]]]]]]; [discriminate| |].
        + exists self, t. split; [now apply dr_here|exact Hd].
        + exists x, t. split; [eapply dr_child; eauto|exact H4].
      - intros [x [t [Hd Hk]]]. inversion Hd; subst; [left; right; now exists t|].
        right. exists ch, x, t. auto. }
    destruct (Nat.eqb origin self); [destruct r2|]; cbn [snd]; exact G3.
Qed.

Section DeliverSpec.
  Variable s0 : st.

  (* eligibility of member t of scope x, in the state before the delivery *)
  Definition elig (t : tid) (x : sid) : Prop :=
    k_done (tasks s0 t) = None /\ k_must (tasks s0 t) = false /\ running s0 <> Some t /\
    (s_host (scopes s0 x) = Some t \/ k_started (tasks s0 t) = true) /\
    match k_waiter (tasks s0 t) with Some f => f_st (futs s0 f) = FPend | None => True end.

End DeliverSpec.

Section DeliverRequests.
  Variable s0 : st.
  Variable origin : sid.
  Hypothesis WL : wait_link s0.

  Definition untouched (a : st) (t : tid) : Prop :=
    tasks a t = tasks s0 t /\ forall f, k_waiter (tasks s0 t) = Some f -> futs a f = futs s0 f.

  Definition Q (a : st) : Prop :=
    kframe s0 a /\ forall t, untouched a t \/ requested a t (S origin).

  Lemma pend_back a f : kframe s0 a -> f_st (futs a f) = FPend -> f_st (futs s0 f) = FPend.
  Proof.
    intros K H. destruct (f_st (futs s0 f)) eqn:E; [reflexivity| | |];
      rewrite (kf_fdone _ _ K f) in H; congruence.
  Qed.

  Lemma Q_frame a b : Q a -> kframe a b -> tasks b = tasks a -> futs b = futs a -> Q b.
  Proof.
    intros [K H] Kb Et Ef. split; [eapply kframe_trans; eauto|]. intros t. destruct (H t) as [[U1 U2]|R].
    - left. split; [now rewrite Et|]. intros f Hf. rewrite Ef. now apply U2.
    - right. apply (requested_kframe a b); [exact Kb|now rewrite Et|exact R].
  Qed.

  (* an eligible task that carries no request yet gets one; the others keep what they had, since a pending
     future has one waiter *)
  Lemma Q_task self t a r : Q a ->
    Q (fst (deliver_task self origin (a, r) t)) /\
    (elig s0 t self -> requested (fst (deliver_task self origin (a, r) t)) t (S origin)).
  Proof.
    intros [K HQ]. pose proof (kf_tasks _ _ K t) as Kt.
    generalize (deliver_task_shape self origin a r t).
    generalize (fst (deliver_task self origin (a, r) t)). intros a' D.
    pose proof (dm_task origin a self t a' D) as M.
    assert (Ka' : kframe s0 a') by (eapply kframe_trans; [exact K|exact (kframe_dmove _ _ _ M)]).
    destruct D as [Nel|[Hd [Hm [Hr [Hh Hw]]]] a1].
    - split; [split; assumption|]. intros [Ed [Em [Er [Eh Ew]]]].
      destruct (HQ t) as [[U1 U2]|R]; [exfalso|exact R]. apply Nel. unfold deliverable. rewrite U1.
      rewrite (kf_running _ _ K), (core_host _ _ (kf_scopes _ _ K self)).
      repeat split; try assumption. intros f Hf. unfold fut_pending. rewrite (U2 f Hf). rewrite Hf in Ew.
      now rewrite Ew.
    - set (a2 := if opt_eqb (s_host (scopes a1 origin)) t then _ else a1) in *.
      assert (E2 : tasks a2 = tasks a1 /\ futs a2 = futs a1 /\ ready a2 = ready a1).
      { unfold a2. destruct (opt_eqb (s_host (scopes a1 origin)) t); repeat split; reflexivity. }
      destruct E2 as [E2t [E2f E2r]].
      assert (Hwa : k_waiter (tasks a t) = k_waiter (tasks s0 t)) by apply (tcore_waiter _ _ Kt).
      assert (Hp : forall f, k_waiter (tasks a t) = Some f -> f_st (futs a f) = FPend).
      { intros f Hf. specialize (Hw f Hf). unfold fut_pending in Hw. now destruct (f_st (futs a f)). }
      assert (Rt : requested a2 t (S origin)).
      { unfold requested. rewrite E2t, E2f, E2r. apply task_cancel_requests; [exact Hd|exact Hm|].
        intros f Hf. split; [now apply Hp|]. rewrite (kf_fwaiter _ _ K f).
        apply WL; [now rewrite <- Hwa|exact (pend_back a f K (Hp f Hf))]. }
      split; [|intros _; exact Rt]. split; [exact Ka'|].
      intros u. destruct (Nat.eq_dec u t) as [->|Hne]; [now right|].
      destruct (HQ u) as [[U1 U2]|R]; [left|right; exact (requested_dmove origin a a2 u _ M R)].
      split; [rewrite E2t; unfold a1; now rewrite (task_cancel_other a t (S origin) u Hne)|].
      intros f Hf. rewrite E2f. unfold a1. rewrite (task_cancel_futs a t (S origin) f); [now apply U2|].
      rewrite Hwa. intros Hft Hpf. apply Hne.
      assert (P0 : f_st (futs s0 f) = FPend) by exact (pend_back a f K Hpf).
      pose proof (WL _ _ Hf P0) as W1. pose proof (WL _ _ Hft P0) as W2. congruence.
  Qed.

  Lemma Q_deliver fu a self : Q a ->
    Q (fst (deliver fu a self origin)) /\
    forall x t, dreach s0 fu self x t -> elig s0 t x -> requested (fst (deliver fu a self origin)) t (S origin).
  Proof.
    apply (deliver_walk s0 origin (fun _ => True) Q (fun x t b => elig s0 t x -> requested b t (S origin)));
      auto.
    - intros b Hb. apply Hb.
    - intros x t b r _ _. apply Q_task.
    - intros b c Hb. apply (Q_frame b); [exact Hb| |reflexivity|reflexivity].
      apply kframe_upd_scope. intros k; reflexivity.
    - intros b Hb. apply (Q_frame b); [exact Hb| |reflexivity|reflexivity]. now apply kframe_call_soon.
    - intros x t b b' M R El. exact (requested_dmove origin b b' t _ M (R El)).
  Qed.

  Lemma Q_refl : Q s0.
  Proof. split; [apply kframe_refl|]. intros t. left. split; [reflexivity|]. intros; reflexivity. Qed.
End DeliverRequests.

Lemma deliver_scopes_other origin c' fu : c' <> origin -> forall a self,
  scopes (fst (deliver fu a self origin)) c' = scopes a c'.
Proof.
  intros Hne. apply (dmove_closed (fun a b => scopes b c' = scopes a c') origin); try congruence.
  assert (Eu : forall a g, scopes (upd_scope a origin g) c' = scopes a c').
  { intros a g. cbn. unfold upd. destruct (Nat.eqb_spec c' origin); [contradiction|reflexivity]. }
  intros a a' [self t a2 [_|_ a1]|b|]; try reflexivity; try apply Eu.
  transitivity (scopes a1 c'); [destruct (opt_eqb _ t); [apply Eu|reflexivity]|]. unfold a1.
  now rewrite task_cancel_scopes.
Qed.

Theorem deliver_reschedules_iff_retry fu s c :
  let s' := fst (deliver (S fu) s c c) in
  let r := snd (deliver (S fu) s c c) in
  s_chandle (scopes s' c) = r /\
  (r = true -> exists l, ready s' = l ++ [HDeliver c]) /\
  (r = false -> ~ In (HDeliver c) (ready s) -> forall c', c' <> c -> scopes s' c' = scopes s c').
Proof.
  cbv zeta. split; [|split].
  - rewrite deliver_S.
    destruct (fold_left (deliver_task c c) (s_tasks (scopes s c)) (s, false)) as [s1 r1].
    destruct (fold_left (deliver_sub fu c) (s_children (scopes s1 c)) (s1, r1)) as [s2 r2].
    rewrite Nat.eqb_refl. destruct r2; cbn; unfold upd; now rewrite Nat.eqb_refl.
  - rewrite deliver_S.
    destruct (fold_left (deliver_task c c) (s_tasks (scopes s c)) (s, false)) as [s1 r1].
    destruct (fold_left (deliver_sub fu c) (s_children (scopes s1 c)) (s1, r1)) as [s2 r2].
    rewrite Nat.eqb_refl. destruct r2; cbn [fst snd]; [|discriminate].
    intros _. exists (ready s2). reflexivity.
  - intros _ _ c' Hne. now apply deliver_scopes_other.
Qed.

Lemma deliver_top_chandle s c :
  s_chandle (scopes (deliver_top s c) c) = true <->
  exists x t, dreach s (S (nscope s)) c x t /\ k_done (tasks s t) = None.
Proof.
  rewrite <- (deliver_retry s c (S (nscope s)) s c (kframe_refl s)).
  unfold deliver_top. now rewrite (proj1 (deliver_reschedules_iff_retry (nscope s) s c)).
Qed.

Lemma deliver_top_ready s c :
  s_chandle (scopes (deliver_top s c) c) = true -> In (HDeliver c) (ready (deliver_top s c)).
Proof.
  unfold deliver_top. destruct (deliver_reschedules_iff_retry (nscope s) s c) as [E [H _]]. rewrite E.
  intros R. destruct (H R) as [l ->]. apply in_or_app. right. now left.
Qed.

(* the C03 function-level statement *)
Theorem deliver_top_spec s c : wait_link s ->
  let s' := deliver_top s c in
  kframe s s' /\
  (forall c', c' <> c -> scopes s' c' = scopes s c') /\
  (forall x t, dreach s (S (nscope s)) c x t -> elig s t x -> requested s' t (S c)) /\
  ((exists x t, dreach s (S (nscope s)) c x t /\ k_done (tasks s t) = None) ->
     s_chandle (scopes s' c) = true /\ In (HDeliver c) (ready s')) /\
  (~ (exists x t, dreach s (S (nscope s)) c x t /\ k_done (tasks s t) = None) ->
     s_chandle (scopes s' c) = false).
Proof.
  intros WL s'. split; [apply kframe_deliver_top|]. split.
  { intros c' Hne. now apply deliver_scopes_other. }
  split; [exact (proj2 (Q_deliver s c WL (S (nscope s)) s c (Q_refl s c)))|].
  pose proof (deliver_top_chandle s c) as H. pose proof (deliver_top_ready s c) as Hr. fold s' in H, Hr. split.
  - intros E. apply H in E. split; [exact E|now apply Hr].
  - intros N. destruct (s_chandle (scopes s' c)); [elim N; now apply H|reflexivity].
Qed.

(* what one delivery does to an arbitrary task: nothing, or a request with this origin *)
Lemma deliver_top_task s c t : wait_link s ->
  (tasks (deliver_top s c) t = tasks s t /\
   forall f, k_waiter (tasks s t) = Some f -> futs (deliver_top s c) f = futs s f) \/
  requested (deliver_top s c) t (S c).
Proof. intros WL. exact (proj2 (proj1 (Q_deliver s c WL (S (nscope s)) s c (Q_refl s c))) t). Qed.

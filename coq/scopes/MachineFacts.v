(* The shape of the S machine's composite functions, stated once: each lemma says which primitive moves a
   composite is made of and under which conditions, so that an invariant or a preorder closed under the
   primitive moves is carried across the composite without unfolding it. *)
From AV Require Import Base Machine.

Lemma opt_eqb_Some o t : opt_eqb o t = true <-> o = Some t.
Proof.
  destruct o as [x|]; cbn [opt_eqb]; [|split; discriminate].
  rewrite Nat.eqb_eq. split; [now intros ->|now intros [= ->]].
Qed.

Definition done_struct (s : st) (t : tid) (g : gid) : st :=
  let s1 := match k_cur (tasks s t) with
            | Some c => upd_scope s c (fun x => sc_tasks (del t (s_tasks x)) x)
            | None => s
            end in
  let s2 := upd_group s1 g (fun x => gr_tasks (del t (g_tasks x)) x) in
  upd_task s2 t (fun x => tk_tdran true (tk_cur None x)).

Definition done_wake (s3 : st) (g : gid) : st :=
  match g_fut (groups s3 g), g_tasks (groups s3 g) with
  | Some f, [] => fut_complete s3 f (FRes 0)
  | _, _ => s3
  end.

Definition done_exc (k : task) : option exn :=
  match k_done k with
  | Some (OExc e) => Some e
  | Some (OCanc e) => Some e
  | _ => None
  end.

(* what task_done does with the child's outcome; `if not cancel_called: cancel()` of the source is
   scope_cancel, which does nothing on a scope whose cancel() has been called *)
Definition done_end (s4 : st) (k : task) (g : gid) (t : tid) : st :=
  let exc := done_exc k in
  let sf := k_startfut k in
  let sf_state := match sf with Some f => Some (f_st (futs s4 f)) | None => None end in
  match exc with
  | Some e =>
      match sf_state with
      | Some (FCanc _) =>
          if is_cancel e then s4 else
          let s5 := upd_group s4 g (fun x => gr_excs (g_excs x ++ [(t, e)]) x) in
          scope_cancel s5 (g_scope (groups s5 g)) false
      | Some FPend =>
          match sf with Some f => fut_complete s4 f (FExc e) | None => s4 end
      | _ =>
          if is_cancel e then
            if eff_cancelled s4 (g_scope (groups s4 g)) then s4 else scope_cancel s4 (g_scope (groups s4 g)) false
          else
            let s5 := upd_group s4 g (fun x => gr_excs (g_excs x ++ [(t, e)]) x) in
            scope_cancel s5 (g_scope (groups s5 g)) false
      end
  | None =>
      match sf, sf_state with
      | Some f, Some FPend => fut_complete s4 f (FExc ERuntime)
      | _, _ => s4
      end
  end.

Definition done_tail (s3 : st) (k : task) (g : gid) (t : tid) : st := done_end (done_wake s3 g) k g t.

Lemma scope_cancel_idem s c b : (if s_cancelled (scopes s c) then s else scope_cancel s c b) = scope_cancel s c b.
Proof. unfold scope_cancel. destruct (s_cancelled (scopes s c)); reflexivity. Qed.

Lemma run_task_done_eq s0 t :
  run_task_done s0 t =
  match k_group (tasks s0 t) with
  | None => set_running s0 None
  | Some g => done_tail (done_struct (set_running s0 None) t g) (tasks s0 t) g t
  end.
Proof.
  unfold run_task_done. cbv zeta. change (tasks (set_running s0 None) t) with (tasks s0 t).
  destruct (k_group (tasks s0 t)) as [g|]; [|reflexivity].
  change (upd_task _ t (fun x => tk_tdran true (tk_cur None x))) with (done_struct (set_running s0 None) t g).
  generalize (done_struct (set_running s0 None) t g) as s3. intros s3. fold (done_wake s3 g).
  unfold done_tail, done_end, done_exc. cbv zeta. generalize (done_wake s3 g) as s4. intros s4.
  destruct (k_done (tasks s0 t)) as [[v|e|e]|]; try reflexivity;
    (destruct (k_startfut (tasks s0 t)) as [f|]; [destruct (f_st (futs s4 f))|]; try reflexivity;
     destruct (is_cancel e); try reflexivity; apply scope_cancel_idem).
Qed.

Inductive td_wake (s3 : st) (g : gid) : st -> Prop :=
| tw_none : td_wake s3 g s3
| tw_fire f : g_fut (groups s3 g) = Some f -> g_tasks (groups s3 g) = [] ->
    td_wake s3 g (fut_complete s3 f (FRes 0)).

Inductive td_end (s4 : st) (k : task) (g : gid) (t : tid) : st -> Prop :=
| te_none : td_end s4 k g t s4
| te_start f : k_startfut k = Some f -> f_st (futs s4 f) = FPend ->
    td_end s4 k g t (fut_complete s4 f (FExc (match done_exc k with Some e => e | None => ERuntime end)))
| te_cancel e : done_exc k = Some e -> is_cancel e = true -> eff_cancelled s4 (g_scope (groups s4 g)) = false ->
    td_end s4 k g t (scope_cancel s4 (g_scope (groups s4 g)) false)
| te_fail e : done_exc k = Some e -> is_cancel e = false ->
    td_end s4 k g t (scope_cancel (upd_group s4 g (fun x => gr_excs (g_excs x ++ [(t, e)]) x))
                                  (g_scope (groups s4 g)) false).

Lemma td_wake_shape s3 g : td_wake s3 g (done_wake s3 g).
Proof.
  unfold done_wake. destruct (g_fut (groups s3 g)) as [f|] eqn:Ef; [|apply tw_none].
  destruct (g_tasks (groups s3 g)) eqn:Et; [now apply tw_fire|apply tw_none].
Qed.

(* td_end with the reason for doing nothing: the child did not fail *)
Inductive td_fate (s4 : st) (k : task) (g : gid) (t : tid) : st -> Prop :=
| tf_none : (forall e, done_exc k = Some e -> is_cancel e = true) -> td_fate s4 k g t s4
| tf_start f : k_startfut k = Some f -> f_st (futs s4 f) = FPend ->
    td_fate s4 k g t (fut_complete s4 f (FExc (match done_exc k with Some e => e | None => ERuntime end)))
| tf_cancel e : done_exc k = Some e -> is_cancel e = true -> eff_cancelled s4 (g_scope (groups s4 g)) = false ->
    td_fate s4 k g t (scope_cancel s4 (g_scope (groups s4 g)) false)
| tf_fail e : done_exc k = Some e -> is_cancel e = false ->
    td_fate s4 k g t (scope_cancel (upd_group s4 g (fun x => gr_excs (g_excs x ++ [(t, e)]) x))
                                   (g_scope (groups s4 g)) false).

Lemma td_fate_shape s4 k g t : td_fate s4 k g t (done_end s4 k g t).
Proof.
  unfold done_end. cbv zeta. pose proof (tf_start s4 k g t) as Ks. pose proof (tf_none s4 k g t) as Kn.
  destruct (done_exc k) as [e|] eqn:Ee; [|assert (N : td_fate s4 k g t s4) by (apply Kn; discriminate)].
  - replace (g_scope (groups (upd_group s4 g (fun x => gr_excs (g_excs x ++ [(t, e)]) x)) g))
      with (g_scope (groups s4 g)) by (cbn [groups upd_group set_groups]; now rewrite upd_same).
    pose proof (tf_fail s4 k g t e Ee) as Kf.
    assert (N : is_cancel e = true -> td_fate s4 k g t s4) by (intros Ec; apply Kn; now intros e' [= <-]).
    assert (Kc : is_cancel e = true ->
                 td_fate s4 k g t (if eff_cancelled s4 (g_scope (groups s4 g)) then s4
                                   else scope_cancel s4 (g_scope (groups s4 g)) false)).
    { intros Ec. destruct (eff_cancelled s4 _) eqn:Ef; [now apply N|now apply (tf_cancel s4 k g t e)]. }
    destruct (k_startfut k) as [f|]; [destruct (f_st (futs s4 f)) eqn:Ef|]; try (now apply Ks);
      destruct (is_cancel e); auto.
  - destruct (k_startfut k) as [f|]; [|exact N].
    destruct (f_st (futs s4 f)) eqn:Ef; try exact N. now apply Ks.
Qed.

Lemma td_fate_end s4 k g t s' : td_fate s4 k g t s' -> td_end s4 k g t s'.
Proof. intros [N|f H1 H2|e H1 H2 H3|e H1 H2]; [apply te_none|now apply te_start|now apply (te_cancel _ _ _ _ e)|now apply te_fail]. Qed.

Lemma td_end_shape s4 k g t : td_end s4 k g t (done_end s4 k g t).
Proof. apply td_fate_end, td_fate_shape. Qed.

Lemma td_tail_shape s3 k g t :
  td_wake s3 g (done_wake s3 g) /\ td_end (done_wake s3 g) k g t (done_tail s3 k g t).
Proof. split; [apply td_wake_shape|apply td_end_shape]. Qed.

Lemma td_tail_closed (R : st -> st -> Prop) g t :
  (forall a, R a a) -> (forall a b c, R a b -> R b c -> R a c) ->
  (forall a f v, R a (fut_complete a f v)) ->
  (forall a e, R a (upd_group a g (fun x => gr_excs (g_excs x ++ [(t, e)]) x))) ->
  (forall a, R a (scope_cancel a (g_scope (groups a g)) false)) ->
  forall s3 k, R s3 (done_tail s3 k g t).
Proof.
  intros Rr Rt Rf Rx Rc s3 k. destruct (td_tail_shape s3 k g t) as [W E].
  apply (Rt _ (done_wake s3 g)).
  - destruct W; [apply Rr|apply Rf].
  - destruct E as [|f _ _|e _ _ _|e _ _]; [apply Rr|apply Rf|apply Rc|]. eapply Rt; [apply (Rx _ e)|].
    specialize (Rc (upd_group (done_wake s3 g) g (fun x => gr_excs (g_excs x ++ [(t, e)]) x))).
    cbn [groups upd_group set_groups] in Rc. rewrite upd_same in Rc. exact Rc.
Qed.

Lemma done_struct_tasks s t g x :
  tasks (done_struct s t g) x = if Nat.eqb x t then tk_tdran true (tk_cur None (tasks s t)) else tasks s x.
Proof.
  unfold done_struct. cbv zeta. cbn [tasks upd_task set_tasks upd_group set_groups]. unfold upd.
  destruct (k_cur (tasks s t)); reflexivity.
Qed.

Lemma done_struct_scopes s t g x :
  scopes (done_struct s t g) x =
  if opt_eqb (k_cur (tasks s t)) x then sc_tasks (del t (s_tasks (scopes s x))) (scopes s x) else scopes s x.
Proof.
  unfold done_struct. cbv zeta. cbn [scopes upd_task set_tasks upd_group set_groups].
  destruct (k_cur (tasks s t)) as [c|]; cbn [opt_eqb scopes upd_scope set_scopes]; [|reflexivity].
  unfold upd. rewrite (Nat.eqb_sym c x). destruct (Nat.eqb_spec x c) as [->|]; reflexivity.
Qed.

Lemma done_struct_groups s t g x :
  groups (done_struct s t g) x = if Nat.eqb x g then gr_tasks (del t (g_tasks (groups s g))) (groups s g) else groups s x.
Proof.
  unfold done_struct. cbv zeta. cbn [groups upd_task set_tasks upd_group set_groups]. unfold upd.
  destruct (k_cur (tasks s t)); reflexivity.
Qed.

Lemma done_struct_rest s t g :
  done_struct s t g = set_groups (set_scopes (set_tasks s (tasks (done_struct s t g))) (scopes (done_struct s t g)))
                                 (groups (done_struct s t g)).
Proof. unfold done_struct. cbv zeta. destruct (k_cur (tasks s t)); reflexivity. Qed.

(* the bookkeeping of __exit__ before _restart_cancellation_in_parent: inactive, timer cancelled, the task
   handed back to the parent scope *)
Definition exit_links (s : st) (c : sid) (t : tid) : st :=
  let s1 := cancel_timeout (upd_scope s c (sc_active false)) c in
  let s2 := upd_scope s1 c (fun x => sc_tasks (del t (s_tasks x)) x) in
  let up := s_parent (scopes s c) in
  let s3 := match up with
            | Some p => upd_scope s2 p (fun x => sc_tasks (add t (s_tasks x)) (sc_children (del c (s_children x)) x))
            | None => s2
            end in
  upd_task s3 t (tk_cur up).

(* how __exit__ settles the pending uncancellations of c in the state s5 reached after the restart, and what
   it returns: the task uncancels them itself (and the scope has caught its cancellation unless the result is
   False), or there are none, or the parent scope hosted by the same task takes them over *)
Inductive xsettle (c : sid) (t : tid) (up : option sid) (s5 : st) : st -> exit_res -> Prop :=
| xs_pay x :
    (x <> XFalse -> s_cancelled (scopes s5 c) && negb (parent_visible s5 c) = true) ->
    let sA := upd_scope (iter (s_pending (scopes s5 c)) (fun a => task_uncancel a t) s5) c (sc_pending 0) in
    xsettle c t up s5 (match x with XFalse => sA | _ => upd_scope sA c (sc_caught true) end) x
| xs_none : s_cancelled (scopes s5 c) && negb (parent_visible s5 c) = false -> s_pending (scopes s5 c) = 0 ->
    xsettle c t up s5 s5 XFalse
| xs_hand p : s_cancelled (scopes s5 c) && negb (parent_visible s5 c) = false -> up = Some p ->
    s_host (scopes s5 p) = Some t -> s_pending (scopes s5 c) <> 0 ->
    xsettle c t up s5
      (upd_scope (upd_scope s5 p (fun x => sc_pending (s_pending x + s_pending (scopes s5 c)) x)) c (sc_pending 0))
      XFalse.

Lemma scope_exit_shape s c t exc :
  s_active (scopes s c) = true /\ s_host (scopes s c) = Some t /\ k_cur (tasks s t) = Some c ->
  exists s6 x, xsettle c t (s_parent (scopes s c)) (restart (exit_links s c t) (s_parent (scopes s c))) s6 x /\
               scope_exit s c t exc = (upd_scope s6 c (sc_host None), x).
Proof.
  intros [Ha [Hh Hc]]. unfold scope_exit.
  rewrite Ha. cbn [negb]. rewrite Hh, Hc. cbn [opt_eqb]. rewrite !Nat.eqb_refl. cbn [negb].
  fold (exit_links s c t). generalize (s_parent (scopes s c)) as up. intros up.
  generalize (restart (exit_links s c t) up) as s5. intros s5.
  assert (K : forall s6 x, xsettle c t up s5 s6 x ->
              exists s6' x', xsettle c t up s5 s6' x' /\
                             (upd_scope s6 c (sc_host None), x) = (upd_scope s6' c (sc_host None), x'))
    by (intros s6 x H; exists s6, x; split; [exact H|reflexivity]).
  pose proof (xs_pay c t up s5) as P. cbv zeta in P.
  pose proof (K _ _ (P XFalse (fun H => match H eq_refl with end))) as PF. cbv iota in PF.
  destruct (s_cancelled (scopes s5 c) && negb (parent_visible s5 c)) eqn:Eb.
  - pose proof (K _ _ (P XTrue (fun _ => eq_refl))) as PT. cbv iota in PT.
    destruct exc as [[[|o]| | | |l]|]; cbn [is_anyio_cancel]; try assumption.
    destruct (split_exn (EGroup l)) as [[m|] [r|]]; try assumption. apply (K _ _ (P (XRaise r) (fun _ => eq_refl))).
  - destruct (Nat.eqb_spec (s_pending (scopes s5 c)) 0) as [E|E]; [now apply K, xs_none|].
    destruct up as [p|]; [|exact PF]. destruct (opt_eqb (s_host (scopes s5 p)) t) eqn:Eh; [|exact PF].
    apply opt_eqb_Some in Eh. now apply K, (xs_hand c t (Some p) s5 p).
Qed.

Lemma scope_exit_fail s c t exc :
  ~ (s_active (scopes s c) = true /\ s_host (scopes s c) = Some t /\ k_cur (tasks s t) = Some c) ->
  scope_exit s c t exc = (s, XRaise ERuntime).
Proof.
  intros H. unfold scope_exit.
  destruct (s_active (scopes s c)); cbn [negb]; [|reflexivity].
  destruct (opt_eqb (s_host (scopes s c)) t) eqn:Eh; cbn [negb]; [|reflexivity].
  destruct (opt_eqb (k_cur (tasks s t)) c) eqn:Ec; cbn [negb]; [|reflexivity].
  exfalso. apply H. apply opt_eqb_Some in Eh, Ec. now repeat split.
Qed.

(* c gets its parent, host and task; the task's current scope becomes c; the parent hands the task over *)
Definition enter_links (s : st) (c : sid) (t : tid) : st :=
  let up := k_cur (tasks s t) in
  let s1 := upd_scope s c (fun x => sc_parent up (sc_tasks (add t (s_tasks x)) (sc_host (Some t) x))) in
  let s2 := upd_task s1 t (tk_cur (Some c)) in
  match up with
  | Some p => upd_scope s2 p (fun x => sc_tasks (del t (s_tasks x)) (sc_children (add c (s_children x)) x))
  | None => s2
  end.

Lemma scope_enter_eq s c t :
  scope_enter s c t =
  if s_active (scopes s c) then (s, Some ERuntime) else
  let s5 := upd_scope (scope_timeout (enter_links s c t) c) c (sc_active true) in
  (if s_cancelled (scopes s5 c) then deliver_top s5 c else s5, None).
Proof. reflexivity. Qed.

Lemma enter_links_tasks s c t x :
  tasks (enter_links s c t) x = if Nat.eqb x t then tk_cur (Some c) (tasks s t) else tasks s x.
Proof. unfold enter_links. destruct (k_cur (tasks s t)); reflexivity. Qed.

Lemma enter_links_scopes s c t x : k_cur (tasks s t) <> Some c ->
  scopes (enter_links s c t) x =
  if Nat.eqb x c
  then sc_parent (k_cur (tasks s t)) (sc_tasks (add t (s_tasks (scopes s c))) (sc_host (Some t) (scopes s c)))
  else if opt_eqb (k_cur (tasks s t)) x
       then sc_tasks (del t (s_tasks (scopes s x))) (sc_children (add c (s_children (scopes s x))) (scopes s x))
       else scopes s x.
Proof.
  intros Hc. unfold enter_links. destruct (k_cur (tasks s t)) as [p|]; [|reflexivity].
  cbn [scopes upd_scope upd_task set_scopes set_tasks opt_eqb]. unfold upd. rewrite (Nat.eqb_sym p x).
  destruct (Nat.eqb_spec x p) as [->|Hp]; [|reflexivity].
  destruct (Nat.eqb_spec p c); [congruence|reflexivity].
Qed.

(* every other component of enter_links s c t is that of s *)
Lemma enter_links_rest s c t :
  enter_links s c t = set_scopes (set_tasks s (tasks (enter_links s c t))) (scopes (enter_links s c t)).
Proof. unfold enter_links. destruct (k_cur (tasks s t)); reflexivity. Qed.

Lemma cancel_timeout_tasks s c : tasks (cancel_timeout s c) = tasks s.
Proof. unfold cancel_timeout. destruct (s_timeout (scopes s c)); reflexivity. Qed.

Lemma cancel_timeout_scopes s c x :
  scopes (cancel_timeout s c) x = if Nat.eqb x c then sc_timeout None (scopes s c) else scopes s x.
Proof.
  unfold cancel_timeout. destruct (s_timeout (scopes s c)) eqn:E; [reflexivity|].
  destruct (Nat.eqb_spec x c) as [->|]; [|reflexivity]. destruct (scopes s c). cbn in E. now subst.
Qed.

Lemma exit_links_tasks s c t x :
  tasks (exit_links s c t) x = if Nat.eqb x t then tk_cur (s_parent (scopes s c)) (tasks s t) else tasks s x.
Proof.
  unfold exit_links. cbv zeta.
  destruct (s_parent (scopes s c)); cbn [tasks upd_task upd_scope set_tasks set_scopes];
    rewrite cancel_timeout_tasks; reflexivity.
Qed.

Lemma exit_links_scopes s c t x : s_parent (scopes s c) <> Some c ->
  scopes (exit_links s c t) x =
  if Nat.eqb x c
  then sc_tasks (del t (s_tasks (scopes s c))) (sc_timeout None (sc_active false (scopes s c)))
  else if opt_eqb (s_parent (scopes s c)) x
       then sc_tasks (add t (s_tasks (scopes s x))) (sc_children (del c (s_children (scopes s x))) (scopes s x))
       else scopes s x.
Proof.
  intros Hc. unfold exit_links. cbv zeta.
  assert (E : forall y, scopes (upd_scope (cancel_timeout (upd_scope s c (sc_active false)) c) c
                                 (fun z => sc_tasks (del t (s_tasks z)) z)) y =
                        if Nat.eqb y c then sc_tasks (del t (s_tasks (scopes s c))) (sc_timeout None (sc_active false (scopes s c)))
                        else scopes s y).
  { intros y. cbn [scopes upd_scope set_scopes]. unfold upd at 1. rewrite !cancel_timeout_scopes, Nat.eqb_refl.
    cbn [scopes upd_scope set_scopes]. rewrite upd_same. destruct (Nat.eqb_spec y c); [reflexivity|now apply upd_other]. }
  destruct (s_parent (scopes s c)) as [p|]; cbn [opt_eqb]; [|apply E].
  assert (Hp : p <> c) by congruence.
  change (scopes (upd_task ?a _ _)) with (scopes a). cbn [scopes upd_scope set_scopes] in *. unfold upd at 1.
  rewrite (Nat.eqb_sym p x). destruct (Nat.eqb_spec x p) as [->|Hx]; [|apply E].
  rewrite E. destruct (Nat.eqb_spec p c); [contradiction|reflexivity].
Qed.

(* _restart_cancellation walks up from x through scopes that are neither cancelled nor shielded and redelivers
   at the first cancelled scope whose callback is not scheduled.  V is any relation "x sees c" closed under the
   two rules of that walk. *)
Lemma restart_cases (V : sid -> sid -> Prop) s x :
  (forall c, V c c) ->
  (forall c y p, s_shield (scopes s y) = false -> s_cancelled (scopes s y) = false ->
                 s_parent (scopes s y) = Some p -> V c p -> V c y) ->
  restart s x = s \/
  exists x0 c, x = Some x0 /\ V c x0 /\ s_cancelled (scopes s c) = true /\
               s_chandle (scopes s c) = false /\ restart s x = deliver_top s c.
Proof.
  intros Vh Vu. unfold restart. generalize (nscope s) as fuel. intros fuel. revert x.
  induction fuel as [|fu IH]; intros x; cbn [restart_from]; [now left|].
  destruct x as [c|]; [|now left].
  destruct (s_cancelled (scopes s c)) eqn:Ec.
  - destruct (s_chandle (scopes s c)) eqn:Eh; [now left|]. right. exists c, c. auto.
  - destruct (s_shield (scopes s c)) eqn:Es; [now left|].
    destruct (IH (s_parent (scopes s c))) as [E|[x0 [a [Ex [V0 [C [H E]]]]]]]; [now left|].
    right. exists c, a. repeat split; auto. exact (Vu a c x0 Es Ec Ex V0).
Qed.

Lemma restart_closed (R : st -> st -> Prop) s x :
  R s s ->
  (forall c, s_cancelled (scopes s c) = true -> s_chandle (scopes s c) = false -> R s (deliver_top s c)) ->
  R s (restart s x).
Proof.
  intros Rr Rd.
  destruct (restart_cases (fun _ _ => True) s x) as [->|[_ [c [_ [_ [C [H ->]]]]]]]; auto.
Qed.

Definition deliver_sub (fu : nat) (origin : sid) (acc : st * bool) (c : sid) : st * bool :=
  let '(a, r) := acc in
  if negb (s_shield (scopes a c)) && negb (s_cancelled (scopes a c))
  then let '(a', r') := deliver fu a c origin in (a', r' || r) else (a, r).

Lemma deliver_S fu s self origin :
  deliver (S fu) s self origin =
  let '(s1, r1) := fold_left (deliver_task self origin) (s_tasks (scopes s self)) (s, false) in
  let '(s2, r2) := fold_left (deliver_sub fu origin) (s_children (scopes s1 self)) (s1, r1) in
  if Nat.eqb origin self then
    if r2 then (call_soon (upd_scope s2 self (sc_chandle true)) (HDeliver self), r2)
    else (upd_scope s2 self (sc_chandle false), r2)
  else (s2, r2).
Proof. reflexivity. Qed.

(* what the loop of _deliver_cancellation does to one task of scope self: nothing, or Task.cancel() with the
   origin's message, counted at the origin when the origin's host is the task *)
Definition deliverable (self : sid) (a : st) (t : tid) : Prop :=
  k_done (tasks a t) = None /\ k_must (tasks a t) = false /\ running a <> Some t /\
  (s_host (scopes a self) = Some t \/ k_started (tasks a t) = true) /\
  (forall f, k_waiter (tasks a t) = Some f -> fut_pending a f = true).

Inductive dtask (self origin : sid) (a : st) (t : tid) : st -> Prop :=
| dt_skip : ~ deliverable self a t -> dtask self origin a t a
| dt_cancel : deliverable self a t ->
    let a1 := task_cancel a t (S origin) in
    dtask self origin a t
      (if opt_eqb (s_host (scopes a1 origin)) t
       then upd_scope a1 origin (fun c => sc_pending (S (s_pending c)) c) else a1).

Lemma deliver_task_shape self origin a r t : dtask self origin a t (fst (deliver_task self origin (a, r) t)).
Proof.
  unfold deliver_task.
  pose proof (dt_skip self origin a t) as Sk.
  destruct (k_done (tasks a t)) eqn:Ed; [apply Sk; intros [H _]; congruence|].
  destruct (k_must (tasks a t)) eqn:Em; [apply Sk; intros [_ [H _]]; congruence|].
  destruct (opt_eqb (running a) t) eqn:Er; cbn [negb andb].
  { apply Sk. intros [_ [_ [H _]]]. now apply opt_eqb_Some in Er. }
  destruct (opt_eqb (s_host (scopes a self)) t || k_started (tasks a t)) eqn:Eh.
  2:{ apply Sk. intros [_ [_ [_ [[H|H] _]]]]; apply orb_false_iff in Eh; destruct Eh as [E1 E2]; [|congruence].
      apply opt_eqb_Some in H. congruence. }
  destruct (match k_waiter (tasks a t) with Some f => fut_pending a f | None => true end) eqn:Ew.
  2:{ apply Sk. intros [_ [_ [_ [_ H]]]]. destruct (k_waiter (tasks a t)) as [f|]; [|discriminate].
      rewrite (H f eq_refl) in Ew. discriminate. }
  cbn [fst]. apply dt_cancel. repeat split; auto.
  - intros E. apply opt_eqb_Some in E. congruence.
  - apply orb_true_iff in Eh. destruct Eh as [E|E]; [left; now apply opt_eqb_Some|now right].
  - intros f Ef. now rewrite Ef in Ew.
Qed.

Lemma deliver_task_snd self origin a r t :
  snd (deliver_task self origin (a, r) t) = match k_done (tasks a t) with Some _ => r | None => true end.
Proof.
  unfold deliver_task. destruct (k_done (tasks a t)); [reflexivity|].
  destruct (k_must (tasks a t)); [reflexivity|]. destruct (negb _ && _); [|reflexivity].
  destruct (match k_waiter (tasks a t) with Some f => fut_pending a f | None => true end); reflexivity.
Qed.

(* I self a: delivery has reached self, as judged in state a.  The lists of tasks and of children are read in
   the state s in which the loop over them starts; the loop body runs in a later state a. *)
Section DeliverClosed.
  Variable R : st -> st -> Prop.
  Variable origin : sid.
  Variable I : sid -> st -> Prop.
  Hypothesis Rr : forall a, R a a.
  Hypothesis Rt : forall a b c, R a b -> R b c -> R a c.
  Hypothesis I_stable : forall self a b, R a b -> I self a -> I self b.
  Hypothesis I_child : forall self s a c, I self s -> R s a -> In c (s_children (scopes s self)) ->
    s_shield (scopes a c) = false -> s_cancelled (scopes a c) = false -> I c a.
  Hypothesis R_task : forall self s a t a', I self s -> R s a -> In t (s_tasks (scopes s self)) ->
    dtask self origin a t a' -> R a a'.
  Hypothesis R_mark : forall a b, I origin a -> R a (upd_scope a origin (sc_chandle b)).
  Hypothesis R_soon : forall a, R a (call_soon a (HDeliver origin)).

  Lemma fold_closed_in {X} (f : st * bool -> X -> st * bool) l s :
    (forall a r x, R s a -> In x l -> R a (fst (f (a, r) x))) ->
    forall a r, R s a -> R a (fst (fold_left f l (a, r))).
  Proof.
    induction l as [|x l IH]; intros Hf a r Ha; cbn [fold_left]; [apply Rr|].
    pose proof (Hf a r x Ha (or_introl eq_refl)) as H1. destruct (f (a, r) x) as [a' r']. cbn [fst] in H1.
    apply (Rt _ _ _ H1). apply IH; [|exact (Rt _ _ _ Ha H1)]. intros b q y Hb Hy. apply Hf; [exact Hb|now right].
  Qed.

  Lemma deliver_closed_on fuel : forall s self, I self s -> R s (fst (deliver fuel s self origin)).
  Proof.
    induction fuel as [|fu IH]; intros s self Is; [apply Rr|]. rewrite deliver_S.
    pose proof (fold_closed_in (deliver_task self origin) (s_tasks (scopes s self)) s
                  (fun a r t Ha Ht => R_task self s a t _ Is Ha Ht (deliver_task_shape self origin a r t))
                  s false (Rr s)) as K1.
    destruct (fold_left (deliver_task self origin) _ _) as [s1 r1]. cbn [fst] in K1.
    pose proof (I_stable _ _ _ K1 Is) as I1.
    assert (K2 : R s1 (fst (fold_left (deliver_sub fu origin) (s_children (scopes s1 self)) (s1, r1)))).
    { apply (fold_closed_in _ _ s1); [|apply Rr]. intros a r c Ha Hc. unfold deliver_sub.
      destruct (s_shield (scopes a c)) eqn:Es; [apply Rr|]. destruct (s_cancelled (scopes a c)) eqn:Ec; [apply Rr|].
      cbn [negb andb]. specialize (IH a c (I_child self s1 a c I1 Ha Hc Es Ec)).
      destruct (deliver fu a c origin) as [a' r']. exact IH. }
    destruct (fold_left (deliver_sub fu origin) _ _) as [s2 r2]. cbn [fst] in K2.
    apply (Rt _ s1); [exact K1|]. apply (Rt _ s2); [exact K2|].
    destruct (Nat.eqb_spec origin self) as [<-|_]; [|apply Rr].
    pose proof (I_stable _ _ _ K2 I1) as I2.
    destruct r2; cbn [fst]; [exact (Rt _ _ _ (R_mark s2 true I2) (R_soon _))|now apply R_mark].
  Qed.
End DeliverClosed.

Lemma fold_closed (R : st -> st -> Prop) {X} (f : st * bool -> X -> st * bool) :
  (forall a, R a a) -> (forall a b c, R a b -> R b c -> R a c) ->
  (forall a r x, R a (fst (f (a, r) x))) -> forall l a r, R a (fst (fold_left f l (a, r))).
Proof. intros Rr Rt Hf l a r. apply (fold_closed_in R Rr Rt f l a); auto. Qed.

Lemma deliver_closed (R : st -> st -> Prop) origin :
  (forall a, R a a) -> (forall a b c, R a b -> R b c -> R a c) ->
  (forall self a t a', dtask self origin a t a' -> R a a') ->
  (forall a b, R a (upd_scope a origin (sc_chandle b))) ->
  (forall a, R a (call_soon a (HDeliver origin))) ->
  forall fuel s self, R s (fst (deliver fuel s self origin)).
Proof.
  intros Rr Rt R1 R2 R3 fuel s self. apply (deliver_closed_on R origin (fun _ _ => True)); eauto.
Qed.

Lemma deliver_top_closed (R : st -> st -> Prop) origin :
  (forall a, R a a) -> (forall a b c, R a b -> R b c -> R a c) ->
  (forall self a t a', dtask self origin a t a' -> R a a') ->
  (forall a b, R a (upd_scope a origin (sc_chandle b))) ->
  (forall a, R a (call_soon a (HDeliver origin))) ->
  forall s, R s (deliver_top s origin).
Proof. intros Rr Rt R1 R2 R3 s. exact (deliver_closed R origin Rr Rt R1 R2 R3 _ s origin). Qed.

Lemma deliver_task_fire self origin a r t : deliverable self a t ->
  fst (deliver_task self origin (a, r) t) =
  let a1 := task_cancel a t (S origin) in
  if opt_eqb (s_host (scopes a1 origin)) t
  then upd_scope a1 origin (fun c => sc_pending (S (s_pending c)) c) else a1.
Proof.
  intros [Hd [Hm [Hr [Hh Hw]]]]. unfold deliver_task. rewrite Hd, Hm.
  destruct (opt_eqb (running a) t) eqn:Er; [now apply opt_eqb_Some in Er|]. cbn [negb andb].
  replace (opt_eqb (s_host (scopes a self)) t || k_started (tasks a t)) with true.
  - destruct (k_waiter (tasks a t)) as [f|]; [rewrite (Hw f eq_refl)|]; reflexivity.
  - symmetry. apply orb_true_iff. destruct Hh as [H|H]; [left; now apply opt_eqb_Some|now right].
Qed.

(* deliver_closed with the step given as deliver_task itself *)
Lemma deliver_closed_raw (R : st -> st -> Prop) origin :
  (forall a, R a a) -> (forall a b c, R a b -> R b c -> R a c) ->
  (forall self a r t, R a (fst (deliver_task self origin (a, r) t))) ->
  (forall a b, R a (upd_scope a origin (sc_chandle b))) ->
  (forall a, R a (call_soon a (HDeliver origin))) ->
  forall fuel s self, R s (fst (deliver fuel s self origin)).
Proof.
  intros Rr Rt R1 R2 R3. apply deliver_closed; auto.
  intros self a t a' [N|D a1]; [apply Rr|]. pose proof (deliver_task_fire self origin a false t D) as E.
  cbv zeta in E. fold a1 in E. rewrite <- E. apply R1.
Qed.

Lemma handle_eqb_eq a b : handle_eqb a b = true <-> a = b.
Proof.
  destruct a, b; cbn [handle_eqb]; try (split; discriminate);
    rewrite ?andb_true_iff, !Nat.eqb_eq;
    (split; [try intros [-> ->]; try intros ->; reflexivity|intros E; injection E; auto]).
Qed.

Lemma ready_mem s h : existsb (handle_eqb h) (ready s) = true <-> In h (ready s).
Proof.
  rewrite existsb_exists. split.
  - intros [x [Hx E]]. apply handle_eqb_eq in E. now subst.
  - intros H. exists h. split; [exact H|now apply handle_eqb_eq].
Qed.

Definition dequeue (s : st) (h : handle) : st := set_ready s (remove_first h (ready s)).

Lemma run_handle_in s h : In h (ready s) ->
  run_handle s h =
  match h with
  | HStep t => resume (dequeue s h) t None
  | HWake t f => resume (dequeue s h) t (Some f)
  | HDeliver c => (set_running (deliver_top (set_running (dequeue s h) None) c) None, RNone)
  | HTaskDone t => (run_task_done (dequeue s h) t, RNone)
  | HSleepDone f _ => (fut_complete (dequeue s h) f (FRes 0), RNone)
  | HTimeout c _ => (set_running (scope_timeout (set_running (dequeue s h) None) c) None, RNone)
  end.
Proof. intros H. unfold run_handle. apply ready_mem in H. rewrite H. reflexivity. Qed.

Lemma run_handle_out s h : ~ In h (ready s) -> run_handle s h = (s, RRejected).
Proof.
  intros H. unfold run_handle. destruct (existsb (handle_eqb h) (ready s)) eqn:E; [|reflexivity].
  now apply ready_mem in E.
Qed.

Lemma run_handle_cases (P : handle -> st * res -> Prop) s :
  (forall h, P h (s, RRejected)) ->
  (forall t, In (HStep t) (ready s) -> P (HStep t) (resume (dequeue s (HStep t)) t None)) ->
  (forall t f, In (HWake t f) (ready s) -> P (HWake t f) (resume (dequeue s (HWake t f)) t (Some f))) ->
  (forall c, In (HDeliver c) (ready s) ->
             P (HDeliver c) (set_running (deliver_top (set_running (dequeue s (HDeliver c)) None) c) None, RNone)) ->
  (forall t, In (HTaskDone t) (ready s) -> P (HTaskDone t) (run_task_done (dequeue s (HTaskDone t)) t, RNone)) ->
  (forall f tm, In (HSleepDone f tm) (ready s) ->
                P (HSleepDone f tm) (fut_complete (dequeue s (HSleepDone f tm)) f (FRes 0), RNone)) ->
  (forall c tm, In (HTimeout c tm) (ready s) ->
                P (HTimeout c tm)
                  (set_running (scope_timeout (set_running (dequeue s (HTimeout c tm)) None) c) None, RNone)) ->
  forall h, P h (run_handle s h).
Proof.
  intros Pr P1 P2 P3 P4 P5 P6 h. unfold run_handle.
  destruct (existsb (handle_eqb h) (ready s)) eqn:E; cbn [negb]; [|apply Pr].
  apply ready_mem in E. fold (dequeue s h). destruct h; auto.
Qed.

Lemma step_puppet s o t : actor o = Some t -> idle s t = true ->
  step s o = match o with AFinish _ v => puppet_finish s t v | _ => puppet_op s t o end.
Proof. intros Ea Ei. unfold step. rewrite Ea, Ei. reflexivity. Qed.

Lemma step_busy s o t : actor o = Some t -> idle s t = false -> step s o = (s, RRejected).
Proof. intros Ea Ei. unfold step. rewrite Ea, Ei. reflexivity. Qed.

(* the puppet premise also covers AFinish, on which puppet_op rejects *)
Lemma step_cases (P : op -> st * res -> Prop) s :
  (forall o, P o (s, RRejected)) ->
  (forall o t, actor o = Some t -> idle s t = true -> P o (puppet_op s t o)) ->
  (forall t v, idle s t = true -> P (AFinish t v) (puppet_finish s t v)) ->
  P ANewRoot (new_root s) ->
  (forall t, P (ANativeCancel t) (task_cancel s t 0, RNone)) ->
  (forall c, P (AExtCancel c) (set_running (scope_cancel (set_running s None) c false) None, RNone)) ->
  (forall h, P (ARun h) (run_handle s h)) ->
  (forall dt, (0 <= dt)%Z -> P (ATick dt) (tick s dt, RNone)) ->
  forall o, P o (step s o).
Proof.
  intros Pr Pp Pf Pn Pc Px Ph Pt o. unfold step. destruct (actor o) as [t|] eqn:Ea.
  - destruct (idle s t) eqn:Ei; cbn [negb]; [|apply Pr].
    specialize (Pp o t Ea Ei). destruct o; try exact Pp. cbn [actor] in Ea. injection Ea as ->. now apply Pf.
  - destruct o; try discriminate Ea; auto.
    destruct (Z.ltb_spec dt 0); [apply Pr|now apply Pt].
Qed.

(* the task-record updates made by that layer *)
Inductive ksetter : (task -> task) -> Prop :=
| kset_waiter w : ksetter (tk_waiter w)
| kset_must b m : ksetter (tk_must b m)
| kset_ncancel n : ksetter (tk_ncancel n)
| kset_uncancel : ksetter (fun k => tk_ncancel (pred (k_ncancel k)) k)
| kset_resume : ksetter (fun k => tk_must false (k_msg k) (tk_waiter None k)).

(* a preorder closed under the primitive moves of that layer at the tasks in T and the futures in F; the
   composites below are sequences of such moves, of allocations and of moves named in their extra premises *)
Record kclosed (R : st -> st -> Prop) (T : tid -> Prop) (F : fid -> Prop) : Prop := {
  kc_refl : forall a, R a a;
  kc_trans : forall a b c, R a b -> R b c -> R a c;
  kc_task : forall a t g, T t -> ksetter g -> R a (upd_task a t g);
  kc_fwait : forall a f w, F f -> R a (upd_fut a f (fun x => mkFut (f_st x) w));
  kc_fdone : forall a f v, F f -> f_st (futs a f) = FPend -> R a (upd_fut a f (fun x => mkFut v (f_waiter x)));
  kc_wake : forall a t f, R a (call_soon a (HWake t f))
}.

Section KClosed.
  Context {R : st -> st -> Prop} {T : tid -> Prop} {F : fid -> Prop} (K : kclosed R T F).
  Let Rr := kc_refl _ _ _ K.
  Let Rt := kc_trans _ _ _ K.

  Lemma kc_fut_complete s f v : F f -> R s (fut_complete s f v).
  Proof.
    intros Hf. unfold fut_complete. destruct (f_st (futs s f)) eqn:E; try apply Rr.
    pose proof (kc_fdone _ _ _ K s f v Hf E) as K1.
    destruct (f_waiter (futs s f)); [exact (Rt _ _ _ K1 (kc_wake _ _ _ K _ _ _))|exact K1].
  Qed.

  Lemma kc_suspend_on s t f : T t -> F f -> R s (suspend_on s t f).
  Proof.
    intros Ht Hf. unfold suspend_on.
    assert (K2 : R s (upd_task (upd_fut s f (fun x => mkFut (f_st x) (Some t))) t (tk_waiter (Some f))))
      by (exact (Rt _ _ _ (kc_fwait _ _ _ K s f _ Hf) (kc_task _ _ _ K _ t _ Ht (kset_waiter _)))).
    destruct (f_st (futs s f)); try exact (Rt _ _ _ K2 (kc_wake _ _ _ K _ _ _)).
    destruct (k_must (tasks s t)); [|exact K2].
    apply (Rt _ _ _ K2). exact (Rt _ _ _ (kc_fut_complete _ f _ Hf) (kc_task _ _ _ K _ t _ Ht (kset_must _ _))).
  Qed.

  Lemma kc_task_cancel s t o : T t -> (forall f, k_waiter (tasks s t) = Some f -> F f) -> R s (task_cancel s t o).
  Proof.
    intros Ht Hw. unfold task_cancel. destruct (k_done (tasks s t)); [apply Rr|].
    assert (Km : forall a, R a (upd_task a t (tk_must true o))) by (intros a; apply (kc_task _ _ _ K); [exact Ht|constructor]).
    apply (Rt _ (upd_task s t (tk_ncancel (S (k_ncancel (tasks s t)))))); [apply (kc_task _ _ _ K); [exact Ht|constructor]|].
    destruct (k_waiter (tasks s t)) as [f|]; [|apply Km].
    destruct (fut_pending _ f); [apply kc_fut_complete; now apply Hw|apply Km].
  Qed.

  Section Running.
    Hypothesis R_running : forall a v, R a (set_running a v).

    Lemma kc_begin_act s t : T t -> R s (begin_act s t).
    Proof. intros Ht. eapply Rt; [apply (kc_task _ _ _ K); [exact Ht|constructor]|apply R_running]. Qed.

    Lemma kc_incoming s t fo : T t -> R s (fst (incoming s t fo)).
    Proof. intros Ht. eapply Rt; [apply (kc_task _ _ _ K); [exact Ht|constructor]|apply R_running]. Qed.
  End Running.

  Section Park.
    Variable t : tid.
    Hypothesis Ht : T t.
    Hypothesis R_newfut : forall a, F (nfut a) -> R a (fst (new_fut a)).
    Hypothesis R_idle : forall a, R a (upd_task a t (tk_ctl CIdle)).

    Lemma kc_park s : F (nfut s) -> R s (park s t).
    Proof.
      intros Hf. unfold park. cbn [new_fut]. apply (Rt _ _ _ (R_newfut s Hf)).
      exact (Rt _ _ _ (kc_suspend_on _ t _ Ht Hf) (R_idle _)).
    Qed.

    Lemma kc_ret_to_puppet s r :
      (forall a e, R a (upd_task a t (tk_held (Some e)))) -> (forall a v, R a (set_running a v)) ->
      F (nfut s) -> R s (fst (ret_to_puppet s t r)).
    Proof.
      intros Rh Rn Hf. unfold ret_to_puppet. cbn [fst]. eapply Rt; [|apply Rn]. eapply Rt; [|apply kc_park].
      - destruct r; try apply Rr. apply Rh.
      - destruct r; exact Hf.
    Qed.
  End Park.

  Lemma kc_event_set s e :
    (forall a, R a (upd_event a e (fun x => mkEvent true (e_waiters x)))) ->
    (forall f, In f (e_waiters (events s e)) -> F f) -> R s (event_set s e).
  Proof.
    intros Re Hw. unfold event_set. destruct (e_set (events s e)); [apply Rr|]. apply (Rt _ _ _ (Re s)).
    generalize (upd_event s e (fun x => mkEvent true (e_waiters x))) as a.
    induction (e_waiters (events s e)) as [|f l IH]; intros a; cbn [fold_left]; [apply Rr|].
    eapply Rt; [apply kc_fut_complete, Hw; now left|apply IH]. intros x Hx. apply Hw. now right.
  Qed.

  Lemma kc_event_wait s t e :
    (forall a, F (nfut a) -> R a (fst (new_fut a))) ->
    (forall a f, R a (upd_event a e (fun x => mkEvent (e_set x) (e_waiters x ++ [f])))) ->
    (forall a, R a (call_soon a (HStep t))) ->
    T t -> F (nfut s) -> R s (fst (event_wait s t e)).
  Proof.
    intros Rn Re Rs Ht Hf. unfold event_wait. destruct (e_set (events s e)); cbn [new_fut fst]; [apply Rs|].
    apply (Rt _ _ _ (Rn s Hf)). exact (Rt _ _ _ (Re _ _) (kc_suspend_on _ t _ Ht Hf)).
  Qed.
End KClosed.

(* what that layer leaves alone: everything but the ready queue, the running task, the future counter, the
   tasks in T and the futures in F *)
Record kfix (T : tid -> Prop) (F : fid -> Prop) (s s' : st) : Prop := {
  kx_ntask : ntask s' = ntask s;
  kx_scopes : scopes s' = scopes s;
  kx_nscope : nscope s' = nscope s;
  kx_groups : groups s' = groups s;
  kx_ngroup : ngroup s' = ngroup s;
  kx_events : events s' = events s;
  kx_nevent : nevent s' = nevent s;
  kx_timers : timers s' = timers s;
  kx_ntimer : ntimer s' = ntimer s;
  kx_now : now s' = now s;
  kx_tasks : forall x, ~ T x -> tasks s' x = tasks s x;
  kx_futs : forall x, ~ F x -> futs s' x = futs s x
}.

Lemma kfix_closed T F : kclosed (kfix T F) T F.
Proof.
  constructor.
  - intros a. constructor; reflexivity.
  - intros a b c [] []. constructor; try congruence; intros x Hx; rewrite <- ?kx_tasks0, <- ?kx_futs0; auto.
  - intros a t g Ht _. constructor; try reflexivity. intros x Hx. apply upd_other. now intros ->.
  - intros a f w Hf. constructor; try reflexivity. intros x Hx. apply upd_other. now intros ->.
  - intros a f v Hf _. constructor; try reflexivity. intros x Hx. apply upd_other. now intros ->.
  - intros a t f. constructor; reflexivity.
Qed.

Lemma suspend_on_fix s t f : kfix (eq t) (eq f) s (suspend_on s t f).
Proof. now apply (kc_suspend_on (kfix_closed _ _)). Qed.

Lemma task_cancel_fix s t o : kfix (eq t) (fun f => k_waiter (tasks s t) = Some f) s (task_cancel s t o).
Proof. now apply (kc_task_cancel (kfix_closed _ _)). Qed.

Lemma set_running_fix T F s v : kfix T F s (set_running s v).
Proof. constructor; reflexivity. Qed.

Lemma new_fut_fix T (F : fid -> Prop) s : F (nfut s) -> kfix T F s (fst (new_fut s)).
Proof. intros Hf. constructor; try reflexivity. intros x Hx. apply upd_other. now intros ->. Qed.

Lemma upd_task_fix (F : fid -> Prop) s t g : kfix (eq t) F s (upd_task s t g).
Proof. constructor; try reflexivity. intros x Hx. apply upd_other. now intros ->. Qed.

Lemma park_fix s t : kfix (eq t) (eq (nfut s)) s (park s t).
Proof.
  apply (kc_park (kfix_closed _ _)); [reflexivity|intros a; apply new_fut_fix|intros a; apply upd_task_fix|reflexivity].
Qed.

Lemma ret_to_puppet_fix s t r : kfix (eq t) (eq (nfut s)) s (fst (ret_to_puppet s t r)).
Proof.
  apply (kc_ret_to_puppet (kfix_closed _ _)); try reflexivity;
    [intros a; apply new_fut_fix|intros a; apply upd_task_fix|intros a e; apply upd_task_fix|apply set_running_fix].
Qed.

Lemma park_ctl s t : k_ctl (tasks (park s t) t) = CIdle.
Proof. unfold park. cbn [new_fut upd_task set_tasks tasks]. now rewrite upd_same. Qed.

Lemma ret_to_puppet_ctl s t r : k_ctl (tasks (fst (ret_to_puppet s t r)) t) = CIdle.
Proof. apply park_ctl. Qed.

Section ScopeClosed.
  Variable R : st -> st -> Prop.
  Variable c : sid.
  Hypothesis Rr : forall a, R a a.
  Hypothesis Rt : forall a b z, R a b -> R b z -> R a z.

  Lemma cancel_timeout_closed :
    (forall a tm, s_timeout (scopes a c) = Some tm -> R a (timer_cancel a tm)) ->
    (forall a, R a (upd_scope a c (sc_timeout None))) ->
    forall a, R a (cancel_timeout a c).
  Proof.
    intros R1 R2 a. unfold cancel_timeout. destruct (s_timeout (scopes a c)) as [tm|] eqn:E; [|apply Rr].
    exact (Rt _ _ _ (R1 a tm E) (R2 _)).
  Qed.

  Lemma scope_cancel_closed b :
    (forall a, R a (cancel_timeout a c)) ->
    (forall a, R a (upd_scope a c (fun x => sc_bydeadline b (sc_cancelled true x)))) ->
    (forall a, s_cancelled (scopes a c) = true -> s_host (scopes a c) <> None -> R a (deliver_top a c)) ->
    forall a, R a (scope_cancel a c b).
  Proof.
    intros R1 R2 R3 a. unfold scope_cancel. destruct (s_cancelled (scopes a c)); [apply Rr|].
    apply (Rt _ _ _ (R1 a)). set (a1 := cancel_timeout a c). apply (Rt _ _ _ (R2 a1)).
    set (a2 := upd_scope a1 c _).
    assert (C : s_cancelled (scopes a2 c) = true) by (unfold a2; cbn [scopes upd_scope set_scopes]; now rewrite upd_same).
    destruct (s_host (scopes a2 c)) eqn:Eh; [|apply Rr]. apply R3; [exact C|now rewrite Eh].
  Qed.

  Lemma scope_timeout_closed :
    (forall a, R a (scope_cancel a c true)) ->
    (forall a d, s_deadline (scopes a c) = Some d -> (now a < d)%Z ->
                 R a (upd_scope (fst (call_at a d (TScope c))) c (sc_timeout (Some (ntimer a))))) ->
    forall a, R a (scope_timeout a c).
  Proof.
    intros R1 R2 a. unfold scope_timeout. destruct (s_deadline (scopes a c)) as [d|] eqn:E; [|apply Rr].
    destruct (Z.leb_spec d (now a)); [apply R1|now apply R2].
  Qed.
End ScopeClosed.

Lemma upd_eq {A} (f : nat -> A) k v x : upd f k v x = if Nat.eqb x k then v else f x.
Proof. reflexivity. Qed.

Lemma opt_eqb_false o t : opt_eqb o t = false <-> o <> Some t.
Proof. rewrite <- opt_eqb_Some. destruct (opt_eqb o t); split; congruence. Qed.

Lemma handle_eqb_refl a : handle_eqb a a = true.
Proof. now apply handle_eqb_eq. Qed.

Lemma existsb_handle h l : existsb (handle_eqb h) l = true <-> In h l.
Proof.
  rewrite existsb_exists. split.
  - intros [y [Hy He]]. apply handle_eqb_eq in He. now subst.
  - intros H. exists h. split; [exact H|apply handle_eqb_refl].
Qed.

Lemma in_remove_first h x l : In x (remove_first h l) -> In x l.
Proof.
  induction l as [|y l IH]; cbn; [tauto|].
  destruct (handle_eqb y h); [now right|]. intros [H|H]; [now left|right; now apply IH].
Qed.

Lemma in_remove_first_ne h x l : In x l -> x <> h -> In x (remove_first h l).
Proof.
  induction l as [|y l IH]; cbn; [tauto|]. intros [H|H] Hne.
  - subst y. destruct (handle_eqb x h) eqn:E; [apply handle_eqb_eq in E; contradiction|now left].
  - destruct (handle_eqb y h); [exact H|right; now apply IH].
Qed.

Lemma task_cancel_other s t o x : x <> t -> tasks (task_cancel s t o) x = tasks s x.
Proof. intros H. apply (kx_tasks _ _ _ _ (task_cancel_fix s t o)). congruence. Qed.

(* sort_timers permutes *)
Lemma in_insert_timer x y l : In y (insert_timer x l) <-> y = x \/ In y l.
Proof.
  induction l as [|z l IH]; cbn; [intuition|].
  destruct (Z.ltb (tm_when x) (tm_when z)); cbn; [intuition|]. rewrite IH. intuition.
Qed.

Lemma in_sort_timers_acc l : forall acc y, In y (fold_left (fun a x => insert_timer x a) l acc) <-> In y l \/ In y acc.
Proof.
  induction l as [|x l IH]; intros acc y; cbn [fold_left]; [cbn; intuition|].
  rewrite IH, in_insert_timer. cbn. intuition.
Qed.

Lemma in_sort_timers l y : In y (sort_timers l) <-> In y l.
Proof. unfold sort_timers. rewrite in_sort_timers_acc. cbn. intuition. Qed.

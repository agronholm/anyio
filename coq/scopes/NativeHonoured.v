(* C05: a native cancellation request (Task.cancel() from outside AnyIO) is honoured: it is recorded on the task,
   stays recorded while the task does not run, and the task's next step receives a native CancelledError --
   unless the request arrived while the wait of the task had already been cancelled by a scope's delivery (or
   already carried a scope-tagged exception) and the task had not run yet: known finding F19
   (scopes/NativeAbsorbed.v), where asyncio keeps the CancelledError of the cancelled wait. *)

From AV Require Import Base Machine ScopeFrames DeliverInv TreeStep ReceiptWalk ReceiptRun NativeAbsorbed.

(* the wait of t already carries a scope-tagged cancellation *)
Definition wait_cancelled_by_scope (s : st) (t : tid) : bool :=
  match k_waiter (tasks s t) with
  | Some f => match f_st (futs s f) with
              | FCanc (S _) => true
              | FExc (ECancel (S _)) => true
              | _ => false
              end
  | None => false
  end.

(* running ready handle h makes t receive a native CancelledError *)
Definition receives_native (s : st) (h : handle) (t : tid) : Prop :=
  In h (ready s) /\
  ((h = HStep t /\ snd (incoming (ChainWindow.pop s h) t None) = Some (ECancel 0)) \/
   (exists f, h = HWake t f /\ snd (incoming (ChainWindow.pop s h) t (Some f)) = Some (ECancel 0))).

Theorem native_request_placed a t : k_done (tasks a t) = None -> NHeld (fst (step a (ANativeCancel t))) t.
Proof.
  intros Hd. cbn [step actor fst]. unfold task_cancel. rewrite Hd.
  set (m1 := upd_task a t (tk_ncancel (S (k_ncancel (tasks a t))))).
  assert (Ew : k_waiter (tasks m1 t) = k_waiter (tasks a t)) by (unfold m1; now rewrite upd_task_eq).
  assert (H2 : NHeld (upd_task m1 t (tk_must true 0)) t) by (left; rewrite upd_task_eq; now split).
  destruct (k_waiter (tasks a t)) as [g|] eqn:Ewu; [|exact H2]. destruct (fut_pending m1 g) eqn:Ep; [|exact H2].
  unfold fut_pending in Ep. destruct (f_st (futs m1 g)) eqn:Eg; try discriminate.
  right. exists g. rewrite fut_complete_tasks. split; [exact Ew|].
  unfold fut_complete. rewrite Eg. destruct (f_waiter (futs m1 g)); cbn; unfold upd; now rewrite Nat.eqb_refl.
Qed.

Theorem native_request_stays_pending a o t :
  reach_ok a -> op_ok a o = true -> ~ In t (aff a o) -> NHeld a t -> NHeld (fst (step a o)) t.
Proof.
  intros R Hok Hn Hh. apply (w_nh _ _ _ _ _ _ _ (W_step a o R (reach_run a R) Hok) (reach_k a R) t Hn Hh).
Qed.

(* t is not affected by any op of the list: it neither acts nor is resumed (nor created / retired) *)
Fixpoint unaffected (t : tid) (s : st) (ops : list op) : Prop :=
  match ops with
  | [] => True
  | o :: r => ~ In t (aff s o) /\ unaffected t (fst (step s o)) r
  end.

(* what such a run keeps: the request, the wait, and the state of a completed wait *)
Lemma unaffected_run t : forall ops a,
  reach_ok a -> ops_ok a ops = true -> unaffected t a ops -> t < ntask a -> NHeld a t ->
  let s := final step a ops in
  reach_ok s /\ NHeld s t /\ k_waiter (tasks s t) = k_waiter (tasks a t) /\
  (forall f, k_waiter (tasks a t) = Some f -> f_st (futs a f) <> FPend -> f_st (futs s f) = f_st (futs a f)).
Proof.
  induction ops as [|o r IH]; intros a R Hok Hu At Hn; [cbn; auto|].
  cbn [ops_ok] in Hok. apply andb_true_iff in Hok. destruct Hok as [H1 H2]. destruct Hu as [Hna Hu].
  pose proof (reach_ok_step a o R H1) as R1.
  pose proof (native_request_stays_pending a o t R H1 Hna Hn) as Hn1.
  destruct (frame_step t a o R H1 At Hna) as (Fk & _ & _ & Ff).
  assert (At1 : t < ntask (fst (step a o))).
  { pose proof (w_nt _ _ _ _ _ _ _ (W_step a o R (reach_run a R) H1)). lia. }
  destruct (IH (fst (step a o)) R1 H2 Hu At1 Hn1) as (Rs & Ns & Ws & Fs).
  change (final step a (o :: r)) with (final step (fst (step a o)) r). cbv zeta.
  refine (conj Rs (conj Ns (conj _ _))).
  - rewrite Ws. apply (tcore_waiter _ _ Fk).
  - intros f Hf Hd. rewrite Fs; [now apply Ff| |].
    + rewrite (tcore_waiter _ _ Fk). exact Hf.
    + rewrite (Ff f Hf Hd). exact Hd.
Qed.

Theorem native_request_received s h t :
  reach_ok s -> In h (ready s) -> (h = HStep t \/ exists f, h = HWake t f) -> NHeld s t ->
  receives_native s h t \/ (k_must (tasks s t) = true /\ wait_cancelled_by_scope s t = true).
Proof.
  intros R Hin Hh Hn. pose proof (reach_gk s R) as G.
  destruct Hh as [->|[f ->]].
  - left. split; [exact Hin|]. left. split; [reflexivity|].
    destruct (GroupInv2.k_step _ G t Hin) as (Hw & _).
    unfold incoming. cbn [snd]. change (tasks (ChainWindow.pop s (HStep t)) t) with (tasks s t).
    destruct Hn as [[A B]|[g [A _]]]; [|congruence]. now rewrite A, B.
  - destruct (GroupInv2.k_wake _ G t f Hin) as [Hw Hp].
    assert (E : snd (incoming (ChainWindow.pop s (HWake t f)) t (Some f)) =
                let base := match f_st (futs s f) with FExc e => Some e | FCanc o => Some (ECancel o) | _ => None end in
                if k_must (tasks s t) then match base with Some (ECancel o) => Some (ECancel o) | _ => Some (ECancel (k_msg (tasks s t))) end
                else base) by reflexivity.
    unfold wait_cancelled_by_scope. rewrite Hw.
    destruct Hn as [[A B]|[g [A C]]].
    + rewrite A, B in E. destruct (f_st (futs s f)) as [|v|e|o] eqn:Ef; cbv zeta in E.
      * now elim Hp.
      * left. split; [exact Hin|]. right. exists f. now split.
      * destruct e as [o| | | |l]; try (left; split; [exact Hin|]; right; exists f; now split).
        destruct o as [|org]; [left; split; [exact Hin|]; right; exists f; now split|]. right. now split.
      * destruct o as [|org]; [left; split; [exact Hin|]; right; exists f; now split|]. right. now split.
    + rewrite Hw in A. injection A as <-. rewrite C in E. cbv zeta in E. left. split; [exact Hin|]. right. exists f.
      split; [reflexivity|]. rewrite E. now destruct (k_must (tasks s t)).
Qed.

(* A native request made on an unfinished task whose wait is not already cancelled by a scope: while the task is
   not resumed the request stays recorded, and whichever handle resumes it delivers a native CancelledError *)
Theorem native_request_honoured a t ops :
  reach_ok a -> k_done (tasks a t) = None -> t < ntask a -> wait_cancelled_by_scope a t = false ->
  let a1 := fst (step a (ANativeCancel t)) in
  ops_ok a1 ops = true -> unaffected t a1 ops ->
  let s := final step a1 ops in
  NHeld s t /\
  forall h, In h (ready s) -> (h = HStep t \/ exists f, h = HWake t f) -> receives_native s h t.
Proof.
  intros R Hd At Hw a1 Hok Hu s.
  assert (R1 : reach_ok a1) by (apply reach_ok_step; [exact R|reflexivity]).
  pose proof (native_request_placed a t Hd) as Hn1. fold a1 in Hn1.
  assert (At1 : t < ntask a1) by (unfold a1; cbn [step actor fst]; now rewrite (kf_ntask _ _ (kframe_task_cancel a t 0))).
  destruct (unaffected_run t ops a1 R1 Hok Hu At1 Hn1) as (Rs & Ns & Ws & Fs). fold s in Rs, Ns, Ws, Fs.
  split; [exact Ns|]. intros h Hin Hh.
  destruct (native_request_received s h t Rs Hin Hh Ns) as [H|[_ Hc]]; [exact H|exfalso].
  (* the wait at receipt is the wait at request time, and its future was not scope-cancelled then *)
  pose proof (kframe_task_cancel a t 0) as Kf.
  assert (Ew1 : k_waiter (tasks a1 t) = k_waiter (tasks a t)) by apply (tcore_waiter _ _ (kf_tasks _ _ Kf t)).
  unfold wait_cancelled_by_scope in Hc, Hw. rewrite Ws, Ew1 in Hc.
  destruct (k_waiter (tasks a t)) as [f|] eqn:Ewa; [|discriminate].
  assert (Ea1 : a1 = task_cancel a t 0) by reflexivity.
  assert (Hf1 : f_st (futs a1 f) <> FPend /\ (f_st (futs a1 f) = f_st (futs a f) \/ f_st (futs a1 f) = FCanc 0)).
  { rewrite Ea1. destruct (f_st (futs a f)) eqn:Ef.
    2-4: rewrite (kf_fdone _ _ Kf f), Ef by (rewrite Ef; discriminate); split; [discriminate|now left].
    assert (E1 : f_st (futs (task_cancel a t 0) f) = FCanc 0).
    { rewrite (task_cancel_pending a t 0 f Hd Ewa Ef). cbv zeta.
      destruct (f_waiter (futs a f)); cbn; unfold upd; now rewrite Nat.eqb_refl. }
    rewrite E1. split; [discriminate|now right]. }
  destruct Hf1 as [Hp1 Hv1]. rewrite (Fs f) in Hc; [|now rewrite Ew1|exact Hp1].
  destruct Hv1 as [E|E]; rewrite E in Hc; [|discriminate]. rewrite Hc in Hw. discriminate.
Qed.

(* a root task sleeps; Task.cancel() from outside; its wake-up raises the native CancelledError *)
Definition nat_pre : list op := [ANewRoot; ASleep 1 None].

Example native_request_honoured_premises :
  let a := final step init nat_pre in
  ops_ok init nat_pre = true /\ k_done (tasks a 1) = None /\ 1 < ntask a /\ wait_cancelled_by_scope a 1 = false /\
  let s := fst (step a (ANativeCancel 1)) in
  In (HWake 1 2) (ready s) /\ snd (step s (ARun (HWake 1 2))) = RExc (ECancel 0).
Proof. vm_compute. repeat split; auto. Qed.

Lemma final_nil (s : st) : final step s [] = s.
Proof. reflexivity. Qed.

Example native_request_honoured_instance :
  let a := final step init nat_pre in
  let s := fst (step a (ANativeCancel 1)) in
  NHeld s 1 /\ receives_native s (HWake 1 2) 1.
Proof.
  cbv zeta.
  assert (Hok : ops_ok init nat_pre = true) by (vm_compute; reflexivity).
  assert (R : reach_ok (final step init nat_pre)) by (exists nat_pre; split; [exact Hok|reflexivity]).
  pose proof native_request_honoured_premises as P. cbv zeta in P.
  destruct P as (_ & Hd & At & Hw & Hin & _).
  pose proof (native_request_honoured (final step init nat_pre) 1 [] R Hd At Hw eq_refl I) as HH.
  (* the two states are made syntactically equal before they meet: conversion would evaluate the run *)
  cbv zeta in HH. rewrite !final_nil in HH. destruct HH as [Hn Hr].
  split; [exact Hn|]. apply Hr; [exact Hin|]. right. now exists 2.
Qed.

(* F19: the same request made after the scope's delivery has cancelled the wait (hypothesis false) is absorbed:
   the wake-up raises the scope's cancellation, never a native one *)
Example native_request_hypothesis_needed :
  let a := final step init (firstn 6 f19_ops) in
  nth 6 f19_ops ANewRoot = ANativeCancel 1 /\ ops_ok init f19_ops = true /\
  k_done (tasks a 1) = None /\ wait_cancelled_by_scope a 1 = true /\
  existsb is_native_result (results init f19_ops) = false.
Proof. vm_compute. repeat split; reflexivity. Qed.

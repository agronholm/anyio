(* C06, the order in which ATick hands due timers to the ready queue: by (when, id).  Needs the invariant that the
   timer list is in creation order (ids strictly increasing, all below ntimer); it is proved together with "deadline
   timers in the heap are strictly in the future", for EVERY op sequence (no side condition), by one instance of the
   generic step walk. *)
From AV Require Import Base Machine MachineFacts ChainWalk TimerInv.
From Coq Require Import Sorted.

Definition id_lt (a b : timer) : Prop := tm_id a < tm_id b.

Definition heap_future (s : st) : Prop :=
  forall x c, In x (timers s) -> tm_what x = TScope c -> (now s < tm_when x)%Z.

(* the timer list is in creation order, and its deadline timers are strictly in the future *)
Record heap_ok (s : st) : Prop := mk_heap_ok {
  is_sorted : StronglySorted id_lt (timers s);
  is_bound : forall x, In x (timers s) -> tm_id x < ntimer s;
  is_future : heap_future s
}.

Lemma sorted_filter {A} (R : A -> A -> Prop) (p : A -> bool) l : StronglySorted R l -> StronglySorted R (filter p l).
Proof.
  induction 1 as [|x l Hs IH Hx]; cbn [filter]; [constructor|]. destruct (p x); [|exact IH].
  constructor; [exact IH|]. rewrite Forall_forall in *. intros y Hy. apply filter_In in Hy. apply Hx, Hy.
Qed.

Definition RH (s s' : st) : Prop := heap_ok s -> heap_ok s'.

(* timers are dropped, the clock may advance as long as the remaining ones stay in the future *)
Lemma rh_filter s s' p :
  timers s' = filter p (timers s) -> ntimer s' = ntimer s ->
  (forall x c, In x (timers s') -> tm_what x = TScope c -> (now s < tm_when x)%Z -> (now s' < tm_when x)%Z) -> RH s s'.
Proof.
  intros E1 E2 Hn [H1 H2 H3]. constructor.
  - rewrite E1. now apply sorted_filter.
  - rewrite E1, E2. intros x Hx. apply filter_In in Hx. apply H2, Hx.
  - intros x c Hx Hw. apply (Hn x c Hx Hw). rewrite E1 in Hx. apply filter_In in Hx. apply (H3 x c); [apply Hx|exact Hw].
Qed.

Lemma rh_same s s' : timers s' = timers s -> ntimer s' = ntimer s -> now s' = now s -> RH s s'.
Proof. intros E1 E2 E3 [H1 H2 H3]. constructor; unfold heap_future; rewrite ?E1, ?E2, ?E3; assumption. Qed.

Lemma rh_call_at s w what : (forall c, what = TScope c -> (now s < w)%Z) -> RH s (fst (call_at s w what)).
Proof.
  intros Hw [H1 H2 H3]. constructor; cbn [call_at fst timers ntimer now].
  - clear H3. induction (timers s) as [|y l IH]; cbn [app]; [repeat constructor|].
    inversion H1 as [|? ? Hs Hy]; subst. constructor.
    + apply IH; [exact Hs|intros x Hx; apply H2; now right].
    + apply Forall_app. split; [exact Hy|]. constructor; [|constructor]. unfold id_lt. cbn [tm_id]. apply H2. now left.
  - intros x Hx. apply in_app_iff in Hx. destruct Hx as [Hx|[<-|[]]]; [specialize (H2 x Hx); lia|cbn; lia].
  - intros x c Hx E. apply in_app_iff in Hx. destruct Hx as [Hx|[<-|[]]]; [now apply (H3 x c)|]. now apply (Hw c).
Qed.

Lemma rh_prims : prim_hyps RH (mk_prim_side True True True (fun _ _ => True)).
Proof.
  constructor; cbn [ps_dl ps_setdl ps_tick ps_cancel].
  - unfold RH; auto.
  - unfold RH; auto.
  - intros a b F. apply rh_same; [apply (fr_timers _ _ F)|apply (fr_ntimer _ _ F)|apply (fr_now _ _ F)].
  - intros s tm. apply (rh_filter s _ (fun x => negb (Nat.eqb (tm_id x) tm))); auto.
  - intros s w f. apply rh_call_at. discriminate.
  - intros s w c Hw. apply rh_call_at. auto.
  - intros s c o. apply rh_same; reflexivity.
  - intros s c b. apply rh_same; reflexivity.
  - intros s c d _. apply rh_same; reflexivity.
  - intros s c _. apply rh_same; reflexivity.
  - intros a s c b Ha _ _ Hk. apply (rh_same s); try reflexivity. exact (Ha Hk).
  - intros; exact I.
  - intros; exact I.
  - intros s d sh. apply rh_same; reflexivity.
  - intros s. apply rh_same; reflexivity.
  - intros s g sf. apply rh_same; reflexivity.
  - intros s. apply rh_same; reflexivity.
  - intros s t f tm. apply rh_same; reflexivity.
  - intros s h. apply rh_same; reflexivity.
  - intros s dt _ _. unfold tick. cbv zeta. eapply (rh_filter s); try reflexivity.
    intros x c Hx _ _. cbn [set_ready set_timers set_now timers now] in *.
    apply filter_In in Hx. destruct Hx as [_ Hx]. apply negb_true_iff, Z.leb_gt in Hx. exact Hx.
Qed.

Theorem step_heap_ok s o : heap_ok s -> heap_ok (fst (step s o)).
Proof. apply (walk_step (prim_walk rh_prims)), prim_op_ok; [exact I|]. destruct o; exact I. Qed.

Theorem reach_heap_ok ops : heap_ok (final step init ops).
Proof. apply (final_inv step heap_ok step_heap_ok). constructor; [constructor|intros x []|intros x c []]. Qed.

(* deadline timers in the heap are strictly in the future (every op sequence, no side condition) *)
Theorem reach_heap_future ops : heap_future (final step init ops).
Proof. apply reach_heap_ok. Qed.

(* insertion sort of the due timers is by (when, id) *)
Definition when_id_lt (a b : timer) : Prop :=
  (tm_when a < tm_when b)%Z \/ (tm_when a = tm_when b /\ tm_id a < tm_id b).

Lemma insert_timer_lex x l :
  StronglySorted when_id_lt l -> (forall y, In y l -> tm_id y < tm_id x) -> StronglySorted when_id_lt (insert_timer x l).
Proof.
  induction 1 as [|y l Hs IH Hy]; intros Hid; cbn [insert_timer]; [repeat constructor|].
  destruct (Z.ltb (tm_when x) (tm_when y)) eqn:E.
  - constructor; [constructor; assumption|]. constructor; [left; lia|].
    rewrite Forall_forall in *. intros z Hz. specialize (Hy z Hz). unfold when_id_lt in *. left. lia.
  - constructor; [apply IH; intros z Hz; apply Hid; now right|].
    rewrite Forall_forall in *. intros z Hz. apply in_insert_timer in Hz. destruct Hz as [->|Hz]; [|now apply Hy].
    pose proof (Hid y (or_introl eq_refl)). unfold when_id_lt. lia.
Qed.

Lemma sort_timers_lex_acc l : forall acc,
  StronglySorted when_id_lt acc -> StronglySorted id_lt l ->
  (forall y x, In y acc -> In x l -> tm_id y < tm_id x) ->
  StronglySorted when_id_lt (fold_left (fun a x => insert_timer x a) l acc).
Proof.
  induction l as [|x l IH]; intros acc Ha Hl Hlt; cbn [fold_left]; [exact Ha|].
  inversion Hl as [|? ? Hs Hx]; subst. apply IH; [|exact Hs|].
  - apply insert_timer_lex; [exact Ha|]. intros y Hy. apply Hlt; [exact Hy|now left].
  - intros y z Hy Hz. apply in_insert_timer in Hy. destruct Hy as [->|Hy].
    + rewrite Forall_forall in Hx. apply Hx, Hz.
    + apply Hlt; [exact Hy|now right].
Qed.

Lemma sort_timers_lex l : StronglySorted id_lt l -> StronglySorted when_id_lt (sort_timers l).
Proof. intros H. apply sort_timers_lex_acc; [constructor|exact H|intros y x []]. Qed.

(* the callbacks ATick appends to the ready queue are in (when, id) order, for every op sequence *)
Theorem tick_order ops dt :
  (0 <= dt)%Z ->
  let s := final step init ops in
  let s' := fst (step s (ATick dt)) in
  exists moved, ready s' = ready s ++ map handle_of_timer moved /\
                (forall x, In x moved <-> In x (timers s) /\ (tm_when x <= now s')%Z) /\
                StronglySorted when_id_lt moved.
Proof.
  intros Hdt s s'. pose proof (is_sorted _ (reach_heap_ok ops)) as Hs. fold s in Hs.
  unfold s', step. cbn [actor]. assert (E : Z.ltb dt 0 = false) by lia. rewrite E. cbn [fst].
  unfold tick. cbv zeta. cbn [set_ready set_timers set_now now timers ready].
  exists (sort_timers (filter (fun x => Z.leb (tm_when x) (now s + dt)) (timers s))).
  refine (conj eq_refl (conj _ _)).
  - intros x. rewrite in_sort_timers, filter_In, Z.leb_le. tauto.
  - apply sort_timers_lex, sorted_filter, Hs.
Qed.

(* never missed, strong form: once the deadline of an active, uncancelled scope is due, its _timeout callback is
   in the ready queue, exactly once *)
Theorem due_timeout_is_ready s c d :
  reach_wf s -> s_active (scopes s c) = true -> s_cancelled (scopes s c) = false ->
  s_deadline (scopes s c) = Some d -> (d <= now s)%Z ->
  exists tm, s_timeout (scopes s c) = Some tm /\ In (HTimeout c tm) (ready s) /\ live s tm = 1.
Proof.
  intros R Ha Ec Ed Hd. destruct (reach_tinv s R) as [G P].
  destruct (pi_never_missed _ _ _ (P c) d Ha Ec Ed) as [tm Et]. exists tm. split; [exact Et|].
  destruct (pi_armed _ _ _ (P c) tm Et Ec) as [_ [[d' Hin]|Hr]].
  - exfalso. destruct R as (ops & _ & ->). pose proof (reach_heap_future ops _ c Hin eq_refl) as Hf.
    destruct (pi_timer _ _ _ (P c) _ Hin eq_refl) as [_ E]. cbn [tm_when] in *. rewrite Ed in E. injection E as <-. lia.
  - split; [exact Hr|]. pose proof (gi_uniq _ G tm). pose proof (rcount_in tm (ready s) _ Hr) as H1.
    cbn in H1. rewrite Nat.eqb_refl in H1. specialize (H1 eq_refl). unfold live in *. lia.
Qed.

(* The kernel link between tasks and the futures they wait on (Task._fut_waiter <-> the future's wake-up
   callback), for EVERY op sequence (no domain restriction is needed here):
   a pending future a task waits on has that task registered as its waiter, and nobody waits on a future
   that has not been allocated yet. *)
From AV Require Import Base Machine MachineFacts ScopeFrames DeliverInv.
From AV Require GroupInv9.

Record KInv (s : st) : Prop := {
  k_alloc : forall t f, k_waiter (tasks s t) = Some f -> f < nfut s;
  k_link : wait_link s
}.

(* neutral steps: futures only complete, waits are kept or dropped *)
Record kq (a b : st) : Prop := {
  kq_nfut : nfut a <= nfut b;
  kq_waiter : forall t, k_waiter (tasks b t) = k_waiter (tasks a t) \/ k_waiter (tasks b t) = None;
  kq_fwaiter : forall f, f < nfut a -> f_waiter (futs b f) = f_waiter (futs a f);
  kq_pend : forall f, f < nfut a -> f_st (futs b f) = FPend -> f_st (futs a f) = FPend
}.

Lemma kq_refl a : kq a a.
Proof. constructor; auto. Qed.

Lemma kq_trans a b c : kq a b -> kq b c -> kq a c.
Proof.
  intros H1 H2. constructor.
  - pose proof (kq_nfut _ _ H1). pose proof (kq_nfut _ _ H2). lia.
  - intros t. destruct (kq_waiter _ _ H2 t) as [E|E]; [rewrite E; apply H1|now right].
  - intros f Hf. pose proof (kq_nfut _ _ H1). rewrite (kq_fwaiter _ _ H2 f); [now apply H1|lia].
  - intros f Hf Hp. pose proof (kq_nfut _ _ H1). apply (kq_pend _ _ H1 f Hf). apply (kq_pend _ _ H2 f); [lia|exact Hp].
Qed.

Lemma KInv_kq a b : KInv a -> kq a b -> KInv b.
Proof.
  intros [A L] Q. constructor.
  - intros t f Hw. destruct (kq_waiter _ _ Q t) as [E|E]; [|congruence].
    rewrite E in Hw. pose proof (A t f Hw). pose proof (kq_nfut _ _ Q). lia.
  - intros t f Hw Hp. destruct (kq_waiter _ _ Q t) as [E|E]; [|congruence].
    rewrite E in Hw. pose proof (A t f Hw) as Hf. rewrite (kq_fwaiter _ _ Q f Hf).
    apply L; [exact Hw|]. now apply (kq_pend _ _ Q f Hf).
Qed.

Lemma kq_kframe a b : kframe a b -> kq a b.
Proof.
  intros K. constructor.
  - rewrite (kf_nfut _ _ K). lia.
  - intros t. left. apply (tcore_waiter _ _ (kf_tasks _ _ K t)).
  - intros f _. apply (kf_fwaiter _ _ K f).
  - intros f _ Hp. destruct (f_st (futs a f)) eqn:E; [reflexivity| | |];
      rewrite (kf_fdone _ _ K f) in Hp; congruence.
Qed.

Lemma kq_same a b : nfut b = nfut a -> futs b = futs a ->
  (forall t, k_waiter (tasks b t) = k_waiter (tasks a t) \/ k_waiter (tasks b t) = None) -> kq a b.
Proof.
  intros E1 E2 E3. constructor; [rewrite E1; lia|exact E3|intros f _; now rewrite E2|intros f _; now rewrite E2].
Qed.

Lemma kq_tasks_same a b : nfut b = nfut a -> futs b = futs a -> tasks b = tasks a -> kq a b.
Proof. intros E1 E2 E3. apply kq_same; auto. intros t. left. now rewrite E3. Qed.

Lemma kq_upd_task s t g : (forall k, k_waiter (g k) = k_waiter k \/ k_waiter (g k) = None) -> kq s (upd_task s t g).
Proof.
  intros Hg. apply kq_same; [reflexivity|reflexivity|]. intros x. cbn. unfold upd.
  destruct (Nat.eqb_spec x t); [subst; apply Hg|now left].
Qed.

Definition kstep (a b : st) : Prop := KInv a -> KInv b.

Lemma kstep_kq a b : kq a b -> kstep a b.
Proof. intros Q K. now apply (KInv_kq a). Qed.

Lemma kstep_trans a b c : kstep a b -> kstep b c -> kstep a c.
Proof. intros H1 H2 K. auto. Qed.

Lemma K_fresh_suspend s s2 t :
  KInv s -> kq (fst (new_fut s)) s2 -> KInv (suspend_on s2 t (nfut s)).
Proof.
  intros K Q. set (f := nfut s).
  assert (K1 : KInv (fst (new_fut s))).
  { destruct K as [A L]. constructor.
    - intros x y Hw. cbn in *. pose proof (A x y Hw). lia.
    - intros x y Hw Hp. cbn in *. pose proof (A x y Hw) as Hy. unfold upd in *.
      destruct (Nat.eqb_spec y (nfut s)); [lia|]. now apply L. }
  pose proof (KInv_kq _ _ K1 Q) as [A2 L2].
  assert (Fresh : forall x, k_waiter (tasks s2 x) <> Some f).
  { intros x Hx. destruct (kq_waiter _ _ Q x) as [E|E]; [|congruence]. rewrite E in Hx. cbn in Hx.
    pose proof (k_alloc _ K x f Hx). unfold f in *. lia. }
  assert (Hf2 : f < nfut s2) by (pose proof (kq_nfut _ _ Q) as H; cbn in H; unfold f; lia).
  unfold suspend_on. fold f.
  set (s3 := upd_task (upd_fut s2 f (fun x => mkFut (f_st x) (Some t))) t (tk_waiter (Some f))).
  assert (K3 : KInv s3).
  { constructor.
    - intros x y Hw. unfold s3 in *. cbn in *. unfold upd in Hw.
      destruct (Nat.eqb_spec x t); [inversion Hw; subst; exact Hf2|now apply (A2 x y)].
    - intros x y Hw Hp. unfold s3 in *. cbn in *. unfold upd in *.
      destruct (Nat.eqb_spec x t) as [->|Hx].
      + inversion Hw; subst y. now rewrite Nat.eqb_refl.
      + destruct (Nat.eqb_spec y f) as [->|Hy]; [now elim (Fresh x)|]. now apply L2. }
  destruct (f_st (futs s2 f)).
  - destruct (k_must (tasks s2 t)); [|exact K3].
    apply (KInv_kq s3); [exact K3|]. eapply kq_trans; [apply kq_kframe, kframe_fut_complete|].
    apply kq_upd_task. intros k; now left.
  - apply (KInv_kq s3); [exact K3|]. apply kq_tasks_same; reflexivity.
  - apply (KInv_kq s3); [exact K3|]. apply kq_tasks_same; reflexivity.
  - apply (KInv_kq s3); [exact K3|]. apply kq_tasks_same; reflexivity.
Qed.

Lemma K_park s t : kstep s (park s t).
Proof.
  intros K. unfold park. cbn [new_fut]. unfold new_fut.
  apply (KInv_kq (suspend_on (fst (new_fut s)) t (nfut s))).
  - apply (K_fresh_suspend s _ t K). apply kq_refl.
  - apply kq_upd_task. intros k; now left.
Qed.

Lemma K_ret s t r : kstep s (fst (ret_to_puppet s t r)).
Proof.
  intros K. unfold ret_to_puppet. cbn [fst].
  set (s1 := match r with RExc e => upd_task s t (tk_held (Some e)) | _ => s end).
  assert (K1 : KInv s1).
  { unfold s1. destruct r; try exact K. apply (KInv_kq s); [exact K|]. apply kq_upd_task. intros k; now left. }
  apply (KInv_kq (park s1 t)); [now apply K_park|]. apply kq_tasks_same; reflexivity.
Qed.

Lemma kq_new_scope s d sh : kq s (fst (new_scope s d sh)).
Proof. apply kq_tasks_same; reflexivity. Qed.

Lemma kq_call_soon s h : kq s (call_soon s h).
Proof. apply kq_tasks_same; reflexivity. Qed.

Lemma kq_spawn_task s g sf : kq s (fst (spawn_task s g sf)).
Proof.
  unfold spawn_task. cbn [new_scope]. unfold new_scope. cbv zeta. cbn [fst].
  match goal with |- kq s (call_soon (restart ?a ?x) ?h) =>
    apply (kq_trans s a); [|eapply kq_trans; [apply kq_kframe, kframe_restart|apply kq_call_soon]] end.
  apply kq_same; [reflexivity|reflexivity|]. intros x. cbn. unfold upd.
  destruct (Nat.eqb_spec x (ntask s)); [right; reflexivity|left; reflexivity].
Qed.

Lemma kq_begin_act s t : kq s (begin_act s t).
Proof.
  unfold begin_act. apply (kq_trans s (upd_task s t (tk_waiter None)));
    [apply kq_upd_task; intros k; now right|apply kq_tasks_same; reflexivity].
Qed.

Lemma kq_incoming s t fo : kq s (fst (incoming s t fo)).
Proof.
  unfold incoming. cbn [fst].
  apply (kq_trans s (upd_task s t (fun x => tk_must false (k_msg x) (tk_waiter None x))));
    [apply kq_upd_task; intros k; now right|apply kq_tasks_same; reflexivity].
Qed.

Lemma kq_set_ctl s t c : kq s (set_ctl s t c).
Proof. apply kq_upd_task. intros k; now left. Qed.

Lemma kq_set_running s v : kq s (set_running s v).
Proof. apply kq_tasks_same; reflexivity. Qed.

Lemma kq_upd_group s g f : kq s (upd_group s g f).
Proof. apply kq_tasks_same; reflexivity. Qed.

Lemma kq_upd_scope s c f : kq s (upd_scope s c f).
Proof. apply kq_tasks_same; reflexivity. Qed.

Lemma K_block s s1 t c : kstep s s1 -> kstep s (fst (blocked (set_ctl s1 t c))).
Proof.
  intros H K. cbn [fst blocked]. apply (KInv_kq s1); [now apply H|].
  eapply kq_trans; [apply kq_set_ctl|apply kq_set_running].
Qed.

Lemma K_ret_after s s1 t r : kstep s s1 -> kstep s (fst (ret_to_puppet s1 t r)).
Proof. intros H K. apply K_ret. now apply H. Qed.

(* for every op sequence at all: part of the kernel invariant that GroupInv9 establishes for every reachable state *)
Theorem reach_kinv ops : KInv (final step init ops).
Proof.
  pose proof (GroupInv3.m_k _ (GroupInv3.i_m _ (GroupInv9.reachable _ (ex_intro _ ops eq_refl)))) as K.
  constructor; intros t f Hw; [|intros _]; apply (GroupInv2.k_w1 _ K t f Hw).
Qed.

Corollary reach_wait_link ops : wait_link (final step init ops).
Proof. apply reach_kinv. Qed.

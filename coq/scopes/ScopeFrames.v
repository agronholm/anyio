(* Frame lemmas for the helpers of the S machine: which record fields each helper can change.
   Proved once, reused by TreeInv / DeliverInv / PotentialInv.  No reachability needed here. *)
From AV Require Import Base Machine MachineFacts.

Lemma mem_In x l : mem x l = true <-> In x l.
Proof.
  unfold mem. rewrite existsb_exists. split.
  - intros [y [Hy He]]. apply Nat.eqb_eq in He. now subst.
  - intros H. exists x. split; [exact H|apply Nat.eqb_refl].
Qed.

Lemma in_add x y l : In x (add y l) <-> In x l \/ x = y.
Proof.
  unfold add. destruct (mem y l) eqn:E.
  - apply mem_In in E. split; [tauto|]. intros [H|H]; [exact H|now subst].
  - rewrite in_app_iff. cbn. split.
    + intros [H|[H|[]]]; [now left|right; now symmetry].
    + intros [H|H]; [now left|right; left; now symmetry].
Qed.

Lemma in_del x y l : In x (del y l) <-> In x l /\ x <> y.
Proof.
  unfold del. rewrite filter_In. split.
  - intros [H1 H2]. split; [exact H1|]. intros ->. now rewrite Nat.eqb_refl in H2.
  - intros [H1 H2]. split; [exact H1|]. destruct (Nat.eqb_spec x y); [contradiction|reflexivity].
Qed.

Lemma nodup_del y l : NoDup l -> NoDup (del y l).
Proof. intros H. unfold del. now apply NoDup_filter. Qed.

Lemma nodup_add y l : NoDup l -> NoDup (add y l).
Proof.
  intros H. unfold add. destruct (mem y l) eqn:E; [exact H|].
  assert (Hn : ~ In y l) by (intros Hi; apply mem_In in Hi; congruence).
  clear E. induction l as [|z l IH]; cbn.
  - constructor; [tauto|constructor].
  - inversion H as [|? ? Hz Hl]; subst. constructor.
    + rewrite in_app_iff. cbn. intros [Hi|[Hi|[]]]; [contradiction|]. subst. apply Hn. now left.
    + apply IH; [exact Hl|]. intros Hi. apply Hn. now right.
Qed.

Lemma del_notin y l : ~ In y l -> del y l = l.
Proof.
  intros H. unfold del. induction l as [|z l IH]; cbn; [reflexivity|].
  destruct (Nat.eqb_spec z y) as [->|Hne]; cbn.
  - exfalso. apply H. now left.
  - f_equal. apply IH. intros Hi. apply H. now right.
Qed.

(* the "cancel request" frame:
   Everything task_cancel / deliver / restart may touch: k_ncancel, k_must, k_msg of tasks; s_pending,
   s_chandle, s_caught of scopes; futures complete; the ready queue grows by wake-ups and delivery handles. *)
Definition sc_core (c : scope) : scope := sc_caught false (sc_pending 0 (sc_chandle false c)).
Definition tk_core (k : task) : task := tk_ncancel 0 (tk_must false 0 k).

Definition wake_or_deliver (h : handle) : Prop :=
  match h with HWake _ _ | HDeliver _ => True | _ => False end.

Lemma grow_refl (P : handle -> Prop) r : exists l, r = r ++ l /\ Forall P l.
Proof. exists []. split; [now rewrite app_nil_r|constructor]. Qed.

Record kframe (s s' : st) : Prop := {
  kf_ntask : ntask s' = ntask s;
  kf_nscope : nscope s' = nscope s;
  kf_ngroup : ngroup s' = ngroup s;
  kf_nfut : nfut s' = nfut s;
  kf_nevent : nevent s' = nevent s;
  kf_ntimer : ntimer s' = ntimer s;
  kf_scopes : forall c, sc_core (scopes s' c) = sc_core (scopes s c);
  kf_tasks : forall t, tk_core (tasks s' t) = tk_core (tasks s t);
  kf_groups : groups s' = groups s;
  kf_events : events s' = events s;
  kf_timers : timers s' = timers s;
  kf_now : now s' = now s;
  kf_running : running s' = running s;
  kf_ready : exists l, ready s' = ready s ++ l /\ Forall wake_or_deliver l;
  kf_fwaiter : forall f, f_waiter (futs s' f) = f_waiter (futs s f);
  kf_fdone : forall f, f_st (futs s f) <> FPend -> f_st (futs s' f) = f_st (futs s f)
}.

Lemma kframe_refl s : kframe s s.
Proof.
  constructor; try reflexivity; auto.
  exists []. split; [now rewrite app_nil_r|constructor].
Qed.

Lemma kframe_trans a b c : kframe a b -> kframe b c -> kframe a c.
Proof.
  intros H1 H2. constructor.
  - now rewrite (kf_ntask _ _ H2), (kf_ntask _ _ H1).
  - now rewrite (kf_nscope _ _ H2), (kf_nscope _ _ H1).
  - now rewrite (kf_ngroup _ _ H2), (kf_ngroup _ _ H1).
  - now rewrite (kf_nfut _ _ H2), (kf_nfut _ _ H1).
  - now rewrite (kf_nevent _ _ H2), (kf_nevent _ _ H1).
  - now rewrite (kf_ntimer _ _ H2), (kf_ntimer _ _ H1).
  - intros x. now rewrite (kf_scopes _ _ H2), (kf_scopes _ _ H1).
  - intros x. now rewrite (kf_tasks _ _ H2), (kf_tasks _ _ H1).
  - now rewrite (kf_groups _ _ H2), (kf_groups _ _ H1).
  - now rewrite (kf_events _ _ H2), (kf_events _ _ H1).
  - now rewrite (kf_timers _ _ H2), (kf_timers _ _ H1).
  - now rewrite (kf_now _ _ H2), (kf_now _ _ H1).
  - now rewrite (kf_running _ _ H2), (kf_running _ _ H1).
  - destruct (kf_ready _ _ H1) as [l1 [E1 F1]]. destruct (kf_ready _ _ H2) as [l2 [E2 F2]].
    exists (l1 ++ l2). split; [now rewrite E2, E1, app_assoc|]. apply Forall_app. now split.
  - intros f. now rewrite (kf_fwaiter _ _ H2), (kf_fwaiter _ _ H1).
  - intros f Hf. rewrite (kf_fdone _ _ H2); [now apply (kf_fdone _ _ H1)|].
    now rewrite (kf_fdone _ _ H1).
Qed.

Section CoreProj.
  Variables a b : scope.
  Hypothesis H : sc_core a = sc_core b.
  Lemma core_parent : s_parent a = s_parent b. Proof. exact (f_equal s_parent H). Qed.
  Lemma core_children : s_children a = s_children b. Proof. exact (f_equal s_children H). Qed.
  Lemma core_active : s_active a = s_active b. Proof. exact (f_equal s_active H). Qed.
  Lemma core_tasks : s_tasks a = s_tasks b. Proof. exact (f_equal s_tasks H). Qed.
  Lemma core_host : s_host a = s_host b. Proof. exact (f_equal s_host H). Qed.
  Lemma core_shield : s_shield a = s_shield b. Proof. exact (f_equal s_shield H). Qed.
  Lemma core_cancelled : s_cancelled a = s_cancelled b. Proof. exact (f_equal s_cancelled H). Qed.
  Lemma core_timeout : s_timeout a = s_timeout b. Proof. exact (f_equal s_timeout H). Qed.
  Lemma core_deadline : s_deadline a = s_deadline b. Proof. exact (f_equal s_deadline H). Qed.
  Lemma core_bydeadline : s_bydeadline a = s_bydeadline b. Proof. exact (f_equal s_bydeadline H). Qed.
End CoreProj.

Section TCoreProj.
  Variables a b : task.
  Hypothesis H : tk_core a = tk_core b.
  Lemma tcore_ctl : k_ctl a = k_ctl b. Proof. exact (f_equal k_ctl H). Qed.
  Lemma tcore_started : k_started a = k_started b. Proof. exact (f_equal k_started H). Qed.
  Lemma tcore_done : k_done a = k_done b. Proof. exact (f_equal k_done H). Qed.
  Lemma tcore_waiter : k_waiter a = k_waiter b. Proof. exact (f_equal k_waiter H). Qed.
  Lemma tcore_cur : k_cur a = k_cur b. Proof. exact (f_equal k_cur H). Qed.
  Lemma tcore_held : k_held a = k_held b. Proof. exact (f_equal k_held H). Qed.
  Lemma tcore_group : k_group a = k_group b. Proof. exact (f_equal k_group H). Qed.
  Lemma tcore_hscope : k_hscope a = k_hscope b. Proof. exact (f_equal k_hscope H). Qed.
  Lemma tcore_hevent : k_hevent a = k_hevent b. Proof. exact (f_equal k_hevent H). Qed.
  Lemma tcore_hexc : k_hexc a = k_hexc b. Proof. exact (f_equal k_hexc H). Qed.
  Lemma tcore_hret : k_hret a = k_hret b. Proof. exact (f_equal k_hret H). Qed.
  Lemma tcore_startfut : k_startfut a = k_startfut b. Proof. exact (f_equal k_startfut H). Qed.
  Lemma tcore_final : k_final a = k_final b. Proof. exact (f_equal k_final H). Qed.
  Lemma tcore_tdran : k_tdran a = k_tdran b. Proof. exact (f_equal k_tdran H). Qed.
End TCoreProj.

Lemma upd_eq {A} (f : nat -> A) k v x : upd f k v x = if Nat.eqb x k then v else f x.
Proof. reflexivity. Qed.

Lemma upd_core_scope (f : sid -> scope) c v x :
  sc_core v = sc_core (f c) -> sc_core (upd f c v x) = sc_core (f x).
Proof. intros H. unfold upd. destruct (Nat.eqb_spec x c); [now subst|reflexivity]. Qed.

Lemma upd_core_task (f : tid -> task) c v x :
  tk_core v = tk_core (f c) -> tk_core (upd f c v x) = tk_core (f x).
Proof. intros H. unfold upd. destruct (Nat.eqb_spec x c); [now subst|reflexivity]. Qed.

Lemma kframe_call_soon s h : wake_or_deliver h -> kframe s (call_soon s h).
Proof.
  intros Hh. constructor; try reflexivity; auto.
  exists [h]. split; [reflexivity|]. constructor; [exact Hh|constructor].
Qed.

Lemma kframe_fut_complete s f v : kframe s (fut_complete s f v).
Proof.
  unfold fut_complete. destruct (f_st (futs s f)) eqn:E; try apply kframe_refl.
  assert (K : kframe s (upd_fut s f (fun x => mkFut v (f_waiter x)))).
  { constructor; try reflexivity; auto.
    - exists []. split; [now rewrite app_nil_r|constructor].
    - intros x. cbn. unfold upd. destruct (Nat.eqb_spec x f); [now subst|reflexivity].
    - intros x Hx. cbn. unfold upd. destruct (Nat.eqb_spec x f); [subst; congruence|reflexivity]. }
  destruct (f_waiter (futs s f)); [|exact K].
  eapply kframe_trans; [exact K|]. apply kframe_call_soon. exact I.
Qed.

Lemma kframe_upd_task s t g :
  (forall k, tk_core (g k) = tk_core k) -> kframe s (upd_task s t g).
Proof.
  intros Hg. constructor; try reflexivity; auto.
  - intros x. cbn. apply upd_core_task. apply Hg.
  - exists []. split; [now rewrite app_nil_r|constructor].
Qed.

Lemma kframe_upd_scope s c g :
  (forall k, sc_core (g k) = sc_core k) -> kframe s (upd_scope s c g).
Proof.
  intros Hg. constructor; try reflexivity; auto.
  - intros x. cbn. apply upd_core_scope. apply Hg.
  - exists []. split; [now rewrite app_nil_r|constructor].
Qed.

Lemma kframe_task_cancel s t o : kframe s (task_cancel s t o).
Proof.
  unfold task_cancel. destruct (k_done (tasks s t)); [apply kframe_refl|].
  set (s1 := upd_task s t (tk_ncancel (S (k_ncancel (tasks s t))))).
  assert (K1 : kframe s s1) by (apply kframe_upd_task; intros k; reflexivity).
  assert (K2 : kframe s (upd_task s1 t (tk_must true o))).
  { eapply kframe_trans; [exact K1|]. apply kframe_upd_task. intros k; reflexivity. }
  destruct (k_waiter (tasks s t)); [|exact K2].
  destruct (fut_pending s1 f); [|exact K2].
  eapply kframe_trans; [exact K1|apply kframe_fut_complete].
Qed.

Lemma kframe_task_uncancel s t : kframe s (task_uncancel s t).
Proof. apply kframe_upd_task. intros k; reflexivity. Qed.

Lemma kframe_iter_uncancel n t : forall s, kframe s (iter n (fun a => task_uncancel a t) s).
Proof.
  induction n as [|n IH]; intros s; cbn; [apply kframe_refl|].
  eapply kframe_trans; [apply kframe_task_uncancel|apply IH].
Qed.

Lemma kframe_dtask self origin a t a' : dtask self origin a t a' -> kframe a a'.
Proof.
  intros [_|_ a1]; [apply kframe_refl|].
  assert (K : kframe a a1) by apply kframe_task_cancel.
  destruct (opt_eqb (s_host (scopes a1 origin)) t); [|exact K].
  eapply kframe_trans; [exact K|]. apply kframe_upd_scope. intros k; reflexivity.
Qed.

Lemma kframe_deliver_task self origin a r t :
  kframe a (fst (deliver_task self origin (a, r) t)).
Proof. eapply kframe_dtask, deliver_task_shape. Qed.

Lemma kframe_deliver fuel : forall s self origin, kframe s (fst (deliver fuel s self origin)).
Proof.
  intros s self origin. apply (deliver_closed kframe origin kframe_refl kframe_trans).
  - intros x a t. apply kframe_dtask.
  - intros a b. apply kframe_upd_scope. intros k; reflexivity.
  - intros a. now apply kframe_call_soon.
Qed.

Lemma kframe_deliver_top s c : kframe s (deliver_top s c).
Proof. apply kframe_deliver. Qed.

Lemma kframe_restart s x : kframe s (restart s x).
Proof. apply restart_closed; [apply kframe_refl|]. intros c _ _. apply kframe_deliver_top. Qed.

(* the tree view:
   Fields the structural invariant talks about.  treq = "same tree": every helper that only deals with
   cancellation requests, timers, futures, events or the ready queue is treq-neutral. *)
Definition sc_tree (c : scope) := (s_parent c, s_children c, s_active c, s_tasks c, s_host c).
Definition tk_tree (k : task) := (k_cur k, k_group k, k_hscope k, k_tdran k).
Definition gr_tree (g : group) := (g_scope g, g_tasks g).

Record treq (s s' : st) : Prop := {
  tq_ntask : ntask s' = ntask s;
  tq_nscope : nscope s' = nscope s;
  tq_ngroup : ngroup s' = ngroup s;
  tq_scopes : forall c, sc_tree (scopes s' c) = sc_tree (scopes s c);
  tq_tasks : forall t, tk_tree (tasks s' t) = tk_tree (tasks s t);
  tq_groups : forall g, gr_tree (groups s' g) = gr_tree (groups s g)
}.

Lemma treq_refl s : treq s s.
Proof. constructor; reflexivity. Qed.

Lemma treq_trans a b c : treq a b -> treq b c -> treq a c.
Proof.
  intros H1 H2. constructor.
  - now rewrite (tq_ntask _ _ H2), (tq_ntask _ _ H1).
  - now rewrite (tq_nscope _ _ H2), (tq_nscope _ _ H1).
  - now rewrite (tq_ngroup _ _ H2), (tq_ngroup _ _ H1).
  - intros x. now rewrite (tq_scopes _ _ H2), (tq_scopes _ _ H1).
  - intros x. now rewrite (tq_tasks _ _ H2), (tq_tasks _ _ H1).
  - intros x. now rewrite (tq_groups _ _ H2), (tq_groups _ _ H1).
Qed.

Lemma treq_sym a b : treq a b -> treq b a.
Proof.
  intros H. constructor; intros; symmetry; apply H.
Qed.

Lemma sc_core_tree a b : sc_core a = sc_core b -> sc_tree a = sc_tree b.
Proof.
  intros H. unfold sc_tree.
  now rewrite (core_parent _ _ H), (core_children _ _ H), (core_active _ _ H), (core_tasks _ _ H), (core_host _ _ H).
Qed.

Lemma tk_core_tree a b : tk_core a = tk_core b -> tk_tree a = tk_tree b.
Proof.
  intros H. unfold tk_tree.
  now rewrite (tcore_cur _ _ H), (tcore_group _ _ H), (tcore_hscope _ _ H), (tcore_tdran _ _ H).
Qed.

Lemma kframe_treq s s' : kframe s s' -> treq s s'.
Proof.
  intros K. constructor; try apply K.
  - intros c. apply sc_core_tree, K.
  - intros t. apply tk_core_tree, K.
  - intros g. now rewrite (kf_groups _ _ K).
Qed.

Lemma treq_upd_task s t g : (forall k, tk_tree (g k) = tk_tree k) -> treq s (upd_task s t g).
Proof.
  intros Hg. constructor; try reflexivity. intros x. cbn. unfold upd.
  destruct (Nat.eqb_spec x t); [subst; apply Hg|reflexivity].
Qed.

Lemma treq_upd_scope s c g : (forall k, sc_tree (g k) = sc_tree k) -> treq s (upd_scope s c g).
Proof.
  intros Hg. constructor; try reflexivity. intros x. cbn. unfold upd.
  destruct (Nat.eqb_spec x c); [subst; apply Hg|reflexivity].
Qed.

Lemma treq_upd_group s c g : (forall k, gr_tree (g k) = gr_tree k) -> treq s (upd_group s c g).
Proof.
  intros Hg. constructor; try reflexivity. intros x. cbn. unfold upd.
  destruct (Nat.eqb_spec x c); [subst; apply Hg|reflexivity].
Qed.

Lemma treq_upd_event s f g : treq s (upd_event s f g).
Proof. constructor; reflexivity. Qed.
Lemma treq_set_ready s v : treq s (set_ready s v).
Proof. constructor; reflexivity. Qed.
Lemma treq_set_timers s v : treq s (set_timers s v).
Proof. constructor; reflexivity. Qed.
Lemma treq_set_running s v : treq s (set_running s v).
Proof. constructor; reflexivity. Qed.
Lemma treq_set_now s v : treq s (set_now s v).
Proof. constructor; reflexivity. Qed.
Lemma treq_call_soon s h : treq s (call_soon s h).
Proof. constructor; reflexivity. Qed.
Lemma treq_new_fut s : treq s (fst (new_fut s)).
Proof. constructor; reflexivity. Qed.
Lemma treq_call_at s w x : treq s (fst (call_at s w x)).
Proof. constructor; reflexivity. Qed.

Lemma treq_timer_cancel s tm : treq s (timer_cancel s tm).
Proof. constructor; reflexivity. Qed.

Lemma treq_cancel_timeout s c : treq s (cancel_timeout s c).
Proof.
  unfold cancel_timeout. destruct (s_timeout (scopes s c)); [|apply treq_refl].
  eapply treq_trans; [apply treq_timer_cancel|]. apply treq_upd_scope. intros k; reflexivity.
Qed.

Lemma treq_fut_complete s f v : treq s (fut_complete s f v).
Proof. apply kframe_treq, kframe_fut_complete. Qed.

Lemma treq_task_cancel s t o : treq s (task_cancel s t o).
Proof. apply kframe_treq, kframe_task_cancel. Qed.

Lemma treq_deliver_top s c : treq s (deliver_top s c).
Proof. apply kframe_treq, kframe_deliver_top. Qed.

Lemma treq_restart s x : treq s (restart s x).
Proof. apply kframe_treq, kframe_restart. Qed.

Lemma treq_scope_cancel s c b : treq s (scope_cancel s c b).
Proof.
  apply (scope_cancel_closed treq c treq_refl treq_trans); [intros a; apply treq_cancel_timeout| |].
  - intros a. apply treq_upd_scope. intros k; reflexivity.
  - intros a _ _. apply treq_deliver_top.
Qed.

Lemma treq_scope_timeout s c : treq s (scope_timeout s c).
Proof.
  apply (scope_timeout_closed treq c treq_refl); [intros a; apply treq_scope_cancel|].
  intros a d _ _. eapply treq_trans; [apply (treq_call_at a d (TScope c))|]. apply treq_upd_scope. intros k; reflexivity.
Qed.

(* kernel steps of one task:
   What suspend_on, park, ret_to_puppet, begin_act, incoming, fut_complete and the event operations can touch:
   the control fields of the acting task, futures, events, the running task; the ready queue grows by wake-ups
   and steps.  Each weaker relation below and in the later files contains `quiet t`, so a helper is dealt with once. *)
Definition tk_quiet (k : task) : task := tk_ctl CDone (tk_waiter None (tk_must false 0 (tk_held None k))).

Definition wake_or_step (h : handle) : Prop :=
  match h with HWake _ _ | HStep _ => True | _ => False end.

Record quiet (t : tid) (s s' : st) : Prop := {
  qt_ntask : ntask s' = ntask s;
  qt_nscope : nscope s' = nscope s;
  qt_ngroup : ngroup s' = ngroup s;
  qt_ntimer : ntimer s' = ntimer s;
  qt_scopes : scopes s' = scopes s;
  qt_groups : groups s' = groups s;
  qt_timers : timers s' = timers s;
  qt_now : now s' = now s;
  qt_other : forall x, x <> t -> tasks s' x = tasks s x;
  qt_self : tk_quiet (tasks s' t) = tk_quiet (tasks s t);
  qt_ready : exists l, ready s' = ready s ++ l /\ Forall wake_or_step l
}.

Lemma quiet_refl t s : quiet t s s.
Proof. constructor; try reflexivity. apply grow_refl. Qed.

Lemma quiet_trans t a b c : quiet t a b -> quiet t b c -> quiet t a c.
Proof.
  intros H1 H2. constructor; try (etransitivity; [apply H2|apply H1]; assumption).
  destruct (qt_ready _ _ _ H1) as [l1 [E1 F1]]. destruct (qt_ready _ _ _ H2) as [l2 [E2 F2]].
  exists (l1 ++ l2). split; [now rewrite E2, E1, app_assoc|]. apply Forall_app. now split.
Qed.

Lemma qt_tasks t s s' : quiet t s s' -> forall x, tk_quiet (tasks s' x) = tk_quiet (tasks s x).
Proof.
  intros H x. destruct (Nat.eq_dec x t) as [->|Hx]; [apply H|now rewrite (qt_other _ _ _ H x Hx)].
Qed.

Lemma qt_in_ready t s s' h : quiet t s s' -> In h (ready s) -> In h (ready s').
Proof. intros H Hh. destruct (qt_ready _ _ _ H) as [l [E _]]. rewrite E. apply in_or_app. now left. Qed.

Lemma quiet_upd_task s t g : (forall k, tk_quiet (g k) = tk_quiet k) -> quiet t s (upd_task s t g).
Proof.
  intros Hg. constructor; try reflexivity; cbn; unfold upd.
  - intros x Hx. destruct (Nat.eqb_spec x t); [contradiction|reflexivity].
  - rewrite Nat.eqb_refl. apply Hg.
  - apply grow_refl.
Qed.

Lemma quiet_upd_fut t s f g : quiet t s (upd_fut s f g).
Proof. constructor; try reflexivity. apply grow_refl. Qed.

Lemma quiet_upd_event t s e g : quiet t s (upd_event s e g).
Proof. constructor; try reflexivity. apply grow_refl. Qed.

Lemma quiet_set_running t s v : quiet t s (set_running s v).
Proof. constructor; try reflexivity. apply grow_refl. Qed.

Lemma quiet_new_fut t s : quiet t s (fst (new_fut s)).
Proof. constructor; try reflexivity. apply grow_refl. Qed.

Lemma quiet_call_soon t s h : wake_or_step h -> quiet t s (call_soon s h).
Proof. intros Hh. constructor; try reflexivity. exists [h]. split; [reflexivity|]. constructor; [exact Hh|constructor]. Qed.

Lemma quiet_fut_complete t s f v : quiet t s (fut_complete s f v).
Proof.
  unfold fut_complete. destruct (f_st (futs s f)); try apply quiet_refl.
  destruct (f_waiter (futs s f)); [|apply quiet_upd_fut].
  eapply quiet_trans; [apply quiet_upd_fut|now apply quiet_call_soon].
Qed.

Lemma quiet_suspend_on s t f : quiet t s (suspend_on s t f).
Proof.
  unfold suspend_on.
  assert (K : quiet t s (upd_task (upd_fut s f (fun x => mkFut (f_st x) (Some t))) t (tk_waiter (Some f)))).
  { eapply quiet_trans; [apply quiet_upd_fut|]. apply quiet_upd_task. reflexivity. }
  destruct (f_st (futs s f)); try (eapply quiet_trans; [exact K|now apply quiet_call_soon]).
  destruct (k_must (tasks s t)); [|exact K].
  eapply quiet_trans; [exact K|]. eapply quiet_trans; [apply quiet_fut_complete|].
  apply quiet_upd_task. reflexivity.
Qed.

Lemma quiet_park s t : quiet t s (park s t).
Proof.
  unfold park, new_fut. eapply quiet_trans; [|apply quiet_upd_task; reflexivity].
  eapply quiet_trans; [apply (quiet_new_fut t s)|apply quiet_suspend_on].
Qed.

Lemma quiet_ret_to_puppet s t r : quiet t s (fst (ret_to_puppet s t r)).
Proof.
  unfold ret_to_puppet. cbn [fst]. eapply quiet_trans; [|apply quiet_set_running].
  eapply quiet_trans; [|apply quiet_park]. destruct r; try apply quiet_refl. apply quiet_upd_task. reflexivity.
Qed.

Lemma quiet_begin_act s t : quiet t s (begin_act s t).
Proof. eapply quiet_trans; [|apply quiet_set_running]. apply quiet_upd_task. reflexivity. Qed.

Lemma quiet_incoming s t fo : quiet t s (fst (incoming s t fo)).
Proof. eapply quiet_trans; [|apply quiet_set_running]. apply quiet_upd_task. reflexivity. Qed.

Lemma quiet_set_ctl s t c : quiet t s (set_ctl s t c).
Proof. apply quiet_upd_task. reflexivity. Qed.

Lemma quiet_bare_yield s t : quiet t s (bare_yield s t).
Proof. now apply quiet_call_soon. Qed.

Lemma quiet_fold_fut_complete t v fs : forall a, quiet t a (fold_left (fun a f => fut_complete a f v) fs a).
Proof.
  induction fs as [|f fs IH]; intros a; cbn [fold_left]; [apply quiet_refl|].
  eapply quiet_trans; [apply quiet_fut_complete|apply IH].
Qed.

Lemma quiet_event_set t s e : quiet t s (event_set s e).
Proof.
  unfold event_set. destruct (e_set (events s e)); [apply quiet_refl|].
  eapply quiet_trans; [|apply quiet_fold_fut_complete]. apply quiet_upd_event.
Qed.

Lemma quiet_event_wait s t e : quiet t s (fst (event_wait s t e)).
Proof.
  unfold event_wait. destruct (e_set (events s e)); cbn [fst]; [apply quiet_bare_yield|].
  unfold new_fut. cbn [fst]. eapply quiet_trans; [apply (quiet_new_fut t s)|].
  eapply quiet_trans; [apply quiet_upd_event|apply quiet_suspend_on].
Qed.

Lemma quiet_event_unwait t s e fo : quiet t s (event_unwait s e fo).
Proof. destruct fo; [apply quiet_upd_event|apply quiet_refl]. Qed.

Lemma quiet_treq t s s' : quiet t s s' -> treq s s'.
Proof.
  intros H. constructor; try apply H.
  - intros c. now rewrite (qt_scopes _ _ _ H).
  - intros x. exact (f_equal tk_tree (qt_tasks _ _ _ H x)).
  - intros g. now rewrite (qt_groups _ _ _ H).
Qed.

Lemma treq_task_uncancel s t : treq s (task_uncancel s t).
Proof. apply kframe_treq, kframe_task_uncancel. Qed.

Lemma treq_finish_task s t o : treq s (finish_task s t o).
Proof.
  unfold finish_task. eapply treq_trans; [|apply treq_set_running].
  set (s1 := upd_task s t _).
  assert (K : treq s s1) by (apply treq_upd_task; intros k; reflexivity).
  destruct (k_group (tasks s t)); [|exact K].
  eapply treq_trans; [exact K|apply treq_call_soon].
Qed.

Lemma treq_tick s dt : treq s (tick s dt).
Proof. constructor; reflexivity. Qed.

Definition exit_ok (s : st) (c : sid) (t : tid) : Prop :=
  s_active (scopes s c) = true /\ s_host (scopes s c) = Some t /\ k_cur (tasks s t) = Some c.

Definition exit_struct (s : st) (c : sid) (t : tid) : st :=
  let s1 := cancel_timeout (upd_scope s c (sc_active false)) c in
  let s2 := upd_scope s1 c (fun x => sc_tasks (del t (s_tasks x)) x) in
  let par := s_parent (scopes s c) in
  let s3 := match par with
            | Some p => upd_scope s2 p (fun x => sc_tasks (add t (s_tasks x)) (sc_children (del c (s_children x)) x))
            | None => s2
            end in
  upd_task s3 t (tk_cur par).

Lemma exit_ok_dec s c t : exit_ok s c t \/ ~ exit_ok s c t.
Proof.
  unfold exit_ok.
  destruct (s_active (scopes s c)); [|right; intros [H _]; discriminate].
  destruct (opt_eqb (s_host (scopes s c)) t) eqn:Eh.
  - apply opt_eqb_Some in Eh. destruct (opt_eqb (k_cur (tasks s t)) c) eqn:Ec.
    + apply opt_eqb_Some in Ec. left. now repeat split.
    + apply opt_eqb_false in Ec. right. intros [_ [_ H]]. contradiction.
  - apply opt_eqb_false in Eh. right. intros [_ [H _]]. contradiction.
Qed.

Lemma kframe_xsettle c t par s5 s6 x : xsettle c t par s5 s6 x -> kframe s5 s6.
Proof.
  assert (Ku : forall a y g, (forall k, sc_core (g k) = sc_core k) -> kframe a (upd_scope a y g))
    by (intros; now apply kframe_upd_scope).
  intros [x' _ sA| |p _ _ _ _].
  - assert (KA : kframe s5 sA) by (eapply kframe_trans; [apply kframe_iter_uncancel|now apply Ku]).
    destruct x'; try exact KA; (eapply kframe_trans; [exact KA|now apply Ku]).
  - apply kframe_refl.
  - eapply kframe_trans; now apply Ku.
Qed.

Lemma scope_exit_spec s c t exc : exit_ok s c t ->
  exists s6, kframe (restart (exit_struct s c t) (s_parent (scopes s c))) s6 /\
             fst (scope_exit s c t exc) = upd_scope s6 c (sc_host None).
Proof.
  intros Hok. destruct (scope_exit_shape s c t exc Hok) as [s6 [x [X E]]].
  exists s6. split; [exact (kframe_xsettle _ _ _ _ _ _ X)|now rewrite E].
Qed.

Definition enter_struct (s : st) (c : sid) (t : tid) : st :=
  let par := k_cur (tasks s t) in
  let s1 := upd_scope s c (fun x => sc_parent par (sc_tasks (add t (s_tasks x)) (sc_host (Some t) x))) in
  let s2 := upd_task s1 t (tk_cur (Some c)) in
  let s3 := match par with
            | Some p => upd_scope s2 p (fun x => sc_tasks (del t (s_tasks x)) (sc_children (add c (s_children x)) x))
            | None => s2
            end in
  upd_scope s3 c (sc_active true).

Lemma scope_enter_fail s c t : s_active (scopes s c) = true -> scope_enter s c t = (s, Some ERuntime).
Proof. intros H. unfold scope_enter. now rewrite H. Qed.

Lemma treq_upd_scope_congr a b c g :
  (forall x y, sc_tree x = sc_tree y -> sc_tree (g x) = sc_tree (g y)) ->
  treq a b -> treq (upd_scope a c g) (upd_scope b c g).
Proof.
  intros Hg H. constructor; try apply H. intros x. cbn. unfold upd.
  destruct (Nat.eqb_spec x c); [apply Hg|]; apply H.
Qed.

Lemma scope_enter_spec s c t : s_active (scopes s c) = false ->
  snd (scope_enter s c t) = None /\ treq (enter_struct s c t) (fst (scope_enter s c t)).
Proof.
  intros Ha. unfold scope_enter. rewrite Ha.
  set (s3 := match k_cur (tasks s t) with Some p => _ | None => _ end).
  split.
  { destruct (s_cancelled _); reflexivity. }
  assert (K5 : treq (upd_scope s3 c (sc_active true)) (upd_scope (scope_timeout s3 c) c (sc_active true))).
  { apply treq_upd_scope_congr; [|apply treq_scope_timeout].
    intros x y H. unfold sc_tree in *. cbn. now inversion H. }
  unfold enter_struct. fold s3.
  destruct (s_cancelled _); cbn [fst]; [|exact K5].
  eapply treq_trans; [exact K5|apply treq_deliver_top].
Qed.

Definition tcb (l : list tid) (s s' : st) : Prop :=
  forall t, ~ In t l -> tk_core (tasks s' t) = tk_core (tasks s t).

Lemma tcb_refl l s : tcb l s s.
Proof. intros t _. reflexivity. Qed.

Lemma tcb_trans l a b c : tcb l a b -> tcb l b c -> tcb l a c.
Proof. intros H1 H2 t Ht. now rewrite (H2 t Ht), (H1 t Ht). Qed.

Lemma tcb_weaken l l' a b : incl l l' -> tcb l a b -> tcb l' a b.
Proof. intros Hi H t Ht. apply H. intros Hin. apply Ht, Hi, Hin. Qed.

Lemma tcb_kframe l a b : kframe a b -> tcb l a b.
Proof. intros K t _. apply K. Qed.

Lemma tcb_same_tasks l a b : tasks b = tasks a -> tcb l a b.
Proof. intros E t _. now rewrite E. Qed.

Lemma tcb_upd_task s t g l : In t l -> tcb l s (upd_task s t g).
Proof.
  intros Hin t' Ht'. cbn. unfold upd. destruct (Nat.eqb_spec t' t); [subst; contradiction|reflexivity].
Qed.

Lemma quiet_tcb l t s s' : In t l -> quiet t s s' -> tcb l s s'.
Proof. intros Hin H x Hx. rewrite (qt_other _ _ _ H x); [reflexivity|]. intros ->. contradiction. Qed.

(* a step that is quiet whoever is taken as the actor changes no task record *)
Lemma tcb_quiet_any l s s' : (forall t, quiet t s s') -> tcb l s s'.
Proof. intros H x _. now rewrite (qt_other _ _ _ (H (S x)) x (Nat.neq_succ_diag_r x)). Qed.

Lemma tcb_cancel_timeout l s c : tcb l s (cancel_timeout s c).
Proof. apply tcb_same_tasks, cancel_timeout_tasks. Qed.

Lemma tcb_scope_cancel l s c b : tcb l s (scope_cancel s c b).
Proof.
  apply (scope_cancel_closed (tcb l) c (tcb_refl l) (tcb_trans l)); [intros a; apply tcb_cancel_timeout| |].
  - intros a. apply tcb_same_tasks. reflexivity.
  - intros a _ _. apply tcb_kframe, kframe_deliver_top.
Qed.

Lemma tcb_scope_timeout l s c : tcb l s (scope_timeout s c).
Proof.
  apply (scope_timeout_closed (tcb l) c (tcb_refl l)); [intros a; apply tcb_scope_cancel|].
  intros a d _ _. apply tcb_same_tasks. reflexivity.
Qed.

Lemma tcb_finish_task l s t o : In t l -> tcb l s (finish_task s t o).
Proof.
  intros Hin. unfold finish_task. eapply tcb_trans; [|apply tcb_same_tasks; reflexivity].
  set (s1 := upd_task s t _). assert (K : tcb l s s1) by now apply tcb_upd_task.
  destruct (k_group (tasks s t)); [|exact K]. eapply tcb_trans; [exact K|apply tcb_same_tasks; reflexivity].
Qed.

Lemma tcb_exit_struct l s c t : In t l -> tcb l s (exit_struct s c t).
Proof.
  intros Hin x Hx. change (exit_struct s c t) with (exit_links s c t). rewrite exit_links_tasks.
  destruct (Nat.eqb_spec x t); [now subst|reflexivity].
Qed.

Lemma tcb_scope_exit l s c t exc : In t l -> tcb l s (fst (scope_exit s c t exc)).
Proof.
  intros Hin. destruct (exit_ok_dec s c t) as [Hok|Hno].
  - destruct (scope_exit_spec s c t exc Hok) as [s6 [K E]]. rewrite E.
    apply (tcb_trans l s s6); [|apply tcb_same_tasks; reflexivity].
    apply (tcb_trans l s (exit_struct s c t)); [now apply tcb_exit_struct|].
    eapply tcb_trans; [apply tcb_kframe, kframe_restart|]. apply tcb_kframe, K.
  - rewrite (scope_exit_fail s c t exc Hno). apply tcb_refl.
Qed.

Lemma tcb_scope_enter l s c t : In t l -> tcb l s (fst (scope_enter s c t)).
Proof.
  intros Hin. unfold scope_enter. destruct (s_active (scopes s c)); [apply tcb_refl|].
  set (s3 := match k_cur (tasks s t) with Some p => _ | None => _ end).
  assert (K3 : tcb l s s3).
  { unfold s3. intros t' Ht'.
    destruct (k_cur (tasks s t)); cbn; unfold upd; destruct (Nat.eqb_spec t' t);
      try (subst; contradiction); reflexivity. }
  assert (K5 : tcb l s (upd_scope (scope_timeout s3 c) c (sc_active true))).
  { eapply tcb_trans; [exact K3|]. eapply tcb_trans; [apply tcb_scope_timeout|]. apply tcb_same_tasks. reflexivity. }
  destruct (s_cancelled _); cbn [fst]; [|exact K5].
  eapply tcb_trans; [exact K5|]. apply tcb_kframe, kframe_deliver_top.
Qed.

Definition rq_td (s s' : st) : Prop :=
  forall t, In (HTaskDone t) (ready s') -> In (HTaskDone t) (ready s).

Lemma rq_td_refl s : rq_td s s.
Proof. intros t H. exact H. Qed.

Lemma rq_td_trans a b c : rq_td a b -> rq_td b c -> rq_td a c.
Proof. intros H1 H2 t H. apply H1, H2, H. Qed.

Lemma rq_td_same a b : ready b = ready a -> rq_td a b.
Proof. intros E t H. now rewrite <- E. Qed.

Lemma rq_td_grow (P : handle -> Prop) a b :
  (exists l, ready b = ready a ++ l /\ Forall P l) -> (forall t, ~ P (HTaskDone t)) -> rq_td a b.
Proof.
  intros [l [E F]] HP t H. rewrite E in H. apply in_app_or in H. destruct H as [H|H]; [exact H|].
  rewrite Forall_forall in F. now apply F, HP in H.
Qed.

Lemma rq_td_kframe a b : kframe a b -> rq_td a b.
Proof. intros K. apply (rq_td_grow wake_or_deliver); [apply K|intros t []]. Qed.

Lemma quiet_rq_td t a b : quiet t a b -> rq_td a b.
Proof. intros H. apply (rq_td_grow wake_or_step); [apply H|intros x []]. Qed.

Lemma rq_td_timer_cancel s tm : rq_td s (timer_cancel s tm).
Proof. intros t H. cbn in H. apply filter_In in H. apply H. Qed.

Lemma rq_td_cancel_timeout s c : rq_td s (cancel_timeout s c).
Proof.
  unfold cancel_timeout. destruct (s_timeout (scopes s c)); [|apply rq_td_refl].
  eapply rq_td_trans; [apply rq_td_timer_cancel|]. apply rq_td_same. reflexivity.
Qed.

Lemma rq_td_scope_cancel s c b : rq_td s (scope_cancel s c b).
Proof.
  apply (scope_cancel_closed rq_td c rq_td_refl rq_td_trans); [intros a; apply rq_td_cancel_timeout| |].
  - intros a. apply rq_td_same. reflexivity.
  - intros a _ _. apply rq_td_kframe, kframe_deliver_top.
Qed.

Lemma rq_td_scope_timeout s c : rq_td s (scope_timeout s c).
Proof.
  apply (scope_timeout_closed rq_td c rq_td_refl); [intros a; apply rq_td_scope_cancel|].
  intros a d _ _. apply rq_td_same. reflexivity.
Qed.

Lemma rq_td_scope_exit s c t exc : rq_td s (fst (scope_exit s c t exc)).
Proof.
  destruct (exit_ok_dec s c t) as [Hok|Hno].
  - destruct (scope_exit_spec s c t exc Hok) as [s6 [K E]]. rewrite E.
    apply (rq_td_trans s s6); [|apply rq_td_same; reflexivity].
    apply (rq_td_trans s (exit_struct s c t)).
    + unfold exit_struct. apply (rq_td_trans s (cancel_timeout (upd_scope s c (sc_active false)) c)).
      * eapply rq_td_trans; [|apply rq_td_cancel_timeout]. apply rq_td_same. reflexivity.
      * apply rq_td_same. destruct (s_parent (scopes s c)); reflexivity.
    + eapply rq_td_trans; [apply rq_td_kframe, kframe_restart|]. apply rq_td_kframe, K.
  - rewrite (scope_exit_fail s c t exc Hno). apply rq_td_refl.
Qed.

Lemma rq_td_scope_enter s c t : rq_td s (fst (scope_enter s c t)).
Proof.
  unfold scope_enter. destruct (s_active (scopes s c)); [apply rq_td_refl|].
  set (s3 := match k_cur (tasks s t) with Some p => _ | None => _ end).
  assert (K3 : rq_td s s3).
  { unfold s3. apply rq_td_same. destruct (k_cur (tasks s t)); reflexivity. }
  assert (K5 : rq_td s (upd_scope (scope_timeout s3 c) c (sc_active true))).
  { eapply rq_td_trans; [exact K3|]. eapply rq_td_trans; [apply rq_td_scope_timeout|]. apply rq_td_same. reflexivity. }
  destruct (s_cancelled _); cbn [fst]; [|exact K5].
  eapply rq_td_trans; [exact K5|]. apply rq_td_kframe, kframe_deliver_top.
Qed.

Lemma rq_td_tick s dt : rq_td s (tick s dt).
Proof.
  intros t H. unfold tick in H. cbn in H. apply in_app_or in H. destruct H as [H|H]; [exact H|].
  apply in_map_iff in H. destruct H as [x [E _]]. unfold handle_of_timer in E. destruct (tm_what x); discriminate.
Qed.

Lemma rq_td_remove_first s h : rq_td s (set_ready s (remove_first h (ready s))).
Proof. intros t H. cbn in H. eapply in_remove_first; eauto. Qed.

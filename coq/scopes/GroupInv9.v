(* step_inv, inv_init, reachable: the invariant holds in every reachable state of the S machine. *)
From AV Require Import Base Machine MachineFacts GroupInv GroupInv2 GroupInv3 GroupInv4 GroupInv5 GroupInv6 GroupInv7 GroupInv8.

Lemma park_running_irrel s r t : set_running (park (set_running s r) t) None = set_running (park s t) None.
Proof.
  unfold park, new_fut, suspend_on. cbn [futs set_running nfut tasks].
  destruct (f_st (upd (futs s) (nfut s) fut0 (nfut s))); try reflexivity.
  destruct (k_must (tasks s t)); [|reflexivity].
  unfold fut_complete. cbn [futs upd_task set_tasks upd_fut set_futs].
  match goal with |- context [f_st ?x] => destruct (f_st x) end; try reflexivity.
  match goal with |- context [f_waiter ?x] => destruct (f_waiter x) end; reflexivity.
Qed.

(* an inert task (no waiter, no handle) is marked as running *)
Lemma M_set_running_some s t : MInv s -> running s = None -> ~ In t (thtasks (ready s)) ->
  k_waiter (tasks s t) = None -> k_done (tasks s t) = None -> alloc s t -> MInv (set_running s (Some t)).
Proof.
  intros M Hr Hnt Hw Hd Hal.
  assert (M1 : MInv (set_running (upd_task s t (fun k => k)) (Some t))).
  { apply M_start_running; auto; [repeat split; exact Hw|]. intros f Hf. congruence. }
  revert M1. apply M_seq. constructor; try reflexivity.
  intros x. tcase x t; [now subst|reflexivity].
Qed.

Lemma new_root_inv s : Inv s -> Inv (fst (new_root s)).
Proof.
  intros [M Hr]. unfold new_root. cbn [fst].
  change (Inv (set_running (park (talloc s root_rec false) (ntask s)) None)).
  set (t := ntask s). set (s1 := talloc s root_rec false).
  assert (M1 : MInv s1).
  { apply M_talloc; auto. unfold newtask_ok, root_rec. cbn.
    pose proof (c_n s (m_c s M)) as Hn.
    refine (conj eq_refl (conj eq_refl (conj eq_refl (conj eq_refl (conj eq_refl (conj eq_refl (conj _ (conj eq_refl (conj _ (conj _ (conj I (conj _ (conj I (conj eq_refl eq_refl)))))))))))))); try discriminate. lia. }
  rewrite <- (park_running_irrel s1 (Some t) t).
  assert (Tt : tasks s1 t = root_rec) by (unfold s1, talloc, t; cbn [tasks]; apply upd_same).
  apply Inv_park. refine (conj _ (conj eq_refl _)).
  - apply M_set_running_some; auto.
    + intros Hin. apply (thtasks_alloc s t (m_k s M)) in Hin. unfold alloc, t in Hin. lia.
    + now rewrite Tt.
    + now rewrite Tt.
    + unfold alloc, s1, talloc, t. cbn. pose proof (c_n s (m_c s M)). lia.
  - cbn [set_running tasks]. now rewrite Tt.
Qed.

Lemma run_handle_inv s0 h : Inv s0 -> Inv (fst (run_handle s0 h)).
Proof.
  intros [M0 Hr0]. pose proof (m_k s0 M0) as K0.
  apply (run_handle_cases (fun _ r => Inv (fst r)) s0); cbn [fst]; try (intros _; split; assumption);
    intros; match goal with H : In ?h (ready s0) |- _ =>
      destruct (M_pop s0 h M0 H) as [M [Hnt Hsub]]; change (dequeue s0 h) with (dequeue s0 h) end.
  - destruct (k_step s0 K0 t H) as [H1 [H2 [H3 H4]]].
    apply resume_inv. constructor; auto. apply Hnt. cbn. auto.
  - destruct (k_wake s0 K0 t f H) as [H1 H2]. destruct (k_w1 s0 K0 t f H1) as [H3 [H4 [H5 [H6 H7]]]].
    apply resume_inv. constructor; auto. apply Hnt. cbn. auto.
  - apply Inv_idle, (Inv_kstar _ _ (ks_deliver_top _ _ _ c)), Inv_idle, Inv_of_M; assumption.
  - destruct (k_td s0 K0 t H) as [H1 [H2 [H3 H4]]].
    apply run_task_done_inv; auto.
    intros Hin. destruct (remove_first_split (HTaskDone t) (ready s0) H) as [l1 [l2 [E1 E2]]].
    pose proof (k_tdnodup s0 K0) as Nd. rewrite E1, tdtasks_app, tdtasks_cons in Nd. cbn in Nd.
    apply NoDup_remove_2 in Nd. apply Nd. rewrite <- tdtasks_app. apply in_tdtasks.
    unfold dequeue in Hin. cbn [set_ready ready] in Hin. now rewrite E2 in Hin.
  - apply Inv_of_M; [|now rewrite fc_running].
    assert (Hrf : refd s0 f) by (right; right; right; left; eauto).
    apply M_fut_complete'; auto; [discriminate| |].
    + apply (k_ref s0 K0 f Hrf).
    + intros r e _ Hin. exfalso. apply (kk_et s0 (m_j s0 M0) f e Hin). left. eauto.
  - apply Inv_idle, (Inv_kstar _ _ (ks_scope_timeout _ _ _ c)), Inv_idle, Inv_of_M; assumption.
Qed.

Theorem step_inv s o : Inv s -> Inv (fst (step s o)).
Proof.
  intros I0. apply (step_cases (fun _ r => Inv (fst r)) s); cbn [fst]; auto.
  - intros o' t _ Hi. now apply puppet_op_inv.
  - intros t v. now apply puppet_finish_inv.
  - apply new_root_inv, I0.
  - intros t. exact (Inv_kstar _ _ (ks_one _ _ _ _ (kp_cancel _ _ s t 0)) I0).
  - intros c. apply Inv_idle, (Inv_kstar _ _ (ks_scope_cancel _ _ _ c false)), Inv_idle, I0.
  - intros h. apply run_handle_inv, I0.
  - intros dt _. destruct I0 as [M Hr]. apply Inv_of_M; [apply M_tick, M|exact Hr].
Qed.

Lemma refd_init f : ~ refd init f.
Proof.
  intros [[e H]|[[g H]|[[c H]|[[tm H]|[x [H _]]]]]]; cbn in H; try contradiction; discriminate.
Qed.

(* the initial state has no task, handle, future reference or group member: every clause holds vacuously *)
Lemma inv_init : Inv init.
Proof.
  split; [|reflexivity].
  constructor; constructor; unfold alloc; cbn; intros; try discriminate; try contradiction; try lia; try tauto;
    try apply NoDup_nil.
  - exfalso. eapply refd_init. eassumption.
  - split; discriminate.
Qed.

Theorem reachable s : reach s -> Inv s.
Proof. intros [ops ->]. apply final_inv; [intros; apply step_inv; assumption|apply inv_init]. Qed.

Lemma reach_M s : reach s -> MInv s.
Proof. intros R. apply (reachable s R). Qed.

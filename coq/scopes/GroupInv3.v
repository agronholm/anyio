(* The control/handle (CInv), group (GInv) and future-kind (JInv) invariants of the S machine, the frame
   [kframe] of the cancel-scope machinery, and preservation of the three invariants by that machinery.
   Later files transfer the invariants by two kinds of lemma: extensionality (C_ext, G_ext, J_ext: the states
   agree on what the invariant reads) and a change at one task (C_upd_one, J_upd_one: only that task's clauses are
   shown afresh). *)
From AV Require Import Base Machine GroupInv GroupInv2.

(* which future (if any) a suspended task in control state c awaits *)
Definition ctl_waiter (c : ctl) (w : option fid) : Prop :=
  match c with
  | CSleep f _ | CStartWait _ _ f | CStartJoin _ _ _ (Some f) | CHandleWait _ (Some f) => w = Some f
  | CIdle | CAexitWait _ _ _ => True
  | _ => w = None
  end.

(* the library-owned scope on top of the scope stack of a task suspended inside a library frame *)
Definition top_scope (c : ctl) : option sid :=
  match c with
  | CAexitCk _ x _ | CAexitWait _ x _ | CYield (YShield x) | CStartJoin _ x _ _ => Some x
  | _ => None
  end.

Definition outcome_ok (k : task) (o : outcome) : Prop :=
  match o with
  | ORet v => k_hret k = Some v /\ k_hexc k = None
  | OExc e => k_hexc k = Some e /\ k_hret k = None
  | OCanc _ => False
  end.

(* Control states: the waiter fits the control state (c_w); done = CDone on allocated tasks, unallocated records
   are blank (c_done1, c_done2, c_unalloc); OCanc holds cancellations, OExc does not (c_oc); a task suspended inside
   a scope of its own frame owns it (c_top); a caller in start() knows its child (c_sw, c_sj); ids are below the
   counters (c_bev, c_bsc, c_n).  The handle of a group child (the h_ clauses): the finished event is set and the outcome
   recorded exactly when the coroutine ended; a task done without that was cancelled before its first step. *)
Record CInv (s : st) : Prop := {
  c_w : forall t, running s <> Some t -> ctl_waiter (k_ctl (tasks s t)) (k_waiter (tasks s t));
  c_done1 : forall t, k_done (tasks s t) <> None -> k_ctl (tasks s t) = CDone;
  c_done2 : forall t, alloc s t -> k_ctl (tasks s t) = CDone -> k_done (tasks s t) <> None;
  c_unalloc : forall t, ~ alloc s t ->
      k_ctl (tasks s t) = CDone /\ k_done (tasks s t) = None /\
      k_group (tasks s t) = None /\ k_tdran (tasks s t) = false /\ k_final (tasks s t) = None /\
      k_startfut (tasks s t) = None /\ k_hevent (tasks s t) = 0 /\ k_hscope (tasks s t) = 0 /\
      k_hexc (tasks s t) = None /\ k_hret (tasks s t) = None;
  c_td : forall t, k_tdran (tasks s t) = true -> k_done (tasks s t) <> None;
  c_oc : forall t e, (k_done (tasks s t) = Some (OCanc e) -> is_cancel e = true) /\
                     (k_done (tasks s t) = Some (OExc e) -> is_cancel e = false);
  c_top : forall t c, running s <> Some t -> top_scope (k_ctl (tasks s t)) = Some c ->
      s_active (scopes s c) = true /\ s_host (scopes s c) = Some t /\ k_cur (tasks s t) = Some c /\
      c < nscope s;
  c_sw : forall t g ch f, running s <> Some t -> k_ctl (tasks s t) = CStartWait g ch f ->
      alloc s ch /\ k_startfut (tasks s ch) = Some f /\ k_group (tasks s ch) = Some g /\ ch <> t;
  c_sj : forall t ch c e wf, running s <> Some t -> k_ctl (tasks s t) = CStartJoin ch c e wf ->
      alloc s ch /\ k_group (tasks s ch) <> None;
  c_bev : forall t, k_hevent (tasks s t) < nevent s;
  c_bsc : forall t, k_hscope (tasks s t) < nscope s;
  c_n : 1 <= nscope s /\ 1 <= nevent s /\ 1 <= ntask s;
  h_fin : forall t o, k_group (tasks s t) <> None -> k_final (tasks s t) = Some o ->
      e_set (events s (k_hevent (tasks s t))) = true /\ outcome_ok (tasks s t) o;
  h_nofin : forall t, k_final (tasks s t) = None ->
      k_hexc (tasks s t) = None /\ k_hret (tasks s t) = None;
  h_done : forall t, k_done (tasks s t) <> None -> k_final (tasks s t) = None ->
      exists e, k_done (tasks s t) = Some (OCanc e);
  h_fd : forall t, running s <> Some t -> k_final (tasks s t) <> None -> k_done (tasks s t) <> None
}.

Definition nzb (x : nat) : bool := negb (Nat.eqb x 0).

(* Groups: g_tasks are the members whose task_done has not run (g_mem, g_grp); an entry of g_excs with a task tag
   is that member's error, recorded once, and the body's entry (tag 0) is not a cancellation (x_tags, x_nd, x_zero);
   a failed member's error is in g_excs or in its start future (x_conv); ids are below the counters (b_gscope, b_sf). *)
Record GInv (s : st) : Prop := {
  g_mem : forall g t, In t (g_tasks (groups s g)) <->
                      In t (g_ever (groups s g)) /\ k_tdran (tasks s t) = false;
  g_grp : forall g t, In t (g_ever (groups s g)) -> k_group (tasks s t) = Some g /\ alloc s t;
  x_tags : forall g t e, In (t, e) (g_excs (groups s g)) -> t <> 0 ->
      k_group (tasks s t) = Some g /\ k_tdran (tasks s t) = true /\ k_done (tasks s t) = Some (OExc e);
  x_zero : forall g e, In (0, e) (g_excs (groups s g)) -> is_cancel e = false;
  x_nd : forall g, NoDup (filter nzb (map fst (g_excs (groups s g))));
  x_conv : forall g t e, In t (g_ever (groups s g)) -> k_tdran (tasks s t) = true ->
      k_done (tasks s t) = Some (OExc e) ->
      In (t, e) (g_excs (groups s g)) \/
      exists f, k_startfut (tasks s t) = Some f /\ f_st (futs s f) = FExc e;
  b_gscope : forall g, g_scope (groups s g) < nscope s;
  b_sf : forall t f, k_startfut (tasks s t) = Some f -> f < nfut s
}.

(* Futures have exactly one kind (the kk_ clauses): event waiter, start future, group future or sleep future, of one event,
   one child.  An event waiter holds a value only if the event is set (j_ev); a caller joining its child waits on
   the child's finished event (j_join); that event is set only after the coroutine ended, belongs to one child
   and is not event 0 (e_hev, e_inj, e_pos). *)
Record JInv (s : st) : Prop := {
  kk_es : forall f e c, In f (e_waiters (events s e)) -> k_startfut (tasks s c) <> Some f;
  kk_eg : forall f e g, In f (e_waiters (events s e)) -> g_fut (groups s g) <> Some f;
  kk_et : forall f e, In f (e_waiters (events s e)) -> ~ sleepref s f;
  kk_sg : forall f c g, k_startfut (tasks s c) = Some f -> g_fut (groups s g) <> Some f;
  kk_st : forall f c, k_startfut (tasks s c) = Some f -> ~ sleepref s f;
  kk_ee : forall f e e', In f (e_waiters (events s e)) -> In f (e_waiters (events s e')) -> e = e';
  kk_ss : forall f c c', k_startfut (tasks s c) = Some f -> k_startfut (tasks s c') = Some f -> c = c';
  j_ev : forall f e v, In f (e_waiters (events s e)) -> f_st (futs s f) = FRes v ->
      e_set (events s e) = true;
  j_join : forall t ch c e f, running s <> Some t -> k_ctl (tasks s t) = CStartJoin ch c e (Some f) ->
      In f (e_waiters (events s (k_hevent (tasks s ch))));
  e_hev : forall t, k_group (tasks s t) <> None -> e_set (events s (k_hevent (tasks s t))) = true ->
      k_final (tasks s t) <> None;
  e_inj : forall t t', k_group (tasks s t) <> None -> k_group (tasks s t') <> None ->
      k_hevent (tasks s t) = k_hevent (tasks s t') -> t = t';
  e_pos : forall t, k_group (tasks s t) <> None -> 0 < k_hevent (tasks s t)
}.

Record MInv (s : st) : Prop := {
  m_k : KInv s; m_c : CInv s; m_g : GInv s; m_j : JInv s
}.

Record Inv (s : st) : Prop := { i_m : MInv s; i_run : running s = None }.

Definition cview (k : task) :=
  (k_ctl k, k_done k, k_group k, k_hscope k, k_hevent k,
   (k_hexc k, k_hret k, k_startfut k, k_final k, k_tdran k)).
Definition tview (k : task) := (k_waiter k, cview k).

Lemma cview_inv k k' : cview k' = cview k ->
  k_ctl k' = k_ctl k /\ k_done k' = k_done k /\ k_group k' = k_group k /\
  k_hscope k' = k_hscope k /\ k_hevent k' = k_hevent k /\ k_hexc k' = k_hexc k /\ k_hret k' = k_hret k /\
  k_startfut k' = k_startfut k /\ k_final k' = k_final k /\ k_tdran k' = k_tdran k.
Proof. unfold cview. intros H. injection H. tauto. Qed.

Lemma tview_inv k k' : tview k' = tview k ->
  k_ctl k' = k_ctl k /\ k_done k' = k_done k /\ k_waiter k' = k_waiter k /\ k_group k' = k_group k /\
  k_hscope k' = k_hscope k /\ k_hevent k' = k_hevent k /\ k_hexc k' = k_hexc k /\ k_hret k' = k_hret k /\
  k_startfut k' = k_startfut k /\ k_final k' = k_final k /\ k_tdran k' = k_tdran k.
Proof. unfold tview, cview. intros H. injection H. tauto. Qed.

Lemma tview_cview k k' : tview k' = tview k -> cview k' = cview k.
Proof. unfold tview. intros H. apply (f_equal snd) in H. exact H. Qed.

(* fr_fut, fr_fut2, fr_fut3: the machinery only cancels pending futures that some task awaits (fr_fut3 is what
   unwaited_kframe needs) *)
Record kframe (C : sid -> Prop) (T : tid -> Prop) (s s' : st) : Prop := {
  fr_ntask : ntask s' = ntask s; fr_nscope : nscope s' = nscope s; fr_ngroup : ngroup s' = ngroup s;
  fr_nfut : nfut s' = nfut s; fr_nevent : nevent s' = nevent s;
  fr_groups : groups s' = groups s; fr_events : events s' = events s; fr_running : running s' = running s;
  fr_tv : forall t, tview (tasks s' t) = tview (tasks s t);
  fr_cur : forall t, ~ T t -> k_cur (tasks s' t) = k_cur (tasks s t);
  fr_sc : forall c, ~ C c -> s_active (scopes s' c) = s_active (scopes s c) /\
                            s_host (scopes s' c) = s_host (scopes s c) /\
                            s_parent (scopes s' c) = s_parent (scopes s c);
  fr_canc : forall c, s_cancelled (scopes s c) = true -> s_cancelled (scopes s' c) = true;
  fr_fut : forall f, f_st (futs s f) <> FPend -> futs s' f = futs s f;
  fr_fut2 : forall f, futs s' f = futs s f \/
                      (f_st (futs s f) = FPend /\ exists o, f_st (futs s' f) = FCanc o);
  fr_sleep : forall f, sleepref s' f -> sleepref s f;
  fr_step : forall x, In (HStep x) (ready s') -> In (HStep x) (ready s);
  fr_fut3 : forall f, futs s' f <> futs s f -> exists x, k_waiter (tasks s x) = Some f
}.

Lemma kframe_refl C T s : kframe C T s s.
Proof. constructor; auto. intros f H. exfalso. apply H. reflexivity. Qed.

Lemma kframe_trans C T s1 s2 s3 : kframe C T s1 s2 -> kframe C T s2 s3 -> kframe C T s1 s3.
Proof.
  intros A B. constructor.
  - now rewrite (fr_ntask _ _ _ _ B), (fr_ntask _ _ _ _ A).
  - now rewrite (fr_nscope _ _ _ _ B), (fr_nscope _ _ _ _ A).
  - now rewrite (fr_ngroup _ _ _ _ B), (fr_ngroup _ _ _ _ A).
  - now rewrite (fr_nfut _ _ _ _ B), (fr_nfut _ _ _ _ A).
  - now rewrite (fr_nevent _ _ _ _ B), (fr_nevent _ _ _ _ A).
  - now rewrite (fr_groups _ _ _ _ B), (fr_groups _ _ _ _ A).
  - now rewrite (fr_events _ _ _ _ B), (fr_events _ _ _ _ A).
  - now rewrite (fr_running _ _ _ _ B), (fr_running _ _ _ _ A).
  - intros t. now rewrite (fr_tv _ _ _ _ B), (fr_tv _ _ _ _ A).
  - intros t Ht. now rewrite (fr_cur _ _ _ _ B t Ht), (fr_cur _ _ _ _ A t Ht).
  - intros c Hc. destruct (fr_sc _ _ _ _ B c Hc) as [-> [-> ->]]. apply (fr_sc _ _ _ _ A c Hc).
  - intros c Hc. apply (fr_canc _ _ _ _ B), (fr_canc _ _ _ _ A), Hc.
  - intros f Hf. rewrite (fr_fut _ _ _ _ B); [apply (fr_fut _ _ _ _ A), Hf|].
    now rewrite (fr_fut _ _ _ _ A f Hf).
  - intros f. destruct (fr_fut2 _ _ _ _ A f) as [E|[Hp [o Ho]]].
    + destruct (fr_fut2 _ _ _ _ B f) as [E2|[Hp2 [o2 Ho2]]].
      * left. congruence.
      * right. rewrite <- E. eauto.
    + right. split; [exact Hp|]. exists o. rewrite (fr_fut _ _ _ _ B f); [exact Ho|]. rewrite Ho. discriminate.
  - intros f Hf. apply (fr_sleep _ _ _ _ A), (fr_sleep _ _ _ _ B), Hf.
  - intros x Hx. apply (fr_step _ _ _ _ A), (fr_step _ _ _ _ B), Hx.
  - intros f Hf. destruct (fr_fut2 _ _ _ _ A f) as [E|[Hp [o Ho]]].
    + rewrite <- E in Hf. destruct (fr_fut3 _ _ _ _ B f Hf) as [x Hx]. exists x.
      pose proof (tview_inv _ _ (fr_tv _ _ _ _ A x)) as V. destruct V as [_ [_ [V _]]]. now rewrite <- V.
    + apply (fr_fut3 _ _ _ _ A f). intros E. rewrite E, Hp in Ho. discriminate.
Qed.

Lemma upd_task_tview s t g :
  (forall k, tview (g k) = tview k) -> forall x, tview (tasks (upd_task s t g) x) = tview (tasks s x).
Proof.
  intros Hg x. cbn [upd_task set_tasks tasks]. unfold upd.
  destruct (Nat.eqb_spec x t); [subst; apply Hg|reflexivity].
Qed.

Lemma irrel_tview g : tk_irrel g -> forall k, tview (g k) = tview k.
Proof.
  intros H k. destruct (H k) as [H1 [H2 [H3 [H4 [H5 [H6 [H7 [H8 [H9 [H10 [H11 H12]]]]]]]]]]].
  unfold tview, cview. congruence.
Qed.

Lemma irrel_cur g : tk_irrel g -> forall k, k_cur (g k) = k_cur k.
Proof. intros H k. destruct (H k) as [_ [_ [_ [H4 _]]]]. exact H4. Qed.

Lemma kframe_upd_task_irrel C T s t g : tk_irrel g -> kframe C T s (upd_task s t g).
Proof.
  intros Hg. constructor; try reflexivity; auto; try (intros f H; exfalso; apply H; reflexivity).
  - apply upd_task_tview, irrel_tview, Hg.
  - intros x _. cbn [upd_task set_tasks tasks]. unfold upd.
    destruct (Nat.eqb_spec x t); [subst; apply irrel_cur, Hg|reflexivity].
Qed.

Lemma kframe_fut_cancel C T s f o :
  (f_st (futs s f) = FPend -> exists x, k_waiter (tasks s x) = Some f) ->
  kframe C T s (fut_complete s f (FCanc o)).
Proof.
  intros Hwt. destruct (fc_spec s f (FCanc o)) as [[_ ->]|[Hp [Ef Er]]]; [apply kframe_refl|].
  constructor; rewrite ?fc_ntask, ?fc_nscope, ?fc_ngroup, ?fc_nfut, ?fc_nevent, ?fc_groups, ?fc_events,
    ?fc_running, ?fc_tasks, ?fc_scopes; auto.
  - intros x Hx. rewrite Ef. apply upd_other. congruence.
  - intros x. rewrite Ef. unfold upd. destruct (Nat.eqb_spec x f); [subst; right; cbn; eauto|auto].
  - intros x [[tm H]|[y [H1 H2]]].
    + left. exists tm. rewrite Er, in_app_iff in H. destruct H as [H|H]; [exact H|].
      destruct (f_waiter (futs s f)); cbn in H; [destruct H as [H|[]]; discriminate|contradiction].
    + right. exists y. rewrite fc_timers in H1. auto.
  - intros x. rewrite Er, in_app_iff. intros [H|H]; [exact H|].
    destruct (f_waiter (futs s f)); cbn in H; [destruct H as [H|[]]; discriminate|contradiction].
  - intros x. rewrite Ef. unfold upd. destruct (Nat.eqb_spec x f) as [->|Hx]; [|intros H; exfalso; apply H; reflexivity].
    intros _. exact (Hwt Hp).
Qed.

Lemma kframe_task_cancel C T s t o : kframe C T s (task_cancel s t o).
Proof.
  unfold task_cancel. destruct (k_done (tasks s t)); [apply kframe_refl|].
  set (s1 := upd_task s t _).
  assert (F1 : kframe C T s s1) by (apply kframe_upd_task_irrel, irrel_ncancel).
  destruct (k_waiter (tasks s t)) as [f|] eqn:Ew.
  - destruct (fut_pending s1 f).
    + eapply kframe_trans; [exact F1|apply kframe_fut_cancel]. intros _. exists t.
      unfold s1. cbn [upd_task set_tasks tasks]. rewrite upd_same. cbn. exact Ew.
    + eapply kframe_trans; [exact F1|apply kframe_upd_task_irrel, irrel_must].
  - eapply kframe_trans; [exact F1|apply kframe_upd_task_irrel, irrel_must].
Qed.

Ltac fut_same := intros f0 Hf0; exfalso; apply Hf0; reflexivity.

Lemma kframe_kprim C T s s' : kprim C T s s' -> kframe C T s s'.
Proof.
  intros H. destruct H.
  - constructor; try reflexivity; auto.
    + intros c0 Hc0. cbn [upd_scope set_scopes scopes]. unfold upd.
      destruct (Nat.eqb_spec c0 c); [subst c0|auto].
      destruct H as [H|H]; [contradiction|]. destruct (H (scopes s c)) as [H1 [H2 [H3 _]]]. auto.
    + intros c0 Hc0. cbn [upd_scope set_scopes scopes]. unfold upd.
      destruct (Nat.eqb_spec c0 c); [subst c0; auto|auto].
    + fut_same.
  - apply kframe_task_cancel.
  - apply kframe_upd_task_irrel. assumption.
  - constructor; try reflexivity; auto.
    + intros f [[tm H]|H]; [|right; exact H]. left. exists tm.
      cbn [call_soon set_ready ready] in H. rewrite in_app_iff in H. destruct H as [H|[H|[]]]; [exact H|discriminate].
    + intros x0. cbn [call_soon set_ready ready]. rewrite in_app_iff. intros [H|[H|[]]]; [exact H|discriminate].
    + fut_same.
  - constructor; try reflexivity; auto.
    + intros f [[tm' H]|[y [H1 H2]]]; cbn [timer_cancel set_ready set_timers ready timers] in *.
      * left. exists tm'. apply filter_In in H. tauto.
      * right. exists y. apply filter_In in H1. tauto.
    + intros x0. cbn [timer_cancel set_ready set_timers ready]. intros H. apply filter_In in H. tauto.
    + fut_same.
  - constructor; try reflexivity; auto.
    + intros f [[tm' H]|[y [H1 H2]]]; cbn [call_at fst ready timers] in *.
      * left. exists tm'. exact H.
      * right. exists y. rewrite in_app_iff in H1. destruct H1 as [H1|[<-|[]]]; [auto|]. cbn in H2. discriminate.
    + fut_same.
  - constructor; try reflexivity; auto.
    + apply upd_task_tview. intros k. reflexivity.
    + intros t0 Ht0. cbn [upd_task set_tasks tasks]. unfold upd.
      destruct (Nat.eqb_spec t0 t); [subst; contradiction|reflexivity].
    + fut_same.
Qed.

Lemma kframe_kstar C T s s' : kstar C T s s' -> kframe C T s s'.
Proof.
  induction 1; [apply kframe_refl|]. eapply kframe_trans; [eassumption|]. apply kframe_kprim. assumption.
Qed.

(* the clauses of CInv that speak of task t, with t's record k made explicit *)
Record CTask (s : st) (t : tid) (k : task) : Prop := {
  ct_w : running s <> Some t -> ctl_waiter (k_ctl k) (k_waiter k);
  ct_done1 : k_done k <> None -> k_ctl k = CDone;
  ct_done2 : alloc s t -> k_ctl k = CDone -> k_done k <> None;
  ct_unalloc : ~ alloc s t ->
      k_ctl k = CDone /\ k_done k = None /\ k_group k = None /\ k_tdran k = false /\ k_final k = None /\
      k_startfut k = None /\ k_hevent k = 0 /\ k_hscope k = 0 /\ k_hexc k = None /\ k_hret k = None;
  ct_td : k_tdran k = true -> k_done k <> None;
  ct_oc : forall e, (k_done k = Some (OCanc e) -> is_cancel e = true) /\
                    (k_done k = Some (OExc e) -> is_cancel e = false);
  ct_top : forall c, running s <> Some t -> top_scope (k_ctl k) = Some c ->
      s_active (scopes s c) = true /\ s_host (scopes s c) = Some t /\ k_cur k = Some c /\ c < nscope s;
  ct_sw : forall g ch f, running s <> Some t -> k_ctl k = CStartWait g ch f ->
      alloc s ch /\ k_startfut (tasks s ch) = Some f /\ k_group (tasks s ch) = Some g /\ ch <> t;
  ct_sj : forall ch c e wf, running s <> Some t -> k_ctl k = CStartJoin ch c e wf ->
      alloc s ch /\ k_group (tasks s ch) <> None;
  ct_bev : k_hevent k < nevent s;
  ct_bsc : k_hscope k < nscope s;
  ct_fin : forall o, k_group k <> None -> k_final k = Some o ->
      e_set (events s (k_hevent k)) = true /\ outcome_ok k o;
  ct_nofin : k_final k = None -> k_hexc k = None /\ k_hret k = None;
  ct_done : k_done k <> None -> k_final k = None -> exists e, k_done k = Some (OCanc e);
  ct_fd : running s <> Some t -> k_final k <> None -> k_done k <> None
}.

Lemma C_task s t : CInv s -> CTask s t (tasks s t).
Proof. intros I. constructor; apply I. Qed.

Lemma C_of_tasks s : (forall t, CTask s t (tasks s t)) -> 1 <= nscope s /\ 1 <= nevent s /\ 1 <= ntask s -> CInv s.
Proof.
  intros H Hn. constructor; try exact Hn; intros t;
    [apply (ct_w _ _ _ (H t))|apply (ct_done1 _ _ _ (H t))|apply (ct_done2 _ _ _ (H t))
    |apply (ct_unalloc _ _ _ (H t))|apply (ct_td _ _ _ (H t))|apply (ct_oc _ _ _ (H t))
    |apply (ct_top _ _ _ (H t))|apply (ct_sw _ _ _ (H t))|apply (ct_sj _ _ _ (H t))
    |apply (ct_bev _ _ _ (H t))|apply (ct_bsc _ _ _ (H t))|apply (ct_fin _ _ _ (H t))
    |apply (ct_nofin _ _ _ (H t))|apply (ct_done _ _ _ (H t))|apply (ct_fd _ _ _ (H t))].
Qed.

(* CTask reads the record through cview, waiter and cur, and the rest of the state through running, the
   library-owned scope on top, the start future and group of the other tasks, the set events and the counters *)
Lemma CTask_ext s s' t k k' :
  cview k' = cview k ->
  (running s' <> Some t -> running s <> Some t /\ k_waiter k' = k_waiter k) ->
  (forall c, running s <> Some t -> top_scope (k_ctl k) = Some c ->
     k_cur k' = k_cur k /\ s_active (scopes s' c) = s_active (scopes s c) /\
     s_host (scopes s' c) = s_host (scopes s c)) ->
  (forall ch, alloc s ch -> alloc s' ch /\ k_startfut (tasks s' ch) = k_startfut (tasks s ch) /\
                            k_group (tasks s' ch) = k_group (tasks s ch)) ->
  (alloc s' t -> alloc s t) ->
  (forall e, e < nevent s -> e_set (events s e) = true -> e_set (events s' e) = true) ->
  nscope s <= nscope s' -> nevent s <= nevent s' ->
  CTask s t k -> CTask s' t k'.
Proof.
  intros Hv Hrun Htop Hch Hal Hev Hns Hne I.
  destruct (cview_inv _ _ Hv) as [Ec [Ed [Eg [Ehs [Ehe [Ex [Er [Esf [Ef Etd]]]]]]]]].
  constructor; rewrite ?Ec, ?Ed, ?Eg, ?Ehs, ?Ehe, ?Ex, ?Er, ?Esf, ?Ef, ?Etd.
  - intros Hr. destruct (Hrun Hr) as [Hr0 ->]. apply (ct_w s t k I Hr0).
  - apply (ct_done1 s t k I).
  - intros H. apply (ct_done2 s t k I), Hal, H.
  - intros H. apply (ct_unalloc s t k I). intros H0. apply H, Hch, H0.
  - apply (ct_td s t k I).
  - apply (ct_oc s t k I).
  - intros c Hr Ht. apply Hrun in Hr. destruct Hr as [Hr _]. destruct (Htop c Hr Ht) as [-> [-> ->]].
    destruct (ct_top s t k I c Hr Ht) as [H1 [H2 [H3 H4]]]. repeat split; auto. lia.
  - intros g ch f Hr Ht. apply Hrun in Hr. destruct (ct_sw s t k I g ch f (proj1 Hr) Ht) as [H1 [H2 [H3 H4]]].
    destruct (Hch ch H1) as [H5 [-> ->]]. auto.
  - intros ch c e wf Hr Ht. apply Hrun in Hr. destruct (ct_sj s t k I ch c e wf (proj1 Hr) Ht) as [H1 H2].
    destruct (Hch ch H1) as [H5 [_ ->]]. auto.
  - pose proof (ct_bev s t k I). lia.
  - pose proof (ct_bsc s t k I). lia.
  - intros o Hg Hf. destruct (ct_fin s t k I o Hg Hf) as [H1 H2]. split; [apply Hev; [apply (ct_bev s t k I)|exact H1]|].
    destruct o; cbn in *; rewrite ?Ex, ?Er; exact H2.
  - apply (ct_nofin s t k I).
  - apply (ct_done s t k I).
  - intros Hr. apply Hrun in Hr. apply (ct_fd s t k I (proj1 Hr)).
Qed.

(* only task t's record differs between s and s': its clauses are shown afresh, the others carry over *)
Lemma C_upd_one s s' t :
  CInv s ->
  (forall x, x <> t -> tasks s' x = tasks s x) ->
  (forall x, x <> t -> running s' <> Some x -> running s <> Some x) ->
  (alloc s t -> k_startfut (tasks s' t) = k_startfut (tasks s t) /\ k_group (tasks s' t) = k_group (tasks s t)) ->
  scopes s' = scopes s ->
  (forall e, e < nevent s -> e_set (events s e) = true -> e_set (events s' e) = true) ->
  ntask s <= ntask s' -> (forall x, x <> t -> x < ntask s' -> x < ntask s) ->
  nscope s <= nscope s' -> nevent s <= nevent s' ->
  CTask s' t (tasks s' t) ->
  CInv s'.
Proof.
  intros I Vo Hrun Ht Hsc Hev Hnt Hnt' Hns Hne It.
  apply C_of_tasks; [|pose proof (c_n s I); lia].
  intros x. destruct (Nat.eq_dec x t) as [->|Hx]; [exact It|]. rewrite (Vo x Hx).
  apply (CTask_ext s s' x (tasks s x) (tasks s x)); auto using C_task.
  - intros c _ _. now rewrite Hsc.
  - intros ch [H0 H1]. split; [split; [exact H0|lia]|].
    destruct (Nat.eq_dec ch t) as [->|Hc]; [exact (Ht (conj H0 H1))|now rewrite (Vo ch Hc)].
  - intros [H0 H1]. split; [exact H0|auto].
Qed.

Lemma C_ext2 s s' :
  (forall t, cview (tasks s' t) = cview (tasks s t)) ->
  (forall t, running s' <> Some t -> k_waiter (tasks s' t) = k_waiter (tasks s t)) ->
  (forall t, running s' <> Some t -> running s <> Some t) ->
  (forall t c, running s <> Some t -> top_scope (k_ctl (tasks s t)) = Some c ->
     k_cur (tasks s' t) = k_cur (tasks s t) /\ s_active (scopes s' c) = s_active (scopes s c) /\
     s_host (scopes s' c) = s_host (scopes s c)) ->
  (forall e, e_set (events s e) = true -> e_set (events s' e) = true) ->
  ntask s' = ntask s -> nscope s <= nscope s' -> nevent s <= nevent s' ->
  CInv s -> CInv s'.
Proof.
  intros Hv Hw Hrun Hcur Hev Hnt Hns Hne I.
  apply C_of_tasks; [|pose proof (c_n s I); lia].
  intros t. apply (CTask_ext s s' t (tasks s t)); auto using C_task.
  - unfold alloc. rewrite Hnt. intros ch H. split; [exact H|].
    pose proof (cview_inv _ _ (Hv ch)). tauto.
  - unfold alloc. now rewrite Hnt.
Qed.

Lemma C_ext s s' :
  (forall t, tview (tasks s' t) = tview (tasks s t)) ->
  (forall t c, running s <> Some t -> top_scope (k_ctl (tasks s t)) = Some c ->
     k_cur (tasks s' t) = k_cur (tasks s t) /\ s_active (scopes s' c) = s_active (scopes s c) /\
     s_host (scopes s' c) = s_host (scopes s c)) ->
  (forall e, e_set (events s e) = true -> e_set (events s' e) = true) ->
  running s' = running s -> ntask s' = ntask s -> nscope s <= nscope s' -> nevent s <= nevent s' ->
  CInv s -> CInv s'.
Proof.
  intros Hv Hcur Hev Hrun Hnt Hns Hne. apply C_ext2; auto.
  - intros t. apply tview_cview, Hv.
  - intros t _. pose proof (tview_inv _ _ (Hv t)). tauto.
  - intros t. now rewrite Hrun.
Qed.

(* GInv with the converse clause x_conv asked only of the tasks in P; GInv is the case of all tasks *)
Record GInvP (P : tid -> Prop) (s : st) : Prop := {
  gp_mem : forall g t, In t (g_tasks (groups s g)) <->
                       In t (g_ever (groups s g)) /\ k_tdran (tasks s t) = false;
  gp_grp : forall g t, In t (g_ever (groups s g)) -> k_group (tasks s t) = Some g /\ alloc s t;
  gp_tags : forall g t e, In (t, e) (g_excs (groups s g)) -> t <> 0 ->
      k_group (tasks s t) = Some g /\ k_tdran (tasks s t) = true /\ k_done (tasks s t) = Some (OExc e);
  gp_zero : forall g e, In (0, e) (g_excs (groups s g)) -> is_cancel e = false;
  gp_nd : forall g, NoDup (filter nzb (map fst (g_excs (groups s g))));
  gp_conv : forall g t e, P t -> In t (g_ever (groups s g)) -> k_tdran (tasks s t) = true ->
      k_done (tasks s t) = Some (OExc e) ->
      In (t, e) (g_excs (groups s g)) \/
      exists f, k_startfut (tasks s t) = Some f /\ f_st (futs s f) = FExc e;
  gp_gscope : forall g, g_scope (groups s g) < nscope s;
  gp_sf : forall t f, k_startfut (tasks s t) = Some f -> f < nfut s
}.

Lemma G_P s : GInv s <-> GInvP (fun _ => True) s.
Proof.
  split; intros G; constructor; try apply G.
  - intros g t e _. apply (x_conv s G g t e).
  - intros g t e. apply (gp_conv _ s G g t e I).
Qed.

(* the outcome of a task is read only once its done callback has run *)
Lemma GP_ext P s s' :
  (forall t, k_group (tasks s' t) = k_group (tasks s t) /\ k_startfut (tasks s' t) = k_startfut (tasks s t) /\
             k_tdran (tasks s' t) = k_tdran (tasks s t) /\
             (k_tdran (tasks s t) = true -> k_done (tasks s' t) = k_done (tasks s t))) ->
  (forall g, g_tasks (groups s' g) = g_tasks (groups s g) /\ g_ever (groups s' g) = g_ever (groups s g) /\
             g_excs (groups s' g) = g_excs (groups s g) /\ g_scope (groups s' g) = g_scope (groups s g)) ->
  (forall f e, f < nfut s -> f_st (futs s f) = FExc e -> f_st (futs s' f) = FExc e) ->
  ntask s <= ntask s' -> nscope s <= nscope s' -> nfut s <= nfut s' -> GInvP P s -> GInvP P s'.
Proof.
  intros V Hg Hf Hnt Hns Hnf I.
  constructor; unfold alloc.
  - intros g t. destruct (Hg g) as [-> [-> _]]. destruct (V t) as [_ [_ [-> _]]]. apply (gp_mem P s I g t).
  - intros g t. destruct (Hg g) as [_ [-> _]]. intros Ht. destruct (V t) as [-> _].
    destruct (gp_grp P s I g t Ht) as [H1 [H2 H3]]. repeat split; auto. lia.
  - intros g t e. destruct (Hg g) as [_ [_ [-> _]]]. destruct (V t) as [-> [_ [-> Hd]]]. intros H1 H2.
    destruct (gp_tags P s I g t e H1 H2) as [H3 [H4 H5]]. rewrite (Hd H4). auto.
  - intros g e. destruct (Hg g) as [_ [_ [-> _]]]. apply (gp_zero P s I).
  - intros g. destruct (Hg g) as [_ [_ [-> _]]]. apply (gp_nd P s I).
  - intros g t e Pt. destruct (Hg g) as [_ [-> [-> _]]]. destruct (V t) as [_ [-> [-> Hd]]]. intros H1 H2.
    rewrite (Hd H2). intros H3.
    destruct (gp_conv P s I g t e Pt H1 H2 H3) as [H|[f [H4 H5]]]; [left; exact H|right].
    exists f. split; [exact H4|apply Hf; [eapply gp_sf; eauto|exact H5]].
  - intros g. destruct (Hg g) as [_ [_ [_ ->]]]. pose proof (gp_gscope P s I g). lia.
  - intros t f. destruct (V t) as [_ [-> _]]. intros H. pose proof (gp_sf P s I t f H). lia.
Qed.

Definition gview (k : task) := (k_done k, k_group k, k_startfut k, k_tdran k).

Lemma tview_gview k k' : tview k' = tview k -> gview k' = gview k.
Proof. intros H. pose proof (tview_inv _ _ H) as V. unfold gview. destruct V as [_ [-> [_ [-> [_ [_ [_ [_ [-> [_ ->]]]]]]]]]]. reflexivity. Qed.

Lemma gview_inv k k' : gview k' = gview k ->
  k_group k' = k_group k /\ k_startfut k' = k_startfut k /\ k_tdran k' = k_tdran k /\
  (k_tdran k = true -> k_done k' = k_done k).
Proof. unfold gview. intros H. injection H. intros -> -> -> ->. auto. Qed.

Lemma G_ext s s' :
  (forall t, gview (tasks s' t) = gview (tasks s t)) ->
  (forall g, g_tasks (groups s' g) = g_tasks (groups s g) /\ g_ever (groups s' g) = g_ever (groups s g) /\
             g_excs (groups s' g) = g_excs (groups s g) /\ g_scope (groups s' g) = g_scope (groups s g)) ->
  (forall f e, f < nfut s -> f_st (futs s f) = FExc e -> f_st (futs s' f) = FExc e) ->
  ntask s <= ntask s' -> nscope s <= nscope s' -> nfut s <= nfut s' -> GInv s -> GInv s'.
Proof.
  intros Hv Hg Hf Hnt Hns Hnf G. apply G_P. apply G_P in G. revert G. apply GP_ext; auto.
  intros t. apply gview_inv, Hv.
Qed.

(* all tasks agree on what JInv reads, except that t's control state may differ: its join clause is shown afresh *)
Lemma J_upd_one s s' t : JInv s ->
  (forall x, k_group (tasks s' x) = k_group (tasks s x) /\ k_hevent (tasks s' x) = k_hevent (tasks s x) /\
     k_startfut (tasks s' x) = k_startfut (tasks s x) /\
     (k_final (tasks s x) <> None -> k_final (tasks s' x) <> None)) ->
  (forall x, x <> t -> k_ctl (tasks s' x) = k_ctl (tasks s x)) ->
  (forall x, x <> t -> running s' <> Some x -> running s <> Some x) ->
  (forall ch c e f, running s' <> Some t -> k_ctl (tasks s' t) = CStartJoin ch c e (Some f) ->
     In f (e_waiters (events s (k_hevent (tasks s ch))))) ->
  events s' = events s -> (forall g, g_fut (groups s' g) = g_fut (groups s g)) ->
  (forall f, sleepref s' f -> sleepref s f) ->
  (forall f v, f_st (futs s' f) = FRes v -> f_st (futs s f) = FRes v) ->
  JInv s'.
Proof.
  intros I V Vc Hrun Ht Hev Hg Hsl Hf.
  constructor; rewrite ?Hev.
  - intros f e x. destruct (V x) as [_ [_ [-> _]]]. apply (kk_es s I f e x).
  - intros f e g. rewrite Hg. apply (kk_eg s I).
  - intros f e H Hs. apply Hsl in Hs. revert Hs. apply (kk_et s I f e H).
  - intros f x g. rewrite Hg. destruct (V x) as [_ [_ [-> _]]]. apply (kk_sg s I f x g).
  - intros f x. destruct (V x) as [_ [_ [-> _]]]. intros H Hs. apply Hsl in Hs. revert Hs. apply (kk_st s I f x H).
  - apply (kk_ee s I).
  - intros f x x'. destruct (V x) as [_ [_ [-> _]]]. destruct (V x') as [_ [_ [-> _]]]. apply (kk_ss s I f x x').
  - intros f e v H1 H2. apply Hf in H2. apply (j_ev s I f e v H1 H2).
  - intros x ch y e f Hr. destruct (V ch) as [_ [-> _]]. destruct (Nat.eq_dec x t) as [->|Hx].
    + apply Ht, Hr.
    + rewrite (Vc x Hx). apply (j_join s I x ch y e f), Hrun, Hr. exact Hx.
  - intros x. destruct (V x) as [-> [-> [_ Hm]]]. intros H1 H2. apply Hm. apply (e_hev s I x H1 H2).
  - intros x x'. destruct (V x) as [-> [-> _]]. destruct (V x') as [-> [-> _]]. apply (e_inj s I x x').
  - intros x. destruct (V x) as [-> [-> _]]. apply (e_pos s I x).
Qed.

Lemma J_ext s s' :
  (forall t, cview (tasks s' t) = cview (tasks s t)) ->
  (forall g, g_fut (groups s' g) = g_fut (groups s g)) -> events s' = events s ->
  (forall f, sleepref s' f -> sleepref s f) ->
  (forall f v, f_st (futs s' f) = FRes v -> f_st (futs s f) = FRes v) ->
  (forall t, running s' <> Some t -> running s <> Some t) -> JInv s -> JInv s'.
Proof.
  intros Hv Hg He Hsl Hf Hrun I.
  assert (V : forall t, k_ctl (tasks s' t) = k_ctl (tasks s t) /\ k_group (tasks s' t) = k_group (tasks s t) /\
     k_hevent (tasks s' t) = k_hevent (tasks s t) /\ k_startfut (tasks s' t) = k_startfut (tasks s t) /\
     k_final (tasks s' t) = k_final (tasks s t)).
  { intros t. pose proof (cview_inv _ _ (Hv t)). tauto. }
  apply (J_upd_one s s' 0 I); auto.
  - intros x. destruct (V x) as [_ [-> [-> [-> ->]]]]. auto.
  - intros x _. apply V.
  - (* J_upd_one singles out one task; the control states agree everywhere, so any task will do *)
    intros ch c e f Hr. destruct (V 0) as [-> _]. apply (j_join s I 0 ch c e f), Hrun, Hr.
Qed.

(* the cancel-scope machinery preserves all invariants *)
(* side condition: the machinery does not (de)activate a library-owned scope of a suspended task and only
   moves the scope pointer of the running task *)
Definition ksafe (C : sid -> Prop) (T : tid -> Prop) (s : st) : Prop :=
  (forall t c, running s <> Some t -> top_scope (k_ctl (tasks s t)) = Some c -> ~ C c) /\
  (forall t, T t -> running s = Some t).

Lemma C_kframe C T s s' : kframe C T s s' -> ksafe C T s -> CInv s -> CInv s'.
Proof.
  intros F [S1 S2]. apply C_ext.
  - apply (fr_tv _ _ _ _ F).
  - intros t c Hr Ht. split.
    + apply (fr_cur _ _ _ _ F). intros HT. apply S2 in HT. contradiction.
    + destruct (fr_sc _ _ _ _ F c (S1 t c Hr Ht)) as [H1 [H2 _]]. auto.
  - now rewrite (fr_events _ _ _ _ F).
  - apply (fr_running _ _ _ _ F).
  - apply (fr_ntask _ _ _ _ F).
  - rewrite (fr_nscope _ _ _ _ F). lia.
  - rewrite (fr_nevent _ _ _ _ F). lia.
Qed.

Lemma GP_kframe P C T s s' : kframe C T s s' -> GInvP P s -> GInvP P s'.
Proof.
  intros F. apply GP_ext.
  - intros t. apply gview_inv, tview_gview, (fr_tv _ _ _ _ F).
  - intros g. rewrite (fr_groups _ _ _ _ F). auto.
  - intros f e _ H. rewrite (fr_fut _ _ _ _ F f); [exact H|]. rewrite H. discriminate.
  - rewrite (fr_ntask _ _ _ _ F). lia.
  - rewrite (fr_nscope _ _ _ _ F). lia.
  - rewrite (fr_nfut _ _ _ _ F). lia.
Qed.

Lemma G_kframe C T s s' : kframe C T s s' -> GInv s -> GInv s'.
Proof. intros F G. apply G_P. apply G_P in G. exact (GP_kframe _ C T s s' F G). Qed.

Lemma J_kframe C T s s' : kframe C T s s' -> JInv s -> JInv s'.
Proof.
  intros F. apply J_ext.
  - intros t. apply tview_cview, (fr_tv _ _ _ _ F).
  - intros g. now rewrite (fr_groups _ _ _ _ F).
  - apply (fr_events _ _ _ _ F).
  - apply (fr_sleep _ _ _ _ F).
  - intros f v H. destruct (fr_fut2 _ _ _ _ F f) as [E|[_ [o Ho]]]; [now rewrite <- E|congruence].
  - intros t. now rewrite (fr_running _ _ _ _ F).
Qed.

Lemma M_kstar C T s s' : kstar C T s s' -> ksafe C T s -> MInv s -> MInv s'.
Proof.
  intros H S [K Ci G J]. pose proof (kframe_kstar _ _ _ _ H) as F. constructor.
  - eapply K_kstar; eauto.
  - eapply C_kframe; eauto.
  - eapply G_kframe; eauto.
  - eapply J_kframe; eauto.
Qed.

Lemma ksafe_none s : ksafe none_s none_t s.
Proof. split; [intros t c _ _ []|intros t []]. Qed.

Lemma M_kstar_none s s' : kstar none_s none_t s s' -> MInv s -> MInv s'.
Proof. intros H. apply (M_kstar _ _ _ _ H), ksafe_none. Qed.

Lemma Inv_kstar s s' : kstar none_s none_t s s' -> Inv s -> Inv s'.
Proof.
  intros H [M Hr]. split; [exact (M_kstar_none s s' H M)|].
  now rewrite (fr_running _ _ _ _ (kframe_kstar _ _ _ _ H)).
Qed.

(* C03, a plain checkpoint() under the FIFO event loop: the task sits in the bare yield of CYield YCheckpoint with
   its step callback queued.  If the delivery callback of the cancelled scope it reaches is queued in front of
   that step (or a request is already recorded), the step - the first one of the task in this iteration - raises
   the cancellation.  Windows as in cancel_latency_le_2_cycles (covered callbacks of others). *)
From Coq Require Import ZArith Lia.
From AV Require Import Base Machine DeliverAlive TreeStep CycleThms.

Section Checkpoint.
  Variables (t : tid) (c : sid).

  (* the next n callbacks up to t's own step are covered callbacks of others *)
  Fixpoint cycle_okc (n : nat) (s : st) : Prop :=
    match n with
    | 0 => True
    | S m => match ready s with
             | [] => True
             | h :: _ => h = HStep t \/ (bystander_y t s h /\ cycle_okc m (run_head s))
             end
    end.

  Notation Inv := (OInv t c None (fun k => k = CYield YCheckpoint)).

  (* a request is recorded, or the delivery callback of c is queued in front of every step of t *)
  Definition ahead (s : st) : Prop :=
    reqG t s \/ exists pre post, ready s = pre ++ HDeliver c :: post /\ ~ In (HStep t) pre.

  Lemma ahead_head s r : ahead s -> ready s = HStep t :: r -> reqG t s.
  Proof.
    intros [Rq|[pre [post [E Hn]]]] Er; [exact Rq|exfalso]. rewrite Er in E.
    destruct pre as [|h pre]; [discriminate|]. inversion E; subst h. apply Hn. now left.
  Qed.

  (* t's step is run with a request recorded *)
  Definition raised (n : nat) (s : st) : Prop :=
    exists si q, In (si, HStep t) (heads n s) /\ ready si = HStep t :: q /\ Inv si /\ reqG t si.

  Lemma raised_next n s h r : ready s = h :: r -> raised n (run_head s) -> raised (S n) s.
  Proof. intros E [si [q [Hi Hs]]]. exists si, q. split; [rewrite (heads_cons n s h r E); now right|exact Hs]. Qed.

  Lemma raised_here n s r : Inv s /\ ahead s -> ready s = HStep t :: r -> raised (S n) s.
  Proof.
    intros [I A] E. exists s, r. split; [rewrite (heads_cons n s _ r E); now left|].
    exact (conj E (conj I (ahead_head s r A E))).
  Qed.

  Lemma okc_step n s h r :
    Inv s /\ ahead s -> cycle_okc (S n) s -> ready s = h :: r ->
    raised (S n) s \/ ((Inv (run_head s) /\ ahead (run_head s)) /\ cycle_okc n (run_head s) /\ rshT r (run_head s)).
  Proof.
    intros [I A] Ok E. cbn [cycle_okc] in Ok. rewrite E in Ok. destruct Ok as [->|[[Hok [_ Hk]] Ok]].
    - left. now apply (raised_here n s r).
    - right. destruct (oinv_step t c _ _ s h r I E Hok Hk) as [I' [Q [Hd Kp]]].
      split; [split; [exact I'|]|now split].
      destruct A as [Rq|[pre [post [Ep Hn]]]]; [left; now apply Kp|]. rewrite E in Ep.
      destruct pre as [|h1 pre]; inversion Ep; subst; [left; now apply Hd|right].
      destruct (rshT_split _ _ pre (HDeliver c) post Q eq_refl eq_refl) as [P [post' [E' _]]].
      exists (filter P pre), post'. split; [exact E'|]. intros Hin. apply filter_In in Hin. apply Hn. right. apply Hin.
  Qed.
End Checkpoint.

(* C03 checkpoint_raises_fifo.  Task t is in a plain checkpoint() (CYield YCheckpoint, waiter None, step queued)
   and reaches the cancelled hosted scope c.  In the ready queue no step of t precedes position |pre|, where its
   step sits, and the delivery callback of c is queued in front of it (or a request is already recorded).  If the
   callbacks in front of it are of the covered kinds, then the first step of t in this iteration raises the
   cancellation.  (If the step is queued in front of the delivery callback the checkpoint returns normally: the
   task is not blocked; the next wait is covered by the latency theorems.) *)
Theorem checkpoint_raises_fifo t c s pre post :
  reach_ok s -> running s <> Some t ->
  s_cancelled (scopes s c) = true -> s_host (scopes s c) <> None -> reaches s t c ->
  k_started (tasks s t) = true -> k_waiter (tasks s t) = None -> k_ctl (tasks s t) = CYield YCheckpoint ->
  ready s = pre ++ HStep t :: post -> ~ In (HStep t) pre ->
  (k_must (tasks s t) = true \/ In (HDeliver c) pre) ->
  cycle_okc t (length (ready s)) s ->
  exists si, In (si, HStep t) (heads (length (ready s)) s) /\
             exists o, snd (step si (ARun (HStep t))) = RExc (ECancel o).
Proof.
  intros R Hr Cc Hh Rt Hs Hw Hctl E Hn Hc Ok.
  assert (I : OInv t c None (fun k => k = CYield YCheckpoint) s).
  { constructor; [constructor; [exact R|exact Hr|rewrite Hctl; discriminate|]|exact Hw|exact Hctl|].
    - unfold reqG, eligG. rewrite Hw. destruct (k_must (tasks s t)); [now left|right].
      exact (conj (conj (proj1 Rt) (conj eq_refl (conj Hs I))) (conj Rt (conj Cc Hh))).
    - intros _. rewrite E. apply in_or_app. right. now left. }
  assert (A : ahead t c s).
  { destruct Hc as [Hm|Hin]; [left; unfold reqG; now rewrite Hw|right].
    destruct (in_split _ _ Hin) as [p1 [p2 ->]]. exists p1, (p2 ++ HStep t :: post).
    split; [rewrite E, <- app_assoc; reflexivity|]. intros H. apply Hn. apply in_or_app. now left. }
  assert (Hl : length pre < length (ready s)) by (rewrite E, app_length; cbn; lia).
  destruct (heads_reach _ _ _ (raised_next t c) (okc_step t c) (HStep t) eq_refl (fun n a r Ia _ => raised_here t c n a r Ia)
              _ s pre post (conj I A) Ok E Hl) as [si [q [Hi [Eq [Ii Ri]]]]].
  exists si. split; [exact Hi|]. unfold reqG in Ri. rewrite (oi_waiter _ _ _ _ _ Ii) in Ri.
  exact (own_result t si q Eq Ri (or_intror (oi_ctl _ _ _ _ _ Ii))).
Qed.

(* non-vacuity: the task cancels its own scope while running (the delivery callback is queued), then calls
   checkpoint(): the queue is [HDeliver 1; HStep 1] *)
Definition ck_ops : list op := [ANewRoot; ANewScope 1 None false; AEnter 1 1; ACancel 1 1; AYield 1].

Example ck_premises :
  let s := final step init ck_ops in
  reach_ok s /\ running s <> Some 1 /\ s_cancelled (scopes s 1) = true /\ s_host (scopes s 1) <> None /\
  reaches s 1 1 /\ k_started (tasks s 1) = true /\ k_waiter (tasks s 1) = None /\
  k_ctl (tasks s 1) = CYield YCheckpoint /\ ready s = [HDeliver 1] ++ HStep 1 :: [] /\
  ~ In (HStep 1) [HDeliver 1] /\ In (HDeliver 1) [HDeliver 1] /\ cycle_okc 1 (length (ready s)) s.
Proof.
  cbv zeta. set (s := final step init ck_ops).
  assert (R : reach_ok s) by (exists ck_ops; split; [vm_compute; reflexivity|reflexivity]).
  assert (E1 : ready s = [HDeliver 1; HStep 1]) by (vm_compute; reflexivity).
  refine (conj R _). repeat (match goal with |- _ /\ _ => split end).
  - assert (E : running s = None) by (vm_compute; reflexivity). rewrite E. discriminate.
  - vm_compute; reflexivity.
  - assert (E : s_host (scopes s 1) = Some 1) by (vm_compute; reflexivity). rewrite E. discriminate.
  - split; [vm_compute; reflexivity|]. exists 1. split; [vm_compute; reflexivity|apply vis_here].
  - vm_compute; reflexivity.
  - vm_compute; reflexivity.
  - vm_compute; reflexivity.
  - exact E1.
  - intros [H|[]]. discriminate.
  - now left.
  - rewrite E1. cbn [length cycle_okc]. rewrite E1. right. split; [split; [reflexivity|split; [discriminate|exact I]]|].
    assert (E2 : ready (run_head s) = [HStep 1; HDeliver 1]) by (vm_compute; reflexivity). rewrite E2. now left.
Qed.

(* C05: where debts (CancelScope._pending_uncancellations) can sit.
   DBH: a scope without host owes nothing, and a scope that owes something is cancelled itself or has a
   cancelled ancestor (parent links, shields ignored).  Here: its preservation by the building blocks of a step;
   TreeStep walks over the ops. *)
From Coq Require Import ZArith Lia.
From AV Require Import Base Machine MachineFacts ScopeFrames TreeInv DeliverAlive PotentialInv.

Record DBH (s : st) : Prop := {
  db_un : forall x, s_host (scopes s x) = None -> s_pending (scopes s x) = 0;
  db_w : forall x, 0 < s_pending (scopes s x) -> exists y, anc s y x /\ s_cancelled (scopes s y) = true
}.

(* steps that keep links, hosts and debts and never un-cancel *)
Record dbm (a b : st) : Prop := {
  dm_par : forall x, s_parent (scopes b x) = s_parent (scopes a x);
  dm_host : forall x, s_host (scopes b x) = s_host (scopes a x);
  dm_pend : forall x, s_pending (scopes b x) = s_pending (scopes a x);
  dm_canc : forall x, s_cancelled (scopes a x) = true -> s_cancelled (scopes b x) = true
}.

Lemma dbm_refl a : dbm a a.
Proof. constructor; auto. Qed.

Lemma dbm_trans a b c : dbm a b -> dbm b c -> dbm a c.
Proof.
  intros H1 H2. constructor; intros x.
  - now rewrite (dm_par _ _ H2), (dm_par _ _ H1).
  - now rewrite (dm_host _ _ H2), (dm_host _ _ H1).
  - now rewrite (dm_pend _ _ H2), (dm_pend _ _ H1).
  - intros H. apply H2, H1, H.
Qed.

Lemma anc_par a b y x : (forall z, s_parent (scopes b z) = s_parent (scopes a z)) -> anc a y x -> anc b y x.
Proof. intros E. apply anc_ext. intros z. now rewrite E. Qed.

Lemma DBH_dbm a b : DBH a -> dbm a b -> DBH b.
Proof.
  intros [U W] M. constructor.
  - intros x. rewrite (dm_host _ _ M), (dm_pend _ _ M). apply U.
  - intros x. rewrite (dm_pend _ _ M). intros H. destruct (W x H) as [y [A C]]. exists y. split.
    + apply (anc_par a b); [apply M|exact A].
    + now apply M.
Qed.

Definition dbstep (a b : st) : Prop := DBH a -> DBH b.

Lemma dbstep_dbm a b : dbm a b -> dbstep a b.
Proof. intros M D. now apply (DBH_dbm a). Qed.

Lemma dbstep_refl a : dbstep a a.
Proof. intros D; exact D. Qed.

Lemma dbstep_trans a b c : dbstep a b -> dbstep b c -> dbstep a c.
Proof. intros H1 H2 D. apply H2, H1, D. Qed.

Lemma dbm_same_scopes a b : scopes b = scopes a -> dbm a b.
Proof. intros E. constructor; intros x; rewrite E; auto. Qed.

Lemma dbm_call_soon s h : dbm s (call_soon s h).
Proof. now apply dbm_same_scopes. Qed.

Lemma dbm_of a b : treq a b -> inert a b ->
  (forall x, s_cancelled (scopes a x) = true -> s_cancelled (scopes b x) = true) -> dbm a b.
Proof.
  intros K I C. constructor; [intros x; apply (tq_parent _ _ K)|intros x; apply (tq_host _ _ K)| |exact C].
  intros x. apply (ac_pending _ _ (in_scope _ _ I x)).
Qed.

Lemma dbm_dq a b : treq a b -> inert a b -> dq a b -> dbm a b.
Proof. intros K I Q. apply dbm_of; auto. intros x H. now rewrite (vw_cancelled _ _ (dq_scope _ _ Q x)). Qed.

Lemma dbm_upd_scope s c g :
  (forall k, s_parent (g k) = s_parent k /\ s_host (g k) = s_host k /\ s_pending (g k) = s_pending k /\
             (s_cancelled k = true -> s_cancelled (g k) = true)) -> dbm s (upd_scope s c g).
Proof.
  intros Hg. constructor; intros x; cbn; unfold upd; destruct (Nat.eqb_spec x c); try subst; auto; apply Hg.
Qed.

(* steps that do not touch the scope table *)
Definition ssame (a b : st) : Prop := scopes b = scopes a /\ nscope b = nscope a.

Lemma ssame_refl a : ssame a a. Proof. now split. Qed.
Lemma ssame_trans a b c : ssame a b -> ssame b c -> ssame a c.
Proof. intros [A1 A2] [B1 B2]. split; congruence. Qed.
Lemma ss_quiet t a b : quiet t a b -> ssame a b.
Proof. intros H. split; apply H. Qed.

Lemma ss_suspend_on s t f : ssame s (suspend_on s t f).
Proof. apply (ss_quiet t), quiet_suspend_on. Qed.

Lemma ss_park s t : ssame s (park s t).
Proof. apply (ss_quiet t), quiet_park. Qed.

Lemma ss_ret s t r : ssame s (fst (ret_to_puppet s t r)).
Proof. apply (ss_quiet t), quiet_ret_to_puppet. Qed.

Lemma ss_task_cancel s t o : ssame s (task_cancel s t o).
Proof.
  unfold task_cancel. destruct (k_done (tasks s t)); [apply ssame_refl|].
  destruct (k_waiter (tasks s t)) as [f|]; [|now split].
  destruct (fut_pending _ f); [|now split]. eapply ssame_trans; [|apply (ss_quiet 0), quiet_fut_complete]. now split.
Qed.

Lemma deliver_inv' (P : st -> Prop) origin :
  (forall self a r t, P a -> P (fst (deliver_task self origin (a, r) t))) ->
  (forall a b, P a -> P (upd_scope a origin (sc_chandle b))) ->
  (forall a, P a -> P (call_soon a (HDeliver origin))) ->
  forall fu a self, P a -> P (fst (deliver fu a self origin)).
Proof. intros H1 H2 H3. apply (deliver_closed_raw (fun a b => P a -> P b)); auto. Qed.

Lemma deliver_inv (P : st -> Prop) origin :
  (forall self a r t, P a -> P (fst (deliver_task self origin (a, r) t))) ->
  (forall a c b, P a -> P (upd_scope a c (sc_chandle b))) ->
  (forall a h, P a -> P (call_soon a h)) ->
  forall fu a self, P a -> P (fst (deliver fu a self origin)).
Proof. intros H1 H2 H3. apply deliver_inv'; auto. Qed.

(* a delivery from a cancelled scope: each task it cancels adds one debt at the origin, when the origin's host is
   that task *)
Lemma DB_deliver_top s c : s_cancelled (scopes s c) = true -> dbstep s (deliver_top s c).
Proof.
  intros Hc D.
  apply (deliver_top_closed (fun a b => DBH a /\ s_cancelled (scopes a c) = true ->
                                        DBH b /\ s_cancelled (scopes b c) = true) c); [auto|auto| | | |now split].
  - intros self a t a' Ht [Da Ca]. destruct Ht as [_|_ a1]; [now split|].
    destruct (ss_task_cancel a t (S c)) as [Es _]. fold a1 in Es.
    assert (D1 : DBH a1) by (apply (DBH_dbm a); [exact Da|now apply dbm_same_scopes]).
    assert (C1 : s_cancelled (scopes a1 c) = true) by now rewrite Es.
    destruct (opt_eqb (s_host (scopes a1 c)) t) eqn:Eh; [|now split]. apply opt_eqb_Some in Eh.
    split; [|cbn; unfold upd; now rewrite Nat.eqb_refl]. constructor.
    + intros x. cbn. unfold upd. destruct (Nat.eqb_spec x c) as [->|Hx]; [cbn; congruence|apply D1].
    + intros x Hx. assert (W : exists y, anc a1 y x /\ s_cancelled (scopes a1 y) = true).
      { revert Hx. cbn. unfold upd. destruct (Nat.eqb_spec x c) as [->|Hx]; [|apply D1].
        intros _. exists c. split; [apply anc_here|exact C1]. }
      destruct W as [y [A C]]. exists y. split.
      * apply (anc_par a1); [|exact A]. intros z. cbn. unfold upd. now destruct (Nat.eqb_spec z c) as [->|].
      * cbn. unfold upd. now destruct (Nat.eqb_spec y c) as [->|].
  - intros a b [Da Ca]. split; [|cbn; unfold upd; now rewrite Nat.eqb_refl].
    apply (DBH_dbm a); [exact Da|]. apply dbm_upd_scope. intros k; now repeat split.
  - intros a [Da Ca]. split; [|exact Ca]. apply (DBH_dbm a); [exact Da|apply dbm_call_soon].
Qed.

Lemma DB_restart s x : dbstep s (restart s x).
Proof. apply restart_closed; [apply dbstep_refl|]. intros c Hc _. now apply DB_deliver_top. Qed.

Lemma dbm_cancel_timeout s c : dbm s (cancel_timeout s c).
Proof. apply dbm_dq; [apply treq_cancel_timeout|apply inert_cancel_timeout|apply dq_cancel_timeout]. Qed.

Lemma DB_scope_cancel s c b : dbstep s (scope_cancel s c b).
Proof.
  apply (scope_cancel_closed dbstep c dbstep_refl dbstep_trans b).
  - intros a. apply dbstep_dbm, dbm_cancel_timeout.
  - intros a. apply dbstep_dbm, dbm_upd_scope. intros k; now repeat split.
  - intros a C _. now apply DB_deliver_top.
Qed.

Lemma DB_scope_timeout s c : dbstep s (scope_timeout s c).
Proof.
  unfold scope_timeout. destruct (s_deadline (scopes s c)); [|apply dbstep_refl].
  destruct (Z.leb z (now s)); [apply DB_scope_cancel|]. apply dbstep_dbm.
  constructor; intros x; cbn; unfold upd; destruct (Nat.eqb_spec x c); try subst; auto.
Qed.

(* c is on the ancestor chain of no hosted scope *)
Definition Safe (s : st) (c : sid) : Prop :=
  forall x, s_host (scopes s x) <> None -> forall y, anc s y x -> y <> c.

Lemma anc_trans s a b c : anc s a b -> anc s b c -> anc s a c.
Proof. intros H1 H2. induction H2 as [|x p Ep H IH]; [exact H1|]. eapply anc_up; [exact Ep|now apply IH]. Qed.

Lemma anc_avoid a b c y x :
  (forall z, z <> c -> s_parent (scopes b z) = s_parent (scopes a z)) ->
  (forall w, anc a w x -> w <> c) -> anc a y x -> anc b y x.
Proof.
  intros E Hn H. induction H as [|x p Ep H IH]; [apply anc_here|].
  assert (Hx : x <> c) by (apply Hn, anc_here).
  eapply anc_up; [rewrite (E x Hx); exact Ep|]. apply IH. intros w Hw. apply Hn. eapply anc_up; eauto.
Qed.

Lemma Safe_unhosted s c : Safe s c -> s_host (scopes s c) = None.
Proof.
  intros S. destruct (s_host (scopes s c)) eqn:E; [|reflexivity]. exfalso.
  refine (S c _ c (anc_here s c) eq_refl). rewrite E. discriminate.
Qed.

Lemma Safe_frame a b c :
  (forall x, s_parent (scopes b x) = s_parent (scopes a x)) ->
  (forall x, s_host (scopes b x) <> None -> s_host (scopes a x) <> None) -> Safe a c -> Safe b c.
Proof.
  intros Ep Eh S x Hx y Hy. apply (S x (Eh x Hx)). apply (anc_par b a); [intros z; now rewrite Ep|exact Hy].
Qed.

Lemma Safe_dbm a b c : dbm a b -> Safe a c -> Safe b c.
Proof. intros M. apply Safe_frame; [apply M|]. intros x. now rewrite (dm_host _ _ M). Qed.

Lemma safe_tree s c : Tree s -> s_active (scopes s c) = false -> Safe s c.
Proof.
  intros T Hc x Hx y Hy.
  assert (Ax : s_active (scopes s x) = true).
  { destruct (s_active (scopes s x)) eqn:E; [reflexivity|]. now elim Hx; apply (tr_host_inact _ T). }
  assert (Ay : s_active (scopes s y) = true).
  { clear Hx. induction Hy as [|x p Ep H IH]; [exact Ax|]. apply IH. now apply (tr_par_act _ T x p). }
  intros ->. congruence.
Qed.

(* a step that rewrites the record of c only, on which no hosted scope depends *)
Lemma DB_rewrite a b c :
  DBH a -> Safe a c ->
  (forall x, x <> c -> s_parent (scopes b x) = s_parent (scopes a x) /\ s_host (scopes b x) = s_host (scopes a x) /\
                       s_pending (scopes b x) = s_pending (scopes a x) /\
                       (s_cancelled (scopes a x) = true -> s_cancelled (scopes b x) = true)) ->
  s_pending (scopes b c) = 0 -> DBH b.
Proof.
  intros D S E Hc. constructor.
  - intros x. destruct (Nat.eq_dec x c) as [->|Hx]; [intros _; exact Hc|].
    destruct (E x Hx) as [_ [Eh [Epd _]]]. rewrite Eh, Epd. apply D.
  - intros x. destruct (Nat.eq_dec x c) as [->|Hx]; [rewrite Hc; lia|].
    destruct (E x Hx) as [_ [Eh [Epd _]]]. rewrite Epd. intros H.
    destruct (db_w _ D x H) as [y [A C]].
    assert (Hh : s_host (scopes a x) <> None).
    { intros N. rewrite (db_un _ D x N) in H. lia. }
    assert (Hy : y <> c) by (apply (S x Hh y A)).
    exists y. split; [|now apply (E y Hy)].
    apply (anc_avoid a b c); [intros z Hz; apply (E z Hz)|exact (S x Hh)|exact A].
Qed.

Lemma new_scope_scopes s d sh x : x <> nscope s -> scopes (fst (new_scope s d sh)) x = scopes s x.
Proof. intros H. cbn. unfold upd. destruct (Nat.eqb_spec x (nscope s)); [contradiction|reflexivity]. Qed.

Lemma new_scope_fresh s d sh : scopes (fst (new_scope s d sh)) (nscope s) = sc_shield sh (sc_deadline d scope0).
Proof. cbn. unfold upd. now rewrite Nat.eqb_refl. Qed.

Lemma DB_new_scope s d sh : Safe s (nscope s) -> dbstep s (fst (new_scope s d sh)).
Proof.
  intros S D. apply (DB_rewrite s _ (nscope s) D S).
  - intros x Hx. rewrite (new_scope_scopes s d sh x Hx). now repeat split.
  - now rewrite new_scope_fresh.
Qed.

Lemma DB_enter s c t : Safe s c -> dbstep s (fst (scope_enter s c t)).
Proof.
  intros S D. destruct (s_active (scopes s c)) eqn:Ea; [now rewrite (scope_enter_fail s c t Ea)|].
  rewrite (scope_enter_eq s c t Ea).
  pose proof (Safe_unhosted s c S) as Hh.
  assert (Pc : s_pending (scopes s c) = 0) by now apply D.
  set (par := k_cur (tasks s t)).
  set (s1 := upd_scope s c (fun x => sc_parent par (sc_tasks (add t (s_tasks x)) (sc_host (Some t) x)))).
  assert (D1 : DBH s1).
  { apply (DB_rewrite s s1 c D S).
    - intros x Hx. unfold s1. cbn. unfold upd. destruct (Nat.eqb_spec x c); [contradiction|now repeat split].
    - unfold s1. cbn. unfold upd. rewrite Nat.eqb_refl. exact Pc. }
  assert (M3 : dbm s1 (enter_s3 s c t)).
  { unfold enter_s3. fold par. fold s1. destruct par as [p|].
    - eapply dbm_trans; [apply (dbm_same_scopes s1 (upd_task s1 t (tk_cur (Some c)))); reflexivity|].
      apply dbm_upd_scope. intros k; now repeat split.
    - apply dbm_same_scopes. reflexivity. }
  assert (D5 : DBH (enter_s5 s c t)).
  { unfold enter_s5. apply (DBH_dbm (scope_timeout (enter_s3 s c t) c)).
    - apply DB_scope_timeout. now apply (DBH_dbm s1).
    - apply dbm_upd_scope. intros k; now repeat split. }
  destruct (s_cancelled (scopes (enter_s5 s c t) c)) eqn:Ec; [|exact D5]. now apply DB_deliver_top.
Qed.

Lemma eff_anc s : forall fuel p, eff_cancelled_from fuel s (Some p) = true ->
  exists z, anc s z p /\ s_cancelled (scopes s z) = true.
Proof.
  induction fuel as [|fu IH]; intros p H; cbn [eff_cancelled_from] in H; [discriminate|].
  destruct (s_cancelled (scopes s p)) eqn:Ec; [exists p; split; [apply anc_here|exact Ec]|].
  destruct (s_shield (scopes s p)); [discriminate|].
  destruct (s_parent (scopes s p)) as [q|] eqn:Ep; [|destruct fu; discriminate].
  destruct (IH q H) as [z [A C]]. exists z. split; [eapply anc_up; eauto|exact C].
Qed.

Lemma dbm_exit_struct s c t : dbm s (exit_struct s c t).
Proof.
  pose proof (exit_struct_inert s c t) as I. constructor; intros x.
  - apply (vw_parent _ _ (exit_struct_view s c t x)).
  - apply (vw_host _ _ (exit_struct_view s c t x)).
  - apply (ac_pending _ _ (in_scope _ _ I x)).
  - now rewrite (vw_cancelled _ _ (exit_struct_view s c t x)).
Qed.

Lemma DB_exit s c t exc : dbstep s (fst (scope_exit s c t exc)).
Proof.
  intros D. destruct (exit_ok_dec s c t) as [Hok|Hno]; [|now rewrite (scope_exit_fail s c t exc Hno)].
  destruct (scope_exit_shape s c t exc Hok) as [s6 [x [X ->]]]. cbn [fst].
  change (exit_links s c t) with (exit_struct s c t) in X.
  set (par := s_parent (scopes s c)) in *. set (s5 := restart (exit_struct s c t) par) in *.
  assert (D5 : DBH s5) by (apply DB_restart; apply (DBH_dbm s); [exact D|apply dbm_exit_struct]).
  assert (Ep5 : s_parent (scopes s5 c) = par).
  { unfold s5. rewrite (core_parent _ _ (kf_scopes _ _ (kframe_restart (exit_struct s c t) par) c)).
    apply (vw_parent _ _ (exit_struct_view s c t c)). }
  clearbody s5.
  (* pay (or nothing owed): only c's record changes, to pending 0, host None *)
  assert (Pay : forall sB, (forall x, x <> c -> scopes sB x = scopes s5 x) ->
                  s_parent (scopes sB c) = s_parent (scopes s5 c) ->
                  s_cancelled (scopes sB c) = s_cancelled (scopes s5 c) ->
                  s_pending (scopes sB c) = 0 ->
                  DBH (upd_scope sB c (sc_host None))).
  { intros sB Eo Epp Ecc Epd. constructor.
    - intros y. cbn. unfold upd. destruct (Nat.eqb_spec y c) as [->|Hy]; [intros _; exact Epd|].
      rewrite (Eo y Hy). apply D5.
    - intros y. cbn. unfold upd. destruct (Nat.eqb_spec y c) as [->|Hy]; [cbn; rewrite Epd; lia|].
      rewrite (Eo y Hy). intros H. destruct (db_w _ D5 y H) as [z [A C]]. exists z. split.
      + apply (anc_par s5); [|exact A]. intros w. cbn. unfold upd.
        destruct (Nat.eqb_spec w c) as [->|Hw]; [cbn; exact Epp|now rewrite (Eo w Hw)].
      + cbn. unfold upd. destruct (Nat.eqb_spec z c) as [->|Hz]; [cbn; now rewrite Ecc|now rewrite (Eo z Hz)]. }
  destruct X as [x _ sA|Hb Hp|p Hb Epar Ehp Hn].
  - (* the task uncancels the debts itself *)
    pose proof (proj1 (iter_uncancel_spec (s_pending (scopes s5 c)) t s5)) as U1.
    assert (EA : forall y, y <> c -> scopes sA y = scopes s5 y).
    { intros y Hy. unfold sA. cbn [scopes upd_scope set_scopes]. rewrite U1. unfold upd.
      destruct (Nat.eqb_spec y c); [contradiction|reflexivity]. }
    assert (EAc : scopes sA c = sc_pending 0 (scopes s5 c)).
    { unfold sA. cbn [scopes upd_scope set_scopes]. rewrite U1. unfold upd. now rewrite Nat.eqb_refl. }
    assert (PayC : DBH (upd_scope (upd_scope sA c (sc_caught true)) c (sc_host None))).
    { apply Pay; [intros y Hy| | |]; cbn [scopes upd_scope set_scopes]; unfold upd at 1;
        [destruct (Nat.eqb_spec y c); [contradiction|now apply EA]|..]; rewrite Nat.eqb_refl; now rewrite EAc. }
    destruct x; [exact PayC| |exact PayC]. apply Pay; [exact EA| | |]; now rewrite EAc.
  - now apply Pay.
  - (* handed to the parent *)
    set (n := s_pending (scopes s5 c)) in *. assert (Hn' : 0 < n) by lia.
    destruct (db_w _ D5 c Hn') as [y [A C]].
    assert (Wp : exists z, anc s5 z p /\ s_cancelled (scopes s5 z) = true).
    { inversion A as [E0|x q Eq A' E1]; subst.
      - rewrite C in Hb. cbn [andb] in Hb. apply negb_false_iff in Hb.
        unfold parent_visible in Hb. rewrite Ep5, Epar in Hb. apply andb_true_iff in Hb. destruct Hb as [_ Hb].
        apply (eff_anc s5 _ p Hb).
      - rewrite Ep5, Epar in Eq. inversion Eq; subst q. exists y. now split. }
    destruct Wp as [z [Az Cz]].
    set (sH := upd_scope (upd_scope s5 p (fun x => sc_pending (s_pending x + n) x)) c (sc_pending 0)).
    destruct (Nat.eq_dec p c) as [Hpc|Hpc].
    + subst p. apply Pay; [intros w Hw| | |]; cbn; unfold upd; rewrite ?Nat.eqb_refl; try reflexivity.
      destruct (Nat.eqb_spec w c); [contradiction|reflexivity].
    + assert (Ev : forall x, s_parent (scopes (upd_scope sH c (sc_host None)) x) = s_parent (scopes s5 x) /\
                             s_cancelled (scopes (upd_scope sH c (sc_host None)) x) = s_cancelled (scopes s5 x)).
      { intros x. unfold sH. cbn. unfold upd.
        destruct (Nat.eqb_spec x c) as [->|Hxc]; [rewrite ?Nat.eqb_refl|];
          (destruct (Nat.eqb_spec c p); [now subst|]); try (destruct (Nat.eqb_spec x p)); try subst; now split. }
      assert (Ea : forall y x, anc s5 y x -> anc (upd_scope sH c (sc_host None)) y x).
      { intros y0 x0. apply anc_par. intros w. apply Ev. }
      constructor.
      * intros x. unfold sH. cbn. unfold upd.
        destruct (Nat.eqb_spec x c) as [->|Hxc]; [rewrite Nat.eqb_refl; reflexivity|].
        destruct (Nat.eqb_spec x p) as [->|Hxp]; [cbn; rewrite Ehp; discriminate|apply D5].
      * intros x Hx.
        assert (Hx' : x = p \/ (x <> c /\ 0 < s_pending (scopes s5 x))).
        { revert Hx. unfold sH. cbn. unfold upd.
          destruct (Nat.eqb_spec x c) as [->|Hxc]; [rewrite Nat.eqb_refl; cbn; lia|].
          destruct (Nat.eqb_spec x p) as [->|Hxp]; [now left|intros H; right; now split]. }
        destruct Hx' as [->|[Hxc Hp]].
        -- exists z. split; [now apply Ea|now rewrite (proj2 (Ev z))].
        -- destruct (db_w _ D5 x Hp) as [y0 [A0 C0]]. exists y0. split; [now apply Ea|now rewrite (proj2 (Ev y0))].
Qed.

Record sfr (a b : st) : Prop := {
  sf_ns : nscope b = nscope a;
  sf_par : forall x, s_parent (scopes b x) = s_parent (scopes a x);
  sf_host : forall x, s_host (scopes b x) <> None -> s_host (scopes a x) <> None
}.

Lemma sfr_treq a b : treq a b -> sfr a b.
Proof.
  intros K. constructor; [apply (tq_nscope _ _ K)|intros x; apply (tq_parent _ _ K)|].
  intros x. now rewrite (tq_host _ _ K).
Qed.

Definition rr (a b : st) : Prop := dbstep a b /\ sfr a b.

Lemma rr_of a b : dbstep a b -> treq a b -> rr a b.
Proof. intros D K. split; [exact D|now apply sfr_treq]. Qed.

Lemma rr_same a b : scopes b = scopes a -> nscope b = nscope a -> rr a b.
Proof.
  intros E N. split; [apply dbstep_dbm, dbm_same_scopes, E|]. constructor; [exact N|intros x; now rewrite E|intros x; now rewrite E].
Qed.

Lemma rr_dbm a b : dbm a b -> nscope b = nscope a -> rr a b.
Proof.
  intros M N. split; [now apply dbstep_dbm|]. constructor; [exact N|apply M|intros x; now rewrite (dm_host _ _ M)].
Qed.

Lemma rr_cancel_timeout s c : rr s (cancel_timeout s c).
Proof. apply rr_dbm; [apply dbm_cancel_timeout|apply (tq_nscope _ _ (treq_cancel_timeout s c))]. Qed.

Lemma rr_scope_timeout s c : rr s (scope_timeout s c).
Proof. apply rr_of; [apply DB_scope_timeout|apply treq_scope_timeout]. Qed.

Lemma rr_restart s x : rr s (restart s x).
Proof. apply rr_of; [apply DB_restart|apply treq_restart]. Qed.

Lemma sfr_exit s c t exc : sfr s (fst (scope_exit s c t exc)).
Proof.
  destruct (exit_ok_dec s c t) as [Hok|Hno]; [|rewrite (scope_exit_fail s c t exc Hno); apply sfr_treq, treq_refl].
  destruct (scope_exit_spec s c t exc Hok) as [s6 [K E]]. rewrite E.
  pose proof (kframe_restart (exit_struct s c t) (s_parent (scopes s c))) as K5.
  assert (K6 : kframe (exit_struct s c t) s6) by (eapply kframe_trans; eauto).
  constructor.
  - cbn [nscope upd_scope set_scopes]. rewrite (kf_nscope _ _ K6). apply (in_nscope _ _ (exit_struct_inert s c t)).
  - intros x. cbn [scopes upd_scope set_scopes]. unfold upd.
    destruct (Nat.eqb_spec x c) as [->|Hx]; cbn [s_parent sc_host];
      rewrite (core_parent _ _ (kf_scopes _ _ K6 _)); apply (vw_parent _ _ (exit_struct_view s c t _)).
  - intros x. cbn [scopes upd_scope set_scopes]. unfold upd.
    destruct (Nat.eqb_spec x c) as [->|Hx]; cbn [s_host sc_host]; [intros H; now elim H|].
    rewrite (core_host _ _ (kf_scopes _ _ K6 _)), (vw_host _ _ (exit_struct_view s c t _)). auto.
Qed.

Lemma rr_set_ctl s t c : rr s (set_ctl s t c).
Proof. apply rr_same; reflexivity. Qed.

Lemma DB_spawn s g sf : Safe s (nscope s) -> dbstep s (fst (spawn_task s g sf)).
Proof.
  intros S D. rewrite spawn_task_eq. cbn [fst].
  pose proof (DB_new_scope s None false S D) as D1.
  set (s1 := fst (new_scope s None false)) in *.
  assert (D4 : DBH (spawn_struct s g sf)).
  { apply (DBH_dbm s1); [exact D1|]. unfold spawn_struct. fold s1. cbv zeta.
    match goal with |- dbm s1 (upd_group (upd_scope ?a ?c ?f) ?g0 ?h) =>
      apply (dbm_trans s1 a); [apply dbm_same_scopes; reflexivity|];
      apply (dbm_trans a (upd_scope a c f)); [apply dbm_upd_scope; intros k; now repeat split|];
      apply dbm_same_scopes; reflexivity end. }
  apply (DBH_dbm (restart (spawn_struct s g sf) (Some (g_scope (groups s g))))); [|apply dbm_call_soon].
  now apply DB_restart.
Qed.

Lemma safe_fresh s : Tree s -> Safe s (nscope s).
Proof.
  intros T. apply (safe_tree s _ T), tn_inactive, T.
Qed.

Lemma DB_group_new s : Safe s (nscope s) -> dbstep s (gnew_struct s).
Proof.
  intros S. eapply dbstep_trans; [apply (DB_new_scope s None false S)|]. now apply dbstep_dbm, dbm_same_scopes.
Qed.

Lemma DB_set_shield s c (b : bool) :
  dbstep s (if b then upd_scope s c (sc_shield true)
            else restart (upd_scope s c (sc_shield false)) (s_parent (scopes (upd_scope s c (sc_shield false)) c))).
Proof.
  assert (M : forall v, dbm s (upd_scope s c (sc_shield v))) by (intros v; apply dbm_upd_scope; intros k; now repeat split).
  destruct b; [apply dbstep_dbm, M|]. eapply dbstep_trans; [apply dbstep_dbm, M|apply DB_restart].
Qed.

Lemma dbm_td_struct s t g : dbm s (td_struct s t g).
Proof.
  change (td_struct s t g) with (done_struct s t g).
  constructor; intros x; rewrite done_struct_scopes; destruct (opt_eqb _ x); auto.
Qed.

Lemma DBH_init : DBH init.
Proof. constructor; [intros x _; reflexivity|intros x H; cbn in H; lia]. Qed.

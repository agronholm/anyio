(* F46, pinned: the resumption of a task spinning in checkpoint_if_cancelled as it was BEFORE the fix (the loop kept the
   cancelled scope it had found first and yielded again unconditionally), and the witness of the resulting spin
   "with nothing left to deliver" (scenario B of the hunt: a shield raised between the cancellation and the delivery). *)
From AV Require Import Base Machine TreeStep.

(* `resume` of a task in CYield YCkIf before F46 *)
Definition resume_ckif_pinned (s0 : st) (t : tid) : st * res :=
  let '(s, inc) := incoming s0 t None in
  match inc with
  | Some e => ret_to_puppet s t (RExc e)
  | None => blocked (bare_yield s t)
  end.

(* the machine with that one case put back; every other op is today's `step` *)
Definition step_pinned (s : st) (o : op) : st * res :=
  match o with
  | ARun (HStep t) =>
      if existsb (handle_eqb (HStep t)) (ready s) then
        match k_ctl (tasks s t) with
        | CYield YCkIf => resume_ckif_pinned (set_ready s (remove_first (HStep t) (ready s))) t
        | _ => step s o
        end
      else step s o
  | _ => step s o
  end.

(* t is alone in the ready queue, spinning, without a cancellation request *)
Record spinning (s : st) (t : tid) : Prop := mk_spinning {
  sp_ready : ready s = [HStep t];
  sp_ctl : k_ctl (tasks s t) = CYield YCkIf;
  sp_must : k_must (tasks s t) = false
}.

(* before the fix such a task yields again whatever the scopes say, and is in the same situation afterwards *)
Lemma pinned_spin_step s t :
  spinning s t ->
  snd (step_pinned s (ARun (HStep t))) = RBlocked /\ spinning (fst (step_pinned s (ARun (HStep t)))) t /\
  scopes (fst (step_pinned s (ARun (HStep t)))) = scopes s.
Proof.
  intros [Hr Hc Hm]. unfold step_pinned. rewrite Hr. cbn [existsb handle_eqb remove_first]. rewrite Nat.eqb_refl.
  cbn [orb]. rewrite Hc. unfold resume_ckif_pinned, incoming. cbn [set_ready tasks]. rewrite Hm.
  cbn [fst snd blocked]. refine (conj eq_refl (conj _ eq_refl)). constructor.
  - reflexivity.
  - cbn [set_running bare_yield call_soon set_ready tasks upd_task set_tasks]. rewrite upd_same. cbn. exact Hc.
  - cbn [set_running bare_yield call_soon set_ready tasks upd_task set_tasks]. rewrite upd_same. reflexivity.
Qed.

Fixpoint pinned_rounds (n : nat) (s : st) (t : tid) : st :=
  match n with 0 => s | S m => pinned_rounds m (fst (step_pinned s (ARun (HStep t)))) t end.

Theorem pinned_spins_for_ever n : forall s t,
  spinning s t ->
  spinning (pinned_rounds n s t) t /\ scopes (pinned_rounds n s t) = scopes s /\
  snd (step_pinned (pinned_rounds n s t) (ARun (HStep t))) = RBlocked.
Proof.
  induction n as [|n IH]; intros s t Sp.
  - refine (conj Sp (conj eq_refl _)). apply (pinned_spin_step s t Sp).
  - cbn [pinned_rounds]. destruct (pinned_spin_step s t Sp) as (_ & Sp' & Es).
    destruct (IH _ t Sp') as (A & B & C). rewrite Es in B. auto.
Qed.

(* Scenario B.  Task 1 sleeps in scope 2 inside scope 1; its sleep is over (wake-up scheduled) when task 2 cancels
   scope 1: the delivery skips task 1 ("about to resume with a value") and re-schedules itself.  Task 1 resumes and calls
   checkpoint_if_cancelled: scope 1 is visible and cancelled, it yields.  Task 2 sets shield = True on scope 2.  The
   delivery callback runs: scope 2 is shielded, nobody is reached, it does not re-schedule itself. *)
Definition f46_ops : list op :=
  [ANewRoot; ANewScope 1 None false; AEnter 1 1; ANewScope 1 None false; AEnter 1 2; ASleep 1 (Some 3%Z); ANewRoot;
   ATick 3; ARun (HSleepDone 6 1); ACancel 2 1; ARun (HWake 1 6); ACkIf 1; ASetShield 2 2 true; ARun (HDeliver 1)].
Definition f46_state : st := final step init f46_ops.

Example ckif_spin_without_delivery_witness :
  (* the history is in the generated domain; no op of it re-runs a spinning task, so it is the same under step_pinned *)
  ops_ok init f46_ops = true /\
  nth 11 (snd (run_ops step init f46_ops)) RNone = RBlocked /\           (* the ACkIf of task 1 suspended *)
  (* the situation after the delivery callback has run *)
  spinning f46_state 1 /\ k_cur (tasks f46_state 1) = Some 2 /\
  s_cancelled (scopes f46_state 1) = true /\ s_shield (scopes f46_state 2) = true /\
  eff_cancelled f46_state 2 = false /\ s_chandle (scopes f46_state 1) = false /\ timers f46_state = [] /\
  (* today: the task returns normally from checkpoint_if_cancelled *)
  snd (step f46_state (ARun (HStep 1))) = RRet 0 /\
  (* before F46: it yields again, the queue holds nothing but its own callback, no cancellation can ever arrive *)
  snd (step_pinned f46_state (ARun (HStep 1))) = RBlocked /\
  ready (fst (step_pinned f46_state (ARun (HStep 1)))) = [HStep 1].
Proof.
  assert (Sp : spinning f46_state 1) by (constructor; vm_compute; reflexivity).
  split; [vm_compute; reflexivity|]. split; [vm_compute; reflexivity|]. split; [exact Sp|].
  split; [vm_compute; reflexivity|]. split; [vm_compute; reflexivity|]. split; [vm_compute; reflexivity|].
  split; [vm_compute; reflexivity|]. split; [vm_compute; reflexivity|]. split; [vm_compute; reflexivity|].
  split; [vm_compute; reflexivity|].
  destruct (pinned_spin_step f46_state 1 Sp) as (A & B & _). split; [exact A|apply B].
Qed.

(* ... for ever: after any number of rounds of the loop the task is blocked again, alone in the queue, the scopes
   unchanged (scope 1 cancelled, scope 2 shielded, no delivery callback) *)
Theorem ckif_pinned_spins_for_ever n :
  spinning (pinned_rounds n f46_state 1) 1 /\ scopes (pinned_rounds n f46_state 1) = scopes f46_state /\
  snd (step_pinned (pinned_rounds n f46_state 1) (ARun (HStep 1))) = RBlocked.
Proof. apply pinned_spins_for_ever. constructor; vm_compute; reflexivity. Qed.

(* the same from the initial state on the pinned machine itself (no op of the history re-runs a spinning task, so the two
   machines give the same results op by op) *)
Definition f46_state_pinned : st := final step_pinned init f46_ops.

Example ckif_pinned_run_witness :
  snd (run_ops step_pinned init f46_ops) = snd (run_ops step init f46_ops) /\
  spinning f46_state_pinned 1 /\ eff_cancelled f46_state_pinned 2 = false /\
  s_chandle (scopes f46_state_pinned 1) = false /\ timers f46_state_pinned = [] /\
  forall n, snd (step_pinned (pinned_rounds n f46_state_pinned 1) (ARun (HStep 1))) = RBlocked /\
            ready (pinned_rounds n f46_state_pinned 1) = [HStep 1].
Proof.
  assert (Sp : spinning f46_state_pinned 1) by (constructor; vm_compute; reflexivity).
  split; [vm_compute; reflexivity|]. split; [exact Sp|]. split; [vm_compute; reflexivity|].
  split; [vm_compute; reflexivity|]. split; [vm_compute; reflexivity|].
  intro n. destruct (pinned_spins_for_ever n _ _ Sp) as (A & _ & C). split; [exact C|apply A].
Qed.

(* the same with the two facts that make it the negation of ckif_spin_released_when_nothing_visible on the pinned machine:
   the premises of that theorem hold in f46_state_pinned (spinning; current scope 2 not effectively cancelled), today's
   step returns RRet 0 there, the pinned step suspends again *)
Example ckif_pinned_run_witness_full :
  snd (run_ops step_pinned init f46_ops) = snd (run_ops step init f46_ops) /\
  spinning f46_state_pinned 1 /\ k_cur (tasks f46_state_pinned 1) = Some 2 /\
  eff_cancelled f46_state_pinned 2 = false /\
  s_chandle (scopes f46_state_pinned 1) = false /\ timers f46_state_pinned = [] /\
  snd (step f46_state_pinned (ARun (HStep 1))) = RRet 0 /\
  forall n, snd (step_pinned (pinned_rounds n f46_state_pinned 1) (ARun (HStep 1))) = RBlocked /\
            ready (pinned_rounds n f46_state_pinned 1) = [HStep 1].
Proof.
  destruct ckif_pinned_run_witness as (A & B & C & D & E & F).
  refine (conj A (conj B (conj _ (conj C (conj D (conj E (conj _ F))))))); vm_compute; reflexivity.
Qed.

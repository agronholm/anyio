(* C05 — no residue: theorems, function-level ones (no reachability needed) and the potential in every reachable
   state. *)
From Coq Require Import ZArith Lia.
From AV Require Import Base Machine MachineFacts ScopeFrames DeliverInv TreeInv PotentialInv TreeStep DeliverThms.

Lemma scopes_upd_scope s c g x :
  scopes (upd_scope s c g) x = if Nat.eqb x c then g (scopes s c) else scopes s x.
Proof. reflexivity. Qed.

Lemma tasks_upd_scope s c g : tasks (upd_scope s c g) = tasks s.
Proof. reflexivity. Qed.

Lemma cancel_timeout_timeout s c : s_timeout (scopes (cancel_timeout s c) c) = None.
Proof.
  unfold cancel_timeout. destruct (s_timeout (scopes s c)) eqn:E; [|exact E].
  cbn. unfold upd. now rewrite Nat.eqb_refl.
Qed.

Lemma cancel_timeout_other s c x :
  sc_timeout None (scopes (cancel_timeout s c) x) = sc_timeout None (scopes s x).
Proof.
  unfold cancel_timeout. destruct (s_timeout (scopes s c)) eqn:E; [|reflexivity].
  cbn. unfold upd. destruct (Nat.eqb_spec x c); [subst|]; reflexivity.
Qed.

Lemma cancel_timeout_tasks s c : tasks (cancel_timeout s c) = tasks s.
Proof. apply MachineFacts.cancel_timeout_tasks. Qed.

Lemma cancel_timeout_timers s c tm : s_timeout (scopes s c) = Some tm ->
  timers (cancel_timeout s c) = filter (fun x => negb (Nat.eqb (tm_id x) tm)) (timers s) /\
  ready (cancel_timeout s c) = filter (fun h => negb (is_timer_handle tm h)) (ready s).
Proof. intros E. unfold cancel_timeout. rewrite E. split; reflexivity. Qed.

Definition exit_sc2 (s : st) (c : sid) (t : tid) (y : sid) : scope :=
  let s1 := cancel_timeout (upd_scope s c (sc_active false)) c in
  if Nat.eqb y c then sc_tasks (del t (s_tasks (scopes s1 c))) (scopes s1 c) else scopes s1 y.

Lemma exit_struct_scopes s c t x :
  scopes (exit_struct s c t) x =
  match s_parent (scopes s c) with
  | Some p => if Nat.eqb x p
              then sc_tasks (add t (s_tasks (exit_sc2 s c t p)))
                            (sc_children (del c (s_children (exit_sc2 s c t p))) (exit_sc2 s c t p))
              else exit_sc2 s c t x
  | None => exit_sc2 s c t x
  end.
Proof. unfold exit_struct, exit_sc2. destruct (s_parent (scopes s c)); reflexivity. Qed.

Theorem scope_exit_guarded s c t exc :
  ~ (s_active (scopes s c) = true /\ s_host (scopes s c) = Some t /\ k_cur (tasks s t) = Some c) ->
  scope_exit s c t exc = (s, XRaise ERuntime).
Proof. apply scope_exit_fail. Qed.

Theorem scope_ptr_restored s c t exc :
  s_active (scopes s c) = true -> s_host (scopes s c) = Some t -> k_cur (tasks s t) = Some c ->
  let s' := fst (scope_exit s c t exc) in
  k_cur (tasks s' t) = s_parent (scopes s c) /\
  s_host (scopes s' c) = None /\ s_active (scopes s' c) = false /\ s_timeout (scopes s' c) = None /\
  (forall p, s_parent (scopes s c) = Some p ->
     ~ In c (s_children (scopes s' p)) /\ In t (s_tasks (scopes s' p))) /\
  (s_parent (scopes s c) <> Some c -> ~ In t (s_tasks (scopes s' c))) /\
  (forall tm, s_timeout (scopes s c) = Some tm ->
     (forall x, In x (timers s') -> tm_id x <> tm) /\
     (forall h, In h (ready s') -> is_timer_handle tm h = false)).
Proof.
  intros Ha Hh Hc s'.
  destruct (scope_exit_spec s c t exc (conj Ha (conj Hh Hc))) as [s6 [K E]].
  assert (K' : kframe (exit_struct s c t) s6).
  { eapply kframe_trans; [apply kframe_restart|exact K]. }
  clear K. subst s'. rewrite E. clear E.
  set (s4 := exit_struct s c t) in *.
  assert (F1 : k_cur (tasks s4 t) = s_parent (scopes s c)).
  { unfold s4, exit_struct. cbn. unfold upd. now rewrite Nat.eqb_refl. }
  assert (F2 : s_active (scopes s4 c) = false /\ s_timeout (scopes s4 c) = None).
  { unfold s4, exit_struct. cbn [scopes upd_task set_tasks].
    set (s1 := cancel_timeout (upd_scope s c (sc_active false)) c).
    assert (A1 : s_active (scopes s1 c) = false).
    { pose proof (f_equal s_active (cancel_timeout_other (upd_scope s c (sc_active false)) c c)) as H.
      cbn [s_active sc_timeout] in H. fold s1 in H. rewrite H. cbn. unfold upd. now rewrite Nat.eqb_refl. }
    assert (A2 : s_timeout (scopes s1 c) = None) by apply cancel_timeout_timeout.
    destruct (s_parent (scopes s c)) as [p|]; cbn; unfold upd; rewrite ?Nat.eqb_refl;
      [destruct (Nat.eqb_spec c p) as [<-|]; rewrite ?Nat.eqb_refl|]; cbn; now split. }
  assert (F3 : forall p, s_parent (scopes s c) = Some p ->
               ~ In c (s_children (scopes s4 p)) /\ In t (s_tasks (scopes s4 p))).
  { intros p Hp. unfold s4. rewrite exit_struct_scopes, Hp, Nat.eqb_refl.
    cbn [s_children s_tasks sc_tasks sc_children]. split.
    - intros H. apply in_del in H. now destruct H.
    - apply in_add. now right. }
  assert (F4 : s_parent (scopes s c) <> Some c -> ~ In t (s_tasks (scopes s4 c))).
  { intros Hp. unfold s4. rewrite exit_struct_scopes.
    assert (G : ~ In t (s_tasks (exit_sc2 s c t c))).
    { unfold exit_sc2. rewrite Nat.eqb_refl. cbn [s_tasks sc_tasks]. intros H. apply in_del in H. now destruct H. }
    destruct (s_parent (scopes s c)) as [p|]; [|exact G].
    destruct (Nat.eqb_spec c p); [subst; now elim Hp|exact G]. }
  assert (F5 : forall tm, s_timeout (scopes s c) = Some tm ->
     (forall x, In x (timers s4) -> tm_id x <> tm) /\
     (forall h, In h (ready s4) -> is_timer_handle tm h = false)).
  { intros tm Htm.
    assert (T : timers s4 = timers (cancel_timeout (upd_scope s c (sc_active false)) c) /\
                ready s4 = ready (cancel_timeout (upd_scope s c (sc_active false)) c)).
    { unfold s4, exit_struct. destruct (s_parent (scopes s c)); split; reflexivity. }
    destruct T as [T1 T2]. rewrite T1, T2.
    destruct (cancel_timeout_timers (upd_scope s c (sc_active false)) c tm) as [E1 E2].
    { cbn. unfold upd. rewrite Nat.eqb_refl. exact Htm. }
    rewrite E1, E2. split.
    - intros x Hx. apply filter_In in Hx. destruct Hx as [_ Hx].
      intros Hid. rewrite Hid, Nat.eqb_refl in Hx. discriminate.
    - intros h Hh'. apply filter_In in Hh'. destruct Hh' as [_ Hh']. now destruct (is_timer_handle tm h). }
  pose proof (kf_scopes _ _ K') as Ks. pose proof (kf_tasks _ _ K') as Kt.
  refine (conj _ (conj _ (conj _ (conj _ (conj _ (conj _ _)))))).
  - rewrite tasks_upd_scope. rewrite (tcore_cur _ _ (Kt t)). exact F1.
  - rewrite scopes_upd_scope, Nat.eqb_refl. reflexivity.
  - rewrite scopes_upd_scope, Nat.eqb_refl. cbn. rewrite (core_active _ _ (Ks c)). apply F2.
  - rewrite scopes_upd_scope, Nat.eqb_refl. cbn. rewrite (core_timeout _ _ (Ks c)). apply F2.
  - intros p Hp. rewrite scopes_upd_scope.
    destruct (Nat.eqb_spec p c) as [->|Hne]; cbn [s_children s_tasks sc_host];
      rewrite ?(core_children _ _ (Ks c)), ?(core_tasks _ _ (Ks c)),
              ?(core_children _ _ (Ks p)), ?(core_tasks _ _ (Ks p)); now apply F3.
  - intros Hp. rewrite scopes_upd_scope, Nat.eqb_refl. cbn. rewrite (core_tasks _ _ (Ks c)). now apply F4.
  - intros tm Htm. destruct (F5 tm Htm) as [G1 G2]. split.
    + cbn. rewrite (kf_timers _ _ K'). exact G1.
    + cbn. destruct (kf_ready _ _ K') as [l [El Fl]]. rewrite El. intros h Hin.
      apply in_app_or in Hin. destruct Hin as [Hin|Hin]; [now apply G2|].
      rewrite Forall_forall in Fl. specialize (Fl h Hin). destruct h; cbn in Fl; try contradiction; reflexivity.
Qed.

(* explicit uncancel() stays within the requests that came from outside the task's own scopes *)
Definition unc_ok (s : st) (o : op) : bool :=
  match o with
  | AUncancel t => Nat.ltb (pending_of s t) (k_ncancel (tasks s t))
  | _ => true
  end.

Fixpoint ops_ok2 (s : st) (ops : list op) : bool :=
  match ops with
  | [] => true
  | o :: r => op_ok s o && unc_ok s o && ops_ok2 (fst (step s o)) r
  end.

Definition reach_ok2 (s : st) : Prop := exists ops, ops_ok2 init ops = true /\ s = final step init ops.

Lemma ops_ok2_ops_ok ops : forall s, ops_ok2 s ops = true -> ops_ok s ops = true.
Proof.
  induction ops as [|o r IH]; intros s H; cbn in *; [reflexivity|].
  apply andb_true_iff in H. destruct H as [H1 H2]. apply andb_true_iff in H1. destruct H1 as [H0 _].
  rewrite H0. cbn. now apply IH.
Qed.

Lemma reach_ok2_reach_ok s : reach_ok2 s -> reach_ok s.
Proof. intros [ops [H E]]. exists ops. split; [now apply ops_ok2_ops_ok|exact E]. Qed.

Lemma reach_ok2_sinv s : reach_ok2 s -> SInv s.
Proof. intros H. apply reach_sinv. now apply reach_ok2_reach_ok. Qed.

Lemma ops_ok2_app s a b : ops_ok2 s (a ++ b) = ops_ok2 s a && ops_ok2 (final step s a) b.
Proof.
  revert s. induction a as [|o a IH]; intros s; [reflexivity|]. cbn [app ops_ok2 final fold_left].
  now rewrite IH, andb_assoc.
Qed.

Lemma reach_ok2_final ops s : reach_ok2 s -> ops_ok2 s ops = true -> reach_ok2 (final step s ops).
Proof.
  intros [ops0 [H ->]] Ho. exists (ops0 ++ ops). split; [|now rewrite final_app].
  now rewrite ops_ok2_app, H.
Qed.

Lemma reach_ok2_step s o : reach_ok2 s -> op_ok s o = true -> unc_ok s o = true -> reach_ok2 (fst (step s o)).
Proof. intros R Ho Hu. apply (reach_ok2_final [o] s R). cbn. now rewrite Ho, Hu. Qed.

Lemma reach_ok2_ind (P : st -> Prop) :
  P init ->
  (forall s o, reach_ok2 s -> P s -> op_ok s o = true -> unc_ok s o = true -> P (fst (step s o))) ->
  forall s, reach_ok2 s -> P s.
Proof.
  intros P0 Ps s [ops [H ->]]. revert H.
  assert (R0 : reach_ok2 init) by (exists []; now split). revert R0 P0. generalize init.
  induction ops as [|o r IH]; intros s R p H; [exact p|]. cbn [ops_ok2] in H.
  apply andb_true_iff in H. destruct H as [H1 H2]. apply andb_true_iff in H1. destruct H1 as [Ho Hu].
  apply IH; [now apply reach_ok2_step|now apply (Ps s o)|exact H2].
Qed.

(* the two outside influences, as ops *)
Lemma uncancel_op_state s t : idle s t = true ->
  inert (task_uncancel (begin_act s t) t) (fst (step s (AUncancel t))) /\
  inert s (begin_act s t).
Proof.
  intros Hi. split; [|apply (quiet_inert t), quiet_begin_act].
  rewrite (step_puppet s (AUncancel t) t eq_refl Hi). unfold puppet_op. apply (quiet_inert t), quiet_ret_to_puppet.
Qed.

Lemma PInv_step s o : SInv s -> PInv s -> op_ok s o = true -> unc_ok s o = true -> PInv (fst (step s o)).
Proof.
  intros I P Hok Hu.
  assert (Q : quiet_op o -> PInv (fst (step s o))).
  { intros Hq. destruct (step_g s o I Hok Hq) as [[_ Ps] _]. now apply Ps. }
  destruct o; try (apply Q; exact Logic.I).
  - (* AUncancel *)
    destruct (idle s t) eqn:Hi.
    + destruct (uncancel_op_state s t Hi) as [I2 I1].
      apply (PInv_inert _ _ (uncancel_PInv (begin_act s t) t (PInv_inert _ _ P I1)
               ltac:(rewrite (pending_of_inert _ _ t I1), (in_task _ _ I1 t); cbn [unc_ok] in Hu; now apply Nat.ltb_lt in Hu)) I2).
    + now rewrite (step_busy s (AUncancel t) t eq_refl Hi).
  - (* ANativeCancel *)
    cbn [step actor fst]. now apply native_cancel_PInv.
Qed.

Lemma PInv_init : PInv init.
Proof. constructor; [intros c _; reflexivity|intros t; cbn; lia]. Qed.

Lemma reach_ok2_pinv s : reach_ok2 s -> PInv s.
Proof.
  apply reach_ok2_ind; [apply PInv_init|]. intros a o R P. apply PInv_step; [now apply reach_ok2_sinv|exact P].
Qed.

(* I5, first half: the counter never falls below the debts of the task's own scopes, and a scope without a host
   owes nothing *)
Theorem potential_nonneg s : reach_ok2 s ->
  (forall t, pending_of s t <= k_ncancel (tasks s t)) /\
  (forall c, s_host (scopes s c) = None -> s_pending (scopes s c) = 0).
Proof. intros R. split; apply (reach_ok2_pinv s R). Qed.

(* I5: what one op does to the potential phi t = ncancel t - (debts of the scopes hosted by t) *)
Theorem own_cancels_compensated s o t :
  reach_ok2 s -> op_ok s o = true -> unc_ok s o = true -> alloc_t s t ->
  let s' := fst (step s o) in
  match o with
  | ANativeCancel t0 =>
      phi s' t = (if Nat.eqb t t0 then (if k_done (tasks s t0) then phi s t else phi s t + 1) else phi s t)%Z
  | AUncancel t0 =>
      phi s' t = (if Nat.eqb t t0 && idle s t0 then phi s t - 1 else phi s t)%Z
  | _ => (phi s t <= phi s' t)%Z /\ (k_group (tasks s t) = None -> phi s' t = phi s t)
  end.
Proof.
  intros R Hok Hu A. pose proof (reach_ok2_sinv s R) as I. pose proof (reach_ok2_pinv s R) as P. cbv zeta.
  assert (Q : quiet_op o -> (phi s t <= phi (fst (step s o)) t)%Z /\
                         (k_group (tasks s t) = None -> phi (fst (step s o)) t = phi s t)).
  { intros Hq. destruct (step_g s o I Hok Hq) as [[_ Ps] _]. destruct (Ps P) as [_ F]. now apply F. }
  destruct o; try (apply Q; exact Logic.I).
  - (* AUncancel *)
    destruct (idle s t0) eqn:Hi.
    + destruct (uncancel_op_state s t0 Hi) as [I2 I1].
      rewrite (phi_inert _ _ t I2), uncancel_phi, (phi_inert _ _ t I1), (in_task _ _ I1 t0).
      cbn [unc_ok] in Hu. apply Nat.ltb_lt in Hu.
      destruct (Nat.eqb t t0); cbn [andb]; [|reflexivity].
      destruct (Nat.eqb_spec (k_ncancel (tasks s t0)) 0); [lia|reflexivity].
    + now rewrite (step_busy s (AUncancel t0) t0 eq_refl Hi), andb_false_r.
  - (* ANativeCancel *)
    cbn [step actor fst]. destruct (k_done (tasks s t0)) eqn:Hd.
    + rewrite task_cancel_done_noop; [|congruence]. destruct (Nat.eqb t t0); reflexivity.
    + rewrite (native_cancel_phi s t0 Hd t). destruct (Nat.eqb t t0); reflexivity.
Qed.

(* allocation and group membership of existing tasks never change *)
Lemma step_ids s o : SInv s -> op_ok s o = true -> ids s (fst (step s o)).
Proof.
  intros I Hok. destruct o; try (exact (proj2 (step_g s _ I Hok Logic.I))).
  - destruct (idle s t) eqn:Hi; [|rewrite (step_busy s (AUncancel t) t eq_refl Hi); intros x A; now split].
    rewrite (step_puppet s (AUncancel t) t eq_refl Hi). unfold puppet_op. apply ids_treq.
    eapply treq_trans; [apply (quiet_treq t), quiet_begin_act|].
    eapply treq_trans; [apply treq_task_uncancel|apply (quiet_treq t), quiet_ret_to_puppet].
  - cbn [step actor fst]. apply ids_treq, treq_task_cancel.
Qed.

Definition ext_delta (s : st) (o : op) (t : tid) : Z :=
  match o with
  | ANativeCancel t0 => if Nat.eqb t t0 then (if k_done (tasks s t0) then 0 else 1) else 0
  | AUncancel t0 => if Nat.eqb t t0 && idle s t0 then -1 else 0
  | _ => 0
  end%Z.

Fixpoint ext_count (s : st) (ops : list op) (t : tid) : Z :=
  match ops with
  | [] => 0%Z
  | o :: r => (ext_delta s o t + ext_count (fst (step s o)) r t)%Z
  end.

(* own_cancels_compensated, with the outside influences written as ext_delta *)
Lemma step_potential s o t :
  reach_ok2 s -> op_ok s o = true -> unc_ok s o = true -> alloc_t s t ->
  (phi s t + ext_delta s o t <= phi (fst (step s o)) t)%Z /\
  (k_group (tasks s t) = None -> phi (fst (step s o)) t = (phi s t + ext_delta s o t)%Z).
Proof.
  intros R Ho Hu A. pose proof (own_cancels_compensated s o t R Ho Hu A) as St. cbv zeta in St.
  destruct o; cbn [ext_delta]; try (split; [|intros G; rewrite (proj2 St G)]; lia).
  - rewrite St. destruct (Nat.eqb t t0 && idle s t0); split; intros; lia.
  - rewrite St. destruct (Nat.eqb t t0); [destruct (k_done (tasks s t0))|]; split; intros; lia.
Qed.

(* along a run every task keeps its potential up to the outside influences, from below; a task that is not a
   group child keeps it exactly *)
Lemma potential_along_run ops : forall s t,
  reach_ok2 s -> ops_ok2 s ops = true -> alloc_t s t ->
  alloc_t (final step s ops) t /\
  (phi s t + ext_count s ops t <= phi (final step s ops) t)%Z /\
  (k_group (tasks s t) = None -> phi (final step s ops) t = (phi s t + ext_count s ops t)%Z).
Proof.
  induction ops as [|o r IH]; intros s t R H A; cbn [final fold_left ext_count]; [split; [exact A|lia]|].
  cbn [ops_ok2] in H. apply andb_true_iff in H. destruct H as [H1 H2]. apply andb_true_iff in H1. destruct H1 as [Ho Hu].
  destruct (step_potential s o t R Ho Hu A) as [D1 D2].
  destruct (step_ids s o (reach_ok2_sinv s R) Ho t A) as [A' G'].
  change (fold_left (fun s0 o0 => fst (step s0 o0)) r (fst (step s o))) with (final step (fst (step s o)) r).
  destruct (IH (fst (step s o)) t (reach_ok2_step s o R Ho Hu) H2 A') as [Af [L E]]. rewrite G' in E.
  split; [exact Af|]. split; [lia|]. intros G. rewrite (E G), (D2 G). lia.
Qed.

(* for a task that is not a group child, only native cancel() and explicit uncancel() move the potential:
   whatever scopes it entered, cancelled and left in between *)
Theorem cancelling_restored ops : forall s t,
  reach_ok2 s -> ops_ok2 s ops = true -> alloc_t s t -> k_group (tasks s t) = None ->
  phi (final step s ops) t = (phi s t + ext_count s ops t)%Z.
Proof. intros s t R H A. apply (potential_along_run ops s t R H A). Qed.

(* in particular: whenever the task owes nothing (it hosts no scope with outstanding deliveries), its native
   counter is its earlier value plus native cancels minus explicit uncancels *)
Corollary cancelling_restored_counter ops s t :
  reach_ok2 s -> ops_ok2 s ops = true -> alloc_t s t -> k_group (tasks s t) = None ->
  pending_of s t = 0 -> pending_of (final step s ops) t = 0 ->
  Z.of_nat (k_ncancel (tasks (final step s ops) t)) = (Z.of_nat (k_ncancel (tasks s t)) + ext_count s ops t)%Z.
Proof.
  intros R H A G P0 P1. pose proof (cancelling_restored ops s t R H A G) as E. unfold phi in E.
  rewrite P0, P1 in E. lia.
Qed.

Theorem exit_debt_settled s c t exc :
  s_active (scopes s c) = true -> s_host (scopes s c) = Some t -> k_cur (tasks s t) = Some c ->
  s_parent (scopes s c) <> Some c ->
  let s5 := restart (exit_struct s c t) (s_parent (scopes s c)) in
  let n := s_pending (scopes s5 c) in
  let sf := fst (scope_exit s c t exc) in
  s_pending (scopes sf c) = 0 /\ s_host (scopes sf c) = None /\
  ((* pending_handover: the parent is hosted by the same task and takes the debt over *)
   (exists p, s_parent (scopes s c) = Some p /\ s_host (scopes s5 p) = Some t /\
              s_pending (scopes sf p) = s_pending (scopes s5 p) + n /\
              k_ncancel (tasks sf t) = k_ncancel (tasks s5 t)) \/
   (* the debt is paid back with uncancel() *)
   (k_ncancel (tasks sf t) = k_ncancel (tasks s5 t) - n /\
    forall x, x <> c -> s_pending (scopes sf x) = s_pending (scopes s5 x))) /\
  (* no_foreign_handover: a scope hosted by another task never receives the debt *)
  (forall x, x <> c -> s_host (scopes s5 x) <> Some t -> s_pending (scopes sf x) = s_pending (scopes s5 x)) /\
  (forall t', t' <> t -> k_ncancel (tasks sf t') = k_ncancel (tasks s5 t')).
Proof.
  intros Ha Hh Hc Hpc. cbv zeta.
  destruct (scope_exit_acct s c t exc (conj Ha (conj Hh Hc)) Hpc) as [_ [hand [Hhand [Fh [Fp Fn]]]]].
  refine (conj _ (conj _ (conj _ (conj _ _)))).
  - rewrite Fp, Nat.eqb_refl. reflexivity.
  - rewrite Fh, Nat.eqb_refl. reflexivity.
  - destruct hand.
    + left. destruct (Hhand eq_refl) as [p [Ep Hp]]. exists p. split; [exact Ep|]. split; [exact Hp|].
      assert (p <> c) by (intros ->; now apply Hpc). split.
      * rewrite Fp. destruct (Nat.eqb_spec p c); [contradiction|]. rewrite Ep. cbn. now rewrite Nat.eqb_refl.
      * rewrite Fn, andb_false_r. reflexivity.
    + right. split.
      * rewrite Fn, Nat.eqb_refl. reflexivity.
      * intros x Hx. rewrite Fp. destruct (Nat.eqb_spec x c); [contradiction|reflexivity].
  - intros x Hx Hn. rewrite Fp. destruct (Nat.eqb_spec x c); [contradiction|].
    destruct (hand && opt_eqb (s_parent (scopes s c)) x) eqn:E; [|reflexivity].
    apply andb_true_iff in E. destruct E as [E1 E2]. apply opt_eqb_Some in E2.
    destruct (Hhand E1) as [p [Ep Hp]]. rewrite Ep in E2. inversion E2; subst p. contradiction.
  - intros t' Hne. rewrite Fn. destruct (Nat.eqb_spec t' t); [contradiction|reflexivity].
Qed.

Lemma inactive_empty s c : Tree s -> s_active (scopes s c) = false ->
  s_tasks (scopes s c) = [] /\ s_children (scopes s c) = [].
Proof.
  intros T Ic. split.
  - apply no_members. intros x Hx. apply (tr_task _ T) in Hx. apply (tr_cur_act _ T) in Hx. congruence.
  - apply no_members. intros x Hx. apply (tr_child _ T) in Hx. destruct Hx as [Ha Hp].
    pose proof (tr_par_act _ T x c Ha Hp). congruence.
Qed.

Theorem leftover_deliver_runs_once s c :
  reach_ok s -> s_active (scopes s c) = false -> In (HDeliver c) (ready s) ->
  let s' := fst (step s (ARun (HDeliver c))) in
  s_chandle (scopes s' c) = false /\ ready s' = remove_first (HDeliver c) (ready s) /\
  tasks s' = tasks s /\ timers s' = timers s /\
  (forall x, x <> c -> scopes s' x = scopes s x).
Proof.
  intros R Ic Hin s'. destruct (inactive_empty s c (reach_tree s R) Ic) as [Et Ec].
  unfold s'. cbn [step actor]. rewrite (run_handle_in s _ Hin). cbn [fst].
  set (s1 := set_running (dequeue s (HDeliver c)) None).
  assert (E : deliver_top s1 c = upd_scope s1 c (sc_chandle false)).
  { unfold deliver_top. rewrite deliver_S.
    change (s_tasks (scopes s1 c)) with (s_tasks (scopes s c)). rewrite Et. cbn [fold_left].
    change (s_children (scopes s1 c)) with (s_children (scopes s c)). rewrite Ec. cbn [fold_left].
    now rewrite Nat.eqb_refl. }
  rewrite E. refine (conj _ (conj _ (conj _ (conj _ _)))); try reflexivity.
  - cbn. unfold upd. now rewrite Nat.eqb_refl.
  - intros x Hx. cbn. unfold upd. destruct (Nat.eqb_spec x c); [contradiction|reflexivity].
Qed.

(* a root task enters scope 1, is cancelled in it while blocked, the delivery hits it twice, it is resumed,
   leaves the scope absorbing the cancellation: cancelling() is back at 0 *)
Definition ex5_ops : list op :=
  [ANewRoot; ANewScope 1 None false; AEnter 1 1; ASleep 1 None; AExtCancel 1; ARun (HDeliver 1);
   ARun (HWake 1 4); AExit 1 1 false].

Example ex5_ok : ops_ok2 init ex5_ops = true.
Proof. vm_compute. reflexivity. Qed.

Example ex5_counter :
  let s := final step init ex5_ops in
  k_ncancel (tasks s 1) = 0 /\ s_pending (scopes s 1) = 0 /\ s_host (scopes s 1) = None /\
  k_cur (tasks s 1) = None /\ ext_count init ex5_ops 1 = 0%Z.
Proof. vm_compute. repeat split. Qed.

(* ... and in the middle of it the task did owe something *)
Example ex5_middle :
  let s := final step init (firstn 6 ex5_ops) in
  k_ncancel (tasks s 1) = 1 /\ pending_of s 1 = 1 /\ phi s 1 = 0%Z.
Proof. vm_compute. repeat split. Qed.

(* the loop goes idle (partial):
   Once every task is done no delivery callback keeps itself alive: whichever one runs finds nobody to reach and
   clears its handle.  (The bound on the number of remaining callbacks and the statement about timers:
   CycleThms.loop_goes_idle.) *)
Theorem loop_goes_idle_partial s c :
  reach_ok s -> (forall t, k_done (tasks s t) <> None) -> In (HDeliver c) (ready s) ->
  s_chandle (scopes (fst (step s (ARun (HDeliver c)))) c) = false.
Proof.
  intros R Hd Hin. destruct (deliver_cancels_reach s c R Hin) as [_ [_ [Hno _]]]. apply Hno.
  intros [t [D _]]. now apply (Hd t).
Qed.

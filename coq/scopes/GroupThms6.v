(* C02: the first failure cancels the group.  C07: routing of the child's outcome, the value start() returns,
   joining the child after the caller was interrupted. *)
From AV Require Import Base Machine MachineFacts GroupInv GroupInv2 GroupInv3 GroupInv4 GroupInv5 GroupInv7
  GroupInv8 GroupInv9 GroupWalk GroupThms2.

Lemma eff_cancelled_self s c : 1 <= nscope s -> s_cancelled (scopes s c) = true -> eff_cancelled s c = true.
Proof.
  intros Hn Hc. unfold eff_cancelled. destruct (nscope s) as [|n]; [lia|]. cbn [eff_cancelled_from]. now rewrite Hc.
Qed.

Lemma cancelled_after_scope_cancel s c b :
  s_cancelled (scopes (scope_cancel s c b) c) = true /\ nscope (scope_cancel s c b) = nscope s /\
  groups (scope_cancel s c b) = groups s.
Proof.
  pose proof (kframe_kstar _ _ _ _ (ks_scope_cancel none_s none_t s c b)) as F.
  refine (conj _ (conj (fr_nscope _ _ _ _ F) (fr_groups _ _ _ _ F))).
  unfold scope_cancel. destruct (s_cancelled (scopes s c)) eqn:Ec; [exact Ec|].
  set (s2 := upd_scope (cancel_timeout s c) c _).
  assert (H2 : s_cancelled (scopes s2 c) = true).
  { unfold s2. cbn [upd_scope set_scopes scopes]. rewrite upd_same. reflexivity. }
  destruct (s_host (scopes s2 c)); [|exact H2].
  apply (fr_canc _ _ _ _ (kframe_kstar _ _ _ _ (ks_deliver_top none_s none_t s2 c))), H2.
Qed.

Lemma cancel_end_eff s5 g : 1 <= nscope s5 ->
  let r := if eff_cancelled s5 (g_scope (groups s5 g)) then s5 else scope_cancel s5 (g_scope (groups s5 g)) false in
  eff_cancelled r (g_scope (groups r g)) = true.
Proof.
  intros Hn. cbn zeta. destruct (eff_cancelled s5 (g_scope (groups s5 g))) eqn:E; [exact E|].
  destruct (cancelled_after_scope_cancel s5 (g_scope (groups s5 g)) false) as [H1 [H2 H3]].
  rewrite H3. apply eff_cancelled_self; [lia|exact H1].
Qed.

Lemma cancel_own_eff s5 g : 1 <= nscope s5 ->
  let r := scope_cancel s5 (g_scope (groups s5 g)) false in
  s_cancelled (scopes r (g_scope (groups r g))) = true /\ eff_cancelled r (g_scope (groups r g)) = true.
Proof.
  intros Hn. cbn zeta.
  destruct (cancelled_after_scope_cancel s5 (g_scope (groups s5 g)) false) as [H1 [H2 H3]].
  rewrite H3. split; [exact H1|]. apply eff_cancelled_self; [lia|exact H1].
Qed.

(* C02 (F23): when the task_done callback of a member routes a (non-cancellation) exception to the group, the
   group's OWN cancel scope is cancelled (cancel() has been called on it) at the end of that callback - whatever
   the state of the enclosing scopes - and hence it is effectively cancelled *)
Theorem first_failure_cancels_group s t g : reach s -> In (HTaskDone t) (ready s) ->
  k_group (tasks s t) = Some g ->
  let s' := fst (step s (ARun (HTaskDone t))) in
  g_excs (groups s' g) <> g_excs (groups s g) ->
  s_cancelled (scopes s' (g_scope (groups s' g))) = true /\ eff_cancelled s' (g_scope (groups s' g)) = true.
Proof.
  intros R Hin Hg. cbn zeta. pose proof (reachable s R) as [M0 _].
  assert (Hn : 1 <= nscope s) by (apply (c_n s (m_c s M0))).
  rewrite (step_run_in s _ Hin). cbn [fst]. rewrite run_task_done_eq.
  change (tasks (dequeue s (HTaskDone t))) with (tasks s). rewrite Hg. unfold done_tail.
  set (s3 := done_struct (set_running (dequeue s (HTaskDone t)) None) t g).
  assert (E3 : g_excs (groups s3 g) = g_excs (groups s g) /\ nscope s3 = nscope s).
  { unfold s3, done_struct. change (tasks (set_running (dequeue s (HTaskDone t)) None)) with (tasks s).
    cbn [upd_task set_tasks upd_group set_groups groups nscope]. rewrite upd_same.
    destruct (k_cur (tasks s t)); auto. }
  destruct E3 as [X3 N3].
  assert (E4 : groups (done_wake s3 g) = groups s3 /\ nscope (done_wake s3 g) = nscope s3).
  { destruct (td_wake_shape s3 g); [auto|]. now rewrite fc_groups, fc_nscope. }
  revert E4. generalize (done_wake s3 g) as s4. intros s4 [E4 N4].
  destruct (td_end_shape s4 (tasks s t) g t) as [|f _ _|e _ _ _|e _ _]; intros Hne.
  - elim Hne. now rewrite E4.
  - elim Hne. now rewrite fc_groups, E4.
  - elim Hne. now rewrite groups_scope_cancel, E4.
  - set (s5 := upd_group s4 g (fun x => gr_excs (g_excs x ++ [(t, e)]) x)).
    replace (g_scope (groups s4 g)) with (g_scope (groups s5 g))
      by (unfold s5; cbn [upd_group set_groups groups]; now rewrite upd_same).
    apply cancel_own_eff. change (nscope s5) with (nscope s4). lia.
Qed.

(* a start future is referenced by nothing else that could complete it *)
Theorem start_future_exclusive s c f : reach s -> k_startfut (tasks s c) = Some f ->
  (forall e, ~ In f (e_waiters (events s e))) /\ (forall g, g_fut (groups s g) <> Some f) /\
  ~ sleepref s f /\ (forall c', k_startfut (tasks s c') = Some f -> c' = c) /\ f < nfut s.
Proof.
  intros R Hf. destruct (reachable s R) as [[K Ci G J] _].
  refine (conj _ (conj _ (conj _ (conj _ _)))).
  - intros e He. exact (kk_es s J f e c He Hf).
  - intros g. apply (kk_sg s J f c g Hf).
  - apply (kk_st s J f c Hf).
  - intros c' H. apply (kk_ss s J f c' c H Hf).
  - apply (b_sf s G c f Hf).
Qed.

Lemma futs_ret_old s t r x : x < nfut s -> f_st (futs (fst (ret_to_puppet s t r)) x) = f_st (futs s x).
Proof. intros Hx. rewrite (kx_futs _ _ _ _ (ret_to_puppet_fix s t r)); [reflexivity|lia]. Qed.

(* started(v) on a pending start future stores v *)
Theorem started_sets_value s t v f : reach s -> idle s t = true -> k_startfut (tasks s t) = Some f ->
  f_st (futs s f) = FPend -> f_st (futs (fst (step s (AStarted t v))) f) = FRes v.
Proof.
  intros R Hi Hf Hp. destruct (reachable s R) as [[K Ci G J] _].
  pose proof (b_sf s G t f Hf) as Hlt.
  cbn [step actor]. rewrite Hi. cbn [negb]. unfold puppet_op.
  assert (E1 : k_startfut (tasks (begin_act s t) t) = Some f) by (unfold begin_act; tcase t t; [exact Hf|contradiction]).
  rewrite E1. change (futs (begin_act s t)) with (futs s). rewrite Hp.
  rewrite futs_ret_old; [|rewrite fc_nfut; exact Hlt].
  destruct (fc_spec (begin_act s t) f (FRes v)) as [[H _]|[_ [Ef _]]]; [contradiction|].
  rewrite Ef, upd_same. reflexivity.
Qed.

(* a second started() leaves the future alone *)
Theorem second_started_keeps_future s t v f : reach s -> idle s t = true -> k_startfut (tasks s t) = Some f ->
  f_st (futs s f) <> FPend -> f_st (futs (fst (step s (AStarted t v))) f) = f_st (futs s f).
Proof.
  intros R Hi Hf Hp. destruct (reachable s R) as [[K Ci G J] _].
  pose proof (b_sf s G t f Hf) as Hlt.
  cbn [step actor]. rewrite Hi. cbn [negb]. unfold puppet_op.
  assert (E1 : k_startfut (tasks (begin_act s t) t) = Some f) by (unfold begin_act; tcase t t; [exact Hf|contradiction]).
  rewrite E1. change (futs (begin_act s t)) with (futs s).
  destruct (f_st (futs s f)) eqn:E; [exfalso; apply Hp; reflexivity| | |]; rewrite futs_ret_old; auto.
Qed.

Ltac start_wait_exc Hr :=
  match type of Hr with context [handle_pending ?a ?b] => destruct (handle_pending a b) end;
  [ rewrite new_scope_eq in Hr; cbn zeta in Hr;
    match type of Hr with context [event_wait ?a ?b ?d] => destruct (event_wait a b d) end;
    cbn [snd blocked] in Hr; discriminate
  | cbn [snd ret_to_puppet] in Hr; discriminate ].

(* start() returns v only if the start future holds v *)
Theorem start_returns_started_value s t g c f h v : reach s -> k_ctl (tasks s t) = CStartWait g c f ->
  (h = HStep t \/ exists f', h = HWake t f') -> snd (step s (ARun h)) = RRet v ->
  f_st (futs s f) = FRes v /\ h = HWake t f.
Proof.
  intros R Hc Hh Hr. destruct (reachable s R) as [[K Ci G J] Hrun].
  assert (Hnr : running s <> Some t) by (rewrite Hrun; discriminate).
  pose proof (c_w s Ci t Hnr) as Hw. rewrite Hc in Hw. cbn in Hw.
  cbn [step actor] in Hr. unfold run_handle in Hr.
  destruct (existsb (handle_eqb h) (ready s)) eqn:Eh; cbn [negb] in Hr; [|discriminate].
  apply existsb_handle in Eh. fold (dequeue s h) in Hr.
  destruct Hh as [->|[f' ->]].
  - destruct (k_step s K t Eh) as [H _]. congruence.
  - destruct (k_wake s K t f' Eh) as [H1 H2]. assert (f' = f) by congruence. subst f'.
    split; [|reflexivity].
    rewrite resume_unfold in Hr. cbn zeta in Hr.
    change (k_ctl (tasks (dequeue s (HWake t f)) t)) with (k_ctl (tasks s t)) in Hr. rewrite Hc in Hr.
    unfold incoming in Hr. cbn [snd] in Hr.
    change (futs (dequeue s (HWake t f))) with (futs s) in Hr. change (tasks (dequeue s (HWake t f))) with (tasks s) in Hr.
    destruct (f_st (futs s f)) as [|v'|e|o] eqn:Ef; [exfalso; apply H2; reflexivity| | |].
    + destruct (k_must (tasks s t)).
      * exfalso. start_wait_exc Hr.
      * cbn [snd ret_to_puppet] in Hr. unfold fut_value in Hr.
        change (futs (incs (dequeue s (HWake t f)) t)) with (futs s) in Hr. rewrite Ef in Hr. injection Hr as ->. reflexivity.
    + exfalso. destruct (k_must (tasks s t)); [destruct e|]; start_wait_exc Hr.
    + exfalso. destruct (k_must (tasks s t)); start_wait_exc Hr.
Qed.

(* the child ends before started(): task_done puts its outcome into the start future (RuntimeError if it merely
   returned); the group's exception list and every scope's cancel flag are left alone *)
Definition routed_exc (d : option outcome) : exn :=
  match d with Some (OExc e) => e | Some (OCanc e) => e | _ => ERuntime end.

Theorem start_pre_started_failure_routed s t g f : reach s -> In (HTaskDone t) (ready s) ->
  k_group (tasks s t) = Some g -> k_startfut (tasks s t) = Some f -> f_st (futs s f) = FPend ->
  let s' := fst (step s (ARun (HTaskDone t))) in
  f_st (futs s' f) = FExc (routed_exc (k_done (tasks s t))) /\
  g_excs (groups s' g) = g_excs (groups s g) /\
  (forall c, s_cancelled (scopes s' c) = s_cancelled (scopes s c)).
Proof.
  intros R Hin Hg Hsf Hp. cbn zeta. pose proof (reachable s R) as [M0 _].
  pose proof (kk_sg s (m_j s M0) f t) as Hkk.
  rewrite (step_run_in s _ Hin). cbn [fst].
  set (s0 := dequeue s (HTaskDone t)).
  change (groups s) with (groups s0) in *. change (scopes s) with (scopes s0).
  change (tasks s) with (tasks s0) in *. change (futs s) with (futs s0) in *.
  clearbody s0. clear Hin M0 R.
  rewrite run_task_done_eq, Hg. unfold done_tail, done_end, done_wake, done_exc, done_struct. cbv zeta.
  change (tasks (set_running s0 None) t) with (tasks s0 t). rewrite Hsf.
  set (s1 := match k_cur (tasks s0 t) with Some c => _ | None => _ end).
  assert (E1 : groups s1 = groups s0 /\ futs s1 = futs s0 /\ forall c, s_cancelled (scopes s1 c) = s_cancelled (scopes s0 c)).
  { unfold s1. destruct (k_cur (tasks s0 t)) as [c0|]; [|auto]. refine (conj eq_refl (conj eq_refl _)).
    intros c. cbn [upd_scope set_scopes set_running scopes]. unfold upd. destruct (Nat.eqb_spec c c0); [subst; reflexivity|reflexivity]. }
  destruct E1 as [G1 [F1 C1]].
  change (upd_task (upd_group s1 g _) t _) with (tdcore s1 t g). set (s3 := tdcore s1 t g).
  destruct (tdcore_groups s1 t g g) as [_ [X3 [_ [GF3 _]]]]. fold s3 in X3, GF3.
  set (s4 := match g_fut (groups s3 g) with Some f0 => _ | None => _ end).
  assert (E4 : groups s4 = groups s3 /\ scopes s4 = scopes s1 /\ f_st (futs s4 f) = FPend).
  { unfold s4. destruct (g_fut (groups s3 g)) as [f0|] eqn:Ef0.
    - assert (Hne : f0 <> f).
      { intros E. apply (Hkk g Hsf). rewrite <- G1, <- GF3, E. reflexivity. }
      destruct (g_tasks (groups s3 g)).
      + rewrite fc_groups, fc_scopes. refine (conj eq_refl (conj eq_refl _)).
        rewrite fc_frame_other; [|congruence]. change (futs s3) with (futs s1). now rewrite F1.
      + refine (conj eq_refl (conj eq_refl _)). change (futs s3) with (futs s1). now rewrite F1.
    - refine (conj eq_refl (conj eq_refl _)). change (futs s3) with (futs s1). now rewrite F1. }
  destruct E4 as [G4 [S4 P4]]. rewrite P4.
  assert (Hfin : forall e, f_st (futs (fut_complete s4 f (FExc e)) f) = FExc e /\
             g_excs (groups (fut_complete s4 f (FExc e)) g) = g_excs (groups s0 g) /\
             (forall c, s_cancelled (scopes (fut_complete s4 f (FExc e)) c) = s_cancelled (scopes s0 c))).
  { intros e. rewrite fc_groups, fc_scopes, G4, X3, G1, S4. refine (conj _ (conj eq_refl C1)).
    destruct (fc_spec s4 f (FExc e)) as [[H _]|[_ [Ef _]]]; [contradiction|]. rewrite Ef, upd_same. reflexivity. }
  destruct (k_done (tasks s0 t)) as [[v|e|e]|]; cbn [routed_exc]; apply Hfin.
Qed.

Lemma ctl_after_ret s t r : k_ctl (tasks (fst (ret_to_puppet s t r)) t) = CIdle.
Proof. apply ret_to_puppet_ctl. Qed.

(* the running task is skipped by _deliver_cancellation *)
Definition rr (t : tid) (X Y : st) : Prop := running X = Some t -> tasks Y t = tasks X t /\ running Y = Some t.

Lemma rr_refl t X : rr t X X.
Proof. intros H. auto. Qed.

Lemma rr_trans t A B C : rr t A B -> rr t B C -> rr t A C.
Proof. intros H1 H2 Hr. destruct (H1 Hr) as [E1 R1]. destruct (H2 R1) as [E2 R2]. split; [congruence|exact R2]. Qed.

Lemma rr_eq t X Y : tasks Y = tasks X -> running Y = running X -> rr t X Y.
Proof. intros E1 E2 Hr. rewrite E1, E2. auto. Qed.

Lemma rr_task_cancel t X x o : x <> t -> rr t X (task_cancel X x o).
Proof.
  intros Hx Hr. unfold task_cancel. destruct (k_done (tasks X x)); [auto|].
  assert (A : forall g, tasks (upd_task X x g) t = tasks X t) by (intros g; tcase t x; [congruence|reflexivity]).
  assert (B : forall g g', tasks (upd_task (upd_task X x g) x g') t = tasks X t)
    by (intros g g'; tcase t x; [congruence|reflexivity]).
  destruct (k_waiter (tasks X x)) as [f|].
  - destruct (fut_pending _ f).
    + rewrite fc_tasks, fc_running. split; [apply A|exact Hr].
    + split; [apply B|exact Hr].
  - split; [apply B|exact Hr].
Qed.

Lemma rr_deliver t fuel X self origin : rr t X (fst (deliver fuel X self origin)).
Proof.
  apply deliver_closed.
  - apply rr_refl.
  - apply rr_trans.
  - intros c a x a' [_|[_ [_ [Hx _]]] a1]; [apply rr_refl|]. intros Hr.
    assert (Hne : x <> t) by congruence.
    destruct (rr_task_cancel t a x (S origin) Hne Hr) as [E1 E2]. destruct (opt_eqb _ x); auto.
  - intros a b. apply rr_eq; reflexivity.
  - intros a. apply rr_eq; reflexivity.
Qed.

Lemma rr_scope_cancel t X c b : rr t X (scope_cancel X c b).
Proof.
  unfold scope_cancel. destruct (s_cancelled (scopes X c)); [apply rr_refl|].
  set (s2 := upd_scope (cancel_timeout X c) c (fun x => sc_bydeadline b (sc_cancelled true x))).
  assert (T : rr t X s2).
  { apply rr_eq; unfold s2, cancel_timeout; destruct (s_timeout (scopes X c)); reflexivity. }
  destruct (s_host (scopes s2 c)); [|exact T]. eapply rr_trans; [exact T|apply rr_deliver].
Qed.

Definition cfg (y : scope) := (s_shield y, s_cancelled y, s_deadline y).

Lemma cfg_upd X x g c : (forall y, cfg (g y) = cfg y) -> cfg (scopes (upd_scope X x g) c) = cfg (scopes X c).
Proof.
  intros H. cbn [upd_scope set_scopes scopes]. unfold upd. destruct (Nat.eqb_spec c x); [subst; apply H|reflexivity].
Qed.

Lemma enter_fresh X c t : s_active (scopes X c) = false -> s_cancelled (scopes X c) = false ->
  s_deadline (scopes X c) = None ->
  let Y := fst (scope_enter X c t) in
  cfg (scopes Y c) = cfg (scopes X c) /\ k_must (tasks Y t) = k_must (tasks X t) /\ running Y = running X /\
  ntask Y = ntask X /\ futs Y = futs X /\ nfut Y = nfut X /\ events Y = events X.
Proof.
  intros Ha Hc Hd. cbn zeta. unfold scope_enter. rewrite Ha.
  set (s1 := upd_scope X c (fun x => sc_parent (k_cur (tasks X t)) (sc_tasks (add t (s_tasks x)) (sc_host (Some t) x)))).
  set (s2 := upd_task s1 t (tk_cur (Some c))).
  set (s3 := match k_cur (tasks X t) with Some p => _ | None => s2 end).
  assert (C3 : cfg (scopes s3 c) = cfg (scopes X c)).
  { assert (C2 : cfg (scopes s2 c) = cfg (scopes X c)) by (unfold s2, s1; apply cfg_upd; reflexivity).
    unfold s3. destruct (k_cur (tasks X t)); [|exact C2]. rewrite <- C2. apply cfg_upd. reflexivity. }
  assert (F3 : k_must (tasks s3 t) = k_must (tasks X t) /\ running s3 = running X /\ ntask s3 = ntask X /\
               futs s3 = futs X /\ nfut s3 = nfut X /\ events s3 = events X).
  { unfold s3. destruct (k_cur (tasks X t)); (split; [|repeat split]);
      cbn [upd_scope set_scopes tasks]; unfold s2; (tcase t t; [reflexivity|contradiction]). }
  assert (E4 : scope_timeout s3 c = s3).
  { unfold scope_timeout. unfold cfg in C3. injection C3 as _ _ E. now rewrite E, Hd. }
  rewrite E4.
  set (s5 := upd_scope s3 c (sc_active true)).
  assert (C5 : cfg (scopes s5 c) = cfg (scopes X c)) by (unfold s5; rewrite <- C3; apply cfg_upd; reflexivity).
  assert (E5 : s_cancelled (scopes s5 c) = false) by (change (snd (fst (cfg (scopes s5 c))) = false); rewrite C5; exact Hc).
  fold s5. rewrite E5. cbn [fst]. split; [exact C5|exact F3].
Qed.

Lemma event_wait_shape X t e : k_must (tasks X t) = false ->
  scopes (fst (event_wait X t e)) = scopes X /\ ntask (fst (event_wait X t e)) = ntask X /\
  (forall fj, snd (event_wait X t e) = Some fj -> f_st (futs (fst (event_wait X t e)) fj) = FPend) /\
  (snd (event_wait X t e) = None -> e_set (events X e) = true /\ events (fst (event_wait X t e)) = events X /\
                                    tasks (fst (event_wait X t e)) = tasks X).
Proof.
  intros Hm. unfold event_wait. destruct (e_set (events X e)).
  - cbn [fst snd]. split; [reflexivity|split; [reflexivity|split; [discriminate|auto]]].
  - rewrite new_fut_eq. cbv beta iota zeta. cbn [fst snd].
    assert (E1 : forall g, f_st (futs (upd_event (nf X) e g) (nfut X)) = FPend).
    { intros g. unfold nf, new_fut. cbn [upd_event set_events futs fst]. now rewrite upd_same. }
    rewrite suspend_on_pending by apply E1. change (k_must (tasks (upd_event (nf X) e _) t)) with (k_must (tasks X t)).
    rewrite Hm. unfold susp.
    split; [reflexivity|split; [reflexivity|split; [|discriminate]]]. intros fj E. injection E as <-.
    cbn [upd_task set_tasks upd_fut set_futs futs]. rewrite upd_same. cbn [f_st]. apply E1.
Qed.

(* the step in which the join begins: the private scope is the fresh scope nscope s, shielded, not cancelled and
   without deadline; no task is allocated; the join future is pending *)
Lemma join_entry_shape s t g c f h : reach s -> k_ctl (tasks s t) = CStartWait g c f ->
  In h (ready s) -> (h = HStep t \/ exists f', h = HWake t f') ->
  let s' := fst (step s (ARun h)) in
  snd (step s (ARun h)) = RBlocked ->
  exists e wf, k_ctl (tasks s' t) = CStartJoin c (nscope s) e wf /\
    cfg (scopes s' (nscope s)) = (true, false, None) /\ ntask s' = ntask s /\
    (forall fj, wf = Some fj -> f_st (futs s' fj) = FPend) /\
    (wf = None -> e_set (events s' (k_hevent (tasks s' c))) = true) /\
    s_cancelled (scopes s' (k_hscope (tasks s c))) = true.
Proof.
  intros R Hc Hin Hh. cbn zeta. destruct (reachable s R) as [[K Ci G J] Hrun].
  rewrite (step_run_in s h Hin).
  assert (Hres : forall fo, let p := resume (dequeue s h) t fo in snd p = RBlocked ->
     exists e wf, k_ctl (tasks (fst p) t) = CStartJoin c (nscope s) e wf /\
       cfg (scopes (fst p) (nscope s)) = (true, false, None) /\ ntask (fst p) = ntask s /\
       (forall fj, wf = Some fj -> f_st (futs (fst p) fj) = FPend) /\
       (wf = None -> e_set (events (fst p) (k_hevent (tasks (fst p) c))) = true) /\
       s_cancelled (scopes (fst p) (k_hscope (tasks s c))) = true).
  { intros fo. cbn zeta. rewrite resume_unfold. cbn zeta.
    change (k_ctl (tasks (dequeue s h) t)) with (k_ctl (tasks s t)). rewrite Hc.
    set (s0 := incs (dequeue s h) t).
    assert (Hm0 : k_must (tasks s0 t) = false) by (unfold s0; rewrite incs_task_same; reflexivity).
    assert (Hr0 : running s0 = Some t) by reflexivity.
    destruct (snd (incoming (dequeue s h) t fo)) as [e|]; [|cbn [snd ret_to_puppet]; discriminate].
    destruct (handle_pending s0 c); [|cbn [snd ret_to_puppet]; discriminate].
    intros _. rewrite new_scope_eq. cbn zeta.
    set (s1 := scope_cancel s0 (k_hscope (tasks s0 c)) false).
    assert (Hc0 : k_hscope (tasks s0 c) = k_hscope (tasks s c)).
    { unfold s0. destruct (incs_cview (dequeue s h) t c) as [V _]. pose proof (cview_inv _ _ V). tauto. }
    destruct (cancelled_after_scope_cancel s0 (k_hscope (tasks s0 c)) false) as [Hcan [Hns _]]. fold s1 in Hcan, Hns.
    change (nscope s0) with (nscope s) in Hns.
    pose proof (fr_ntask _ _ _ _ (kframe_kstar _ _ _ _ (ks_scope_cancel none_s none_t s0 (k_hscope (tasks s0 c)) false))) as Hnt.
    fold s1 in Hnt. change (ntask s0) with (ntask s) in Hnt.
    destruct (rr_scope_cancel t s0 (k_hscope (tasks s0 c)) false Hr0) as [Et1 Hr1]. fold s1 in Et1, Hr1.
    rewrite Hns.
    assert (V2 : scopes (ns s1 None true) (nscope s) = sc_shield true (sc_deadline None scope0)).
    { unfold ns, new_scope. cbn [fst scopes]. rewrite Hns. apply upd_same. }
    destruct (enter_fresh (ns s1 None true) (nscope s) t) as [C3 [M3 [_ [N3 _]]]]; try (rewrite V2; reflexivity).
    set (s3 := fst (scope_enter (ns s1 None true) (nscope s) t)) in *.
    rewrite V2 in C3. change (tasks (ns s1 None true) t) with (tasks s1 t) in M3. rewrite Et1, Hm0 in M3.
    change (ntask (ns s1 None true)) with (ntask s1) in N3. rewrite Hnt in N3.
    destruct (event_wait_shape s3 t (k_hevent (tasks s3 c)) M3) as [S4 [N4 [F4 G4]]].
    destruct (event_wait s3 t (k_hevent (tasks s3 c))) as [s4 wf]. cbn [fst snd] in S4, N4, F4, G4.
    exists e, wf. cbn [blocked fst]. split; [tcase t t; [reflexivity|contradiction]|].
    split; [|split; [|split; [|split]]].
    - cbn [set_running set_ctl upd_task set_tasks scopes]. rewrite S4. exact C3.
    - cbn [set_running set_ctl upd_task set_tasks ntask]. congruence.
    - intros fj E. cbn [set_running set_ctl upd_task set_tasks futs]. apply F4, E.
    - intros E. destruct (G4 E) as [G5 [G6 G7]].
      assert (Eh4 : k_hevent (tasks (set_running (set_ctl s4 t (CStartJoin c (nscope s) e wf)) None) c) = k_hevent (tasks s3 c)).
      { rewrite <- G7. tcase c t; [subst; reflexivity|reflexivity]. }
      rewrite Eh4. cbn [set_running set_ctl upd_task set_tasks events]. rewrite G6. exact G5.
    - cbn [set_running set_ctl upd_task set_tasks scopes]. rewrite S4. unfold s3.
      apply (fr_canc _ _ _ _ (kframe_kstar _ _ _ _ (ks_scope_enter (ns s1 None true) (nscope s) t))).
      rewrite ns_scope_old; [rewrite <- Hc0; exact Hcan|]. rewrite Hns. pose proof (c_bsc s Ci c). lia. }
  destruct Hh as [->|[f' ->]]; apply Hres.
Qed.

(* the caller of start() is interrupted while the child's handle is still pending: the child's handle scope is
   cancelled and the caller waits (shielded) for the child: it moves to CStartJoin for that child *)
Theorem start_cancel_joins_child s t g c f h : reach s -> k_ctl (tasks s t) = CStartWait g c f ->
  In h (ready s) -> (h = HStep t \/ exists f', h = HWake t f') ->
  let s' := fst (step s (ARun h)) in
  snd (step s (ARun h)) = RBlocked ->
  (exists sc e wf, k_ctl (tasks s' t) = CStartJoin c sc e wf) /\
  s_cancelled (scopes s' (k_hscope (tasks s c))) = true.
Proof.
  intros R Hc Hin Hh. cbn zeta. intros Hb.
  destruct (join_entry_shape s t g c f h R Hc Hin Hh Hb) as [e [wf [H1 [_ [_ [_ [_ H6]]]]]]].
  split; [now exists (nscope s), e, wf|exact H6].
Qed.

(* the caller waiting in CStartJoin is woken by the finished event only after the child's coroutine ended *)
Theorem start_join_wakeup_means_child_finished s t ch c e f v : reach s ->
  k_ctl (tasks s t) = CStartJoin ch c e (Some f) -> f_st (futs s f) = FRes v ->
  e_set (events s (k_hevent (tasks s ch))) = true /\ k_final (tasks s ch) <> None.
Proof.
  intros R Hc Hf. destruct (reachable s R) as [[K Ci G J] Hrun].
  assert (Hnr : running s <> Some t) by (rewrite Hrun; discriminate).
  pose proof (j_join s J t ch c e f Hnr Hc) as Hin.
  pose proof (j_ev s J f _ v Hin Hf) as Hset.
  destruct (c_sj s Ci t ch c e (Some f) Hnr Hc) as [_ Hg].
  split; [exact Hset|apply (e_hev s J ch Hg Hset)].
Qed.

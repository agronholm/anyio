(* C03 — I4 "delivery alive": in every reachable state a cancelled, hosted scope that some live task still
   reaches has its delivery callback scheduled.  This file: definitions, the bridge between the recursive walk
   of deliver and the task-side walk, and the effect of every primitive step on the invariant. *)
From AV Require Import Base Machine MachineFacts ScopeFrames DeliverInv TreeInv.

(* scope x sees c: the walk from x up the parent links reaches c through scopes that are neither shielded
   nor cancelled (c itself may be either) *)
Inductive vis (s : st) (c : sid) : sid -> Prop :=
| vis_here : vis s c c
| vis_up x p : s_shield (scopes s x) = false -> s_cancelled (scopes s x) = false ->
               s_parent (scopes s x) = Some p -> vis s c p -> vis s c x.

Definition reaches (s : st) (t : tid) (c : sid) : Prop :=
  k_done (tasks s t) = None /\ exists x, k_cur (tasks s t) = Some x /\ vis s c x.

Definition alive_at (s : st) (c : sid) : Prop :=
  s_cancelled (scopes s c) = true -> s_host (scopes s c) <> None -> (exists t, reaches s t c) ->
  s_chandle (scopes s c) = true.

Definition Alive (s : st) : Prop := forall c, alive_at s c.
Definition Handle (s : st) : Prop := forall c, s_chandle (scopes s c) = true -> In (HDeliver c) (ready s).
Definition DInv (s : st) : Prop := Alive s /\ Handle s.

Record TreeL (s : st) : Prop := {
  tl_act_alloc : forall x, s_active (scopes s x) = true -> alloc_s s x;
  tl_child : forall p x, In x (s_children (scopes s p)) <->
                         s_active (scopes s x) = true /\ s_parent (scopes s x) = Some p;
  tl_task : forall x t, In t (s_tasks (scopes s x)) <-> k_cur (tasks s t) = Some x;
  tl_cur_act : forall t x, k_cur (tasks s t) = Some x -> s_active (scopes s x) = true;
  tl_par_act : forall x p, s_active (scopes s x) = true -> s_parent (scopes s x) = Some p ->
                           s_active (scopes s p) = true;
  tl_rank : exists rk : sid -> nat, forall x p,
              s_active (scopes s x) = true -> s_parent (scopes s x) = Some p -> rk p < rk x
}.

Lemma Tree_TreeL s : Tree s -> TreeL s.
Proof. intros T. constructor; apply T. Qed.

(* TreeL does not look at s_host and is stable under anything that keeps the link fields *)
Lemma TreeL_ext a b :
  TreeL a -> nscope b = nscope a ->
  (forall x, s_active (scopes b x) = s_active (scopes a x) /\ s_parent (scopes b x) = s_parent (scopes a x) /\
             s_children (scopes b x) = s_children (scopes a x) /\ s_tasks (scopes b x) = s_tasks (scopes a x)) ->
  (forall t, k_cur (tasks b t) = k_cur (tasks a t)) -> TreeL b.
Proof.
  intros T En Es Et.
  assert (EA : forall x, s_active (scopes b x) = s_active (scopes a x)) by (intros x; apply Es).
  assert (EP : forall x, s_parent (scopes b x) = s_parent (scopes a x)) by (intros x; apply Es).
  assert (EC : forall x, s_children (scopes b x) = s_children (scopes a x)) by (intros x; apply Es).
  assert (ET : forall x, s_tasks (scopes b x) = s_tasks (scopes a x)) by (intros x; apply Es).
  constructor.
  - intros x. rewrite EA. unfold alloc_s. rewrite En. apply T.
  - intros p x. rewrite EC, EA, EP. apply T.
  - intros x t. rewrite ET, Et. apply T.
  - intros t x. rewrite Et, EA. apply T.
  - intros x p. rewrite !EA, EP. apply T.
  - destruct (tl_rank _ T) as [rk Hrk]. exists rk. intros x p. rewrite EA, EP. apply Hrk.
Qed.

Lemma TreeL_kframe a b : TreeL a -> kframe a b -> TreeL b.
Proof.
  intros T K. apply (TreeL_ext a b T (kf_nscope _ _ K)).
  - intros x. pose proof (kf_scopes _ _ K x) as E.
    now rewrite (core_active _ _ E), (core_parent _ _ E), (core_children _ _ E), (core_tasks _ _ E).
  - intros t. apply (tcore_cur _ _ (kf_tasks _ _ K t)).
Qed.

Inductive dpath (s : st) : sid -> sid -> list sid -> Prop :=
| dp_nil c : dpath s c c []
| dp_cons c ch x l :
    s_parent (scopes s ch) = Some c -> s_active (scopes s ch) = true ->
    s_shield (scopes s ch) = false -> s_cancelled (scopes s ch) = false ->
    dpath s ch x l -> dpath s c x (ch :: l).

Lemma dpath_snoc s c p l x :
  dpath s c p l -> s_parent (scopes s x) = Some p -> s_active (scopes s x) = true ->
  s_shield (scopes s x) = false -> s_cancelled (scopes s x) = false -> dpath s c x (l ++ [x]).
Proof.
  intros H Hp Ha Hs Hc. induction H as [c|c ch y l E1 E2 E3 E4 H IH]; cbn.
  - apply dp_cons; try assumption. apply dp_nil.
  - apply dp_cons; try assumption. now apply IH.
Qed.

Lemma vis_dpath s c x : TreeL s -> vis s c x -> s_active (scopes s x) = true -> exists l, dpath s c x l.
Proof.
  intros T H. induction H as [|x p Hs Hc Hp H IH]; intros Ha.
  - exists []. apply dp_nil.
  - destruct (IH (tl_par_act _ T x p Ha Hp)) as [l Hl]. exists (l ++ [x]). now apply (dpath_snoc s c p).
Qed.

Lemma dpath_rank s (rk : sid -> nat) c x l :
  (forall x p, s_active (scopes s x) = true -> s_parent (scopes s x) = Some p -> rk p < rk x) ->
  dpath s c x l -> (forall y, In y l -> rk c < rk y) /\ NoDup l /\
                   (forall y, In y l -> s_active (scopes s y) = true).
Proof.
  intros Hrk H. induction H as [c|c ch y l E1 E2 E3 E4 H [IH1 [IH2 IH3]]].
  - split; [intros y []|split; [constructor|intros y []]].
  - pose proof (Hrk ch c E2 E1) as R. split; [|split].
    + intros z [<-|Hz]; [exact R|]. specialize (IH1 z Hz). lia.
    + constructor; [|exact IH2]. intros Hin. specialize (IH1 ch Hin). lia.
    + intros z [<-|Hz]; [exact E2|now apply IH3].
Qed.

Lemma nodup_bounded_length (l : list nat) n :
  NoDup l -> (forall y, In y l -> 0 < y /\ y < n) -> length l <= n - 1.
Proof.
  intros Hn Hb. assert (Hi : incl l (seq 1 (n - 1))).
  { intros y Hy. apply in_seq. specialize (Hb y Hy). lia. }
  pose proof (NoDup_incl_length Hn Hi) as H. now rewrite seq_length in H.
Qed.

Lemma dreach_mono s n c x t : dreach s n c x t -> forall m, n <= m -> dreach s m c x t.
Proof.
  induction 1 as [fu self t Hin|fu self ch x t H1 H2 H3 H IH]; intros m Hm;
    (destruct m as [|m]; [lia|]).
  - now apply dr_here.
  - eapply dr_child; eauto. apply IH. lia.
Qed.

Lemma dpath_dreach s c x l t :
  TreeL s -> dpath s c x l -> In t (s_tasks (scopes s x)) -> dreach s (S (length l)) c x t.
Proof.
  intros T H Ht. induction H as [c|c ch y l E1 E2 E3 E4 H IH]; cbn [length].
  - now apply dr_here.
  - eapply dr_child; [|exact E3|exact E4|now apply IH]. apply (tl_child _ T). now split.
Qed.

(* the walk of deliver reaches exactly the tasks that reach the scope *)
Lemma vis_top s c ch x :
  vis s ch x -> s_parent (scopes s ch) = Some c -> s_shield (scopes s ch) = false ->
  s_cancelled (scopes s ch) = false -> vis s c x.
Proof.
  intros H Hp Hs Hc. induction H as [|x p E1 E2 E3 H IH].
  - eapply vis_up; eauto. apply vis_here.
  - eapply vis_up; eauto.
Qed.

Lemma dreach_vis s fu c x t : TreeL s -> dreach s fu c x t -> k_cur (tasks s t) = Some x /\ vis s c x.
Proof.
  intros T H. induction H as [fu self t Hin|fu self ch x t H1 H2 H3 H [IH1 IH2]].
  - split; [now apply (tl_task _ T)|apply vis_here].
  - split; [exact IH1|]. apply (tl_child _ T) in H1. destruct H1 as [_ Hp]. now apply (vis_top s self ch).
Qed.

(* fuel S (nscope s) is enough: a top-down path has no repetition (dpath_rank) and runs over allocated scope ids *)
Lemma vis_dreach s c x t :
  TreeL s -> k_cur (tasks s t) = Some x -> vis s c x -> dreach s (S (nscope s)) c x t.
Proof.
  intros T Hc Hv. pose proof (tl_cur_act _ T t x Hc) as Ha.
  destruct (vis_dpath s c x T Hv Ha) as [l Hl].
  destruct (tl_rank _ T) as [rk Hrk]. destruct (dpath_rank s rk c x l Hrk Hl) as [_ [Hn Hact]].
  assert (Hlen : length l <= nscope s - 1).
  { apply nodup_bounded_length; [exact Hn|]. intros y Hy. apply (tl_act_alloc _ T). now apply Hact. }
  apply (dreach_mono s (S (length l))); [|lia].
  apply dpath_dreach; [exact T|exact Hl|]. now apply (tl_task _ T).
Qed.

Lemma reaches_iff_dreach s c : TreeL s ->
  ((exists t, reaches s t c) <-> exists x t, dreach s (S (nscope s)) c x t /\ k_done (tasks s t) = None).
Proof.
  intros T. split.
  - intros [t [Hd [x [Hc Hv]]]]. exists x, t. split; [now apply vis_dreach|exact Hd].
  - intros [x [t [H Hd]]]. exists t. split; [exact Hd|]. exists x. now apply (dreach_vis s (S (nscope s))).
Qed.

Definition sc_view (c : scope) := (s_parent c, s_shield c, s_cancelled c, s_host c, s_chandle c).

Record dq (a b : st) : Prop := {
  dq_scope : forall c, sc_view (scopes b c) = sc_view (scopes a c);
  dq_cur : forall t, k_cur (tasks b t) = k_cur (tasks a t);
  dq_done : forall t, k_done (tasks b t) = k_done (tasks a t);
  dq_ready : forall c, In (HDeliver c) (ready a) -> In (HDeliver c) (ready b)
}.

Lemma dq_refl a : dq a a.
Proof. constructor; auto. Qed.

Lemma dq_trans a b c : dq a b -> dq b c -> dq a c.
Proof.
  intros H1 H2. constructor.
  - intros x. now rewrite (dq_scope _ _ H2), (dq_scope _ _ H1).
  - intros x. now rewrite (dq_cur _ _ H2), (dq_cur _ _ H1).
  - intros x. now rewrite (dq_done _ _ H2), (dq_done _ _ H1).
  - intros x H. apply H2, H1, H.
Qed.

Section ViewProj.
  Variables a b : scope.
  Hypothesis H : sc_view b = sc_view a.
  Lemma vw_parent : s_parent b = s_parent a. Proof. unfold sc_view in H. now inversion H. Qed.
  Lemma vw_shield : s_shield b = s_shield a. Proof. unfold sc_view in H. now inversion H. Qed.
  Lemma vw_cancelled : s_cancelled b = s_cancelled a. Proof. unfold sc_view in H. now inversion H. Qed.
  Lemma vw_host : s_host b = s_host a. Proof. unfold sc_view in H. now inversion H. Qed.
  Lemma vw_chandle : s_chandle b = s_chandle a. Proof. unfold sc_view in H. now inversion H. Qed.
End ViewProj.

(* monotonicity of the walk: every step available in b is available in a *)
Lemma vis_mono a b c x :
  vis b c x ->
  (forall y p, s_shield (scopes b y) = false -> s_cancelled (scopes b y) = false ->
               s_parent (scopes b y) = Some p ->
               s_shield (scopes a y) = false /\ s_cancelled (scopes a y) = false /\
               s_parent (scopes a y) = Some p) ->
  vis a c x.
Proof.
  intros H Hs. induction H as [|x p E1 E2 E3 H IH]; [apply vis_here|].
  destruct (Hs x p E1 E2 E3) as [F1 [F2 F3]]. eapply vis_up; eauto.
Qed.

Lemma vis_view a b c x :
  (forall y, s_shield (scopes b y) = s_shield (scopes a y) /\ s_cancelled (scopes b y) = s_cancelled (scopes a y) /\
             s_parent (scopes b y) = s_parent (scopes a y)) ->
  vis b c x -> vis a c x.
Proof.
  intros E H. apply (vis_mono a b c x H). intros y p H1 H2 H3. destruct (E y) as [E1 [E2 E3]].
  now rewrite <- E1, <- E2, <- E3.
Qed.

Lemma alive_at_mono a b c :
  alive_at a c ->
  (s_cancelled (scopes b c) = true -> s_cancelled (scopes a c) = true) ->
  (s_host (scopes b c) <> None -> s_host (scopes a c) <> None) ->
  ((exists t, reaches b t c) -> exists t, reaches a t c) ->
  (s_chandle (scopes a c) = true -> s_chandle (scopes b c) = true) ->
  alive_at b c.
Proof. intros H H1 H2 H3 H4 C Hh R. apply H4, H; auto. Qed.

(* the invariant survives when every scope looks the same, the tasks still alive were alive at the same place
   before, and no delivery callback leaves the queue *)
Lemma DInv_sub a b : DInv a ->
  (forall c, sc_view (scopes b c) = sc_view (scopes a c)) ->
  (forall t x, k_done (tasks b t) = None -> k_cur (tasks b t) = Some x ->
               k_done (tasks a t) = None /\ k_cur (tasks a t) = Some x) ->
  (forall c, In (HDeliver c) (ready a) -> In (HDeliver c) (ready b)) -> DInv b.
Proof.
  intros [Al Hd] V Lv Hr. split.
  - intros c. pose proof (V c) as E.
    apply (alive_at_mono a b c (Al c)); rewrite ?(vw_cancelled _ _ E), ?(vw_host _ _ E), ?(vw_chandle _ _ E); auto.
    intros [t [D [x [Hc Hv]]]]. destruct (Lv t x D Hc) as [D' Hc']. exists t. split; [exact D'|].
    exists x. split; [exact Hc'|]. apply (vis_view a b c x); [|exact Hv]. intros y. pose proof (V y) as Ey.
    now rewrite (vw_shield _ _ Ey), (vw_cancelled _ _ Ey), (vw_parent _ _ Ey).
  - intros c. rewrite (vw_chandle _ _ (V c)). intros H. apply Hr, Hd, H.
Qed.

Lemma DInv_dq a b : DInv a -> dq a b -> DInv b.
Proof.
  intros I Q. apply (DInv_sub a b I); try apply Q. intros t x. now rewrite (dq_done _ _ Q), (dq_cur _ _ Q).
Qed.

Lemma reaches_kframe a b t c : kframe a b -> (reaches b t c <-> reaches a t c).
Proof.
  intros K.
  assert (V : forall x, vis b c x <-> vis a c x).
  { intros x. split; intros H; [apply (vis_view a b c x)|apply (vis_view b a c x)]; try exact H;
      intros y; pose proof (kf_scopes _ _ K y) as E;
      now rewrite (core_shield _ _ E), (core_cancelled _ _ E), (core_parent _ _ E). }
  unfold reaches. rewrite (tcore_done _ _ (kf_tasks _ _ K t)), (tcore_cur _ _ (kf_tasks _ _ K t)).
  split; intros [D [x [Hc Hv]]]; (split; [exact D|exists x; split; [exact Hc|now apply V]]).
Qed.

Lemma D_deliver_top' s c :
  TreeL s -> (forall c', c' <> c -> s_chandle (scopes s c') = true -> In (HDeliver c') (ready s)) ->
  (forall c', c' <> c -> alive_at s c') -> DInv (deliver_top s c).
Proof.
  intros T Hd Al. pose proof (kframe_deliver_top s c) as K. split.
  - intros c'. destruct (Nat.eq_dec c' c) as [->|Hne].
    + intros _ _ [t R]. apply deliver_top_chandle. apply (reaches_iff_dreach s c T).
      exists t. now apply (reaches_kframe s (deliver_top s c) t c K).
    + apply (alive_at_mono s _ c' (Al c' Hne)); rewrite ?(deliver_scopes_other c c' _ Hne s c); auto.
      * unfold deliver_top. now rewrite (deliver_scopes_other c c' _ Hne s c).
      * unfold deliver_top. now rewrite (deliver_scopes_other c c' _ Hne s c).
      * intros [t R]. exists t. now apply (reaches_kframe s (deliver_top s c) t c' K).
      * unfold deliver_top. now rewrite (deliver_scopes_other c c' _ Hne s c).
  - intros c'. destruct (Nat.eq_dec c' c) as [->|Hne].
    + apply deliver_top_ready.
    + unfold deliver_top at 1. rewrite (deliver_scopes_other c c' _ Hne s c). intros H.
      destruct (kf_ready _ _ K) as [l [E _]]. rewrite E. apply in_or_app. left. now apply Hd.
Qed.

Lemma D_deliver_top s c :
  TreeL s -> Handle s -> (forall c', c' <> c -> alive_at s c') -> DInv (deliver_top s c).
Proof. intros T Hd Al. apply D_deliver_top'; [exact T|intros c' _; apply Hd|exact Al]. Qed.

(* the scheduled callback runs: it leaves the ready queue, delivers, and is back iff someone is still reached *)
Lemma D_run_deliver s c :
  TreeL s -> DInv s ->
  DInv (deliver_top (set_running (set_ready s (remove_first (HDeliver c) (ready s))) None) c).
Proof.
  intros T [Al Hd]. set (s1 := set_running (set_ready s (remove_first (HDeliver c) (ready s))) None).
  assert (T1 : TreeL s1).
  { apply (TreeL_ext s s1 T eq_refl); [intros x; now repeat split|intros t; reflexivity]. }
  apply D_deliver_top'; [exact T1| |].
  - intros c' Hne H. cbn. apply in_remove_first_ne; [now apply Hd|]. intros E. inversion E. now apply Hne.
  - intros c' _. apply (alive_at_mono s s1 c' (Al c')); auto.
    intros [t [D [x [Hc Hv]]]]. exists t. split; [exact D|]. exists x. split; [exact Hc|].
    apply (vis_view s s1 c' x); [intros y; now repeat split|exact Hv].
Qed.

Lemma vis_cancelled_unique s A B x :
  vis s A x -> vis s B x -> s_cancelled (scopes s A) = true -> s_cancelled (scopes s B) = true -> A = B.
Proof.
  intros HA. revert B. induction HA as [|x p E1 E2 E3 H IH]; intros B HB CA CB.
  - inversion HB as [|y q F1 F2 F3 HB' Ey]; subst; [reflexivity|congruence].
  - inversion HB as [|y q F1 F2 F3 HB' Ey]; subst; [congruence|].
    rewrite E3 in F3. inversion F3; subst q. now apply IH.
Qed.

Inductive upn (s : st) : sid -> nat -> Prop :=
| upn_0 x : upn s x 0
| upn_S x p n : s_shield (scopes s x) = false -> s_cancelled (scopes s x) = false ->
                s_parent (scopes s x) = Some p -> upn s p n -> upn s x (S n).

Lemma upn_chain s (rk : sid -> nat) x n :
  (forall x p, s_active (scopes s x) = true -> s_parent (scopes s x) = Some p -> rk p < rk x) ->
  (forall x p, s_active (scopes s x) = true -> s_parent (scopes s x) = Some p -> s_active (scopes s p) = true) ->
  upn s x n -> s_active (scopes s x) = true ->
  exists l, length l = n /\ NoDup l /\ (forall y, In y l -> s_active (scopes s y) = true /\ rk y <= rk x).
Proof.
  intros Hrk Hpa H. induction H as [x|x p n E1 E2 E3 H IH]; intros Ha.
  - exists []. split; [reflexivity|split; [constructor|intros y []]].
  - destruct (IH (Hpa x p Ha E3)) as [l [Hl [Hn Hy]]]. pose proof (Hrk x p Ha E3) as R.
    exists (x :: l). split; [cbn; now rewrite Hl|]. split.
    + constructor; [|exact Hn]. intros Hin. destruct (Hy x Hin) as [_ H']. lia.
    + intros y [<-|Hin]; [split; [exact Ha|lia]|]. destruct (Hy y Hin) as [H1 H2]. split; [exact H1|lia].
Qed.

(* the same bound for the walk upwards *)
Lemma upn_bound s x n : TreeL s -> upn s x n -> s_active (scopes s x) = true -> n < nscope s.
Proof.
  intros T H Ha. destruct (tl_rank _ T) as [rk Hrk].
  destruct (upn_chain s rk x n Hrk (tl_par_act _ T) H Ha) as [l [Hl [Hn Hy]]].
  assert (length l <= nscope s - 1).
  { apply nodup_bounded_length; [exact Hn|]. intros y Hin. apply (tl_act_alloc _ T). now apply Hy. }
  destruct (tl_act_alloc _ T x Ha). lia.
Qed.

Lemma restart_from_spec s fuel : forall x,
  (forall n, upn s x n -> n < fuel) ->
  (exists A, s_cancelled (scopes s A) = true /\ vis s A x /\
             restart_from fuel s (Some x) = if s_chandle (scopes s A) then s else deliver_top s A) \/
  ((forall A, s_cancelled (scopes s A) = true -> ~ vis s A x) /\ restart_from fuel s (Some x) = s).
Proof.
  induction fuel as [|fu IH]; intros x Hf.
  - exfalso. specialize (Hf 0 (upn_0 s x)). lia.
  - cbn [restart_from]. destruct (s_cancelled (scopes s x)) eqn:Ec.
    + left. exists x. split; [exact Ec|]. split; [apply vis_here|reflexivity].
    + destruct (s_shield (scopes s x)) eqn:Es.
      * right. split; [|reflexivity]. intros A CA HA.
        inversion HA as [|y q F1 F2 F3 HA' Ey]; subst; congruence.
      * destruct (s_parent (scopes s x)) as [p|] eqn:Ep.
        -- assert (Hf' : forall n, upn s p n -> n < fu).
           { intros n Hn. assert (S n < S fu) by (apply Hf; eapply upn_S; eauto). lia. }
           destruct (IH p Hf') as [[A [CA [VA EA]]]|[NA EA]].
           ++ left. exists A. split; [exact CA|]. split; [eapply vis_up; eauto|exact EA].
           ++ right. split; [|exact EA]. intros A CA HA.
              inversion HA as [|y q F1 F2 F3 HA' Ey]; subst; [congruence|].
              rewrite Ep in F3. inversion F3; subst q. now apply (NA A CA).
        -- right. split.
           ++ intros A CA HA. inversion HA as [|y q F1 F2 F3 HA' Ey]; subst; congruence.
           ++ destruct fu; reflexivity.
Qed.

Definition alive_or (s : st) (x0 : sid) (c : sid) : Prop :=
  s_cancelled (scopes s c) = true -> s_host (scopes s c) <> None -> (exists t, reaches s t c) ->
  s_chandle (scopes s c) = true \/ vis s c x0.

Lemma D_restart s x0 :
  TreeL s -> Handle s -> s_active (scopes s x0) = true -> (forall c, alive_or s x0 c) ->
  DInv (restart s (Some x0)).
Proof.
  intros T Hd Ha Al. unfold restart.
  destruct (restart_from_spec s (nscope s) x0) as [[A [CA [VA EA]]]|[NA EA]].
  { intros n Hn. now apply (upn_bound s x0 n T). }
  - rewrite EA.
    assert (Oth : forall c', c' <> A -> alive_at s c').
    { intros c' Hne C Hh R. destruct (Al c' C Hh R) as [H|H]; [exact H|].
      exfalso. apply Hne. now apply (vis_cancelled_unique s c' A x0). }
    destruct (s_chandle (scopes s A)) eqn:Eh.
    + split; [|exact Hd]. intros c'. destruct (Nat.eq_dec c' A) as [->|Hne]; [intros _ _ _; exact Eh|now apply Oth].
    + now apply D_deliver_top.
  - rewrite EA. split; [|exact Hd]. intros c' C Hh R. destruct (Al c' C Hh R) as [H|H]; [exact H|].
    exfalso. now apply (NA c' C).
Qed.

Lemma dq_cancel_timeout s c : dq s (cancel_timeout s c).
Proof.
  unfold cancel_timeout. destruct (s_timeout (scopes s c)) as [tm|]; [|apply dq_refl].
  constructor.
  - intros x. cbn. unfold upd. destruct (Nat.eqb_spec x c); [subst|]; reflexivity.
  - intros t. reflexivity.
  - intros t. reflexivity.
  - intros x H. cbn. apply filter_In. split; [exact H|reflexivity].
Qed.

Lemma TreeL_cancel_timeout s c : TreeL s -> TreeL (cancel_timeout s c).
Proof.
  intros T. pose proof (treq_cancel_timeout s c) as K.
  apply (TreeL_ext s _ T (tq_nscope _ _ K)).
  - intros x. now rewrite (tq_active _ _ K), (tq_parent _ _ K), (tq_children _ _ K), (tq_stasks _ _ K).
  - intros t. apply (tq_cur _ _ K).
Qed.

Lemma D_scope_cancel s c b : TreeL s -> DInv s -> DInv (scope_cancel s c b).
Proof.
  intros T I. unfold scope_cancel. destruct (s_cancelled (scopes s c)) eqn:Ec; [exact I|].
  set (s1 := cancel_timeout s c).
  assert (I1 : DInv s1) by (apply (DInv_dq s); [exact I|apply dq_cancel_timeout]).
  assert (T1 : TreeL s1) by now apply TreeL_cancel_timeout.
  set (s2 := upd_scope s1 c (fun x => sc_bydeadline b (sc_cancelled true x))).
  assert (Es : forall y, y <> c -> scopes s2 y = scopes s1 y).
  { intros y Hy. unfold s2. cbn. unfold upd. destruct (Nat.eqb_spec y c); [contradiction|reflexivity]. }
  assert (Ec2 : scopes s2 c = sc_bydeadline b (sc_cancelled true (scopes s1 c))).
  { unfold s2. cbn. unfold upd. now rewrite Nat.eqb_refl. }
  assert (T2 : TreeL s2).
  { apply (TreeL_ext s1 s2 T1 eq_refl); [|intros t; reflexivity].
    intros y. destruct (Nat.eq_dec y c) as [->|Hy]; [rewrite Ec2|rewrite (Es y Hy)]; now repeat split. }
  assert (H2 : Handle s2).
  { intros y. destruct (Nat.eq_dec y c) as [->|Hy]; [rewrite Ec2|rewrite (Es y Hy)]; apply I1. }
  assert (A2 : forall c', c' <> c -> alive_at s2 c').
  { intros c' Hne. apply (alive_at_mono s1 s2 c' (proj1 I1 c')); rewrite ?(Es c' Hne); auto.
    intros [t [D [x [Hc Hv]]]]. exists t. split; [exact D|]. exists x. split; [exact Hc|].
    apply (vis_mono s1 s2 c' x Hv). intros y p F1 F2 F3.
    destruct (Nat.eq_dec y c) as [->|Hy]; [rewrite Ec2 in F2; discriminate|].
    rewrite (Es y Hy) in *. now repeat split. }
  destruct (s_host (scopes s2 c)) eqn:Eh.
  - now apply D_deliver_top.
  - split; [|exact H2]. intros c'. destruct (Nat.eq_dec c' c) as [->|Hne]; [|now apply A2].
    intros _ Hh. now elim Hh.
Qed.

Lemma D_scope_timeout s c : TreeL s -> DInv s -> DInv (scope_timeout s c).
Proof.
  intros T I. unfold scope_timeout. destruct (s_deadline (scopes s c)); [|exact I].
  destruct (Z.leb z (now s)); [now apply D_scope_cancel|].
  apply (DInv_dq s _ I). constructor.
  - intros x. cbn. unfold upd. destruct (Nat.eqb_spec x c); [subst|]; reflexivity.
  - intros t. reflexivity.
  - intros t. reflexivity.
  - intros x H. exact H.
Qed.

Record dqx (c : sid) (a b : st) : Prop := {
  dx_other : forall y, y <> c -> sc_view (scopes b y) = sc_view (scopes a y);
  dx_parent : s_parent (scopes b c) = s_parent (scopes a c);
  dx_shield : s_shield (scopes b c) = s_shield (scopes a c);
  dx_host : s_host (scopes b c) = s_host (scopes a c);
  dx_canc : s_cancelled (scopes a c) = true -> s_cancelled (scopes b c) = true;
  dx_cur : forall t, k_cur (tasks b t) = k_cur (tasks a t);
  dx_done : forall t, k_done (tasks b t) = k_done (tasks a t);
  dx_ready : forall y, In (HDeliver y) (ready a) -> In (HDeliver y) (ready b)
}.

Lemma dqx_refl c a : dqx c a a.
Proof. constructor; auto. Qed.

Lemma dqx_trans c a b d : dqx c a b -> dqx c b d -> dqx c a d.
Proof.
  intros H1 H2. constructor.
  - intros y Hy. now rewrite (dx_other _ _ _ H2 y Hy), (dx_other _ _ _ H1 y Hy).
  - now rewrite (dx_parent _ _ _ H2), (dx_parent _ _ _ H1).
  - now rewrite (dx_shield _ _ _ H2), (dx_shield _ _ _ H1).
  - now rewrite (dx_host _ _ _ H2), (dx_host _ _ _ H1).
  - intros H. apply H2, H1, H.
  - intros t. now rewrite (dx_cur _ _ _ H2), (dx_cur _ _ _ H1).
  - intros t. now rewrite (dx_done _ _ _ H2), (dx_done _ _ _ H1).
  - intros y H. apply H2, H1, H.
Qed.

Lemma dqx_dq c a b : dq a b -> dqx c a b.
Proof.
  intros Q. constructor; try apply Q.
  - intros y _. apply Q.
  - apply (vw_parent _ _ (dq_scope _ _ Q c)).
  - apply (vw_shield _ _ (dq_scope _ _ Q c)).
  - apply (vw_host _ _ (dq_scope _ _ Q c)).
  - now rewrite (vw_cancelled _ _ (dq_scope _ _ Q c)).
Qed.

Lemma alive_dqx c a b c' : dqx c a b -> c' <> c -> alive_at a c' -> alive_at b c'.
Proof.
  intros Q Hne Al. pose proof (dx_other _ _ _ Q c' Hne) as E.
  apply (alive_at_mono a b c' Al).
  - now rewrite (vw_cancelled _ _ E).
  - now rewrite (vw_host _ _ E).
  - intros [t [D [x [Hc Hv]]]]. exists t. split; [now rewrite <- (dx_done _ _ _ Q)|].
    exists x. split; [now rewrite <- (dx_cur _ _ _ Q)|]. apply (vis_mono a b c' x Hv).
    intros y p F1 F2 F3. destruct (Nat.eq_dec y c) as [->|Hy].
    + rewrite (dx_shield _ _ _ Q) in F1. rewrite (dx_parent _ _ _ Q) in F3.
      split; [exact F1|]. split; [|exact F3].
      destruct (s_cancelled (scopes a c)) eqn:Ea; [|reflexivity]. rewrite (dx_canc _ _ _ Q Ea) in F2. discriminate.
    + pose proof (dx_other _ _ _ Q y Hy) as Ey.
      now rewrite <- (vw_shield _ _ Ey), <- (vw_cancelled _ _ Ey), <- (vw_parent _ _ Ey).
  - now rewrite (vw_chandle _ _ E).
Qed.

Lemma dqx_deliver_top s c : dqx c s (deliver_top s c) /\ (Handle s -> Handle (deliver_top s c)).
Proof.
  pose proof (kframe_deliver_top s c) as K. split.
  - constructor.
    + intros y Hy. unfold deliver_top. now rewrite (deliver_scopes_other c y _ Hy s c).
    + apply (core_parent _ _ (kf_scopes _ _ K c)).
    + apply (core_shield _ _ (kf_scopes _ _ K c)).
    + apply (core_host _ _ (kf_scopes _ _ K c)).
    + now rewrite (core_cancelled _ _ (kf_scopes _ _ K c)).
    + intros t. apply (tcore_cur _ _ (kf_tasks _ _ K t)).
    + intros t. apply (tcore_done _ _ (kf_tasks _ _ K t)).
    + intros y H. destruct (kf_ready _ _ K) as [l [E _]]. rewrite E. apply in_or_app. now left.
  - intros Hd y. destruct (Nat.eq_dec y c) as [->|Hy]; [apply deliver_top_ready|].
    unfold deliver_top at 1. rewrite (deliver_scopes_other c y _ Hy s c). intros H.
    destruct (kf_ready _ _ K) as [l [E _]]. rewrite E. apply in_or_app. left. now apply Hd.
Qed.

Lemma Handle_dq a b : Handle a -> dq a b -> Handle b.
Proof.
  intros Hd Q c. rewrite (vw_chandle _ _ (dq_scope _ _ Q c)). intros H. apply (dq_ready _ _ Q), Hd, H.
Qed.

Lemma dqx_scope_cancel s c b : dqx c s (scope_cancel s c b) /\ (Handle s -> Handle (scope_cancel s c b)).
Proof.
  unfold scope_cancel. destruct (s_cancelled (scopes s c)) eqn:Ec; [split; [apply dqx_refl|auto]|].
  set (s1 := cancel_timeout s c). pose proof (dq_cancel_timeout s c) as Q1. fold s1 in Q1.
  set (s2 := upd_scope s1 c (fun x => sc_bydeadline b (sc_cancelled true x))).
  assert (Q2 : dqx c s1 s2 /\ (Handle s1 -> Handle s2)).
  { split.
    - constructor; try reflexivity; auto.
      + intros y Hy. unfold s2. cbn. unfold upd. destruct (Nat.eqb_spec y c); [contradiction|reflexivity].
      + unfold s2. cbn. unfold upd. now rewrite Nat.eqb_refl.
      + unfold s2. cbn. unfold upd. now rewrite Nat.eqb_refl.
      + unfold s2. cbn. unfold upd. now rewrite Nat.eqb_refl.
      + intros _. unfold s2. cbn. unfold upd. now rewrite Nat.eqb_refl.
    - intros Hd y. unfold s2. cbn. unfold upd. destruct (Nat.eqb_spec y c); [subst|]; apply Hd. }
  destruct Q2 as [Q2 H2].
  assert (Q12 : dqx c s s2) by (eapply dqx_trans; [apply dqx_dq; exact Q1|exact Q2]).
  assert (H12 : Handle s -> Handle s2) by (intros Hd; apply H2; eapply Handle_dq; eauto).
  destruct (s_host (scopes s2 c)); [|split; assumption].
  destruct (dqx_deliver_top s2 c) as [Q3 H3]. split; [eapply dqx_trans; eauto|auto].
Qed.

Lemma dqx_scope_timeout s c : dqx c s (scope_timeout s c) /\ (Handle s -> Handle (scope_timeout s c)).
Proof.
  unfold scope_timeout. destruct (s_deadline (scopes s c)); [|split; [apply dqx_refl|auto]].
  destruct (Z.leb z (now s)); [apply dqx_scope_cancel|].
  assert (Q : dq s (upd_scope (fst (call_at s z (TScope c))) c (sc_timeout (Some (snd (call_at s z (TScope c))))))).
  { constructor; auto. intros x. cbn. unfold upd. destruct (Nat.eqb_spec x c); [subst|]; reflexivity. }
  split; [apply dqx_dq; exact Q|intros Hd; eapply Handle_dq; eauto].
Qed.

Definition enter_s3 (s : st) (c : sid) (t : tid) : st :=
  let par := k_cur (tasks s t) in
  let s1 := upd_scope s c (fun x => sc_parent par (sc_tasks (add t (s_tasks x)) (sc_host (Some t) x))) in
  let s2 := upd_task s1 t (tk_cur (Some c)) in
  match par with
  | Some p => upd_scope s2 p (fun x => sc_tasks (del t (s_tasks x)) (sc_children (add c (s_children x)) x))
  | None => s2
  end.

Definition enter_s5 (s : st) (c : sid) (t : tid) : st :=
  upd_scope (scope_timeout (enter_s3 s c t) c) c (sc_active true).

Lemma scope_enter_eq s c t : s_active (scopes s c) = false ->
  fst (scope_enter s c t) =
  if s_cancelled (scopes (enter_s5 s c t) c) then deliver_top (enter_s5 s c t) c else enter_s5 s c t.
Proof.
  intros Ha. unfold scope_enter. rewrite Ha. fold (enter_s3 s c t). fold (enter_s5 s c t).
  destruct (s_cancelled (scopes (enter_s5 s c t) c)); reflexivity.
Qed.

Lemma treq_enter_s5 s c t : treq (enter_struct s c t) (enter_s5 s c t).
Proof.
  unfold enter_struct, enter_s5. fold (enter_s3 s c t).
  apply treq_upd_scope_congr; [|apply treq_scope_timeout].
  intros x y H. unfold sc_tree in *. cbn. now inversion H.
Qed.

Lemma enter_s3_view s c t y : k_cur (tasks s t) <> Some c ->
  sc_view (scopes (enter_s3 s c t) y) =
  if Nat.eqb y c then (k_cur (tasks s t), s_shield (scopes s c), s_cancelled (scopes s c), Some t,
                       s_chandle (scopes s c))
  else sc_view (scopes s y).
Proof.
  intros Hpc. change (enter_s3 s c t) with (enter_links s c t). rewrite (enter_links_scopes s c t y Hpc).
  destruct (Nat.eqb y c); [reflexivity|].
  destruct (opt_eqb (k_cur (tasks s t)) y); reflexivity.
Qed.

Lemma enter_s3_task s c t x :
  tasks (enter_s3 s c t) x = if Nat.eqb x t then tk_cur (Some c) (tasks s t) else tasks s x.
Proof. apply enter_links_tasks. Qed.

Lemma enter_s3_ready s c t : ready (enter_s3 s c t) = ready s.
Proof. unfold enter_s3. destruct (k_cur (tasks s t)); reflexivity. Qed.

(* paths that start at an active scope only visit active scopes *)
Lemma vis_avoid s s' c A x :
  TreeL s -> s_active (scopes s c) = false ->
  (forall y, y <> c -> s_shield (scopes s' y) = s_shield (scopes s y) /\
                       s_cancelled (scopes s' y) = s_cancelled (scopes s y) /\
                       s_parent (scopes s' y) = s_parent (scopes s y)) ->
  vis s' A x -> s_active (scopes s x) = true -> vis s A x /\ s_active (scopes s A) = true.
Proof.
  intros T Ic E H. induction H as [|x p E1 E2 E3 H IH]; intros Ha.
  - split; [apply vis_here|exact Ha].
  - assert (x <> c) by congruence. destruct (E x H0) as [F1 [F2 F3]].
    rewrite F1 in E1. rewrite F2 in E2. rewrite F3 in E3.
    destruct (IH (tl_par_act _ T x p Ha E3)) as [V AA]. split; [eapply vis_up; eauto|exact AA].
Qed.

Lemma D_enter s c t :
  Tree s -> alloc_t s t -> k_tdran (tasks s t) = false -> alloc_s s c -> s_active (scopes s c) = false ->
  (forall t' g, alloc_t s t' -> k_group (tasks s t') = Some g -> k_hscope (tasks s t') = c ->
     t' = t /\ k_cur (tasks s t) = Some (g_scope (groups s g))) ->
  (forall g, k_group (tasks s t) = Some g -> g_scope (groups s g) <> c) ->
  DInv s -> DInv (fst (scope_enter s c t)).
Proof.
  intros T At Dt Ac Ic Hh Hg [Al Hd].
  pose proof (Tree_TreeL s T) as TL.
  assert (Hpc : k_cur (tasks s t) <> Some c) by (intros E; apply (tr_cur_act _ T) in E; congruence).
  set (s3 := enter_s3 s c t).
  (* the view after the structural part *)
  assert (V3 : forall y, y <> c -> sc_view (scopes s3 y) = sc_view (scopes s y)).
  { intros y Hy. unfold s3. rewrite (enter_s3_view s c t y Hpc). destruct (Nat.eqb_spec y c); [contradiction|reflexivity]. }
  assert (H3 : Handle s3).
  { intros y. unfold s3. rewrite enter_s3_ready.
    pose proof (enter_s3_view s c t y Hpc) as E.
    change (s_chandle (scopes (enter_s3 s c t) y)) with (snd (sc_view (scopes (enter_s3 s c t) y))).
    rewrite E. destruct (Nat.eqb_spec y c) as [Eyc|Hy]; [rewrite Eyc|]; apply Hd. }
  assert (A3 : forall c', c' <> c -> alive_at s3 c').
  { intros c' Hne. pose proof (V3 c' Hne) as E. apply (alive_at_mono s s3 c' (Al c')).
    - now rewrite (vw_cancelled _ _ E).
    - now rewrite (vw_host _ _ E).
    - assert (Same : forall y, y <> c -> s_shield (scopes s3 y) = s_shield (scopes s y) /\
                       s_cancelled (scopes s3 y) = s_cancelled (scopes s y) /\
                       s_parent (scopes s3 y) = s_parent (scopes s y)).
      { intros y Hy. pose proof (V3 y Hy) as Ey.
        now rewrite (vw_shield _ _ Ey), (vw_cancelled _ _ Ey), (vw_parent _ _ Ey). }
      intros [t' [D [x [Hc Hv]]]]. unfold s3 in D, Hc. rewrite enter_s3_task in D, Hc.
      destruct (Nat.eq_dec t' t) as [Ett|Hnt];
        [subst t'; rewrite Nat.eqb_refl in D, Hc|destruct (Nat.eqb_spec t' t); [contradiction|]].
      + cbn in D, Hc. inversion Hc; subst x.
        inversion Hv as [|y q F1 F2 F3 Hv' Ey]; subst; [now elim Hne|].
        pose proof (enter_s3_view s c t c Hpc) as Ecv. rewrite Nat.eqb_refl in Ecv.
        fold s3 in Ecv.
        assert (Ep3 : s_parent (scopes s3 c) = k_cur (tasks s t)).
        { change (s_parent (scopes s3 c)) with (fst (fst (fst (fst (sc_view (scopes s3 c)))))).
          now rewrite Ecv. }
        rewrite Ep3 in F3.
        pose proof (tr_cur_act _ T t q F3) as Aq.
        destruct (vis_avoid s s3 c c' q TL Ic Same Hv' Aq) as [V _].
        exists t. split; [exact D|]. exists q. split; [exact F3|exact V].
      + pose proof (tr_cur_act _ T t' x Hc) as Ax.
        destruct (vis_avoid s s3 c c' x TL Ic Same Hv Ax) as [V _].
        exists t'. split; [exact D|]. exists x. split; [exact Hc|exact V].
    - now rewrite (vw_chandle _ _ E). }
  (* the deadline check, then the scope becomes active *)
  destruct (dqx_scope_timeout s3 c) as [Q4 H4]. specialize (H4 H3).
  set (s5 := enter_s5 s c t).
  assert (Q5 : dqx c s3 s5).
  { eapply dqx_trans; [exact Q4|]. apply dqx_dq. unfold s5, enter_s5. fold s3. constructor; auto.
    intros y. cbn. unfold upd. destruct (Nat.eqb_spec y c); [subst|]; reflexivity. }
  assert (H5 : Handle s5).
  { intros y. unfold s5, enter_s5. fold s3. cbn. unfold upd. destruct (Nat.eqb_spec y c); [subst|]; apply H4. }
  assert (A5 : forall c', c' <> c -> alive_at s5 c') by (intros c' Hne; apply (alive_dqx c s3 s5); auto).
  assert (T5 : TreeL s5).
  { apply Tree_TreeL. eapply Tree_treq; [now apply (Tree_enter s c t)|apply treq_enter_s5]. }
  rewrite (scope_enter_eq s c t Ic). fold s5. destruct (s_cancelled (scopes s5 c)) eqn:Ec.
  - now apply D_deliver_top.
  - split; [|exact H5]. intros c'. destruct (Nat.eq_dec c' c) as [->|Hne]; [|now apply A5].
    intros C. congruence.
Qed.

Lemma dq_upd_scope s c g : (forall k, sc_view (g k) = sc_view k) -> dq s (upd_scope s c g).
Proof.
  intros Hg. constructor; auto. intros x. cbn. unfold upd. destruct (Nat.eqb_spec x c); [subst; apply Hg|reflexivity].
Qed.

Lemma dq_upd_task s t g :
  (forall k, k_cur (g k) = k_cur k /\ k_done (g k) = k_done k) -> dq s (upd_task s t g).
Proof.
  intros Hg. constructor; auto.
  - intros x. cbn. unfold upd. destruct (Nat.eqb_spec x t); [subst; apply Hg|reflexivity].
  - intros x. cbn. unfold upd. destruct (Nat.eqb_spec x t); [subst; apply Hg|reflexivity].
Qed.

Lemma dq_iter_uncancel n t : forall s, dq s (iter n (fun a => task_uncancel a t) s).
Proof.
  induction n as [|n IH]; intros s; cbn; [apply dq_refl|].
  eapply dq_trans; [|apply IH]. apply dq_upd_task. intros k. now split.
Qed.

Lemma dq_xsettle c t par s5 s6 x : xsettle c t par s5 s6 x -> dq s5 s6.
Proof.
  assert (Ku : forall a y g, (forall k, sc_view (g k) = sc_view k) -> dq a (upd_scope a y g))
    by (intros; now apply dq_upd_scope).
  intros [x' _ sA| |p _ _ _ _].
  - assert (KA : dq s5 sA) by (eapply dq_trans; [apply dq_iter_uncancel|now apply Ku]).
    destruct x'; try exact KA; (eapply dq_trans; [exact KA|now apply Ku]).
  - apply dq_refl.
  - eapply dq_trans; now apply Ku.
Qed.

Lemma exit_struct_view s c t y : sc_view (scopes (exit_struct s c t) y) = sc_view (scopes s y).
Proof.
  unfold exit_struct.
  set (s0 := upd_scope s c (sc_active false)). set (s1 := cancel_timeout s0 c).
  assert (E0 : forall z, sc_view (scopes s0 z) = sc_view (scopes s z)).
  { intros z. unfold s0. cbn. unfold upd. destruct (Nat.eqb_spec z c); [subst|]; reflexivity. }
  assert (E1 : forall z, sc_view (scopes s1 z) = sc_view (scopes s z)).
  { intros z. unfold s1. rewrite (dq_scope _ _ (dq_cancel_timeout s0 c)). apply E0. }
  set (s2 := upd_scope s1 c (fun x => sc_tasks (del t (s_tasks x)) x)).
  assert (E2 : forall z, sc_view (scopes s2 z) = sc_view (scopes s z)).
  { intros z. unfold s2. cbn. unfold upd. destruct (Nat.eqb_spec z c); [subst; apply (E1 c)|apply E1]. }
  destruct (s_parent (scopes s c)) as [p|]; cbn [scopes upd_task set_tasks]; [|apply E2].
  cbn. unfold upd. destruct (Nat.eqb_spec y p); [subst; apply (E2 p)|apply E2].
Qed.

Lemma exit_struct_task s c t x :
  tasks (exit_struct s c t) x = if Nat.eqb x t then tk_cur (s_parent (scopes s c)) (tasks s t) else tasks s x.
Proof. apply exit_links_tasks. Qed.

Lemma exit_struct_ready s c t y : In (HDeliver y) (ready s) -> In (HDeliver y) (ready (exit_struct s c t)).
Proof.
  intros H. unfold exit_struct.
  assert (E : In (HDeliver y) (ready (cancel_timeout (upd_scope s c (sc_active false)) c))).
  { apply (dq_ready _ _ (dq_cancel_timeout _ c)). exact H. }
  destruct (s_parent (scopes s c)); exact E.
Qed.

Lemma D_exit s c t exc :
  Tree s -> exit_ok s c t ->
  (forall x, ~ In x (s_children (scopes s c))) ->
  (forall t', In t' (s_tasks (scopes s c)) -> t' = t) ->
  (forall g, alloc_g s g -> g_scope (groups s g) = c -> g_tasks (groups s g) = []) ->
  DInv s -> DInv (fst (scope_exit s c t exc)).
Proof.
  intros T Hok NC NT NG [Al Hd].
  destruct (scope_exit_shape s c t exc Hok) as [s6 [xr [X6 E6]]]. rewrite E6. cbn [fst].
  pose proof (dq_xsettle _ _ _ _ _ _ X6) as Q6. clear X6 E6.
  set (s4 := exit_struct s c t) in *. set (par := s_parent (scopes s c)) in *.
  pose proof (Tree_exit s c t T Hok NC NT NG) as Tx.
  assert (T4 : TreeL s4).
  { apply (TreeL_ext (xstate s c t) s4 (Tree_TreeL _ Tx)); [reflexivity| |intros x; reflexivity].
    intros x. unfold xstate. fold s4. cbn. unfold upd. destruct (Nat.eqb_spec x c); [subst|]; now repeat split. }
  assert (V4 : forall y, s_shield (scopes s4 y) = s_shield (scopes s y) /\
                         s_cancelled (scopes s4 y) = s_cancelled (scopes s y) /\
                         s_parent (scopes s4 y) = s_parent (scopes s y)).
  { intros y. pose proof (exit_struct_view s c t y) as E. fold s4 in E.
    now rewrite (vw_shield _ _ E), (vw_cancelled _ _ E), (vw_parent _ _ E). }
  assert (H4 : Handle s4).
  { intros y. pose proof (exit_struct_view s c t y) as E. fold s4 in E. rewrite (vw_chandle _ _ E).
    intros H. apply exit_struct_ready. now apply Hd. }
  assert (Old : forall t' A, t' <> t -> reaches s4 t' A -> reaches s t' A).
  { intros t' A Hne [D [x [Hc Hv]]]. unfold s4 in D, Hc. rewrite exit_struct_task in D, Hc.
    destruct (Nat.eqb_spec t' t); [contradiction|]. split; [exact D|]. exists x. split; [exact Hc|].
    apply (vis_view s s4 A x V4 Hv). }
  assert (Cur4 : k_cur (tasks s4 t) = par).
  { unfold s4. rewrite exit_struct_task, Nat.eqb_refl. reflexivity. }
  assert (I5 : DInv (restart s4 par)).
  { destruct par as [p|] eqn:Ep.
    - apply D_restart; try assumption.
      + apply (tl_cur_act _ T4 t p Cur4).
      + intros A C Hh [t' R]. pose proof (exit_struct_view s c t A) as E. fold s4 in E.
        destruct (Nat.eq_dec t' t) as [->|Hne].
        * right. destruct R as [_ [x [Hc Hv]]]. rewrite Cur4 in Hc. inversion Hc; subst x. exact Hv.
        * left. rewrite (vw_chandle _ _ E). apply Al.
          -- now rewrite <- (vw_cancelled _ _ E).
          -- now rewrite <- (vw_host _ _ E).
          -- exists t'. now apply Old.
    - unfold restart. destruct (nscope s4); cbn [restart_from]; (split; [|exact H4]).
      all: intros A C Hh [t' R]; pose proof (exit_struct_view s c t A) as E; fold s4 in E;
        rewrite (vw_chandle _ _ E); apply Al;
        [now rewrite <- (vw_cancelled _ _ E)|now rewrite <- (vw_host _ _ E)|].
      all: destruct (Nat.eq_dec t' t) as [->|Hne];
        [destruct R as [_ [x [Hc _]]]; rewrite Cur4 in Hc; discriminate|exists t'; now apply Old]. }
  pose proof (DInv_dq _ _ I5 Q6) as [A6 H6].
  split.
  - intros c'. destruct (Nat.eq_dec c' c) as [->|Hne].
    + intros _ Hh. exfalso. apply Hh. cbn. unfold upd. now rewrite Nat.eqb_refl.
    + assert (Ec : scopes (upd_scope s6 c (sc_host None)) c' = scopes s6 c').
      { cbn. unfold upd. destruct (Nat.eqb_spec c' c); [contradiction|reflexivity]. }
      apply (alive_at_mono s6 _ c' (A6 c')); rewrite ?Ec; auto.
      intros [t' [D [x [Hc Hv]]]]. exists t'. split; [exact D|]. exists x. split; [exact Hc|].
      apply (vis_view s6 (upd_scope s6 c (sc_host None)) c' x); [|exact Hv]. intros y. cbn. unfold upd.
      destruct (Nat.eqb_spec y c); [subst|]; now repeat split.
  - intros y. cbn. unfold upd. destruct (Nat.eqb_spec y c); [subst|]; apply H6.
Qed.

Lemma dq_of_kframe a b : kframe a b -> scopes b = scopes a -> dq a b.
Proof.
  intros K E. constructor.
  - intros c. now rewrite E.
  - intros t. apply (tcore_cur _ _ (kf_tasks _ _ K t)).
  - intros t. apply (tcore_done _ _ (kf_tasks _ _ K t)).
  - intros c H. destruct (kf_ready _ _ K) as [l [El _]]. rewrite El. apply in_or_app. now left.
Qed.
Lemma quiet_dq t a b : quiet t a b -> dq a b.
Proof.
  intros H. constructor.
  - intros c. now rewrite (qt_scopes _ _ _ H).
  - intros x. exact (f_equal k_cur (qt_tasks _ _ _ H x)).
  - intros x. exact (f_equal k_done (qt_tasks _ _ _ H x)).
  - intros c. apply (qt_in_ready _ _ _ _ H).
Qed.

Lemma dq_fut_complete s f v : dq s (fut_complete s f v).
Proof. apply (quiet_dq 0), quiet_fut_complete. Qed.

Lemma dq_task_cancel s t o : dq s (task_cancel s t o).
Proof. apply dq_of_kframe; [apply kframe_task_cancel|apply task_cancel_scopes]. Qed.

Lemma dq_task_uncancel s t : dq s (task_uncancel s t).
Proof. apply dq_upd_task. intros k. now split. Qed.

Lemma dq_same a b :
  scopes b = scopes a -> (forall t, k_cur (tasks b t) = k_cur (tasks a t) /\ k_done (tasks b t) = k_done (tasks a t)) ->
  (forall c, In (HDeliver c) (ready a) -> In (HDeliver c) (ready b)) -> dq a b.
Proof. intros E Et Er. constructor; [intros c; now rewrite E|intros t; apply Et|intros t; apply Et|exact Er]. Qed.

Lemma dq_call_soon s h : dq s (call_soon s h).
Proof. apply dq_same; [reflexivity|intros t; now split|]. intros c H. cbn. apply in_or_app. now left. Qed.

Lemma dq_timer_cancel s tm : dq s (timer_cancel s tm).
Proof.
  apply dq_same; [reflexivity|intros x; now split|]. intros c H. cbn. apply filter_In. split; [exact H|reflexivity].
Qed.

Lemma dq_tick s dt : dq s (tick s dt).
Proof.
  apply dq_same; [reflexivity|intros x; now split|]. intros c H. cbn. apply in_or_app. now left.
Qed.

Lemma dq_remove_first s h : (forall c, h <> HDeliver c) -> dq s (set_ready s (remove_first h (ready s))).
Proof.
  intros Hh. apply dq_same; [reflexivity|intros x; now split|]. intros c H. cbn.
  apply in_remove_first_ne; [exact H|]. intros E. now apply (Hh c).
Qed.

Lemma dq_upd_group s g f : dq s (upd_group s g f).
Proof. apply dq_same; [reflexivity|intros x; now split|auto]. Qed.

Lemma TreeL_treq a b : TreeL a -> treq a b -> TreeL b.
Proof.
  intros T K. apply (TreeL_ext a b T (tq_nscope _ _ K)).
  - intros x. now rewrite (tq_active _ _ K), (tq_parent _ _ K), (tq_children _ _ K), (tq_stasks _ _ K).
  - intros t. apply (tq_cur _ _ K).
Qed.

(* restart without any assumption on where it starts: it either does nothing or delivers somewhere *)
Lemma D_restart_any s x : TreeL s -> DInv s -> DInv (restart s x).
Proof.
  intros T I. apply (restart_closed (fun _ b => DInv b)); [exact I|]. intros c _ _.
  apply D_deliver_top; [exact T|apply I|]. intros c' _. apply I.
Qed.

Lemma D_new_scope s d sh : Tree s -> DInv s -> DInv (fst (new_scope s d sh)).
Proof.
  intros T [Al Hd]. set (s' := fst (new_scope s d sh)). set (c0 := nscope s).
  pose proof (tn_inactive s T) as Ic. fold c0 in Ic.
  assert (Es : forall y, y <> c0 -> scopes s' y = scopes s y).
  { intros y Hy. unfold s'. cbn. unfold upd. destruct (Nat.eqb_spec y (nscope s)); [contradiction|reflexivity]. }
  assert (E0 : s_cancelled (scopes s' c0) = false /\ s_chandle (scopes s' c0) = false).
  { unfold s', c0. cbn. unfold upd. rewrite Nat.eqb_refl. now split. }
  split.
  - intros A. destruct (Nat.eq_dec A c0) as [->|Hne]; [intros C; destruct E0; congruence|].
    apply (alive_at_mono s s' A (Al A)); rewrite ?(Es A Hne); auto.
    intros [t [D [x [Hc Hv]]]]. exists t. split; [exact D|]. exists x. split; [exact Hc|].
    apply (vis_avoid s s' c0 A x (Tree_TreeL _ T) Ic); [|exact Hv|apply (tr_cur_act _ T t x Hc)].
    intros y Hy. rewrite (Es y Hy). now repeat split.
  - intros y. destruct (Nat.eq_dec y c0) as [->|Hne]; [destruct E0; congruence|].
    rewrite (Es y Hne). apply Hd.
Qed.

Lemma D_spawn s g sf :
  Tree s -> alloc_g s g -> s_active (scopes s (g_scope (groups s g))) = true ->
  DInv s -> DInv (fst (spawn_task s g sf)).
Proof.
  intros T Ag Ha I. rewrite spawn_task_eq. cbn [fst].
  pose proof (D_new_scope s None false T I) as [A1 H1].
  pose proof (Tree_new_scope s None false T) as T1.
  set (s1 := fst (new_scope s None false)) in *. set (tn := ntask s). set (gs := g_scope (groups s g)).
  set (s2 := spawn_struct s g sf).
  pose proof (Tree_spawn s g sf T Ag Ha) as T2. fold s2 in T2.
  assert (V2 : forall y, sc_view (scopes s2 y) = sc_view (scopes s1 y)).
  { intros y. unfold s2, spawn_struct. cbn. unfold upd.
    destruct (Nat.eqb_spec y (g_scope (groups s g))) as [->|Hy]; reflexivity. }
  assert (Ek : forall x, x <> tn -> tasks s2 x = tasks s1 x).
  { intros x Hx. unfold s2. now rewrite sp_task_other. }
  assert (Ekt : k_cur (tasks s2 tn) = Some gs).
  { unfold s2, spawn_struct, tn. cbn. unfold upd. now rewrite Nat.eqb_refl. }
  assert (Same : forall y, s_shield (scopes s2 y) = s_shield (scopes s1 y) /\
                           s_cancelled (scopes s2 y) = s_cancelled (scopes s1 y) /\
                           s_parent (scopes s2 y) = s_parent (scopes s1 y)).
  { intros y. pose proof (V2 y) as E. now rewrite (vw_shield _ _ E), (vw_cancelled _ _ E), (vw_parent _ _ E). }
  assert (H2 : Handle s2).
  { intros y. rewrite (vw_chandle _ _ (V2 y)). apply H1. }
  assert (Act2 : s_active (scopes s2 gs) = true) by (apply (tr_cur_act _ T2 tn gs Ekt)).
  assert (I3 : DInv (restart s2 (Some gs))).
  { apply D_restart; [now apply Tree_TreeL|exact H2|exact Act2|].
    intros A C Hh [t' R]. destruct (Nat.eq_dec t' tn) as [->|Hne].
    - right. destruct R as [_ [x [Hc Hv]]]. rewrite Ekt in Hc. inversion Hc; subst x. exact Hv.
    - left. rewrite (vw_chandle _ _ (V2 A)). apply A1.
      + now rewrite <- (vw_cancelled _ _ (V2 A)).
      + now rewrite <- (vw_host _ _ (V2 A)).
      + destruct R as [D [x [Hc Hv]]]. rewrite (Ek t' Hne) in D, Hc. exists t'. split; [exact D|].
        exists x. split; [exact Hc|]. apply (vis_view s1 s2 A x Same Hv). }
  apply (DInv_dq _ _ I3). apply dq_call_soon.
Qed.

Lemma D_td_struct s t g : DInv s -> DInv (td_struct s t g).
Proof.
  intros I. apply (DInv_sub s _ I).
  - intros y. unfold td_struct. destruct (k_cur (tasks s t)) as [c|]; cbn; [|reflexivity].
    unfold upd. destruct (Nat.eqb_spec y c); [subst|]; reflexivity.
  - intros x y. replace (tasks (td_struct s t g) x)
      with (if Nat.eqb x t then tk_tdran true (tk_cur None (tasks s t)) else tasks s x)
      by (unfold td_struct; destruct (k_cur (tasks s t)); reflexivity).
    destruct (Nat.eqb x t); [discriminate|auto].
  - intros c. unfold td_struct. destruct (k_cur (tasks s t)); auto.
Qed.

Lemma D_td_tail s3 k g t : TreeL s3 -> DInv s3 -> DInv (td_tail s3 k g t).
Proof.
  intros T3 I3.
  refine (proj2 (td_tail_closed (fun a b => TreeL a /\ DInv a -> TreeL b /\ DInv b) g t _ _ _ _ _ s3 k (conj T3 I3)));
    auto.
  - intros a f v [T I]. split; [eapply TreeL_kframe; [exact T|apply kframe_fut_complete]|].
    apply (DInv_dq _ _ I), dq_fut_complete.
  - intros a e [T I]. split; [|apply (DInv_dq _ _ I), dq_upd_group].
    apply (TreeL_treq a); [exact T|]. apply treq_upd_group. intros x; reflexivity.
  - intros a [T I]. split; [apply (TreeL_treq a); [exact T|apply treq_scope_cancel]|now apply D_scope_cancel].
Qed.

Lemma D_finish s t o : DInv s -> DInv (finish_task s t o).
Proof.
  intros I. apply (DInv_sub s _ I).
  - intros c. unfold finish_task. destruct (k_group (tasks s t)); reflexivity.
  - intros x y. unfold finish_task. cbn [tasks set_running].
    destruct (k_group (tasks s t)); cbn; unfold upd; destruct (Nat.eqb x t); cbn; try discriminate; auto.
  - intros c H. unfold finish_task. cbn [ready set_running].
    destruct (k_group (tasks s t)); cbn; [apply in_or_app; now left|exact H].
Qed.

Lemma vis_unshield s c A x :
  let s1 := upd_scope s c (sc_shield false) in
  vis s1 A x -> vis s A x \/ (exists p, s_parent (scopes s c) = Some p /\ vis s1 A p).
Proof.
  intros s1 H. induction H as [|x p E1 E2 E3 H IH]; [left; apply vis_here|].
  destruct (Nat.eq_dec x c) as [->|Hne].
  - right. exists p. split; [|exact H]. unfold s1 in E3. cbn in E3. unfold upd in E3.
    now rewrite Nat.eqb_refl in E3.
  - assert (Ex : scopes s1 x = scopes s x).
    { unfold s1. cbn. unfold upd. destruct (Nat.eqb_spec x c); [contradiction|reflexivity]. }
    rewrite Ex in E1, E2, E3. destruct IH as [IH|IH]; [left; eapply vis_up; eauto|right; exact IH].
Qed.

Lemma D_set_shield s c (b : bool) : Tree s -> DInv s ->
  DInv (if b then upd_scope s c (sc_shield true)
        else restart (upd_scope s c (sc_shield false)) (s_parent (scopes (upd_scope s c (sc_shield false)) c))).
Proof.
  intros T [Al Hd]. pose proof (Tree_TreeL _ T) as TL.
  destruct b.
  - set (s1 := upd_scope s c (sc_shield true)).
    assert (Es : forall y, y <> c -> scopes s1 y = scopes s y).
    { intros y Hy. unfold s1. cbn. unfold upd. destruct (Nat.eqb_spec y c); [contradiction|reflexivity]. }
    assert (Ec : scopes s1 c = sc_shield true (scopes s c)).
    { unfold s1. cbn. unfold upd. now rewrite Nat.eqb_refl. }
    split.
    + intros A. apply (alive_at_mono s s1 A (Al A)).
      * destruct (Nat.eq_dec A c) as [->|Hy]; [now rewrite Ec|now rewrite (Es A Hy)].
      * destruct (Nat.eq_dec A c) as [->|Hy]; [now rewrite Ec|now rewrite (Es A Hy)].
      * intros [t [D [x [Hc Hv]]]]. exists t. split; [exact D|]. exists x. split; [exact Hc|].
        apply (vis_mono s s1 A x Hv). intros y p F1 F2 F3.
        destruct (Nat.eq_dec y c) as [->|Hy]; [rewrite Ec in F1; discriminate|].
        rewrite (Es y Hy) in *. now repeat split.
      * destruct (Nat.eq_dec A c) as [->|Hy]; [now rewrite Ec|now rewrite (Es A Hy)].
    + intros y. destruct (Nat.eq_dec y c) as [->|Hy]; [rewrite Ec|rewrite (Es y Hy)]; apply Hd.
  - set (s1 := upd_scope s c (sc_shield false)).
    assert (Es : forall y, y <> c -> scopes s1 y = scopes s y).
    { intros y Hy. unfold s1. cbn. unfold upd. destruct (Nat.eqb_spec y c); [contradiction|reflexivity]. }
    assert (Ec : scopes s1 c = sc_shield false (scopes s c)).
    { unfold s1. cbn. unfold upd. now rewrite Nat.eqb_refl. }
    assert (T1 : TreeL s1).
    { apply (TreeL_ext s s1 TL eq_refl); [|intros t; reflexivity].
      intros y. destruct (Nat.eq_dec y c) as [->|Hy]; [rewrite Ec|rewrite (Es y Hy)]; now repeat split. }
    assert (H1 : Handle s1).
    { intros y. destruct (Nat.eq_dec y c) as [->|Hy]; [rewrite Ec|rewrite (Es y Hy)]; apply Hd. }
    assert (Vw : forall A, s_cancelled (scopes s1 A) = s_cancelled (scopes s A) /\
                           s_host (scopes s1 A) = s_host (scopes s A) /\
                           s_chandle (scopes s1 A) = s_chandle (scopes s A)).
    { intros A. destruct (Nat.eq_dec A c) as [->|Hy]; [rewrite Ec|rewrite (Es A Hy)]; now repeat split. }
    rewrite Ec. cbn [s_parent sc_shield].
    destruct (s_active (scopes s c)) eqn:Ac.
    + (* an active scope: new paths go through c and its parent *)
      destruct (s_parent (scopes s c)) as [p|] eqn:Ep.
      * apply D_restart; try assumption.
        -- assert (Ap : s_active (scopes s p) = true) by apply (tr_par_act _ T c p Ac Ep).
           destruct (Nat.eq_dec p c) as [Epc|Hy]; [rewrite Epc, Ec; cbn [s_active sc_shield]; now rewrite <- Epc|].
           rewrite (Es p Hy). exact Ap.
        -- intros A C Hh [t R]. destruct (Vw A) as [V1 [V2 V3]].
           destruct R as [D [x [Hc Hv]]]. destruct (vis_unshield s c A x Hv) as [V|[p' [Ep' V]]].
           ++ left. rewrite V3. apply Al; [now rewrite <- V1|now rewrite <- V2|].
              exists t. split; [exact D|]. exists x. now split.
           ++ right. rewrite Ep in Ep'. inversion Ep'; subst p'. exact V.
      * unfold restart. destruct (nscope s1); cbn [restart_from]; (split; [|exact H1]).
        all: intros A C Hh [t R]; destruct (Vw A) as [V1 [V2 V3]]; rewrite V3;
          apply Al; [now rewrite <- V1|now rewrite <- V2|].
        all: destruct R as [D [x [Hc Hv]]]; destruct (vis_unshield s c A x Hv) as [V|[p' [Ep' _]]];
          [exists t; split; [exact D|]; exists x; now split|rewrite Ep in Ep'; discriminate].
    + (* an inactive scope is on nobody's path *)
      apply D_restart_any; [exact T1|]. split; [|exact H1].
      intros A C Hh [t [D [x [Hc Hv]]]]. destruct (Vw A) as [V1 [V2 V3]]. rewrite V3.
      apply Al; [now rewrite <- V1|now rewrite <- V2|].
      exists t. split; [exact D|]. exists x. split; [exact Hc|].
      apply (vis_avoid s s1 c A x TL Ac); [|exact Hv|apply (tr_cur_act _ T t x Hc)].
      intros y Hy. rewrite (Es y Hy). now repeat split.
Qed.

(* C06, run-level form of "never missed": a due deadline of an active, uncancelled scope leads to the
   cancellation of the scope unless the program disarms it first (leaves the scope / assigns another deadline), and
   it does within one loop cycle when the scope is left alone. *)
From AV Require Import Base Machine MachineFacts ChainWalk ChainMono TimerInv TimerThms TimerOrder.
From Coq Require Import ZifyBool.

(* the clock never goes back *)
Lemma set_deadline_body_now s c d : now (set_deadline_body s c d) = now s.
Proof.
  unfold set_deadline_body. cbv zeta. set (s1 := cancel_timeout (upd_scope s c (sc_deadline d)) c).
  assert (E1 : now s1 = now s).
  { unfold s1. destruct (cancel_timeout_fields (upd_scope s c (sc_deadline d)) c) as (K & _). exact K. }
  destruct (_ && _); [|exact E1]. rewrite (sr_now _ _ (srel_scope_timeout s1 c)). exact E1.
Qed.

Lemma step_now s o : (now s <= now (fst (step s o)))%Z.
Proof.
  destruct o; try (match goal with |- context [step s ?o] => rewrite (sr_now _ _ (srel_step s o I)); lia end).
  - (* ASetDeadline *)
    destruct (idle s t) eqn:Hi; [|rewrite (step_busy s (ASetDeadline t c d) t eq_refl Hi); apply Z.le_refl].
    rewrite (step_setdl s t c d Hi), (fr_now _ _ (frame_ret _ t (RRet 0))), set_deadline_body_now. apply Z.le_refl.
  - (* ATick *)
    rewrite step_tick. destruct (Z.ltb dt 0) eqn:E; cbn [fst tick set_ready set_timers set_now now]; lia.
Qed.

Lemma final_now ops : forall s, (now s <= now (final step s ops))%Z.
Proof.
  induction ops as [|o r IH]; intros s; cbn [final fold_left]; [lia|].
  pose proof (step_now s o). specialize (IH (fst (step s o))). unfold final in IH. lia.
Qed.

Lemma reach_wf_run ops : forall s, reach_wf s -> wf_run s ops -> reach_wf (final step s ops).
Proof.
  induction ops as [|o r IH]; intros s R W; [exact R|]. destruct W as [W1 W2]. cbn [final fold_left].
  apply IH; [now apply reach_wf_step|exact W2].
Qed.

Lemma reach_wf_alloc s c : reach_wf s -> s_active (scopes s c) = true -> c < nscope s.
Proof.
  intros R Ha. destruct (reach_tinv s R) as [G _]. destruct (Nat.lt_ge_cases c (nscope s)) as [H|H]; [exact H|].
  rewrite (gi_unalloc _ G c H) in Ha. discriminate.
Qed.

Lemma cancelled_mono_run ops : forall s c,
  c < nscope s -> s_cancelled (scopes s c) = true -> s_cancelled (scopes (final step s ops) c) = true.
Proof.
  induction ops as [|o r IH]; intros s c Hc H; [exact H|]. cbn [final fold_left]. apply IH.
  - pose proof (wr_nscope _ _ (step_flags s o)). lia.
  - apply (proj1 (proj2 (caught_cancelled_monotone s o c Hc))), H.
Qed.

(* whatever the program and the loop do next, the scope ends up cancelled, or it was disarmed
   (left, or given another deadline), or its timeout callback is still waiting in the ready queue *)
Theorem due_deadline_cancels_unless_disarmed s c d ops :
  reach_wf s -> s_active (scopes s c) = true -> s_cancelled (scopes s c) = false ->
  s_deadline (scopes s c) = Some d -> (d <= now s)%Z ->
  let s' := final step s ops in wf_run s ops ->
  s_cancelled (scopes s' c) = true \/ s_active (scopes s' c) = false \/ s_deadline (scopes s' c) <> Some d \/
  (exists tm, In (HTimeout c tm) (ready s')).
Proof.
  intros R Ha Ec Ed Hd s' W.
  destruct (s_cancelled (scopes s' c)) eqn:Ec'; [now left|right].
  destruct (s_active (scopes s' c)) eqn:Ea'; [right|now left].
  destruct (s_deadline (scopes s' c)) as [d'|] eqn:Ed'; [|left; discriminate].
  destruct (Z.eq_dec d' d) as [->|Hne]; [right|left; congruence].
  pose proof (reach_wf_run ops s R W) as R'. fold s' in R'.
  pose proof (final_now ops s) as Hn. fold s' in Hn.
  destruct (due_timeout_is_ready s' c d R' Ea' Ec' Ed') as (tm & _ & Hin & _); [lia|]. eauto.
Qed.

(* fired timeout callbacks enter the ready queue only through ATick *)
Definition RR (s s' : st) : Prop := forall h, is_th h = true -> In h (ready s') -> In h (ready s).

Lemma rr_refl s : RR s s.
Proof. intros h _ H. exact H. Qed.

Lemma rr_trans a b c : RR a b -> RR b c -> RR a c.
Proof. intros H1 H2 h Hh H. apply (H1 h Hh), (H2 h Hh), H. Qed.

Lemma in_ths_gen h l : is_th h = true -> (In h (ths l) <-> In h l).
Proof. intros Hh. unfold ths. rewrite filter_In. tauto. Qed.

Lemma rr_ths s s' : ths (ready s') = ths (ready s) -> RR s s'.
Proof. intros E h Hh H. apply (in_ths_gen h _ Hh). rewrite <- E. now apply (in_ths_gen h _ Hh). Qed.

Lemma rr_same s s' : ready s' = ready s -> RR s s'.
Proof. intros E h _ H. now rewrite <- E. Qed.

Lemma rr_prims : prim_hyps RR (mk_prim_side True True False (fun _ _ => True)).
Proof.
  constructor; cbn [ps_dl ps_setdl ps_tick ps_cancel].
  - apply rr_refl.
  - apply rr_trans.
  - intros a b F. apply rr_ths, (fr_ths _ _ F).
  - intros s tm h _ H. cbn [timer_cancel set_ready set_timers ready] in H. apply filter_In in H. tauto.
  - intros s w f. apply rr_same; reflexivity.
  - intros s w c _. apply rr_same; reflexivity.
  - intros s c o. apply rr_same; reflexivity.
  - intros s c b. apply rr_same; reflexivity.
  - intros s c d _. apply rr_same; reflexivity.
  - intros s c _. apply rr_same; reflexivity.
  - intros a s c b Ha _ _. exact Ha.
  - intros; exact I.
  - intros; exact I.
  - intros s d sh. apply rr_same; reflexivity.
  - intros s. apply rr_same; reflexivity.
  - intros s g sf. apply rr_same; reflexivity.
  - intros s. apply rr_same; reflexivity.
  - intros s t f tm. apply rr_same; reflexivity.
  - intros s h' h _ H. unfold dequeue in H. cbn [set_ready ready] in H. eapply in_remove_first; eauto.
  - intros s dt _ [].
Qed.

(* every op other than an accepted ATick adds no fired timer callback to the ready queue *)
Theorem fired_callbacks_only_by_tick s o h :
  (forall dt, o <> ATick dt) -> is_th h = true -> In h (ready (fst (step s o))) -> In h (ready s).
Proof.
  intros Ho. apply (walk_step (prim_walk rr_prims) s o), prim_op_ok; [exact I|].
  destruct o; try exact I. now apply (Ho dt).
Qed.

(* running the fired callback of a due deadline cancels the scope with reason "deadline" *)
Theorem timeout_run_cancels s c tm :
  reach_wf s -> In (HTimeout c tm) (ready s) ->
  let s' := fst (step s (ARun (HTimeout c tm))) in
  s_cancelled (scopes s' c) = true /\
  (s_cancelled (scopes s c) = false -> s_bydeadline (scopes s' c) = true) /\
  ~ In (HTimeout c tm) (ready s') /\ now s' = now s.
Proof.
  intros R Hin. destruct (reach_tinv s R) as [G P]. destruct (pi_ready _ _ _ (P c) tm Hin) as (Et & d & Ed & Hd).
  unfold step. cbn [actor]. rewrite (run_handle_in s _ Hin). cbn [fst set_running scopes ready now].
  set (s1 := set_running (dequeue s (HTimeout c tm)) None).
  assert (E4 : scope_timeout s1 c = scope_cancel s1 c true).
  { unfold scope_timeout. change (s_deadline (scopes s1 c)) with (s_deadline (scopes s c)). rewrite Ed.
    change (now s1) with (now s). assert (El : Z.leb d (now s) = true) by lia. now rewrite El. }
  refine (conj _ (conj _ (conj _ (sr_now _ _ (srel_scope_timeout s1 c))))); rewrite ?E4.
  - apply scope_cancel_cancels.
  - exact (scope_cancel_bydeadline s1 c).
  - (* the entry was the only one with id tm, and cancel() adds no timer handle *)
    intros H. apply (R_scope_cancel rr_prims s1 s1 c true (rr_refl s1)) in H; [|split; [exists d; auto|exact I]|reflexivity].
    pose proof (gi_uniq _ G tm) as Hu. unfold live in Hu.
    pose proof (rcount_remove_first_in tm (HTimeout c tm) (ready s) Hin) as H1. cbn in H1. rewrite Nat.eqb_refl in H1.
    specialize (H1 eq_refl). pose proof (rcount_in tm (ready s1) _ H) as H2. cbn [is_timer_handle] in H2.
    rewrite Nat.eqb_refl in H2. specialize (H2 eq_refl). unfold s1, dequeue in H2. cbn [set_running set_ready ready] in H2. lia.
Qed.

(* the scope's timeout callback tm has fired and is pending *)
Record armed_due (s : st) (c : sid) (d : Z) (tm : tmid) : Prop := mk_armed_due {
  ad_active : s_active (scopes s c) = true;
  ad_uncancelled : s_cancelled (scopes s c) = false;
  ad_deadline : s_deadline (scopes s c) = Some d;
  ad_due : (d <= now s)%Z;
  ad_handle : s_timeout (scopes s c) = Some tm;
  ad_ready : In (HTimeout c tm) (ready s)
}.

(* a step that neither cancels nor disarms the scope leaves the same callback pending *)
Lemma armed_due_step s c d tm o :
  reach_wf s -> op_wf s o -> armed_due s c d tm ->
  let s' := fst (step s o) in
  s_cancelled (scopes s' c) = false -> s_active (scopes s' c) = true -> s_deadline (scopes s' c) = Some d ->
  armed_due s' c d tm.
Proof.
  intros R Hwf [Ha Ec Ed Hd Et Hin] s' Ec' Ea' Ed'.
  pose proof (reach_wf_step s o R Hwf) as R'. fold s' in R'.
  pose proof (step_now s o) as Hn. fold s' in Hn.
  destruct (due_timeout_is_ready s' c d R' Ea' Ec' Ed') as (tm2 & Et2 & Hin2 & _); [lia|].
  destruct (reach_tinv s R) as [G P].
  assert (E : tm2 = tm).
  { assert (Old : In (HTimeout c tm2) (ready s) -> tm2 = tm).
    { intros H. destruct (pi_ready _ _ _ (P c) tm2 H) as [E _]. congruence. }
    assert (Cases : (exists dt, o = ATick dt) \/ (forall dt, o <> ATick dt))
      by (destruct o; try (right; discriminate); left; eauto).
    destruct Cases as [[dt ->]|Hnt];
      [|apply Old; apply (fired_callbacks_only_by_tick s o (HTimeout c tm2) Hnt eq_refl Hin2)].
    (* ATick *)
    unfold s', step in Hin2. cbn [actor] in Hin2. destruct (Z.ltb dt 0) eqn:El; cbn [fst] in Hin2; [now apply Old|].
    unfold tick in Hin2. cbv zeta in Hin2. cbn [set_ready set_timers set_now ready] in Hin2.
    apply in_app_iff in Hin2. destruct Hin2 as [H|H]; [now apply Old|].
    apply in_map_iff in H. destruct H as (x & Ex & Hx). apply (proj1 (in_sort_timers _ _)) in Hx.
    apply filter_In in Hx. destruct Hx as [Hx _]. unfold handle_of_timer in Ex.
    destruct (tm_what x) as [f|c'] eqn:Ew; [discriminate|]. injection Ex as -> <-.
    destruct (pi_timer _ _ _ (P c) x Hx Ew) as [E _]. congruence. }
  subst tm2. constructor; auto. lia.
Qed.

(* the scope is neither left nor given another deadline during ops (at every prefix) *)
Definition stays (c : sid) (d : Z) (s : st) (ops : list op) : Prop :=
  forall pre post, ops = pre ++ post ->
    s_active (scopes (final step s pre) c) = true /\ s_deadline (scopes (final step s pre) c) = Some d.

Lemma stays_tail c d s o r : stays c d s (o :: r) -> stays c d (fst (step s o)) r.
Proof. intros H pre post E. apply (H (o :: pre) post). cbn. now rewrite E. Qed.

Lemma cycle_cancels ops : forall s c d tm,
  reach_wf s -> armed_due s c d tm -> wf_run s ops -> stays c d s ops ->
  In (ARun (HTimeout c tm)) ops -> s_cancelled (scopes (final step s ops) c) = true.
Proof.
  induction ops as [|o r IH]; intros s c d tm R A W St Hin; [destruct Hin|].
  destruct W as [W1 W2]. cbn [final fold_left]. set (s2 := fst (step s o)).
  pose proof (reach_wf_step s o R W1) as R2. fold s2 in R2.
  destruct (s_cancelled (scopes s2 c)) eqn:Ec2.
  - apply cancelled_mono_run; [|exact Ec2]. apply (reach_wf_alloc s2 c R2).
    apply (St [o] r eq_refl).
  - destruct (St [o] r eq_refl) as [Ea2 Ed2]. change (final step s [o]) with s2 in Ea2, Ed2.
    pose proof (armed_due_step s c d tm o R W1 A Ec2 Ea2 Ed2) as A2. fold s2 in A2.
    destruct Hin as [->|Hin].
    + exfalso. destruct (timeout_run_cancels s c tm R (ad_ready _ _ _ _ A)) as [K _]. fold s2 in K. congruence.
    + apply (IH s2 c d tm R2 A2 W2 (stays_tail _ _ _ _ _ St) Hin).
Qed.

(* the cycle version: if the loop runs every handle that was ready (one cycle) and the scope is left alone
   meanwhile, the scope is cancelled at the end of the cycle *)
Theorem due_deadline_cancelled_after_cycle s c d ops :
  reach_wf s -> s_active (scopes s c) = true -> s_cancelled (scopes s c) = false ->
  s_deadline (scopes s c) = Some d -> (d <= now s)%Z ->
  wf_run s ops -> stays c d s ops -> (forall h, In h (ready s) -> In (ARun h) ops) ->
  s_cancelled (scopes (final step s ops) c) = true.
Proof.
  intros R Ha Ec Ed Hd W St Hall.
  destruct (due_timeout_is_ready s c d R Ha Ec Ed Hd) as (tm & Et & Hin & _).
  apply (cycle_cancels ops s c d tm R); auto. constructor; auto.
Qed.

(* the hypothesis `stays` cannot be weakened to "ops contains no AExit _ c _ / ASetDeadline _ c _" in the model:
   a task group's own scope is left by AGroupExit.  Witness: the group scope 1 gets a deadline, the clock passes
   it, the host leaves the group before the loop runs the callback; the scope is never cancelled. *)
Definition gexit_ops : list op :=
  [ANewRoot; AGroupNew 1; AGroupEnter 1 1; ASetDeadline 1 1 (Some 5%Z); ATick 5].
Definition gexit_cycle : list op := [AGroupExit 1 1; ARun (HStep 1); ARun (HTimeout 1 1)].

Definition gexit_state : st := final step init gexit_ops.

Example stays_needed :
  reach_wf gexit_state /\ s_active (scopes gexit_state 1) = true /\ s_cancelled (scopes gexit_state 1) = false /\
  s_deadline (scopes gexit_state 1) = Some 5%Z /\ now gexit_state = 5%Z /\ ready gexit_state = [HTimeout 1 1] /\
  wf_run gexit_state gexit_cycle /\
  (forall h, In h (ready gexit_state) -> In (ARun h) gexit_cycle) /\
  forallb (fun o => match o with AExit _ 1 _ | ASetDeadline _ 1 _ => false | _ => true end) gexit_cycle = true /\
  s_cancelled (scopes (final step gexit_state gexit_cycle) 1) = false /\
  s_active (scopes (final step gexit_state gexit_cycle) 1) = false.
Proof.
  assert (Er : ready gexit_state = [HTimeout 1 1]) by (vm_compute; reflexivity).
  split; [exists gexit_ops; split; [cbn; tauto|reflexivity]|].
  split; [vm_compute; reflexivity|]. split; [vm_compute; reflexivity|]. split; [vm_compute; reflexivity|].
  split; [vm_compute; reflexivity|]. split; [exact Er|]. split; [cbn; tauto|].
  split; [rewrite Er; intros h [<-|[]]; right; right; now left|].
  split; [reflexivity|]. split; vm_compute; reflexivity.
Qed.

(* non-vacuity of the cycle theorem: the fail_at scope of TimerThms.dl_ops, clock at the deadline, one cycle *)
Definition cyc_state : st := final step init (dl_ops ++ [ATick 5]).

Example cycle_witness :
  reach_wf cyc_state /\ s_active (scopes cyc_state 1) = true /\ s_cancelled (scopes cyc_state 1) = false /\
  s_deadline (scopes cyc_state 1) = Some 5%Z /\ (5 <= now cyc_state)%Z /\ wf_run cyc_state [ARun (HTimeout 1 1)] /\
  stays 1 5%Z cyc_state [ARun (HTimeout 1 1)] /\
  (forall h, In h (ready cyc_state) -> In (ARun h) [ARun (HTimeout 1 1)]) /\
  s_cancelled (scopes (final step cyc_state [ARun (HTimeout 1 1)]) 1) = true.
Proof.
  assert (Er : ready cyc_state = [HTimeout 1 1]) by (vm_compute; reflexivity).
  assert (E0 : s_active (scopes cyc_state 1) = true /\ s_deadline (scopes cyc_state 1) = Some 5%Z)
    by (split; vm_compute; reflexivity).
  assert (E1 : s_active (scopes (final step cyc_state [ARun (HTimeout 1 1)]) 1) = true /\
               s_deadline (scopes (final step cyc_state [ARun (HTimeout 1 1)]) 1) = Some 5%Z)
    by (split; vm_compute; reflexivity).
  split; [exists (dl_ops ++ [ATick 5]); split; [cbn; tauto|reflexivity]|].
  split; [apply E0|]. split; [vm_compute; reflexivity|]. split; [apply E0|].
  split; [vm_compute; discriminate|]. split; [cbn; tauto|]. split.
  - intros pre post E. destruct pre as [|o [|o2 pre]].
    + exact E0.
    + cbn in E. injection E as <- _. exact E1.
    + cbn in E. injection E as _ E. destruct pre; discriminate.
  - split; [rewrite Er; intros h [<-|[]]; now left|]. vm_compute. reflexivity.
Qed.

(* C03: bounded cancellation latency under arbitrary concurrent activity.
   Task t is suspended inside a cancelled scope and takes requests; any other task may perform any API call, the
   environment may cancel scopes, advance time and add root tasks, and every callback at the head of the ready
   queue may run - except t's own.  Within two FIFO cycles t is resumed with a cancellation, unless its wait
   completed with a value first or somebody shielded it (its scope is then no longer effectively cancelled). *)
From Coq Require Import ZArith Lia.
From AV Require Import Base Machine MachineFacts ScopeFrames DeliverInv TreeInv DeliverAlive TreeStep KernelInv
  DeliverThms TimerInv CycleThms DebtInv ActWalk.

Section Track.
  Variable t : tid.

  (* somebody raised a shield between t and every cancelled scope above it *)
  Definition Esc (s : st) : Prop :=
    exists x z, k_cur (tasks s t) = Some x /\ vis s z x /\ s_shield (scopes s z) = true /\ s_cancelled (scopes s z) = false.

  Lemma Esc_not_effectively_cancelled s fuel : Esc s -> eff_cancelled_from fuel s (k_cur (tasks s t)) = false.
  Proof.
    intros [x [z [Ec [V [Hs Hc]]]]]. rewrite Ec. clear Ec. revert fuel.
    induction V as [|y p E1 E2 E3 V IH]; intros fuel; destruct fuel as [|fu]; cbn [eff_cancelled_from]; try reflexivity.
    - now rewrite Hc, Hs.
    - rewrite E2, E1, E3. apply IH.
  Qed.

  Lemma scan a b c : forall k, vis a c k ->
    (forall y, vis a y k -> s_parent (scopes b y) = s_parent (scopes a y)) ->
    vis b c k \/
    (exists y, vis a y k /\ vis b y k /\ s_cancelled (scopes a y) = false /\ s_cancelled (scopes b y) = true) \/
    (exists y, vis b y k /\ s_shield (scopes b y) = true /\ s_cancelled (scopes b y) = false).
  Proof.
    intros k V. induction V as [|x p E1 E2 E3 V IH]; intros H; [left; apply vis_here|].
    destruct (s_cancelled (scopes b x)) eqn:Cb.
    { right; left. exists x. split; [apply vis_here|]. split; [apply vis_here|now split]. }
    destruct (s_shield (scopes b x)) eqn:Sb.
    { right; right. exists x. split; [apply vis_here|now split]. }
    assert (Ep : s_parent (scopes b x) = Some p) by (rewrite (H x (vis_here a x)); exact E3).
    destruct IH as [IH|[[y [A [B [C D]]]]|[y [B [C D]]]]].
    - intros y Hy. apply H. eapply vis_up; eauto.
    - left. eapply vis_up; eauto.
    - right; left. exists y. split; [eapply vis_up; eauto|]. split; [eapply vis_up; eauto|now split].
    - right; right. exists y. split; [eapply vis_up; eauto|now split].
  Qed.

  Lemma active_lt s y : TreeL s -> s_active (scopes s y) = true -> y < nscope s.
  Proof. intros T A. apply (tl_act_alloc _ T y A). Qed.

  (* the walk in the later state, read back in the earlier one *)
  Lemma vis_back a b x : forall k, vis b x k ->
    TreeL a -> s_active (scopes a k) = true ->
    (forall z, s_active (scopes a z) = true -> z <> x ->
               s_parent (scopes b z) = s_parent (scopes a z) /\
               (s_cancelled (scopes a z) = true -> s_cancelled (scopes b z) = true) /\
               (s_shield (scopes a z) = true -> s_shield (scopes b z) = true)) ->
    vis a x k.
  Proof.
    intros k V T. induction V as [|z p E1 E2 E3 V IH]; intros Ak H; [apply vis_here|].
    destruct (Nat.eq_dec z x) as [->|Hz]; [apply vis_here|].
    destruct (H z Ak Hz) as [Ep [Ec Es]].
    assert (S0 : s_shield (scopes a z) = false) by (destruct (s_shield (scopes a z)); [rewrite Es in E1; auto|reflexivity]).
    assert (C0 : s_cancelled (scopes a z) = false) by (destruct (s_cancelled (scopes a z)); [rewrite Ec in E2; auto|reflexivity]).
    rewrite Ep in E3. eapply vis_up; eauto. apply IH; [|exact H]. now apply (tl_par_act _ T z p).
  Qed.
End Track.

Section Track2.
  Variable t : tid.

  (* the walk from t's scope to the cancelled scope c across a step that is not t's: it survives, or a shield was
     raised on it, or a scope y on it was cancelled, which t then reaches *)
  Lemma track_scan XE X a b c :
    Good t a -> Good t b -> aw t XE X a b ->
    (forall y, In y XE -> s_active (scopes a y) = false \/ s_parent (scopes b y) = s_parent (scopes a y)) ->
    trk t c a ->
    trk t c b \/ Esc t b \/
    exists k y, k_cur (tasks a t) = Some k /\ vis a y k /\ vis b y k /\ s_active (scopes a y) = true /\ y < nscope a /\
                s_cancelled (scopes a y) = false /\ trk t y b.
  Proof.
    intros Ga Gb W HE [[Hd [k [Hc V]]] [Cc Hh]].
    pose proof (tframe_core t a b (aw_t _ _ _ _ _ W (gd_k _ _ Ga))) as E.
    pose proof (gd_tl _ _ Ga) as Ta. pose proof (gd_tl _ _ Gb) as Tb.
    assert (Hcb : k_cur (tasks b t) = Some k) by (rewrite (tcore_cur _ _ E); exact Hc).
    assert (Wk : forall y, vis a y k -> s_active (scopes a y) = true /\ y < nscope a).
    { intros y Hy. pose proof (walk_active a k y Ta (tl_cur_act _ Ta t k Hc) Hy) as Ay. split; [exact Ay|now apply active_lt]. }
    assert (Mk : forall y, vis b y k -> s_cancelled (scopes b y) = true -> trk t y b).
    { intros y Vy Cy. split; [split; [now rewrite (tcore_done _ _ E)|exists k; now split]|]. split; [exact Cy|].
      apply (gd_host _ _ Gb). apply (walk_active b k y Tb); [apply (tl_cur_act _ Tb t k Hcb)|exact Vy]. }
    destruct (scan a b c k V) as [S1|[[y [A [B [C D]]]]|[y [B [C D]]]]].
    - intros y Hy. destruct (Wk y Hy) as [Ay Ly].
      destruct (in_dec Nat.eq_dec y XE) as [Hin|Hn]; [|now apply (aw_par _ _ _ _ _ W y Ly)].
      destruct (HE y Hin) as [E0|E0]; [congruence|exact E0].
    - left. apply Mk; [exact S1|]. destruct (Wk c V) as [_ Lc]. now apply (aw_mono _ _ _ _ _ W c Lc).
    - right; right. exists k, y. destruct (Wk y A) as [Ay Ly].
      exact (conj Hc (conj A (conj B (conj Ay (conj Ly (conj C (Mk y B D))))))).
    - right; left. exists k, y. now repeat split.
  Qed.

  (* ops that cancel no active scope (and enter only inactive ones) *)
  Lemma track0 XE X a b c :
    Good t a -> Good t b -> aw t XE X a b ->
    (forall y, In y XE -> s_active (scopes a y) = false) ->
    (forall y, In y X -> s_active (scopes a y) = false \/ s_cancelled (scopes b y) = s_cancelled (scopes a y)) ->
    trk t c a -> trk t c b \/ Esc t b.
  Proof.
    intros Ga Gb W HE HX Tk.
    destruct (track_scan XE X a b c Ga Gb W (fun y Hy => or_introl (HE y Hy)) Tk)
      as [T|[E|[k [y [_ [_ [_ [Ay [Ly [Ca [_ [Cb _]]]]]]]]]]]]; auto.
    exfalso. destruct (in_dec Nat.eq_dec y X) as [Hin|Hn].
    - destruct (HX y Hin) as [E0|E0]; congruence.
    - destruct (aw_v _ _ _ _ _ W y Ly Hn) as [Ec _]. congruence.
  Qed.

  (* ops of the form: light prefix; cancel(x); rest that cancels no active scope *)
  Lemma track1 XE' X' a m x bd b c :
    Good t a -> Good t b -> Good t m -> aw t [] [] a m ->
    aw t XE' X' (scope_cancel m x bd) b ->
    (forall y, In y XE' \/ In y X' -> s_active (scopes m y) = false) ->
    (forall y, In y XE' \/ In y X' -> s_active (scopes a y) = false) ->
    eligG t a -> trk t c a -> ~ reqG t b -> trk t c b \/ Esc t b.
  Proof.
    intros Ga Gb Gm Wp Ws HI HIa El Tk Nr. pose proof (gd_k _ _ Gm) as Km.
    pose proof (Good_scope_cancel t m x bd Gm) as Gm2. set (m2 := scope_cancel m x bd) in *.
    assert (Wc : aw t [] [x] m m2) by (apply aw_scope_cancel; now left).
    assert (Wall : aw t XE' ([x] ++ X') a b).
    { apply (aw_trans t _ _ a m2).
      - apply (aw_trans t _ _ a m); [apply (aw_weaken t [] []); [intros y []|intros y []|exact Wp]|].
        apply (aw_weaken t [] [x]); [intros y []|intros y Hy; apply in_or_app; now left|exact Wc].
      - apply (aw_weaken t XE' X'); [apply incl_refl|intros y Hy; apply in_or_app; now right|exact Ws]. }
    destruct (track_scan XE' _ a b c Ga Gb Wall (fun y Hy => or_introl (HIa y (or_introl Hy))) Tk)
      as [T|[E|[k [y [Hc [A [B [Ay [Ly [Ca [_ [Cb _]]]]]]]]]]]]; auto.
    (* a scope on the walk was cancelled: it is x, and its cancel() reached t *)
    exfalso.
    assert (Eyx : y = x).
    { destruct (Nat.eq_dec y x) as [E0|N0]; [exact E0|exfalso].
      destruct (aw_v _ _ _ _ _ Wall y Ly) as [Ec _]; [|congruence].
      intros Hin. apply in_app_or in Hin. destruct Hin as [[Hin|[]]|Hin]; [congruence|].
      rewrite (HIa y (or_intror Hin)) in Ay. discriminate. }
    subst y.
    assert (Hcm : k_cur (tasks m t) = Some k).
    { rewrite (tcore_cur _ _ (tframe_core t a m (aw_t _ _ _ _ _ Wp (gd_k _ _ Ga)))). exact Hc. }
    assert (Hcm2 : k_cur (tasks m2 t) = Some k).
    { pose proof (tframe_core t m m2 (aw_t _ _ _ _ _ Wc Km)) as E2. rewrite (tcore_cur _ _ E2). exact Hcm. }
    pose proof (gd_tl _ _ Gm) as Tm. pose proof (gd_tl _ _ Gm2) as Tm2.
    assert (Inact : forall z, s_active (scopes m2 z) = true -> ~ (In z XE' \/ In z X')).
    { intros z Az Hin. rewrite (tq_active _ _ (treq_scope_cancel m x bd)) in Az. rewrite (HI z Hin) in Az. discriminate. }
    assert (Vm2 : vis m2 x k).
    { apply (vis_back m2 b x k B Tm2); [apply (tl_cur_act _ Tm2 t k Hcm2)|].
      intros z Az Hz. pose proof (active_lt m2 z Tm2 Az) as Lz.
      split; [apply (aw_par _ _ _ _ _ Ws z Lz); intros Hin; apply (Inact z Az); now left|].
      destruct (aw_v _ _ _ _ _ Ws z Lz) as [Ec Es]; [intros Hin; apply (Inact z Az); now right|].
      split; [intros Hcz; now rewrite Ec|exact Es]. }
    assert (Vm : vis m x k).
    { apply (vis_back m m2 x k Vm2 Tm); [apply (tl_cur_act _ Tm t k Hcm)|].
      intros z Az Hz. pose proof (active_lt m z Tm Az) as Lz.
      split; [apply (aw_par _ _ _ _ _ Wc z Lz); intros []|].
      destruct (aw_v _ _ _ _ _ Wc z Lz) as [Ec Es]; [intros [Hin|[]]; congruence|].
      split; [intros Hcz; now rewrite Ec|exact Es]. }
    assert (Cm : s_cancelled (scopes m x) = false).
    { destruct (aw_v _ _ _ _ _ Wp x Ly) as [Ec _]; [intros []|]. now rewrite Ec. }
    assert (Mono2 : reqG t m2 -> reqG t b) by (apply reqG_mono, (aw_t _ _ _ _ _ Ws (gd_k _ _ Gm2))).
    assert (Elm : eligG t m).
    { apply (eligG_keep t a m (gd_k _ _ Ga) (aw_t _ _ _ _ _ Wp (gd_k _ _ Ga)) El).
      intros Rm. apply Nr, Mono2. revert Rm. apply reqG_mono, (aw_t _ _ _ _ _ Wc Km). }
    apply Nr, Mono2, (cancel_hits t m x bd k Gm Elm Hcm Vm Cm).
  Qed.
End Track2.

Lemma tree_fresh_inactive s : Tree s -> s_active (scopes s (nscope s)) = false.
Proof. apply tn_inactive. Qed.

Lemma fresh_inactive s : reach_ok s -> s_active (scopes s (nscope s)) = false.
Proof. intros R. apply tree_fresh_inactive, reach_tree, R. Qed.

(* the handle scope of a task that has not started is not active *)
Lemma new_hscope_inactive s u : reach_ok s -> k_ctl (tasks s u) = CNew -> s_active (scopes s (k_hscope (tasks s u))) = false.
Proof.
  intros R Hc. destruct (reach_sinv s R) as [[T C] _].
  destruct (s_active (scopes s (k_hscope (tasks s u)))) eqn:Ea; [exfalso|reflexivity].
  assert (A : alloc_t s u).
  { destruct (alloc_t_dec s u) as [A|A]; [exact A|]. rewrite (c_unalloc _ C u A) in Hc. discriminate. }
  destruct (c_ok _ C u A) as [K1 _]. destruct (K1 Hc) as [_ [Hg Hh]].
  destruct (k_group (tasks s u)) as [g|] eqn:Eg; [|now elim Hg].
  destruct (tr_hpar _ T u g A Eg Ea) as [_ Hhost]. now apply (Hh (k_hscope (tasks s u))).
Qed.

Section ActTrack.
  Variables (t : tid) (c : sid).

  (* an act of somebody else whose exception lists are inactive scopes *)
  Lemma act_track0 a o :
    reach_ok a -> running a <> Some t -> t < ntask a -> other_act t o -> op_ok a o = true ->
    (forall y, In y (xe a o) \/ In y (xc a o) -> s_active (scopes a y) = false) ->
    running (fst (step a o)) <> Some t ->
    trk t c a -> trk t c (fst (step a o)) \/ Esc t (fst (step a o)).
  Proof.
    intros R Hr At Ho Hok HI Hrb Tk.
    pose proof (aw_step_act t a o Ho At) as W.
    apply (track0 t (xe a o) (xe a o ++ xc a o) a _ c); auto.
    - now apply good_reach.
    - apply good_reach; [now apply reach_ok_step|exact Hrb].
    - intros y Hy. left. apply in_app_or in Hy. apply HI. tauto.
  Qed.
End ActTrack.

Section Sites.
  Variables (t : tid) (c : sid).

  Definition TR (a b : st) : Prop := eligG t a -> trk t c a -> ~ reqG t b -> trk t c b \/ Esc t b.

  (* prefix; (cancel(x) | a neutral step); rest that cancels no active scope.  m is the state at the site *)
  Lemma track_site XE' X' a m m2 x bd b :
    Good t a -> Good t b -> Good t m -> aw t [] [] a m ->
    (m2 = scope_cancel m x bd \/ aw t [] [] m m2) ->
    aw t XE' X' m2 b ->
    (forall y, In y XE' \/ In y X' -> s_active (scopes m y) = false) ->
    (forall y, In y XE' \/ In y X' -> s_active (scopes a y) = false) ->
    TR a b.
  Proof.
    intros Ga Gb Gm Wp [->|Wm] Ws HI HIa El Tk Nr.
    - now apply (track1 t XE' X' a m x bd b c).
    - assert (W : aw t XE' X' a b).
      { apply (aw_trans t _ _ a m2); [|exact Ws].
        apply (aw_weaken t [] []); [intros y []|intros y []|]. apply (aw_trans t _ _ a m); assumption. }
      apply (track0 t XE' X' a b c Ga Gb W); [| |exact Tk].
      + intros y Hy. apply HIa. now left.
      + intros y Hy. left. apply HIa. now right.
  Qed.
End Sites.

Section PuppetTR.
  Variables (t : tid) (c : sid).
  Notation TR := (TR t c).

  Lemma pre_begin a u : u <> t -> Good t a ->
    treq a (begin_act a u) /\ Good t (begin_act a u) /\ aw t [] [] a (begin_act a u).
  Proof.
    intros Hu G. pose proof (quiet_treq u _ _ (quiet_begin_act a u)) as Q. split; [exact Q|]. split; [|now apply aw_begin_act].
    apply (Good_treq t a _ G Q); [apply (KInv_kq a); [apply G|apply kq_begin_act]|cbn; congruence].
  Qed.

  (* the whole op has inactive exception lists *)
  Lemma TR0 XE X a b :
    Good t a -> Good t b -> aw t XE X a b ->
    (forall y, In y XE \/ In y X -> s_active (scopes a y) = false) -> TR a b.
  Proof.
    intros Ga Gb W HI _ Tk _. apply (track0 t XE X a b c Ga Gb W); [| |exact Tk]; intros y Hy; [|left]; apply HI; tauto.
  Qed.

  Lemma ret_TR a u s1 r b :
    u <> t -> Good t a -> Good t b -> aw t [] [] a s1 -> b = fst (ret_to_puppet s1 u r) -> TR a b.
  Proof.
    intros Hu Ga Gb W ->. apply (TR0 [] [] a _ Ga Gb); [|intros y [[]|[]]].
    apply (aw_trans t _ _ a s1); [exact W|now apply aw_ret].
  Qed.

  Lemma puppet_TR a u o :
    reach_ok a -> running a <> Some t -> t < ntask a -> u <> t ->
    Good t (fst (puppet_op a u o)) -> TR a (fst (puppet_op a u o)).
  Proof.
    intros R Hr At Hu Gb. pose proof (good_reach t a R Hr) as Ga.
    destruct (pre_begin a u Hu Ga) as [Q [Gs Wp]].
    pose proof (fresh_inactive a R) as Fr.
    assert (K0 : (forall y, In y (xe a o) \/ In y (xe a o ++ xc a o) -> s_active (scopes a y) = false) ->
                 TR a (fst (puppet_op a u o))).
    { intros HI. apply (TR0 (xe a o) (xe a o ++ xc a o) a _ Ga Gb); [now apply aw_puppet_op|exact HI]. }
    destruct o; try (apply K0; cbn [xe xc app]; intros y [[]|[]]; fail).
    - (* AEnter *)
      destruct (s_active (scopes a c0)) eqn:Ea.
      + assert (E : scope_enter (begin_act a u) c0 u = (begin_act a u, Some ERuntime))
          by (apply scope_enter_fail; now rewrite (tq_active _ _ Q)).
        unfold puppet_op in *. rewrite E in *. eapply ret_TR; eauto.
      + apply K0. cbn [xe xc app]. intros y [[<-|[]]|[<-|[]]]; exact Ea.
    - (* ACancel *)
      unfold puppet_op in *.
      apply (track_site t c [] [] a (begin_act a u) (scope_cancel (begin_act a u) c0 false) c0 false _ Ga Gb Gs Wp);
        [now left|now apply aw_ret|intros y [[]|[]]|intros y [[]|[]]].
    - (* ASetShield *)
      intros _ Tk _.
      apply (track0 t [] ([] ++ (if b then [] else [c0])) a _ c Ga Gb (aw_puppet_op t a u (ASetShield t0 c0 b) Hu At));
        [intros y []| |exact Tk].
      intros y Hy. right. cbn [app] in Hy. unfold puppet_op.
      set (s := begin_act a u).
      destruct (Bool.eqb (s_shield (scopes s c0)) b); [now rewrite (proj1 (ss_ret s u (RRet 0)))|].
      destruct b; [destruct Hy|].
      rewrite (proj1 (ss_ret _ u (RRet 0))).
      rewrite (core_cancelled _ _ (kf_scopes _ _ (kframe_restart (upd_scope s c0 (sc_shield false)) _) y)).
      cbn. unfold upd. destruct (Nat.eqb_spec y c0); [subst|]; reflexivity.
    - (* ASetDeadline *)
      unfold puppet_op in *. set (s := begin_act a u) in *.
      set (m := cancel_timeout (upd_scope s c0 (sc_deadline d)) c0) in *.
      assert (Qm : treq s m).
      { apply (treq_trans s (upd_scope s c0 (sc_deadline d)) m);
          [apply treq_upd_scope; intros k; reflexivity|apply treq_cancel_timeout]. }
      assert (Wm : aw t [] [] s m).
      { apply (aw_trans t _ _ s (upd_scope s c0 (sc_deadline d)));
          [apply aw_upd_scope_keep; intros k; reflexivity|apply aw_cancel_timeout]. }
      assert (Gm : Good t m).
      { apply (Good_treq t s m Gs Qm); [apply (aw_k _ _ _ _ _ Wm), (gd_k _ _ Gs)|apply (aw_run _ _ _ _ _ Wm), Gs]. }
      set (m2 := if s_active (scopes m c0) && negb (s_cancelled (scopes m c0)) then scope_timeout m c0 else m) in *.
      apply (track_site t c [] [] a m m2 c0 true _ Ga Gb Gm (aw_trans t _ _ _ _ _ Wp Wm));
        [|now apply aw_ret|intros y [[]|[]]|intros y [[]|[]]].
      unfold m2. destruct (_ && _); [|right; apply aw_refl].
      unfold scope_timeout. destruct (s_deadline (scopes m c0)); [|right; apply aw_refl].
      destruct (Z.leb z (now m)); [now left|right].
      unfold call_at. cbv zeta.
      match goal with |- aw t [] [] m (upd_scope ?m1 c0 ?g) => apply (aw_trans t [] [] m m1) end.
      + apply aw_light; try reflexivity; [apply kq_tasks_same; reflexivity|apply rsh_same; reflexivity|auto].
      + apply aw_upd_scope_keep. intros k; reflexivity.
    - (* AGroupEnter *)
      unfold puppet_op in *. set (s := begin_act a u) in *.
      destruct (g_entered (groups s g)) eqn:Ee; [eapply ret_TR; eauto|].
      set (s1 := upd_group s g (gr_entered true)) in *.
      assert (Eg : g_scope (groups s1 g) = g_scope (groups a g)) by (unfold s1; cbn; unfold upd; now rewrite Nat.eqb_refl).
      assert (W1 : aw t [] [] a s1) by (apply (aw_trans t _ _ a s); [exact Wp|apply aw_upd_group]).
      destruct (s_active (scopes s1 (g_scope (groups s1 g)))) eqn:Ea.
      + rewrite (scope_enter_fail s1 _ u Ea) in *. eapply ret_TR; eauto.
      + pose proof (aw_puppet_op t a u (AGroupEnter t0 g) Hu At) as W. unfold puppet_op in W. fold s in W. rewrite Ee in W. fold s1 in W.
        assert (Q1 : treq a s1) by (apply (treq_trans a s s1); [exact Q|apply treq_upd_group; intros k; reflexivity]).
        apply (TR0 _ _ a _ Ga Gb W). cbn [xe xc app]. rewrite <- Eg.
        intros y [[<-|[]]|[<-|[]]]; rewrite <- (tq_active _ _ Q1); exact Ea.
    - (* AGroupExit *)
      unfold puppet_op in *. set (s := begin_act a u) in *.
      set (gs := g_scope (groups s g)) in *.
      set (exc := k_held (tasks s u)) in *.
      set (m2 := match exc with Some _ => scope_cancel s gs false | None => s end).
      assert (N2 : nscope m2 = nscope a).
      { unfold m2. destruct exc; [rewrite (tq_nscope _ _ (treq_scope_cancel s gs false))|]; apply (tq_nscope _ _ Q). }
      apply (track_site t c [nscope a] [nscope a] a s m2 gs false _ Ga Gb Gs Wp).
      + unfold m2. destruct exc; [now left|right; apply aw_refl].
      + (* the rest: record the exception, then the shielded checkpoint or the wait loop *)
        set (s1 := match exc with
                   | Some e => if is_cancel e then scope_cancel s gs false
                               else upd_group (scope_cancel s gs false) g (fun x => gr_excs (g_excs x ++ [(0, e)]) x)
                   | None => s end).
        assert (W1 : aw t [nscope a] [nscope a] m2 s1).
        { unfold s1, m2. destruct exc as [e|]; [|apply aw_refl]. destruct (is_cancel e); [apply aw_refl|apply aw_upd_group]. }
        assert (N1 : nscope s1 = nscope a).
        { rewrite <- N2. unfold s1, m2. destruct exc as [e|]; [|reflexivity]. destruct (is_cancel e); reflexivity. }
        change (match exc with
                | Some e => let a0 := scope_cancel s gs false in
                            if is_cancel e then a0 else upd_group a0 g (fun x => gr_excs (g_excs x ++ [(0, e)]) x)
                | None => s end) with s1.
        apply (aw_trans t _ _ m2 s1 _ W1). apply aw_aexit_body; [exact Hu| |]; rewrite N1; now left.
      + intros y [[<-|[]]|[<-|[]]]; rewrite (tq_active _ _ Q); exact Fr.
      + intros y [[<-|[]]|[<-|[]]]; exact Fr.
    - (* AHandleCancel *)
      unfold puppet_op in *. set (s := begin_act a u) in *.
      destruct (e_set (events s (k_hevent (tasks s h)))); [eapply ret_TR; eauto|].
      apply (track_site t c [] [] a s (scope_cancel s (k_hscope (tasks s h)) false) (k_hscope (tasks s h)) false _
               Ga Gb Gs Wp); [now left|now apply aw_ret|intros y [[]|[]]|intros y [[]|[]]].
    - (* AShieldCk *)
      apply K0. cbn [xe xc app]. intros y [[<-|[]]|[<-|[]]]; exact Fr.
    - (* AFailAt *)
      apply K0. cbn [xe xc app]. intros y [[<-|[]]|[<-|[]]]; exact Fr.
    - (* AExtCancel: not a puppet op *) intros _ Tk _. left. exact Tk.
    - (* ARun *) intros _ Tk _. left. exact Tk.
  Qed.
End PuppetTR.

Section StepTR.
  Variables (t : tid) (c : sid).
  Notation TR := (TR t c).

  Lemma TR_refl a : TR a a.
  Proof. intros _ Tk _. now left. Qed.

  Lemma step_TR a o :
    reach_ok a -> running a <> Some t -> t < ntask a -> other_act t o ->
    Good t (fst (step a o)) -> TR a (fst (step a o)).
  Proof.
    intros R Hr At Ho Gb. pose proof (good_reach t a R Hr) as Ga.
    unfold step in *. destruct (actor o) as [u|] eqn:Ea.
    - assert (Hu : u <> t).
      { destruct o; cbn [other_act actor] in *; try discriminate; inversion Ea; subst; intros ->; now apply Ho. }
      destruct (negb (idle a u)); [apply TR_refl|].
      destruct o; cbn [actor] in Ea; try discriminate; try (now apply puppet_TR).
      (* AFinish *)
      apply (TR0 t c [] [] a _ Ga Gb); [now apply aw_puppet_finish|intros y [[]|[]]].
    - destruct o; cbn [actor] in Ea; try discriminate; try apply TR_refl.
      + (* ANewRoot *)
        apply (TR0 t c [] [] a _ Ga Gb); [|intros y [[]|[]]].
        apply (aw_step_act t a ANewRoot Ho At).
      + (* ANativeCancel *)
        apply (TR0 t c [] [] a _ Ga Gb); [|intros y [[]|[]]]. apply (aw_step_act t a (ANativeCancel t0) Ho At).
      + (* AExtCancel *)
        cbn [fst] in *. set (m := set_running a None) in *.
        assert (Gm : Good t m) by (apply (Good_same t a); try reflexivity; [exact Ga|cbn; discriminate]).
        apply (track_site t c [] [] a m (scope_cancel m c0 false) c0 false _ Ga Gb Gm);
          [apply aw_set_running; discriminate|now left|apply aw_set_running; discriminate|intros y [[]|[]]|intros y [[]|[]]].
      + (* ARun *) destruct Ho.
      + (* ATick *)
        apply (TR0 t c [] [] a _ Ga Gb); [|intros y [[]|[]]]. apply (aw_step_act t a (ATick dt) Ho At).
  Qed.
End StepTR.

Section ResumeTR.
  Variables (t : tid) (c : sid).
  Notation TR := (TR t c).

  Definition new_frame (k : ctl) : bool :=
    match k with
    | CNew | CYield (YShield _) | CAexitWait _ _ _ | CAexitCk _ _ _ | CStartWait _ _ _ | CStartJoin _ _ _ _ => true
    | _ => false
    end.

  Lemma pre_incoming a u fo : u <> t -> Good t a ->
    treq a (fst (incoming a u fo)) /\ Good t (fst (incoming a u fo)) /\ aw t [] [] a (fst (incoming a u fo)).
  Proof.
    intros Hu G. pose proof (quiet_treq u _ _ (quiet_incoming a u fo)) as Q. split; [exact Q|]. split; [|now apply aw_incoming].
    apply (Good_treq t a _ G Q); [apply (KInv_kq a); [apply G|apply kq_incoming]|cbn; congruence].
  Qed.

  Lemma resume_TR a u fo :
    Tree a -> Ctl a ->
    (k_ctl (tasks a u) = CNew -> s_active (scopes a (k_hscope (tasks a u))) = false) ->
    s_active (scopes a (nscope a)) = false ->
    u <> t -> Good t a -> Good t (fst (resume a u fo)) ->
    new_frame (k_ctl (tasks a u)) = true -> TR a (fst (resume a u fo)).
  Proof.
    intros Ta Ca Hnew Hfresh Hu Ga Gb Hf.
    assert (K0 : (forall y, In y (xe_ctl a u) \/ In y (xe_ctl a u ++ xc_ctl a u) -> s_active (scopes a y) = false) ->
                 TR a (fst (resume a u fo))).
    { intros HI. apply (TR0 t c _ _ a _ Ga Gb (aw_resume t a u fo Hu) HI). }
    (* the frames that cancel a scope only when they receive an exception *)
    assert (KN : snd (incoming a u fo) = None ->
                 (forall g sc e, k_ctl (tasks a u) <> CAexitCk g sc e) -> k_ctl (tasks a u) <> CNew ->
                 TR a (fst (resume a u fo))).
    { intros Ei N1 N2. apply (TR0 t c [] [] a _ Ga Gb); [|intros y [[]|[]]].
      apply aw_resume_gen; [exact Hu|contradiction|intros g ws e _ N; now elim N|intros g sc e E; now elim (N1 g sc e)|].
      intros g ch f0 _ N; now elim N. }
    assert (HIa : forall y, In y [nscope a] \/ In y [nscope a] -> s_active (scopes a y) = false)
      by (intros y [[<-|[]]|[<-|[]]]; exact Hfresh).
    assert (Pre : exists s inc, incoming a u fo = (s, inc) /\ k_ctl (tasks s u) = k_ctl (tasks a u) /\
                                treq a s /\ Good t s /\ aw t [] [] a s).
    { exists (fst (incoming a u fo)), (snd (incoming a u fo)). split; [now destruct (incoming a u fo)|].
      split; [apply incoming_ctl|now apply pre_incoming]. }
    destruct Pre as [s [inc [Ei [Ec [Qi [Gi Wi]]]]]]. rewrite Ei in KN. cbn [snd] in KN.
    destruct (k_ctl (tasks a u)) eqn:Ectl; try discriminate.
    - apply K0. unfold xe_ctl, xc_ctl. rewrite Ectl. cbn [app]. intros y [[<-|[]]|[<-|[]]]; now apply Hnew.
    - destruct k; try discriminate. apply K0. unfold xe_ctl, xc_ctl. rewrite Ectl. cbn [app]. intros y [[]|[]].
    - destruct inc as [e|]; [|apply KN; [reflexivity|intros; discriminate|discriminate]].
      clear K0 KN. unfold resume in *. rewrite Ei, Ec in *.
      (* cancelled in the wait loop: the wait scope is shielded and the group's scope cancelled *)
      set (s1 := upd_group s g (gr_fut None)) in *.
      set (m := upd_scope s1 ws (sc_shield true)) in *.
      assert (Qm : treq s m).
      { apply (treq_trans s s1 m); [apply treq_upd_group|apply treq_upd_scope]; intros k; reflexivity. }
      assert (Wm : aw t [] [] s m) by (apply (aw_trans t _ _ s s1); [apply aw_upd_group|apply aw_shield_true]).
      assert (Gm : Good t m).
      { apply (Good_treq t s m Gi Qm); [apply (aw_k _ _ _ _ _ Wm), (gd_k _ _ Gi)|apply (aw_run _ _ _ _ _ Wm), Gi]. }
      apply (track_site t c [] [] a m (scope_cancel m (g_scope (groups m g)) false) (g_scope (groups m g)) false _
               Ga Gb Gm (aw_trans t _ _ _ _ _ Wi Wm));
        [now left|apply aw_wof; [exact Hu|discriminate]|intros y [[]|[]]|intros y [[]|[]]].
    - (* CAexitCk: the scope of the shielded checkpoint is left first *)
      clear K0 KN. unfold resume in *. rewrite Ei, Ec in *.
      assert (Ts : Tree s) by (apply (Tree_treq a); assumption).
      assert (Au : alloc_t a u).
      { destruct (alloc_t_dec a u) as [A|A]; [exact A|]. rewrite (c_unalloc _ Ca u A) in Ectl. discriminate. }
      assert (Ng : notg s sc).
      { destruct (c_ok _ Ca u Au) as [_ [_ [K3 _]]]. apply (scope_ok_treq a s sc Qi). apply K3. now rewrite Ectl. }
      assert (R1 : Run [u] s (fst (scope_exit s sc u inc))).
      { apply run_exit; [now apply run_refl|now left|]. intros Hok. now apply exit_side_pub. }
      pose proof (run_tree _ _ _ R1) as T1.
      pose proof (aw_exit t [] [] s sc u inc Hu) as Wx. pose proof (sfr_exit s sc u inc) as Fx.
      destruct (scope_exit s sc u inc) as [s1 x]. cbn [fst] in *.
      assert (W1 : aw t [] [] a s1) by (apply (aw_trans t _ _ a s); assumption).
      assert (N1 : nscope s1 = nscope a) by (rewrite (sf_ns _ _ Fx); apply (tq_nscope _ _ Qi)).
      assert (G1 : Good t s1).
      { constructor; [now apply Tree_TreeL|apply (aw_k _ _ _ _ _ W1), (gd_k _ _ Ga)|apply (aw_run _ _ _ _ _ W1), Ga|].
        intros y Hy. destruct (tr_host_act _ T1 y Hy) as [w [E _]]. rewrite E. discriminate. }
      assert (HI1 : forall y, In y [nscope a] \/ In y [nscope a] -> s_active (scopes s1 y) = false)
        by (intros y [[<-|[]]|[<-|[]]]; rewrite <- N1; apply tree_fresh_inactive, T1).
      assert (Wof : forall m ex, nscope m = nscope a -> aw t [nscope a] [nscope a] m (fst (aexit_wait_or_finish m u g None ex))).
      { intros m ex Nm. apply aw_wof; [exact Hu|]. intros _. rewrite Nm. split; now left. }
      destruct x as [| |e']; [|destruct inc as [e'|]; [destruct (is_cancel e')|]|].
      + apply (track_site t c [nscope a] [nscope a] a s1 s1 0 false _ Ga Gb G1 W1); [right; apply aw_refl|now apply Wof|exact HI1|exact HIa].
      + apply (track_site t c [nscope a] [nscope a] a s1 (scope_cancel s1 (g_scope (groups s1 g)) false)
                 (g_scope (groups s1 g)) false _ Ga Gb G1 W1); [now left| |exact HI1|exact HIa].
        apply Wof. rewrite (tq_nscope _ _ (treq_scope_cancel s1 _ false)). exact N1.
      + apply (track_site t c [] [] a s1 s1 0 false _ Ga Gb G1 W1); [right; apply aw_refl| |intros y [[]|[]]|intros y [[]|[]]].
        now apply aw_then_ret, aw_aexit_raise.
      + apply (track_site t c [nscope a] [nscope a] a s1 s1 0 false _ Ga Gb G1 W1); [right; apply aw_refl|now apply Wof|exact HI1|exact HIa].
      + apply (track_site t c [] [] a s1 s1 0 false _ Ga Gb G1 W1); [right; apply aw_refl| |intros y [[]|[]]|intros y [[]|[]]].
        now apply aw_then_ret, aw_aexit_raise.
    - destruct inc as [e|]; [|apply KN; [reflexivity|intros; discriminate|discriminate]].
      clear K0 KN. unfold resume in *. rewrite Ei, Ec in *.
      (* cancelled while the child is starting: its handle scope is cancelled, and the child joined *)
      set (x := k_hscope (tasks s child)) in *.
      apply (track_site t c [nscope a] [nscope a] a s (if handle_pending s child then scope_cancel s x false else s)
               x false _ Ga Gb Gi Wi); [| | |exact HIa].
      + destruct (handle_pending s child); [now left|right; apply aw_refl].
      + destruct (handle_pending s child); [|destruct (f_st (futs s f)); now apply aw_ret].
        apply aw_start_join; [exact Hu| |]; rewrite (tq_nscope _ _ (treq_scope_cancel s x false)), (tq_nscope _ _ Qi); now left.
      + intros y Hy. rewrite (tq_active _ _ Qi). now apply HIa.
    - apply K0. unfold xe_ctl, xc_ctl. rewrite Ectl. cbn [app]. intros y [[]|[]].
  Qed.
End ResumeTR.

Section Window.
  Variables (t : tid) (f : fid) (c : sid).
  Notation WInv := (OInv t c (Some f) (fun k => wait_ctl k = true)).

  (* from the light walk and the tracking to the invariant of the latency argument *)
  Lemma winv_next XE X a a' b :
    WInv a -> tasks a' = tasks a -> futs a' = futs a -> scopes a' = scopes a -> KInv a' ->
    (In (HWake t f) (ready a) -> In (HWake t f) (ready a')) ->
    aw t XE X a' b -> reach_ok b -> running a' <> Some t -> TR t c a' b ->
    (WInv b /\ (reqG t a -> reqG t b)) \/ Esc t b.
  Proof.
    intros [L Hw Hc Ho] Et Ef Es K Keep W Rb Ra Tr.
    pose proof (aw_t _ _ _ _ _ W K) as F. pose proof (tfr_core t a' b F) as Ec. rewrite Et in Ec.
    assert (Hw' : k_waiter (tasks a' t) = Some f) by now rewrite Et.
    assert (KeepR : reqG t a -> reqG t b).
    { intros Rq. apply (reqG_mono t a' b F). unfold reqG in *. now rewrite Et, Ef. }
    assert (El' : eligG t a -> eligG t a') by (unfold eligG; now rewrite Et, Ef).
    assert (Mk : reqG t b \/ (eligG t b /\ trk t c b) -> WInv b).
    { intros Cs. constructor; [constructor|now rewrite (tcore_waiter _ _ Ec)|now rewrite (tcore_ctl _ _ Ec)|].
      - exact Rb.
      - apply (aw_run _ _ _ _ _ W Ra).
      - rewrite (tcore_ctl _ _ Ec). apply L.
      - exact Cs.
      - intros [N|Rq]; [discriminate|]. destruct (reqG_dec t a) as [Ra'|Na].
        + apply (by_keep _ _ _ _ (proj1 F f Hw')), Keep, Ho. now right.
        + destruct (li_cases _ _ _ L) as [R0|[El _]]; [contradiction|].
          exact (tfr_wake t a' b f K F Hw' (El' El) Rq). }
    destruct (li_cases _ _ _ L) as [Rq|[El Tk]]; [left; split; [apply Mk; left; now apply KeepR|exact KeepR]|].
    destruct (reqG_dec t b) as [Rb'|Nb]; [left; split; [now apply Mk; left|exact KeepR]|].
    assert (Tk' : trk t c a').
    { apply (trk_view t c a a'); [intros y; now rewrite Es|now rewrite Et|now rewrite Et|exact Tk]. }
    destruct (Tr (El' El) Tk' Nb) as [T|E]; [left|now right].
    split; [|exact KeepR]. apply Mk. right. split; [|exact T]. exact (eligG_keep t a' b K F (El' El) Nb).
  Qed.
End Window.

Lemma remove_first_head a h r : ready a = h :: r -> remove_first h (ready a) = r.
Proof. intros E. rewrite E. cbn. now rewrite handle_eqb_refl. Qed.

Section Window2.
  Variables (t : tid) (f : fid) (c : sid).
  Notation WInv := (OInv t c (Some f) (fun k => wait_ctl k = true)).

  (* the ops of a window: any act of somebody else ... *)
  Definition wact (s : st) (o : op) : Prop := other_act t o /\ op_ok s o = true.

  (* ... and the run of any callback at the head of the queue that does not resume t (every frame kind of the
     resumed task is covered: simple_ctl or new_frame is always true) *)
  Definition whead (s : st) (h : handle) : Prop :=
    op_ok s (ARun h) = true /\ h <> HWake t f /\
    match h with
    | HStep u | HWake u _ =>
        u <> t /\ (simple_ctl (k_ctl (tasks s u)) = true \/ new_frame (k_ctl (tasks s u)) = true)
    | _ => True
    end.

  Lemma winv_good s : WInv s -> Good t s.
  Proof. intros [L _ _ _]. apply good_reach; apply L. Qed.

  Lemma wstep_act a o :
    WInv a -> wact a o ->
    (WInv (fst (step a o)) /\ (reqG t a -> reqG t (fst (step a o))) /\ rsh a (fst (step a o))) \/ Esc t (fst (step a o)).
  Proof.
    intros I [Ho Hok]. pose proof (oi_linv _ _ _ _ _ I) as L. pose proof (linv_alloc t c a L) as At.
    pose proof (aw_step_act t a o Ho At) as W.
    assert (Rb : reach_ok (fst (step a o))) by (apply reach_ok_step; [apply L|exact Hok]).
    assert (Hrb : running (fst (step a o)) <> Some t) by (apply (aw_run _ _ _ _ _ W), L).
    destruct (winv_next t f c _ _ a a _ I eq_refl eq_refl eq_refl (gd_k _ _ (winv_good a I)) (fun H => H) W Rb (li_run _ _ _ L))
      as [[I' Kp]|E]; [|left|now right].
    - apply step_TR; [apply L|apply L|exact At|exact Ho|now apply good_reach].
    - split; [exact I'|]. split; [exact Kp|apply W].
  Qed.

  Lemma wstep_head a h r :
    WInv a -> ready a = h :: r -> whead a h ->
    (WInv (fst (step a (ARun h))) /\ (h = HDeliver c -> reqG t (fst (step a (ARun h)))) /\
     (reqG t a -> reqG t (fst (step a (ARun h)))) /\ rshT r (fst (step a (ARun h)))) \/ Esc t (fst (step a (ARun h))).
  Proof.
    intros I E [Hok [Hne Hk]]. pose proof (oi_linv _ _ _ _ _ I) as L.
    (* a covered callback *)
    assert (Cov : covered t a h -> WInv (fst (step a (ARun h))) /\ (h = HDeliver c -> reqG t (fst (step a (ARun h)))) /\
                                   (reqG t a -> reqG t (fst (step a (ARun h)))) /\ rshT r (fst (step a (ARun h)))).
    { intros Hc. rewrite <- (run_head_step a h r E). destruct (oinv_step t c _ _ a h r I E Hok Hc) as [I' [Q [Hd Kp]]]. auto. }
    (* the resumption of a library frame *)
    assert (New : forall u fo, u <> t -> new_frame (k_ctl (tasks a u)) = true ->
                    h = HStep u /\ fo = None \/ (exists g, h = HWake u g /\ fo = Some g) ->
                    (WInv (fst (step a (ARun h))) /\ (h = HDeliver c -> reqG t (fst (step a (ARun h)))) /\
                     (reqG t a -> reqG t (fst (step a (ARun h)))) /\ rshT r (fst (step a (ARun h)))) \/
                    Esc t (fst (step a (ARun h)))).
    { intros u fo Hu Hf Hh.
      assert (Ho : other_head t h) by (destruct Hh as [[-> _]|[g [-> _]]]; exact Hu).
      pose proof (aw_run_head t a h r E Ho) as W.
      assert (Rb : reach_ok (fst (step a (ARun h)))) by (apply reach_ok_step; [apply L|exact Hok]).
      assert (Es : fst (step a (ARun h)) = fst (resume (set_ready a r) u fo)).
      { rewrite (step_run_head a h r E). destruct Hh as [[-> ->]|[g [-> ->]]]; reflexivity. }
      set (b := fst (step a (ARun h))) in *. set (a' := set_ready a r) in *.
      assert (Ga' : Good t a').
      { apply (Good_same t a a' (winv_good a I)); try reflexivity. apply L. }
      assert (Keep : In (HWake t f) (ready a) -> In (HWake t f) (ready a')).
      { rewrite E. intros [H|H]; [congruence|exact H]. }
      assert (Gb : Good t b) by (apply good_reach; [exact Rb|apply (aw_run _ _ _ _ _ W), L]).
      destruct (winv_next t f c _ _ a a' b I eq_refl eq_refl eq_refl (gd_k _ _ Ga') Keep W Rb (li_run _ _ _ L))
        as [[I' Kp]|Ex]; [|left|now right].
      - clearbody b. subst b.
        destruct (reach_sinv a (li_reach _ _ _ L)) as [[Ta Ca] _].
        assert (Ta' : Tree a') by (apply (Tree_treq a); [exact Ta|apply treq_set_ready]).
        assert (Ca' : Ctl a').
        { apply (Ctl_step0 [] a a' Ca); [|intros y []]. apply creq_creq0.
          apply creq_treq; [apply treq_set_ready|apply tcb_same_tasks; reflexivity|].
          unfold a'. rewrite <- (remove_first_head a h r E). apply rq_td_remove_first. }
        apply resume_TR; [exact Ta'|exact Ca'|intros Hc; apply (new_hscope_inactive a u (li_reach _ _ _ L) Hc)
                         |apply (fresh_inactive a (li_reach _ _ _ L))|exact Hu|exact Ga'|exact Gb|exact Hf].
      - split; [exact I'|]. split; [intros Eh; destruct Hh as [[-> _]|[g [-> _]]]; discriminate|]. split; [exact Kp|].
        apply (aw_q _ _ _ _ _ W). }
    destruct h as [u|u g|x|u|g tm|x tm]; try (left; now apply Cov).
    - destruct Hk as [Hu [Hs|Hn]]; [left; now apply Cov|apply (New u None); auto].
    - destruct Hk as [Hu [Hs|Hn]]; [left; now apply Cov|apply (New u (Some g)); auto]. right. now exists g.
  Qed.
End Window2.

Fixpoint trace (s : st) (ops : list op) : list (st * op) :=
  match ops with [] => [] | o :: r => (s, o) :: trace (fst (step s o)) r end.

Fixpoint states (s : st) (ops : list op) : list st :=
  match ops with [] => [s] | o :: r => s :: states (fst (step s o)) r end.

(* one event-loop iteration: exactly n callbacks are run, each one at the head of the queue at that moment
   (or the queue runs dry); API calls of tasks and environment ops happen in between *)
Inductive wcyc : nat -> st -> list op -> st -> Prop :=
| wc_nil s : wcyc 0 s [] s
| wc_head n s h q ops s' :
    ready s = h :: q -> wcyc n (fst (step s (ARun h))) ops s' -> wcyc (S n) s (ARun h :: ops) s'
| wc_act n s o ops s' :
    (forall h, o <> ARun h) -> wcyc n (fst (step s o)) ops s' -> wcyc n s (o :: ops) s'
| wc_dry n s : ready s = [] -> wcyc n s [] s.

Section Windows.
  Variables (Inv : st -> Prop) (W Q : st -> list op -> Prop).
  (* the state s' in which the iteration ends, and the ops that follow it *)
  Variables (s' : st) (rest : list op).
  (* Q s l speaks of the run of l from s; it is enough to show it from the second op on *)
  Hypothesis Q_next : forall s o r, Q (fst (step s o)) r -> Q s (o :: r).
  (* inside the window W a head run keeps the invariant and the order of the queue, and so does any other op,
     unless Q holds outright; ops is what is left of the iteration *)
  Hypothesis Hhead : forall n s h q ops, Inv s -> W s (ARun h :: ops ++ rest) -> ready s = h :: q ->
    wcyc n (fst (step s (ARun h))) ops s' ->
    Q s (ARun h :: ops ++ rest) \/
    (Inv (fst (step s (ARun h))) /\ W (fst (step s (ARun h))) (ops ++ rest) /\ rshT q (fst (step s (ARun h)))).
  Hypothesis Hact : forall s o ops, Inv s -> W s (o :: ops ++ rest) -> (forall h, o <> ARun h) ->
    Q s (o :: ops ++ rest) \/ (Inv (fst (step s o)) /\ W (fst (step s o)) (ops ++ rest) /\ rsh s (fst (step s o))).

  (* to the end of the iteration *)
  Lemma wcyc_keep n s ops : wcyc n s ops s' ->
    (Inv s' -> W s' rest -> Q s' rest) -> Inv s -> W s (ops ++ rest) -> Q s (ops ++ rest).
  Proof.
    intros C Kend. induction C as [s|n s h q ops s' E Hc IH|n s o ops s' Hn Hc IH|n s E]; intros I Wk; cbn [app] in *; auto.
    - destruct (Hhead n s h q ops I Wk E Hc) as [Hq|[I' [W' _]]]; [exact Hq|]. apply Q_next. now apply IH.
    - destruct (Hact s o ops I Wk Hn) as [Hq|[I' [W' _]]]; [exact Hq|]. apply Q_next. now apply IH.
  Qed.

  (* a callback h0 that is not a timer's, queued at a position below the length of the iteration, gets to the head
     within the iteration *)
  Lemma wcyc_reach h0 n s ops : wcyc n s ops s' -> nontimer h0 = true ->
    (forall m si q opsB, Inv si -> W si (ARun h0 :: opsB ++ rest) -> ready si = h0 :: q ->
       wcyc m (fst (step si (ARun h0))) opsB s' -> Q si (ARun h0 :: opsB ++ rest)) ->
    forall pre post, Inv s -> W s (ops ++ rest) -> ready s = pre ++ h0 :: post -> length pre < n -> Q s (ops ++ rest).
  Proof.
    intros C Hn0 Hit. induction C as [s|n s h q ops s' E Hc IH|n s o ops s' Hn Hc IH|n s E];
      intros pre post I Wk Er Hl; cbn [app] in *.
    - lia.
    - destruct pre as [|h1 pre]; cbn [app] in Er; rewrite E in Er; inversion Er; subst.
      + now apply (Hit n s post ops).
      + destruct (Hhead n s h1 _ ops I Wk E Hc) as [Hq|[I' [W' R']]]; [exact Hq|].
        destruct (rshT_split _ _ pre h0 post R' eq_refl Hn0) as [P [post' [E' _]]].
        apply Q_next, (IH Hhead Hit (filter P pre) post' I' W' E'). pose proof (filter_len P pre). cbn [length] in Hl. lia.
    - destruct (Hact s o ops I Wk Hn) as [Hq|[I' [W' R']]]; [exact Hq|].
      destruct (rshT_split _ _ pre h0 post R' Er Hn0) as [P [post' [E' _]]].
      apply Q_next, (IH Hhead Hit (filter P pre) post' I' W' E'). pose proof (filter_len P pre). lia.
    - rewrite E in Er. destruct pre; discriminate.
  Qed.
End Windows.

Section Cycles.
  Variables (t : tid) (f : fid) (c : sid).
  Notation WInv := (OInv t c (Some f) (fun k => wait_ctl k = true)).
  Notation pend s := (f_st (futs s f) = FPend).

  (* every op is a window op, until t's wake-up is run with its future done *)
  Fixpoint wok (s : st) (ops : list op) : Prop :=
    match ops with
    | [] => True
    | o :: r =>
        (o = ARun (HWake t f) /\ ~ pend s) \/
        ((wact t s o \/ exists h q, o = ARun h /\ ready s = h :: q /\ whead t f s h) /\ wok (fst (step s o)) r)
    end.

  (* Q: what is to be shown of a run; it holds when t's wake-up is run with a request recorded and when t escapes *)
  Variable Q : st -> list op -> Prop.
  Hypothesis Q_next : forall s o r, Q (fst (step s o)) r -> Q s (o :: r).
  Hypothesis Q_wake : forall s q r, WInv s -> reqG t s -> ready s = HWake t f :: q -> Q s (ARun (HWake t f) :: r).
  Hypothesis Q_esc : forall s o r, Esc t (fst (step s o)) -> Q s (o :: r).

  Lemma wok_head s h q r : WInv s -> wok s (ARun h :: r) -> ready s = h :: q ->
    Q s (ARun h :: r) \/
    (WInv (fst (step s (ARun h))) /\ wok (fst (step s (ARun h))) r /\ rshT q (fst (step s (ARun h))) /\
     (h = HDeliver c -> reqG t (fst (step s (ARun h)))) /\ (reqG t s -> reqG t (fst (step s (ARun h))))).
  Proof.
    intros I Wk E. cbn [wok] in Wk. destruct Wk as [[Eo Np]|[[[[] _]|[h' [q' [Eo [_ Wh]]]]] Wk']].
    - left. inversion Eo; subst h. apply (Q_wake s q r I); [|exact E]. unfold reqG. now rewrite (oi_waiter _ _ _ _ _ I).
    - inversion Eo; subst h'. destruct (wstep_head t f c s h q I E Wh) as [[I' [Hd [Kp R']]]|Ex]; [right; auto|left; now apply Q_esc].
  Qed.

  Lemma wok_act s o r : WInv s -> wok s (o :: r) -> (forall h, o <> ARun h) ->
    Q s (o :: r) \/
    (WInv (fst (step s o)) /\ wok (fst (step s o)) r /\ rsh s (fst (step s o)) /\ (reqG t s -> reqG t (fst (step s o)))).
  Proof.
    intros I Wk Hn. cbn [wok] in Wk. destruct Wk as [[Eo _]|[[Wa|[h [q [Eo _]]]] Wk']]; [now elim (Hn (HWake t f))| |now elim (Hn h)].
    destruct (wstep_act t f c s o I Wa) as [[I' [Kp R']]|Ex]; [right; auto|left; now apply Q_esc].
  Qed.

  (* a recorded request stays to the end of the iteration *)
  Lemma phase_keep n s ops s' rest : wcyc n s ops s' ->
    (WInv s' -> reqG t s' -> wok s' rest -> Q s' rest) -> WInv s -> reqG t s -> wok s (ops ++ rest) -> Q s (ops ++ rest).
  Proof.
    intros C Kend I Rq Wk.
    refine (wcyc_keep (fun s => WInv s /\ reqG t s) wok Q s' rest Q_next _ _ n s ops C _ (conj I Rq) Wk).
    - intros m a h q r [Ia Ra] Wa Ea _. destruct (wok_head a h q _ Ia Wa Ea) as [Hq|[I' [W' [R' [_ Kp]]]]]; [now left|right; auto].
    - intros a o r [Ia Ra] Wa Hn. destruct (wok_act a o _ Ia Wa Hn) as [Hq|[I' [W' [R' Kp]]]]; [now left|right; auto].
    - intros [Ia Ra]. now apply Kend.
  Qed.

  (* the invariant alone does, too *)
  Lemma phase_inv n s ops s' rest : wcyc n s ops s' ->
    (WInv s' -> wok s' rest -> Q s' rest) -> WInv s -> wok s (ops ++ rest) -> Q s (ops ++ rest).
  Proof.
    intros C Kend I Wk. refine (wcyc_keep WInv wok Q s' rest Q_next _ _ n s ops C Kend I Wk).
    - intros m a h q r Ia Wa Ea _. destruct (wok_head a h q _ Ia Wa Ea) as [Hq|[I' [W' [R' _]]]]; [now left|right; auto].
    - intros a o r Ia Wa Hn. destruct (wok_act a o _ Ia Wa Hn) as [Hq|[I' [W' [R' _]]]]; [now left|right; auto].
  Qed.

  (* once a request is recorded, t's wake-up is run in the iteration that starts with it queued *)
  Lemma phase_own s ops s' rest : wcyc (length (ready s)) s ops s' ->
    WInv s -> reqG t s -> wok s (ops ++ rest) -> Q s (ops ++ rest).
  Proof.
    intros C I Rq Wk. destruct (in_split_lt _ _ (oi_own _ _ _ _ _ I (or_intror Rq))) as [pre [post [E Hl]]].
    refine (wcyc_reach (fun s => WInv s /\ reqG t s) wok Q s' rest Q_next _ _ (HWake t f) _ s ops C eq_refl _ pre post
              (conj I Rq) Wk E Hl).
    - intros m a h q r [Ia Ra] Wa Ea _. destruct (wok_head a h q _ Ia Wa Ea) as [Hq|[I' [W' [R' [_ Kp]]]]]; [now left|right; auto].
    - intros a o r [Ia Ra] Wa Hn. destruct (wok_act a o _ Ia Wa Hn) as [Hq|[I' [W' [R' Kp]]]]; [now left|right; auto].
    - intros m a q opsB [Ia Ra] _ Ea _. now apply (Q_wake a q).
  Qed.

  (* the delivery callback of c is run in the iteration that starts with it queued, and records a request *)
  Lemma phase_deliver s ops s' rest : wcyc (length (ready s)) s ops s' -> In (HDeliver c) (ready s) ->
    (WInv s' -> reqG t s' -> wok s' rest -> Q s' rest) -> WInv s -> wok s (ops ++ rest) -> Q s (ops ++ rest).
  Proof.
    intros C Hin Kend I Wk. destruct (in_split_lt _ _ Hin) as [pre [post [E Hl]]].
    refine (wcyc_reach WInv wok Q s' rest Q_next _ _ (HDeliver c) _ s ops C eq_refl _ pre post I Wk E Hl).
    - intros m a h q r Ia Wa Ea _. destruct (wok_head a h q _ Ia Wa Ea) as [Hq|[I' [W' [R' _]]]]; [now left|right; auto].
    - intros a o r Ia Wa Hn. destruct (wok_act a o _ Ia Wa Hn) as [Hq|[I' [W' [R' _]]]]; [now left|right; auto].
    - intros m a q opsB Ia Wa Ea Cb. destruct (wok_head a _ q _ Ia Wa Ea) as [Hq|[I' [W' [_ [Hd _]]]]]; [exact Hq|].
      apply Q_next. apply (phase_keep m _ opsB s' rest Cb Kend I' (Hd eq_refl) W').
  Qed.
End Cycles.

(* C03 cancel_latency_any_activity.  Task t is suspended on the pending future f with no request recorded, has
   started, and reaches the cancelled hosted scope c, at a cycle boundary of a reachable state.  ops1 and ops2 are
   two consecutive event-loop iterations (wcyc: as many head-of-queue callback runs as the queue was long at the
   start of the iteration, with any number of other ops in between), and up to the moment t's wake-up is run
   every op is a window op (wok): ANY API call of ANY other task, scope.cancel() from a callback, time passing,
   a new root task, a native cancel of another task, or the run of the callback at the head of the queue unless it
   resumes t.  Then:
   t's wake-up is run within the two iterations and raises a cancellation - unless its future was completed with a
   result or an exception first - or at some moment of the window t was no longer effectively cancelled (somebody
   raised a shield between t and every cancelled scope). *)
Theorem cancel_latency_any_activity t f c s ops1 ops2 s1 s2 :
  reach_ok s -> running s <> Some t ->
  s_cancelled (scopes s c) = true -> s_host (scopes s c) <> None -> reaches s t c ->
  k_must (tasks s t) = false -> k_started (tasks s t) = true ->
  k_waiter (tasks s t) = Some f -> f_st (futs s f) = FPend -> wait_ctl (k_ctl (tasks s t)) = true ->
  wcyc (length (ready s)) s ops1 s1 -> wcyc (length (ready s1)) s1 ops2 s2 -> wok t f s (ops1 ++ ops2) ->
  (exists si, In (si, ARun (HWake t f)) (trace s (ops1 ++ ops2)) /\
     ((exists o, snd (step si (ARun (HWake t f))) = RExc (ECancel o)) \/
      (exists v, f_st (futs si f) = FRes v) \/ (exists e, f_st (futs si f) = FExc e))) \/
  (exists si, In si (states s (ops1 ++ ops2)) /\ eff_cancelled_from (nscope si) si (k_cur (tasks si t)) = false).
Proof.
  intros R Hr Cc Hh Rt Hm Hs Hw Hp Hctl C1 C2 Wk.
  assert (I : OInv t c (Some f) (fun k => wait_ctl k = true) s).
  { constructor; [constructor; [exact R|exact Hr|intros E; now rewrite E in Hctl|right]|exact Hw|exact Hctl|].
    - split; [|exact (conj Rt (conj Cc Hh))]. unfold eligG. rewrite Hw. exact (conj (proj1 Rt) (conj Hm (conj Hs Hp))).
    - unfold reqG. rewrite Hw. intros [N|N]; [discriminate|contradiction]. }
  set (Q := fun a l =>
    (exists si, In (si, ARun (HWake t f)) (trace a l) /\
       ((exists o, snd (step si (ARun (HWake t f))) = RExc (ECancel o)) \/
        (exists v, f_st (futs si f) = FRes v) \/ (exists e, f_st (futs si f) = FExc e))) \/
    (exists si, In si (states a l) /\ eff_cancelled_from (nscope si) si (k_cur (tasks si t)) = false)).
  assert (Q_next : forall a o r, Q (fst (step a o)) r -> Q a (o :: r)).
  { intros a o r [[si [Hi H]]|[si [Hi H]]]; [left|right]; exists si; (split; [now right|exact H]). }
  assert (Q_wake : forall a q r, OInv t c (Some f) (fun k => wait_ctl k = true) a -> reqG t a -> ready a = HWake t f :: q ->
                                 Q a (ARun (HWake t f) :: r)).
  { intros a q r Ia Ra Ea. left. exists a. split; [now left|]. unfold reqG in Ra. rewrite (oi_waiter _ _ _ _ _ Ia) in Ra.
    exact (wake_result t f a q (oi_waiter _ _ _ _ _ Ia) (oi_ctl _ _ _ _ _ Ia) Ea Ra). }
  assert (Q_esc : forall a o r, Esc t (fst (step a o)) -> Q a (o :: r)).
  { intros a o r Ex. right. exists (fst (step a o)). split; [right; destruct r; now left|now apply Esc_not_effectively_cancelled]. }
  apply (phase_deliver t f c Q Q_next Q_wake Q_esc s ops1 s1 ops2 C1 (proj2 (delivery_alive s c R Cc Hh (ex_intro _ t Rt))));
    [|exact I|exact Wk].
  intros I1 R1 W1. rewrite <- (app_nil_r ops2) in W1 |- *. exact (phase_own t f c Q Q_next Q_wake Q_esc s1 ops2 s2 [] C2 I1 R1 W1).
Qed.

(* non-vacuity: a task group with two sleeping children whose scope is cancelled:
   Host 1 waits in TaskGroup.__aexit__ (frame CAexitWait); children 2 and 3 sleep.  Child 3 cancelled the group
   scope 1 itself before going to sleep (so the delivery that hit child 2 and the host skipped it: it was
   running) - it is the task t of the theorem, f = 11.
   Iteration 1: child 2 is woken with the cancellation; its program ends (AFinish, an API-level act of another
                task); the host is woken inside __aexit__ with the cancellation (shields its wait scope, waits
                again); the delivery callback of scope 1 cancels child 3's sleep.
   Iteration 2: the task-done callback of child 2; child 3's wake-up raises the cancellation. *)
Definition grp_pre : list op :=
  [ANewRoot; AGroupNew 1; AGroupEnter 1 1; ASpawn 1 1; ASpawn 1 1; ARun (HStep 2); ARun (HStep 3);
   ASleep 2 None; AGroupExit 1 1; ACancel 3 1; ASleep 3 None].
Definition grp_ops1 : list op := [ARun (HWake 2 8); AFinish 2 0; ARun (HWake 1 9); ARun (HDeliver 1)].
Definition grp_ops2 : list op := [ARun (HTaskDone 2); ARun (HWake 3 11); ARun (HDeliver 1)].

Lemma frame_cover k : simple_ctl k = true \/ new_frame k = true.
Proof. destruct k as [| |[| |x]| | | | | | |]; cbn; auto. Qed.

Section Final.
  Variables (t : tid) (f : fid).

  (* a window op: an act of somebody else, or the run of the callback at the head of the ready queue unless it
     resumes t (t's wake-up HWake t f ends the window, see wok0) *)
  Definition wop (s : st) (o : op) : Prop :=
    (other_act t o /\ op_ok s o = true) \/
    (exists h q, o = ARun h /\ ready s = h :: q /\ op_ok s o = true /\ h <> HWake t f /\
                 match h with HStep u | HWake u _ => u <> t | _ => True end).

  Fixpoint wok0 (s : st) (ops : list op) : Prop :=
    match ops with
    | [] => True
    | o :: r => (o = ARun (HWake t f) /\ f_st (futs s f) <> FPend) \/ (wop s o /\ wok0 (fst (step s o)) r)
    end.

  Lemma wok0_wok ops : forall s, wok0 s ops -> wok t f s ops.
  Proof.
    induction ops as [|o r IH]; intros s H; [exact I|]. cbn [wok0 wok] in *.
    destruct H as [H|[[W|[h [q [E [Er [Hok [Hne Hk]]]]]]] K]]; [now left| |]; right; (split; [|now apply IH]).
    - now left.
    - right. exists h, q. split; [exact E|]. split; [exact Er|]. subst o. split; [exact Hok|]. split; [exact Hne|].
      destruct h; try exact I; (split; [exact Hk|apply frame_cover]).
  Qed.
End Final.

(* C03 cancel_latency_any_activity *)
Theorem cancel_latency_any_activity_full t f c s ops1 ops2 s1 s2 :
  reach_ok s -> running s <> Some t ->
  s_cancelled (scopes s c) = true -> s_host (scopes s c) <> None -> reaches s t c ->
  k_must (tasks s t) = false -> k_started (tasks s t) = true ->
  k_waiter (tasks s t) = Some f -> f_st (futs s f) = FPend -> wait_ctl (k_ctl (tasks s t)) = true ->
  wcyc (length (ready s)) s ops1 s1 -> wcyc (length (ready s1)) s1 ops2 s2 -> wok0 t f s (ops1 ++ ops2) ->
  (exists si, In (si, ARun (HWake t f)) (trace s (ops1 ++ ops2)) /\
     ((exists o, snd (step si (ARun (HWake t f))) = RExc (ECancel o)) \/
      (exists v, f_st (futs si f) = FRes v) \/ (exists e, f_st (futs si f) = FExc e))) \/
  (exists si, In si (states s (ops1 ++ ops2)) /\ eff_cancelled_from (nscope si) si (k_cur (tasks si t)) = false).
Proof.
  intros R Hr Cc Hh Rt Hm Hs Hw Hp Hctl C1 C2 Wk.
  apply (cancel_latency_any_activity t f c s ops1 ops2 s1 s2); auto. now apply wok0_wok.
Qed.

Example grp_wok0 : wok0 3 11 (final step init grp_pre) (grp_ops1 ++ grp_ops2).
Proof.
  set (s := final step init grp_pre). unfold grp_ops1, grp_ops2. cbn [app wok0].
  right. split; [right; exists (HWake 2 8), [HWake 1 9; HDeliver 1]; split; [reflexivity|split; [vc|]]|].
  { split; [vc|]. split; [discriminate|]. intros N; discriminate N. }
  right. split; [left; split; [cbn; intros N; discriminate N|vc]|].
  right. split; [right; exists (HWake 1 9), [HDeliver 1; HTaskDone 2]; split; [reflexivity|split; [vc|]]|].
  { split; [vc|]. split; [discriminate|]. intros N; discriminate N. }
  right. split; [right; exists (HDeliver 1), [HTaskDone 2]; split; [reflexivity|split; [vc|]]|].
  { split; [vc|]. split; [discriminate|exact I]. }
  right. split; [right; exists (HTaskDone 2), [HWake 3 11; HDeliver 1]; split; [reflexivity|split; [vc|]]|].
  { split; [vc|]. split; [discriminate|exact I]. }
  left. split; [reflexivity|]. vm_compute. discriminate.
Qed.

Example grp_premises :
  let s := final step init grp_pre in
  reach_ok s /\ running s <> Some 3 /\ s_cancelled (scopes s 1) = true /\ s_host (scopes s 1) <> None /\
  reaches s 3 1 /\ k_must (tasks s 3) = false /\ k_started (tasks s 3) = true /\ k_waiter (tasks s 3) = Some 11 /\
  f_st (futs s 11) = FPend /\ wait_ctl (k_ctl (tasks s 3)) = true /\
  k_ctl (tasks s 1) = CAexitWait 1 4 None /\ k_ctl (tasks s 2) = CSleep 8 0 /\
  ready s = [HWake 2 8; HWake 1 9; HDeliver 1] /\
  wok 3 11 s (grp_ops1 ++ grp_ops2) /\
  exists s1 s2, wcyc (length (ready s)) s grp_ops1 s1 /\ wcyc (length (ready s1)) s1 grp_ops2 s2 /\
                ready s1 = [HTaskDone 2; HWake 3 11; HDeliver 1].
Proof.
  cbv zeta. set (s := final step init grp_pre).
  assert (R : reach_ok s) by (exists grp_pre; split; [vc|reflexivity]).
  refine (conj R _). repeat (match goal with |- _ /\ _ => split end).
  - assert (E : running s = None) by vc. rewrite E. discriminate.
  - vc.
  - assert (E : s_host (scopes s 1) = Some 1) by vc. rewrite E. discriminate.
  - split; [vc|]. exists 3. split; [vc|].
    eapply vis_up; [vc|vc|vc|]. apply vis_here.
  - vc.
  - vc.
  - vc.
  - vc.
  - vc.
  - vc.
  - vc.
  - vc.
  - apply wok0_wok, grp_wok0.
  - eexists. eexists. split; [|split].
    + assert (E : length (ready s) = 3) by vc. rewrite E. unfold grp_ops1.
      eapply wc_head; [vc|]. apply wc_act; [intros h; discriminate|].
      eapply wc_head; [vc|]. eapply wc_head; [vc|]. apply wc_nil.
    + match goal with |- wcyc (length (ready ?x)) _ _ _ => assert (E : length (ready x) = 3) by vc; rewrite E end.
      unfold grp_ops2. eapply wc_head; [vc|]. eapply wc_head; [vc|]. eapply wc_head; [vc|]. apply wc_nil.
    + vc.
Qed.

(* the theorem applied to it *)
Example grp_instance :
  let s := final step init grp_pre in
  (exists si, In (si, ARun (HWake 3 11)) (trace s (grp_ops1 ++ grp_ops2)) /\
     ((exists o, snd (step si (ARun (HWake 3 11))) = RExc (ECancel o)) \/
      (exists v, f_st (futs si 11) = FRes v) \/ (exists e, f_st (futs si 11) = FExc e))) \/
  (exists si, In si (states s (grp_ops1 ++ grp_ops2)) /\ eff_cancelled_from (nscope si) si (k_cur (tasks si 3)) = false).
Proof.
  cbv zeta. destruct grp_premises as (H1 & H2 & H3 & H4 & H5 & H6 & H7 & H8 & H9 & H10 & _ & _ & _ & H13 & s1 & s2 & H11 & H12 & _).
  exact (cancel_latency_any_activity 3 11 1 _ _ _ s1 s2 H1 H2 H3 H4 H5 H6 H7 H8 H9 H10 H11 H12 H13).
Qed.

Section TrackN.
  Variable t : tid.

  (* a task that takes no requests yet (not started): the walk to a cancelled scope survives any op of the others,
     possibly ending at a nearer scope that was cancelled meanwhile, unless a shield is raised *)
  Lemma trackN XE X a b c :
    Good t a -> Good t b -> aw t XE X a b ->
    (forall y, In y XE -> s_active (scopes a y) = false \/ s_parent (scopes b y) = s_parent (scopes a y)) ->
    trk t c a -> (exists c', trk t c' b) \/ Esc t b.
  Proof.
    intros Ga Gb W HE Tk.
    destruct (track_scan t XE X a b c Ga Gb W HE Tk) as [T|[E|[k [y [_ [_ [_ [_ [_ [_ T]]]]]]]]]]; eauto.
  Qed.

  (* the entered scopes of an op are inactive, or (degenerate enters) nothing happened to them *)
  Lemma xe_act_ok a u o :
    reach_ok a -> u <> t -> actor o = Some u ->
    forall y, In y (xe a o) ->
      s_active (scopes a y) = false \/ s_parent (scopes (fst (puppet_op a u o)) y) = s_parent (scopes a y).
  Proof.
    intros R Hu Ea y Hy. pose proof (fresh_inactive a R) as Fr.
    destruct o; cbn [xe] in Hy; try (destruct Hy; fail).
    - (* AEnter *) destruct Hy as [<-|[]]. destruct (s_active (scopes a c)) eqn:Ec; [right|now left].
      unfold puppet_op. rewrite (scope_enter_fail (begin_act a u) c u); [|exact Ec].
      now rewrite (proj1 (ss_ret (begin_act a u) u _)).
    - (* AGroupEnter *) destruct Hy as [<-|[]]. unfold puppet_op. set (s := begin_act a u).
      destruct (g_entered (groups s g)); [right; now rewrite (proj1 (ss_ret s u _))|].
      set (s1 := upd_group s g (gr_entered true)).
      assert (Eg : g_scope (groups s1 g) = g_scope (groups a g)) by (unfold s1; cbn; unfold upd; now rewrite Nat.eqb_refl).
      destruct (s_active (scopes a (g_scope (groups a g)))) eqn:Ec; [right|now left].
      rewrite (scope_enter_fail s1 _ u); [|rewrite Eg; exact Ec]. now rewrite (proj1 (ss_ret s1 u _)).
    - destruct Hy as [<-|[]]. now left.
    - destruct Hy as [<-|[]]. now left.
    - destruct Hy as [<-|[]]. now left.
    - discriminate.
  Qed.
End TrackN.

Section NewTask.
  Variable t : tid.

  (* t was spawned and has not run yet: its first step is in the ready queue *)
  Record NInv (s : st) : Prop := {
    ni_reach : reach_ok s;
    ni_run : running s <> Some t;
    ni_alloc : t < ntask s;
    ni_ctl : k_ctl (tasks s t) = CNew;
    ni_started : k_started (tasks s t) = false;
    ni_waiter : k_waiter (tasks s t) = None;
    ni_done : k_done (tasks s t) = None;
    ni_step : In (HStep t) (ready s)
  }.

  (* window ops for a task without a wait: acts of others, or head runs that do not resume t *)
  Definition wopn (s : st) (o : op) : Prop :=
    (other_act t o /\ op_ok s o = true) \/
    (exists h q, o = ARun h /\ ready s = h :: q /\ op_ok s o = true /\ other_head t h).

  (* t reaches some cancelled hosted scope *)
  Definition trkE (s : st) : Prop := exists c, trk t c s.

  (* an op of the others from a' (a, but for the ready queue) to b: the invariant is kept, a recorded request
     stays, and t still reaches a cancelled scope unless a shield was raised *)
  Lemma ninv_next XE X a a' b :
    NInv a -> Good t a' -> tasks a' t = tasks a t -> ntask a' = ntask a ->
    (In (HStep t) (ready a) -> In (HStep t) (ready a')) -> (forall c, trk t c a -> trk t c a') ->
    aw t XE X a' b -> reach_ok b ->
    (forall y, In y XE -> s_active (scopes a' y) = false \/ s_parent (scopes b y) = s_parent (scopes a' y)) ->
    NInv b /\ (k_must (tasks a t) = true -> k_must (tasks b t) = true) /\ (trkE a -> trkE b \/ Esc t b).
  Proof.
    intros N Ga' Et En Keep Tk' W Rb HE. pose proof (gd_k _ _ Ga') as K.
    assert (Hw : k_waiter (tasks a' t) = None) by (rewrite Et; apply N).
    pose proof (proj2 (aw_t _ _ _ _ _ W K) Hw) as By. pose proof (bm_core _ _ _ By) as Ec. rewrite Et in Ec.
    pose proof (aw_run _ _ _ _ _ W (gd_run _ _ Ga')) as Rb'.
    split; [|split; [intros Hm; apply (bm_must _ _ _ By); now rewrite Et|]].
    - constructor.
      + exact Rb.
      + exact Rb'.
      + pose proof (aw_nt _ _ _ _ _ W) as Nt. pose proof (ni_alloc _ N). lia.
      + rewrite (tcore_ctl _ _ Ec). apply N.
      + rewrite (tcore_started _ _ Ec). apply N.
      + rewrite (tcore_waiter _ _ Ec). apply N.
      + rewrite (tcore_done _ _ Ec). apply N.
      + apply (rsh_keep a' b); [apply W|apply Keep, N|reflexivity].
    - intros [c Tk]. exact (trackN t XE X a' b c Ga' (good_reach t b Rb Rb') W HE (Tk' c Tk)).
  Qed.

  Lemma nstep_act a o :
    NInv a -> other_act t o -> op_ok a o = true ->
    NInv (fst (step a o)) /\ (k_must (tasks a t) = true -> k_must (tasks (fst (step a o)) t) = true) /\
    rsh a (fst (step a o)) /\ (trkE a -> trkE (fst (step a o)) \/ Esc t (fst (step a o))).
  Proof.
    intros N Ho Hok. pose proof (aw_step_act t a o Ho (ni_alloc _ N)) as W.
    destruct (ninv_next _ _ a a _ N (good_reach t a (ni_reach _ N) (ni_run _ N)) eq_refl eq_refl (fun H => H)
                (fun _ H => H) W (reach_ok_step a o (ni_reach _ N) Hok)) as [N' [M T]]; [|split; [exact N'|split; [exact M|split; [apply W|exact T]]]].
    (* the scopes the op enters are inactive, or (degenerate enters) nothing happened to them *)
    intros y Hy. unfold step. destruct (actor o) as [u|] eqn:Ea.
    - assert (Hu : u <> t).
      { destruct o; cbn [other_act actor] in *; try discriminate; inversion Ea; subst; intros ->; now apply Ho. }
      destruct (negb (idle a u)); [now right|].
      destruct o; cbn [actor] in Ea; try discriminate; inversion Ea; subst.
      all: try (match goal with |- context [puppet_op _ _ ?oo] => apply (xe_act_ok t a u oo (ni_reach _ N) Hu eq_refl y Hy) end).
      all: cbn [xe] in Hy; destruct Hy.
    - destruct o; cbn [actor] in Ea; try discriminate; cbn [xe] in Hy; try (destruct Hy; fail). destruct Ho.
  Qed.

  Lemma nstep_head a h r :
    NInv a -> ready a = h :: r -> other_head t h -> h <> HStep t -> op_ok a (ARun h) = true ->
    NInv (fst (step a (ARun h))) /\ (k_must (tasks a t) = true -> k_must (tasks (fst (step a (ARun h))) t) = true) /\
    rshT r (fst (step a (ARun h))) /\ (trkE a -> trkE (fst (step a (ARun h))) \/ Esc t (fst (step a (ARun h)))).
  Proof.
    intros N E Ho Hne Hok. pose proof (aw_run_head t a h r E Ho) as W. pose proof (ni_reach _ N) as R.
    assert (Ga' : Good t (set_ready a r)).
    { apply (Good_same t a _ (good_reach t a R (ni_run _ N))); try reflexivity. apply N. }
    assert (Keep : In (HStep t) (ready a) -> In (HStep t) (ready (set_ready a r))).
    { rewrite E. intros [H|H]; [congruence|exact H]. }
    assert (Tk' : forall c, trk t c a -> trk t c (set_ready a r)) by (intros c Tk; apply (trk_view t c a); auto).
    destruct (ninv_next _ _ a (set_ready a r) _ N Ga' eq_refl eq_refl Keep Tk' W (reach_ok_step a _ R Hok)) as [N' [M T]];
      [|split; [exact N'|split; [exact M|split; [apply (aw_q _ _ _ _ _ W)|exact T]]]].
    (* the scopes a resumed frame enters are fresh, or the handle scope of a task that has not started *)
    intros y Hy. left. change (scopes (set_ready a r) y) with (scopes a y).
    destruct h as [u|u g|x|u|g tm|x tm]; cbn [xe] in Hy; try (destruct Hy; fail);
      unfold xe_ctl in Hy; destruct (k_ctl (tasks a u)) eqn:Ec; try (destruct Hy; fail); destruct Hy as [<-|[]];
      first [apply (fresh_inactive a R)|apply (new_hscope_inactive a u R Ec)].
  Qed.
End NewTask.

Lemma deliver_top_running s c t : running s = Some t -> tasks (deliver_top s c) t = tasks s t.
Proof.
  intros Hr. unfold deliver_top.
  apply (deliver_inv (fun a => tasks a t = tasks s t /\ running a = Some t) c); [| | |now split].
  - intros self a r u [Ea Ra]. pose proof (kframe_deliver_task self c a r u) as K.
    split; [|now rewrite (kf_running _ _ K)].
    unfold deliver_task. destruct (k_done (tasks a u)); [exact Ea|]. destruct (k_must (tasks a u)); [exact Ea|].
    destruct (Nat.eq_dec u t) as [->|Hu].
    + rewrite Ra. cbn [opt_eqb]. rewrite Nat.eqb_refl. cbn [negb andb]. exact Ea.
    + destruct (_ && _); [|exact Ea].
      destruct (match k_waiter (tasks a u) with Some f => fut_pending a f | None => true end); [|exact Ea].
      cbn [fst]. set (a1 := task_cancel a u (S c)).
      assert (E1 : tasks a1 t = tasks a t) by (apply task_cancel_other; congruence).
      destruct (opt_eqb (s_host (scopes a1 c)) u); cbn [tasks upd_scope set_scopes]; now rewrite E1.
  - intros a x b [Ea Ra]. now split.
  - intros a h [Ea Ra]. now split.
Qed.

Section Running.
  Variable t : tid.

  (* a step made while t is running that leaves t's record alone *)
  Definition rfix (a b : st) : Prop := running a = Some t -> tasks b t = tasks a t /\ running b = Some t.

  Lemma rfix_refl a : rfix a a.
  Proof. intros H. now split. Qed.

  Lemma rfix_trans a b c : rfix a b -> rfix b c -> rfix a c.
  Proof. intros H1 H2 H. destruct (H1 H) as [E1 R1]. destruct (H2 R1) as [E2 R2]. split; [now rewrite E2|exact R2]. Qed.

  Lemma rfix_same a b : tasks b = tasks a -> running b = running a -> rfix a b.
  Proof. intros E R H. split; [now rewrite E|now rewrite R]. Qed.

  Lemma rfix_deliver_top a c : rfix a (deliver_top a c).
  Proof. intros H. split; [now apply deliver_top_running|now rewrite (kf_running _ _ (kframe_deliver_top a c))]. Qed.

  Lemma rfix_scope_cancel a c b : rfix a (scope_cancel a c b).
  Proof.
    revert a. apply (scope_cancel_closed rfix c rfix_refl rfix_trans b); intros a;
      [|now apply rfix_same|intros _ _; apply rfix_deliver_top].
    revert a. apply (cancel_timeout_closed rfix c rfix_refl rfix_trans); intros; now apply rfix_same.
  Qed.

  Lemma rfix_scope_timeout a c : rfix a (scope_timeout a c).
  Proof.
    revert a. apply (scope_timeout_closed rfix c rfix_refl); intros a; [apply rfix_scope_cancel|intros; now apply rfix_same].
  Qed.
End Running.

Lemma scope_enter_own s c t :
  running s = Some t -> s_active (scopes s c) = false ->
  tasks (fst (scope_enter s c t)) t = tk_cur (Some c) (tasks s t).
Proof.
  intros Hr Ha. rewrite (scope_enter_eq s c t Ha).
  assert (R3 : running (enter_s3 s c t) = Some t) by (unfold enter_s3; destruct (k_cur (tasks s t)); exact Hr).
  assert (K : rfix t (enter_s3 s c t) (if s_cancelled (scopes (enter_s5 s c t) c) then deliver_top (enter_s5 s c t) c
                                        else enter_s5 s c t)).
  { apply (rfix_trans t _ (enter_s5 s c t)); [|destruct (s_cancelled _); [apply rfix_deliver_top|apply rfix_refl]].
    unfold enter_s5. apply (rfix_trans t _ _ _ (rfix_scope_timeout t _ c)). now apply rfix_same. }
  rewrite (proj1 (K R3)), enter_s3_task, Nat.eqb_refl. reflexivity.
Qed.

Lemma park_fields s t : k_must (tasks s t) = false ->
  tasks (park s t) t = tk_ctl CIdle (tk_waiter (Some (nfut s)) (tasks s t)) /\
  f_st (futs (park s t) (nfut s)) = FPend.
Proof.
  intros Hm. set (s1 := fst (new_fut s)).
  assert (E : f_st (futs s1 (nfut s)) = FPend) by (unfold s1; cbn; unfold upd; now rewrite Nat.eqb_refl).
  assert (Es : suspend_on s1 t (nfut s) =
               upd_task (upd_fut s1 (nfut s) (fun x => mkFut (f_st x) (Some t))) t (tk_waiter (Some (nfut s)))).
  { unfold suspend_on. rewrite E. change (tasks s1 t) with (tasks s t). now rewrite Hm. }
  assert (Ep : park s t = upd_task (suspend_on s1 t (nfut s)) t (tk_ctl CIdle)) by reflexivity.
  rewrite Ep, Es. split.
  - cbn [tasks upd_task set_tasks upd_fut set_futs]. unfold upd. rewrite !Nat.eqb_refl. reflexivity.
  - cbn [futs upd_task set_tasks upd_fut set_futs]. unfold upd at 1. rewrite Nat.eqb_refl. cbn [f_st]. exact E.
Qed.

Section NewTask2.
  Variable t : tid.

  (* the first step as a state: s1 is the state in which the coroutine would start to run; with a (native) request
     recorded it is thrown into the coroutine instead, else the task enters its handle scope (group children) and
     parks *)
  Lemma first_step_eq a r :
    NInv t a -> ready a = HStep t :: r ->
    exists s1, tasks s1 t = tk_started true (tk_must false (k_msg (tasks a t)) (tk_waiter None (tasks a t))) /\
               scopes s1 = scopes a /\ running s1 = Some t /\
               fst (step a (ARun (HStep t))) =
               if k_must (tasks a t) then finish_task s1 t (OExc (ECancel (k_msg (tasks a t))))
               else set_running (park (match k_group (tasks a t) with
                                       | Some _ => fst (scope_enter s1 (k_hscope (tasks a t)) t)
                                       | None => s1 end) t) None.
  Proof.
    intros N E. rewrite (step_run_head a (HStep t) r E). set (a' := set_ready a r).
    unfold resume. pose proof (incoming_ctl a' t None) as Ec. pose proof (incoming_task a' t None t) as Et.
    rewrite Nat.eqb_refl in Et.
    assert (Ei : snd (incoming a' t None) = if k_must (tasks a t) then Some (ECancel (k_msg (tasks a t))) else None).
    { unfold incoming. cbn [snd]. change (tasks a' t) with (tasks a t). destruct (k_must (tasks a t)); reflexivity. }
    assert (Er : running (fst (incoming a' t None)) = Some t) by reflexivity.
    assert (Es : scopes (fst (incoming a' t None)) = scopes a) by reflexivity.
    destruct (incoming a' t None) as [s inc]. cbn [fst snd] in *. subst inc.
    rewrite Ec. change (tasks a' t) with (tasks a t) in *. rewrite (ni_ctl _ _ N).
    set (s1 := upd_task s t (tk_started true)). exists s1.
    assert (E1 : tasks s1 t = tk_started true (tk_must false (k_msg (tasks a t)) (tk_waiter None (tasks a t)))).
    { unfold s1. cbn. rewrite upd_same. now rewrite Et. }
    split; [exact E1|]. split; [exact Es|]. split; [exact Er|].
    destruct (k_must (tasks a t)); cbn [fst]; [reflexivity|]. now rewrite E1.
  Qed.

  (* with no request recorded the task starts and parks at its first decision point, waiting on a fresh pending
     future; with one it ends cancelled without running *)
  Lemma first_step a r :
    NInv t a -> ready a = HStep t :: r ->
    let b := fst (step a (ARun (HStep t))) in
    (k_must (tasks a t) = false ->
       k_started (tasks b t) = true /\ k_ctl (tasks b t) = CIdle /\ k_done (tasks b t) = None /\
       k_must (tasks b t) = false /\ running b = None /\
       exists fp, k_waiter (tasks b t) = Some fp /\ f_st (futs b fp) = FPend) /\
    (k_must (tasks a t) = true ->
       k_ctl (tasks b t) = CDone /\ exists e, k_done (tasks b t) = Some (OCanc (ECancel e))).
  Proof.
    intros N E. cbv zeta. destruct (first_step_eq a r N E) as [s1 [E1 [Es [Er ->]]]]. split; intros Hm; rewrite Hm.
    - set (s2 := match k_group (tasks a t) with Some _ => fst (scope_enter s1 (k_hscope (tasks a t)) t) | None => s1 end).
      assert (E2 : exists x, tasks s2 t = tk_cur x (tasks s1 t)).
      { unfold s2. destruct (k_group (tasks a t)); [|exists (k_cur (tasks s1 t)); now destruct (tasks s1 t)].
        exists (Some (k_hscope (tasks a t))). apply scope_enter_own; [exact Er|]. rewrite Es.
        apply (new_hscope_inactive a t (ni_reach _ _ N) (ni_ctl _ _ N)). }
      destruct E2 as [x E2].
      assert (Hm2 : k_must (tasks s2 t) = false) by (rewrite E2, E1; reflexivity).
      destruct (park_fields s2 t Hm2) as [P1 P2].
      cbn [tasks running set_running futs]. rewrite P1, E2, E1. cbn.
      repeat split; try apply N. exists (nfut s2). split; [reflexivity|exact P2].
    - unfold finish_task. cbn [is_cancel].
      destruct (k_group (tasks s1 t)); cbn; rewrite !upd_same; cbn; (split; [reflexivity|eauto]).
  Qed.
End NewTask2.

Section NewTask3.
  Variable t : tid.

  (* every op is a window op until t's first step is run *)
  Fixpoint wokn (s : st) (ops : list op) : Prop :=
    match ops with
    | [] => True
    | o :: r => o = ARun (HStep t) \/ (wopn t s o /\ o <> ARun (HStep t) /\ wokn (fst (step s o)) r)
    end.

  Lemma wopn_step s o :
    NInv t s -> wopn t s o -> o <> ARun (HStep t) ->
    NInv t (fst (step s o)) /\ (k_must (tasks s t) = true -> k_must (tasks (fst (step s o)) t) = true) /\
    (trkE t s -> trkE t (fst (step s o)) \/ Esc t (fst (step s o))) /\
    ((forall h, o <> ARun h) -> rsh s (fst (step s o))) /\
    (forall h q, o = ARun h -> ready s = h :: q -> rshT q (fst (step s o))).
  Proof.
    intros N [[Ho Hok]|[h [q [-> [E [Hok Hoh]]]]]] Hne.
    - destruct (nstep_act t s o N Ho Hok) as [N' [M [R T]]]. refine (conj N' (conj M (conj T (conj (fun _ => R) _)))).
      intros h q ->. destruct Ho.
    - assert (Hh : h <> HStep t) by congruence. destruct (nstep_head t s h q N E Hoh Hh Hok) as [N' [M [R T]]].
      refine (conj N' (conj M (conj T (conj _ _)))); [intros Hn; now elim (Hn h)|].
      intros h' q' Eo E'. inversion Eo; subst h'. rewrite E in E'. inversion E'; subst q'. exact R.
  Qed.
End NewTask3.

(* C03 new_task_cancelled, first part.  A freshly spawned task t (frame CNew, its first step HStep t in the
   ready queue) at the boundary of an iteration.  Whatever the other tasks and the environment do (wokn: any act of
   others, any head-of-queue callback that does not resume t), t's first step is run within this iteration.  If a
   (native) request was recorded on it before, the step ends the task as cancelled without running its body;
   otherwise the task starts and is then parked at its first decision point on a fresh pending future with no
   request recorded - i.e. it satisfies the task-side premises of C03_cancel_latency_any_activity, which bounds the
   rest by two more iterations for whatever cancelled scope it reaches then (AnyIO deliveries skip a task that has
   not started, so the scope's delivery callback is still scheduled: C03_delivery_alive). *)
Theorem new_task_first_step t s ops s' :
  reach_ok s -> running s <> Some t -> k_ctl (tasks s t) = CNew -> k_started (tasks s t) = false ->
  k_waiter (tasks s t) = None -> k_done (tasks s t) = None -> In (HStep t) (ready s) -> t < ntask s ->
  wcyc (length (ready s)) s ops s' -> wokn t s ops ->
  exists si, In (si, ARun (HStep t)) (trace s ops) /\ reach_ok si /\
    let b := fst (step si (ARun (HStep t))) in
    (k_must (tasks s t) = true -> k_ctl (tasks b t) = CDone /\ exists e, k_done (tasks b t) = Some (OCanc (ECancel e))) /\
    (k_must (tasks si t) = false ->
       reach_ok b /\ running b <> Some t /\ k_started (tasks b t) = true /\ k_done (tasks b t) = None /\
       k_must (tasks b t) = false /\ wait_ctl (k_ctl (tasks b t)) = true /\
       exists fp, k_waiter (tasks b t) = Some fp /\ f_st (futs b fp) = FPend).
Proof.
  intros R Hr Hc Hs Hw Hd Hin At C Wk.
  assert (N : NInv t s) by (constructor; assumption).
  destruct (in_split_lt _ _ Hin) as [pre [post [E Hl]]].
  set (Inv := fun a => NInv t a /\ (k_must (tasks s t) = true -> k_must (tasks a t) = true)).
  set (Q := fun a l => exists si q, In (si, ARun (HStep t)) (trace a l) /\ Inv si /\ ready si = HStep t :: q).
  assert (Here : forall a q r, Inv a -> ready a = HStep t :: q -> Q a (ARun (HStep t) :: r)).
  { intros a q r Ia Ea. exists a, q. split; [now left|now split]. }
  assert (F : Q s (ops ++ [])).
  { refine (wcyc_reach Inv (wokn t) Q s' [] _ _ _ (HStep t) _ s ops C eq_refl _ pre post (conj N (fun H => H)) _ E Hl).
    - intros a o r [si [q [Hi H]]]. exists si, q. split; [now right|exact H].
    - intros m a h q r Ia Wa Ea _. cbn [wokn] in Wa. destruct Wa as [Eo|[Wo [Hne Wa]]].
      { left. inversion Eo; subst h. now apply (Here a q). }
      right. destruct Ia as [Na Ma]. destruct (wopn_step t a _ Na Wo Hne) as [N' [M [_ [_ Rh]]]].
      split; [split; auto|]. split; [exact Wa|now apply (Rh h q)].
    - intros a o r [Na Ma] Wa Hn. cbn [wokn] in Wa. destruct Wa as [Eo|[Wo [Hne Wa]]]; [now elim (Hn (HStep t))|right].
      destruct (wopn_step t a _ Na Wo Hne) as [N' [M [_ [Ra _]]]]. split; [split; auto|]. split; [exact Wa|now apply Ra].
    - intros m a q opsB Ia _ Ea _. now apply (Here a q).
    - now rewrite app_nil_r. }
  rewrite app_nil_r in F. destruct F as [si [q [Hi [[Ni Mi] Eri]]]].
  exists si. split; [exact Hi|]. split; [apply Ni|]. cbv zeta.
  destruct (first_step t si q Ni Eri) as [F0 F1]. split.
  - intros Hm. apply F1, Mi, Hm.
  - intros Hm. destruct (F0 Hm) as [A1 [A2 [A3 [A4 [A5 [fp [A6 A7]]]]]]].
    split; [apply reach_ok_step; [apply Ni|reflexivity]|]. split; [rewrite A5; discriminate|].
    split; [exact A1|]. split; [exact A3|]. split; [exact A4|]. split; [now rewrite A2|]. now exists fp.
Qed.

(* the same with a window that names no frames and a conclusion without the completed-future case (unproved in
   this form; new_task_cancelled below is proved): three iterations in which every op that does
   not resume t is a window op; then t has been resumed with a cancellation, or is done, or was at some moment not
   effectively cancelled *)
Definition resumes (t : tid) (h : handle) : Prop := h = HStep t \/ exists g, h = HWake t g.

Fixpoint wokt (t : tid) (s : st) (ops : list op) : Prop :=
  match ops with
  | [] => True
  | o :: r => ((exists h, o = ARun h /\ resumes t h) \/ wopn t s o) /\ wokt t (fst (step s o)) r
  end.

Definition new_task_cancelled_stmt : Prop :=
  forall t c s ops1 ops2 ops3 s1 s2 s3,
    reach_ok s -> running s <> Some t -> k_ctl (tasks s t) = CNew -> k_started (tasks s t) = false ->
    k_waiter (tasks s t) = None -> k_done (tasks s t) = None -> In (HStep t) (ready s) ->
    s_cancelled (scopes s c) = true -> s_host (scopes s c) <> None -> reaches s t c ->
    wcyc (length (ready s)) s ops1 s1 -> wcyc (length (ready s1)) s1 ops2 s2 -> wcyc (length (ready s2)) s2 ops3 s3 ->
    wokt t s (ops1 ++ ops2 ++ ops3) ->
    (exists si h o, In (si, ARun h) (trace s (ops1 ++ ops2 ++ ops3)) /\ resumes t h /\
                    snd (step si (ARun h)) = RExc (ECancel o)) \/
    (exists si, In si (states s (ops1 ++ ops2 ++ ops3)) /\ k_done (tasks si t) <> None) \/
    (exists si, In si (states s (ops1 ++ ops2 ++ ops3)) /\
                eff_cancelled_from (nscope si) si (k_cur (tasks si t)) = false).

(* non-vacuity of new_task_first_step: a child spawned into a task group whose scope is already cancelled; the
   delivery callback runs first and skips the unstarted child, then the child's first step *)
Definition nt_pre : list op := [ANewRoot; AGroupNew 1; AGroupEnter 1 1; ACancel 1 1; ASpawn 1 1].
Definition nt_ops : list op := [ARun (HDeliver 1); ARun (HStep 2)].

Example nt_premises :
  let s := final step init nt_pre in
  reach_ok s /\ running s <> Some 2 /\ k_ctl (tasks s 2) = CNew /\ k_started (tasks s 2) = false /\
  k_waiter (tasks s 2) = None /\ k_done (tasks s 2) = None /\ In (HStep 2) (ready s) /\ 2 < ntask s /\
  s_cancelled (scopes s 1) = true /\ reaches s 2 1 /\ k_must (tasks s 2) = false /\
  wokn 2 s nt_ops /\ exists s', wcyc (length (ready s)) s nt_ops s'.
Proof.
  cbv zeta. set (s := final step init nt_pre).
  assert (R : reach_ok s) by (exists nt_pre; split; [vc|reflexivity]).
  refine (conj R _). repeat (match goal with |- _ /\ _ => split end).
  - assert (E : running s = None) by vc. rewrite E. discriminate.
  - vc.
  - vc.
  - vc.
  - vc.
  - assert (E : ready s = [HDeliver 1; HStep 2]) by vc. rewrite E. right. now left.
  - assert (E : ntask s = 3) by vc. rewrite E. lia.
  - vc.
  - split; [vc|]. exists 1. split; [vc|apply vis_here].
  - vc.
  - unfold nt_ops. cbn [wokn]. right. split; [|split; [discriminate|now left]].
    right. exists (HDeliver 1), [HStep 2]. split; [reflexivity|]. split; [vc|]. split; [vc|exact I].
  - eexists. assert (E : length (ready s) = 2) by vc. rewrite E. unfold nt_ops.
    eapply wc_head; [vc|]. eapply wc_head; [vc|]. apply wc_nil.
Qed.

Lemma scope_timeout_view3 s c y : y <> c -> view3 (scopes (scope_timeout s c) y) = view3 (scopes s y).
Proof.
  intros Hy. revert s. apply (scope_timeout_closed (fun a b => view3 (scopes b y) = view3 (scopes a y)) c (fun _ => eq_refl)); intros a.
  - apply view3_core, scope_cancel_core, Hy.
  - intros d _ _. cbn. now rewrite upd_other.
Qed.

Lemma enter_view3 s c u y : y <> c -> view3 (scopes (fst (scope_enter s c u)) y) = view3 (scopes s y).
Proof.
  intros Hy. destruct (s_active (scopes s c)) eqn:Ea; [now rewrite (scope_enter_fail s c u Ea)|].
  rewrite (scope_enter_eq s c u Ea).
  assert (E3 : view3 (scopes (enter_s3 s c u) y) = view3 (scopes s y)).
  { unfold enter_s3. destruct (k_cur (tasks s u)) as [p|]; cbn; unfold upd.
    - destruct (Nat.eqb_spec y p) as [->|Hp]; [|destruct (Nat.eqb_spec y c); [contradiction|reflexivity]].
      destruct (Nat.eqb_spec p c); [contradiction|reflexivity].
    - destruct (Nat.eqb_spec y c); [contradiction|reflexivity]. }
  assert (E5 : view3 (scopes (enter_s5 s c u) y) = view3 (scopes s y)).
  { unfold enter_s5. cbn [scopes upd_scope set_scopes]. unfold upd. destruct (Nat.eqb_spec y c); [contradiction|].
    now rewrite scope_timeout_view3. }
  destruct (s_cancelled (scopes (enter_s5 s c u) c)); [|exact E5]. rewrite <- E5. apply view3_core.
  apply (kf_scopes _ _ (kframe_deliver_top (enter_s5 s c u) c) y).
Qed.

Lemma enter_parent s c u : s_active (scopes s c) = false ->
  s_parent (scopes (fst (scope_enter s c u)) c) = k_cur (tasks s u).
Proof.
  intros Ea. rewrite (scope_enter_eq s c u Ea).
  assert (E3 : s_parent (scopes (enter_s3 s c u) c) = k_cur (tasks s u)).
  { unfold enter_s3. destruct (k_cur (tasks s u)) as [p|] eqn:Ep; cbn; unfold upd; rewrite ?Nat.eqb_refl.
    - destruct (Nat.eqb_spec c p); [subst; cbn; now rewrite Nat.eqb_refl|reflexivity].
    - reflexivity. }
  assert (E5 : s_parent (scopes (enter_s5 s c u) c) = k_cur (tasks s u)).
  { unfold enter_s5. cbn [scopes upd_scope set_scopes]. unfold upd. rewrite Nat.eqb_refl. cbn [s_parent sc_active].
    rewrite (tq_parent _ _ (treq_scope_timeout (enter_s3 s c u) c)). exact E3. }
  destruct (s_cancelled (scopes (enter_s5 s c u) c)); [|exact E5].
  now rewrite (core_parent _ _ (kf_scopes _ _ (kframe_deliver_top (enter_s5 s c u) c) c)).
Qed.

Section NewTask4.
  Variable t : tid.
  Lemma vis_transfer a b c k : vis a c k ->
    (forall y, vis a y k -> y <> c -> view3 (scopes b y) = view3 (scopes a y)) -> vis b c k.
  Proof.
    intros V. induction V as [|x p E1 E2 E3 V IH]; intros H; [apply vis_here|].
    destruct (Nat.eq_dec x c) as [->|Hx]; [apply vis_here|].
    pose proof (H x (vis_here a x) Hx) as E. unfold view3 in E. injection E as P1 P2 P3.
    apply (vis_up b c x p); [rewrite P2; exact E1|rewrite P3; exact E2|rewrite P1; exact E3|].
    apply IH. intros y Hy Hn. apply H; [eapply vis_up; eauto|exact Hn].
  Qed.

  (* t's own first step keeps it under a cancelled scope (possibly its own handle scope), unless the handle scope
     is shielded *)
  Lemma first_step_trk a r :
    NInv t a -> ready a = HStep t :: r -> k_must (tasks a t) = false -> trkE t a ->
    trkE t (fst (step a (ARun (HStep t)))) \/ Esc t (fst (step a (ARun (HStep t)))).
  Proof.
    intros N E Hm [c [[Hd [k [Hc V]]] [Cc Hh]]].
    pose proof (ni_reach _ _ N) as R.
    assert (Rb : reach_ok (fst (step a (ARun (HStep t))))) by (apply reach_ok_step; [exact R|reflexivity]).
    destruct (first_step t a r N E) as [F0 _]. destruct (F0 Hm) as [A1 [A2 [A3 [A4 [A5 _]]]]].
    assert (Gb : Good t (fst (step a (ARun (HStep t))))) by (apply good_reach; [exact Rb|rewrite A5; discriminate]).
    revert A3 Gb. destruct (first_step_eq t a r N E) as [s1 [E1 [Es [Er ->]]]]. rewrite Hm.
    destruct (reach_sinv a R) as [[T C] _].
    assert (A : alloc_t a t).
    { destruct (alloc_t_dec a t) as [A|A]; [exact A|]. pose proof (ni_ctl _ _ N) as X.
      rewrite (c_unalloc _ C t A) in X. discriminate. }
    destruct (c_ok _ C t A) as [K1 _]. destruct (K1 (ni_ctl _ _ N)) as [_ [Hg _]].
    destruct (k_group (tasks a t)) as [g|] eqn:Egg; [|now elim Hg].
    set (hs := k_hscope (tasks a t)) in *.
    assert (Ha : s_active (scopes s1 hs) = false) by (rewrite Es; apply (new_hscope_inactive a t R (ni_ctl _ _ N))).
    set (s2 := fst (scope_enter s1 hs t)).
    intros A3 Gb.
    assert (Esc2 : forall y, scopes (set_running (park s2 t) None) y = scopes s2 y).
    { intros y. cbn [scopes set_running]. now rewrite (proj1 (ss_park s2 t)). }
    set (b := set_running (park s2 t) None) in *.
    assert (Hcb : k_cur (tasks b t) = Some hs).
    { unfold b. cbn [tasks set_running]. destruct (park_fields s2 t) as [P1 _].
      - unfold s2. rewrite (scope_enter_own s1 hs t Er Ha), E1. reflexivity.
      - rewrite P1. cbn. unfold s2. rewrite (scope_enter_own s1 hs t Er Ha). reflexivity. }
    assert (Hk1 : k_cur (tasks s1 t) = Some k) by (rewrite E1; cbn; exact Hc).
    assert (Ep : s_parent (scopes b hs) = Some k).
    { rewrite Esc2. unfold s2. rewrite (enter_parent s1 hs t Ha). exact Hk1. }
    assert (Ev : forall y, y <> hs -> view3 (scopes b y) = view3 (scopes a y)).
    { intros y Hy. rewrite Esc2. unfold s2. rewrite (enter_view3 s1 hs t y Hy). now rewrite Es. }
    pose proof (gd_tl _ _ Gb) as Tb.
    assert (Ahs : s_active (scopes b hs) = true) by apply (tl_cur_act _ Tb t hs Hcb).
    assert (Mk : forall y, vis b y hs -> s_cancelled (scopes b y) = true -> trk t y b).
    { intros y Vy Cy. split; [split; [exact A3|exists hs; now split]|]. split; [exact Cy|].
      apply (gd_host _ _ Gb). now apply (walk_active b hs y Tb). }
    destruct (s_cancelled (scopes b hs)) eqn:Chs; [left; exists hs; apply Mk; [apply vis_here|exact Chs]|].
    destruct (s_shield (scopes b hs)) eqn:Shs; [right; exists hs, hs; repeat split; auto; apply vis_here|].
    left. exists c. apply Mk.
    - eapply vis_up; [exact Shs|exact Chs|exact Ep|]. apply (vis_transfer a b c k V).
      intros y Vy _. apply Ev. intros ->.
      pose proof (walk_active a k hs (Tree_TreeL _ T) (tr_cur_act _ T t k Hc) Vy) as X. rewrite Es in Ha. congruence.
    - assert (Hch : c <> hs).
      { intros ->. pose proof (walk_active a k hs (Tree_TreeL _ T) (tr_cur_act _ T t k Hc) V) as X. rewrite Es in Ha. congruence. }
      pose proof (Ev c Hch) as E0. unfold view3 in E0. inversion E0. congruence.
  Qed.
End NewTask4.

Section NewTask5.
  Variable t : tid.

  (* what the theorem promises about a run *)
  Definition GoalN (s : st) (ops : list op) : Prop :=
    (exists si h, In (si, ARun h) (trace s ops) /\ resumes t h /\
       ((exists o, snd (step si (ARun h)) = RExc (ECancel o)) \/
        (exists g, h = HWake t g /\ ((exists v, f_st (futs si g) = FRes v) \/ (exists e, f_st (futs si g) = FExc e))))) \/
    (exists si, In si (states s ops) /\ k_done (tasks si t) <> None) \/
    (exists si, In si (states s ops) /\ eff_cancelled_from (nscope si) si (k_cur (tasks si t)) = false).

  Lemma GoalN_cons s o r : GoalN (fst (step s o)) r -> GoalN s (o :: r).
  Proof.
    intros [[si [h [H1 H2]]]|[[si [H1 H2]]|[si [H1 H2]]]].
    - left. exists si, h. split; [now right|exact H2].
    - right; left. exists si. split; [now right|exact H2].
    - right; right. exists si. split; [now right|exact H2].
  Qed.

  Lemma states_head s l : In s (states s l).
  Proof. destruct l; now left. Qed.

  Lemma GoalN_esc s o r : Esc t (fst (step s o)) -> GoalN s (o :: r).
  Proof.
    intros H. right; right. exists (fst (step s o)). split; [right; apply states_head|now apply Esc_not_effectively_cancelled].
  Qed.

  Lemma GoalN_wake f c s q r :
    OInv t c (Some f) (fun k => wait_ctl k = true) s -> reqG t s -> ready s = HWake t f :: q -> GoalN s (ARun (HWake t f) :: r).
  Proof.
    intros I Rq E. left. exists s, (HWake t f). split; [now left|]. split; [right; now exists f|].
    unfold reqG in Rq. rewrite (oi_waiter _ _ _ _ _ I) in Rq.
    destruct (wake_result t f s q (oi_waiter _ _ _ _ _ I) (oi_ctl _ _ _ _ _ I) E Rq) as [H|H]; [now left|right; now exists f].
  Qed.

  (* window: acts of others and head runs that do not resume t, until t's first step; from then on the window of
     C03_cancel_latency_any_activity for the future t is parked on *)
  Fixpoint wok2 (s : st) (ops : list op) : Prop :=
    match ops with
    | [] => True
    | o :: r =>
        (o = ARun (HStep t) /\
         forall fp, k_waiter (tasks (fst (step s o)) t) = Some fp -> wok0 t fp (fst (step s o)) r) \/
        (wopn t s o /\ o <> ARun (HStep t) /\ wok2 (fst (step s o)) r)
    end.
End NewTask5.

(* C03 new_task_cancelled.  A freshly spawned task t (frame CNew, first step queued, not started) reaches the
   cancelled hosted scope c at the boundary of an iteration.  Three iterations follow in which everything but t is
   unconstrained (wok2: before t's first step any act of others and any head-of-queue callback not resuming t; after
   it the window of C03_cancel_latency_any_activity).  Then (GoalN):
   a resumption of t raised a cancellation (or the future it was parked on was completed with a value first), or
   t is done (a request recorded before its first step ends it without running), or at some state of the run t
   was not effectively cancelled (somebody raised a shield between t and every cancelled scope - the handle scope
   included). *)
Theorem new_task_cancelled t c s ops1 ops2 ops3 s1 s2 s3 :
  reach_ok s -> running s <> Some t -> k_ctl (tasks s t) = CNew -> k_started (tasks s t) = false ->
  k_waiter (tasks s t) = None -> k_done (tasks s t) = None -> In (HStep t) (ready s) ->
  s_cancelled (scopes s c) = true -> s_host (scopes s c) <> None -> reaches s t c ->
  wcyc (length (ready s)) s ops1 s1 -> wcyc (length (ready s1)) s1 ops2 s2 -> wcyc (length (ready s2)) s2 ops3 s3 ->
  wok2 t s (ops1 ++ ops2 ++ ops3) ->
  GoalN t s (ops1 ++ ops2 ++ ops3).
Proof.
  intros R Hr Hc Hs Hw Hd Hin Cc Hh Rt C1 C2 C3 Wk.
  assert (At : t < ntask s).
  { destruct Rt as [_ [x [Hx _]]]. pose proof (tr_cur_alloc _ (reach_tree s R) t x Hx) as A. apply A. }
  assert (N : NInv t s) by (constructor; assumption).
  assert (Tk : trkE t s) by (exists c; exact (conj Rt (conj Cc Hh))).
  destruct (in_split_lt _ _ Hin) as [pre [post [E Hl]]].
  (* t's first step, whenever it is at the head of the queue in the first iteration; opsB is the rest of it *)
  assert (First : forall m si q opsB, NInv t si /\ trkE t si -> wok2 t si (ARun (HStep t) :: opsB ++ ops2 ++ ops3) ->
            ready si = HStep t :: q -> wcyc m (fst (step si (ARun (HStep t)))) opsB s1 ->
            GoalN t si (ARun (HStep t) :: opsB ++ ops2 ++ ops3)).
  { intros m si q opsB [Ni Tki] Wi Eri Cb. apply GoalN_cons. set (b := fst (step si (ARun (HStep t)))) in *.
    cbn [wok2] in Wi. destruct Wi as [[_ Wf]|[_ [Hne _]]]; [|now elim Hne]. fold b in Wf.
    destruct (first_step t si q Ni Eri) as [F0 F1]. fold b in F0, F1.
    destruct (k_must (tasks si t)) eqn:Hm.
    { (* a request recorded before the first step: the task is done *)
      destruct (F1 eq_refl) as [_ [e Ed]]. right; left. exists b. split; [apply states_head|rewrite Ed; discriminate]. }
    destruct (F0 eq_refl) as [A1 [A2 [A3 [A4 [A5 [fp [A6 A7]]]]]]].
    assert (Rb : reach_ok b) by (apply reach_ok_step; [apply Ni|reflexivity]).
    destruct (first_step_trk t si q Ni Eri Hm Tki) as [[c' Tb]|Ex].
    2:{ right; right. exists b. split; [apply states_head|now apply Esc_not_effectively_cancelled]. }
    fold b in Tb.
    assert (Ib : OInv t c' (Some fp) (fun k => wait_ctl k = true) b).
    { constructor; [constructor; [exact Rb|rewrite A5; discriminate|rewrite A2; discriminate|right]|exact A6|now rewrite A2|].
      - split; [|exact Tb]. unfold eligG. rewrite A6. exact (conj A3 (conj A4 (conj A1 A7))).
      - unfold reqG. rewrite A6. intros [X|X]; [discriminate|contradiction]. }
    pose proof (wok0_wok t fp _ _ (Wf fp A6)) as Wb.
    (* to the end of the first iteration; then the two iterations of the wait *)
    apply (phase_inv t fp c' (GoalN t) (GoalN_cons t) (GoalN_wake t fp c') (GoalN_esc t) m b opsB s1 (ops2 ++ ops3) Cb);
      [|exact Ib|exact Wb].
    intros I1 W1. destruct (li_cases _ _ _ (oi_linv _ _ _ _ _ I1)) as [R1|[_ [Rt1 [Cc1 Hh1]]]].
    - exact (phase_own t fp c' (GoalN t) (GoalN_cons t) (GoalN_wake t fp c') (GoalN_esc t) s1 ops2 s2 ops3 C2 I1 R1 W1).
    - apply (phase_deliver t fp c' (GoalN t) (GoalN_cons t) (GoalN_wake t fp c') (GoalN_esc t) s1 ops2 s2 ops3 C2
               (proj2 (delivery_alive s1 c' (li_reach _ _ _ (oi_linv _ _ _ _ _ I1)) Cc1 Hh1 (ex_intro _ t Rt1))));
        [|exact I1|exact W1].
      intros I2 R2 W2. rewrite <- (app_nil_r ops3) in W2 |- *.
      exact (phase_own t fp c' (GoalN t) (GoalN_cons t) (GoalN_wake t fp c') (GoalN_esc t) s2 ops3 s3 [] C3 I2 R2 W2). }
  refine (wcyc_reach (fun a => NInv t a /\ trkE t a) (wok2 t) (GoalN t) s1 (ops2 ++ ops3) (GoalN_cons t) _ _ (HStep t) _ s ops1 C1
            eq_refl First pre post (conj N Tk) Wk E Hl).
  - intros m a h q r [Na Ta] Wa Ea Cb. pose proof Wa as Wa0. cbn [wok2] in Wa. destruct Wa as [[Eo _]|[Wo [Hne Wa]]].
    { left. inversion Eo; subst h. now apply (First m a q r). }
    destruct (wopn_step t a _ Na Wo Hne) as [N' [_ [T [_ Rh]]]].
    destruct (T Ta) as [T'|Ex]; [right|left; now apply GoalN_esc].
    split; [now split|]. split; [exact Wa|now apply (Rh h q)].
  - intros a o r [Na Ta] Wa Hn. cbn [wok2] in Wa. destruct Wa as [[Eo _]|[Wo [Hne Wa]]]; [now elim (Hn (HStep t))|].
    destruct (wopn_step t a _ Na Wo Hne) as [N' [_ [T [Ra _]]]].
    destruct (T Ta) as [T'|Ex]; [right|left; now apply GoalN_esc].
    split; [now split|]. split; [exact Wa|now apply Ra].
Qed.

(* non-vacuity of new_task_cancelled: the child spawned into the cancelled group (nt_pre).  Iteration 1: the
   delivery callback skips the unstarted child, the child takes its first step; iteration 2: the host (an idle
   puppet in the cancelled scope) is woken, the delivery callback now cancels the child's wait; iteration 3: the
   child's wake-up raises the cancellation. *)
Definition nt_ops1 : list op := [ARun (HDeliver 1); ARun (HStep 2)].
Definition nt_ops2 : list op := [ARun (HWake 1 5); ARun (HDeliver 1)].
Definition nt_ops3 : list op := [ARun (HWake 1 7); ARun (HWake 2 6); ARun (HDeliver 1)].

Example nt3_premises :
  let s := final step init nt_pre in
  wok2 2 s (nt_ops1 ++ nt_ops2 ++ nt_ops3) /\
  exists s1 s2 s3, wcyc (length (ready s)) s nt_ops1 s1 /\ wcyc (length (ready s1)) s1 nt_ops2 s2 /\
                   wcyc (length (ready s2)) s2 nt_ops3 s3.
Proof.
  cbv zeta. set (s := final step init nt_pre). split.
  - unfold nt_ops1, nt_ops2, nt_ops3. cbn [app wok2].
    right. split; [|split; [discriminate|]].
    { right. exists (HDeliver 1), [HStep 2]. split; [reflexivity|]. split; [vc|]. split; [vc|exact I]. }
    left. split; [reflexivity|]. intros fp Hfp.
    assert (Efp : fp = 6) by (vm_compute in Hfp; congruence). subst fp. cbn [wok0].
    right. split; [right; exists (HWake 1 5), [HDeliver 1]; split; [reflexivity|split; [vc|]]|].
    { split; [vc|]. split; [discriminate|intros N; discriminate N]. }
    right. split; [right; exists (HDeliver 1), []; split; [reflexivity|split; [vc|]]|].
    { split; [vc|]. split; [discriminate|exact I]. }
    right. split; [right; exists (HWake 1 7), [HWake 2 6; HDeliver 1]; split; [reflexivity|split; [vc|]]|].
    { split; [vc|]. split; [discriminate|intros N; discriminate N]. }
    left. split; [reflexivity|]. vm_compute. discriminate.
  - eexists. eexists. eexists. split; [|split].
    + assert (E : length (ready s) = 2) by vc. rewrite E. unfold nt_ops1.
      eapply wc_head; [vc|]. eapply wc_head; [vc|]. apply wc_nil.
    + match goal with |- wcyc (length (ready ?x)) _ _ _ => assert (E : length (ready x) = 2) by vc; rewrite E end.
      unfold nt_ops2. eapply wc_head; [vc|]. eapply wc_head; [vc|]. apply wc_nil.
    + match goal with |- wcyc (length (ready ?x)) _ _ _ => assert (E : length (ready x) = 3) by vc; rewrite E end.
      unfold nt_ops3. eapply wc_head; [vc|]. eapply wc_head; [vc|]. eapply wc_head; [vc|]. apply wc_nil.
Qed.

Example nt3_instance : GoalN 2 (final step init nt_pre) (nt_ops1 ++ nt_ops2 ++ nt_ops3).
Proof.
  destruct nt_premises as (H1 & H2 & H3 & H4 & H5 & H6 & H7 & _ & H8 & H9 & _).
  destruct nt3_premises as (W & s1 & s2 & s3 & C1 & C2 & C3).
  assert (Hh : s_host (scopes (final step init nt_pre) 1) <> None) by (vm_compute; discriminate).
  exact (new_task_cancelled 2 1 _ _ _ _ s1 s2 s3 H1 H2 H3 H4 H5 H6 H7 H8 Hh H9 C1 C2 C3 W).
Qed.

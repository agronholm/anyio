(* C07: the value of a start future comes from started(v) of its child, and only from there. *)
From AV Require Import Base Machine GroupInv GroupInv2 GroupInv3 GroupInv4 GroupInv9 GroupWalk GroupThms5
  GroupThms5b GroupThms5c GroupThms6.

Lemma fstate_res_dec (x : fstate) v : x = FRes v \/ x <> FRes v.
Proof.
  destruct x as [|v'|e|o]; try (right; discriminate). destruct (Nat.eq_dec v' v) as [->|H]; [left; reflexivity|right; congruence].
Qed.

(* a start future goes to FRes v only in the step AStarted c v of the child c that owns it *)
Theorem start_value_origin s o c f v : reach s -> k_startfut (tasks s c) = Some f ->
  f_st (futs s f) <> FRes v -> f_st (futs (fst (step s o)) f) = FRes v ->
  o = AStarted c v /\ idle s c = true /\ f_st (futs s f) = FPend.
Proof.
  intros R Hsf Hn Hv. destruct (reachable s R) as [[K Ci G J] Hrun].
  destruct (step_fres s o R) as [_ [F2 _]]. destruct (F2 f v Hv) as [H|HQ]; [contradiction|].
  assert (Hchg : fst (step s o) <> s) by (intros E; rewrite E in Hv; contradiction).
  destruct o; cbn [Qstep] in HQ; try contradiction.
  - destruct HQ as [Hs ->]. assert (t = c) by (apply (kk_ss s J f t c Hs Hsf)). subst t.
    destruct (idle s c) eqn:Ei; [|exfalso; apply Hchg, (step_not_idle s (AStarted c v0) c eq_refl Ei)].
    refine (conj eq_refl (conj eq_refl _)).
    destruct (f_st (futs s f)) eqn:Ef; [reflexivity| | |];
      exfalso; rewrite (second_started_keeps_future s c v0 f R Ei Hsf) in Hv; try congruence; rewrite Ef; discriminate.
  - destruct HQ as [Hin _]. exfalso. exact (kk_es s J f _ c Hin Hsf).
  - destruct h as [t|t f0|c0|t|f0 tm|c0 tm]; try contradiction.
    + destruct HQ as [[g [Hg Hf]] _]. exfalso. exact (kk_sg s J f c g Hsf Hf).
    + destruct HQ as [-> _]. exfalso. destruct (in_dec_handle (HSleepDone f0 tm) (ready s)) as [Hin|Hnin].
      * apply (kk_st s J f0 c Hsf). left. eauto.
      * apply Hchg. now rewrite step_run_notin.
Qed.

(* along a run: if the start future of c holds v, then some earlier step was started(v) by c, performed while c
   was idle (so not finished) and the future was still pending *)
Theorem start_value_history ops : forall c f v,
  k_startfut (tasks (final step init ops) c) = Some f -> f_st (futs (final step init ops) f) = FRes v ->
  exists pre post, ops = pre ++ AStarted c v :: post /\
    idle (final step init pre) c = true /\ k_done (tasks (final step init pre) c) = None /\
    k_startfut (tasks (final step init pre) c) = Some f /\ f_st (futs (final step init pre) f) = FPend.
Proof.
  induction ops as [|o ops IH] using rev_ind; intros c f v Hsf Hv; [cbn in Hsf; discriminate|].
  rewrite final_app in Hsf, Hv. cbn [final fold_left] in Hsf, Hv.
  set (s := final step init ops) in *. assert (R : reach s) by (exists ops; reflexivity).
  destruct (reachable s R) as [[K Ci G J] Hrun].
  destruct (Nat.lt_ge_cases c (ntask s)) as [Hlt|Hge].
  - destruct (task_facts_stable s o R) as [_ TS]. destruct (TS c Hlt) as [_ [_ [_ [Es _]]]]. rewrite Es in Hsf.
    destruct (fstate_res_dec (f_st (futs s f)) v) as [E|Hn].
    + destruct (IH c f v Hsf E) as [pre [post [-> H]]]. exists pre, (post ++ [o]). split; [|exact H].
      now rewrite <- app_assoc.
    + destruct (start_value_origin s o c f v R Hsf Hn Hv) as [-> [Hi Hp]].
      exists ops, []. split; [reflexivity|]. fold s. refine (conj Hi (conj _ (conj Hsf Hp))).
      unfold idle in Hi. destruct (k_ctl (tasks s c)) eqn:Ec; try discriminate.
      destruct (k_done (tasks s c)) eqn:Ed; [|reflexivity]. exfalso.
      assert (H : k_ctl (tasks s c) = CDone) by (apply (c_done1 s Ci c); congruence). congruence.
  - exfalso. assert (Hna : ~ alloc s c) by (unfold alloc; lia).
    destruct (c_unalloc s Ci c Hna) as [_ [_ [Hg0 [_ [_ [Hs0 _]]]]]].
    destruct (new_task_qh (nscope s, nfut s) s o R eq_refl c (or_introl (conj Hg0 Hs0))) as [[_ Q]|[_ Q]]; [congruence|].
    specialize (Q f Hsf). cbn [snd] in Q.
    destruct (reachable _ (reach_step s o R)) as [[K' Ci' G' J'] _].
    pose proof (b_sf _ G' c f Hsf) as Hlt'.
    destruct (step_fres s o R) as [_ [_ F3]]. specialize (F3 f v Q Hlt' Hv).
    destruct o; cbn [Qstep] in F3; try contradiction.
    + destruct F3 as [H _]. pose proof (b_sf s G t f H). lia.
    + destruct F3 as [H _]. assert (Hr : refd s f) by (left; eauto). pose proof (k_ref s K f Hr) as [Hb _]. lia.
    + destruct h as [t|t f0|c0|t|f0 tm|c0 tm]; try contradiction.
      * destruct F3 as [[g [_ H]] _]. assert (Hr : refd s f) by (right; left; eauto). pose proof (k_ref s K f Hr) as [Hb _]. lia.
      * destruct F3 as [-> _]. destruct (in_dec_handle (HSleepDone f0 tm) (ready s)) as [Hin|Hnin].
        -- assert (Hr : refd s f0) by (right; right; right; left; eauto). pose proof (k_ref s K f0 Hr) as [Hb _]. lia.
        -- rewrite (step_run_notin s _ Hnin) in Hsf. cbn [fst] in Hsf. congruence.
Qed.

(* C07 end to end: start() returns v only if the child called started(v) earlier, while it was still running *)
Theorem start_returns_only_after_started ops t g c f h v :
  k_ctl (tasks (final step init ops) t) = CStartWait g c f ->
  (h = HStep t \/ exists f', h = HWake t f') -> snd (step (final step init ops) (ARun h)) = RRet v ->
  exists pre post, ops = pre ++ AStarted c v :: post /\
    idle (final step init pre) c = true /\ k_done (tasks (final step init pre) c) = None /\
    k_startfut (tasks (final step init pre) c) = Some f /\ f_st (futs (final step init pre) f) = FPend.
Proof.
  intros Hc Hh Hr. set (s := final step init ops) in *. assert (R : reach s) by (exists ops; reflexivity).
  destruct (start_returns_started_value s t g c f h v R Hc Hh Hr) as [Hv _].
  destruct (reachable s R) as [[K Ci G J] Hrun].
  assert (Hnr : running s <> Some t) by (rewrite Hrun; discriminate).
  destruct (c_sw s Ci t g c f Hnr Hc) as [_ [Hsf _]].
  apply (start_value_history ops c f v Hsf Hv).
Qed.

Lemma futs_finish_root s t x : idle s t = true -> k_group (tasks s t) = None ->
  futs (fst (step s (AFinish t x))) = futs s.
Proof.
  intros Hi Hg. cbn [step actor]. rewrite Hi. cbn [negb]. unfold puppet_finish.
  assert (E : k_group (tasks (begin_act s t) t) = None) by (unfold begin_act; tcase t t; [exact Hg|contradiction]).
  rewrite E. cbn [fst]. rewrite finish_task_eq. cbn zeta.
  match goal with |- context [k_group ?k] => destruct (k_group k) end; reflexivity.
Qed.

(* the join future of the caller gets a value only in the step in which the child's coroutine ends (AFinish of the
   child sets the finished event): the wake-up by the event happens in, not before, the child's last step *)
Theorem start_join_event_wakeup s o t ch sc e f v : reach s ->
  k_ctl (tasks s t) = CStartJoin ch sc e (Some f) -> f_st (futs s f) <> FRes v ->
  f_st (futs (fst (step s o)) f) = FRes v ->
  exists x, o = AFinish ch x /\ idle s ch = true /\ v = 1.
Proof.
  intros R Hc Hn Hv. destruct (reachable s R) as [[K Ci G J] Hrun].
  assert (Hnr : running s <> Some t) by (rewrite Hrun; discriminate).
  pose proof (j_join s J t ch sc e f Hnr Hc) as Hin.
  destruct (c_sj s Ci t ch sc e (Some f) Hnr Hc) as [Hal Hg].
  destruct (step_fres s o R) as [_ [F2 _]]. destruct (F2 f v Hv) as [H|HQ]; [contradiction|].
  assert (Hchg : fst (step s o) <> s) by (intros E; rewrite E in Hv; contradiction).
  destruct o; cbn [Qstep] in HQ; try contradiction.
  - destruct HQ as [Hs _]. exfalso. exact (kk_es s J f _ t0 Hin Hs).
  - destruct HQ as [Hin' ->].
    destruct (idle s t0) eqn:Ei; [|exfalso; apply Hchg, (step_not_idle s (AFinish t0 v0) t0 eq_refl Ei)].
    pose proof (kk_ee s J f _ _ Hin' Hin) as Ee.
    destruct (k_group (tasks s t0)) as [g0|] eqn:Eg.
    + assert (t0 = ch) by (apply (e_inj s J t0 ch); [congruence|exact Hg|exact Ee]). subst t0. eauto.
    + exfalso. rewrite (futs_finish_root s t0 v0 Ei Eg) in Hv. contradiction.
  - destruct h as [t0|t0 f0|c0|t0|f0 tm|c0 tm]; try contradiction.
    + destruct HQ as [[g [_ Hf]] _]. exfalso. exact (kk_eg s J f _ g Hin Hf).
    + destruct HQ as [-> _]. exfalso. destruct (in_dec_handle (HSleepDone f0 tm) (ready s)) as [Hi|Hni].
      * apply (kk_et s J f0 _ Hin). left. eauto.
      * apply Hchg. now rewrite step_run_notin.
Qed.

Example ex_join_event_wakeup :
  let s := final step init [ANewRoot; AGroupNew 1; AGroupEnter 1 1; AStart 1 1; ANativeCancel 1; ARun (HWake 1 4);
                            ARun (HStep 2); ARun (HDeliver 2); ARun (HWake 2 6)] in
  k_ctl (tasks s 1) = CStartJoin 2 3 (ECancel 0) (Some 5) /\ f_st (futs s 5) = FPend /\
  f_st (futs (fst (step s (AFinish 2 0))) 5) = FRes 1.
Proof. vm_compute. auto. Qed.

Example ex_start_history :
  let ops := [ANewRoot; AGroupNew 1; AGroupEnter 1 1; AStart 1 1; ARun (HStep 2); AStarted 2 42] in
  k_ctl (tasks (final step init ops) 1) = CStartWait 1 2 4 /\
  snd (step (final step init ops) (ARun (HWake 1 4))) = RRet 42.
Proof. vm_compute. auto. Qed.

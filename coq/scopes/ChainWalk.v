(* A generic walk through `Machine.step`: for any preorder R on states that contains the weak frame relation
   `frame` (nothing the timer/flag invariants look at is changed) and is satisfied by the few state transformers
   that do touch scopes' flags, deadlines or timers, every op satisfies R (walk_step).  For a relation that holds
   of every single update those transformers are made of, the transformers follow (prim_walk).  Instances:
   ChainMono.v (monotonicity of cancel_called / cancelled_caught / the deadline ghost), TimerInv.v (invariant
   preservation), TimerOrder.v, TimerRun.v, TimerOwn.v. *)
From AV Require Import Base Machine MachineFacts ChainFrame ChainThms.

Definition is_th (h : handle) : bool :=
  match h with HSleepDone _ _ | HTimeout _ _ => true | _ => false end.
Definition ths (l : list handle) : list handle := filter is_th l.

Record tcore_eq (a b : scope) : Prop := mk_tcore_eq {
  tc_deadline : s_deadline a = s_deadline b;
  tc_cancelled : s_cancelled a = s_cancelled b;
  tc_caught : s_caught a = s_caught b;
  tc_active : s_active a = s_active b;
  tc_timeout : s_timeout a = s_timeout b;
  tc_bydeadline : s_bydeadline a = s_bydeadline b
}.

Lemma tcore_eq_refl a : tcore_eq a a.
Proof. constructor; reflexivity. Qed.

(* tm is remembered by some task sleeping in asyncio.sleep *)
Definition sleep_id (s : st) (tm : tmid) : Prop := exists t f, k_ctl (tasks s t) = CSleep f tm.

Record frame (s s' : st) : Prop := mk_frame {
  fr_timers : timers s' = timers s;
  fr_ntimer : ntimer s' = ntimer s;
  fr_now : now s' = now s;
  fr_nscope : nscope s' = nscope s;
  fr_ths : ths (ready s') = ths (ready s);
  fr_scopes : forall c, tcore_eq (scopes s' c) (scopes s c);
  fr_gscope : forall g, g_scope (groups s' g) = g_scope (groups s g);
  fr_hscope : forall t, k_hscope (tasks s' t) = k_hscope (tasks s t);
  fr_sleep : forall tm, sleep_id s' tm -> sleep_id s tm
}.

Lemma frame_refl s : frame s s.
Proof. constructor; try reflexivity; auto. intros c; apply tcore_eq_refl. Qed.

Lemma frame_trans a b c : frame a b -> frame b c -> frame a c.
Proof.
  intros [] []. constructor; try congruence; auto.
  intros x. destruct (fr_scopes0 x), (fr_scopes1 x). constructor; congruence.
Qed.

Lemma frame_intro_eq s s' :
  timers s' = timers s -> ntimer s' = ntimer s -> now s' = now s -> nscope s' = nscope s ->
  ths (ready s') = ths (ready s) -> scopes s' = scopes s -> groups s' = groups s -> tasks s' = tasks s ->
  frame s s'.
Proof.
  intros H1 H2 H3 H4 H5 H6 H7 H8. constructor; auto.
  - intros c. rewrite H6. apply tcore_eq_refl.
  - intros g. now rewrite H7.
  - intros t. now rewrite H8.
  - intros tm (t & f & H). exists t, f. now rewrite <- H8.
Qed.

Lemma ths_app l1 l2 : ths (l1 ++ l2) = ths l1 ++ ths l2.
Proof. apply filter_app. Qed.

Lemma ths_soft l : Forall soft l -> ths l = [].
Proof.
  induction 1 as [|h l Hh _ IH]; [reflexivity|]. cbn [ths filter]. fold (ths l). rewrite IH.
  destruct h; cbn in Hh; try contradiction; reflexivity.
Qed.

Lemma dframe_frame s s' : dframe s s' -> frame s s'.
Proof.
  intros H. constructor.
  - apply (df_timers _ _ H).
  - apply (df_ntimer _ _ H).
  - apply (df_now _ _ H).
  - apply (df_nscope _ _ H).
  - destruct (df_ready _ _ H) as (l & -> & Hl). now rewrite ths_app, (ths_soft l Hl), app_nil_r.
  - intros c. destruct (df_scopes _ _ H c). constructor; assumption.
  - intros g. now rewrite (df_groups _ _ H).
  - intros t. apply (te_hscope _ _ (df_tasks _ _ H t)).
  - intros tm (t & f & E). exists t, f. now rewrite <- (te_ctl _ _ (df_tasks _ _ H t)).
Qed.

(* task updates that keep the handle scope and do not invent a sleeping state *)
Definition tk_ok (g : task -> task) : Prop :=
  forall k, k_hscope (g k) = k_hscope k /\ forall f tm, k_ctl (g k) = CSleep f tm -> k_ctl k = CSleep f tm.

Lemma frame_upd_task s t g : tk_ok g -> frame s (upd_task s t g).
Proof.
  intros Hg. constructor; try reflexivity.
  - intros c. apply tcore_eq_refl.
  - intros x. cbn [upd_task set_tasks tasks]. rewrite upd_eq. destruct (Nat.eqb x t) eqn:E; [|reflexivity].
    apply Nat.eqb_eq in E. subst x. apply Hg.
  - intros tm (x & f & H). cbn [upd_task set_tasks tasks] in H. rewrite upd_eq in H.
    destruct (Nat.eqb x t) eqn:E.
    + exists t, f. now apply Hg.
    + exists x, f. exact H.
Qed.

Ltac tkok :=
  let k := fresh "k" in let f := fresh "f" in let tm := fresh "tm" in let H := fresh "H" in
  intros k; split; [reflexivity | cbn; intros f tm H; first [exact H | discriminate H]].

Definition nosleep (c : ctl) : Prop := match c with CSleep _ _ => False | _ => True end.

Lemma frame_set_ctl s t c : nosleep c -> frame s (set_ctl s t c).
Proof.
  intros Hc. apply frame_upd_task. intros k. split; [reflexivity|]. cbn. intros f tm H. subst c. destruct Hc.
Qed.

Lemma frame_upd_scope s x g : (forall c, tcore_eq (g c) c) -> frame s (upd_scope s x g).
Proof.
  intros Hg. constructor; try reflexivity; auto.
  intros y. cbn [upd_scope set_scopes scopes]. rewrite upd_eq. destruct (Nat.eqb y x) eqn:E; [|apply tcore_eq_refl].
  apply Nat.eqb_eq in E. subst y. apply Hg.
Qed.

Lemma frame_upd_group s x g : (forall k, g_scope (g k) = g_scope k) -> frame s (upd_group s x g).
Proof.
  intros Hg. constructor; try reflexivity; auto.
  - intros c. apply tcore_eq_refl.
  - intros y. cbn [upd_group set_groups groups]. rewrite upd_eq. destruct (Nat.eqb y x) eqn:E; [|reflexivity].
    apply Nat.eqb_eq in E. subst y. apply Hg.
Qed.

Lemma frame_upd_fut s f g : frame s (upd_fut s f g).
Proof. apply frame_intro_eq; reflexivity. Qed.

Lemma frame_upd_event s e g : frame s (upd_event s e g).
Proof. apply frame_intro_eq; reflexivity. Qed.

Lemma frame_set_running s r : frame s (set_running s r).
Proof. apply frame_intro_eq; reflexivity. Qed.

Lemma frame_new_fut s : frame s (fst (new_fut s)).
Proof. apply frame_intro_eq; reflexivity. Qed.

Lemma frame_call_soon s h : is_th h = false -> frame s (call_soon s h).
Proof.
  intros Hh. apply frame_intro_eq; try reflexivity. cbn [call_soon set_ready ready].
  rewrite ths_app. cbn [ths filter]. rewrite Hh. now rewrite app_nil_r.
Qed.

Lemma ths_remove_first h l : is_th h = false -> ths (remove_first h l) = ths l.
Proof.
  intros Hh. induction l as [|x l IH]; [reflexivity|]. cbn [remove_first].
  destruct (handle_eqb x h) eqn:E.
  - cbn [ths filter]. fold (ths l).
    assert (is_th x = false) as ->; [|reflexivity].
    destruct x, h; cbn in E; try discriminate; cbn in Hh; try discriminate; reflexivity.
  - cbn [ths filter]. fold (ths l) (ths (remove_first h l)). now rewrite IH.
Qed.

Lemma frame_pop s h : is_th h = false -> frame s (set_ready s (remove_first h (ready s))).
Proof.
  intros Hh. apply frame_intro_eq; try reflexivity. cbn [set_ready ready]. now apply ths_remove_first.
Qed.

Lemma frame_fut_complete s f v : frame s (fut_complete s f v).
Proof. apply dframe_frame, dframe_fut_complete. Qed.

Lemma frame_task_cancel s t o : frame s (task_cancel s t o).
Proof. apply dframe_frame, dframe_task_cancel. Qed.

Lemma frame_task_uncancel s t : frame s (task_uncancel s t).
Proof. apply dframe_frame, dframe_task_uncancel. Qed.

Lemma frame_restart s x : frame s (restart s x).
Proof. apply dframe_frame, restart_dframe. Qed.

Lemma frame_deliver_top s c : frame s (deliver_top s c).
Proof. apply dframe_frame, deliver_top_dframe. Qed.

(* frame holds of every move of the asyncio layer, at all tasks and futures *)
Lemma frame_kclosed : kclosed frame (fun _ => True) (fun _ => True).
Proof.
  constructor.
  - apply frame_refl.
  - apply frame_trans.
  - intros a t g _ Hg. apply frame_upd_task. destruct Hg; tkok.
  - intros. apply frame_upd_fut.
  - intros. apply frame_upd_fut.
  - intros. now apply frame_call_soon.
Qed.

Lemma frame_begin_act s t : frame s (begin_act s t).
Proof. apply (kc_begin_act frame_kclosed); [apply frame_set_running|exact I]. Qed.

Lemma frame_suspend_on s t f : frame s (suspend_on s t f).
Proof. now apply (kc_suspend_on frame_kclosed). Qed.

Lemma frame_park s t : frame s (park s t).
Proof.
  apply (kc_park frame_kclosed); [exact I|intros a _; apply frame_new_fut|intros a; apply frame_upd_task; tkok|exact I].
Qed.

Lemma frame_ret s t r : frame s (fst (ret_to_puppet s t r)).
Proof.
  apply (kc_ret_to_puppet frame_kclosed); try exact I;
    [intros a _; apply frame_new_fut|intros a; apply frame_upd_task; tkok|intros a e; apply frame_upd_task; tkok
    |apply frame_set_running].
Qed.

Lemma frame_blocked s : frame s (fst (blocked s)).
Proof. apply frame_set_running. Qed.

Lemma frame_bare_yield s t : frame s (bare_yield s t).
Proof. now apply frame_call_soon. Qed.

Lemma frame_event_set s e : frame s (event_set s e).
Proof. apply (kc_event_set frame_kclosed); [intros a; apply frame_upd_event|auto]. Qed.

Lemma frame_event_wait s t e : frame s (fst (event_wait s t e)).
Proof.
  apply (kc_event_wait frame_kclosed); try exact I;
    [intros a _; apply frame_new_fut|intros a f; apply frame_upd_event|intros a; now apply frame_call_soon].
Qed.

Lemma frame_event_unwait s e fo : frame s (event_unwait s e fo).
Proof. destruct fo; [apply frame_upd_event|apply frame_refl]. Qed.

Lemma frame_finish_task s t o : frame s (finish_task s t o).
Proof.
  unfold finish_task. eapply frame_trans; [|apply frame_set_running].
  match goal with |- frame s (match ?g with Some _ => call_soon ?a _ | None => _ end) =>
    assert (H : frame s a) by (apply frame_upd_task; intros k; split; [reflexivity|cbn; intros f tm H; discriminate H]);
    destruct g; [eapply frame_trans; [exact H|now apply frame_call_soon]|exact H]
  end.
Qed.

Lemma frame_incoming s t fo : frame s (fst (incoming s t fo)).
Proof. apply (kc_incoming frame_kclosed); [apply frame_set_running|exact I]. Qed.

Lemma frame_enter_links s c t : frame s (enter_links s c t).
Proof.
  unfold enter_links. cbv zeta.
  assert (F2 : frame s (upd_task (upd_scope s c (fun x => sc_parent (k_cur (tasks s t))
                                    (sc_tasks (add t (s_tasks x)) (sc_host (Some t) x)))) t (tk_cur (Some c)))).
  { eapply frame_trans; [|apply frame_upd_task; tkok]. apply frame_upd_scope; intros k; constructor; reflexivity. }
  destruct (k_cur (tasks s t)); [|exact F2].
  eapply frame_trans; [exact F2|apply frame_upd_scope; intros k; constructor; reflexivity].
Qed.

(* __exit__ once its timer is gone: frame moves and, where it absorbs, cancelled_caught on a cancel_called scope *)
Lemma exit_tail_closed (R : st -> st -> Prop) s c t exc :
  (forall a b d, R a b -> R b d -> R a d) -> (forall a b, frame a b -> R a b) ->
  (forall a, s_cancelled (scopes a c) = true -> R a (upd_scope a c (sc_caught true))) ->
  exit_guards s c t = true ->
  R (cancel_timeout (upd_scope s c (sc_active false)) c) (fst (scope_exit s c t exc)).
Proof.
  intros Rt Rfr Rc G. destruct (exit_shape s c t exc G) as (s6 & r & X & ->). cbn [fst].
  set (s1 := cancel_timeout (upd_scope s c (sc_active false)) c).
  assert (F5 : frame s1 (exit_mid s c t)).
  { unfold exit_mid. eapply frame_trans; [|apply frame_restart]. unfold exit_unlinked. cbv zeta. fold s1.
    eapply frame_trans; [|apply frame_upd_task; tkok].
    assert (F2 : frame s1 (upd_scope s1 c (fun x => sc_tasks (del t (s_tasks x)) x)))
      by (apply frame_upd_scope; intros k; constructor; reflexivity).
    destruct (s_parent (scopes s c)); [|exact F2].
    eapply frame_trans; [exact F2|apply frame_upd_scope; intros k; constructor; reflexivity]. }
  eapply Rt; [apply Rfr, F5|]. eapply Rt; [|apply Rfr, frame_upd_scope; intros k; constructor; reflexivity].
  eapply (xsettle_closed R); [exact Rt|intros a b D; apply Rfr, dframe_frame, D|exact Rc|exact X].
Qed.

Definition set_deadline_body (s : st) (c : sid) (d : option Z) : st :=
  let s1 := cancel_timeout (upd_scope s c (sc_deadline d)) c in
  if s_active (scopes s1 c) && negb (s_cancelled (scopes s1 c)) then scope_timeout s1 c else s1.

Lemma step_setdl s t c d :
  idle s t = true ->
  step s (ASetDeadline t c d) = ret_to_puppet (set_deadline_body (begin_act s t) c d) t (RRet 0).
Proof. intros Hi. now rewrite (step_puppet s (ASetDeadline t c d) t eq_refl Hi). Qed.

Lemma step_tick s dt : step s (ATick dt) = if Z.ltb dt 0 then (s, RRejected) else (tick s dt, RNone).
Proof. reflexivity. Qed.

Definition add_group (s : st) (c : sid) : st :=
  mkSt (tasks s) (ntask s) (scopes s) (nscope s)
       (upd (groups s) (ngroup s) (mkGroup c false [] [] None [] false)) (S (ngroup s))
       (futs s) (nfut s) (events s) (nevent s) (ready s) (timers s) (ntimer s) (now s) (running s).

Definition root_task : task :=
  mkTask CIdle true None None false 0 0 None None None 0 0 None None None None false.

Definition add_root (s : st) : st :=
  mkSt (upd (tasks s) (ntask s) root_task) (S (ntask s)) (scopes s) (nscope s) (groups s) (ngroup s) (futs s) (nfut s)
       (events s) (nevent s) (ready s) (timers s) (ntimer s) (now s) (running s).

(* the task record and finished-event of a spawned child, whose handle scope hs has just been allocated *)
Definition add_child (s : st) (hs : sid) (g : gid) (sf : option fid) : st :=
  mkSt (upd (tasks s) (ntask s)
            (mkTask CNew false None None false 0 0 (Some (g_scope (groups s g))) None (Some g) hs (nevent s) None None
                    sf None false))
       (S (ntask s)) (scopes s) (nscope s) (groups s) (ngroup s) (futs s) (nfut s)
       (upd (events s) (nevent s) event0) (S (nevent s)) (ready s) (timers s) (ntimer s) (now s) (running s).

(* what cancel() writes into the scope: _cancel_called, with the ghost "by its deadline" *)
Definition mark (b : bool) (x : scope) : scope := sc_bydeadline b (sc_cancelled true x).

Definition due (s : st) (c : sid) : Prop := exists d, s_deadline (scopes s c) = Some d /\ (d <= now s)%Z.

Lemma due_ext s s' c :
  now s' = now s -> s_deadline (scopes s' c) = s_deadline (scopes s c) -> due s' c <-> due s c.
Proof. intros E1 E2. unfold due. rewrite E1, E2. tauto. Qed.

(* side conditions under which the individual hypotheses are required (True everywhere = no side condition) *)
Record oks : Type := mk_oks {
  ok_enter : st -> sid -> Prop;              (* AEnter: scope_enter of a scope named by the program *)
  ok_setdl : st -> sid -> option Z -> Prop;  (* ASetDeadline *)
  ok_tick : st -> Z -> Prop;                 (* ATick *)
  ok_new : option Z -> Prop;                 (* new_scope d _ followed by scope_enter (AFailAt; internally d = None) *)
  ok_genter : st -> gid -> Prop;             (* AGroupEnter: scope_enter of the group's scope *)
  ok_henter : st -> tid -> Prop;             (* first step of a child: scope_enter of its handle scope *)
  ok_trun : st -> sid -> tmid -> Prop;       (* ARun (HTimeout c tm) *)
  ok_cancel : st -> sid -> Prop              (* ACancel / AExtCancel: scope.cancel() on a scope named by the program *)
}.

Record walk_hyps (R : st -> st -> Prop) (K : oks) : Prop := mk_walk_hyps {
  wh_refl : forall s, R s s;
  wh_trans : forall a b c, R a b -> R b c -> R a c;
  wh_frame : forall a b, frame a b -> R a b;
  wh_ok_none : ok_new K None;
  wh_new_scope : forall s d sh, R s (fst (new_scope s d sh));
  wh_new_enter : forall s d sh t, ok_new K d -> R s (fst (scope_enter (fst (new_scope s d sh)) (nscope s) t));
  wh_enter : forall s c t, ok_enter K s c -> R s (fst (scope_enter s c t));
  wh_enter_g : forall s g t, ok_genter K s g -> R s (fst (scope_enter s (g_scope (groups s g)) t));
  wh_enter_h : forall s t, ok_henter K s t -> R s (fst (scope_enter s (k_hscope (tasks s t)) t));
  wh_exit : forall s c t exc, R s (fst (scope_exit s c t exc));
  wh_cancel : forall s c, ok_cancel K s c -> R s (scope_cancel s c false);
  wh_cancel_g : forall s g, R s (scope_cancel s (g_scope (groups s g)) false);
  wh_cancel_h : forall s t, R s (scope_cancel s (k_hscope (tasks s t)) false);
  wh_setdl : forall s c d, ok_setdl K s c d -> R s (set_deadline_body s c d);
  wh_group_new : forall s, R s (add_group (fst (new_scope s None false)) (nscope s));
  wh_spawn : forall s g sf, R s (fst (spawn_task s g sf));
  wh_sleep : forall s t f w, R s (set_ctl (suspend_on (fst (call_at s w (TSleep f))) t f) t (CSleep f (ntimer s)));
  wh_sleep0 : forall s t f, R s (set_ctl s t (CSleep f 0));
  wh_sleep_wake : forall s t f tm, k_ctl (tasks s t) = CSleep f tm -> R s (timer_cancel s tm);
  wh_pop_sleepdone : forall s f tm, R s (dequeue s (HSleepDone f tm));
  wh_timeout_run : forall s c tm, ok_trun K s c tm -> In (HTimeout c tm) (ready s) ->
                                  R s (scope_timeout (set_running (dequeue s (HTimeout c tm)) None) c);
  wh_add_root : forall s, R s (add_root s);
  wh_tick : forall s dt, (0 <= dt)%Z -> ok_tick K s dt -> R s (tick s dt)
}.

Section Walk.
  Context {R : st -> st -> Prop} {K : oks} (W : walk_hyps R K).

  Let Rrefl := wh_refl _ _ W.
  Let Rtrans := wh_trans _ _ W.
  Let Rframe := wh_frame _ _ W.

  Lemma Rf a b c : R a b -> frame b c -> R a c.
  Proof. intros H F. eapply Rtrans; [exact H|apply Rframe, F]. Qed.

  Lemma Rf_ret a b t r : R a b -> R a (fst (ret_to_puppet b t r)).
  Proof. intros H. eapply Rf; [exact H|apply frame_ret]. Qed.

  Lemma Rf_blocked a b : R a b -> R a (fst (blocked b)).
  Proof. intros H. eapply Rf; [exact H|apply frame_blocked]. Qed.

  Lemma Rf_set_ctl a b t c : nosleep c -> R a b -> R a (set_ctl b t c).
  Proof. intros Hc H. eapply Rf; [exact H|now apply frame_set_ctl]. Qed.

  Lemma Rf_bare_yield a b t : R a b -> R a (bare_yield b t).
  Proof. intros H. eapply Rf; [exact H|apply frame_bare_yield]. Qed.

  Lemma Rf_suspend a b t f : R a b -> R a (suspend_on b t f).
  Proof. intros H. eapply Rf; [exact H|apply frame_suspend_on]. Qed.

  Lemma Rf_upd_task a b t g : tk_ok g -> R a b -> R a (upd_task b t g).
  Proof. intros Hg H. eapply Rf; [exact H|now apply frame_upd_task]. Qed.

  Lemma Rf_upd_group a b x g : (forall k, g_scope (g k) = g_scope k) -> R a b -> R a (upd_group b x g).
  Proof. intros Hg H. eapply Rf; [exact H|now apply frame_upd_group]. Qed.

  Lemma Rf_cancel a b c : ok_cancel K b c -> R a b -> R a (scope_cancel b c false).
  Proof. intros Hc H. eapply Rtrans; [exact H|now apply (wh_cancel _ _ W)]. Qed.

  Lemma Rf_cancel_g a b g : R a b -> R a (scope_cancel b (g_scope (groups b g)) false).
  Proof. intros H. eapply Rtrans; [exact H|apply (wh_cancel_g _ _ W)]. Qed.

  Lemma Rf_cancel_h a b h : R a b -> R a (scope_cancel b (k_hscope (tasks b h)) false).
  Proof. intros H. eapply Rtrans; [exact H|apply (wh_cancel_h _ _ W)]. Qed.

  Lemma Rp_exit a b c t exc s1 x : scope_exit b c t exc = (s1, x) -> R a b -> R a s1.
  Proof.
    intros E H. eapply Rtrans; [exact H|]. replace s1 with (fst (scope_exit b c t exc)) by now rewrite E.
    apply (wh_exit _ _ W).
  Qed.

  Lemma Rp_new_scope a b d sh s1 c : new_scope b d sh = (s1, c) -> R a b -> R a s1.
  Proof.
    intros E H. eapply Rtrans; [exact H|]. replace s1 with (fst (new_scope b d sh)) by now rewrite E.
    apply (wh_new_scope _ _ W).
  Qed.

  (* new_scope immediately followed by scope_enter of the fresh scope *)
  Lemma Rp_new_enter a b d sh t s1 c :
    ok_new K d -> new_scope b d sh = (s1, c) -> R a b -> R a (fst (scope_enter s1 c t)).
  Proof.
    intros Hd E H. eapply Rtrans; [exact H|]. injection E as <- <-.
    apply (wh_new_enter _ _ W b d sh t Hd).
  Qed.

  Let OkN := wh_ok_none _ _ W.

  Lemma Rp_new_fut a b s1 f : new_fut b = (s1, f) -> R a b -> R a s1.
  Proof.
    intros E H. eapply Rf; [exact H|]. replace s1 with (fst (new_fut b)) by now rewrite E. apply frame_new_fut.
  Qed.

  Lemma Rp_spawn a b g sf s1 c : spawn_task b g sf = (s1, c) -> R a b -> R a s1.
  Proof.
    intros E H. eapply Rtrans; [exact H|]. replace s1 with (fst (spawn_task b g sf)) by now rewrite E.
    apply (wh_spawn _ _ W).
  Qed.

  Lemma Rp_event_wait a b t e s1 f : event_wait b t e = (s1, f) -> R a b -> R a s1.
  Proof.
    intros E H. eapply Rf; [exact H|]. replace s1 with (fst (event_wait b t e)) by now rewrite E.
    apply frame_event_wait.
  Qed.

  Ltac dpair s1 x E :=
    match goal with
    | |- context [let '(_, _) := ?X in _] => destruct X as [s1 x] eqn:E
    end.

  Lemma R_aexit_raise a s t g e : R a s -> R a (fst (aexit_raise s t g e)).
  Proof.
    intros H. unfold aexit_raise. dpair s1 x E. pose proof (Rp_exit _ _ _ _ _ _ _ E H) as H1.
    assert (H2 : R a (upd_group s1 g (gr_left true))) by (apply Rf_upd_group; auto).
    destruct x; cbn [fst]; auto. apply Rf_upd_task; [tkok|exact H2].
  Qed.

  Lemma R_aexit_finish a s t g exc : R a s -> R a (fst (aexit_finish s t g exc)).
  Proof.
    intros H. unfold aexit_finish. destruct (map snd (g_excs (groups s g))) as [|y l].
    - destruct exc as [e|]; [now apply R_aexit_raise|].
      dpair s1 x E. pose proof (Rp_exit _ _ _ _ _ _ _ E H) as H1.
      assert (H2 : R a (upd_group s1 g (gr_left true))) by (apply Rf_upd_group; auto).
      destruct x; cbn [fst]; exact H2.
    - now apply R_aexit_raise.
  Qed.

  Lemma R_aexit_raise_ret a s t g e :
    R a s -> R a (fst (let '(s2, r) := aexit_raise s t g e in ret_to_puppet s2 t r)).
  Proof.
    intros H. pose proof (R_aexit_raise a s t g e H) as H1.
    destruct (aexit_raise s t g e) as [s2 r]. cbn [fst] in H1. now apply Rf_ret.
  Qed.

  Lemma R_aexit_finish_ret a s t g exc :
    R a s -> R a (fst (let '(s2, r) := aexit_finish s t g exc in ret_to_puppet s2 t r)).
  Proof.
    intros H. pose proof (R_aexit_finish a s t g exc H) as H1.
    destruct (aexit_finish s t g exc) as [s2 r]. cbn [fst] in H1. now apply Rf_ret.
  Qed.

  Lemma R_aexit_wait a s t g ws exc : R a s -> R a (fst (aexit_wait_or_finish s t g ws exc)).
  Proof.
    intros H. unfold aexit_wait_or_finish. destruct (g_tasks (groups s g)) as [|y l].
    - destruct ws as [w|]; [|now apply R_aexit_finish_ret].
      dpair s1 x E. pose proof (Rp_exit _ _ _ _ _ _ _ E H) as H1.
      destruct x; [now apply R_aexit_finish_ret|now apply R_aexit_finish_ret|now apply R_aexit_raise_ret].
    - assert (H0 : R a (fst (match ws with
                             | Some w => (s, w)
                             | None => let '(a0, w) := new_scope s None false in (fst (scope_enter a0 w t), w)
                             end))).
      { destruct ws as [w|]; [exact H|]. destruct (new_scope s None false) as [a0 w] eqn:E. cbn [fst].
        eapply Rp_new_enter; eauto. }
      destruct (match ws with
                | Some w => (s, w)
                | None => let '(a0, w) := new_scope s None false in (fst (scope_enter a0 w t), w)
                end) as [s0 w]. cbn [fst] in H0.
      dpair s1 f E. pose proof (Rp_new_fut _ _ _ _ E H0) as H1.
      apply Rf_blocked, Rf_set_ctl; [exact I|]. apply Rf_suspend, Rf_upd_group; auto.
  Qed.

  Lemma R_puppet_op s0 t o :
    match o with
    | AEnter _ c => ok_enter K (begin_act s0 t) c
    | ASetDeadline _ c d => ok_setdl K (begin_act s0 t) c d
    | AFailAt _ d _ => ok_new K d
    | AGroupEnter _ g => ok_genter K (upd_group (begin_act s0 t) g (gr_entered true)) g
    | ACancel _ c => ok_cancel K (begin_act s0 t) c
    | _ => True
    end -> R s0 (fst (puppet_op s0 t o)).
  Proof.
    intros OK. assert (B : R s0 (begin_act s0 t)) by (apply Rframe, frame_begin_act).
    unfold puppet_op. set (s := begin_act s0 t) in *. destruct o; try (cbn [fst]; apply Rrefl).
    - (* ANewScope *) dpair s1 c E. apply Rf_ret. eapply Rp_new_scope; eauto.
    - (* AEnter *) dpair s1 e E. apply Rf_ret. eapply Rtrans; [exact B|].
      replace s1 with (fst (scope_enter s c t)) by now rewrite E. now apply (wh_enter _ _ W).
    - (* AExit *) dpair s1 x E. pose proof (Rp_exit _ _ _ _ _ _ _ E B) as H1.
      destruct x; try (now apply Rf_ret).
      assert (H2 : R s0 (upd_task s1 t (tk_held None))) by (apply Rf_upd_task; [tkok|exact H1]).
      destruct (_ && _); now apply Rf_ret.
    - (* ACancel *) apply Rf_ret, Rf_cancel; [exact OK|exact B].
    - (* ASetShield *) destruct (Bool.eqb _ _); [now apply Rf_ret|]. apply Rf_ret.
      assert (H1 : R s0 (upd_scope s c (sc_shield b))).
      { eapply Rf; [exact B|]. apply frame_upd_scope. intros k; constructor; reflexivity. }
      destruct b; [exact H1|]. eapply Rf; [exact H1|apply frame_restart].
    - (* ASetDeadline *) change (R s0 (fst (ret_to_puppet (set_deadline_body s c d) t (RRet 0)))).
      apply Rf_ret. eapply Rtrans; [exact B|]. now apply (wh_setdl _ _ W).
    - (* AGroupNew *) dpair s1 c E. apply Rf_ret.
      change (R s0 (add_group s1 c)). injection E as <- <-. apply Rtrans with s; [exact B|].
      change (R s (add_group (fst (new_scope s None false)) (nscope s))). apply (wh_group_new _ _ W).
    - (* AGroupEnter *) destruct (g_entered (groups s g)); [now apply Rf_ret|].
      dpair s2 e E. apply Rf_ret.
      assert (H1 : R s0 (upd_group s g (gr_entered true))) by (apply Rf_upd_group; auto).
      eapply Rtrans; [exact H1|].
      replace s2 with (fst (scope_enter (upd_group s g (gr_entered true))
                                        (g_scope (groups (upd_group s g (gr_entered true)) g)) t)) by now rewrite E.
      apply (wh_enter_g _ _ W). exact OK.
    - (* AGroupExit *)
      assert (H1 : R s0 (match k_held (tasks s t) with
                         | Some e => if is_cancel e then scope_cancel s (g_scope (groups s g)) false
                                     else upd_group (scope_cancel s (g_scope (groups s g)) false) g
                                            (fun x => gr_excs (g_excs x ++ [(0, e)]) x)
                         | None => s
                         end)).
      { destruct (k_held (tasks s t)) as [e|]; [|exact B]. destruct (is_cancel e); [now apply Rf_cancel_g|].
        apply Rf_upd_group; auto. now apply Rf_cancel_g. }
      set (s1 := match k_held (tasks s t) with Some e => _ | None => s end) in *.
      destruct (g_tasks (groups s1 g)); [|now apply R_aexit_wait].
      dpair s2 c E. apply Rf_blocked, Rf_set_ctl; [exact I|]. apply Rf_bare_yield. eapply Rp_new_enter; eauto.
    - (* ASpawn *) destruct (negb _); [now apply Rf_ret|]. dpair s1 c E. apply Rf_ret. eapply Rp_spawn; eauto.
    - (* AStart *) destruct (negb _); [now apply Rf_ret|]. dpair s1 f E. dpair s2 c E2.
      apply Rf_blocked, Rf_set_ctl; [exact I|]. apply Rf_suspend. eapply Rp_spawn; eauto. eapply Rp_new_fut; eauto.
    - (* AStarted *) destruct (k_startfut (tasks s t)) as [f|]; [|now apply Rf_ret].
      destruct (f_st (futs s f)); try (now apply Rf_ret). apply Rf_ret. eapply Rf; [exact B|apply frame_fut_complete].
    - (* AHandleCancel *) destruct (e_set _); [now apply Rf_ret|]. apply Rf_ret, Rf_cancel_h, B.
    - (* AHandleWait *) dpair s1 f E. apply Rf_blocked, Rf_set_ctl; [exact I|]. eapply Rp_event_wait; eauto.
    - (* AYield *) apply Rf_blocked, Rf_set_ctl; [exact I|]. now apply Rf_bare_yield.
    - (* ACkIf *) destruct (ckif_spins _ _ _); [|now apply Rf_ret].
      apply Rf_blocked, Rf_set_ctl; [exact I|]. now apply Rf_bare_yield.
    - (* AShieldCk *) dpair s1 c E. apply Rf_blocked, Rf_set_ctl; [exact I|]. apply Rf_bare_yield.
      eapply Rp_new_enter; eauto.
    - (* ASleep *) dpair s1 f E. pose proof (Rp_new_fut _ _ _ _ E B) as H1. destruct d as [dt|].
      + dpair s2 tm E2. apply Rf_blocked. injection E2 as <- <-. eapply Rtrans; [exact H1|].
        apply (wh_sleep _ _ W).
      + apply Rf_blocked. eapply Rtrans; [apply Rf_suspend; exact H1|]. apply (wh_sleep0 _ _ W).
    - (* AHold *) apply Rf_ret, Rf_upd_task; [tkok|exact B].
    - (* ADrop *) apply Rf_ret, Rf_upd_task; [tkok|exact B].
    - (* AWrap *) apply Rf_ret, Rf_upd_task; [tkok|exact B].
    - (* AUncancel *) apply Rf_ret. eapply Rf; [exact B|apply frame_task_uncancel].
    - (* AEffDeadline *) cbn [fst]. eapply Rf; [|apply frame_set_running]. eapply Rf; [exact B|apply frame_park].
    - (* AFailAt *) dpair s1 c E. dpair s2 e E2. apply Rf_ret.
      replace s2 with (fst (scope_enter s1 c t)) by now rewrite E2. eapply Rp_new_enter; eauto.
  Qed.

  Lemma Rf_finish_task a b t o : R a b -> R a (finish_task b t o).
  Proof. intros H. eapply Rf; [exact H|apply frame_finish_task]. Qed.

  Lemma R_puppet_finish s0 t v : R s0 (fst (puppet_finish s0 t v)).
  Proof.
    assert (B : R s0 (begin_act s0 t)) by (apply Rframe, frame_begin_act).
    unfold puppet_finish. set (s := begin_act s0 t) in *. cbv zeta.
    assert (H1 : forall raw, R s0 (upd_task s t (tk_final (Some raw)))) by (intros; apply Rf_upd_task; [tkok|exact B]).
    destruct (k_group (tasks s t)); [|cbn [fst]; now apply Rf_finish_task].
    dpair s4 x E.
    assert (H4 : R s0 s4).
    { eapply Rp_exit; [exact E|]. eapply Rf; [|apply frame_event_set]. apply Rf_upd_task; [|apply H1].
      destruct (k_held (tasks s t)); tkok. }
    destruct x; cbn [fst]; now apply Rf_finish_task.
  Qed.

  Lemma R_resume s0 t fo :
    ok_henter K (upd_task (fst (incoming s0 t fo)) t (tk_started true)) t -> R s0 (fst (resume s0 t fo)).
  Proof.
    intros Hh. unfold resume. pose proof (frame_incoming s0 t fo) as F. destruct (incoming s0 t fo) as [s inc].
    cbn [fst] in F, Hh.
    assert (B : R s0 s) by (apply Rframe, F).
    destruct (k_ctl (tasks s t)) as [| |k|f tm|g ws exc|g c exc|g child f|child c e wf|h wf|] eqn:Ectl.
    - (* CNew *)
      assert (H1 : R s0 (upd_task s t (tk_started true))) by (apply Rf_upd_task; [tkok|exact B]).
      destruct inc as [e|]; cbn [fst]; [now apply Rf_finish_task|].
      eapply Rf; [|apply frame_set_running]. eapply Rf; [|apply frame_park].
      destruct (k_group (tasks (upd_task s t (tk_started true)) t)); [|exact H1].
      eapply Rtrans; [exact H1|apply (wh_enter_h _ _ W); exact Hh].
    - (* CIdle *) cbn [fst]. eapply Rf; [|apply frame_set_running]. eapply Rf; [|apply frame_park].
      destruct inc; [apply Rf_upd_task; [tkok|exact B]|exact B].
    - (* CYield *) destruct k as [| |c].
      + now apply Rf_ret.
      + destruct inc; [now apply Rf_ret|]. destruct (ckif_spins _ _ _); [|now apply Rf_ret].
        apply Rf_blocked. now apply Rf_bare_yield.
      + dpair s1 x E. pose proof (Rp_exit _ _ _ _ _ _ _ E B) as H1. destruct x; now apply Rf_ret.
    - (* CSleep *) apply Rf_ret. eapply Rtrans; [exact B|]. eapply (wh_sleep_wake _ _ W); eauto.
    - (* CAexitWait *)
      assert (H1 : R s0 (upd_group s g (gr_fut None))) by (apply Rf_upd_group; auto).
      destruct inc as [e|]; [|now apply R_aexit_wait].
      apply R_aexit_wait. apply Rf_cancel_g. eapply Rf; [exact H1|].
      apply frame_upd_scope. intros k; constructor; reflexivity.
    - (* CAexitCk *)
      dpair s1 x E. pose proof (Rp_exit _ _ _ _ _ _ _ E B) as H1.
      destruct x as [| |e'].
      + destruct inc; now apply R_aexit_wait.
      + destruct inc as [e|]; [|now apply R_aexit_wait].
        destruct (is_cancel e); [|now apply R_aexit_raise_ret].
        apply R_aexit_wait. now apply Rf_cancel_g.
      + destruct inc; now apply R_aexit_raise_ret.
    - (* CStartWait *)
      destruct inc as [e|]; [|now apply Rf_ret].
      destruct (handle_pending s child); [|destruct (f_st (futs s _)); now apply Rf_ret].
      dpair s2 c E. dpair s4 wf E4. apply Rf_blocked, Rf_set_ctl; [exact I|].
      eapply Rp_event_wait; [exact E4|]. eapply Rp_new_enter; [exact OkN|exact E|]. now apply Rf_cancel_h.
    - (* CStartJoin *)
      dpair s2 x E.
      assert (H2 : R s0 s2).
      { eapply Rp_exit; [exact E|]. eapply Rf; [exact B|apply frame_event_unwait]. }
      destruct x; [now apply Rf_ret| |now apply Rf_ret]. destruct inc; now apply Rf_ret.
    - (* CHandleWait *) apply Rf_ret. eapply Rf; [exact B|apply frame_event_unwait].
    - (* CDone *) cbn [fst]. apply Rrefl.
  Qed.

  Lemma R_run_task_done s0 t : R s0 (run_task_done s0 t).
  Proof.
    rewrite run_task_done_eq. assert (B : R s0 (set_running s0 None)) by (apply Rframe, frame_set_running).
    destruct (k_group (tasks s0 t)) as [g|]; [|exact B].
    eapply Rtrans; [|apply (td_tail_closed R g t Rrefl Rtrans);
                      [intros; apply Rframe, frame_fut_complete|intros; apply Rframe, frame_upd_group; reflexivity
                      |intros a; apply (wh_cancel_g _ _ W)]].
    unfold done_struct. cbv zeta. apply Rf_upd_task; [tkok|]. apply Rf_upd_group; [auto|].
    destruct (k_cur _); [|exact B]. eapply Rf; [exact B|]. apply frame_upd_scope. intros k; constructor; reflexivity.
  Qed.

  Definition run_ok (s0 : st) (h : handle) : Prop :=
    match h with
    | HStep t => ok_henter K (upd_task (fst (incoming (dequeue s0 h) t None)) t (tk_started true)) t
    | HWake t f => ok_henter K (upd_task (fst (incoming (dequeue s0 h) t (Some f))) t (tk_started true)) t
    | HTimeout c tm => ok_trun K s0 c tm
    | _ => True
    end.

  Lemma R_run_handle s0 h : run_ok s0 h -> R s0 (fst (run_handle s0 h)).
  Proof.
    intros OK. unfold run_handle. destruct (negb (existsb (handle_eqb h) (ready s0))) eqn:Ein; [cbn [fst]; apply Rrefl|].
    cbv zeta. fold (dequeue s0 h).
    assert (P : forall h, is_th h = false -> R s0 (dequeue s0 h)) by (intros h' Hh; apply Rframe, frame_pop, Hh).
    destruct h as [t|t f|c|t|f tm|c tm].
    - apply Rtrans with (dequeue s0 (HStep t)); [now apply P|apply R_resume; exact OK].
    - apply Rtrans with (dequeue s0 (HWake t f)); [now apply P|apply R_resume; exact OK].
    - cbn [fst]. eapply Rf; [|apply frame_set_running]. eapply Rf; [|apply frame_deliver_top].
      eapply Rf; [|apply frame_set_running]. now apply P.
    - cbn [fst]. apply Rtrans with (dequeue s0 (HTaskDone t)); [now apply P|apply R_run_task_done].
    - cbn [fst]. eapply Rf; [|apply frame_fut_complete]. apply (wh_pop_sleepdone _ _ W).
    - cbn [fst]. eapply Rf; [|apply frame_set_running]. apply (wh_timeout_run _ _ W); [exact OK|].
      apply negb_false_iff, existsb_exists in Ein. destruct Ein as (x & Hx & E).
      destruct x; cbn in E; try discriminate. apply andb_true_iff in E. destruct E as [E1 E2].
      apply Nat.eqb_eq in E1, E2. now subst.
  Qed.

  Lemma R_new_root s : R s (fst (new_root s)).
  Proof.
    unfold new_root. cbv zeta. cbn [fst]. eapply Rf; [|apply frame_set_running]. eapply Rf; [|apply frame_park].
    apply (wh_add_root _ _ W).
  Qed.

  Definition op_ok (s : st) (o : op) : Prop :=
    match o with
    | AEnter t c => ok_enter K (begin_act s t) c
    | ASetDeadline t c d => ok_setdl K (begin_act s t) c d
    | AFailAt t d _ => ok_new K d
    | AGroupEnter t g => ok_genter K (upd_group (begin_act s t) g (gr_entered true)) g
    | ACancel t c => ok_cancel K (begin_act s t) c
    | AExtCancel c => ok_cancel K (set_running s None) c
    | ARun h => run_ok s h
    | ATick dt => ok_tick K s dt
    | _ => True
    end.

  Theorem walk_step s o : op_ok s o -> R s (fst (step s o)).
  Proof.
    intros OK. unfold step. destruct (actor o) as [t|] eqn:Ea.
    - destruct (negb (idle s t)); [cbn [fst]; apply Rrefl|].
      destruct o; try discriminate Ea; cbn [actor] in Ea; injection Ea as ->;
        try (apply R_puppet_op; exact OK || exact I).
      apply R_puppet_finish.
    - destruct o; try discriminate Ea; try (cbn [fst]; apply Rrefl).
      + apply R_new_root.
      + cbn [fst]. apply Rframe, frame_task_cancel.
      + cbn [fst]. eapply Rf; [|apply frame_set_running]. apply Rf_cancel; [exact OK|]. apply Rframe, frame_set_running.
      + apply R_run_handle. exact OK.
      + destruct (Z.ltb dt 0) eqn:E; cbn [fst]; [apply Rrefl|]. apply (wh_tick _ _ W); [now apply Z.ltb_ge|exact OK].
  Qed.
End Walk.

(* spawning a child: its handle scope, its task record and event, then frame moves *)
Lemma spawn_closed (R : st -> st -> Prop) :
  (forall a b d, R a b -> R b d -> R a d) -> (forall a b, frame a b -> R a b) ->
  (forall s g sf, R s (add_child (fst (new_scope s None false)) (nscope s) g sf)) ->
  forall s g sf, R s (fst (spawn_task s g sf)).
Proof.
  intros Rt Rfr Rc s g sf. unfold spawn_task. cbv zeta.
  change (new_scope s None false) with (fst (new_scope s None false), snd (new_scope s None false)). cbv iota.
  cbn [fst]. eapply Rt; [apply Rc|]. apply Rfr.
  eapply frame_trans; [|now apply frame_call_soon]. eapply frame_trans; [|apply frame_restart].
  eapply frame_trans; [|apply frame_upd_group; reflexivity]. apply frame_upd_scope; intros k; constructor; reflexivity.
Qed.

(* The transformers among the leaves of walk_hyps are made of frame moves and of single updates of what `frame`
   fixes.  A preorder that holds of each such update holds of the transformers.  What an instance may refuse: *)
Record prim_side : Type := mk_prim_side {
  ps_dl : Prop;                    (* a scope whose deadline is due is cancelled by it *)
  ps_setdl : Prop;                 (* a deadline is assigned *)
  ps_tick : Prop;                  (* the clock advances *)
  ps_cancel : st -> sid -> Prop    (* cancel() is called on the scope *)
}.

Record prim_hyps (R : st -> st -> Prop) (P : prim_side) : Prop := mk_prim_hyps {
  ph_refl : forall s, R s s;
  ph_trans : forall a b c, R a b -> R b c -> R a c;
  ph_frame : forall a b, frame a b -> R a b;
  ph_timer_cancel : forall s tm, R s (timer_cancel s tm);
  ph_call_at_sleep : forall s w f, R s (fst (call_at s w (TSleep f)));
  ph_call_at_scope : forall s w c, (now s < w)%Z -> R s (fst (call_at s w (TScope c)));
  ph_sc_timeout : forall s c o, R s (upd_scope s c (sc_timeout o));
  ph_sc_active : forall s c b, R s (upd_scope s c (sc_active b));
  ph_sc_deadline : forall s c d, ps_setdl P -> R s (upd_scope s c (sc_deadline d));
  ph_sc_caught : forall s c, s_cancelled (scopes s c) = true -> R s (upd_scope s c (sc_caught true));
  (* the mark lands on a state s reached from a, the state in which cancel() was called *)
  ph_mark : forall a s c (b : bool), R a s -> s_cancelled (scopes s c) = false ->
            (if b then due s c /\ ps_dl P else ps_cancel P a c) -> R a (upd_scope s c (mark b));
  ph_cancel_g : forall s g, ps_cancel P s (g_scope (groups s g));
  ph_cancel_h : forall s t, ps_cancel P s (k_hscope (tasks s t));
  ph_new_scope : forall s d sh, R s (fst (new_scope s d sh));
  ph_add_group : forall s, R s (add_group (fst (new_scope s None false)) (nscope s));
  ph_add_child : forall s g sf, R s (add_child (fst (new_scope s None false)) (nscope s) g sf);
  ph_add_root : forall s, R s (add_root s);
  ph_sleep_ctl : forall s t f tm, R s (set_ctl s t (CSleep f tm));
  ph_pop : forall s h, R s (dequeue s h);
  ph_tick : forall s dt, (0 <= dt)%Z -> ps_tick P -> R s (tick s dt)
}.

(* the side conditions on ops that result: _timeout must not find a due deadline where ps_dl is refused *)
Definition prim_oks (P : prim_side) : oks :=
  mk_oks (fun s c => due s c -> ps_dl P)
         (fun _ _ d => ps_setdl P /\ (d <> None -> ps_dl P))
         (fun _ _ => ps_tick P)
         (fun d => d <> None -> ps_dl P)
         (fun s g => due s (g_scope (groups s g)) -> ps_dl P)
         (fun s t => due s (k_hscope (tasks s t)) -> ps_dl P)
         (fun _ _ _ => ps_dl P)
         (ps_cancel P).

Section Prims.
  Context {R : st -> st -> Prop} {P : prim_side} (H : prim_hyps R P).

  Let Rrefl := ph_refl _ _ H.
  Let Rtrans := ph_trans _ _ H.

  Let Pf a b c (Hab : R a b) (F : frame b c) : R a c := Rtrans _ _ _ Hab (ph_frame _ _ H _ _ F).

  Lemma R_cancel_timeout a s c : R a s -> R a (cancel_timeout s c).
  Proof.
    intros Ha. unfold cancel_timeout. destruct (s_timeout (scopes s c)) as [tm|]; [|exact Ha].
    eapply Rtrans; [|apply (ph_sc_timeout _ _ H)]. eapply Rtrans; [exact Ha|apply (ph_timer_cancel _ _ H)].
  Qed.

  Lemma R_scope_cancel a s c (b : bool) :
    R a s -> (if b then due s c /\ ps_dl P else ps_cancel P a c) -> R a (scope_cancel s c b).
  Proof.
    intros Ha Hb. unfold scope_cancel. destruct (s_cancelled (scopes s c)) eqn:Ec; [exact Ha|].
    pose proof (xframe_cancel_timeout s c) as X. destruct (xf_scopes _ _ X c) as [Xc _ _ _ Xd _].
    assert (H2 : R a (upd_scope (cancel_timeout s c) c (mark b))).
    { apply (ph_mark _ _ H); [now apply R_cancel_timeout|now rewrite Xc|]. destruct b; [|exact Hb].
      split; [|apply Hb]. apply (due_ext _ _ c (xf_now _ _ X) Xd), Hb. }
    destruct (s_host _); [|exact H2]. eapply Pf; [exact H2|apply frame_deliver_top].
  Qed.

  Lemma R_scope_timeout a s c : R a s -> (due s c -> ps_dl P) -> R a (scope_timeout s c).
  Proof.
    intros Ha Hd. unfold scope_timeout. destruct (s_deadline (scopes s c)) as [d|] eqn:Ed; [|exact Ha].
    destruct (Z.leb d (now s)) eqn:El.
    - assert (D : due s c) by (exists d; split; [exact Ed|now apply Z.leb_le]).
      apply R_scope_cancel; [exact Ha|exact (conj D (Hd D))].
    - cbn [call_at]. eapply Rtrans; [|apply (ph_sc_timeout _ _ H)]. eapply Rtrans; [exact Ha|].
      apply (ph_call_at_scope _ _ H s d c). now apply Z.leb_gt.
  Qed.

  Lemma R_scope_enter s c t : (due s c -> ps_dl P) -> R s (fst (scope_enter s c t)).
  Proof.
    intros Hd. rewrite scope_enter_eq. destruct (s_active (scopes s c)); [apply Rrefl|]. cbv zeta. cbn [fst].
    pose proof (frame_enter_links s c t) as F3.
    assert (H5 : R s (upd_scope (scope_timeout (enter_links s c t) c) c (sc_active true))).
    { eapply Rtrans; [|apply (ph_sc_active _ _ H)]. apply R_scope_timeout; [apply (ph_frame _ _ H), F3|].
      intros D. apply Hd, (due_ext _ _ c (fr_now _ _ F3) (tc_deadline _ _ (fr_scopes _ _ F3 c))), D. }
    destruct (s_cancelled _); [|exact H5]. eapply Pf; [exact H5|apply frame_deliver_top].
  Qed.

  Lemma R_new_enter s d sh t :
    (d <> None -> ps_dl P) -> R s (fst (scope_enter (fst (new_scope s d sh)) (nscope s) t)).
  Proof.
    intros Hd. eapply Rtrans; [apply (ph_new_scope _ _ H)|]. apply R_scope_enter. intros (z & Ez & _). apply Hd.
    cbn [new_scope fst scopes] in Ez. rewrite upd_same in Ez. cbn in Ez. congruence.
  Qed.

  Lemma R_scope_exit s c t exc : R s (fst (scope_exit s c t exc)).
  Proof.
    destruct (exit_guards s c t) eqn:G; [|rewrite (scope_exit_guards_fail s c t exc G); apply Rrefl].
    eapply Rtrans; [|apply (exit_tail_closed R s c t exc Rtrans (ph_frame _ _ H)); [intros a; apply (ph_sc_caught _ _ H)|exact G]].
    apply R_cancel_timeout, (ph_sc_active _ _ H).
  Qed.

  Lemma R_set_deadline s c d : ps_setdl P -> (d <> None -> ps_dl P) -> R s (set_deadline_body s c d).
  Proof.
    intros Hs Hd. unfold set_deadline_body. cbv zeta.
    assert (H1 : R s (cancel_timeout (upd_scope s c (sc_deadline d)) c))
      by (apply R_cancel_timeout, (ph_sc_deadline _ _ H), Hs).
    destruct (_ && _); [|exact H1]. apply R_scope_timeout; [exact H1|]. intros (z & Ez & _). apply Hd.
    rewrite (xc_deadline _ _ (xf_scopes _ _ (xframe_cancel_timeout _ c) c)), scopes_upd_same in Ez. cbn in Ez. congruence.
  Qed.

  Lemma R_sleep s t f w : R s (set_ctl (suspend_on (fst (call_at s w (TSleep f))) t f) t (CSleep f (ntimer s))).
  Proof.
    eapply Rtrans; [|apply (ph_sleep_ctl _ _ H)]. eapply Pf; [apply (ph_call_at_sleep _ _ H)|apply frame_suspend_on].
  Qed.

  Lemma R_timeout_run s c tm : ps_dl P -> R s (scope_timeout (set_running (dequeue s (HTimeout c tm)) None) c).
  Proof.
    intros Hd. apply R_scope_timeout; [|auto]. eapply Pf; [apply (ph_pop _ _ H)|apply frame_set_running].
  Qed.

  Theorem prim_walk : walk_hyps R (prim_oks P).
  Proof.
    constructor; cbn [prim_oks ok_enter ok_setdl ok_tick ok_new ok_genter ok_henter ok_trun ok_cancel].
    - exact Rrefl.
    - exact Rtrans.
    - exact (ph_frame _ _ H).
    - intros Hn. now destruct Hn.
    - exact (ph_new_scope _ _ H).
    - intros s d sh t. apply R_new_enter.
    - intros s c t. apply R_scope_enter.
    - intros s g t. apply R_scope_enter.
    - intros s t. apply R_scope_enter.
    - exact R_scope_exit.
    - intros s c Hc. apply (R_scope_cancel s s c false (Rrefl s) Hc).
    - intros s g. apply (R_scope_cancel s s _ false (Rrefl s)), (ph_cancel_g _ _ H).
    - intros s t. apply (R_scope_cancel s s _ false (Rrefl s)), (ph_cancel_h _ _ H).
    - intros s c d [Hs Hd]. now apply R_set_deadline.
    - exact (ph_add_group _ _ H).
    - exact (spawn_closed R Rtrans (ph_frame _ _ H) (ph_add_child _ _ H)).
    - exact R_sleep.
    - intros s t f. apply (ph_sleep_ctl _ _ H).
    - intros s t f tm _. apply (ph_timer_cancel _ _ H).
    - intros s f tm. apply (ph_pop _ _ H).
    - intros s c tm Hd _. now apply R_timeout_run.
    - exact (ph_add_root _ _ H).
    - exact (ph_tick _ _ H).
  Qed.
End Prims.

Lemma prim_op_ok P s o :
  ps_dl P ->
  match o with
  | ASetDeadline _ _ _ => ps_setdl P
  | ATick _ => ps_tick P
  | ACancel t c => ps_cancel P (begin_act s t) c
  | AExtCancel c => ps_cancel P (set_running s None) c
  | _ => True
  end -> @op_ok (prim_oks P) s o.
Proof. intros Hd. destruct o; cbn; auto. destruct h; cbn; auto. Qed.

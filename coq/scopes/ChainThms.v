(* C04 (containment) clauses about the S machine:
   - what CancelScope.__exit__ returns and when it sets cancelled_caught  (absorb_iff, caught_iff_absorbed,
     non_cancel_passes_through), with the frame lemma saying in which state the two tests are evaluated;
   - which tasks one run of _deliver_cancellation can touch (cancel_only_if_effectively_cancelled,
     shielded_never_visited). *)
From AV Require Import Base Machine MachineFacts ChainFrame.
From AV Require GroupThmsPure.

(* the three RuntimeError guards of __exit__ *)
Definition exit_guards (s : st) (c : sid) (t : tid) : bool :=
  s_active (scopes s c) && opt_eqb (s_host (scopes s c)) t && opt_eqb (k_cur (tasks s t)) c.

(* state after the bookkeeping of lines 478-488: inactive, timer cancelled, task handed back to the parent *)
Definition exit_unlinked (s : st) (c : sid) (t : tid) : st :=
  let s1 := cancel_timeout (upd_scope s c (sc_active false)) c in
  let s2 := upd_scope s1 c (fun x => sc_tasks (del t (s_tasks x)) x) in
  let par := s_parent (scopes s c) in
  let s3 := match par with
            | Some p => upd_scope s2 p (fun x => sc_tasks (add t (s_tasks x)) (sc_children (del c (s_children x)) x))
            | None => s2
            end in
  upd_task s3 t (tk_cur par).

(* ... and after _restart_cancellation_in_parent (line 492): THE state in which `_cancel_called` and
   `_parent_cancellation_is_visible_to_us` are evaluated by line 497 *)
Definition exit_mid (s : st) (c : sid) (t : tid) : st :=
  restart (exit_unlinked s c t) (s_parent (scopes s c)).

Lemma exit_guards_iff s c t :
  exit_guards s c t = true <->
  s_active (scopes s c) = true /\ s_host (scopes s c) = Some t /\ k_cur (tasks s t) = Some c.
Proof. unfold exit_guards. rewrite !andb_true_iff, !opt_eqb_Some. tauto. Qed.

Lemma scope_exit_guards_fail s c t exc :
  exit_guards s c t = false -> scope_exit s c t exc = (s, XRaise ERuntime).
Proof. intros G. apply scope_exit_fail. rewrite <- exit_guards_iff, G. discriminate. Qed.

(* past its guards __exit__ settles the pending uncancellations of c in exit_mid (lines 497-553), then drops its host *)
Lemma exit_shape s c t exc :
  exit_guards s c t = true ->
  exists s6 x, xsettle c t (s_parent (scopes s c)) (exit_mid s c t) s6 x /\
               scope_exit s c t exc = (upd_scope s6 c (sc_host None), x).
Proof. intros G. exact (scope_exit_shape s c t exc (proj1 (exit_guards_iff s c t) G)). Qed.

(* what __exit__ decides once it has established that the scope absorbs *)
Definition absorb_res (exc : option exn) : exit_res :=
  match exc with
  | Some (EGroup l) =>
      match split_exn (EGroup l) with
      | (None, _) => XFalse
      | (Some _, None) => XTrue
      | (Some _, Some r) => XRaise r
      end
  | Some e => if is_anyio_cancel e then XTrue else XFalse
  | None => XFalse
  end.

Definition absorbed (r : exit_res) : bool := match r with XFalse => false | _ => true end.

(* the frame: the fields the two tests read are not touched by the bookkeeping *)
Record xcore_eq (a b : scope) : Prop := mk_xcore_eq {
  xc_cancelled : s_cancelled a = s_cancelled b;
  xc_shield : s_shield a = s_shield b;
  xc_parent : s_parent a = s_parent b;
  xc_caught : s_caught a = s_caught b;
  xc_deadline : s_deadline a = s_deadline b;
  xc_bydeadline : s_bydeadline a = s_bydeadline b
}.

Record xframe (s s' : st) : Prop := mk_xframe {
  xf_now : now s' = now s;
  xf_nscope : nscope s' = nscope s;
  xf_scopes : forall x, xcore_eq (scopes s' x) (scopes s x)
}.

Lemma xcore_eq_refl a : xcore_eq a a.
Proof. constructor; reflexivity. Qed.

Lemma xframe_refl s : xframe s s.
Proof. constructor; try reflexivity. intros x; apply xcore_eq_refl. Qed.

Lemma xframe_trans a b c : xframe a b -> xframe b c -> xframe a c.
Proof.
  intros [n1 m1 H1] [n2 m2 H2]. constructor; try congruence.
  intros x. destruct (H1 x), (H2 x). constructor; congruence.
Qed.

Lemma dframe_xframe s s' : dframe s s' -> xframe s s'.
Proof.
  intros H. constructor; [apply (df_now _ _ H)|apply (df_nscope _ _ H)|].
  intros x. destruct (df_scopes _ _ H x). constructor; assumption.
Qed.

Lemma xframe_upd_scope s x g : (forall c, xcore_eq (g c) c) -> xframe s (upd_scope s x g).
Proof.
  intros Hg. constructor; try reflexivity. intros y. cbn [upd_scope set_scopes scopes].
  rewrite upd_eq. destruct (Nat.eqb y x) eqn:E; [|apply xcore_eq_refl].
  apply Nat.eqb_eq in E. subst y. apply Hg.
Qed.

Lemma xframe_upd_task s t g : xframe s (upd_task s t g).
Proof. constructor; try reflexivity. intros y; apply xcore_eq_refl. Qed.

Lemma xframe_timer_cancel s tm : xframe s (timer_cancel s tm).
Proof. constructor; try reflexivity. intros y; apply xcore_eq_refl. Qed.

Lemma xframe_cancel_timeout s c : xframe s (cancel_timeout s c).
Proof.
  unfold cancel_timeout. destruct (s_timeout (scopes s c)); [|apply xframe_refl].
  eapply xframe_trans; [apply xframe_timer_cancel|]. apply xframe_upd_scope. intros x. constructor; reflexivity.
Qed.

Lemma exit_unlinked_xframe s c t : xframe s (exit_unlinked s c t).
Proof.
  unfold exit_unlinked. cbv zeta.
  eapply xframe_trans; [|apply xframe_upd_task].
  assert (H2 : xframe s (upd_scope (cancel_timeout (upd_scope s c (sc_active false)) c) c
                                   (fun x => sc_tasks (del t (s_tasks x)) x))).
  { eapply xframe_trans; [|apply xframe_upd_scope; intros x; constructor; reflexivity].
    eapply xframe_trans; [|apply xframe_cancel_timeout].
    apply xframe_upd_scope. intros x; constructor; reflexivity. }
  destruct (s_parent (scopes s c)); [|exact H2].
  eapply xframe_trans; [exact H2|]. apply xframe_upd_scope. intros x; constructor; reflexivity.
Qed.

Lemma exit_mid_xframe s c t : xframe s (exit_mid s c t).
Proof.
  unfold exit_mid. eapply xframe_trans; [apply exit_unlinked_xframe|].
  apply dframe_xframe, restart_dframe.
Qed.

Lemma xframe_chain_fields s s' : xframe s s' ->
  forall c, s_cancelled (scopes s' c) = s_cancelled (scopes s c) /\
            s_shield (scopes s' c) = s_shield (scopes s c) /\
            s_parent (scopes s' c) = s_parent (scopes s c).
Proof. intros H c. destruct (xf_scopes _ _ H c). auto. Qed.

(* evaluating the two tests before the bookkeeping of __exit__ (in the state the
   caller sees) or where the code evaluates them (exit_mid: after unlinking and after the cancellation restart,
   which may change only _cancel_handle / _pending_uncancellations / the ready queue / task cancel flags)
   gives the same answers *)
Theorem exit_tests_frame s c t :
  s_cancelled (scopes (exit_mid s c t) c) = s_cancelled (scopes s c) /\
  parent_visible (exit_mid s c t) c = parent_visible s c /\
  (forall x, eff_cancelled (exit_mid s c t) x = eff_cancelled s x).
Proof.
  pose proof (exit_mid_xframe s c t) as H. refine (conj _ (conj _ _)).
  - apply (xc_cancelled _ _ (xf_scopes _ _ H c)).
  - apply parent_visible_ext; [apply (xf_nscope _ _ H)|apply xframe_chain_fields, H].
  - intros x. unfold eff_cancelled. rewrite (xf_nscope _ _ H).
    apply eff_cancelled_from_ext, xframe_chain_fields, H.
Qed.

(* what xsettle does is a delivery-frame move, then cancelled_caught iff the result is not False, which happens
   only on a cancel_called scope *)
Lemma xsettle_cases c t up s5 s6 r :
  xsettle c t up s5 s6 r ->
  exists a, dframe s5 a /\ s6 = (if absorbed r then upd_scope a c (sc_caught true) else a) /\
            (absorbed r = true -> s_cancelled (scopes s5 c) = true).
Proof.
  assert (P0 : forall a y g, (forall k, exists n, g k = sc_pending n k) -> dframe a (upd_scope a y g)).
  { intros a y g Hg. apply dframe_upd_scope. intros k. destruct (Hg k) as [n ->]. apply core_eq_pending. }
  intros [x Hx sA| |p _ _ _ _].
  - exists sA. refine (conj _ (conj _ _)); [|now destruct x|].
    + eapply dframe_trans; [apply dframe_iter_uncancel|apply P0; eauto].
    + intros Hr. assert (Hn : x <> XFalse) by (intros ->; discriminate). apply Hx in Hn. now apply andb_true_iff in Hn.
  - exists s5. refine (conj (dframe_refl _) (conj eq_refl _)). discriminate.
  - eexists. refine (conj _ (conj eq_refl _)); [|discriminate]. eapply dframe_trans; apply P0; eauto.
Qed.

Lemma xsettle_closed (R : st -> st -> Prop) c t up s5 s6 x :
  (forall a b d, R a b -> R b d -> R a d) -> (forall a b, dframe a b -> R a b) ->
  (forall a, s_cancelled (scopes a c) = true -> R a (upd_scope a c (sc_caught true))) ->
  xsettle c t up s5 s6 x -> R s5 s6.
Proof.
  intros Rt Rd Rc X. destruct (xsettle_cases _ _ _ _ _ _ X) as (a & D & -> & Hc).
  destruct (absorbed x); [|apply Rd, D]. eapply Rt; [apply Rd, D|]. apply Rc.
  rewrite (ce_cancelled _ _ (df_scopes _ _ D c)). now apply Hc.
Qed.

Theorem scope_exit_result s c t exc :
  exit_guards s c t = true ->
  snd (scope_exit s c t exc) =
  if s_cancelled (scopes s c) && negb (parent_visible s c) then absorb_res exc else XFalse.
Proof.
  intros G. destruct (exit_tests_frame s c t) as (Ec & Ep & _). rewrite <- Ec, <- Ep.
  apply exit_guards_iff in G. destruct G as (Ha & Hh & Hc).
  unfold scope_exit. rewrite Ha, Hh, Hc. cbn [negb opt_eqb]. rewrite !Nat.eqb_refl. cbn [negb].
  fold (exit_unlinked s c t). fold (exit_mid s c t). generalize (exit_mid s c t) as s5. intros s5.
  destruct (s_cancelled (scopes s5 c) && negb (parent_visible s5 c)); [|reflexivity].
  destruct exc as [[[|o]|n| | |l]|]; try reflexivity.
  unfold absorb_res. destruct (split_exn (EGroup l)) as [[m|] [r|]]; reflexivity.
Qed.

(* the exception (possibly a group) consists of AnyIO cancellations only *)
Definition only_anyio_cancel (exc : option exn) : Prop :=
  (exists e, exc = Some e /\ is_anyio_cancel e = true) \/
  (exists l m, exc = Some (EGroup l) /\ split_exn (EGroup l) = (Some m, None)).

(* a group that contains AnyIO cancellations and something else; r = the something else *)
Definition anyio_cancel_and_rest (exc : option exn) (r : exn) : Prop :=
  exists l m, exc = Some (EGroup l) /\ split_exn (EGroup l) = (Some m, Some r).

(* a leaf splits like a group of one: __exit__ decides by the two halves of split(is_anyio_cancellation) *)
Lemma absorb_res_split e :
  absorb_res (Some e) = match split_exn e with
                        | (None, _) => XFalse
                        | (Some _, None) => XTrue
                        | (Some _, Some r) => XRaise r
                        end.
Proof. destruct e as [[|o]|n| | |l]; reflexivity. Qed.

Lemma anyio_cancel_split e : is_anyio_cancel e = true -> split_exn e = (Some e, None).
Proof. destruct e as [[|o]|n| | |l]; try discriminate; reflexivity. Qed.

Lemma absorb_res_true exc : absorb_res exc = XTrue <-> only_anyio_cancel exc.
Proof.
  unfold only_anyio_cancel. destruct exc as [e|].
  2: { split; [discriminate|]. intros [(e & H & _)|(l & m & H & _)]; discriminate. }
  rewrite absorb_res_split. split.
  - destruct (split_exn e) as [[m|] [r|]] eqn:E; try discriminate. intros _.
    destruct e as [o|n| | |l]; try discriminate E; [left|right; eauto].
    exists (ECancel o). split; [reflexivity|]. cbn [split_exn] in E. now destruct (is_anyio_cancel (ECancel o)).
  - intros [(e' & H & Ha)|(l & m & H & Hs)]; injection H as ->; [rewrite (anyio_cancel_split _ Ha)|rewrite Hs]; reflexivity.
Qed.

Lemma absorb_res_raise exc r : absorb_res exc = XRaise r <-> anyio_cancel_and_rest exc r.
Proof.
  unfold anyio_cancel_and_rest. destruct exc as [e|]; [|split; [discriminate|intros (l & m & H & _); discriminate]].
  rewrite absorb_res_split. split.
  - destruct (split_exn e) as [[m|] [r0|]] eqn:E; try discriminate. intros H. injection H as ->.
    destruct e as [o|n| | |l]; [cbn [split_exn] in E; destruct (is_anyio_cancel (ECancel o))|..]; try discriminate E.
    exists l, m. auto.
  - intros (l & m & H & Hs). injection H as ->. now rewrite Hs.
Qed.

(* absorb_iff, clause 1: __exit__ swallows  <->  the scope was itself cancelled, no cancelled enclosing scope is
   visible to it, and the exception consists of AnyIO cancellations only *)
Theorem absorb_iff s c t exc :
  exit_guards s c t = true ->
  (snd (scope_exit s c t exc) = XTrue <->
   s_cancelled (scopes s c) = true /\ parent_visible s c = false /\ only_anyio_cancel exc).
Proof.
  intros G. rewrite (scope_exit_result s c t exc G).
  destruct (s_cancelled (scopes s c)), (parent_visible s c); cbn [negb andb].
  2: { rewrite absorb_res_true. tauto. }
  all: split; [discriminate|intros (? & ? & ?); discriminate].
Qed.

(* clause 2: a group with cancellations and other leaves: the others are re-raised without the cancellations *)
Theorem absorb_rest_iff s c t exc r :
  exit_guards s c t = true ->
  (snd (scope_exit s c t exc) = XRaise r <->
   s_cancelled (scopes s c) = true /\ parent_visible s c = false /\ anyio_cancel_and_rest exc r).
Proof.
  intros G. rewrite (scope_exit_result s c t exc G).
  destruct (s_cancelled (scopes s c)), (parent_visible s c); cbn [negb andb].
  2: { rewrite absorb_res_raise. tauto. }
  all: split; [discriminate|intros (? & ? & ?); discriminate].
Qed.

(* clause 3: in every other case the exception passes through *)
Theorem absorb_otherwise s c t exc :
  exit_guards s c t = true ->
  (snd (scope_exit s c t exc) = XFalse <->
   ~ (s_cancelled (scopes s c) = true /\ parent_visible s c = false /\
      (only_anyio_cancel exc \/ exists r, anyio_cancel_and_rest exc r))).
Proof.
  intros G. split.
  - intros H (Hc & Hp & [Ho|[r Hr]]).
    + assert (X : snd (scope_exit s c t exc) = XTrue) by (apply absorb_iff; auto). congruence.
    + assert (X : snd (scope_exit s c t exc) = XRaise r) by (apply absorb_rest_iff; auto). congruence.
  - intros H. destruct (snd (scope_exit s c t exc)) as [| |r] eqn:E; [|reflexivity|]; exfalso; apply H.
    + apply (absorb_iff s c t exc G) in E. tauto.
    + apply (absorb_rest_iff s c t exc r G) in E. destruct E as (? & ? & ?). eauto.
Qed.

(* exceptions other than AnyIO cancellations always pass through: a non-group exception that is not an AnyIO
   cancellation, a group without any, or no exception at all never makes __exit__ return True or raise *)
Definition no_anyio_cancel (exc : option exn) : Prop :=
  match exc with
  | None => True
  | Some (EGroup l) => fst (split_exn (EGroup l)) = None
  | Some e => is_anyio_cancel e = false
  end.

(* a relation like xframe but ignoring cancelled_caught: now, nscope and the chain/deadline fields *)
Definition cframe (a b : st) : Prop :=
  now b = now a /\ nscope b = nscope a /\
  forall x, s_cancelled (scopes b x) = s_cancelled (scopes a x) /\
            s_shield (scopes b x) = s_shield (scopes a x) /\
            s_parent (scopes b x) = s_parent (scopes a x) /\
            s_deadline (scopes b x) = s_deadline (scopes a x) /\
            s_bydeadline (scopes b x) = s_bydeadline (scopes a x).

Lemma cframe_xframe a b : xframe a b -> cframe a b.
Proof. intros [H1 H2 H3]. refine (conj H1 (conj H2 _)). intros x. destruct (H3 x). auto. Qed.

Lemma cframe_trans a b d : cframe a b -> cframe b d -> cframe a d.
Proof.
  intros (A1 & A2 & A3) (B1 & B2 & B3). refine (conj _ (conj _ _)); try congruence.
  intros x. destruct (A3 x) as (? & ? & ? & ? & ?), (B3 x) as (? & ? & ? & ? & ?).
  repeat split; congruence.
Qed.

Lemma cframe_upd_scope a x g :
  (forall k, s_cancelled (g k) = s_cancelled k /\ s_shield (g k) = s_shield k /\ s_parent (g k) = s_parent k /\
             s_deadline (g k) = s_deadline k /\ s_bydeadline (g k) = s_bydeadline k) ->
  cframe a (upd_scope a x g).
Proof.
  intros Hg. refine (conj eq_refl (conj eq_refl _)). intros y. cbn [upd_scope set_scopes scopes].
  rewrite upd_eq. destruct (Nat.eqb y x) eqn:E; [|auto]. apply Nat.eqb_eq in E. subst y. apply Hg.
Qed.

(* caught_iff_absorbed: cancelled_caught of the exited scope after __exit__ = its old value, or it absorbed now
   (returned True, or re-raised the rest of a group); no other scope's flag moves *)
Theorem caught_iff_absorbed s c t exc :
  exit_guards s c t = true ->
  s_caught (scopes (fst (scope_exit s c t exc)) c) =
    s_caught (scopes s c) || absorbed (snd (scope_exit s c t exc)) /\
  (forall x, x <> c -> s_caught (scopes (fst (scope_exit s c t exc)) x) = s_caught (scopes s x)).
Proof.
  intros G. destruct (exit_shape s c t exc G) as (s6 & r & X & ->). cbn [fst snd].
  destruct (xsettle_cases _ _ _ _ _ _ X) as (a & D & -> & _).
  assert (U : forall b x, s_caught (scopes (upd_scope b c (sc_host None)) x) = s_caught (scopes b x)).
  { intros b x. destruct (Nat.eq_dec x c) as [->|Hx]; [now rewrite scopes_upd_same|now rewrite scopes_upd_other]. }
  assert (K : forall x, s_caught (scopes a x) = s_caught (scopes s x)).
  { intros x. rewrite (ce_caught _ _ (df_scopes _ _ D x)). apply (xc_caught _ _ (xf_scopes _ _ (exit_mid_xframe s c t) x)). }
  destruct (absorbed r); (split; [|intros x Hx]);
    rewrite U, ?scopes_upd_same, ?(scopes_upd_other _ _ _ _ Hx), ?K; cbn [sc_caught s_caught];
    auto using orb_true_r, orb_false_r.
Qed.

Theorem non_cancel_passes_through s c t exc :
  exit_guards s c t = true -> no_anyio_cancel exc ->
  snd (scope_exit s c t exc) = XFalse /\
  s_caught (scopes (fst (scope_exit s c t exc)) c) = s_caught (scopes s c).
Proof.
  intros G H. assert (X : snd (scope_exit s c t exc) = XFalse).
  { rewrite (scope_exit_result s c t exc G). destruct (_ && _); [|reflexivity].
    destruct exc as [e|]; [rewrite absorb_res_split|reflexivity].
    assert (F : fst (split_exn e) = None).
    { destruct e as [o|n| | |l]; cbn [no_anyio_cancel] in H; [cbn [split_exn]; now rewrite H|reflexivity..|exact H]. }
    destruct (split_exn e) as [[m|] r]; [discriminate F|reflexivity]. }
  split; [exact X|]. rewrite (proj1 (caught_iff_absorbed s c t exc G)), X. apply orb_false_r.
Qed.

(* the remaining chain fields are not touched by __exit__ at all (whatever the guards say) *)
Theorem scope_exit_chain_frame s c t exc : cframe s (fst (scope_exit s c t exc)).
Proof.
  destruct (exit_guards s c t) eqn:G.
  2: { rewrite (scope_exit_guards_fail s c t exc G). cbn [fst]. apply cframe_xframe, xframe_refl. }
  destruct (exit_shape s c t exc G) as (s6 & r & X & ->). cbn [fst].
  eapply cframe_trans; [apply cframe_xframe, exit_mid_xframe|].
  eapply cframe_trans; [|apply cframe_upd_scope; intros k; auto].
  eapply (xsettle_closed cframe); [apply cframe_trans| | |exact X].
  - intros a b D. apply cframe_xframe, dframe_xframe, D.
  - intros a _. apply cframe_upd_scope. intros k. auto.
Qed.

Definition oleaves (o : option exn) : list exn := match o with Some m => leaves m | None => [] end.

Theorem split_exn_leaves e :
  oleaves (fst (split_exn e)) = filter is_anyio_cancel (leaves e) /\
  oleaves (snd (split_exn e)) = filter (fun x => negb (is_anyio_cancel x)) (leaves e).
Proof. exact (GroupThmsPure.split_exn_leaves e). Qed.

(* a downward path self -> x of length n whose scopes below self are neither shielded nor cancelled *)
Inductive vpath (s : st) : sid -> sid -> nat -> Prop :=
| vp_refl x : vpath s x x 0
| vp_step self c x n :
    In c (s_children (scopes s self)) -> s_shield (scopes s c) = false -> s_cancelled (scopes s c) = false ->
    vpath s c x n -> vpath s self x (S n).

Lemma vlist_vpath fuel : forall s self x,
  In x (vlist fuel s self) -> exists n, n < fuel /\ vpath s self x n.
Proof.
  induction fuel as [|fu IH]; intros s self x H; [destruct H|].
  cbn [vlist] in H. destruct H as [<-|H].
  - exists 0. split; [lia|apply vp_refl].
  - apply in_flat_map in H. destruct H as (c & Hc & Hx).
    destruct (s_shield (scopes s c)) eqn:Es; cbn [negb andb] in Hx; [destruct Hx|].
    destruct (s_cancelled (scopes s c)) eqn:Ec; cbn [negb] in Hx; [destruct Hx|].
    destruct (IH s c x Hx) as (n & Hn & Hp). exists (S n). split; [lia|].
    eapply vp_step; eauto.
Qed.

Lemma vpath_open s self x n : vpath s self x n ->
  x = self \/ (s_shield (scopes s x) = false /\ s_cancelled (scopes s x) = false).
Proof.
  induction 1 as [x|self c x n Hc Hs Hk Hp IH]; [now left|].
  right. destruct IH as [->|IH]; auto.
Qed.

(* shielded_never_visited: one run of _deliver_cancellation started at `self` never enters a shielded scope,
   nor a scope with its own cancellation in progress, other than `self` itself *)
Theorem shielded_never_visited fuel s self x :
  In x (vlist fuel s self) -> x <> self ->
  s_shield (scopes s x) = false /\ s_cancelled (scopes s x) = false.
Proof.
  intros H Hx. destruct (vlist_vpath fuel s self x H) as (n & _ & Hp).
  destruct (vpath_open s self x n Hp) as [->|K]; [contradiction|exact K].
Qed.

(* every task whose record is changed in any way (Task.cancel() is the only thing deliver does to a task) is
   in _tasks of a visited scope *)
Theorem deliver_touches_only_reach fuel s self origin t :
  tasks (fst (deliver fuel s self origin)) t <> tasks s t ->
  exists x, In x (vlist fuel s self) /\ In t (s_tasks (scopes s x)).
Proof.
  intros H. destruct (in_dec Nat.eq_dec t (reach_tasks fuel s self)) as [Hin|Hn].
  - unfold reach_tasks in Hin. apply in_flat_map in Hin. exact Hin.
  - exfalso. apply H. now apply deliver_spec.
Qed.

(* the tree invariant, taken as a hypothesis here (ChainReach derives it for reachable states from TreeStep.reach_tree) *)
Record TreeOK (s : st) : Prop := mk_TreeOK {
  tree_child_parent : forall p c, In c (s_children (scopes s p)) -> s_parent (scopes s c) = Some p;
  tree_task_cur : forall t x, In t (s_tasks (scopes s x)) -> k_cur (tasks s t) = Some x
}.

Lemma eff_cancelled_from_mono fuel s : forall x k,
  eff_cancelled_from fuel s x = true -> eff_cancelled_from (fuel + k) s x = true.
Proof.
  induction fuel as [|fu IH]; intros x k H; [destruct x; discriminate|].
  destruct x as [c|]; [|discriminate]. cbn [eff_cancelled_from plus] in *.
  destruct (s_cancelled (scopes s c)); [reflexivity|].
  destruct (s_shield (scopes s c)); [discriminate|]. now apply IH.
Qed.

Lemma vpath_walk_up s self x n : TreeOK s -> vpath s self x n ->
  forall fuel, eff_cancelled_from (n + fuel) s (Some x) = eff_cancelled_from fuel s (Some self).
Proof.
  intros T. induction 1 as [x|self c x n Hc Hs Hk Hp IH]; intros fuel; [reflexivity|].
  replace (S n + fuel) with (n + S fuel) by lia. rewrite IH. cbn [eff_cancelled_from].
  rewrite Hk, Hs. now rewrite (tree_child_parent s T self c Hc).
Qed.

(* a task whose record the delivery run of c changes sits in a scope reached from c through open children *)
Lemma deliver_touched_path s c t :
  TreeOK s -> tasks (deliver_top s c) t <> tasks s t ->
  exists x n, k_cur (tasks s t) = Some x /\ vpath s c x n /\ n <= nscope s.
Proof.
  intros T H. unfold deliver_top in H.
  destruct (deliver_touches_only_reach _ _ _ _ _ H) as (x & Hx & Ht).
  destruct (vlist_vpath _ _ _ _ Hx) as (n & Hn & Hp).
  exists x, n. refine (conj (tree_task_cur s T t x Ht) (conj Hp _)). lia.
Qed.

(* the walk up from the end of such a path finds c's cancellation *)
Lemma vpath_eff_cancelled s c x n k :
  TreeOK s -> vpath s c x n -> s_cancelled (scopes s c) = true -> eff_cancelled_from (S n + k) s (Some x) = true.
Proof.
  intros T Hp Hc. replace (S n + k) with ((n + 1) + k) by lia. apply eff_cancelled_from_mono.
  rewrite (vpath_walk_up s c x n T Hp 1). cbn [eff_cancelled_from]. now rewrite Hc.
Qed.

(* cancel_only_if_effectively_cancelled: a task touched by the delivery run of a cancelled scope c sits in a
   scope x reached from c through unshielded, uncancelled children, and the walk from the task's current scope
   finds the cancellation *)
Theorem cancel_only_if_effectively_cancelled s c t :
  TreeOK s -> s_cancelled (scopes s c) = true ->
  tasks (deliver_top s c) t <> tasks s t ->
  exists x n, k_cur (tasks s t) = Some x /\ vpath s c x n /\ n <= nscope s /\
              eff_cancelled_from (S (nscope s)) s (k_cur (tasks s t)) = true.
Proof.
  intros T Hc H. destruct (deliver_touched_path s c t T H) as (x & n & E & Hp & Hn).
  exists x, n. rewrite E. refine (conj eq_refl (conj Hp (conj Hn _))).
  replace (S (nscope s)) with (S n + (nscope s - n)) by lia. now apply (vpath_eff_cancelled s c).
Qed.

Corollary cancel_only_if_effectively_cancelled_flat s c t :
  (forall p k, In k (s_children (scopes s p)) -> s_parent (scopes s k) = Some p) ->
  (forall u x, In u (s_tasks (scopes s x)) -> k_cur (tasks s u) = Some x) ->
  s_cancelled (scopes s c) = true ->
  tasks (deliver_top s c) t <> tasks s t ->
  exists x n, k_cur (tasks s t) = Some x /\ vpath s c x n /\ n <= nscope s /\
              (x = c \/ s_shield (scopes s x) = false) /\
              eff_cancelled_from (S (nscope s)) s (k_cur (tasks s t)) = true.
Proof.
  intros T1 T2 Hc H.
  destruct (cancel_only_if_effectively_cancelled s c t (mk_TreeOK s T1 T2) Hc H) as (x & n & E & Hp & Hn & He).
  exists x, n. refine (conj E (conj Hp (conj Hn (conj _ He)))).
  destruct (vpath_open s c x n Hp) as [->|[K _]]; auto.
Qed.

(* with the depth bound of the tree invariant (every downward path is shorter than nscope) this is the machine's
   own `eff_cancelled` of the task's current scope *)
Corollary cancel_only_if_eff_cancelled s c t :
  TreeOK s -> (forall x n, vpath s c x n -> n < nscope s) ->
  s_cancelled (scopes s c) = true ->
  tasks (deliver_top s c) t <> tasks s t ->
  exists x, k_cur (tasks s t) = Some x /\ eff_cancelled s x = true /\
            (x = c \/ s_shield (scopes s x) = false) /\ exists n, vpath s c x n.
Proof.
  intros T D Hc H. destruct (deliver_touched_path s c t T H) as (x & n & E & Hp & _).
  exists x. refine (conj E (conj _ (conj _ (ex_intro _ n Hp)))).
  - unfold eff_cancelled. pose proof (D x n Hp) as Hd.
    replace (nscope s) with (S n + (nscope s - n - 1)) by lia. now apply (vpath_eff_cancelled s c).
  - destruct (vpath_open s c x n Hp) as [->|[K _]]; auto.
Qed.

(* a task outside the cancelled subtree, or below a shield, is never touched *)
Corollary outside_reach_untouched fuel s self origin t :
  (forall x, In x (vlist fuel s self) -> ~ In t (s_tasks (scopes s x))) ->
  tasks (fst (deliver fuel s self origin)) t = tasks s t.
Proof.
  intros H. apply deliver_spec. unfold reach_tasks. intros Hin. apply in_flat_map in Hin.
  destruct Hin as (x & Hx & Ht). exact (H x Hx Ht).
Qed.

Definition reach (s : st) : Prop := exists ops, s = final step init ops.

(* task 1 sits in scope 2 inside scope 1; task 2 is about to cancel scope 1 *)
Definition ex_ops : list op :=
  [ANewRoot; ANewScope 1 None false; AEnter 1 1; ANewScope 1 None false; AEnter 1 2; ANewRoot].
Definition ex_state : st := final step init ex_ops.

Example ex_deliver_cancels_nested :
  reach ex_state /\
  let s := upd_scope ex_state 1 (sc_cancelled true) in
  vlist (S (nscope s)) s 1 = [1; 2] /\ s_tasks (scopes s 2) = [1] /\ k_cur (tasks s 1) = Some 2 /\
  k_ncancel (tasks s 1) = 0 /\ k_ncancel (tasks (deliver_top s 1) 1) = 1 /\
  eff_cancelled s 2 = true.
Proof. split; [exists ex_ops; reflexivity|]. vm_compute. repeat split; reflexivity. Qed.

(* the same through the machine's own cancel(): after ACancel by task 2 task 1 has a pending request from scope 1 *)
Example ex_cancel_reaches_nested :
  let s' := final step init (ex_ops ++ [ACancel 2 1]) in
  k_ncancel (tasks s' 1) = 1 /\ s_cancelled (scopes s' 1) = true /\ eff_cancelled s' 2 = true /\
  snd (step s' (ARun (HWake 1 (match k_waiter (tasks ex_state 1) with Some f => f | None => 0 end))))
    = RExc (ECancel 2).
Proof. vm_compute. repeat split; reflexivity. Qed.

(* a shielded child is skipped: same program with scope 2 shielded *)
Example ex_shield_holds :
  let ops := [ANewRoot; ANewScope 1 None false; AEnter 1 1; ANewScope 1 None true; AEnter 1 2; ANewRoot;
              ACancel 2 1] in
  let s' := final step init ops in
  s_cancelled (scopes s' 1) = true /\ k_ncancel (tasks s' 1) = 0 /\ eff_cancelled s' 2 = false.
Proof. vm_compute. repeat split; reflexivity. Qed.

(* exits: the inner scope does not absorb (parent cancellation visible), the cancelled one does *)
Example ex_exit_absorbs :
  let s1 := final step init (ex_ops ++ [ACancel 2 1;
              ARun (HWake 1 (match k_waiter (tasks ex_state 1) with Some f => f | None => 0 end))]) in
  exit_guards (begin_act s1 1) 2 1 = true /\
  snd (step s1 (AExit 1 2 false)) = RRet 0 /\
  let s2 := fst (step s1 (AExit 1 2 false)) in
  s_caught (scopes s2 2) = false /\
  exit_guards (begin_act s2 1) 1 1 = true /\
  snd (step s2 (AExit 1 1 false)) = RRet 1 /\
  s_caught (scopes (fst (step s2 (AExit 1 1 false))) 1) = true.
Proof. vm_compute. repeat split; reflexivity. Qed.

(* a group holding the scope's own cancellation and an error: the error is re-raised without the cancellation,
   cancelled_caught is set *)
Example ex_exit_group_rest :
  let s1 := final step init (ex_ops ++ [ACancel 2 1;
              ARun (HWake 1 (match k_waiter (tasks ex_state 1) with Some f => f | None => 0 end));
              AExit 1 2 false; AWrap 1 7]) in
  k_held (tasks s1 1) = Some (EGroup [ECancel 2; EErr 7]) /\
  exit_guards (begin_act s1 1) 1 1 = true /\
  snd (step s1 (AExit 1 1 false)) = RExc (EGroup [EErr 7]) /\
  s_caught (scopes (fst (step s1 (AExit 1 1 false))) 1) = true.
Proof. vm_compute. repeat split; reflexivity. Qed.

(* an ordinary exception passes through a cancelled scope untouched and does not set cancelled_caught *)
Example ex_exit_non_cancel_passes :
  let s1 := final step init [ANewRoot; ANewScope 1 None false; AEnter 1 1; ACancel 1 1; AHold 1 3] in
  s_cancelled (scopes s1 1) = true /\ exit_guards (begin_act s1 1) 1 1 = true /\
  no_anyio_cancel (k_held (tasks s1 1)) /\
  snd (step s1 (AExit 1 1 false)) = RRet 0 /\
  k_held (tasks (fst (step s1 (AExit 1 1 false))) 1) = Some (EErr 3) /\
  s_caught (scopes (fst (step s1 (AExit 1 1 false))) 1) = false.
Proof. vm_compute. repeat split; reflexivity. Qed.

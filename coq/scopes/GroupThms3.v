(* What one step does to one group record: step_group_cases lists the operations that change groups s g and how. *)
From AV Require Import Base Machine MachineFacts GroupInv GroupInv2 GroupInv3 GroupInv4 GroupInv5 GroupInv6
  GroupInv7 GroupInv8 GroupInv9 GroupWalk GroupThms2.

Definition cancel_or_none (x : option exn) : Prop := x = None \/ exists m, x = Some (ECancel m).

Lemma scope_exit_no_raise s c t exc : owns s t c -> cancel_or_none exc ->
  snd (scope_exit s c t exc) = XTrue \/ snd (scope_exit s c t exc) = XFalse.
Proof.
  intros [Ha [Hh [Hc _]]] Hx. unfold scope_exit. rewrite Ha, Hh, Hc. cbn [negb opt_eqb]. rewrite !Nat.eqb_refl. cbn [negb].
  match goal with |- context [if ?b then _ else _] => destruct b end; [|right; reflexivity].
  destruct Hx as [->|[m ->]]; [right; reflexivity|].
  destruct (is_anyio_cancel (ECancel m)); [left|right]; reflexivity.
Qed.

(* what a task resumed from a bare yield receives: nothing, or a CancelledError *)
Lemma incoming_none_shape s0 t : cancel_or_none (snd (incoming s0 t None)).
Proof.
  unfold incoming. cbn [snd]. destruct (k_must (tasks s0 t)); [right; eauto|left; reflexivity].
Qed.

Lemma resume_aexit_ck_grel s0 t fo g c exc : wake_ok s0 t fo -> k_ctl (tasks s0 t) = CAexitCk g c exc ->
  grel s0 (fst (resume s0 t fo)) g.
Proof.
  intros W Hc. pose proof (w_m _ _ _ W) as M0.
  assert (Hnr : running s0 <> Some t) by (rewrite (w_run _ _ _ W); discriminate).
  (* the handle is a HStep: the task's waiter is None *)
  assert (Hfo : fo = None).
  { pose proof (c_w s0 (m_c s0 M0) t Hnr) as Hw. rewrite Hc in Hw. cbn in Hw.
    destruct fo as [f|]; [|reflexivity]. destruct (w_fo _ _ _ W) as [H _]. congruence. }
  subst fo.
  assert (O : owns (incs s0 t) t c).
  { apply owns_incs. destruct (c_top s0 (m_c s0 M0) t c Hnr) as [H1 [H2 [H3 H4]]]; [rewrite Hc; reflexivity|].
    unfold owns. auto. }
  pose proof (incoming_none_shape s0 t) as Hinc.
  rewrite resume_unfold, Hc. cbn zeta.
  set (s := incs s0 t) in *. set (inc := snd (incoming s0 t None)) in *.
  apply (grel_of_groups s0 s); [reflexivity|].
  pose proof (scope_exit_no_raise s c t inc O Hinc) as Hx.
  pose proof (groups_scope_exit s c t inc) as Hg.
  destruct (scope_exit s c t inc) as [s1 x]. cbn [fst snd] in *.
  apply (grel_of_groups s s1); [exact Hg|].
  destruct Hx as [-> | ->].
  - apply wof_grel.
  - destruct Hinc as [->|[m ->]]; [apply wof_grel|]. cbn [is_cancel].
    match goal with |- grel _ (fst (aexit_wait_or_finish ?x _ _ _ _)) _ => apply (grel_of_groups _ x); [|apply wof_grel] end.
    now rewrite groups_scope_cancel.
Qed.

Lemma groups_spawned s g sf : groups (spawned s g sf) = upd (groups s) g (gjoin (ntask s) (groups s g)).
Proof.
  rewrite spawned_eq. cbn zeta. cbn [call_soon set_ready groups]. rewrite groups_restart. reflexivity.
Qed.

Lemma groups_op_group_new s0 t : groups (fst (puppet_op s0 t (AGroupNew t))) =
  upd (groups s0) (ngroup s0) (mkGroup (nscope s0) false [] [] None [] false).
Proof. unfold puppet_op. rewrite new_scope_eq. cbn zeta. rewrite groups_ret. reflexivity. Qed.

Lemma groups_op_group_enter s0 t g : groups (fst (puppet_op s0 t (AGroupEnter t g))) =
  if g_entered (groups s0 g) then groups s0 else upd (groups s0) g (gr_entered true (groups s0 g)).
Proof.
  unfold puppet_op. set (s := begin_act s0 t). change (groups s0) with (groups s).
  destruct (g_entered (groups s g)); [now rewrite groups_ret|]. cbn zeta.
  match goal with |- context [scope_enter ?a ?b ?c] => pose proof (groups_scope_enter a b c) as H;
    destruct (scope_enter a b c) as [s2 e] end.
  cbn [fst] in H. rewrite groups_ret, H. reflexivity.
Qed.

Lemma group_active_begin s0 t g : group_active (begin_act s0 t) g = group_active s0 g.
Proof. reflexivity. Qed.

Lemma groups_op_spawn s0 t g : groups (fst (puppet_op s0 t (ASpawn t g))) =
  if group_active s0 g then upd (groups s0) g (gjoin (ntask s0) (groups s0 g)) else groups s0.
Proof.
  unfold puppet_op. rewrite group_active_begin. destruct (group_active s0 g); cbn [negb]; [|now rewrite groups_ret].
  rewrite spawn_task_eq, groups_ret, groups_spawned. reflexivity.
Qed.

Lemma groups_block s t c : groups (fst (blocked (set_ctl s t c))) = groups s.
Proof. reflexivity. Qed.

Lemma groups_op_start s0 t g : groups (fst (puppet_op s0 t (AStart t g))) =
  if group_active s0 g then upd (groups s0) g (gjoin (ntask s0) (groups s0 g)) else groups s0.
Proof.
  unfold puppet_op. rewrite group_active_begin. destruct (group_active s0 g); cbn [negb]; [|now rewrite groups_ret].
  rewrite new_fut_eq. cbv beta iota. rewrite spawn_task_eq. cbv beta iota.
  rewrite groups_block, groups_suspend_on, groups_spawned. reflexivity.
Qed.

(* AGroupExit: the body exception (if any) is recorded first, then the __aexit__ code runs *)
Definition after_body_exc (s0 : st) (t : tid) (g : gid) : st :=
  match k_held (tasks s0 t) with
  | Some e => if is_cancel e then s0 else upd_group s0 g (add_exc 0 e)
  | None => s0
  end.

Lemma op_group_exit_grel s0 t g :
  grel (after_body_exc s0 t g) (fst (puppet_op s0 t (AGroupExit t g))) g.
Proof.
  unfold puppet_op. set (s := begin_act s0 t). cbn zeta.
  match goal with |- context [match g_tasks (groups ?x g) with _ => _ end] => set (s1 := x) end.
  assert (E1 : groups s1 = groups (after_body_exc s0 t g)).
  { unfold s1, after_body_exc.
    assert (Eh : k_held (tasks s t) = k_held (tasks s0 t)) by (unfold s, begin_act; tcase t t; [reflexivity|contradiction]).
    rewrite Eh. destruct (k_held (tasks s0 t)) as [e|]; [|reflexivity].
    destruct (is_cancel e); [now rewrite groups_scope_cancel|].
    cbn [upd_group set_groups groups]. now rewrite groups_scope_cancel. }
  apply (grel_of_groups _ s1); [exact E1|].
  destruct (g_tasks (groups s1 g)); [|apply wof_grel].
  rewrite new_scope_eq. cbn zeta. apply grel_eq.
  cbn [blocked fst set_running set_ctl upd_task set_tasks bare_yield call_soon set_ready groups].
  now rewrite groups_scope_enter.
Qed.

(* task_done: the member leaves g_tasks; its error (if any, and if routed to the group) is appended *)
Lemma run_task_done_groups s0 t g : k_group (tasks s0 t) = Some g ->
  (forall e, k_done (tasks s0 t) = Some (OCanc e) -> is_cancel e = true) ->
  groups (run_task_done s0 t) = groups (tdcore s0 t g) \/
  exists e, k_done (tasks s0 t) = Some (OExc e) /\
            groups (run_task_done s0 t) = groups (upd_group (tdcore s0 t g) g (add_exc t e)).
Proof.
  intros Hg Hoc. rewrite run_task_done_eq, Hg. unfold done_tail.
  set (s3 := done_struct (set_running s0 None) t g).
  assert (E3 : groups s3 = groups (tdcore s0 t g)).
  { unfold s3, done_struct, tdcore. change (tasks (set_running s0 None)) with (tasks s0).
    destruct (k_cur (tasks s0 t)); reflexivity. }
  assert (E4 : groups (done_wake s3 g) = groups s3) by (destruct (td_wake_shape s3 g); [reflexivity|apply fc_groups]).
  revert E4. generalize (done_wake s3 g) as s4. intros s4 E4.
  destruct (td_end_shape s4 (tasks s0 t) g t) as [|f _ _|e _ _ _|e He Hc].
  - left. congruence.
  - left. rewrite fc_groups. congruence.
  - left. rewrite groups_scope_cancel. congruence.
  - right. exists e. split.
    + unfold done_exc in He. destruct (k_done (tasks s0 t)) as [[v|e'|e']|]; try discriminate He; injection He as ->;
        [reflexivity|]. rewrite (Hoc e eq_refl) in Hc. discriminate.
    + rewrite groups_scope_cancel. cbn [upd_group set_groups groups]. now rewrite E4, E3.
Qed.

Definition grec (x x' : group) : Prop :=
  g_ever x' = g_ever x /\ g_tasks x' = g_tasks x /\ g_scope x' = g_scope x /\ g_excs x' = g_excs x /\
  g_entered x' = g_entered x /\ (g_left x' = g_left x \/ (g_left x' = true /\ g_tasks x = [])).

Lemma grel_grec s s' g : grel s s' g -> grec (groups s g) (groups s' g).
Proof. intros [_ H]. exact H. Qed.

Lemma grel_other s s' g g' : grel s s' g -> g' <> g -> groups s' g' = groups s g'.
Proof. intros [H _]. apply H. Qed.

Definition body_exc_case (s s' : st) (o : op) (g : gid) : Prop :=
  exists t e, o = AGroupExit t g /\ idle s t = true /\ k_held (tasks s t) = Some e /\ is_cancel e = false /\
              grec (add_exc 0 e (groups s g)) (groups s' g).

Definition task_done_case (s s' : st) (o : op) (g : gid) : Prop :=
  exists t, o = ARun (HTaskDone t) /\ In (HTaskDone t) (ready s) /\ k_group (tasks s t) = Some g /\
    (groups s' g = td_grp t (groups s g) \/
     exists e, k_done (tasks s t) = Some (OExc e) /\ groups s' g = add_exc t e (td_grp t (groups s g))).

Definition spawn_case (s s' : st) (o : op) (g : gid) : Prop :=
  exists t, (o = ASpawn t g \/ o = AStart t g) /\ idle s t = true /\ group_active s g = true /\
            groups s' g = gjoin (ntask s) (groups s g).

Definition aexit_case (s s' : st) (o : op) (g : gid) : Prop :=
  grec (groups s g) (groups s' g) /\
  ((exists t, o = AGroupExit t g /\ idle s t = true) \/
   (exists t h w exc, o = ARun h /\ In h (ready s) /\ (h = HStep t \/ exists f, h = HWake t f) /\
      (k_ctl (tasks s t) = CAexitWait g w exc \/ k_ctl (tasks s t) = CAexitCk g w exc))).

Theorem step_group_cases s o g : reach s -> let s' := fst (step s o) in
  groups s' g = groups s g \/
  (exists t, o = AGroupNew t /\ idle s t = true /\ g = ngroup s /\
             groups s' g = mkGroup (nscope s) false [] [] None [] false) \/
  (exists t, o = AGroupEnter t g /\ groups s' g = gr_entered true (groups s g)) \/
  spawn_case s s' o g \/ body_exc_case s s' o g \/ aexit_case s s' o g \/ task_done_case s s' o g.
Proof.
  intros R. cbn zeta. pose proof (reachable s R) as I0.
  destruct (touches_groups s o) eqn:Et; [|left; now rewrite step_groups_frame].
  unfold step. destruct (actor o) as [t|] eqn:Ea.
  - destruct (idle s t) eqn:Ei; cbn [negb]; [|left; reflexivity].
    destruct o; try discriminate; cbn in Ea; injection Ea as <-.
    + (* AGroupNew *) rewrite groups_op_group_new. unfold upd. destruct (Nat.eqb_spec g (ngroup s)) as [->|Hg]; [|left; reflexivity].
      right; left. exists t0. auto.
    + (* AGroupEnter *) rewrite groups_op_group_enter. destruct (g_entered (groups s g0)); [left; reflexivity|].
      unfold upd. destruct (Nat.eqb_spec g g0) as [->|Hg]; [|left; reflexivity]. right; right; left. exists t0. auto.
    + (* AGroupExit *) pose proof (op_group_exit_grel s t0 g0) as Hrel.
      destruct (Nat.eq_dec g g0) as [->|Hg].
      * apply grel_grec in Hrel. unfold after_body_exc in Hrel.
        destruct (k_held (tasks s t0)) as [e|] eqn:Eh;
          [|right; right; right; right; right; left; split; [exact Hrel|left; exists t0; auto]].
        destruct (is_cancel e) eqn:Ec; [right; right; right; right; right; left; split; [exact Hrel|left; exists t0; auto]|].
        right; right; right; right; left. exists t0, e. cbn [upd_group set_groups groups] in Hrel. rewrite upd_same in Hrel. auto.
      * left. rewrite (grel_other _ _ _ _ Hrel Hg). unfold after_body_exc.
        destruct (k_held (tasks s t0)) as [e|]; [|reflexivity]. destruct (is_cancel e); [reflexivity|].
        cbn [upd_group set_groups groups]. now apply upd_other.
    + (* ASpawn *) destruct (group_active s g0) eqn:Eact; [|left; now rewrite groups_op_spawn, Eact].
      destruct (Nat.eq_dec g g0) as [->|Hg]; [|left; rewrite groups_op_spawn, Eact; now apply upd_other].
      right; right; right; left. exists t0. refine (conj (or_introl eq_refl) (conj Ei (conj Eact _))).
      rewrite groups_op_spawn, Eact. apply upd_same.
    + (* AStart *) destruct (group_active s g0) eqn:Eact; [|left; now rewrite groups_op_start, Eact].
      destruct (Nat.eq_dec g g0) as [->|Hg]; [|left; rewrite groups_op_start, Eact; now apply upd_other].
      right; right; right; left. exists t0. refine (conj (or_intror eq_refl) (conj Ei (conj Eact _))).
      rewrite groups_op_start, Eact. apply upd_same.
  - destruct o; try discriminate.
    unfold run_handle. destruct (existsb (handle_eqb h) (ready s)) eqn:Eh; cbn [negb]; [|left; reflexivity].
    apply existsb_handle in Eh. fold (dequeue s h).
    destruct h as [t|t f|c|t|f tm|c tm]; try discriminate.
    + (* HStep of a task inside __aexit__ *)
      cbn in Et. pose proof (wake_ok_step s t I0 Eh) as W.
      change (k_ctl (tasks s t)) with (k_ctl (tasks (dequeue s (HStep t)) t)) in Et.
      destruct (k_ctl (tasks (dequeue s (HStep t)) t)) as [| |k|f tm|g0 ws exc|g0 c exc|g0 child f|child c e wf|h wf|] eqn:Ec; try discriminate.
      * pose proof (resume_aexit_wait_grel _ t None g0 ws exc Ec) as Hrel.
        destruct (Nat.eq_dec g g0) as [->|Hg];
          [right; right; right; right; right; left; split; [apply (grel_grec _ _ _ Hrel)|right; exists t, (HStep t), ws, exc; auto]|].
        left. apply (grel_other _ _ _ _ Hrel Hg).
      * pose proof (resume_aexit_ck_grel _ t None g0 c exc W Ec) as Hrel.
        destruct (Nat.eq_dec g g0) as [->|Hg];
          [right; right; right; right; right; left; split; [apply (grel_grec _ _ _ Hrel)|right; exists t, (HStep t), c, exc; auto]|].
        left. apply (grel_other _ _ _ _ Hrel Hg).
    + cbn in Et. pose proof (wake_ok_wake s t f I0 Eh) as W.
      change (k_ctl (tasks s t)) with (k_ctl (tasks (dequeue s (HWake t f)) t)) in Et.
      destruct (k_ctl (tasks (dequeue s (HWake t f)) t)) as [| |k|f0 tm|g0 ws exc|g0 c exc|g0 child f0|child c e wf|h wf|] eqn:Ec; try discriminate.
      * pose proof (resume_aexit_wait_grel _ t (Some f) g0 ws exc Ec) as Hrel.
        destruct (Nat.eq_dec g g0) as [->|Hg];
          [right; right; right; right; right; left; split; [apply (grel_grec _ _ _ Hrel)|right; exists t, (HWake t f), ws, exc; eauto 8]|].
        left. apply (grel_other _ _ _ _ Hrel Hg).
      * pose proof (resume_aexit_ck_grel _ t (Some f) g0 c exc W Ec) as Hrel.
        destruct (Nat.eq_dec g g0) as [->|Hg];
          [right; right; right; right; right; left; split; [apply (grel_grec _ _ _ Hrel)|right; exists t, (HWake t f), c, exc; eauto 8]|].
        left. apply (grel_other _ _ _ _ Hrel Hg).
    + (* HTaskDone *)
      cbn [fst]. set (s1 := dequeue s (HTaskDone t)).
      destruct (k_group (tasks s t)) as [g0|] eqn:Eg.
      * destruct I0 as [M0 _].
        assert (Hoc : forall e, k_done (tasks s1 t) = Some (OCanc e) -> is_cancel e = true).
        { intros e. apply (c_oc s (m_c s M0) t e). }
        pose proof (run_task_done_groups s1 t g0 Eg Hoc) as H.
        pose proof (tdcore_groups s1 t g0 g) as [T1 [T2 [T3 [T4 T5]]]].
        destruct (Nat.eq_dec g g0) as [->|Hg].
        -- right; right; right; right; right; right. exists t. refine (conj eq_refl (conj Eh (conj Eg _))).
           assert (Etd : groups (tdcore s1 t g0) g0 = td_grp t (groups s g0)).
           { unfold tdcore. cbn [upd_task set_tasks upd_group set_groups groups]. now rewrite upd_same. }
           destruct H as [H|[e [He H]]]; [left; now rewrite H|right]. exists e. split; [exact He|].
           rewrite H. cbn [upd_group set_groups groups]. now rewrite upd_same, Etd.
        -- left. assert (Etd : groups (tdcore s1 t g0) g = groups s g).
           { unfold tdcore. cbn [upd_task set_tasks upd_group set_groups groups]. now apply upd_other. }
           destruct H as [H|[e [He H]]]; rewrite H; [exact Etd|].
           cbn [upd_group set_groups groups]. rewrite upd_other; [exact Etd|exact Hg].
      * left. rewrite run_task_done_eq. change (tasks s1 t) with (tasks s t). now rewrite Eg.
Qed.

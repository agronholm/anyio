(* Tie T on the generated domain (reach_ok, TreeStep.v): in every reachable state every scope visited by a walk that
   starts at an active scope is still entered (hosted), so the machine's shield-only walks coincide with the walks of
   the code after the F42 fix (which also stop at exited scopes), and the tree hypotheses of the C04 delivery theorem
   are discharged. *)
From AV Require Import Base Machine TreeInv DeliverAlive TreeStep.
From AV Require Import ChainSpec ChainGen ChainEq ChainThms.

(* walks from an active scope only see entered scopes *)
Lemma tree_all_hosted s fuel : Tree s -> forall x,
  s_active (scopes s x) = true -> all_hosted (chain_of fuel s (Some x)).
Proof.
  intros T. induction fuel as [|fu IH]; intros x Ha; [constructor|]. cbn [chain_of]. constructor.
  - unfold rec_of; cbn [r_hosted]. destruct (tr_host_act _ T x Ha) as (t & -> & _). reflexivity.
  - destruct (s_parent (scopes s x)) as [p|] eqn:Ep; [|destruct fu; constructor].
    apply IH. apply (tr_par_act _ T x p Ha Ep).
Qed.

Lemma tree_all_hosted_opt s fuel : Tree s -> forall o,
  (forall x, o = Some x -> s_active (scopes s x) = true) -> all_hosted (chain_of fuel s o).
Proof.
  intros T [x|] H; [apply tree_all_hosted; auto|destruct fuel; constructor].
Qed.

Theorem reach_walks_see_entered_scopes s fuel t :
  reach_ok s -> all_hosted (chain_of fuel s (k_cur (tasks s t))).
Proof.
  intros R. pose proof (reach_tree s R) as T. apply tree_all_hosted_opt; [exact T|].
  intros x E. apply (tr_cur_act _ T t x E).
Qed.

(* hence old walk = new walk on every chain a task of a reachable state can walk *)
Theorem reach_walks_coincide s fuel t :
  reach_ok s ->
  sh_cancelled_spec (chain_of fuel s (k_cur (tasks s t))) = eff_cancelled_spec (chain_of fuel s (k_cur (tasks s t))).
Proof. intros R. apply sh_cancelled_hosted, reach_walks_see_entered_scopes, R. Qed.

(* the machine's predicates are the generated functions on reachable states *)
Theorem reach_eff_cancelled_is_generated s c :
  reach_ok s -> s_active (scopes s c) = true ->
  eff_cancelled s c = gen_effectively_cancelled (chain_of (nscope s) s (Some c)).
Proof. intros R Ha. apply machine_eff_cancelled_eq, tree_all_hosted; [apply reach_tree, R|exact Ha]. Qed.

Theorem reach_parent_visible_is_generated s c :
  reach_ok s -> s_active (scopes s c) = true ->
  parent_visible s c = gen_parent_visible (chain_of (S (nscope s)) s (Some c)).
Proof. intros R Ha. apply machine_parent_visible_gen, tree_all_hosted; [apply reach_tree, R|exact Ha]. Qed.

Theorem reach_ckif_is_generated s fuel t :
  reach_ok s -> ckif_spins fuel s (k_cur (tasks s t)) = gen_ckif_spins (chain_of fuel s (k_cur (tasks s t))).
Proof. intros R. apply machine_ckif_spins_gen, reach_walks_see_entered_scopes, R. Qed.

(* F46: every re-check of a spinning checkpoint_if_cancelled is the generated walk over the task's CURRENT chain *)
Theorem reach_ckif_respin_is_generated s t fo :
  reach_ok s -> k_ctl (tasks s t) = CYield YCkIf -> snd (incoming s t fo) = None ->
  snd (resume s t fo) =
    if gen_ckif_restarts_from_task_scope
    then (if gen_ckif_spins (chain_of (nscope s) s (k_cur (tasks s t))) then RBlocked else RRet 0)
    else RBlocked.
Proof. intros R Hc Hi. apply machine_ckif_respin_gen; [exact Hc|exact Hi|apply reach_walks_see_entered_scopes, R]. Qed.

Theorem reach_eff_deadline_is_generated s fuel t :
  reach_ok s ->
  eff_deadline_from fuel s (k_cur (tasks s t)) XInf = gen_eff_deadline (chain_of fuel s (k_cur (tasks s t))).
Proof. intros R. apply machine_eff_deadline_gen, reach_walks_see_entered_scopes, R. Qed.

(* C04: the request-time theorem with its tree hypotheses discharged *)
Lemma vpath_active s c x n : Tree s -> vpath s c x n -> (n = 0 /\ x = c) \/ s_active (scopes s x) = true.
Proof.
  intros T. induction 1 as [x|self ch x n Hc Hs Hk Hp IH]; [now left|]. right.
  destruct IH as [[_ ->]|IH]; [|exact IH]. apply (proj1 (proj1 (tr_child _ T self ch) Hc)).
Qed.

(* a downward path through open scopes is an upward chain of open scopes, hence shorter than the number of scopes *)
Lemma vpath_upn s c x n : Tree s -> vpath s c x n -> forall k, upn s c k -> upn s x (n + k).
Proof.
  intros T. induction 1 as [x|self ch x n Hc Hs Hk Hp IH]; intros k Hu; [exact Hu|].
  replace (S n + k) with (n + S k) by lia. apply IH.
  destruct (proj1 (tr_child _ T self ch) Hc) as [_ Hpar]. eapply upn_S; eauto.
Qed.

Lemma vpath_depth s c x n : Tree s -> vpath s c x n -> n < nscope s.
Proof.
  intros T H. destruct (vpath_active s c x n T H) as [[-> _]|Ha]; [apply T|].
  pose proof (vpath_upn s c x n T H 0 (upn_0 s c)) as Hu. rewrite Nat.add_0_r in Hu.
  apply (upn_bound s x n (Tree_TreeL s T) Hu Ha).
Qed.

(* every task touched by the delivery run of a cancelled scope in a reachable state sits in a scope below it,
   reached through unshielded, uncancelled scopes, and its current scope is effectively cancelled (the machine's own
   predicate, equal to the generated walk by reach_eff_cancelled_is_generated) *)
Theorem reach_cancel_only_if_effectively_cancelled s c t :
  reach_ok s -> s_cancelled (scopes s c) = true ->
  tasks (deliver_top s c) t <> tasks s t ->
  exists x, k_cur (tasks s t) = Some x /\ eff_cancelled s x = true /\ (x = c \/ s_shield (scopes s x) = false) /\
            exists n, vpath s c x n.
Proof.
  intros R Hc H. pose proof (reach_tree s R) as T.
  assert (TO : TreeOK s).
  { constructor.
    - intros p k Hk. apply (proj1 (tr_child _ T p k) Hk).
    - intros u x Hu. apply (proj1 (tr_task _ T x u) Hu). }
  exact (cancel_only_if_eff_cancelled s c t TO (fun x n Hv => vpath_depth s c x n T Hv) Hc H).
Qed.

(* Frame facts about the group table: which operations can change `groups` and how.
   No invariant is needed here: these are facts about the definitions of Machine.v. *)
From AV Require Import Base Machine MachineFacts GroupInv GroupInv2 GroupInv3 GroupInv4 GroupInv7 GroupWalk.

Lemma groups_kstar C T s s' : kstar C T s s' -> groups s' = groups s.
Proof. intros H. apply (fr_groups _ _ _ _ (kframe_kstar _ _ _ _ H)). Qed.

Lemma groups_scope_enter s c t : groups (fst (scope_enter s c t)) = groups s.
Proof. apply (groups_kstar _ _ _ _ (ks_scope_enter s c t)). Qed.
Lemma groups_scope_exit s c t e : groups (fst (scope_exit s c t e)) = groups s.
Proof. apply (groups_kstar _ _ _ _ (ks_scope_exit s c t e)). Qed.
Lemma groups_scope_cancel s c b : groups (scope_cancel s c b) = groups s.
Proof. apply (groups_kstar _ _ _ _ (ks_scope_cancel none_s none_t s c b)). Qed.
Lemma groups_restart s x : groups (restart s x) = groups s.
Proof. apply (groups_kstar _ _ _ _ (ks_restart none_s none_t s x)). Qed.
Lemma groups_suspend_on s t f : groups (suspend_on s t f) = groups s.
Proof. apply (kx_groups _ _ _ _ (suspend_on_fix s t f)). Qed.

Lemma groups_ret s t r : groups (fst (ret_to_puppet s t r)) = groups s.
Proof. apply (kx_groups _ _ _ _ (ret_to_puppet_fix s t r)). Qed.

Lemma groups_tick s dt : groups (tick s dt) = groups s.
Proof. reflexivity. Qed.

Theorem step_groups_frame s o : touches_groups s o = false -> groups (fst (step s o)) = groups s.
Proof.
  intros Ht. apply (walk s o (fun x y => groups y = groups x)). intros a. apply moves_kstar.
  - reflexivity.
  - congruence.
  - apply groups_kstar.
  - reflexivity.
  - intros x f v _. apply fc_groups.
  - reflexivity.
  - intros x y [| | |t E| | | | | |]; try reflexivity; [rewrite E in Ht; discriminate|congruence].
Qed.

Definition grel (s s' : st) (g : gid) : Prop :=
  (forall g', g' <> g -> groups s' g' = groups s g') /\
  g_ever (groups s' g) = g_ever (groups s g) /\ g_tasks (groups s' g) = g_tasks (groups s g) /\
  g_scope (groups s' g) = g_scope (groups s g) /\ g_excs (groups s' g) = g_excs (groups s g) /\
  g_entered (groups s' g) = g_entered (groups s g) /\
  (g_left (groups s' g) = g_left (groups s g) \/
   (g_left (groups s' g) = true /\ g_tasks (groups s g) = [])).

Lemma grel_eq s s' g : groups s' = groups s -> grel s s' g.
Proof. intros E. unfold grel. rewrite E. tauto. Qed.

Lemma grel_trans s1 s2 s3 g : grel s1 s2 g -> grel s2 s3 g -> grel s1 s3 g.
Proof.
  intros [A1 [A2 [A3 [A4 [A5 [A6 A7]]]]]] [B1 [B2 [B3 [B4 [B5 [B6 B7]]]]]].
  refine (conj _ (conj _ (conj _ (conj _ (conj _ (conj _ _)))))); try congruence.
  - intros g' Hg. rewrite (B1 g' Hg). auto.
  - destruct B7 as [B7|[B7 B8]].
    + destruct A7 as [A7|[A7 A8]]; [left; congruence|right; split; congruence].
    + right. split; [exact B7|congruence].
Qed.

Lemma grel_upd_fut s g x : grel s (upd_group s g (gr_fut x)) g.
Proof.
  unfold grel. cbn [upd_group set_groups groups]. rewrite upd_same. cbn.
  refine (conj _ (conj eq_refl (conj eq_refl (conj eq_refl (conj eq_refl (conj eq_refl (or_introl eq_refl))))))).
  intros g' Hg. now apply upd_other.
Qed.

Lemma grel_upd_left s g : g_tasks (groups s g) = [] -> grel s (upd_group s g (gr_left true)) g.
Proof.
  intros Ht. unfold grel. cbn [upd_group set_groups groups]. rewrite upd_same. cbn.
  refine (conj _ (conj eq_refl (conj eq_refl (conj eq_refl (conj eq_refl (conj eq_refl (or_intror (conj eq_refl Ht)))))))).
  intros g' Hg. now apply upd_other.
Qed.

Lemma aexit_raise_groups s t g e : groups (fst (aexit_raise s t g e)) = groups (upd_group s g (gr_left true)).
Proof.
  unfold aexit_raise. pose proof (groups_scope_exit s (g_scope (groups s g)) t (Some e)) as H.
  destruct (scope_exit s (g_scope (groups s g)) t (Some e)) as [s1 x]. cbn [fst] in H.
  destruct x; cbn [fst upd_task set_tasks upd_group set_groups groups]; now rewrite H.
Qed.

Lemma aexit_finish_groups s t g exc : groups (fst (aexit_finish s t g exc)) = groups (upd_group s g (gr_left true)).
Proof.
  unfold aexit_finish. destruct (map snd (g_excs (groups s g))); [|apply aexit_raise_groups].
  destruct exc; [apply aexit_raise_groups|].
  pose proof (groups_scope_exit s (g_scope (groups s g)) t None) as H.
  destruct (scope_exit s (g_scope (groups s g)) t None) as [s1 x]. cbn [fst] in H.
  destruct x; cbn [fst upd_group set_groups groups]; now rewrite H.
Qed.

Lemma grel_ret_pair s0 (p : st * res) t g : grel s0 (fst p) g ->
  grel s0 (fst (let '(s2, r) := p in ret_to_puppet s2 t r)) g.
Proof.
  destruct p as [s2 r]. cbn [fst]. intros H. eapply grel_trans; [exact H|]. apply grel_eq, groups_ret.
Qed.

Lemma grel_of_groups s s1 s' g : groups s1 = groups s -> grel s1 s' g -> grel s s' g.
Proof. intros E H. eapply grel_trans; [apply grel_eq; exact E|exact H]. Qed.

Lemma grel_to_groups s s1 s' g : grel s s1 g -> groups s' = groups s1 -> grel s s' g.
Proof. intros H E. eapply grel_trans; [exact H|apply grel_eq; exact E]. Qed.

Lemma wof_grel s t g ws exc : grel s (fst (aexit_wait_or_finish s t g ws exc)) g.
Proof.
  unfold aexit_wait_or_finish. destruct (g_tasks (groups s g)) as [|a l] eqn:Et.
  - destruct ws as [w|].
    + pose proof (groups_scope_exit s w t None) as H. destruct (scope_exit s w t None) as [s1 x]. cbn [fst] in H.
      assert (Et1 : g_tasks (groups s1 g) = []) by (now rewrite H).
      apply (grel_of_groups s s1); [exact H|].
      destruct x; apply grel_ret_pair;
        (eapply grel_to_groups; [apply grel_upd_left; exact Et1|]); first [apply aexit_finish_groups|apply aexit_raise_groups].
    + apply grel_ret_pair. eapply grel_to_groups; [apply grel_upd_left; exact Et|apply aexit_finish_groups].
  - assert (Hb : forall s0, groups s0 = groups s ->
      grel s (fst (let '(s1, f) := new_fut s0 in
                   let s2 := upd_group s1 g (gr_fut (Some f)) in
                   blocked (set_ctl (suspend_on s2 t f) t (CAexitWait g (match ws with Some w => w | None => nscope s end) exc)))) g).
    { intros s0 E0. rewrite new_fut_eq. cbn zeta.
      apply (grel_to_groups s (upd_group (nf s0) g (gr_fut (Some (nfut s0))))).
      - apply (grel_of_groups s (nf s0)); [exact E0|apply grel_upd_fut].
      - cbn [blocked fst set_running set_ctl upd_task set_tasks groups]. apply groups_suspend_on. }
    destruct ws as [w|].
    + apply Hb. reflexivity.
    + rewrite new_scope_eq. cbn [fst]. apply Hb. now rewrite groups_scope_enter.
Qed.

Lemma resume_aexit_wait_grel s0 t fo g ws exc : k_ctl (tasks s0 t) = CAexitWait g ws exc ->
  grel s0 (fst (resume s0 t fo)) g.
Proof.
  intros Hc. rewrite resume_unfold, Hc. cbn zeta.
  set (s := incs s0 t). apply (grel_of_groups s0 s); [reflexivity|].
  eapply grel_trans; [apply (grel_upd_fut s g None)|].
  destruct (snd (incoming s0 t fo)) as [e|]; [|apply wof_grel].
  match goal with |- grel _ (fst (aexit_wait_or_finish ?x _ _ _ _)) _ => set (s3 := x) end.
  apply (grel_of_groups _ s3); [|apply wof_grel].
  unfold s3. now rewrite groups_scope_cancel.
Qed.

(* Non-vacuity witnesses (vm_compute) for the run-level C06 theorems. *)
From AV Require Import Base Machine ChainThms TimerInv TimerRun TimerOwn.

(* the cycle theorem on a cycle with several ready callbacks *)
(* task 1 sleeps inside fail_at(5); task 2 sleeps 5; the clock reaches 5: both timers fire in the same tick *)
Definition cyc2_ops : list op :=
  [ANewRoot; AFailAt 1 (Some 5%Z) false; ASleep 1 None; ANewRoot; ASleep 2 (Some 5%Z); ATick 5].
Definition cyc2_state : st := final step init cyc2_ops.
(* the cycle runs every handle that was ready, the timeout callback of scope 1 last *)
Definition cyc2_cycle : list op := map ARun (rev (ready cyc2_state)).

Example cycle_witness2 :
  reach_wf cyc2_state /\ length (ready cyc2_state) = 2 /\ In (HTimeout 1 1) (ready cyc2_state) /\
  cyc2_cycle <> [] /\ hd (ATick 0) cyc2_cycle <> ARun (HTimeout 1 1) /\
  s_active (scopes cyc2_state 1) = true /\ s_cancelled (scopes cyc2_state 1) = false /\
  s_deadline (scopes cyc2_state 1) = Some 5%Z /\ (5 <= now cyc2_state)%Z /\
  wf_run cyc2_state cyc2_cycle /\ stays 1 5%Z cyc2_state cyc2_cycle /\
  (forall h, In h (ready cyc2_state) -> In (ARun h) cyc2_cycle) /\
  s_cancelled (scopes (final step cyc2_state cyc2_cycle) 1) = true.
Proof.
  assert (Ec : cyc2_cycle = [ARun (HSleepDone 5 2); ARun (HTimeout 1 1)]) by (vm_compute; reflexivity).
  split; [exists cyc2_ops; split; [cbn; tauto|reflexivity]|].
  split; [vm_compute; reflexivity|]. split; [vm_compute; tauto|].
  split; [rewrite Ec; discriminate|]. split; [rewrite Ec; cbn; discriminate|].
  split; [vm_compute; reflexivity|]. split; [vm_compute; reflexivity|]. split; [vm_compute; reflexivity|].
  split; [vm_compute; discriminate|]. split; [rewrite Ec; cbn; tauto|]. split.
  - rewrite Ec. intros pre post E. destruct pre as [|o1 [|o2 [|o3 pre]]].
    + split; vm_compute; reflexivity.
    + cbn in E. injection E as <- _. split; vm_compute; reflexivity.
    + cbn in E. injection E as <- <- _. split; vm_compute; reflexivity.
    + cbn in E. injection E as _ _ E. destruct pre; discriminate.
  - split; [|rewrite Ec; vm_compute; reflexivity].
    intros h Hh. exact (in_map ARun _ _ (proj1 (in_rev _ _) Hh)).
Qed.

(* each of the four outcomes of "due deadline ... unless disarmed" occurs *)
(* task 1 is inside fail_at(5) at a decision point, task 2 stands by, the clock reaches 5: callback pending *)
Definition dis_ops : list op := [ANewRoot; AFailAt 1 (Some 5%Z) false; ANewRoot; ATick 5].
Definition dis_state : st := final step init dis_ops.

Example disarm_outcomes_witness :
  reach_wf dis_state /\ s_active (scopes dis_state 1) = true /\ s_cancelled (scopes dis_state 1) = false /\
  s_deadline (scopes dis_state 1) = Some 5%Z /\ (5 <= now dis_state)%Z /\
  (* the loop runs the callback: cancelled *)
  (wf_run dis_state [ARun (HTimeout 1 1)] /\
   s_cancelled (scopes (final step dis_state [ARun (HTimeout 1 1)]) 1) = true) /\
  (* the host leaves the block first: not cancelled, no longer active *)
  (wf_run dis_state [AExit 1 1 true] /\
   s_cancelled (scopes (final step dis_state [AExit 1 1 true]) 1) = false /\
   s_active (scopes (final step dis_state [AExit 1 1 true]) 1) = false /\
   snd (step dis_state (AExit 1 1 true)) = RRet 0) /\
  (* somebody moves the deadline first: not cancelled, still active, other deadline, callback gone *)
  (wf_run dis_state [ASetDeadline 2 1 (Some 9%Z)] /\
   s_cancelled (scopes (final step dis_state [ASetDeadline 2 1 (Some 9%Z)]) 1) = false /\
   s_active (scopes (final step dis_state [ASetDeadline 2 1 (Some 9%Z)]) 1) = true /\
   s_deadline (scopes (final step dis_state [ASetDeadline 2 1 (Some 9%Z)]) 1) = Some 9%Z /\
   ready (final step dis_state [ASetDeadline 2 1 (Some 9%Z)]) = []) /\
  (* something else happens: not cancelled, active, same deadline, the callback is still pending *)
  (wf_run dis_state [AYield 2] /\
   s_cancelled (scopes (final step dis_state [AYield 2]) 1) = false /\
   s_active (scopes (final step dis_state [AYield 2]) 1) = true /\
   s_deadline (scopes (final step dis_state [AYield 2]) 1) = Some 5%Z /\
   In (HTimeout 1 1) (ready (final step dis_state [AYield 2]))).
Proof.
  split; [exists dis_ops; split; [cbn; tauto|reflexivity]|].
  split; [vm_compute; reflexivity|]. split; [vm_compute; reflexivity|]. split; [vm_compute; reflexivity|].
  split; [vm_compute; discriminate|].
  split; [split; [cbn; tauto|vm_compute; reflexivity]|].
  split; [split; [cbn; tauto|repeat split; vm_compute; reflexivity]|].
  split; [split; [cbn; tauto|repeat split; vm_compute; reflexivity]|].
  split; [cbn; tauto|]. split; [vm_compute; reflexivity|]. split; [vm_compute; reflexivity|].
  split; [vm_compute; reflexivity|]. vm_compute. tauto.
Qed.

(* the provisos of timeout_iff_own_deadline / move_on_caught_iff are needed *)
(* (a) without "no explicit cancel": the scope is cancelled by cancel() at time 0, its deadline never fires (cancel()
   removed the timer), the block is left at time 5: TimeoutError although s_bydeadline = false *)
Definition expl_mid : list op := [ASleep 1 None; ANewRoot; ACancel 2 1; ATick 5].
Definition expl_state : st := final step init ([ANewRoot] ++ AFailAt 1 (Some 5%Z) false :: expl_mid).

Example explicit_cancel_proviso_needed :
  let f := match k_waiter (tasks expl_state 1) with Some f => f | None => 0 end in
  let mid := expl_mid ++ [ARun (HWake 1 f)] in
  let s2 := fst (step (final step init [ANewRoot]) (AFailAt 1 (Some 5%Z) false)) in
  let s := final step s2 mid in
  wf_run init ([ANewRoot] ++ AFailAt 1 (Some 5%Z) false :: mid) /\ idle (final step init [ANewRoot]) 1 = true /\
  no_explicit_cancel 1 mid = false /\ no_redeadline 1 s2 mid = true /\ idle s 1 = true /\
  timers s = [] /\ s_bydeadline (scopes s 1) = false /\ s_cancelled (scopes s 1) = true /\
  snd (step s (AExit 1 1 true)) = RExc ETimeout /\
  s_caught (scopes (fst (step s (AExit 1 1 true))) 1) = true.
Proof. vm_compute. repeat split; try reflexivity; tauto. Qed.

(* (b) without "no deadline reassignment after it has fired": the deadline fires at 5 (s_bydeadline = true), then the
   deadline is moved to 50, the block ends with the deadline's cancellation only, no enclosing cancellation: the
   scope absorbs (cancelled_caught = True) but no TimeoutError *)
Definition redl_mid : list op :=
  [ASleep 1 None; ATick 5; ARun (HTimeout 1 1); ANewRoot; ASetDeadline 2 1 (Some 50%Z)].
Definition redl_state : st := final step init ([ANewRoot] ++ AFailAt 1 (Some 5%Z) false :: redl_mid).

Example redeadline_proviso_needed :
  let f := match k_waiter (tasks redl_state 1) with Some f => f | None => 0 end in
  let mid := redl_mid ++ [ARun (HWake 1 f)] in
  let s2 := fst (step (final step init [ANewRoot]) (AFailAt 1 (Some 5%Z) false)) in
  let s := final step s2 mid in
  wf_run init ([ANewRoot] ++ AFailAt 1 (Some 5%Z) false :: mid) /\ idle (final step init [ANewRoot]) 1 = true /\
  no_explicit_cancel 1 mid = true /\ no_redeadline 1 s2 mid = false /\ idle s 1 = true /\
  exit_guards (begin_act s 1) 1 1 = true /\ s_bydeadline (scopes s 1) = true /\ parent_visible s 1 = false /\
  k_held (tasks s 1) = Some (ECancel 2) /\
  snd (step s (AExit 1 1 true)) = RRet 1 /\
  s_caught (scopes (fst (step s (AExit 1 1 true))) 1) = true.
Proof. vm_compute. repeat split; try reflexivity; tauto. Qed.

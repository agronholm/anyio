(* Frame lemmas for the S machine: what the cancellation-delivery machinery (task_cancel, deliver, restart) can and
   cannot change.  `dframe s s'` is the strong relation satisfied by deliver/restart; the chain predicates, the
   timers and everything the C04/C06 theorems talk about are invariant under it. *)
From AV Require Import Base Machine MachineFacts.

Lemma upd_pres {A} (P : A -> Prop) (f : nat -> A) k v : P v -> (forall x, P (f x)) -> forall x, P (upd f k v x).
Proof. intros Hv Hf x. unfold upd. destruct (Nat.eqb x k); auto. Qed.

Lemma scopes_upd_other s c g x : x <> c -> scopes (upd_scope s c g) x = scopes s x.
Proof. intros H. cbn [upd_scope set_scopes scopes]. now rewrite upd_other. Qed.

Lemma scopes_upd_same s c g : scopes (upd_scope s c g) c = g (scopes s c).
Proof. cbn [upd_scope set_scopes scopes]. now rewrite upd_same. Qed.

(* everything of a scope except _cancel_handle and _pending_uncancellations *)
Record core_eq (a b : scope) : Prop := mk_core_eq {
  ce_deadline : s_deadline a = s_deadline b;
  ce_shield : s_shield a = s_shield b;
  ce_parent : s_parent a = s_parent b;
  ce_children : s_children a = s_children b;
  ce_cancelled : s_cancelled a = s_cancelled b;
  ce_caught : s_caught a = s_caught b;
  ce_active : s_active a = s_active b;
  ce_timeout : s_timeout a = s_timeout b;
  ce_tasks : s_tasks a = s_tasks b;
  ce_host : s_host a = s_host b;
  ce_bydeadline : s_bydeadline a = s_bydeadline b
}.

Lemma core_eq_refl a : core_eq a a.
Proof. constructor; reflexivity. Qed.

Lemma core_eq_trans a b c : core_eq a b -> core_eq b c -> core_eq a c.
Proof. intros [] []. constructor; congruence. Qed.

Lemma core_eq_chandle b c : core_eq (sc_chandle b c) c.
Proof. constructor; reflexivity. Qed.

Lemma core_eq_pending n c : core_eq (sc_pending n c) c.
Proof. constructor; reflexivity. Qed.

(* everything of a task except the cancellation request state (_num_cancels_requested, _must_cancel, message) *)
Record tk_eq (a b : task) : Prop := mk_tk_eq {
  te_ctl : k_ctl a = k_ctl b;
  te_started : k_started a = k_started b;
  te_done : k_done a = k_done b;
  te_waiter : k_waiter a = k_waiter b;
  te_cur : k_cur a = k_cur b;
  te_held : k_held a = k_held b;
  te_group : k_group a = k_group b;
  te_hscope : k_hscope a = k_hscope b;
  te_hevent : k_hevent a = k_hevent b;
  te_hexc : k_hexc a = k_hexc b;
  te_hret : k_hret a = k_hret b;
  te_startfut : k_startfut a = k_startfut b;
  te_final : k_final a = k_final b;
  te_tdran : k_tdran a = k_tdran b
}.

Lemma tk_eq_refl a : tk_eq a a.
Proof. constructor; reflexivity. Qed.

Lemma tk_eq_trans a b c : tk_eq a b -> tk_eq b c -> tk_eq a c.
Proof. intros [] []. constructor; congruence. Qed.

Lemma tk_eq_ncancel n k : tk_eq (tk_ncancel n k) k.
Proof. constructor; reflexivity. Qed.

Lemma tk_eq_must b m k : tk_eq (tk_must b m k) k.
Proof. constructor; reflexivity. Qed.

(* handles the delivery machinery may append to the ready queue *)
Definition soft (h : handle) : Prop :=
  match h with HWake _ _ | HDeliver _ => True | _ => False end.

Record dframe (s s' : st) : Prop := mk_dframe {
  df_ntask : ntask s' = ntask s;
  df_nscope : nscope s' = nscope s;
  df_groups : groups s' = groups s;
  df_ngroup : ngroup s' = ngroup s;
  df_nfut : nfut s' = nfut s;
  df_events : events s' = events s;
  df_nevent : nevent s' = nevent s;
  df_timers : timers s' = timers s;
  df_ntimer : ntimer s' = ntimer s;
  df_now : now s' = now s;
  df_running : running s' = running s;
  df_scopes : forall x, core_eq (scopes s' x) (scopes s x);
  df_tasks : forall t, tk_eq (tasks s' t) (tasks s t);
  df_ready : exists l, ready s' = ready s ++ l /\ Forall soft l
}.

Lemma dframe_refl s : dframe s s.
Proof.
  constructor; try reflexivity.
  - intros x. apply core_eq_refl.
  - intros t. apply tk_eq_refl.
  - exists []. split; [now rewrite app_nil_r|constructor].
Qed.

Lemma dframe_trans a b c : dframe a b -> dframe b c -> dframe a c.
Proof.
  intros H1 H2. destruct H1, H2. constructor; try congruence.
  - intros x. eapply core_eq_trans; eauto.
  - intros t. eapply tk_eq_trans; eauto.
  - destruct df_ready0 as (l1 & E1 & F1), df_ready1 as (l2 & E2 & F2).
    exists (l1 ++ l2). split; [rewrite E2, E1; now rewrite app_assoc|]. apply Forall_app. auto.
Qed.

Lemma dframe_upd_task s t g : (forall k, tk_eq (g k) k) -> dframe s (upd_task s t g).
Proof.
  intros Hg. destruct (dframe_refl s). constructor; try reflexivity; try assumption.
  intros x. cbn [upd_task set_tasks tasks]. rewrite upd_eq. destruct (Nat.eqb x t) eqn:E.
  - apply Nat.eqb_eq in E. subst x. apply Hg.
  - apply tk_eq_refl.
Qed.

Lemma dframe_upd_scope s x g : (forall c, core_eq (g c) c) -> dframe s (upd_scope s x g).
Proof.
  intros Hg. destruct (dframe_refl s). constructor; try reflexivity; try assumption.
  intros y. cbn [upd_scope set_scopes scopes]. rewrite upd_eq. destruct (Nat.eqb y x) eqn:E.
  - apply Nat.eqb_eq in E. subst y. apply Hg.
  - apply core_eq_refl.
Qed.

Lemma dframe_upd_fut s f g : dframe s (upd_fut s f g).
Proof. destruct (dframe_refl s). constructor; try reflexivity; assumption. Qed.

Lemma dframe_call_soon s h : soft h -> dframe s (call_soon s h).
Proof.
  intros Hh. destruct (dframe_refl s). constructor; try reflexivity; try assumption.
  exists [h]. split; [reflexivity|]. constructor; [exact Hh|constructor].
Qed.

Lemma dframe_fut_complete s f v : dframe s (fut_complete s f v).
Proof.
  unfold fut_complete. destruct (f_st (futs s f)); try apply dframe_refl.
  destruct (f_waiter (futs s f)) as [t|].
  - eapply dframe_trans; [apply dframe_upd_fut|]. apply dframe_call_soon. exact I.
  - apply dframe_upd_fut.
Qed.

Lemma dframe_task_cancel s t o : dframe s (task_cancel s t o).
Proof.
  unfold task_cancel. destruct (k_done (tasks s t)); [apply dframe_refl|].
  assert (H1 : dframe s (upd_task s t (tk_ncancel (S (k_ncancel (tasks s t))))))
    by (apply dframe_upd_task; intros k; apply tk_eq_ncancel).
  destruct (k_waiter (tasks s t)) as [f|].
  - destruct (fut_pending _ f).
    + eapply dframe_trans; [exact H1|apply dframe_fut_complete].
    + eapply dframe_trans; [exact H1|]. apply dframe_upd_task. intros k; apply tk_eq_must.
  - eapply dframe_trans; [exact H1|]. apply dframe_upd_task. intros k; apply tk_eq_must.
Qed.

Lemma dframe_task_uncancel s t : dframe s (task_uncancel s t).
Proof. unfold task_uncancel. apply dframe_upd_task. intros k. apply tk_eq_ncancel. Qed.

Lemma dframe_iter_uncancel n t : forall s, dframe s (iter n (fun a => task_uncancel a t) s).
Proof.
  induction n as [|n IH]; intros s; cbn [iter]; [apply dframe_refl|].
  eapply dframe_trans; [apply dframe_task_uncancel|apply IH].
Qed.

Lemma deliver_task_dframe self origin a r t : dframe a (fst (deliver_task self origin (a, r) t)).
Proof.
  destruct (deliver_task_shape self origin a r t); [apply dframe_refl|]. cbv zeta. destruct (opt_eqb _ t).
  - eapply dframe_trans; [apply dframe_task_cancel|]. apply dframe_upd_scope. intros c. apply core_eq_pending.
  - apply dframe_task_cancel.
Qed.

Lemma deliver_task_other self origin a r t x :
  x <> t -> tasks (fst (deliver_task self origin (a, r) t)) x = tasks a x.
Proof.
  intros Hx. destruct (deliver_task_shape self origin a r t); [reflexivity|]. cbv zeta.
  destruct (opt_eqb _ t); cbn [upd_scope set_scopes tasks]; now apply task_cancel_other.
Qed.

Lemma deliver_tasks_fold self origin l : forall acc,
  dframe (fst acc) (fst (fold_left (deliver_task self origin) l acc)) /\
  forall x, ~ In x l -> tasks (fst (fold_left (deliver_task self origin) l acc)) x = tasks (fst acc) x.
Proof.
  induction l as [|t l IH]; intros acc; cbn [fold_left].
  - split; [apply dframe_refl|reflexivity].
  - destruct acc as [a r]. destruct (IH (deliver_task self origin (a, r) t)) as [H1 H2]. split.
    + eapply dframe_trans; [apply deliver_task_dframe|exact H1].
    + intros x Hx. rewrite H2 by (intros Hin; apply Hx; now right).
      apply deliver_task_other. intros ->. apply Hx. now left.
Qed.

(* the scopes a delivery run started at `self` goes through: self, then recursively the children that are
   neither shielded nor cancelled *)
Fixpoint vlist (fuel : nat) (s : st) (self : sid) : list sid :=
  match fuel with
  | 0 => []
  | S fu =>
      self :: flat_map (fun c => if negb (s_shield (scopes s c)) && negb (s_cancelled (scopes s c))
                                 then vlist fu s c else [])
                       (s_children (scopes s self))
  end.

(* the tasks in reach of such a run *)
Definition reach_tasks (fuel : nat) (s : st) (self : sid) : list tid :=
  flat_map (fun x => s_tasks (scopes s x)) (vlist fuel s self).

Lemma vlist_frame fuel : forall s s' self,
  (forall x, core_eq (scopes s' x) (scopes s x)) -> vlist fuel s' self = vlist fuel s self.
Proof.
  induction fuel as [|fu IH]; intros s s' self H; [reflexivity|].
  cbn [vlist]. f_equal. rewrite (ce_children _ _ (H self)).
  apply flat_map_ext. intros c. rewrite (ce_shield _ _ (H c)), (ce_cancelled _ _ (H c)).
  destruct (negb _ && negb _); [now apply IH|reflexivity].
Qed.

Lemma reach_tasks_frame fuel s s' self :
  (forall x, core_eq (scopes s' x) (scopes s x)) -> reach_tasks fuel s' self = reach_tasks fuel s self.
Proof.
  intros H. unfold reach_tasks. rewrite (vlist_frame fuel s s' self H).
  apply flat_map_ext. intros x. apply (ce_tasks _ _ (H x)).
Qed.

(* deliver: (1) stays within dframe, (2) leaves every task outside reach completely untouched *)
Theorem deliver_spec fuel : forall s self origin,
  dframe s (fst (deliver fuel s self origin)) /\
  forall t, ~ In t (reach_tasks fuel s self) -> tasks (fst (deliver fuel s self origin)) t = tasks s t.
Proof.
  induction fuel as [|fu IH]; intros s self origin; [split; [apply dframe_refl|reflexivity]|].
  cbn [deliver].
  destruct (deliver_tasks_fold self origin (s_tasks (scopes s self)) (s, false)) as [F1 T1].
  destruct (fold_left (deliver_task self origin) (s_tasks (scopes s self)) (s, false)) as [s1 r1] eqn:E1.
  cbn [fst] in F1, T1.
  (* the fold over the children *)
  set (G := fun (acc : st * bool) (c : sid) =>
              let '(a, r) := acc in
              if negb (s_shield (scopes a c)) && negb (s_cancelled (scopes a c)) then
                let '(a', r') := deliver fu a c origin in (a', r' || r)
              else (a, r)).
  assert (HG : forall l acc, dframe s (fst acc) ->
             dframe s (fst (fold_left G l acc)) /\
             forall t, ~ In t (flat_map (fun x => s_tasks (scopes s x))
                                 (flat_map (fun c => if negb (s_shield (scopes s c)) && negb (s_cancelled (scopes s c))
                                                     then vlist fu s c else []) l)) ->
                       tasks (fst (fold_left G l acc)) t = tasks (fst acc) t).
  { induction l as [|c l IHl]; intros [a r] Ha; cbn [fold_left].
    - split; [exact Ha|reflexivity].
    - cbn [fst] in Ha. unfold G at 2 4. cbn [flat_map].
      rewrite <- (ce_shield _ _ (df_scopes _ _ Ha c)), <- (ce_cancelled _ _ (df_scopes _ _ Ha c)).
      destruct (negb (s_shield (scopes a c)) && negb (s_cancelled (scopes a c))) eqn:Eo.
      + destruct (IH a c origin) as [D1 D2]. destruct (deliver fu a c origin) as [a' r'] eqn:Ed.
        cbn [fst] in D1, D2.
        destruct (IHl (a', r' || r)) as [K1 K2]; [cbn [fst]; eapply dframe_trans; eauto|].
        split; [exact K1|]. intros t Ht. rewrite flat_map_app, in_app_iff in Ht.
        rewrite K2 by (intros Hin; apply Ht; now right). cbn [fst].
        apply D2. rewrite (reach_tasks_frame fu s a c (df_scopes _ _ Ha)).
        intros Hin. apply Ht. left. exact Hin.
      + destruct (IHl (a, r)) as [K1 K2]; [exact Ha|]. split; [exact K1|].
        intros t Ht. apply K2. exact Ht. }
  destruct (HG (s_children (scopes s1 self)) (s1, r1) F1) as [F2 T2].
  fold G. destruct (fold_left G (s_children (scopes s1 self)) (s1, r1)) as [s2 r2] eqn:E2.
  cbn [fst] in F2, T2.
  assert (F3 : dframe s (fst (if Nat.eqb origin self
                              then if r2 then (call_soon (upd_scope s2 self (sc_chandle true)) (HDeliver self), r2)
                                   else (upd_scope s2 self (sc_chandle false), r2)
                              else (s2, r2))) /\
               forall t, tasks (fst (if Nat.eqb origin self
                              then if r2 then (call_soon (upd_scope s2 self (sc_chandle true)) (HDeliver self), r2)
                                   else (upd_scope s2 self (sc_chandle false), r2)
                              else (s2, r2))) t = tasks s2 t).
  { destruct (Nat.eqb origin self); [destruct r2|]; cbn [fst]; (split; [|reflexivity]).
    - eapply dframe_trans; [exact F2|]. eapply dframe_trans; [|apply dframe_call_soon; exact I].
      apply dframe_upd_scope. intros c. apply core_eq_chandle.
    - eapply dframe_trans; [exact F2|]. apply dframe_upd_scope. intros c. apply core_eq_chandle.
    - exact F2. }
  destruct F3 as [F3 T3]. split; [exact F3|].
  intros t Ht. rewrite T3. unfold reach_tasks in Ht. cbn [vlist flat_map] in Ht. rewrite in_app_iff in Ht.
  rewrite T2.
  - apply T1. intros Hin. apply Ht. now left.
  - rewrite (ce_children _ _ (df_scopes _ _ F1 self)). intros Hin. apply Ht. now right.
Qed.

Corollary deliver_dframe fuel s self origin : dframe s (fst (deliver fuel s self origin)).
Proof. apply deliver_spec. Qed.

Corollary deliver_top_dframe s c : dframe s (deliver_top s c).
Proof. apply deliver_dframe. Qed.

Lemma restart_from_dframe fuel s : forall x, dframe s (restart_from fuel s x).
Proof.
  induction fuel as [|fu IH]; intros x; [destruct x; apply dframe_refl|].
  destruct x as [c|]; cbn [restart_from]; [|apply dframe_refl].
  destruct (s_cancelled (scopes s c)).
  - destruct (s_chandle (scopes s c)); [apply dframe_refl|apply deliver_top_dframe].
  - destruct (s_shield (scopes s c)); [apply dframe_refl|apply IH].
Qed.

Lemma restart_dframe s x : dframe s (restart s x).
Proof. apply restart_from_dframe. Qed.

(* the chain predicates only read (cancelled, shield, parent) *)
Lemma eff_cancelled_from_ext fuel s s' :
  (forall c, s_cancelled (scopes s' c) = s_cancelled (scopes s c) /\
             s_shield (scopes s' c) = s_shield (scopes s c) /\
             s_parent (scopes s' c) = s_parent (scopes s c)) ->
  forall x, eff_cancelled_from fuel s' x = eff_cancelled_from fuel s x.
Proof.
  intros H. induction fuel as [|fu IH]; intros x; [reflexivity|].
  destruct x as [c|]; cbn [eff_cancelled_from]; [|reflexivity].
  destruct (H c) as (-> & -> & ->). now rewrite IH.
Qed.

Lemma parent_visible_ext s s' :
  nscope s' = nscope s ->
  (forall c, s_cancelled (scopes s' c) = s_cancelled (scopes s c) /\
             s_shield (scopes s' c) = s_shield (scopes s c) /\
             s_parent (scopes s' c) = s_parent (scopes s c)) ->
  forall c, parent_visible s' c = parent_visible s c.
Proof.
  intros Hn H c. unfold parent_visible, eff_cancelled. destruct (H c) as (_ & -> & ->).
  destruct (s_parent (scopes s c)); [|reflexivity]. now rewrite Hn, (eff_cancelled_from_ext _ s s' H).
Qed.

Lemma dframe_chain_fields s s' : dframe s s' ->
  forall c, s_cancelled (scopes s' c) = s_cancelled (scopes s c) /\
            s_shield (scopes s' c) = s_shield (scopes s c) /\
            s_parent (scopes s' c) = s_parent (scopes s c).
Proof.
  intros H c. destruct (df_scopes _ _ H c). auto.
Qed.

Lemma dframe_parent_visible s s' c : dframe s s' -> parent_visible s' c = parent_visible s c.
Proof.
  intros H. apply parent_visible_ext; [apply (df_nscope _ _ H)|apply dframe_chain_fields, H].
Qed.

Lemma dframe_eff_cancelled s s' c : dframe s s' -> eff_cancelled s' c = eff_cancelled s c.
Proof.
  intros H. unfold eff_cancelled. rewrite (df_nscope _ _ H).
  apply eff_cancelled_from_ext, dframe_chain_fields, H.
Qed.

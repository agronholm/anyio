(* C01 / C02 / C07 clauses as theorems over every op sequence of the S machine (scopes/Machine.v).
   This file: consequences of the invariant in a single reachable state. *)
From AV Require Import Base Machine GroupInv GroupInv2 GroupInv3 GroupInv9.

(* C01: a finished task never runs again *)
Theorem no_step_after_done s t : reach s -> k_done (tasks s t) <> None ->
  k_ctl (tasks s t) = CDone /\ running s <> Some t /\ idle s t = false /\
  (forall h, In h (ready s) -> h <> HStep t /\ forall f, h <> HWake t f) /\
  (forall o, actor o = Some t -> step s o = (s, RRejected)).
Proof.
  intros R Hd. destruct (reachable s R) as [[K Ci G J] Hrun].
  pose proof (c_done1 s Ci t Hd) as Hc.
  assert (Hi : idle s t = false) by (unfold idle; rewrite Hc; reflexivity).
  refine (conj Hc (conj _ (conj Hi (conj _ _)))).
  - rewrite Hrun. discriminate.
  - intros h Hh. split.
    + intros ->. destruct (k_step s K t Hh) as [_ [H _]]. contradiction.
    + intros f ->. destruct (k_wake s K t f Hh) as [H _]. destruct (k_w1 s K t f H) as [_ [H2 _]]. contradiction.
  - intros o Ho. unfold step. rewrite Ho, Hi. reflexivity.
Qed.

(* C01: within one state, done shows in the control state; that neither is retracted by a step is
   GroupThms5.task_facts_stable *)
Theorem done_iff_cdone s t : reach s -> 0 < t < ntask s ->
  (k_done (tasks s t) <> None <-> k_ctl (tasks s t) = CDone).
Proof.
  intros R Hal. destruct (reachable s R) as [[K Ci G J] Hrun]. split.
  - apply (c_done1 s Ci t).
  - apply (c_done2 s Ci t). exact Hal.
Qed.

(* C01: the handle of a group child reports how its coroutine actually ended *)
Definition status_code (o : outcome) : Z :=
  match o with
  | ORet _ => 3%Z                                  (* FINISHED *)
  | OExc e => if is_cancel e then 5%Z else 4%Z     (* CANCELLED / FAILED *)
  | OCanc _ => 5%Z
  end.

Theorem handle_outcome_faithful s t o : reach s -> k_group (tasks s t) <> None ->
  k_final (tasks s t) = Some o ->
  e_set (events s (k_hevent (tasks s t))) = true /\
  match o with
  | ORet v => k_hret (tasks s t) = Some v /\ k_hexc (tasks s t) = None
  | OExc e => k_hexc (tasks s t) = Some e /\ k_hret (tasks s t) = None
  | OCanc _ => False
  end /\
  handle_status s (tasks s t) = status_code o.
Proof.
  intros R Hg Hf. destruct (reachable s R) as [[K Ci G J] Hrun].
  destruct (h_fin s Ci t o Hg Hf) as [H1 H2]. refine (conj H1 (conj H2 _)).
  unfold handle_status. destruct (k_group (tasks s t)); [|contradiction]. rewrite H1. cbn [negb].
  destruct o as [v|e|e]; cbn in H2.
  - destruct H2 as [_ ->]. reflexivity.
  - destruct H2 as [-> _]. reflexivity.
  - contradiction.
Qed.

(* a done group child whose coroutine never ended (k_final = None) was cancelled before its first step:
   its outcome is a cancellation and its handle stays without a result (the finished event is never set) *)
Theorem done_without_finish_is_cancelled s t : reach s -> k_done (tasks s t) <> None ->
  k_final (tasks s t) = None ->
  (exists e, k_done (tasks s t) = Some (OCanc e) /\ is_cancel e = true) /\
  k_hexc (tasks s t) = None /\ k_hret (tasks s t) = None /\
  (k_group (tasks s t) <> None -> e_set (events s (k_hevent (tasks s t))) = false).
Proof.
  intros R Hd Hf. destruct (reachable s R) as [[K Ci G J] Hrun].
  destruct (h_done s Ci t Hd Hf) as [e He]. destruct (h_nofin s Ci t Hf) as [H1 H2].
  refine (conj _ (conj H1 (conj H2 _))).
  - exists e. split; [exact He|]. apply (c_oc s Ci t e), He.
  - intros Hg. destruct (e_set (events s (k_hevent (tasks s t)))) eqn:E; [|reflexivity].
    exfalso. apply (e_hev s J t Hg E). exact Hf.
Qed.

(* every done child has its finished event set, except in the case above *)
Theorem done_child_finished_or_never_started s t : reach s -> k_group (tasks s t) <> None ->
  k_done (tasks s t) <> None ->
  (exists o, k_final (tasks s t) = Some o /\ e_set (events s (k_hevent (tasks s t))) = true) \/
  (k_final (tasks s t) = None /\ exists e, k_done (tasks s t) = Some (OCanc e)).
Proof.
  intros R Hg Hd. destruct (reachable s R) as [[K Ci G J] Hrun].
  destruct (k_final (tasks s t)) as [o|] eqn:Ef.
  - left. exists o. split; [reflexivity|]. apply (h_fin s Ci t o Hg Ef).
  - right. split; [reflexivity|]. apply (h_done s Ci t Hd Ef).
Qed.

(* C01: membership bookkeeping: g_tasks = members whose task_done has not run *)
Theorem group_tasks_are_pending_members s g t : reach s ->
  (In t (g_tasks (groups s g)) <-> In t (g_ever (groups s g)) /\ k_tdran (tasks s t) = false).
Proof. intros R. destruct (reachable s R) as [[K Ci G J] Hrun]. apply (g_mem s G g t). Qed.

(* once the group's task list is empty every member is done and its task_done callback ran *)
Theorem empty_group_all_joined s g : reach s -> g_tasks (groups s g) = [] ->
  forall t, In t (g_ever (groups s g)) -> k_done (tasks s t) <> None /\ k_tdran (tasks s t) = true.
Proof.
  intros R He t Ht. destruct (reachable s R) as [[K Ci G J] Hrun].
  assert (Htd : k_tdran (tasks s t) = true).
  { destruct (k_tdran (tasks s t)) eqn:E; [reflexivity|]. exfalso.
    assert (H : In t (g_tasks (groups s g))) by (apply (g_mem s G g t); auto). rewrite He in H. exact H. }
  split; [apply (c_td s Ci t Htd)|exact Htd].
Qed.

(* C02: the exception list of a group *)
Theorem group_excs_exactly_member_errors s g : reach s ->
  NoDup (filter (fun x => negb (Nat.eqb x 0)) (map fst (g_excs (groups s g)))) /\
  (forall t e, In (t, e) (g_excs (groups s g)) -> t <> 0 ->
     k_group (tasks s t) = Some g /\ k_tdran (tasks s t) = true /\ k_done (tasks s t) = Some (OExc e) /\
     is_cancel e = false) /\
  (forall e, In (0, e) (g_excs (groups s g)) -> is_cancel e = false) /\
  (forall t e, In t (g_ever (groups s g)) -> k_tdran (tasks s t) = true -> k_done (tasks s t) = Some (OExc e) ->
     is_cancel e = false /\
     (In (t, e) (g_excs (groups s g)) \/
      exists f, k_startfut (tasks s t) = Some f /\ f_st (futs s f) = FExc e)).
Proof.
  intros R. destruct (reachable s R) as [[K Ci G J] Hrun].
  refine (conj (x_nd s G g) (conj _ (conj (x_zero s G g) _))).
  - intros t e H Ht. destruct (x_tags s G g t e H Ht) as [H1 [H2 H3]].
    refine (conj H1 (conj H2 (conj H3 _))). apply (c_oc s Ci t e), H3.
  - intros t e H1 H2 H3. split; [apply (c_oc s Ci t e), H3|apply (x_conv s G g t e H1 H2 H3)].
Qed.

(* the outcome classes are disjoint: OExc never carries a cancellation, OCanc always does *)
Theorem outcome_classes s t e : reach s ->
  (k_done (tasks s t) = Some (OCanc e) -> is_cancel e = true) /\
  (k_done (tasks s t) = Some (OExc e) -> is_cancel e = false).
Proof. intros R. destruct (reachable s R) as [[K Ci G J] Hrun]. apply (c_oc s Ci t e). Qed.

(* C02: what __aexit__ raises when the list is not empty (definition-level) *)
Theorem group_raises_group_of_excs s t g exc : map snd (g_excs (groups s g)) <> [] ->
  aexit_finish s t g exc = aexit_raise s t g (EGroup (map snd (g_excs (groups s g)))).
Proof. intros H. unfold aexit_finish. destruct (map snd (g_excs (groups s g))); [contradiction|reflexivity]. Qed.

Theorem group_raises_body_exc_if_no_errors s t g e : g_excs (groups s g) = [] ->
  aexit_finish s t g (Some e) = aexit_raise s t g e.
Proof. intros H. unfold aexit_finish. rewrite H. reflexivity. Qed.

(* C07: corollary of the converse clause: a member's error is never lost *)
Theorem start_no_error_lost s g t e : reach s -> In t (g_ever (groups s g)) ->
  k_tdran (tasks s t) = true -> k_done (tasks s t) = Some (OExc e) ->
  In e (map snd (g_excs (groups s g))) \/
  exists f, k_startfut (tasks s t) = Some f /\ f_st (futs s f) = FExc e.
Proof.
  intros R H1 H2 H3. destruct (group_excs_exactly_member_errors s g R) as [_ [_ [_ H]]].
  destruct (H t e H1 H2 H3) as [_ [Hin|Hf]]; [left|right; exact Hf].
  apply in_map_iff. exists (t, e). auto.
Qed.

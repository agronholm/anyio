(* Kernel-hygiene invariant KInv of the S machine and its preservation by the kernel building blocks.
   KInv also holds in the middle of a step (while `running s = Some t`). *)
From AV Require Import Base Machine MachineFacts GroupInv.

Definition alloc (s : st) (t : tid) : Prop := 0 < t /\ t < ntask s.

Definition th_task (h : handle) : list tid :=
  match h with HStep t => [t] | HWake t _ => [t] | _ => [] end.
Definition thtasks (l : list handle) : list tid := flat_map th_task l.
Definition td_task (h : handle) : list tid :=
  match h with HTaskDone t => [t] | _ => [] end.
Definition tdtasks (l : list handle) : list tid := flat_map td_task l.

Definition sleepref (s : st) (f : fid) : Prop :=
  (exists tm, In (HSleepDone f tm) (ready s)) \/ (exists x, In x (timers s) /\ tm_what x = TSleep f).

(* f is referenced by something that may complete it later (other than Task.cancel on its waiter) *)
Definition refd (s : st) (f : fid) : Prop :=
  (exists e, In f (e_waiters (events s e))) \/ (exists g, g_fut (groups s g) = Some f) \/
  (exists c, k_startfut (tasks s c) = Some f) \/ sleepref s f.

(* The asyncio kernel: ready handles of a task are unique and agree with its waiter (k_wake, k_step); a waiting
   task is the waiter of its future, is not done and does not run (k_w1); while that future is pending no handle of
   the task is queued (k_pend); the running task has no handle and is not done (k_run); a task_done callback is
   queued only for a done group child, once (k_td, k_tdnodup); whatever may complete a future later refers to an
   allocated future whose waiter, if any, waits on it (k_ref); only the program can complete the command future of
   an idle task: nothing else refers to it (k_idle). *)
Record KInv (s : st) : Prop := {
  k_nodup : NoDup (thtasks (ready s));
  k_tdnodup : NoDup (tdtasks (ready s));
  k_wake : forall t f, In (HWake t f) (ready s) ->
             k_waiter (tasks s t) = Some f /\ f_st (futs s f) <> FPend;
  k_step : forall t, In (HStep t) (ready s) ->
             k_waiter (tasks s t) = None /\ k_done (tasks s t) = None /\ running s <> Some t /\ alloc s t;
  k_w1 : forall t f, k_waiter (tasks s t) = Some f ->
             f_waiter (futs s f) = Some t /\ k_done (tasks s t) = None /\ running s <> Some t /\
             alloc s t /\ f < nfut s;
  k_pend : forall t f, k_waiter (tasks s t) = Some f -> f_st (futs s f) = FPend ->
             ~ In t (thtasks (ready s));
  k_run : forall t, running s = Some t ->
             ~ In t (thtasks (ready s)) /\ k_done (tasks s t) = None /\ alloc s t;
  k_td : forall t, In (HTaskDone t) (ready s) ->
             k_done (tasks s t) <> None /\ k_tdran (tasks s t) = false /\
             k_group (tasks s t) <> None /\ alloc s t;
  k_ref : forall f, refd s f -> f < nfut s /\
             (f_st (futs s f) = FPend -> forall t, f_waiter (futs s f) = Some t ->
              k_waiter (tasks s t) = Some f);
  k_idle : forall t f, k_ctl (tasks s t) = CIdle -> k_waiter (tasks s t) = Some f -> ~ refd s f
}.

Lemma thtasks_app l l' : thtasks (l ++ l') = thtasks l ++ thtasks l'.
Proof. apply flat_map_app. Qed.
Lemma tdtasks_app l l' : tdtasks (l ++ l') = tdtasks l ++ tdtasks l'.
Proof. apply flat_map_app. Qed.
Lemma thtasks_snoc l h : thtasks (l ++ [h]) = thtasks l ++ th_task h.
Proof. rewrite thtasks_app. cbn. now rewrite app_nil_r. Qed.
Lemma tdtasks_snoc l h : tdtasks (l ++ [h]) = tdtasks l ++ td_task h.
Proof. rewrite tdtasks_app. cbn. now rewrite app_nil_r. Qed.

Lemma in_thtasks t l : In t (thtasks l) <-> In (HStep t) l \/ exists f, In (HWake t f) l.
Proof.
  unfold thtasks. rewrite in_flat_map. split.
  - intros [h [Hh Ht]]. destruct h; cbn in Ht; try contradiction; destruct Ht as [<-|[]]; eauto.
  - intros [H|[f H]]; eexists; (split; [exact H|]); cbn; auto.
Qed.

Lemma in_tdtasks t l : In t (tdtasks l) <-> In (HTaskDone t) l.
Proof.
  unfold tdtasks. rewrite in_flat_map. split.
  - intros [h [Hh Ht]]. destruct h; cbn in Ht; try contradiction. destruct Ht as [<-|[]]. exact Hh.
  - intros H. eexists; split; [exact H|]. cbn. auto.
Qed.

Definition task_handle (h : handle) : bool :=
  match h with HStep _ | HWake _ _ | HTaskDone _ => true | _ => false end.

Lemma thtasks_cons h l : thtasks (h :: l) = th_task h ++ thtasks l.
Proof. reflexivity. Qed.
Lemma tdtasks_cons h l : tdtasks (h :: l) = td_task h ++ tdtasks l.
Proof. reflexivity. Qed.

Lemma thtasks_filter p l : (forall h, task_handle h = true -> p h = true) ->
  thtasks (filter p l) = thtasks l /\ tdtasks (filter p l) = tdtasks l.
Proof.
  intros Hp. induction l as [|h l [IH1 IH2]]; [auto|]. cbn [filter].
  destruct (p h) eqn:E.
  - rewrite !thtasks_cons, !tdtasks_cons, IH1, IH2. auto.
  - rewrite !thtasks_cons, !tdtasks_cons, IH1, IH2.
    destruct h; cbn; auto;
      match type of E with p ?h = false => rewrite (Hp h eq_refl) in E end; discriminate.
Qed.

Lemma timer_filter_task tm h : task_handle h = true -> negb (is_timer_handle tm h) = true.
Proof. destruct h; cbn; intros; congruence. Qed.

Lemma remove_first_split h l : In h l ->
  exists l1 l2, l = l1 ++ h :: l2 /\ remove_first h l = l1 ++ l2.
Proof.
  induction l as [|x l IH]; [intros []|]. intros H. cbn [remove_first].
  destruct (handle_eqb x h) eqn:E.
  - apply handle_eqb_eq in E. subst x. exists [], l. auto.
  - destruct H as [->|H]; [now rewrite (proj2 (handle_eqb_eq h h) eq_refl) in E|].
    destruct (IH H) as [l1 [l2 [E1 E2]]]. exists (x :: l1), l2. cbn. now rewrite <- E1, E2.
Qed.

Lemma NoDup_app_remove_mid {A} (l1 : list A) x l2 : NoDup (l1 ++ x ++ l2) -> NoDup (l1 ++ l2).
Proof.
  induction x as [|a x IH]; [auto|]. intros H. apply IH. cbn in H. eapply NoDup_remove_1. exact H.
Qed.

Lemma NoDup_snoc {A} (l : list A) x : NoDup l -> ~ In x l -> NoDup (l ++ [x]).
Proof.
  induction l as [|a l IH]; cbn; intros Hn Hx; [constructor; [auto|constructor]|].
  inversion Hn as [|? ? Ha Hl]; subst. constructor.
  - rewrite in_app_iff. cbn. intros [H|[H|[]]]; [auto|]. apply Hx. auto.
  - apply IH; auto.
Qed.

Lemma fc_tasks s f v : tasks (fut_complete s f v) = tasks s.
Proof.
  unfold fut_complete. destruct (f_st (futs s f)); try reflexivity.
  destruct (f_waiter (futs s f)); reflexivity.
Qed.

Ltac fc_unfold := unfold fut_complete;
  match goal with |- context [f_st (futs ?s ?f)] => destruct (f_st (futs s f)) eqn:?; try reflexivity end;
  match goal with |- context [f_waiter (futs ?s ?f)] => destruct (f_waiter (futs s f)) eqn:?; try reflexivity end.

Lemma fc_groups s f v : groups (fut_complete s f v) = groups s. Proof. fc_unfold. Qed.
Lemma fc_events s f v : events (fut_complete s f v) = events s. Proof. fc_unfold. Qed.
Lemma fc_scopes s f v : scopes (fut_complete s f v) = scopes s. Proof. fc_unfold. Qed.
Lemma fc_timers s f v : timers (fut_complete s f v) = timers s. Proof. fc_unfold. Qed.
Lemma fc_running s f v : running (fut_complete s f v) = running s. Proof. fc_unfold. Qed.
Lemma fc_ntask s f v : ntask (fut_complete s f v) = ntask s. Proof. fc_unfold. Qed.
Lemma fc_nfut s f v : nfut (fut_complete s f v) = nfut s. Proof. fc_unfold. Qed.
Lemma fc_nscope s f v : nscope (fut_complete s f v) = nscope s. Proof. fc_unfold. Qed.
Lemma fc_nevent s f v : nevent (fut_complete s f v) = nevent s. Proof. fc_unfold. Qed.
Lemma fc_ngroup s f v : ngroup (fut_complete s f v) = ngroup s. Proof. fc_unfold. Qed.

(* what fut_complete does to futs and ready *)
Lemma fc_spec s f v :
  (f_st (futs s f) <> FPend /\ fut_complete s f v = s) \/
  (f_st (futs s f) = FPend /\
   futs (fut_complete s f v) = upd (futs s) f (mkFut v (f_waiter (futs s f))) /\
   ready (fut_complete s f v) =
     ready s ++ match f_waiter (futs s f) with Some t => [HWake t f] | None => [] end).
Proof.
  unfold fut_complete. destruct (f_st (futs s f)) eqn:E.
  2-4: left; split; [congruence|reflexivity].
  right. split; [reflexivity|].
  destruct (f_waiter (futs s f)) eqn:Ew; cbn; rewrite ?Ew, ?app_nil_r; auto.
Qed.

Lemma refd_mono s s' :
  (forall e f, In f (e_waiters (events s' e)) -> In f (e_waiters (events s e))) ->
  (forall g f, g_fut (groups s' g) = Some f -> exists g', g_fut (groups s g') = Some f) ->
  (forall c f, k_startfut (tasks s' c) = Some f -> exists c', k_startfut (tasks s c') = Some f) ->
  (forall f, sleepref s' f -> sleepref s f) ->
  forall f, refd s' f -> refd s f.
Proof.
  intros He Hg Hs Hsl f [[e H]|[[g H]|[[c H]|H]]].
  - left. exists e. auto.
  - right; left. eauto.
  - right; right; left. eauto.
  - right; right; right. auto.
Qed.

(* what KInv asks of a handle before it may be appended to the ready queue *)
Definition handle_ok (s : st) (h : handle) : Prop :=
  match h with
  | HStep t => (k_waiter (tasks s t) = None /\ k_done (tasks s t) = None /\ running s <> Some t /\ alloc s t) /\
               ~ In t (thtasks (ready s))
  | HWake t f => (k_waiter (tasks s t) = Some f /\ f_st (futs s f) <> FPend) /\ ~ In t (thtasks (ready s))
  | HTaskDone t => (k_done (tasks s t) <> None /\ k_tdran (tasks s t) = false /\ k_group (tasks s t) <> None /\
                    alloc s t) /\ ~ In t (tdtasks (ready s))
  | HSleepDone f _ => sleepref s f
  | HDeliver _ | HTimeout _ _ => True
  end.

Lemma K_call_soon s h : KInv s -> handle_ok s h -> KInv (call_soon s h).
Proof.
  intros K Hh.
  assert (Hin : forall x, In x (ready s ++ [h]) -> In x (ready s) \/ x = h).
  { intros x. rewrite in_app_iff. intros [H|[H|[]]]; auto. }
  assert (Hrefd : forall f, refd (call_soon s h) f -> refd s f).
  { apply refd_mono; auto.
    - intros g f H. exists g. exact H.
    - intros c f H. exists c. exact H.
    - intros f [[tm H]|H]; [|right; exact H]. apply Hin in H. destruct H as [H|<-]; [left; eauto|exact Hh]. }
  (* a task whose step or wake-up is being scheduled has no handle yet, is not running, and its wait future
     (if any) is done *)
  assert (Hth : forall t, In t (th_task h) -> ~ In t (thtasks (ready s)) /\ running s <> Some t /\
                 forall f, k_waiter (tasks s t) = Some f -> f_st (futs s f) <> FPend).
  { intros t Ht. destruct h; cbn in Ht; try contradiction; destruct Ht as [->|[]]; destruct Hh as [Hh Hn].
    - refine (conj Hn (conj _ _)); [apply Hh|]. intros f E. destruct Hh as [E' _]. congruence.
    - destruct Hh as [Hw Hp]. refine (conj Hn (conj _ _)); [apply (k_w1 s K t f Hw)|]. congruence. }
  constructor; cbn [call_soon set_ready ready tasks futs running nfut ntask]; rewrite ?thtasks_snoc, ?tdtasks_snoc.
  - destruct h; cbn [th_task]; rewrite ?app_nil_r; try apply K; (apply NoDup_snoc; [apply K|exact (proj2 Hh)]).
  - destruct h; cbn [td_task]; rewrite ?app_nil_r; try apply K; (apply NoDup_snoc; [apply K|exact (proj2 Hh)]).
  - intros t f H. apply Hin in H. destruct H as [H| <-]; [apply (k_wake s K t f H)|exact (proj1 Hh)].
  - intros t H. apply Hin in H. destruct H as [H| <-]; [apply (k_step s K t H)|exact (proj1 Hh)].
  - apply K.
  - intros t f H Hp. rewrite in_app_iff. intros [Hi|Hi]; [exact (k_pend s K t f H Hp Hi)|].
    destruct (Hth t Hi) as [_ [_ Hd]]. exact (Hd f H Hp).
  - intros t H. destruct (k_run s K t H) as [H1 H2]. split; [|exact H2].
    rewrite in_app_iff. intros [Hi|Hi]; [exact (H1 Hi)|]. destruct (Hth t Hi) as [_ [Hr _]]. exact (Hr H).
  - intros t H. apply Hin in H. destruct H as [H| <-]; [apply (k_td s K t H)|exact (proj1 Hh)].
  - intros f H. apply Hrefd in H. apply (k_ref s K f H).
  - intros t f H1 H2 H3. apply Hrefd in H3. apply (k_idle s K t f H1 H2 H3).
Qed.

Definition fut_set (s : st) (f : fid) (v : fstate) : st := upd_fut s f (fun x => mkFut v (f_waiter x)).

Lemma K_fut_set s f v : KInv s -> v <> FPend -> KInv (fut_set s f v).
Proof.
  intros K Hv.
  assert (Hst : forall x, f_st (futs (fut_set s f v) x) = FPend -> f_st (futs s x) = FPend).
  { intros x. cbn [fut_set upd_fut set_futs futs]. unfold upd. destruct (Nat.eqb_spec x f); cbn; [congruence|auto]. }
  assert (Hfw : forall x, f_waiter (futs (fut_set s f v) x) = f_waiter (futs s x)).
  { intros x. cbn [fut_set upd_fut set_futs futs]. unfold upd. destruct (Nat.eqb_spec x f); cbn; [now subst|auto]. }
  constructor; try apply K.
  - intros t x H. destruct (k_wake s K t x H) as [H1 H2]. split; [exact H1|]. intros Hp. exact (H2 (Hst x Hp)).
  - intros t x H. rewrite Hfw. apply (k_w1 s K t x H).
  - intros t x H Hp. exact (k_pend s K t x H (Hst x Hp)).
  - intros x Hx. destruct (k_ref s K x Hx) as [H1 H2]. split; [exact H1|].
    intros Hp t. rewrite Hfw. exact (H2 (Hst x Hp) t).
Qed.

Lemma K_fut_complete s f v : KInv s -> v <> FPend ->
  (f_st (futs s f) = FPend -> forall t, f_waiter (futs s f) = Some t -> k_waiter (tasks s t) = Some f) ->
  KInv (fut_complete s f v).
Proof.
  intros K Hv Hw. unfold fut_complete. destruct (f_st (futs s f)) eqn:Hp; try exact K. cbn zeta.
  fold (fut_set s f v). pose proof (K_fut_set s f v K Hv) as K1.
  destruct (f_waiter (futs s f)) as [w|] eqn:Ew; [|exact K1].
  apply K_call_soon; [exact K1|]. specialize (Hw eq_refl w eq_refl). refine (conj (conj Hw _) _).
  - cbn [fut_set upd_fut set_futs futs]. now rewrite upd_same.
  - exact (k_pend s K w f Hw Hp).
Qed.

(* KInv only looks at a few task fields and at the task/sleep handles *)
Definition kview (k : task) :=
  (k_waiter k, k_done k, k_tdran k, k_group k, k_ctl k, k_startfut k).

Lemma kview_inv k k' : kview k' = kview k ->
  k_waiter k' = k_waiter k /\ k_done k' = k_done k /\ k_tdran k' = k_tdran k /\
  k_group k' = k_group k /\ k_ctl k' = k_ctl k /\ k_startfut k' = k_startfut k.
Proof. unfold kview. intros H. injection H. tauto. Qed.

(* a future nothing knows of yet *)
Definition fresh (s : st) (f : fid) : Prop :=
  f < nfut s /\ futs s f = fut0 /\ ~ refd s f /\ forall t, k_waiter (tasks s t) <> Some f.

(* s' agrees with s on what KInv reads (the futures allocated in s among it), except that fresh futures may have
   become referenced and the callback-ran flag may differ for tasks whose done callback is not scheduled *)
Lemma KInv_ext s s' :
  (forall t, k_waiter (tasks s' t) = k_waiter (tasks s t) /\ k_done (tasks s' t) = k_done (tasks s t) /\
             k_group (tasks s' t) = k_group (tasks s t) /\ k_ctl (tasks s' t) = k_ctl (tasks s t) /\
             k_startfut (tasks s' t) = k_startfut (tasks s t)) ->
  (forall t, In (HTaskDone t) (ready s') -> k_tdran (tasks s' t) = k_tdran (tasks s t)) ->
  (forall f, f < nfut s -> futs s' f = futs s f) -> nfut s <= nfut s' -> ntask s' = ntask s ->
  running s' = running s ->
  (forall f, refd s' f -> refd s f \/ fresh s f) ->
  thtasks (ready s') = thtasks (ready s) -> tdtasks (ready s') = tdtasks (ready s) ->
  (forall h, task_handle h = true -> In h (ready s') -> In h (ready s)) ->
  KInv s -> KInv s'.
Proof.
  intros V Vtd Hf Hnf Hnt Hr Hrefd Hth Htd Hh K.
  assert (Hw : forall t f, k_waiter (tasks s t) = Some f -> futs s' f = futs s f).
  { intros t f H. apply Hf, (k_w1 s K t f H). }
  constructor; unfold alloc; rewrite ?Hth, ?Htd, ?Hnt, ?Hr.
  - apply K.
  - apply K.
  - intros t f H. apply (Hh (HWake t f) eq_refl) in H. destruct (V t) as [-> _].
    destruct (k_wake s K t f H) as [H1 H2]. now rewrite (Hw t f H1).
  - intros t H. apply (Hh (HStep t) eq_refl) in H. destruct (V t) as [-> [-> _]]. apply (k_step s K t H).
  - intros t f. destruct (V t) as [-> [-> _]]. intros H. rewrite (Hw t f H).
    destruct (k_w1 s K t f H) as [H1 [H2 [H3 [H4 H5]]]]. refine (conj H1 (conj H2 (conj H3 (conj H4 _)))). lia.
  - intros t f. destruct (V t) as [-> _]. intros H. rewrite (Hw t f H). apply (k_pend s K t f H).
  - intros t. destruct (V t) as [_ [-> _]]. apply (k_run s K t).
  - intros t H. rewrite (Vtd t H). apply (Hh (HTaskDone t) eq_refl) in H. destruct (V t) as [_ [-> [-> _]]].
    apply (k_td s K t H).
  - intros f Hx. apply Hrefd in Hx. destruct Hx as [Hx|[F1 [F2 _]]].
    + destruct (k_ref s K f Hx) as [H1 H2]. split; [lia|]. rewrite (Hf f H1).
      intros Hp t Hw'. destruct (V t) as [-> _]. auto.
    + split; [lia|]. rewrite (Hf f F1), F2. cbn. intros _ t Ht. discriminate.
  - intros t f. destruct (V t) as [-> [_ [_ [-> _]]]]. intros H1 H2 Hx. apply Hrefd in Hx.
    destruct Hx as [Hx|[_ [_ [_ F4]]]]; [eapply k_idle; eauto|]. exact (F4 t H2).
Qed.

Lemma KInv_mono_refd s s' :
  (forall t, kview (tasks s' t) = kview (tasks s t)) ->
  futs s' = futs s -> nfut s' = nfut s -> ntask s' = ntask s -> running s' = running s ->
  (forall f, refd s' f -> refd s f) ->
  thtasks (ready s') = thtasks (ready s) -> tdtasks (ready s') = tdtasks (ready s) ->
  (forall h, task_handle h = true -> In h (ready s') -> In h (ready s)) ->
  KInv s -> KInv s'.
Proof.
  intros Hv Hf Hnf Hnt Hr Hrefd. apply KInv_ext; auto.
  - intros t. pose proof (kview_inv _ _ (Hv t)). tauto.
  - intros t _. pose proof (kview_inv _ _ (Hv t)). tauto.
  - intros f _. now rewrite Hf.
  - now rewrite Hnf.
Qed.

Lemma KInv_mono s s' :
  (forall t, kview (tasks s' t) = kview (tasks s t)) ->
  futs s' = futs s -> nfut s' = nfut s -> ntask s' = ntask s -> running s' = running s ->
  events s' = events s -> groups s' = groups s ->
  thtasks (ready s') = thtasks (ready s) -> tdtasks (ready s') = tdtasks (ready s) ->
  (forall h, task_handle h = true -> In h (ready s') -> In h (ready s)) ->
  (forall f tm, In (HSleepDone f tm) (ready s') -> In (HSleepDone f tm) (ready s)) ->
  (forall x f, In x (timers s') -> tm_what x = TSleep f -> In x (timers s)) ->
  KInv s -> KInv s'.
Proof.
  intros Hv Hf Hnf Hnt Hr He Hg Hth Htd Hh Hsl Htm.
  apply KInv_mono_refd; auto.
  apply refd_mono.
  - intros e f. now rewrite He.
  - intros g f. rewrite Hg. eauto.
  - intros c f H. exists c. pose proof (kview_inv _ _ (Hv c)) as V. destruct V as [_ [_ [_ [_ [_ V]]]]].
    now rewrite <- V.
  - intros f [[tm H]|[x [H1 H2]]]; [left; eauto|right; eauto].
Qed.

Lemma upd_task_kview s t g :
  (forall k, kview (g k) = kview k) -> forall x, kview (tasks (upd_task s t g) x) = kview (tasks s x).
Proof.
  intros Hg x. cbn [upd_task set_tasks tasks]. unfold upd.
  destruct (Nat.eqb_spec x t); [subst; apply Hg|reflexivity].
Qed.

Lemma irrel_kview g : tk_irrel g -> forall k, kview (g k) = kview k.
Proof.
  intros H k. destruct (H k) as [H1 [H2 [H3 [H4 [H5 [H6 [H7 [H8 [H9 [H10 [H11 H12]]]]]]]]]]].
  unfold kview. congruence.
Qed.

Lemma K_upd_task_irrel s t g : (forall k, kview (g k) = kview k) -> KInv s -> KInv (upd_task s t g).
Proof.
  intros Hg. apply KInv_mono; try reflexivity; auto.
  apply upd_task_kview, Hg.
Qed.

Lemma K_upd_scope s c g : KInv s -> KInv (upd_scope s c g).
Proof. apply KInv_mono; try reflexivity; auto. Qed.

Lemma K_set_scopes s v : KInv s -> KInv (set_scopes s v).
Proof. apply KInv_mono; try reflexivity; auto. Qed.

Lemma K_task_cancel s t o : KInv s -> KInv (task_cancel s t o).
Proof.
  intros K. unfold task_cancel. destruct (k_done (tasks s t)) eqn:Ed; [exact K|].
  set (s1 := upd_task s t (tk_ncancel (S (k_ncancel (tasks s t))))).
  assert (K1 : KInv s1) by (apply K_upd_task_irrel; [intros k; reflexivity|exact K]).
  destruct (k_waiter (tasks s t)) as [f|] eqn:Ew.
  - destruct (fut_pending s1 f) eqn:Ep.
    + apply K_fut_complete; [exact K1|discriminate|].
      intros _ t' Ht'. destruct (k_w1 s K t f Ew) as [Hfw _].
      change (futs s1) with (futs s) in Ht'. rewrite Hfw in Ht'. injection Ht' as <-.
      unfold s1. cbn [upd_task set_tasks tasks]. rewrite upd_same. cbn. exact Ew.
    + apply K_upd_task_irrel; [intros k; reflexivity|exact K1].
  - apply K_upd_task_irrel; [intros k; reflexivity|exact K1].
Qed.

Lemma K_kprim C T s s' : kprim C T s s' -> KInv s -> KInv s'.
Proof.
  intros H K. destruct H.
  - apply K_upd_scope, K.
  - apply K_task_cancel, K.
  - apply K_upd_task_irrel; [apply irrel_kview; assumption|exact K].
  - apply K_call_soon; [exact K|exact I].
  - revert K. apply KInv_mono; try reflexivity; cbn [timer_cancel set_ready set_timers ready timers].
    + apply thtasks_filter. intros h. apply timer_filter_task.
    + apply thtasks_filter. intros h. apply timer_filter_task.
    + intros h _ Hi. apply filter_In in Hi. tauto.
    + intros f tm' Hi. apply filter_In in Hi. tauto.
    + intros x f Hi _. apply filter_In in Hi. tauto.
  - revert K. apply KInv_mono; try reflexivity; cbn [call_at fst timers]; auto.
    intros x f. rewrite in_app_iff. intros [Hi|[<-|[]]]; [auto|]. cbn. discriminate.
  - apply K_upd_task_irrel; [intros k; reflexivity|exact K].
Qed.

Lemma K_kstar C T s s' : kstar C T s s' -> KInv s -> KInv s'.
Proof. induction 1; [auto|]. intros K. eapply K_kprim; eauto. Qed.

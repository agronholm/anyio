(* Frame of one step on the cancel-scope table and on the control state / current scope of the tasks that do
   not act in that step. *)
From AV Require Import Base Machine MachineFacts GroupInv GroupInv2 GroupInv3 GroupInv4 GroupInv5 GroupInv6
  GroupWalk.

Definition sc_same (x x' : scope) : Prop :=
  s_active x' = s_active x /\ s_host x' = s_host x /\ s_parent x' = s_parent x.

(* control states a task can be in right after its allocation *)
Definition newctl (c : ctl) : Prop := c = CDone \/ c = CNew \/ c = CIdle.

(* scopes below n: an inactive scope not in En, and an active scope not hosted by the acting task t0, keep
   active/host/parent; tasks below m other than t0 keep their scope pointer and control state *)
Definition SFn (n m : nat) (t0 : tid) (En : sid -> Prop) (s s' : st) : Prop :=
  n <= nscope s' /\ m <= ntask s' /\
  (forall c, c < n ->
     (s_active (scopes s c) = false -> ~ En c -> sc_same (scopes s c) (scopes s' c)) /\
     (s_active (scopes s c) = true -> s_host (scopes s c) <> Some t0 -> sc_same (scopes s c) (scopes s' c))) /\
  (forall t, t <> t0 ->
     (t < m -> k_cur (tasks s' t) = k_cur (tasks s t) /\ k_ctl (tasks s' t) = k_ctl (tasks s t)) /\
     (m <= t -> newctl (k_ctl (tasks s t)) -> newctl (k_ctl (tasks s' t)))).

Lemma sc_same_refl x : sc_same x x.
Proof. unfold sc_same. auto. Qed.

Lemma SFn_refl n m (t0 : tid) (En : sid -> Prop) s : n <= nscope s -> m <= ntask s -> SFn n m t0 En s s.
Proof. intros Hn Hm. refine (conj Hn (conj Hm (conj _ _))); [intros c _; split; intros; apply sc_same_refl|intros t _; auto]. Qed.

Lemma SFn_trans n m (t0 : tid) (En : sid -> Prop) a b c : SFn n m t0 En a b -> SFn n m t0 En b c -> SFn n m t0 En a c.
Proof.
  intros [A1 [A2 [A3 A4]]] [B1 [B2 [B3 B4]]]. refine (conj B1 (conj B2 (conj _ _))).
  - intros x Hx. destruct (A3 x Hx) as [Ai Aa]. destruct (B3 x Hx) as [Bi Ba]. split.
    + intros Hi He. destruct (Ai Hi He) as [E1 [E2 E3]]. rewrite <- E1 in Hi.
      destruct (Bi Hi He) as [F1 [F2 F3]]. unfold sc_same. rewrite F1, F2, F3. auto.
    + intros Ha Hh. destruct (Aa Ha Hh) as [E1 [E2 E3]]. rewrite <- E1 in Ha. rewrite <- E2 in Hh.
      destruct (Ba Ha Hh) as [F1 [F2 F3]]. unfold sc_same. rewrite F1, F2, F3. auto.
  - intros t Hne. destruct (A4 t Hne) as [Al Ag]. destruct (B4 t Hne) as [Bl Bg]. split.
    + intros Ht. destruct (Al Ht) as [E1 E2]. destruct (Bl Ht) as [F1 F2]. rewrite F1, F2. auto.
    + intros Ht H. apply Bg; auto.
Qed.

(* a block that leaves the scope table alone and changes at most the acting task's record (plus irrelevant
   fields of others) *)
Lemma SFn_eq n m (t0 : tid) (En : sid -> Prop) s s' : n <= nscope s' -> m <= ntask s' -> scopes s' = scopes s ->
  (forall t, t <> t0 -> k_cur (tasks s' t) = k_cur (tasks s t) /\ k_ctl (tasks s' t) = k_ctl (tasks s t)) ->
  SFn n m t0 En s s'.
Proof.
  intros Hn Hm Es Ht. refine (conj Hn (conj Hm (conj _ _))).
  - intros c _. rewrite Es. split; intros; apply sc_same_refl.
  - intros t Hne. destruct (Ht t Hne) as [E1 E2]. split; [auto|]. intros _. now rewrite E2.
Qed.

Lemma SFn_same_tasks n m (t0 : tid) (En : sid -> Prop) s s' : n <= nscope s' -> m <= ntask s' -> scopes s' = scopes s ->
  tasks s' = tasks s -> SFn n m t0 En s s'.
Proof. intros Hn Hm Es Et. apply SFn_eq; auto. intros t _. now rewrite Et. Qed.

Lemma SFn_upd_task n m (t0 : tid) (En : sid -> Prop) s x g : n <= nscope s -> m <= ntask s ->
  (x = t0 \/ forall k, k_cur (g k) = k_cur k /\ k_ctl (g k) = k_ctl k) -> SFn n m t0 En s (upd_task s x g).
Proof.
  intros Hn Hm Hx. apply SFn_eq; auto. intros t Hne. cbn [upd_task set_tasks tasks]. unfold upd.
  destruct (Nat.eqb_spec t x) as [->|Hd]; [|auto]. destruct Hx as [->|Hg]; [contradiction|apply Hg].
Qed.

Lemma SFn_kframe n m (t0 : tid) (En : sid -> Prop) C T s s' : kframe C T s s' -> n <= nscope s -> m <= ntask s ->
  (forall c, C c -> c < n -> (s_active (scopes s c) = false -> En c) /\
                             (s_active (scopes s c) = true -> s_host (scopes s c) = Some t0)) ->
  (forall t, T t -> t = t0) -> SFn n m t0 En s s'.
Proof.
  intros F Hn Hm HC HT. refine (conj _ (conj _ (conj _ _))).
  - rewrite (fr_nscope _ _ _ _ F). exact Hn.
  - rewrite (fr_ntask _ _ _ _ F). exact Hm.
  - intros c Hc. split.
    + intros Hi He. apply (fr_sc _ _ _ _ F). intros HCc. destruct (HC c HCc Hc) as [H _]. apply He, H, Hi.
    + intros Ha Hh. apply (fr_sc _ _ _ _ F). intros HCc. destruct (HC c HCc Hc) as [_ H]. apply Hh, H, Ha.
  - intros t Hne. assert (Ec : k_ctl (tasks s' t) = k_ctl (tasks s t)) by (pose proof (tview_inv _ _ (fr_tv _ _ _ _ F t)); tauto).
    split.
    + intros _. split; [|exact Ec]. apply (fr_cur _ _ _ _ F). intros HTt. apply Hne, HT, HTt.
    + intros _. now rewrite Ec.
Qed.

Lemma SFn_kstar_none n m (t0 : tid) (En : sid -> Prop) s s' : kstar none_s none_t s s' -> n <= nscope s -> m <= ntask s -> SFn n m t0 En s s'.
Proof.
  intros H Hn Hm. apply (SFn_kframe n m t0 En _ _ _ _ (kframe_kstar _ _ _ _ H)); [exact Hn|exact Hm|intros ? []|intros ? []].
Qed.

Lemma SFn_scope_enter n m (t0 : tid) (En : sid -> Prop) s c : n <= nscope s -> m <= ntask s -> (c < n -> En c) ->
  SFn n m t0 En s (fst (scope_enter s c t0)).
Proof.
  intros Hn Hm He. destruct (s_active (scopes s c)) eqn:Ea.
  - rewrite scope_enter_active; auto. apply SFn_refl; auto.
  - apply (SFn_kframe n m t0 En _ _ _ _ (kframe_kstar _ _ _ _ (ks_scope_enter s c t0))); [exact Hn|exact Hm| |].
    + intros x <- Hx. split; [auto|congruence].
    + intros t <-. reflexivity.
Qed.

Lemma SFn_scope_exit n m (t0 : tid) (En : sid -> Prop) s c exc : n <= nscope s -> m <= ntask s ->
  SFn n m t0 En s (fst (scope_exit s c t0 exc)).
Proof.
  intros Hn Hm. destruct (scope_exit_cases s c t0 exc) as [E|[Ha [Hh Hc]]].
  - rewrite E. apply SFn_refl; auto.
  - apply (SFn_kframe n m t0 En _ _ _ _ (kframe_kstar _ _ _ _ (ks_scope_exit s c t0 exc))); [exact Hn|exact Hm| |].
    + intros x <- Hx. split; [congruence|auto].
    + intros t <-. reflexivity.
Qed.

(* bounds are monotone along the blocks: helper to re-establish n <= nscope, m <= ntask *)
Lemma SFn_bounds n m (t0 : tid) (En : sid -> Prop) s s' : SFn n m t0 En s s' -> n <= nscope s' /\ m <= ntask s'.
Proof. intros [H1 [H2 _]]. auto. Qed.

(* the same with the bounds of the source state as a premise: composes without side conditions *)
Definition SFb (n m : nat) (t0 : tid) (En : sid -> Prop) (s s' : st) : Prop :=
  n <= nscope s -> m <= ntask s -> SFn n m t0 En s s'.

Lemma SFb_refl n m (t0 : tid) (En : sid -> Prop) s : SFb n m t0 En s s.
Proof. intros Hn Hm. apply SFn_refl; auto. Qed.

Lemma SFb_trans n m (t0 : tid) (En : sid -> Prop) a b c : SFb n m t0 En a b -> SFb n m t0 En b c -> SFb n m t0 En a c.
Proof.
  intros A B Hn Hm. pose proof (A Hn Hm) as A'. destruct (SFn_bounds _ _ _ _ _ _ A') as [Hn' Hm'].
  eapply SFn_trans; [exact A'|apply B; assumption].
Qed.

Lemma SFb_same n m (t0 : tid) (En : sid -> Prop) s s' : nscope s <= nscope s' -> ntask s <= ntask s' ->
  scopes s' = scopes s -> tasks s' = tasks s -> SFb n m t0 En s s'.
Proof. intros H1 H2 Es Et Hn Hm. apply SFn_same_tasks; auto; lia. Qed.

Lemma SFb_upd_self n m (t0 : tid) (En : sid -> Prop) s g : SFb n m t0 En s (upd_task s t0 g).
Proof. intros Hn Hm. apply SFn_upd_task; auto. Qed.

Lemma SFb_upd_irrel n m (t0 : tid) (En : sid -> Prop) s x g : tk_irrel g -> SFb n m t0 En s (upd_task s x g).
Proof.
  intros Hg Hn Hm. apply SFn_upd_task; auto. right. intros k.
  destruct (Hg k) as [H1 [_ [_ [H4 _]]]]. auto.
Qed.

Lemma SFb_kstar n m (t0 : tid) (En : sid -> Prop) s s' : kstar none_s none_t s s' -> SFb n m t0 En s s'.
Proof. intros H Hn Hm. apply SFn_kstar_none; auto. Qed.

Lemma SFb_scope_enter n m (t0 : tid) (En : sid -> Prop) s c : (c < n -> En c) ->
  SFb n m t0 En s (fst (scope_enter s c t0)).
Proof. intros He Hn Hm. apply SFn_scope_enter; auto. Qed.

Lemma SFb_scope_exit n m (t0 : tid) (En : sid -> Prop) s c exc : SFb n m t0 En s (fst (scope_exit s c t0 exc)).
Proof. intros Hn Hm. apply SFn_scope_exit; auto. Qed.

Lemma SFb_fc n m (t0 : tid) (En : sid -> Prop) s f v : SFb n m t0 En s (fut_complete s f v).
Proof. apply SFb_same; rewrite ?fc_nscope, ?fc_ntask, ?fc_scopes, ?fc_tasks; auto. Qed.

(* a fresh scope: outside the domain *)
Lemma SFb_ns n m (t0 : tid) (En : sid -> Prop) s d sh : SFb n m t0 En s (ns s d sh).
Proof.
  intros Hn Hm. refine (conj _ (conj Hm (conj _ _))).
  - rewrite ns_nscope. lia.
  - intros c Hc. rewrite ns_scope_old; [|lia]. split; intros; apply sc_same_refl.
  - intros t _. auto.
Qed.

Lemma SFb_fresh_enter n m (t0 : tid) (En : sid -> Prop) s d sh :
  SFb n m t0 En s (fst (scope_enter (ns s d sh) (nscope s) t0)).
Proof.
  intros Hn Hm. eapply SFn_trans; [apply SFb_ns; auto|].
  apply SFn_scope_enter; [rewrite ns_nscope; lia|exact Hm|]. intros H. lia.
Qed.

Lemma SFb_talloc n m (t0 : tid) (En : sid -> Prop) s k ev : newctl (k_ctl k) -> SFb n m t0 En s (talloc s k ev).
Proof.
  intros Hk Hn Hm. refine (conj Hn (conj _ (conj _ _))).
  - unfold talloc. cbn. lia.
  - intros c _. split; intros; apply sc_same_refl.
  - intros t _. unfold talloc. cbn [tasks]. split.
    + intros Ht. rewrite upd_other; [auto|lia].
    + intros _ H. unfold upd. destruct (Nat.eqb_spec t (ntask s)); [exact Hk|exact H].
Qed.

Lemma SFb_keeps n m (t0 : tid) (En : sid -> Prop) s c g : sc_keeps g -> SFb n m t0 En s (upd_scope s c g).
Proof. intros Hg. apply SFb_kstar, ks_one, kp_scope_keeps, Hg. Qed.

Definition acting (o : op) : tid :=
  match actor o with
  | Some t => t
  | None => match o with ARun (HStep t) | ARun (HWake t _) | ARun (HTaskDone t) => t | _ => 0 end
  end.

Lemma acting_cases o t : t = acting o -> t <> 0 ->
  actor o = Some t \/ exists h, o = ARun h /\ ((h = HStep t \/ exists f, h = HWake t f) \/ h = HTaskDone t).
Proof.
  unfold acting. intros -> H0. destruct (actor o) eqn:Ea; [now left|right].
  destruct o; try (now elim H0). exists h. split; [reflexivity|]. destruct h; try (now elim H0); eauto.
Qed.

Lemma SFb_moves n m s o a : moves s o a (SFb n m a (entered s o)).
Proof.
  constructor.
  - apply SFb_refl.
  - apply SFb_trans.
  - intros x g _. apply SFb_upd_self.
  - intros x f v _. apply SFb_fc.
  - intros x k ev H. apply SFb_talloc. destruct H; [right; right|right; left]; reflexivity.
  - intros x y []; first [apply SFb_ns|apply SFb_same; auto].
  - intros x y [c He|d sh|c exc|c _|z|c b _|t c d _|c|c|c _|t _|tm|c t|c].
    + apply SFb_scope_enter. intros _. exact He.
    + apply SFb_fresh_enter.
    + apply SFb_scope_exit.
    + apply SFb_kstar, ks_scope_cancel.
    + apply SFb_kstar, ks_restart.
    + apply SFb_keeps, keeps_shield.
    + apply SFb_keeps, keeps_deadline.
    + apply SFb_kstar, ks_cancel_timeout.
    + apply SFb_kstar, ks_scope_timeout.
    + apply SFb_kstar, ks_deliver_top.
    + apply SFb_kstar, ks_one, kp_cancel.
    + apply SFb_kstar, ks_one, kp_tcancel.
    + apply SFb_keeps, (keeps_tasks (fun x => del t (s_tasks x))).
    + apply SFb_keeps, (keeps_tasks (fun x => add (ntask s) (s_tasks x))).
Qed.

Theorem step_scope_frame s o :
  SFn (nscope s) (ntask s) (acting o) (entered s o) s (fst (step s o)).
Proof.
  assert (G : forall a, acts s o a -> SFn (nscope s) (ntask s) a (entered s o) s (fst (step s o))).
  { intros a Ha. apply (walk_step s o a _ (SFb_moves (nscope s) (ntask s) s o a) Ha); lia. }
  assert (Ha : o = ANewRoot \/ acts s o (acting o)) by (destruct o; try destruct h; cbn; auto).
  destruct Ha as [->|Ha]; [|exact (G _ Ha)].
  (* the new root has the fresh id ntask s: it is outside the task domain, and no scope changes *)
  destruct (G (ntask s) eq_refl) as [P1 [P2 [P3 P4]]]. refine (conj P1 (conj P2 (conj _ _))).
  - intros c Hc. split; [apply (P3 c Hc)|]. intros _ _. cbn [step actor new_root fst set_running scopes].
    rewrite (kx_scopes _ _ _ _ (park_fix _ _)). apply sc_same_refl.
  - intros t Hne. destruct (Nat.eq_dec t (ntask s)) as [->|Hd]; [|apply P4, Hd].
    split; [lia|]. intros _ _. cbn [step actor new_root fst set_running tasks]. rewrite park_ctl. right; right. reflexivity.
Qed.

(* Non-vacuity: concrete op lists (checked by vm_compute) on which the hypotheses of the C01/C02/C07 theorems hold,
   and the witnesses showing that the state-form of C01 fails under API misuse. *)
From AV Require Import Base Machine GroupInv.

Lemma reach_final ops : reach (final step init ops).
Proof. exists ops. reflexivity. Qed.

(* root task 1 opens group 1, spawns children 2 and 3; child 2 raises ValueError 7 *)
Definition ops_fail : list op :=
  [ANewRoot; AGroupNew 1; AGroupEnter 1 1; ASpawn 1 1; ASpawn 1 1; ARun (HStep 2); ARun (HStep 3);
   AHold 2 7; AFinish 2 0].
(* ... its task_done runs (group cancelled), the host gets the cancellation and runs __aexit__, child 3 is
   cancelled and finishes, its task_done runs: the host is ready to leave *)
Definition ops_before_leave : list op :=
  ops_fail ++ [ARun (HTaskDone 2); ARun (HWake 1 5); AGroupExit 1 1; ARun (HWake 3 7); AFinish 3 0;
               ARun (HTaskDone 3)].

Example ex_no_step_after_done :
  let s := final step init ops_before_leave in k_done (tasks s 2) <> None.
Proof. vm_compute. discriminate. Qed.

Example ex_empty_group :
  let s := final step init ops_before_leave in
  g_tasks (groups s 1) = [] /\ g_ever (groups s 1) = [2; 3].
Proof. vm_compute. auto. Qed.

Example ex_handle_outcome :
  let s := final step init ops_before_leave in
  k_group (tasks s 2) <> None /\ k_final (tasks s 2) = Some (OExc (EErr 7)) /\
  k_group (tasks s 3) <> None /\ k_final (tasks s 3) = Some (OExc (ECancel 2)) /\ handle_status s (tasks s 3) = 5%Z.
Proof. vm_compute. repeat split; discriminate. Qed.

(* a child natively cancelled before its first step: done, but its coroutine never ran *)
Example ex_cancelled_before_first_step :
  let s := final step init [ANewRoot; AGroupNew 1; AGroupEnter 1 1; ASpawn 1 1; ANativeCancel 2; ARun (HStep 2)] in
  k_group (tasks s 2) <> None /\ k_done (tasks s 2) = Some (OCanc (ECancel 0)) /\ k_final (tasks s 2) = None /\
  handle_status s (tasks s 2) = 1%Z.
Proof. vm_compute. repeat split; discriminate. Qed.

(* the leaving step *)
Example ex_group_exit_step :
  let s := final step init ops_before_leave in
  g_left (groups s 1) = false /\ g_left (groups (fst (step s (ARun (HWake 1 10)))) 1) = true /\
  snd (step s (ARun (HWake 1 10))) = RExc (EGroup [EErr 7]).
Proof. vm_compute. auto. Qed.

Example ex_members_grow :
  let s := final step init [ANewRoot; AGroupNew 1; AGroupEnter 1 1] in
  g_ever (groups (fst (step s (ASpawn 1 1))) 1) <> g_ever (groups s 1).
Proof. vm_compute. discriminate. Qed.

Example ex_excs_grow_and_first_failure :
  let s := final step init ops_fail in
  In (HTaskDone 2) (ready s) /\ k_group (tasks s 2) = Some 1 /\
  g_excs (groups (fst (step s (ARun (HTaskDone 2)))) 1) <> g_excs (groups s 1) /\
  eff_cancelled s (g_scope (groups s 1)) = false.
Proof. vm_compute. repeat split; try discriminate. auto. Qed.

Example ex_body_exception :
  let s := final step init [ANewRoot; AGroupNew 1; AGroupEnter 1 1; AHold 1 3] in
  g_excs (groups (fst (step s (AGroupExit 1 1))) 1) = [(0, EErr 3)].
Proof. vm_compute. reflexivity. Qed.

Example ex_group_excs :
  let s := final step init ops_before_leave in
  g_excs (groups s 1) = [(2, EErr 7)] /\ k_done (tasks s 3) = Some (OCanc (ECancel 2)).
Proof. vm_compute. auto. Qed.

Definition ops_start : list op := [ANewRoot; AGroupNew 1; AGroupEnter 1 1; AStart 1 1; ARun (HStep 2)].

Example ex_started :
  let s := final step init ops_start in
  idle s 2 = true /\ k_startfut (tasks s 2) = Some 4 /\ f_st (futs s 4) = FPend /\
  f_st (futs (fst (step s (AStarted 2 42))) 4) = FRes 42.
Proof. vm_compute. auto. Qed.

Example ex_start_returns :
  let s := final step init (ops_start ++ [AStarted 2 42]) in
  k_ctl (tasks s 1) = CStartWait 1 2 4 /\ snd (step s (ARun (HWake 1 4))) = RRet 42.
Proof. vm_compute. auto. Qed.

Example ex_second_started :
  let s := final step init (ops_start ++ [AStarted 2 42]) in
  idle s 2 = true /\ k_startfut (tasks s 2) = Some 4 /\ snd (step s (AStarted 2 5)) = RExc ERuntime.
Proof. vm_compute. auto. Qed.

Example ex_pre_started_failure :
  let s := final step init (ops_start ++ [AHold 2 9; AFinish 2 0]) in
  In (HTaskDone 2) (ready s) /\ k_group (tasks s 2) = Some 1 /\ k_startfut (tasks s 2) = Some 4 /\
  f_st (futs s 4) = FPend /\ f_st (futs (fst (step s (ARun (HTaskDone 2)))) 4) = FExc (EErr 9).
Proof. vm_compute. repeat split; auto. Qed.

Definition ops_join : list op :=
  [ANewRoot; AGroupNew 1; AGroupEnter 1 1; AStart 1 1; ANativeCancel 1].

Example ex_start_cancel :
  let s := final step init ops_join in
  k_ctl (tasks s 1) = CStartWait 1 2 4 /\ In (HWake 1 4) (ready s) /\ snd (step s (ARun (HWake 1 4))) = RBlocked.
Proof. vm_compute. repeat split; auto. Qed.

Example ex_join_wakeup :
  let s := final step init (ops_join ++ [ARun (HWake 1 4); ARun (HStep 2); ARun (HDeliver 2); ARun (HWake 2 6);
                                         AFinish 2 0]) in
  k_ctl (tasks s 1) = CStartJoin 2 3 (ECancel 0) (Some 5) /\ f_st (futs s 5) = FRes 1.
Proof. vm_compute. auto. Qed.

(* API misuse: the state-form "g_left -> every member done" is false *)
(* (1) tg.cancel_scope is entered again after the block was left: the group accepts new children *)
Example group_exit_joins_all_refuted_reenter :
  let s := final step init [ANewRoot; AGroupNew 1; AGroupEnter 1 1; AGroupExit 1 1; ARun (HStep 1); AEnter 1 1;
                            ASpawn 1 1] in
  g_left (groups s 1) = true /\ In 2 (g_ever (groups s 1)) /\ k_done (tasks s 2) = None.
Proof. vm_compute. auto. Qed.

(* (2) __aexit__ called by a task that is not the host: it ends with RuntimeError, the scope stays active *)
Example group_exit_joins_all_refuted_foreign_exit :
  let s := final step init [ANewRoot; ANewRoot; AGroupNew 1; AGroupEnter 1 1; AGroupExit 2 1; ARun (HStep 2);
                            ASpawn 1 1] in
  g_left (groups s 1) = true /\ In 3 (g_ever (groups s 1)) /\ k_done (tasks s 3) = None.
Proof. vm_compute. auto. Qed.

(* (3) __aexit__ twice with a held exception: two entries tagged 0 (the model keeps _exceptions; CPython deletes it) *)
Example body_tag_not_unique_under_double_exit :
  let s := final step init [ANewRoot; AGroupNew 1; AGroupEnter 1 1; AHold 1 7; AGroupExit 1 1; ARun (HStep 1);
                            AGroupExit 1 1; ARun (HStep 1)] in
  g_excs (groups s 1) = [(0, EErr 7); (0, EGroup [EErr 7])].
Proof. vm_compute. reflexivity. Qed.

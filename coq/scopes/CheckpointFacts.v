(* C08 on the S machine: semantics of the three checkpoint functions. *)
From AV Require Import Base Machine MachineFacts.

Lemma ckif_spins_is_eff_cancelled fuel s x : ckif_spins fuel s x = eff_cancelled_from fuel s x.
Proof.
  revert x. induction fuel as [|fu IH]; intros x; cbn; [reflexivity|].
  destruct x as [c|]; [|reflexivity].
  destruct (s_cancelled (scopes s c)); [reflexivity|].
  destruct (s_shield (scopes s c)); [reflexivity|]. apply IH.
Qed.

(* the chain predicates only look at the scope table *)
Lemma eff_cancelled_from_scopes fuel s s' x :
  scopes s' = scopes s -> eff_cancelled_from fuel s' x = eff_cancelled_from fuel s x.
Proof.
  intros E. revert x. induction fuel as [|fu IH]; intros x; cbn; [reflexivity|].
  destruct x as [c|]; [|reflexivity]. rewrite E.
  destruct (s_cancelled (scopes s c)); [reflexivity|].
  destruct (s_shield (scopes s c)); [reflexivity|]. apply IH.
Qed.

Lemma begin_act_scopes s t : scopes (begin_act s t) = scopes s.
Proof. reflexivity. Qed.
Lemma begin_act_nscope s t : nscope (begin_act s t) = nscope s.
Proof. reflexivity. Qed.
Lemma begin_act_cur s t : k_cur (tasks (begin_act s t) t) = k_cur (tasks s t).
Proof. unfold begin_act, upd_task; cbn. rewrite upd_same. reflexivity. Qed.

(* checkpoint_if_cancelled: suspends iff the caller's scope is effectively cancelled; otherwise returns at once *)
Theorem ckif_suspends_iff_effectively_cancelled s t :
  idle s t = true ->
  snd (step s (ACkIf t)) =
    if eff_cancelled_from (nscope s) s (k_cur (tasks s t)) then RBlocked else RRet 0.
Proof.
  intros Hi. rewrite (step_puppet s (ACkIf t) t eq_refl Hi). unfold puppet_op.
  rewrite ckif_spins_is_eff_cancelled, begin_act_nscope, begin_act_cur.
  rewrite (eff_cancelled_from_scopes _ s (begin_act s t)) by apply begin_act_scopes.
  destruct (eff_cancelled_from (nscope s) s (k_cur (tasks s t))); reflexivity.
Qed.

Lemma ckif_spins_scopes fuel s s' : scopes s' = scopes s -> forall x, ckif_spins fuel s' x = ckif_spins fuel s x.
Proof. intros E x. rewrite !ckif_spins_is_eff_cancelled. now apply eff_cancelled_from_scopes. Qed.

(* what a task suspended in checkpoint(), checkpoint_if_cancelled(), sleep() or TaskHandle.wait() gets back when
   it is resumed: whatever the kernel hands it; only the spin of checkpoint_if_cancelled looks at the scopes again
   (F46: the walk is restarted from the task's own scope at every resumption) and yields again iff a cancelled
   scope is still visible from the task's current scope *)
Lemma plain_resume s t fo :
  match k_ctl (tasks s t) with
  | CYield YCheckpoint | CSleep _ _ | CHandleWait _ _ => snd (resume s t fo) = res_of_inc (snd (incoming s t fo))
  | CYield YCkIf =>
      snd (resume s t fo) =
      match snd (incoming s t fo) with
      | Some e => RExc e
      | None => if ckif_spins (nscope s) s (k_cur (tasks s t)) then RBlocked else RRet 0
      end
  | _ => True
  end.
Proof.
  unfold resume.
  assert (E : k_ctl (tasks (fst (incoming s t fo)) t) = k_ctl (tasks s t) /\
              k_cur (tasks (fst (incoming s t fo)) t) = k_cur (tasks s t) /\
              nscope (fst (incoming s t fo)) = nscope s /\ scopes (fst (incoming s t fo)) = scopes s).
  { unfold incoming. cbn [fst tasks set_running upd_task set_tasks]. rewrite upd_same. now repeat split. }
  destruct (incoming s t fo) as [s1 inc]. cbn [fst snd] in *. destruct E as (Ec & Ek & En & Es). rewrite Ec.
  destruct (k_ctl (tasks s t)) as [| |[| |c]| | | | | | |]; try exact I; try reflexivity.
  destruct inc; [reflexivity|]. rewrite Ek, En, (ckif_spins_scopes _ s s1 Es). destruct (ckif_spins _ _ _); reflexivity.
Qed.

Theorem ckif_spin_resume s t fo :
  k_ctl (tasks s t) = CYield YCkIf ->
  match snd (incoming s t fo) with
  | None => snd (resume s t fo) =
            if ckif_spins (nscope s) s (k_cur (tasks s t)) then RBlocked else RRet 0
  | Some e => snd (resume s t fo) = RExc e
  end.
Proof. intros Hc. pose proof (plain_resume s t fo) as H. rewrite Hc in H. destruct (snd (incoming s t fo)); exact H. Qed.

(* checkpoint() and cancel_shielded_checkpoint() always suspend *)
Theorem yield_always_suspends s t : idle s t = true -> snd (step s (AYield t)) = RBlocked.
Proof. intros Hi. now rewrite (step_puppet s (AYield t) t eq_refl Hi). Qed.

Theorem shieldck_always_suspends s t : idle s t = true -> snd (step s (AShieldCk t)) = RBlocked.
Proof.
  intros Hi. rewrite (step_puppet s (AShieldCk t) t eq_refl Hi). unfold puppet_op.
  destruct (new_scope (begin_act s t) None true) as [s1 c]. reflexivity.
Qed.

(* a plain checkpoint returns to the program exactly what the kernel hands it on resumption *)
Theorem yield_resume s t fo :
  k_ctl (tasks s t) = CYield YCheckpoint ->
  snd (resume s t fo) = res_of_inc (snd (incoming s t fo)).
Proof. intros Hc. pose proof (plain_resume s t fo) as H. now rewrite Hc in H. Qed.

(* a cancellation that arrives at one of the plain waits is raised in the program *)
Lemma resume_raises s t fo e :
  match k_ctl (tasks s t) with
  | CYield YCheckpoint | CYield YCkIf | CSleep _ _ | CHandleWait _ _ => True
  | _ => False
  end ->
  snd (incoming s t fo) = Some e -> snd (resume s t fo) = RExc e.
Proof.
  intros Hc Hi. pose proof (plain_resume s t fo) as H. rewrite Hi in H.
  destruct (k_ctl (tasks s t)) as [| |[| |c]| | | | | | |]; try contradiction; exact H.
Qed.

(* non-vacuity *)
Example ex_ckif_cancelled :
  let s := final step init [ANewRoot; ANewScope 1 None false; AEnter 1 1; ACancel 1 1] in
  idle s 1 = true /\ eff_cancelled_from (nscope s) s (k_cur (tasks s 1)) = true /\
  snd (step s (ACkIf 1)) = RBlocked.
Proof. vm_compute. auto. Qed.

Example ex_ckif_shielded :
  let s := final step init [ANewRoot; ANewScope 1 None false; AEnter 1 1;
                            ANewScope 1 None true; AEnter 1 2; ACancel 1 1] in
  idle s 1 = true /\ snd (step s (ACkIf 1)) = RRet 0.
Proof. vm_compute. auto. Qed.

(* F46: the same at EVERY re-check of the spin.  When the loop runs the step callback of a task spinning in
   checkpoint_if_cancelled and the task carries no cancellation request, the walk is restarted from the task's own
   scope: it yields again iff that scope is (still) effectively cancelled, and returns normally otherwise -- it never
   spins when nothing cancelled is visible (any state; no invariant needed). *)
Theorem ckif_respin_iff_effectively_cancelled s t :
  In (HStep t) (ready s) -> k_ctl (tasks s t) = CYield YCkIf -> k_must (tasks s t) = false ->
  snd (step s (ARun (HStep t))) =
    if eff_cancelled_from (nscope s) s (k_cur (tasks s t)) then RBlocked else RRet 0.
Proof.
  intros Hin Hc Hm. cbn [step actor]. rewrite (run_handle_in s _ Hin). set (s1 := dequeue s (HStep t)).
  pose proof (ckif_spin_resume s1 t None Hc) as H.
  assert (Ei : snd (incoming s1 t None) = None).
  { unfold incoming. cbn [snd]. change (tasks s1 t) with (tasks s t). now rewrite Hm. }
  rewrite Ei in H. rewrite H. rewrite ckif_spins_is_eff_cancelled.
  change (nscope s1) with (nscope s). change (tasks s1 t) with (tasks s t).
  now rewrite (eff_cancelled_from_scopes _ s s1 _ eq_refl).
Qed.

Corollary ckif_spin_released_when_nothing_visible s t :
  In (HStep t) (ready s) -> k_ctl (tasks s t) = CYield YCkIf -> k_must (tasks s t) = false ->
  eff_cancelled_from (nscope s) s (k_cur (tasks s t)) = false ->
  snd (step s (ARun (HStep t))) = RRet 0.
Proof. intros A B C D. rewrite (ckif_respin_iff_effectively_cancelled s t A B C), D. reflexivity. Qed.

(* not vacuous, both ways: a task spinning under its own cancelled scope yields again (the delivery has not run yet);
   after its scope is un-seen through a raised shield it returns *)
Example ckif_respin_examples :
  let s := final step init [ANewRoot; ANewScope 1 None false; AEnter 1 1; ACancel 1 1; ACkIf 1] in
  In (HStep 1) (ready s) /\ k_ctl (tasks s 1) = CYield YCkIf /\ k_must (tasks s 1) = false /\
  eff_cancelled_from (nscope s) s (k_cur (tasks s 1)) = true /\ snd (step s (ARun (HStep 1))) = RBlocked.
Proof. vm_compute. repeat split; auto. Qed.

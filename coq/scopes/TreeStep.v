(* Every op of the generated domain (op_ok) preserves the structural invariant (Tree, Ctl), the delivery
   invariant I4 (DInv), the provenance of queued delivery callbacks (HDI) and the place of debts (DBH), and respects
   the potential of C05 (pstep: the cancel counter of a task minus the debts of the scopes it hosts never decreases
   and is constant for root tasks). *)
From AV Require Import Base Machine MachineFacts ScopeFrames TreeInv DeliverAlive PotentialInv DebtInv HdInv.

(* neutral steps: same tree, only the listed tasks' records change, no new task-done callback;
   the delivery invariant and the potential are carried along *)
Definition nstep0 (l : list tid) (a b : st) : Prop :=
  treq a b /\ tcb l a b /\ rq_td a b /\ (TreeL a -> DInv a -> DInv b).

Definition nstep (l : list tid) (a b : st) : Prop := nstep0 l a b /\ (Tree a -> pstep a b).

Lemma ns0_refl l a : nstep0 l a a.
Proof. split; [apply treq_refl|split; [apply tcb_refl|split; [apply rq_td_refl|auto]]]. Qed.

Lemma ns0_trans l a b c : nstep0 l a b -> nstep0 l b c -> nstep0 l a c.
Proof.
  intros [A1 [A2 [A3 A4]]] [B1 [B2 [B3 B4]]].
  split; [eapply treq_trans; eauto|split; [eapply tcb_trans; eauto|split; [eapply rq_td_trans; eauto|]]].
  intros T I. apply B4; [eapply TreeL_treq; eauto|auto].
Qed.

Lemma ns_refl l a : nstep l a a.
Proof. split; [apply ns0_refl|intros _; apply pstep_refl]. Qed.

Lemma ns_trans l a b c : nstep l a b -> nstep l b c -> nstep l a c.
Proof.
  intros [A PA] [B PB]. split; [eapply ns0_trans; eauto|].
  intros T. assert (K : treq a b) by apply A.
  apply (pstep_trans a b c); [now apply PA|apply PB; eapply Tree_treq; eauto|now apply same_alloc_group].
Qed.

Lemma ns0_dq l a b : treq a b -> tcb l a b -> rq_td a b -> dq a b -> nstep0 l a b.
Proof.
  intros K1 K2 K3 Q. split; [exact K1|split; [exact K2|split; [exact K3|]]].
  intros _ I. eapply DInv_dq; eauto.
Qed.

(* the two outside influences on the counter are neutral for everything but the potential *)
Lemma ns0_task_cancel l s t o : nstep0 l s (task_cancel s t o).
Proof.
  apply ns0_dq; [apply treq_task_cancel|apply tcb_kframe, kframe_task_cancel|apply rq_td_kframe, kframe_task_cancel|
                 apply dq_task_cancel].
Qed.

Lemma ns0_task_uncancel l s t : nstep0 l s (task_uncancel s t).
Proof.
  apply ns0_dq; [apply treq_task_uncancel|apply tcb_kframe, kframe_task_uncancel|
                 apply rq_td_kframe, kframe_task_uncancel|apply dq_task_uncancel].
Qed.

Lemma ns_restart l s x : nstep l s (restart s x).
Proof.
  pose proof (kframe_restart s x) as K. split.
  - split; [now apply kframe_treq|split; [now apply tcb_kframe|split; [now apply rq_td_kframe|]]].
    apply D_restart_any.
  - intros T. apply P_restart. now apply Pok_Tree.
Qed.

(* what a step keeps beside: queued delivery callbacks belong to cancelled scopes (HDI) and
   debts sit below cancelled scopes (DBH); the second needs the first when a delivery callback runs *)
Definition jstep (a b : st) : Prop := HDI a /\ DBH a -> HDI b /\ DBH b.

Lemma jstep_refl a : jstep a a.
Proof. intros J; exact J. Qed.

Lemma jstep_trans a b c : jstep a b -> jstep b c -> jstep a c.
Proof. intros H1 H2 J. apply H2, H1, J. Qed.

Lemma jstep_of a b : hstep a b -> dbstep a b -> jstep a b.
Proof. intros H D [Ha Da]. split; [now apply H|now apply D]. Qed.

Lemma jstep_same a b : treq a b -> scopes b = scopes a -> rdq a b -> jstep a b.
Proof.
  intros K E R. apply jstep_of; [|now apply dbstep_dbm, dbm_same_scopes].
  intros H. apply (HDI_neutral a b H K); [|exact R]. intros x. now rewrite E.
Qed.

(* neutral steps that also keep HDI and DBH *)
Definition nsj (l : list tid) (a b : st) : Prop := nstep l a b /\ jstep a b.

Lemma nsj_refl l a : nsj l a a.
Proof. split; [apply ns_refl|apply jstep_refl]. Qed.

Lemma nsj_trans l a b c : nsj l a b -> nsj l b c -> nsj l a c.
Proof. intros [A1 A2] [B1 B2]. split; [eapply ns_trans; eauto|eapply jstep_trans; eauto]. Qed.

Lemma nsj_treq l a b : nsj l a b -> treq a b.
Proof. intros H. apply H. Qed.

Lemma nsj_dq l a b : treq a b -> tcb l a b -> rq_td a b -> dq a b -> inert a b -> rdq a b -> nsj l a b.
Proof.
  intros K1 K2 K3 Q In R. split; [split; [now apply ns0_dq|intros _; now apply pstep_inert]|].
  apply jstep_of; [|now apply dbstep_dbm, dbm_dq]. intros H. apply (HDI_neutral a b H K1); [|exact R].
  intros x. now rewrite (vw_cancelled _ _ (dq_scope _ _ Q x)).
Qed.

(* a step with its own arguments for DInv, the potential, HDI and DBH *)
Lemma nsj_of l a b :
  treq a b -> tcb l a b -> rq_td a b -> (TreeL a -> DInv a -> DInv b) -> (Pok a -> pstep a b) ->
  hstep a b -> dbstep a b -> nsj l a b.
Proof.
  intros K1 K2 K3 D P H B. split; [|now apply jstep_of].
  split; [split; [exact K1|split; [exact K2|split; [exact K3|exact D]]]|]. intros T. now apply P, Pok_Tree.
Qed.

(* the kernel steps of one task, and those that are nobody's in particular *)
Lemma nsj_quiet t a b : quiet t a b -> nsj [t] a b.
Proof.
  intros Q. assert (Lt : In t [t]) by now left.
  apply nsj_dq; [apply (quiet_treq t)|apply (quiet_tcb [t] t _ _ Lt)|apply (quiet_rq_td t)|apply (quiet_dq t)|
                 apply (quiet_inert t)|apply (rdq_quiet t)]; exact Q.
Qed.

Lemma nsj_quiet_any l a b : (forall t, quiet t a b) -> nsj l a b.
Proof.
  intros Q. apply nsj_dq; [apply (quiet_treq 0)|apply tcb_quiet_any|apply (quiet_rq_td 0)|apply (quiet_dq 0)|
                           apply (quiet_inert 0)|apply (rdq_quiet 0)]; auto.
Qed.

Lemma nsj_fut_complete l s f v : nsj l s (fut_complete s f v).
Proof. apply nsj_quiet_any. intros t. apply quiet_fut_complete. Qed.

Lemma nsj_same l a b :
  treq a b -> tasks b = tasks a -> ready b = ready a ->
  (forall c, sc_view (scopes b c) = sc_view (scopes a c)) ->
  (forall c, sc_acct (scopes b c) = sc_acct (scopes a c)) -> nsj l a b.
Proof.
  intros K E1 E2 E3 E4.
  apply nsj_dq; [exact K|now apply tcb_same_tasks|now apply rq_td_same| | |now apply rdq_same].
  - constructor; [exact E3|intros t; now rewrite E1|intros t; now rewrite E1|intros c H; now rewrite E2].
  - constructor; [apply (tq_nscope _ _ K)|exact E4|intros t; now rewrite E1].
Qed.

Lemma nsj_upd_task l s t g : In t l -> (forall k, tk_tree (g k) = tk_tree k) -> (forall k, k_done (g k) = k_done k) ->
  (forall k, k_ncancel (g k) = k_ncancel k) -> nsj l s (upd_task s t g).
Proof.
  intros Hin Hg Hd Hn.
  apply nsj_dq; [now apply treq_upd_task|now apply tcb_upd_task|apply rq_td_same; reflexivity| |
                 now apply inert_upd_task|now apply rdq_same].
  apply dq_upd_task. intros k. split; [|apply Hd]. pose proof (Hg k) as E. unfold tk_tree in E. now inversion E.
Qed.

Lemma nsj_upd_scope l s c g : (forall k, sc_tree (g k) = sc_tree k) -> (forall k, sc_view (g k) = sc_view k) ->
  (forall k, sc_acct (g k) = sc_acct k) -> nsj l s (upd_scope s c g).
Proof.
  intros Hg Hv Ha. apply nsj_same; [now apply treq_upd_scope|reflexivity|reflexivity| |].
  - intros x. cbn. unfold upd. destruct (Nat.eqb_spec x c); [subst; apply Hv|reflexivity].
  - intros x. cbn. unfold upd. destruct (Nat.eqb_spec x c); [subst; apply Ha|reflexivity].
Qed.

Lemma nsj_upd_group l s c g : (forall k, gr_tree (g k) = gr_tree k) -> nsj l s (upd_group s c g).
Proof. intros Hg. apply nsj_same; [now apply treq_upd_group|reflexivity|reflexivity|reflexivity|reflexivity]. Qed.

Lemma nsj_set_running l s v : nsj l s (set_running s v).
Proof. apply nsj_quiet_any. intros t. apply quiet_set_running. Qed.

Lemma nsj_scope_cancel l s c b : nsj l s (scope_cancel s c b).
Proof.
  apply nsj_of; [apply treq_scope_cancel|apply tcb_scope_cancel|apply rq_td_scope_cancel|apply D_scope_cancel|
                 apply P_scope_cancel|apply H_scope_cancel|apply DB_scope_cancel].
Qed.

Lemma nsj_cancel_timeout l s c : nsj l s (cancel_timeout s c).
Proof.
  apply nsj_dq; [apply treq_cancel_timeout|apply tcb_cancel_timeout|apply rq_td_cancel_timeout|apply dq_cancel_timeout|
                 apply inert_cancel_timeout|apply rdq_cancel_timeout].
Qed.

Lemma nsj_scope_timeout l s c : nsj l s (scope_timeout s c).
Proof.
  apply nsj_of; [apply treq_scope_timeout|apply tcb_scope_timeout|apply rq_td_scope_timeout|apply D_scope_timeout|
                 apply P_scope_timeout|apply H_scope_timeout|apply DB_scope_timeout].
Qed.

Lemma nsj_new_fut l s : nsj l s (fst (new_fut s)).
Proof. apply nsj_quiet_any. intros t. apply quiet_new_fut. Qed.

Lemma nsj_call_at l s w x : nsj l s (fst (call_at s w x)).
Proof. apply nsj_same; [apply treq_call_at|reflexivity|reflexivity|reflexivity|reflexivity]. Qed.

Lemma nsj_timer_cancel l s tm : nsj l s (timer_cancel s tm).
Proof.
  apply nsj_dq; [apply treq_timer_cancel|apply tcb_same_tasks; reflexivity|apply rq_td_timer_cancel|apply dq_timer_cancel|
                 apply inert_timer_cancel|apply rdq_timer_cancel].
Qed.

Lemma nsj_tick l s dt : nsj l s (tick s dt).
Proof.
  apply nsj_dq; [apply treq_tick|apply tcb_same_tasks; reflexivity|apply rq_td_tick|apply dq_tick|apply inert_tick|
                 apply rdq_tick].
Qed.

Lemma nsj_remove_first l s h : (forall c, h <> HDeliver c) -> nsj l s (set_ready s (remove_first h (ready s))).
Proof.
  intros Hh. apply nsj_dq; [apply treq_set_ready|apply tcb_same_tasks; reflexivity|apply rq_td_remove_first|
                            now apply dq_remove_first|apply inert_same; reflexivity|apply rdq_remove_first].
Qed.

Lemma nsj_td_tail l s3 k g t : nsj l s3 (td_tail s3 k g t).
Proof.
  apply (td_tail_closed (nsj l) g t); [apply nsj_refl|apply nsj_trans|intros; apply nsj_fut_complete|
                                       intros; apply nsj_upd_group; intros x; reflexivity|intros; apply nsj_scope_cancel].
Qed.

(* a delivery callback leaves the ready queue and runs: HDI says that its scope is cancelled *)
Lemma nsj_run_deliver s c : In (HDeliver c) (ready s) ->
  nsj [] s (set_running (deliver_top (set_running (set_ready s (remove_first (HDeliver c) (ready s))) None) c) None).
Proof.
  intros Hin. set (s1 := set_running (set_ready s (remove_first (HDeliver c) (ready s))) None).
  assert (K1 : treq s s1) by (eapply treq_trans; [apply treq_set_ready|apply (nsj_treq []), nsj_set_running]).
  pose proof (kframe_deliver_top s1 c) as K2.
  split; [split; [split; [|split; [|split]]|]|].
  - eapply treq_trans; [exact K1|]. eapply treq_trans; [apply kframe_treq, K2|apply (nsj_treq []), nsj_set_running].
  - eapply tcb_trans; [apply (tcb_same_tasks [] s s1); reflexivity|].
    eapply tcb_trans; [apply tcb_kframe, K2|apply tcb_same_tasks; reflexivity].
  - eapply rq_td_trans; [apply (rq_td_remove_first s (HDeliver c))|].
    eapply rq_td_trans; [apply (rq_td_same _ s1); reflexivity|].
    eapply rq_td_trans; [apply rq_td_kframe, K2|apply rq_td_same; reflexivity].
  - intros T I. apply (DInv_dq (deliver_top s1 c)); [now apply D_run_deliver|apply (quiet_dq 0), quiet_set_running].
  - intros T. apply (pstep_trans s (deliver_top s1 c)); [apply P_run_deliver; now apply Pok_Tree|
                                                          apply pstep_inert, (quiet_inert 0), quiet_set_running|].
    intros x Ax. apply same_alloc_group; [|exact Ax]. eapply treq_trans; [exact K1|apply kframe_treq, K2].
  - intros [H D]. destruct (hd_c _ H c Hin) as [Cc Ac].
    destruct (jstep_same s s1 K1 eq_refl (rdq_remove_first s (HDeliver c)) (conj H D)) as [H1 D1].
    apply (jstep_same (deliver_top s1 c)); [apply (nsj_treq []), nsj_set_running|reflexivity|now apply rdq_same|].
    split; [now apply H_deliver_top|now apply DB_deliver_top].
Qed.

Definition Run0 (l : list tid) (a b : st) : Prop := TreeInv.Run l a b /\ (Tree a -> DInv a -> DInv b).
Definition Run (l : list tid) (a b : st) : Prop := Run0 l a b /\ (Tree a -> pstep a b).

Lemma run_refl l s : Tree s -> Run l s s.
Proof.
  intros T. split; [|intros _; apply pstep_refl]. split; [|auto].
  split; [exact T|split; [apply creq_refl|apply rq_td_refl]].
Qed.

Lemma run_tree l a b : Run l a b -> Tree b.
Proof. intros H. apply H. Qed.

Lemma run0_trans l a b c : Run0 l a b -> Run0 l b c -> Run0 l a c.
Proof.
  intros [[Tb [Q1 R1]] D1] [[T [Q2 R2]] D2]. split.
  - split; [exact T|split; [eapply creq_trans; eauto|eapply rq_td_trans; eauto]].
  - intros Ta I. apply D2; [exact Tb|now apply D1].
Qed.

Lemma run_trans l a b c : Run l a b -> Run l b c -> Run l a c.
Proof.
  intros [R1 P1] [R2 P2]. split; [eapply run0_trans; eauto|].
  intros Ta. destruct R1 as [[Tb [Q1 _]] _].
  apply (pstep_trans a b c); [now apply P1|now apply P2|].
  intros t A. split; [exact (cq_alloc_t _ _ _ Q1 t A)|apply (cq_ids _ _ _ Q1 t A)].
Qed.

Lemma run0_n l a b : Tree a -> nstep0 l a b -> Run0 l a b.
Proof.
  intros T [K1 [K2 [K3 K4]]]. split.
  - eapply run_treq; eauto. split; [exact T|split; [apply creq_refl|apply rq_td_refl]].
  - intros _. apply K4. now apply Tree_TreeL.
Qed.

Lemma run_n l a b : Tree a -> nstep l a b -> Run l a b.
Proof. intros T [K P]. split; [now apply run0_n|exact P]. Qed.

Lemma run_lift l s0 s s' :
  Run l s0 s -> (TreeInv.Run l s0 s -> TreeInv.Run l s0 s') -> (Tree s -> DInv s -> DInv s') ->
  (Tree s -> pstep s s') -> Run l s0 s'.
Proof.
  intros [[R D] P] HR HD HP. split.
  - split; [now apply HR|]. intros T0 I0. apply HD; [apply R|now apply D].
  - intros T0. destruct R as [Ts [Q _]].
    apply (pstep_trans s0 s s'); [now apply P|now apply HP|].
    intros t A. split; [exact (cq_alloc_t _ _ _ Q t A)|apply (cq_ids _ _ _ Q t A)].
Qed.

Lemma run_exit l s0 s c t exc :
  Run l s0 s -> In t l ->
  (exit_ok s c t ->
     (forall x, ~ In x (s_children (scopes s c))) /\
     (forall t', In t' (s_tasks (scopes s c)) -> t' = t) /\
     (forall g, alloc_g s g -> g_scope (groups s g) = c -> g_tasks (groups s g) = [])) ->
  Run l s0 (fst (scope_exit s c t exc)).
Proof.
  intros R Hin Hside. apply (run_lift l s0 s _ R).
  - intros R0. now apply TreeInv.run_exit.
  - intros T I. destruct (exit_ok_dec s c t) as [Hok|Hno].
    + destruct (Hside Hok) as [NC [NT NG]]. now apply D_exit.
    + now rewrite (scope_exit_fail s c t exc Hno).
  - intros T. destruct (exit_ok_dec s c t) as [Hok|Hno].
    + destruct (Hside Hok) as [NC [NT NG]]. now apply P_exit.
    + rewrite (scope_exit_fail s c t exc Hno). apply pstep_refl.
Qed.

Lemma run_struct l a b : Run l a b -> TreeInv.Run l a b.
Proof. intros H. apply H. Qed.

(* a run that also keeps HDI and DBH *)
Definition RunJ (l : list tid) (a b : st) : Prop := Run l a b /\ jstep a b.

Lemma runj_refl l s : Tree s -> RunJ l s s.
Proof. intros T. split; [now apply run_refl|apply jstep_refl]. Qed.

Lemma runj_tree l a b : RunJ l a b -> Tree b.
Proof. intros H. apply H. Qed.

Lemma runj_trans l a b c : RunJ l a b -> RunJ l b c -> RunJ l a c.
Proof. intros [R1 J1] [R2 J2]. split; [eapply run_trans; eauto|eapply jstep_trans; eauto]. Qed.

Lemma runj_n l a b : Tree a -> nsj l a b -> RunJ l a b.
Proof. intros T [K J]. split; [now apply run_n|exact J]. Qed.

(* a run followed by neutral steps *)
Lemma runj_then l s0 a b : RunJ l s0 a -> nsj l a b -> RunJ l s0 b.
Proof. intros R K. eapply runj_trans; [exact R|]. apply runj_n; [apply R|exact K]. Qed.

Lemma runj_lift l s0 s s' :
  RunJ l s0 s -> (TreeInv.Run l s0 s -> TreeInv.Run l s0 s') -> (Tree s -> DInv s -> DInv s') ->
  (Tree s -> pstep s s') -> (Tree s -> jstep s s') -> RunJ l s0 s'.
Proof.
  intros [R J] HR HD HP HJ. split; [now apply (run_lift l s0 s)|].
  eapply jstep_trans; [exact J|]. apply HJ, R.
Qed.

Lemma runj_new_scope l s0 s d sh : RunJ l s0 s -> RunJ l s0 (fst (new_scope s d sh)).
Proof.
  intros R. apply (runj_lift l s0 s _ R); [apply TreeInv.run_new_scope|apply D_new_scope|apply P_new_scope|].
  intros T. apply jstep_of; [apply H_new_scope|apply DB_new_scope, safe_fresh, T].
Qed.

Lemma runj_enter l s0 s c t :
  RunJ l s0 s -> In t l -> alloc_t s t -> k_tdran (tasks s t) = false -> alloc_s s c ->
  (s_active (scopes s c) = false ->
   forall t' g, alloc_t s t' -> k_group (tasks s t') = Some g -> k_hscope (tasks s t') = c ->
     t' = t /\ k_cur (tasks s t) = Some (g_scope (groups s g))) ->
  (s_active (scopes s c) = false ->
   forall g, k_group (tasks s t) = Some g -> g_scope (groups s g) <> c) ->
  RunJ l s0 (fst (scope_enter s c t)).
Proof.
  intros R Hin At Dt Ac Hh Hg. apply (runj_lift l s0 s _ R).
  - intros R0. now apply TreeInv.run_enter.
  - intros T I. destruct (s_active (scopes s c)) eqn:Ic.
    + now rewrite (scope_enter_fail s c t Ic).
    + apply D_enter; auto.
  - intros T. destruct (s_active (scopes s c)) eqn:Ic.
    + rewrite (scope_enter_fail s c t Ic). apply pstep_refl.
    + apply P_enter; auto.
  - intros T. destruct (s_active (scopes s c)) eqn:Ic.
    + rewrite (scope_enter_fail s c t Ic). apply jstep_refl.
    + apply jstep_of; [apply H_enter, Ac|now apply DB_enter, safe_tree].
Qed.

Lemma runj_exit l s0 s c t exc :
  RunJ l s0 s -> In t l ->
  (exit_ok s c t ->
     (forall x, ~ In x (s_children (scopes s c))) /\
     (forall t', In t' (s_tasks (scopes s c)) -> t' = t) /\
     (forall g, alloc_g s g -> g_scope (groups s g) = c -> g_tasks (groups s g) = [])) ->
  RunJ l s0 (fst (scope_exit s c t exc)).
Proof.
  intros [R J] Hin Hside. split; [now apply run_exit|].
  eapply jstep_trans; [exact J|]. apply jstep_of; [apply H_exit|apply DB_exit].
Qed.

Lemma runj_spawn l s0 s g sf :
  RunJ l s0 s -> In (ntask s) l -> alloc_g s g -> s_active (scopes s (g_scope (groups s g))) = true ->
  RunJ l s0 (fst (spawn_task s g sf)).
Proof.
  intros R Hin Ag Ha. apply (runj_lift l s0 s _ R).
  - intros R0. now apply TreeInv.run_spawn.
  - intros T I. now apply D_spawn.
  - intros T. now apply P_spawn.
  - intros T. apply jstep_of; [apply H_spawn, (tr_gscope _ T g Ag)|apply DB_spawn, safe_fresh, T].
Qed.

Lemma runj_group_new l s0 s : RunJ l s0 s -> RunJ l s0 (gnew_struct s).
Proof.
  intros R. apply (runj_lift l s0 s _ R); [apply TreeInv.run_group_new| |apply P_group_new|].
  - intros T I. apply (DInv_dq (fst (new_scope s None false))); [now apply D_new_scope|].
    apply dq_same; [reflexivity|intros t; now split|auto].
  - intros T. apply jstep_of; [apply H_group_new|apply DB_group_new, safe_fresh, T].
Qed.

Lemma runj_new_root l s0 s : RunJ l s0 s -> In (ntask s) l -> RunJ l s0 (root_struct s).
Proof.
  intros R Hin. apply (runj_lift l s0 s _ R); [intros R0; now apply TreeInv.run_new_root| |apply P_new_root|].
  2:{ intros T. apply jstep_of; [now apply H_new_root|now apply dbstep_dbm, dbm_same_scopes]. }
  intros T [Al Hd]. destruct (Tree_fresh_task s (ntask s) T (le_n _)) as [Fc _].
  assert (Ek : forall x, x <> ntask s -> tasks (root_struct s) x = tasks s x).
  { intros x Hx. unfold root_struct. cbn. unfold upd. destruct (Nat.eqb_spec x (ntask s)); [contradiction|reflexivity]. }
  split.
  - intros A. apply (alive_at_mono s _ A (Al A)); auto.
    intros [t [D [x [Hc Hv]]]]. destruct (Nat.eq_dec t (ntask s)) as [->|Hne].
    + exfalso. unfold root_struct in Hc. cbn in Hc. unfold upd in Hc. rewrite Nat.eqb_refl in Hc. discriminate.
    + rewrite (Ek t Hne) in D, Hc. exists t. split; [exact D|]. exists x. split; [exact Hc|].
      apply (vis_view s (root_struct s) A x); [intros y; now repeat split|exact Hv].
  - exact Hd.
Qed.

(* CancelScope.shield = b, when that is a change *)
Lemma runj_set_shield l s0 s c (b : bool) :
  RunJ l s0 s ->
  RunJ l s0 (if b then upd_scope s c (sc_shield true)
             else restart (upd_scope s c (sc_shield false)) (s_parent (scopes (upd_scope s c (sc_shield false)) c))).
Proof.
  intros R. apply (runj_lift l s0 s _ R).
  - intros R0. pose proof (treq_upd_scope s c (sc_shield b) (fun k => eq_refl)) as K.
    pose proof (kframe_restart (upd_scope s c (sc_shield false)) (s_parent (scopes (upd_scope s c (sc_shield false)) c))) as F.
    destruct b.
    + apply (run_treq l s0 s _ R0 K); [apply tcb_same_tasks|apply rq_td_same]; reflexivity.
    + apply (run_treq l s0 s _ R0 (treq_trans _ _ _ K (kframe_treq _ _ F))).
      * apply (tcb_trans l s (upd_scope s c (sc_shield false))); [apply tcb_same_tasks; reflexivity|apply tcb_kframe, F].
      * apply (rq_td_trans s (upd_scope s c (sc_shield false))); [apply rq_td_same; reflexivity|apply rq_td_kframe, F].
  - apply D_set_shield.
  - intros T. apply P_set_shield, Pok_Tree, T.
  - intros _. apply jstep_of; [apply H_set_shield|apply DB_set_shield].
Qed.

(* c is neither a task group's own scope nor a task handle's scope *)
Definition pubs (s : st) (c : sid) : bool :=
  forallb (fun g => negb (Nat.eqb (g_scope (groups s g)) c)) (seq1 (pred (ngroup s))) &&
  forallb (fun t => match k_group (tasks s t) with
                    | Some _ => negb (Nat.eqb (k_hscope (tasks s t)) c)
                    | None => true
                    end) (seq1 (pred (ntask s))).

Lemma pubs_spec s c : pubs s c = true ->
  notg s c /\ (forall t g, alloc_t s t -> k_group (tasks s t) = Some g -> k_hscope (tasks s t) <> c).
Proof.
  unfold pubs. rewrite andb_true_iff, !forallb_forall. intros [H1 H2]. split.
  - intros g [A1 A2] E. assert (Hin : In g (seq1 (pred (ngroup s)))) by (apply in_seq1'; lia).
    specialize (H1 g Hin). rewrite E, Nat.eqb_refl in H1. discriminate.
  - intros t g [A1 A2] G E. assert (Hin : In t (seq1 (pred (ntask s)))) by (apply in_seq1'; lia).
    specialize (H2 t Hin). rewrite G, E, Nat.eqb_refl in H2. discriminate.
Qed.

(* AEnter, AExit: a program handles the scopes it made itself (pubs), not the scope of a task group or of a task
   handle; an AExit that the guards of scope_exit refuse anyway is harmless.  AFinish: a task ends outside every
   scope of its own: a group child in its handle scope, a root task in none.  HWake: with the future it waits on. *)
Definition op_ok (s : st) (o : op) : bool :=
  match o with
  | AEnter t c => Nat.ltb 0 c && Nat.ltb c (nscope s) && pubs s c
  | AExit t c _ =>
      pubs s c ||
      negb (s_active (scopes s c) && opt_eqb (s_host (scopes s c)) t && opt_eqb (k_cur (tasks s t)) c)
  | AGroupEnter t g => Nat.ltb 0 g && Nat.ltb g (ngroup s)
  | AFinish t _ =>
      match k_group (tasks s t) with
      | Some _ => opt_eqb (k_cur (tasks s t)) (k_hscope (tasks s t))
      | None => match k_cur (tasks s t) with None => true | Some _ => false end
      end
  | ARun (HWake t f) => opt_eqb (k_waiter (tasks s t)) f
  | _ => true
  end.

Fixpoint ops_ok (s : st) (ops : list op) : bool :=
  match ops with
  | [] => true
  | o :: r => op_ok s o && ops_ok (fst (step s o)) r
  end.

Definition SInv (s : st) : Prop := (Tree s /\ Ctl s) /\ DInv s.

Lemma si_tree s : SInv s -> Tree s. Proof. intros H. apply H. Qed.
Lemma si_ctl s : SInv s -> Ctl s. Proof. intros H. apply H. Qed.
Lemma si_dinv s : SInv s -> DInv s. Proof. intros H. apply H. Qed.

(* the outcome of an op that is neither a native cancel nor an explicit uncancel *)
Definition ids (s s' : st) : Prop :=
  forall t, alloc_t s t -> alloc_t s' t /\ k_group (tasks s' t) = k_group (tasks s t).

Definition GStep (s s' : st) : Prop := (SInv s' /\ pstep s s') /\ ids s s'.

Lemma gstep_refl s : SInv s -> GStep s s.
Proof. intros I. split; [split; [exact I|apply pstep_refl]|intros t A; now split]. Qed.

Definition GStepJ (s s' : st) : Prop := GStep s s' /\ jstep s s'.

Lemma gj_refl s : SInv s -> GStepJ s s.
Proof. intros I. split; [now apply gstep_refl|apply jstep_refl]. Qed.

Lemma ids_creq l s s' : creq l s s' -> ids s s'.
Proof. intros Q t A. split; [exact (cq_alloc_t _ _ _ Q t A)|apply (cq_ids _ _ _ Q t A)]. Qed.

Lemma ids_trans a b c : ids a b -> ids b c -> ids a c.
Proof. intros H1 H2 t A. destruct (H1 t A) as [Ab E1]. destruct (H2 t Ab) as [Ac E2]. split; [exact Ac|congruence]. Qed.

Lemma ids_treq a b : treq a b -> ids a b.
Proof. intros K t A. now apply same_alloc_group. Qed.

Lemma idle_spec s t : idle s t = true -> k_ctl (tasks s t) = CIdle /\ alloc_t s t.
Proof.
  unfold idle. destruct (k_ctl (tasks s t)); try discriminate.
  destruct (k_waiter (tasks s t)); [|discriminate].
  rewrite !andb_true_iff, !Nat.ltb_lt. intros [[_ H1] H2]. split; [reflexivity|split; assumption].
Qed.

Lemma not_tdran_of_ctl s t : Ctl s -> alloc_t s t -> k_ctl (tasks s t) <> CDone -> k_tdran (tasks s t) = false.
Proof.
  intros C A N. destruct (k_tdran (tasks s t)) eqn:D; [|reflexivity].
  destruct (c_ok _ C t A) as [_ [_ [_ [_ K]]]]. now apply K in D.
Qed.

(* what the control state of a task that has acted and goes on must satisfy *)
Definition acted (s : st) (t : tid) : Prop :=
  k_ctl (tasks s t) <> CNew /\ k_ctl (tasks s t) <> CDone /\
  (forall g c e, k_ctl (tasks s t) = CAexitCk g c e -> k_cur (tasks s t) = Some c /\ k_waiter (tasks s t) = None) /\
  (forall c, ctl_scope (k_ctl (tasks s t)) = Some c -> alloc_s s c /\ notg s c).

Lemma acted_idle s t : k_ctl (tasks s t) = CIdle -> acted s t.
Proof. intros E. unfold acted. rewrite E. refine (conj _ (conj _ (conj _ _))); intros; discriminate. Qed.

Lemma cokx_actor l s t s' :
  Ctl s -> alloc_t s t -> k_ctl (tasks s t) <> CDone -> creq l s s' -> rq_td s s' -> acted s' t -> cokx s' t.
Proof.
  intros C A N Q R [N1 [N2 [Hck Hsc]]]. pose proof (cq_alloc_t _ _ _ Q t A) as A'.
  refine (conj _ (conj _ _)).
  - intros _. refine (conj _ (conj Hck (conj Hsc (conj _ _)))).
    + intros E. contradiction.
    + intros E. contradiction.
    + intros D. destruct (cq_ids _ _ _ Q t A) as [_ [_ E]]. rewrite E in D.
      rewrite (not_tdran_of_ctl s t C A N) in D. discriminate.
  - intros NA. contradiction.
  - intros Hin. apply R in Hin. destruct (c_td _ C t Hin) as [_ E]. contradiction.
Qed.

(* final assembly: a run that leaves the control states of the tasks it touched in order *)
Lemma sinv_run0 l s s' : SInv s -> Run0 l s s' -> (forall t, In t l -> cokx s' t) -> SInv s'.
Proof.
  intros [[T C] Dv] [[T' [Q R]] Dd] Hl. split; [split; [exact T'|exact (Ctl_step l s s' C Q Hl)]|now apply Dd].
Qed.

Lemma gstep_run l s s' : SInv s -> Run l s s' -> (forall t, In t l -> cokx s' t) -> GStep s s'.
Proof.
  intros I [R0 Pp] Hl. split; [split; [now apply (sinv_run0 l s)|apply Pp, I]|apply (ids_creq l), R0].
Qed.

Lemma gj_run l s s' : SInv s -> RunJ l s s' -> (forall t, In t l -> cokx s' t) -> GStepJ s s'.
Proof. intros I [R J] Hl. split; [now apply (gstep_run l)|exact J]. Qed.

(* the same when the only touched task is the actor, which does not finish *)
Lemma actor_ok s t s' :
  SInv s -> alloc_t s t -> k_ctl (tasks s t) <> CDone -> TreeInv.Run [t] s s' -> acted s' t ->
  forall t', In t' [t] -> cokx s' t'.
Proof. intros I A N [_ [Q R]] Ha t' [<-|[]]. now apply (cokx_actor [t] s); [apply I|..]. Qed.

Lemma sinv_actor0 s t s' :
  SInv s -> alloc_t s t -> k_ctl (tasks s t) <> CDone -> Run0 [t] s s' -> acted s' t -> SInv s'.
Proof. intros I A N R Ha. apply (sinv_run0 [t] s s' I R), (actor_ok s t s' I A N); [apply R|exact Ha]. Qed.

Lemma sinv_actor s t s' :
  SInv s -> alloc_t s t -> k_ctl (tasks s t) <> CDone -> Run [t] s s' -> acted s' t -> GStep s s'.
Proof. intros I A N R Ha. apply (gstep_run [t] s s' I R), (actor_ok s t s' I A N); [apply R|exact Ha]. Qed.

Lemma gj_actor s t s' :
  SInv s -> alloc_t s t -> k_ctl (tasks s t) <> CDone -> RunJ [t] s s' -> acted s' t -> GStepJ s s'.
Proof. intros I A N [R J] Ha. split; [now apply (sinv_actor s t s')|exact J]. Qed.

Lemma sinv_ret s t s1 r :
  SInv s -> alloc_t s t -> k_ctl (tasks s t) <> CDone -> RunJ [t] s s1 -> GStepJ s (fst (ret_to_puppet s1 t r)).
Proof.
  intros I A N R.
  assert (R' : RunJ [t] s (fst (ret_to_puppet s1 t r))) by (apply (runj_then _ _ _ _ R), nsj_quiet, quiet_ret_to_puppet).
  apply (gj_actor s t _ I A N R'), acted_idle, ret_to_puppet_ctl.
Qed.

Lemma sinv_park s t s1 :
  SInv s -> alloc_t s t -> k_ctl (tasks s t) <> CDone -> RunJ [t] s s1 -> GStepJ s (set_running (park s1 t) None).
Proof.
  intros I A N R.
  assert (R' : RunJ [t] s (set_running (park s1 t) None)).
  { apply (runj_then _ _ _ _ R). eapply nsj_trans; [apply nsj_quiet, quiet_park|apply nsj_set_running]. }
  apply (gj_actor s t _ I A N R'), acted_idle, park_ctl.
Qed.

Lemma blocked_task s1 t c : tasks (set_running (set_ctl s1 t c) None) t = tk_ctl c (tasks s1 t).
Proof. cbn. unfold upd. now rewrite Nat.eqb_refl. Qed.

(* an op that blocks with control state c *)
Lemma sinv_blocked s t s1 c :
  SInv s -> alloc_t s t -> k_ctl (tasks s t) <> CDone -> RunJ [t] s s1 ->
  c <> CNew -> c <> CDone ->
  (forall g x e, c = CAexitCk g x e -> k_cur (tasks s1 t) = Some x /\ k_waiter (tasks s1 t) = None) ->
  (forall x, ctl_scope c = Some x -> alloc_s s1 x /\ notg s1 x) ->
  GStepJ s (fst (blocked (set_ctl s1 t c))).
Proof.
  intros I A N R N1 N2 Hck Hsc. cbn [fst blocked].
  assert (R' : RunJ [t] s (set_running (set_ctl s1 t c) None)).
  { apply (runj_then _ _ _ _ R). eapply nsj_trans; [apply nsj_quiet, quiet_set_ctl|apply nsj_set_running]. }
  apply (gj_actor s t _ I A N R'). unfold acted. rewrite blocked_task. exact (conj N1 (conj N2 (conj Hck Hsc))).
Qed.

Lemma run_begin s t : Tree s -> RunJ [t] s (begin_act s t).
Proof. intros T. apply runj_n; [exact T|apply nsj_quiet, quiet_begin_act]. Qed.

Definition wq (a b : st) : Prop := forall t, k_waiter (tasks b t) = k_waiter (tasks a t).

Lemma wq_refl a : wq a a. Proof. intros t; reflexivity. Qed.
Lemma wq_trans a b c : wq a b -> wq b c -> wq a c.
Proof. intros H1 H2 t. now rewrite (H2 t), (H1 t). Qed.
Lemma wq_kframe a b : kframe a b -> wq a b.
Proof. intros K t. apply (tcore_waiter _ _ (kf_tasks _ _ K t)). Qed.
Lemma wq_same a b : tasks b = tasks a -> wq a b.
Proof. intros E t. now rewrite E. Qed.

Lemma wq_cancel_timeout s c : wq s (cancel_timeout s c).
Proof. apply wq_same. unfold cancel_timeout. destruct (s_timeout (scopes s c)); reflexivity. Qed.

Lemma wq_scope_cancel s c b : wq s (scope_cancel s c b).
Proof.
  apply (scope_cancel_closed wq c wq_refl wq_trans b);
    [intros a; apply wq_cancel_timeout|intros a; apply wq_same; reflexivity|intros a _ _; apply wq_kframe, kframe_deliver_top].
Qed.

Lemma wq_scope_timeout s c : wq s (scope_timeout s c).
Proof.
  apply (scope_timeout_closed wq c wq_refl); [intros a; apply wq_scope_cancel|intros a d _ _; apply wq_same; reflexivity].
Qed.

Lemma wq_scope_enter s c t : wq s (fst (scope_enter s c t)).
Proof.
  unfold scope_enter. destruct (s_active (scopes s c)); [apply wq_refl|].
  set (s3 := match k_cur (tasks s t) with Some p => _ | None => _ end).
  assert (K3 : wq s s3).
  { unfold s3. intros t'. destruct (k_cur (tasks s t)); cbn; unfold upd; deq t' t; reflexivity. }
  assert (K5 : wq s (upd_scope (scope_timeout s3 c) c (sc_active true))).
  { eapply wq_trans; [exact K3|]. eapply wq_trans; [apply wq_scope_timeout|apply wq_same; reflexivity]. }
  destruct (s_cancelled _); cbn [fst]; [|exact K5].
  eapply wq_trans; [exact K5|apply wq_kframe, kframe_deliver_top].
Qed.

Lemma run_enter_fresh l s t d sh :
  Tree s -> In t l -> alloc_t s t -> k_tdran (tasks s t) = false ->
  RunJ l s (fst (scope_enter (fst (new_scope s d sh)) (nscope s) t)).
Proof.
  intros T Hin A D.
  assert (R1 : RunJ l s (fst (new_scope s d sh))) by (apply runj_new_scope, runj_refl, T).
  apply runj_enter; try assumption.
  - unfold alloc_s. cbn. destruct (tr_cnt _ T) as [P _]. lia.
  - intros _ t' g A' G E. exfalso. destruct (tr_kgroup _ T t' g A' G) as [_ [[_ H] _]].
    change (k_hscope (tasks s t') = nscope s) in E. lia.
  - intros _ g G E. destruct (tr_kgroup _ T t g A G) as [Ag _].
    pose proof (tr_gscope _ T g Ag) as [_ H]. change (g_scope (groups s g) = nscope s) in E. lia.
Qed.

Lemma fresh_enter_facts s t d sh :
  Tree s ->
  let s2 := fst (scope_enter (fst (new_scope s d sh)) (nscope s) t) in
  k_cur (tasks s2 t) = Some (nscope s) /\ alloc_s s2 (nscope s) /\ notg s2 (nscope s) /\
  k_waiter (tasks s2 t) = k_waiter (tasks s t).
Proof.
  intros T s2. set (s1 := fst (new_scope s d sh)) in *. set (c := nscope s) in *.
  pose proof (Tree_new_scope s d sh T) as T1. fold s1 in T1.
  assert (Ic : s_active (scopes s1 c) = false).
  { unfold s1, c. rewrite tn_A by exact T. apply tn_inactive, T. }
  destruct (scope_enter_spec s1 c t Ic) as [_ K]. fold s2 in K.
  refine (conj _ (conj _ (conj _ _))).
  - rewrite (tq_cur _ _ K), te_cur by assumption. now rewrite Nat.eqb_refl.
  - apply (tq_alloc_s _ _ K). apply (te_alloc_s s1 c t T1 Ic). unfold alloc_s, s1, c. cbn.
    destruct (tr_cnt _ T) as [P _]. lia.
  - apply (tq_notg _ _ K). apply (te_notg s1 c t T1 Ic). intros g Ag E.
    pose proof (tr_gscope _ T g Ag) as [_ H]. change (g_scope (groups s g) = nscope s) in E. lia.
  - unfold s2. rewrite (wq_scope_enter s1 c t t). reflexivity.
Qed.

Lemma scope_exit_groups s c t exc : groups (fst (scope_exit s c t exc)) = groups s.
Proof.
  destruct (exit_ok_dec s c t) as [Hok|Hno].
  - destruct (scope_exit_spec s c t exc Hok) as [s6 [K E]]. rewrite E.
    change (groups (upd_scope s6 c (sc_host None))) with (groups s6).
    rewrite (kf_groups _ _ K), (kf_groups _ _ (kframe_restart _ _)).
    unfold exit_struct. destruct (s_parent (scopes s c)); cbn; unfold cancel_timeout;
      destruct (s_timeout _); reflexivity.
  - now rewrite (scope_exit_fail s c t exc Hno).
Qed.

Lemma alloc_g_dec s g : alloc_g s g \/ ~ alloc_g s g.
Proof. unfold alloc_g. lia. Qed.

Lemma run_exit_gscope l s t g exc :
  Tree s -> In t l -> g_tasks (groups s g) = [] ->
  RunJ l s (fst (scope_exit s (g_scope (groups s g)) t exc)).
Proof.
  intros T Hin E. apply runj_exit; [now apply runj_refl|exact Hin|]. intros Hok.
  destruct (alloc_g_dec s g) as [A|N].
  - now apply exit_side_group.
  - exfalso. rewrite (tr_gblank _ T g N) in Hok. destruct Hok as [Ha _].
    apply (tr_act_alloc _ T) in Ha. destruct Ha. lia.
Qed.

Lemma run_aexit_raise l s t g e :
  Tree s -> In t l -> g_tasks (groups s g) = [] -> RunJ l s (fst (aexit_raise s t g e)).
Proof.
  intros T Hin E. unfold aexit_raise.
  pose proof (run_exit_gscope l s t g (Some e) T Hin E) as R1.
  destruct (scope_exit s (g_scope (groups s g)) t (Some e)) as [s1 x]. cbn [fst] in R1.
  assert (R2 : RunJ l s (upd_group s1 g (gr_left true))).
  { apply (runj_then _ _ _ _ R1), nsj_upd_group. intros k; reflexivity. }
  destruct x; cbn [fst]; try exact R2.
  apply (runj_then _ _ _ _ R2), nsj_upd_task; [exact Hin|intros k; reflexivity|intros k; reflexivity|intros k; reflexivity].
Qed.

Lemma run_aexit_finish l s t g exc :
  Tree s -> In t l -> g_tasks (groups s g) = [] -> RunJ l s (fst (aexit_finish s t g exc)).
Proof.
  intros T Hin E. unfold aexit_finish.
  destruct (map snd (g_excs (groups s g))) as [|e0 es]; [destruct exc as [e|]|].
  - now apply run_aexit_raise.
  - pose proof (run_exit_gscope l s t g None T Hin E) as R1.
    destruct (scope_exit s (g_scope (groups s g)) t None) as [s1 x]. cbn [fst] in R1.
    assert (R2 : RunJ l s (upd_group s1 g (gr_left true))).
    { apply (runj_then _ _ _ _ R1), nsj_upd_group. intros k; reflexivity. }
    destruct x; exact R2.
  - now apply run_aexit_raise.
Qed.

Lemma scope_ok_treq a b x : treq a b -> alloc_s a x /\ notg a x -> alloc_s b x /\ notg b x.
Proof. intros K [H1 H2]. split; [now apply (tq_alloc_s _ _ K)|now apply (tq_notg _ _ K)]. Qed.

Lemma run_actor_facts s0 s t :
  Ctl s0 -> alloc_t s0 t -> k_ctl (tasks s0 t) <> CDone -> RunJ [t] s0 s ->
  alloc_t s t /\ k_tdran (tasks s t) = false.
Proof.
  intros C A N [[[[_ [Q _]] _] _] _]. split; [exact (cq_alloc_t _ _ _ Q t A)|].
  destruct (cq_ids _ _ _ Q t A) as [_ [_ E]]. rewrite E. now apply not_tdran_of_ctl.
Qed.

Lemma sinv_wof s0 t s g ws exc :
  SInv s0 -> alloc_t s0 t -> k_ctl (tasks s0 t) <> CDone -> RunJ [t] s0 s ->
  (forall w, ws = Some w -> alloc_s s w /\ notg s w) ->
  GStepJ s0 (fst (aexit_wait_or_finish s t g ws exc)).
Proof.
  intros I A N R Hw. pose proof (runj_tree _ _ _ R) as T.
  destruct (run_actor_facts s0 s t (si_ctl _ I) A N R) as [As Ds].
  assert (Lt : In t [t]) by now left.
  unfold aexit_wait_or_finish. destruct (g_tasks (groups s g)) as [|c0 cs] eqn:Eg.
  - destruct ws as [w|].
    + destruct (Hw w eq_refl) as [Aw Nw].
      assert (R1 : RunJ [t] s (fst (scope_exit s w t None))).
      { apply runj_exit; [now apply runj_refl|exact Lt|]. intros Hok. now apply exit_side_pub. }
      pose proof (scope_exit_groups s w t None) as Eg1.
      destruct (scope_exit s w t None) as [s1 x]. cbn [fst] in *.
      assert (Eg' : g_tasks (groups s1 g) = []) by now rewrite Eg1.
      destruct x.
      * pose proof (run_aexit_finish [t] s1 t g exc (runj_tree _ _ _ R1) Lt Eg') as R2.
        destruct (aexit_finish s1 t g exc) as [s2 r]. cbn [fst] in R2.
        apply (sinv_ret s0 t s2 r I A N). eapply runj_trans; [exact R|]. eapply runj_trans; eauto.
      * pose proof (run_aexit_finish [t] s1 t g exc (runj_tree _ _ _ R1) Lt Eg') as R2.
        destruct (aexit_finish s1 t g exc) as [s2 r]. cbn [fst] in R2.
        apply (sinv_ret s0 t s2 r I A N). eapply runj_trans; [exact R|]. eapply runj_trans; eauto.
      * pose proof (run_aexit_raise [t] s1 t g e (runj_tree _ _ _ R1) Lt Eg') as R2.
        destruct (aexit_raise s1 t g e) as [s2 r]. cbn [fst] in R2.
        apply (sinv_ret s0 t s2 r I A N). eapply runj_trans; [exact R|]. eapply runj_trans; eauto.
    + pose proof (run_aexit_finish [t] s t g exc T Lt Eg) as R2.
      destruct (aexit_finish s t g exc) as [s2 r]. cbn [fst] in R2.
      apply (sinv_ret s0 t s2 r I A N). eapply runj_trans; eauto.
  - (* wait for the children *)
    assert (Tail : forall a w, RunJ [t] s0 a -> alloc_s a w /\ notg a w ->
              GStepJ s0 (fst (let '(s1, f) := new_fut a in
                         blocked (set_ctl (suspend_on (upd_group s1 g (gr_fut (Some f))) t f) t
                                          (CAexitWait g w exc))))).
    { intros a w Ra Ok. unfold new_fut. cbv zeta.
      set (a1 := mkSt _ _ _ _ _ _ _ _ _ _ _ _ _ _ _).
      set (a3 := suspend_on (upd_group a1 g (gr_fut (Some (nfut a)))) t (nfut a)).
      assert (K : nsj [t] a a3).
      { eapply nsj_trans; [apply (nsj_new_fut [t] a)|]. eapply nsj_trans; [|apply nsj_quiet, quiet_suspend_on].
        apply nsj_upd_group. intros k; reflexivity. }
      apply (sinv_blocked s0 t a3); try assumption; try discriminate.
      - exact (runj_then _ _ _ _ Ra K).
      - intros w' E. inversion E; subst w'. apply (scope_ok_treq a a3); [apply (nsj_treq _ _ _ K)|exact Ok]. }
    destruct ws as [w|].
    + apply (Tail s w R). now apply Hw.
    + cbn [fst]. set (s2 := fst (scope_enter (fst (new_scope s None false)) (nscope s) t)).
      destruct (fresh_enter_facts s t None false T) as [_ [F1 [F2 _]]]. fold s2 in F1, F2.
      apply (Tail s2 (nscope s)); [|now split].
      eapply runj_trans; [exact R|]. now apply run_enter_fresh.
Qed.

Section PuppetOp.
  Variables (s : st) (t : tid).
  Hypothesis I : SInv s.
  Hypothesis Hidle : idle s t = true.

  Let sb := begin_act s t.

  Lemma po_A : alloc_t s t. Proof. apply (idle_spec s t Hidle). Qed.
  Lemma po_N : k_ctl (tasks s t) <> CDone.
  Proof. destruct (idle_spec s t Hidle) as [E _]. rewrite E. discriminate. Qed.
  Lemma po_Rb : RunJ [t] s sb. Proof. apply run_begin, I. Qed.
  Lemma po_Tb : Tree sb. Proof. apply po_Rb. Qed.
  Lemma po_Kb : treq s sb. Proof. apply (quiet_treq t), quiet_begin_act. Qed.
  Lemma po_Lt : In t [t]. Proof. now left. Qed.
  Lemma po_facts : alloc_t sb t /\ k_tdran (tasks sb t) = false.
  Proof. apply (run_actor_facts s sb t (si_ctl _ I) po_A po_N po_Rb). Qed.
  Lemma po_waiter : k_waiter (tasks sb t) = None.
  Proof. unfold sb, begin_act. cbn. unfold upd. now rewrite Nat.eqb_refl. Qed.

  (* ops of the shape: begin; neutral steps; return to the puppet *)
  Lemma po_simple s1 r : nsj [t] sb s1 -> GStepJ s (fst (ret_to_puppet s1 t r)).
  Proof. intros K. apply (sinv_ret s t s1 r I po_A po_N). exact (runj_then _ _ _ _ po_Rb K). Qed.

  Lemma po_run s1 r : RunJ [t] sb s1 -> GStepJ s (fst (ret_to_puppet s1 t r)).
  Proof.
    intros R. apply (sinv_ret s t s1 r I po_A po_N). eapply runj_trans; [apply po_Rb|exact R].
  Qed.

  Lemma po_blocked s1 c : Run [t] sb s1 -> c <> CNew -> c <> CDone ->
    (forall g x e, c = CAexitCk g x e -> k_cur (tasks s1 t) = Some x /\ k_waiter (tasks s1 t) = None) ->
    (forall x, ctl_scope c = Some x -> alloc_s s1 x /\ notg s1 x) ->
    GStep s (fst (blocked (set_ctl s1 t c))).
  Proof.
    intros R N1 N2 Hck Hsc. cbn [fst blocked].
    assert (R' : Run [t] s (set_running (set_ctl s1 t c) None)).
    { eapply run_trans; [apply po_Rb|]. eapply run_trans; [exact R|]. apply run_n; [apply R|].
      eapply ns_trans; [apply nsj_quiet, quiet_set_ctl|apply nsj_set_running]. }
    apply (sinv_actor s t _ I po_A po_N R'). unfold acted. rewrite blocked_task. exact (conj N1 (conj N2 (conj Hck Hsc))).
  Qed.

  Lemma po_new_scope d sh : GStepJ s (fst (puppet_op s t (ANewScope t d sh))).
  Proof.
    unfold puppet_op. fold sb. cbn [new_scope]. unfold new_scope. cbv zeta.
    apply po_run. apply (runj_new_scope [t] sb sb d sh). apply runj_refl, po_Tb.
  Qed.

  Lemma po_enter c : op_ok s (AEnter t c) = true -> GStepJ s (fst (puppet_op s t (AEnter t c))).
  Proof.
    cbn [op_ok]. rewrite !andb_true_iff, !Nat.ltb_lt. intros [[P1 P2] P3].
    destruct (pubs_spec s c P3) as [Ng Nh].
    unfold puppet_op. fold sb.
    assert (R : RunJ [t] sb (fst (scope_enter sb c t))).
    { destruct po_facts as [Ab Db]. pose proof po_Kb as K.
      apply (runj_enter [t] sb sb c t (runj_refl _ _ po_Tb) po_Lt Ab Db); [split; assumption| |].
      - intros _ t' g A' G E. exfalso. rewrite (tq_group _ _ K) in G. rewrite (tq_hscope _ _ K) in E.
        apply (Nh t' g); assumption.
      - intros _ g G E. rewrite (tq_group _ _ K) in G. rewrite (tq_gscope _ _ K) in E.
        destruct (tr_kgroup _ (si_tree _ I) t g po_A G) as [Ag _]. now apply (Ng g Ag). }
    destruct (scope_enter sb c t) as [s1 e]. cbn [fst] in R. now apply po_run.
  Qed.

  Lemma po_failat d sh : GStepJ s (fst (puppet_op s t (AFailAt t d sh))).
  Proof.
    unfold puppet_op. fold sb. unfold new_scope. cbv zeta.
    destruct po_facts as [Ab Db].
    pose proof (run_enter_fresh [t] sb t d sh po_Tb po_Lt Ab Db) as R. unfold new_scope in R. cbn [fst] in R.
    destruct (scope_enter _ (nscope sb) t) as [s2 e]. cbn [fst] in R. now apply po_run.
  Qed.

  Lemma po_exit c fl : op_ok s (AExit t c fl) = true -> GStepJ s (fst (puppet_op s t (AExit t c fl))).
  Proof.
    cbn [op_ok]. intros P3. unfold puppet_op. fold sb.
    assert (Side : exit_ok sb c t ->
              (forall x, ~ In x (s_children (scopes sb c))) /\
              (forall t', In t' (s_tasks (scopes sb c)) -> t' = t) /\
              (forall g, alloc_g sb g -> g_scope (groups sb g) = c -> g_tasks (groups sb g) = [])).
    { intros Hok. apply orb_true_iff in P3. destruct P3 as [P3|P3].
      - destruct (pubs_spec s c P3) as [Ng _].
        assert (Ngb : notg sb c) by (apply (tq_notg _ _ po_Kb); exact Ng).
        apply exit_side_pub; try assumption. apply po_Tb.
      - exfalso. destruct Hok as [Ha [Hh Hc]].
        change (s_active (scopes s c) = true) in Ha. change (s_host (scopes s c) = Some t) in Hh.
        assert (Hc' : k_cur (tasks s t) = Some c).
        { rewrite <- (tq_cur _ _ po_Kb). exact Hc. }
        rewrite Ha, Hh, Hc' in P3. cbn [opt_eqb] in P3. rewrite !Nat.eqb_refl in P3. discriminate. }
    assert (R : RunJ [t] sb (fst (scope_exit sb c t (k_held (tasks sb t))))).
    { apply runj_exit; [apply runj_refl, po_Tb|apply po_Lt|exact Side]. }
    clear Side P3.
    destruct (scope_exit sb c t (k_held (tasks sb t))) as [s1 x]. cbn [fst] in R.
    destruct x.
    - assert (R2 : RunJ [t] sb (upd_task s1 t (tk_held None))).
      { apply (runj_then _ _ _ _ R), nsj_upd_task; [apply po_Lt|intros k; reflexivity|intros k; reflexivity|intros k; reflexivity]. }
      destruct (_ && _); now apply po_run.
    - now apply po_run.
    - now apply po_run.
  Qed.

  Lemma po_cancel c : GStepJ s (fst (puppet_op s t (ACancel t c))).
  Proof. unfold puppet_op. fold sb. apply po_simple. apply nsj_scope_cancel. Qed.

  Lemma po_setshield c b : GStepJ s (fst (puppet_op s t (ASetShield t c b))).
  Proof.
    unfold puppet_op. fold sb. destruct (Bool.eqb _ b); [apply po_simple, nsj_refl|].
    apply po_run. pose proof (runj_set_shield [t] sb sb c b (runj_refl _ _ po_Tb)) as R. destruct b; exact R.
  Qed.

  Lemma po_setdeadline c d : GStepJ s (fst (puppet_op s t (ASetDeadline t c d))).
  Proof.
    unfold puppet_op. fold sb. apply po_simple.
    set (s1 := cancel_timeout (upd_scope sb c (sc_deadline d)) c).
    assert (K : nsj [t] sb s1).
    { eapply nsj_trans; [|apply nsj_cancel_timeout]. apply nsj_upd_scope; intros k; reflexivity. }
    destruct (_ && _); [|exact K]. eapply nsj_trans; [exact K|apply nsj_scope_timeout].
  Qed.

  Lemma po_group_new : GStepJ s (fst (puppet_op s t (AGroupNew t))).
  Proof.
    unfold puppet_op. fold sb. unfold new_scope. cbv zeta.
    apply po_run. apply (runj_group_new [t] sb sb). apply runj_refl, po_Tb.
  Qed.
End PuppetOp.

Lemma creq_weaken l l' a b : incl l l' -> creq l a b -> creq l' a b.
Proof.
  intros Hi Q. constructor.
  - eapply tcb_weaken; [exact Hi|apply Q].
  - apply Q.
  - intros t A. destruct (cq_alloc_t' _ _ _ Q t A) as [H|H]; [now left|right; now apply Hi].
  - intros t x N. apply (cq_host _ _ _ Q). intros H. apply N, Hi, H.
  - intros t N. apply (cq_base _ _ _ Q). intros H. apply N, Hi, H.
  - apply Q.
  - apply Q.
  - intros t A. destruct (cq_td _ _ _ Q t A) as [H|H]; [now left|right; now apply Hi].
  - apply Q.
Qed.

Lemma runj_weaken l l' a b : incl l l' -> RunJ l a b -> RunJ l' a b.
Proof.
  intros Hi [[[[T [Q R]] D] P] J]. split; [|exact J]. split; [|exact P]. split; [|exact D].
  split; [exact T|split; [now apply (creq_weaken l l')|exact R]].
Qed.

Lemma nsj_weaken l l' a b : incl l l' -> nsj l a b -> nsj l' a b.
Proof.
  intros Hi [[[K1 [K2 K3]] P] J]. split; [|exact J]. split; [|exact P].
  split; [exact K1|split; [now apply (tcb_weaken l l')|exact K3]].
Qed.

Lemma spawn_child_facts sa g sf :
  Tree sa ->
  let s2 := fst (spawn_task sa g sf) in
  let tn := ntask sa in
  k_ctl (tasks s2 tn) = CNew /\ k_cur (tasks s2 tn) = Some (g_scope (groups sa g)) /\
  k_group (tasks s2 tn) = Some g /\ k_tdran (tasks s2 tn) = false /\
  base s2 tn = Some (g_scope (groups sa g)) /\ (forall x, s_host (scopes s2 x) <> Some tn).
Proof.
  intros T s2 tn. unfold s2. rewrite spawn_task_eq. cbn [fst].
  set (s1 := spawn_struct sa g sf).
  pose proof (kframe_restart s1 (Some (g_scope (groups sa g)))) as K.
  set (s3 := call_soon (restart s1 (Some (g_scope (groups sa g)))) (HStep (ntask sa))).
  assert (Et : tk_core (tasks s3 tn) = tk_core (tasks s1 tn)) by apply (kf_tasks _ _ K tn).
  assert (E1 : tasks s1 tn = mkTask CNew false None None false 0 0 (Some (g_scope (groups sa g))) None (Some g)
                                    (nscope sa) (nevent sa) None None sf None false).
  { unfold s1, spawn_struct, tn. cbn. unfold upd. now rewrite Nat.eqb_refl. }
  rewrite (tcore_ctl _ _ Et), (tcore_cur _ _ Et), (tcore_group _ _ Et), (tcore_tdran _ _ Et), E1.
  cbn [k_ctl k_cur k_group k_tdran].
  refine (conj eq_refl (conj eq_refl (conj eq_refl (conj eq_refl (conj _ _))))).
  - unfold base. rewrite (tcore_group _ _ Et), E1. cbn [k_group].
    change (groups s3) with (groups (restart s1 (Some (g_scope (groups sa g))))). rewrite (kf_groups _ _ K).
    unfold s1. now rewrite sp_gscope.
  - intros x. change (scopes s3 x) with (scopes (restart s1 (Some (g_scope (groups sa g)))) x).
    rewrite (core_host _ _ (kf_scopes _ _ K x)). unfold s1. rewrite sp_host by exact T.
    apply (Tree_fresh_task sa tn T (le_n _)).
Qed.

Lemma sinv_with_child s t sa g sf s' :
  SInv s -> alloc_t s t -> k_ctl (tasks s t) <> CDone -> RunJ [t] s sa ->
  alloc_g sa g -> s_active (scopes sa (g_scope (groups sa g))) = true ->
  nsj [t] (fst (spawn_task sa g sf)) s' -> acted s' t -> GStepJ s s'.
Proof.
  intros I A N R Ag Ha K Hact. pose proof (si_ctl _ I) as C.
  set (tn := ntask sa). set (s2 := fst (spawn_task sa g sf)) in *.
  pose proof (runj_tree _ _ _ R) as Ta.
  assert (Asa : alloc_t sa t) by (apply R; exact A).
  assert (Hne : t <> tn) by (unfold alloc_t, tn in *; lia).
  assert (Hi : incl [t] [t; tn]) by (intros x [<-|[]]; now left).
  assert (R' : RunJ [t; tn] s s').
  { eapply runj_trans; [apply (runj_weaken [t] _ _ _ Hi R)|]. eapply runj_then; [|exact (nsj_weaken [t] _ _ _ Hi K)].
    apply runj_spawn; [now apply runj_refl|right; now left|exact Ag|exact Ha]. }
  apply (gj_run [t; tn] s s' I R'). destruct R' as [[[[_ [Q Rq]] _] _] _].
  intros t' [<-|[<-|[]]]; [now apply (cokx_actor [t; tn] s)|].
  destruct (spawn_child_facts sa g sf Ta) as [F1 [F2 [F3 [F4 [F5 F6]]]]]. fold s2 tn in F1, F2, F3, F4, F5, F6.
  pose proof (nsj_treq _ _ _ K) as K1.
  assert (Et : tk_core (tasks s' tn) = tk_core (tasks s2 tn)).
  { destruct K as [[[_ [K2 _]] _] _]. apply K2. intros [E|[]]. now apply Hne. }
  assert (An : alloc_t s' tn).
  { apply (tq_alloc_t _ _ K1). unfold alloc_t, s2, tn. rewrite spawn_task_eq. cbn [fst].
    rewrite (tq_ntask _ _ (treq_call_soon _ _)), (kf_ntask _ _ (kframe_restart _ _)). cbn.
    destruct (tr_cnt _ Ta) as [_ [P _]]. lia. }
  refine (conj _ (conj _ _)).
  - intros _. unfold cok. rewrite (tcore_ctl _ _ Et), (tcore_cur _ _ Et), (tcore_group _ _ Et),
      (tcore_tdran _ _ Et), (tcore_waiter _ _ Et), F1, F2, F3, F4.
    refine (conj _ (conj _ (conj _ (conj _ _)))); try discriminate.
    intros _. rewrite (tq_base _ _ K1), F5. split; [reflexivity|]. split; [discriminate|].
    intros x. rewrite (tq_host _ _ K1). apply F6.
  - intros NA. contradiction.
  - intros Hin. apply Rq in Hin. destruct (c_td _ C tn Hin) as [An0 _].
    exfalso. assert (alloc_t sa tn) by (apply R; exact An0). unfold alloc_t, tn in *. lia.
Qed.

Lemma group_active_alloc s g : Tree s -> group_active s g = true ->
  alloc_g s g /\ s_active (scopes s (g_scope (groups s g))) = true.
Proof.
  intros T H. unfold group_active in H. apply andb_true_iff in H. destruct H as [_ Ha].
  split; [|exact Ha]. destruct (alloc_g_dec s g) as [A|N]; [exact A|exfalso].
  rewrite (tr_gblank _ T g N) in Ha. apply (tr_act_alloc _ T) in Ha. destruct Ha. lia.
Qed.

Section PuppetOp2.
  Variables (s : st) (t : tid).
  Hypothesis I : SInv s.
  Hypothesis Hidle : idle s t = true.

  Let sb := begin_act s t.
  Let A := po_A s t Hidle.
  Let N := po_N s t Hidle.
  Let Rb := po_Rb s t I.
  Let Tb := po_Tb s t I.
  Let Lt := po_Lt t.

  Lemma po_group_enter g : op_ok s (AGroupEnter t g) = true -> GStepJ s (fst (puppet_op s t (AGroupEnter t g))).
  Proof.
    cbn [op_ok]. rewrite andb_true_iff, !Nat.ltb_lt. intros [P1 P2].
    unfold puppet_op. fold sb. destruct (g_entered (groups sb g)).
    { apply (po_simple s t I Hidle). apply nsj_refl. }
    set (s1 := upd_group sb g (gr_entered true)).
    assert (K1 : nsj [t] sb s1) by (apply nsj_upd_group; intros k; reflexivity).
    assert (R1 : RunJ [t] sb s1) by (apply runj_n; [exact Tb|exact K1]).
    pose proof (runj_tree _ _ _ R1) as T1.
    destruct (po_facts s t I Hidle) as [Ab Db]. fold sb in Ab, Db.
    assert (Ag : alloc_g s1 g) by (split; assumption).
    set (gs := g_scope (groups s1 g)).
    assert (R2 : RunJ [t] s1 (fst (scope_enter s1 gs t))).
    { apply (runj_enter [t] s1 s1 gs t (runj_refl _ _ T1) Lt Ab Db).
      - apply (tr_gscope _ T1 g Ag).
      - intros _ t' g' A' G E. exfalso. destruct (tr_kgroup _ T1 t' g' A' G) as [_ [_ Ng]].
        now apply (Ng g Ag).
      - intros Ina g' G E. destruct (tr_kgroup _ T1 t g' Ab G) as [Ag' _].
        pose proof (tr_gscope_inj _ T1 g' g Ag' Ag E) as ->.
        pose proof (tr_member _ T1 t g Ab G Db) as M.
        pose proof (tr_gact _ T1 t g Ag M). fold gs in H. congruence. }
    destruct (scope_enter s1 gs t) as [s2 e]. cbn [fst] in R2.
    apply (po_run s t I Hidle). eapply runj_trans; eauto.
  Qed.

  Lemma po_group_exit g : GStepJ s (fst (puppet_op s t (AGroupExit t g))).
  Proof.
    unfold puppet_op. fold sb.
    set (s1 := match k_held (tasks sb t) with
               | Some e => let a := scope_cancel sb (g_scope (groups sb g)) false in
                           if is_cancel e then a else upd_group a g (fun x => gr_excs (g_excs x ++ [(0, e)]) x)
               | None => sb end).
    assert (K1 : nsj [t] sb s1 /\ wq sb s1).
    { unfold s1. destruct (k_held (tasks sb t)) as [e|]; [|split; [apply nsj_refl|apply wq_refl]].
      cbv zeta. destruct (is_cancel e).
      - split; [apply nsj_scope_cancel|apply wq_scope_cancel].
      - split.
        + eapply nsj_trans; [apply nsj_scope_cancel|]. apply nsj_upd_group. intros k; reflexivity.
        + eapply wq_trans; [apply wq_scope_cancel|apply wq_same; reflexivity]. }
    destruct K1 as [K1 W1].
    assert (R1 : RunJ [t] s s1) by exact (runj_then _ _ _ _ Rb K1).
    pose proof (runj_tree _ _ _ R1) as T1.
    destruct (run_actor_facts s s1 t (si_ctl _ I) A N R1) as [A1 D1].
    destruct (g_tasks (groups s1 g)) eqn:Eg.
    - unfold new_scope. cbv zeta.
      pose proof (run_enter_fresh [t] s1 t None true T1 Lt A1 D1) as R2.
      destruct (fresh_enter_facts s1 t None true T1) as [F1 [F2 [F3 F4]]].
      unfold new_scope in R2, F1, F2, F3, F4. cbn [fst] in R2, F1, F2, F3, F4.
      set (s3 := fst (scope_enter _ (nscope s1) t)) in *.
      apply (sinv_blocked s t (bare_yield s3 t)); try assumption; try discriminate.
      + eapply runj_trans; [exact R1|]. apply (runj_then _ _ _ _ R2), nsj_quiet, quiet_bare_yield.
      + intros g' x e E. inversion E; subst. split; [exact F1|].
        change (k_waiter (tasks s3 t) = None). rewrite F4, (W1 t). apply po_waiter.
      + intros x E. inversion E; subst x. split; [exact F2|exact F3].
    - apply (sinv_wof s t s1 g None _ I A N R1). intros w E. discriminate.
  Qed.

  Lemma po_spawn g : GStepJ s (fst (puppet_op s t (ASpawn t g))).
  Proof.
    unfold puppet_op. fold sb. destruct (group_active sb g) eqn:Ga; cbn [negb].
    2:{ apply (po_simple s t I Hidle). apply nsj_refl. }
    destruct (group_active_alloc sb g Tb Ga) as [Ag Ha].
    pose proof (ret_to_puppet_ctl (fst (spawn_task sb g None)) t (RRet (snd (spawn_task sb g None)))) as Ec.
    destruct (spawn_task sb g None) as [s1 c] eqn:Es. cbn [fst snd] in Ec.
    apply (sinv_with_child s t sb g None); try assumption; rewrite ?Es; cbn [fst]; [apply nsj_quiet, quiet_ret_to_puppet|].
    now apply acted_idle.
  Qed.

  Lemma po_start g : GStepJ s (fst (puppet_op s t (AStart t g))).
  Proof.
    unfold puppet_op. fold sb. destruct (group_active sb g) eqn:Ga; cbn [negb].
    2:{ apply (po_simple s t I Hidle). apply nsj_refl. }
    unfold new_fut. cbv zeta.
    set (s1 := mkSt _ _ _ _ _ _ _ _ _ _ _ _ _ _ _).
    assert (K1 : nsj [t] sb s1) by apply (nsj_new_fut [t] sb).
    assert (R1 : RunJ [t] s s1) by exact (runj_then _ _ _ _ Rb K1).
    pose proof (runj_tree _ _ _ R1) as T1.
    assert (Ga1 : group_active s1 g = true) by exact Ga.
    destruct (group_active_alloc s1 g T1 Ga1) as [Ag Ha].
    match goal with |- context [spawn_task s1 g ?sf] =>
      apply (sinv_with_child s t s1 g sf); try assumption; destruct (spawn_task s1 g sf) as [s2 c] eqn:Es end;
      cbn [fst blocked].
    - apply (nsj_trans [t] s2 (suspend_on s2 t (nfut sb))); [apply nsj_quiet, quiet_suspend_on|].
      apply (nsj_trans [t] _ (set_ctl (suspend_on s2 t (nfut sb)) t (CStartWait g c (nfut sb))));
        [apply nsj_quiet, quiet_set_ctl|apply nsj_set_running].
    - unfold acted. rewrite blocked_task. refine (conj _ (conj _ (conj _ _))); intros; discriminate.
  Qed.

  Lemma po_started v : GStepJ s (fst (puppet_op s t (AStarted t v))).
  Proof.
    unfold puppet_op. fold sb. destruct (k_startfut (tasks sb t)) as [f|].
    - destruct (f_st (futs sb f)); apply (po_simple s t I Hidle); try apply nsj_refl.
      apply nsj_fut_complete.
    - apply (po_simple s t I Hidle). apply nsj_refl.
  Qed.

  Lemma po_handle_cancel h : GStepJ s (fst (puppet_op s t (AHandleCancel t h))).
  Proof.
    unfold puppet_op. fold sb. destruct (e_set _); apply (po_simple s t I Hidle);
      [apply nsj_refl|apply nsj_scope_cancel].
  Qed.

  Lemma po_handle_wait h : GStepJ s (fst (puppet_op s t (AHandleWait t h))).
  Proof.
    unfold puppet_op. fold sb.
    pose proof (nsj_quiet t _ _ (quiet_event_wait sb t (k_hevent (tasks sb h)))) as K.
    destruct (event_wait sb t (k_hevent (tasks sb h))) as [s1 f]. cbn [fst] in K.
    apply (sinv_blocked s t s1); try assumption; try discriminate. exact (runj_then _ _ _ _ Rb K).
  Qed.

  Lemma po_yield : GStepJ s (fst (puppet_op s t (AYield t))).
  Proof.
    unfold puppet_op. fold sb. apply (sinv_blocked s t (bare_yield sb t)); try assumption; try discriminate.
    apply (runj_then _ _ _ _ Rb), nsj_quiet, quiet_bare_yield.
  Qed.

  Lemma po_ckif : GStepJ s (fst (puppet_op s t (ACkIf t))).
  Proof.
    unfold puppet_op. fold sb. destruct (ckif_spins _ _ _).
    - apply (sinv_blocked s t (bare_yield sb t)); try assumption; try discriminate.
      apply (runj_then _ _ _ _ Rb), nsj_quiet, quiet_bare_yield.
    - apply (po_simple s t I Hidle). apply nsj_refl.
  Qed.

  Lemma po_shieldck : GStepJ s (fst (puppet_op s t (AShieldCk t))).
  Proof.
    unfold puppet_op. fold sb. unfold new_scope. cbv zeta.
    destruct (po_facts s t I Hidle) as [Ab Db]. fold sb in Ab, Db.
    pose proof (run_enter_fresh [t] sb t None true Tb Lt Ab Db) as R2.
    destruct (fresh_enter_facts sb t None true Tb) as [F1 [F2 [F3 F4]]].
    unfold new_scope in R2, F1, F2, F3, F4. cbn [fst] in R2, F1, F2, F3, F4.
    set (s3 := fst (scope_enter _ (nscope sb) t)) in *.
    apply (sinv_blocked s t (bare_yield s3 t)); try assumption; try discriminate.
    - eapply runj_trans; [exact Rb|]. apply (runj_then _ _ _ _ R2), nsj_quiet, quiet_bare_yield.
    - intros x E. inversion E; subst x. split; [exact F2|exact F3].
  Qed.

  Lemma po_sleep d : GStepJ s (fst (puppet_op s t (ASleep t d))).
  Proof.
    unfold puppet_op. fold sb. unfold new_fut. cbv zeta.
    set (s1 := mkSt _ _ _ _ _ _ _ _ _ _ _ _ _ _ _).
    assert (K1 : nsj [t] sb s1) by apply (nsj_new_fut [t] sb).
    destruct d as [dt|].
    - unfold call_at. cbv zeta.
      set (s2 := mkSt _ _ _ _ _ _ _ _ _ _ _ _ _ _ _).
      assert (K2 : nsj [t] s1 s2) by apply (nsj_call_at [t] s1 (now s1 + dt)%Z (TSleep (nfut sb))).
      apply (sinv_blocked s t (suspend_on s2 t (nfut sb))); try assumption; try discriminate.
      apply (runj_then _ _ _ _ Rb).
      eapply nsj_trans; [exact K1|]. eapply nsj_trans; [exact K2|apply nsj_quiet, quiet_suspend_on].
    - apply (sinv_blocked s t (suspend_on s1 t (nfut sb))); try assumption; try discriminate.
      apply (runj_then _ _ _ _ Rb). eapply nsj_trans; [exact K1|apply nsj_quiet, quiet_suspend_on].
  Qed.

  Lemma po_hold n : GStepJ s (fst (puppet_op s t (AHold t n))).
  Proof.
    unfold puppet_op. fold sb. apply (po_simple s t I Hidle).
    apply nsj_upd_task; [exact Lt|intros k; reflexivity|intros k; reflexivity|intros k; reflexivity].
  Qed.

  Lemma po_drop : GStepJ s (fst (puppet_op s t (ADrop t))).
  Proof.
    unfold puppet_op. fold sb. apply (po_simple s t I Hidle).
    apply nsj_upd_task; [exact Lt|intros k; reflexivity|intros k; reflexivity|intros k; reflexivity].
  Qed.

  Lemma po_wrap n : GStepJ s (fst (puppet_op s t (AWrap t n))).
  Proof.
    unfold puppet_op. fold sb. apply (po_simple s t I Hidle).
    apply nsj_upd_task; [exact Lt|intros k; reflexivity|intros k; reflexivity|intros k; reflexivity].
  Qed.

  Lemma po_uncancel : SInv (fst (puppet_op s t (AUncancel t))) /\ jstep s (fst (puppet_op s t (AUncancel t))).
  Proof.
    unfold puppet_op. fold sb.
    set (r := RRet (pred (k_ncancel (tasks sb t)))).
    pose proof (nsj_quiet t _ _ (quiet_ret_to_puppet (task_uncancel sb t) t r)) as [Kr Jr].
    pose proof (Tree_treq _ _ Tb (treq_task_uncancel sb t)) as Tu.
    split.
    - assert (R : Run0 [t] s (fst (ret_to_puppet (task_uncancel sb t) t r))).
      { eapply run0_trans; [apply Rb|]. eapply run0_trans; [apply run0_n; [exact Tb|apply ns0_task_uncancel]|].
        apply run0_n; [exact Tu|apply Kr]. }
      apply (sinv_actor0 s t _ I A N R), acted_idle, ret_to_puppet_ctl.
    - eapply jstep_trans; [apply Rb|]. eapply jstep_trans; [|exact Jr].
      apply jstep_same; [apply treq_task_uncancel|reflexivity|now apply rdq_same].
  Qed.

  Lemma po_effdeadline : GStepJ s (fst (puppet_op s t (AEffDeadline t))).
  Proof.
    unfold puppet_op. fold sb. cbn [fst]. apply (sinv_park s t sb I A N Rb).
  Qed.
End PuppetOp2.

Lemma hosts_nothing_of_base s t :
  Tree s -> alloc_t s t -> k_tdran (tasks s t) = false -> k_cur (tasks s t) = base s t ->
  forall x, s_host (scopes s x) <> Some t.
Proof.
  intros T A D E x Hx.
  destruct (tr_stack _ T t A D) as [l [S C]].
  assert (l = []).
  { rewrite E in S. inversion S as [E0|y l' Hh Ha S' E1]; [reflexivity|exfalso].
    unfold base in E1. destruct (k_group (tasks s t)) as [g|] eqn:G; [|discriminate].
    inversion E1; subst y. now apply (tr_ghost _ T t g A G D). }
  subst l. destruct (s_active (scopes s x)) eqn:Ea.
  - apply (C x Ea Hx).
  - rewrite (tr_host_inact _ T x Ea) in Hx. discriminate.
Qed.

Lemma finish_ctl s t o : k_ctl (tasks (finish_task s t o) t) = CDone.
Proof.
  unfold finish_task. cbn [tasks set_running]. destruct (k_group (tasks s t)); cbn; unfold upd;
    now rewrite Nat.eqb_refl.
Qed.

Lemma sinv_finish s t s1 o :
  SInv s -> alloc_t s t -> k_ctl (tasks s t) <> CDone -> RunJ [t] s s1 ->
  (forall x, s_host (scopes s1 x) <> Some t) -> GStepJ s (finish_task s1 t o).
Proof.
  intros [[T C] Dv] A N [[[[T1 [Q R]] Dd] Pp] J] Hn. pose proof (treq_finish_task s1 t o) as K.
  split.
  2:{ eapply jstep_trans; [exact J|]. apply jstep_same; [exact K| |apply rdq_finish_task].
      unfold finish_task. destruct (k_group (tasks s1 t)); reflexivity. }
  split; [|apply (ids_trans s s1); [exact (ids_creq _ _ _ Q)|now apply ids_treq]].
  split.
  2:{ apply (pstep_trans s s1); [now apply Pp|apply pstep_inert, inert_finish_task|].
      intros x Ax. split; [exact (cq_alloc_t _ _ _ Q x Ax)|apply (cq_ids _ _ _ Q x Ax)]. }
  split; [split; [eapply Tree_treq; eauto|]|apply D_finish; now apply Dd].
  assert (Q' : creq [t] s (finish_task s1 t o)).
  { eapply creq_trans; [exact Q|]. apply creq_finish. now left. }
  apply (Ctl_step [t] s _ C Q'). intros t' [<-|[]].
  pose proof (cq_alloc_t _ _ _ Q' t A) as A'.
  refine (conj _ (conj _ _)).
  - intros _. unfold cok. rewrite finish_ctl.
    refine (conj _ (conj _ (conj _ (conj _ _)))); try discriminate.
    + intros _ x. rewrite (tq_host _ _ K). apply Hn.
    + intros _. reflexivity.
  - intros NA. contradiction.
  - intros _. split; [exact A'|apply finish_ctl].
Qed.

Lemma exit_ok_of_cur s c t :
  Tree s -> alloc_t s t -> k_tdran (tasks s t) = false -> k_cur (tasks s t) = Some c -> notg s c ->
  exit_ok s c t.
Proof.
  intros T A D E Ng. destruct (tr_stack _ T t A D) as [l [S _]]. rewrite E in S.
  inversion S as [E0|y l' Hh Ha S' E1]; subst.
  - exfalso. unfold base in E0. destruct (k_group (tasks s t)) as [g|] eqn:G; [|discriminate].
    inversion E0 as [E1]. destruct (tr_kgroup _ T t g A G) as [Ag _]. now apply (Ng g Ag).
  - repeat split; assumption.
Qed.

Lemma sinv_puppet_finish s t v :
  SInv s -> idle s t = true -> op_ok s (AFinish t v) = true -> GStepJ s (fst (puppet_finish s t v)).
Proof.
  intros I Hidle Hok. pose proof (po_A s t Hidle) as A. pose proof (po_N s t Hidle) as N.
  pose proof (po_Lt t) as Lt.
  unfold puppet_finish. set (sb := begin_act s t).
  set (raw := match k_held (tasks sb t) with Some e => OExc e | None => ORet v end).
  set (s1 := upd_task sb t (tk_final (Some raw))).
  assert (K1 : nsj [t] s s1).
  { eapply nsj_trans; [apply nsj_quiet, quiet_begin_act|]. apply nsj_upd_task; [exact Lt|intros k; reflexivity|intros k; reflexivity|intros k; reflexivity]. }
  assert (R1 : RunJ [t] s s1) by (apply runj_n; [apply I|exact K1]).
  pose proof (quiet_treq t _ _ (quiet_begin_act s t)) as Kb.
  assert (Eg : k_group (tasks sb t) = k_group (tasks s t)) by apply (tq_group _ _ Kb).
  cbn [op_ok] in Hok. rewrite Eg.
  destruct (k_group (tasks s t)) as [g|] eqn:G.
  - (* group child: record the outcome, set the event, leave the handle's scope *)
    apply opt_eqb_Some in Hok.
    set (s2 := upd_task s1 t _). set (s3 := event_set s2 (k_hevent (tasks sb t))).
    assert (K3 : nsj [t] s s3).
    { eapply nsj_trans; [exact K1|]. eapply nsj_trans; [|apply nsj_quiet_any; intros x; apply quiet_event_set].
      apply nsj_upd_task; [exact Lt| | |]; intros k; destruct raw; reflexivity. }
    assert (R3 : RunJ [t] s s3) by (apply runj_n; [apply I|exact K3]).
    pose proof (runj_tree _ _ _ R3) as T3. pose proof (nsj_treq _ _ _ K3) as Q3.
    destruct (run_actor_facts s s3 t (si_ctl _ I) A N R3) as [A3 D3].
    assert (Eh : k_hscope (tasks sb t) = k_hscope (tasks s3 t)).
    { rewrite (tq_hscope _ _ Q3). apply (tq_hscope _ _ Kb). }
    rewrite Eh. set (hs := k_hscope (tasks s3 t)).
    assert (G3 : k_group (tasks s3 t) = Some g) by (rewrite (tq_group _ _ Q3); exact G).
    assert (C3 : k_cur (tasks s3 t) = Some hs).
    { rewrite (tq_cur _ _ Q3), Hok. unfold hs. now rewrite (tq_hscope _ _ Q3). }
    destruct (tr_kgroup _ T3 t g A3 G3) as [Ag [Ah Ngh]]. fold hs in Ah, Ngh.
    pose proof (exit_ok_of_cur s3 hs t T3 A3 D3 C3 Ngh) as Hx.
    assert (R4 : RunJ [t] s3 (fst (scope_exit s3 hs t (k_held (tasks sb t))))).
    { apply runj_exit; [now apply runj_refl|exact Lt|]. intros _. now apply exit_side_pub. }
    pose proof (treq_exit_result s3 hs t (k_held (tasks sb t)) Hx) as K4.
    destruct (scope_exit s3 hs t (k_held (tasks sb t))) as [s4 x]. cbn [fst] in *.
    assert (Hn : forall y, s_host (scopes s4 y) <> Some t).
    { pose proof (runj_tree _ _ _ R4) as T4.
      assert (R04 : RunJ [t] s s4) by (eapply runj_trans; eauto).
      destruct (run_actor_facts s s4 t (si_ctl _ I) A N R04) as [A4 D4].
      apply (hosts_nothing_of_base s4 t T4 A4 D4).
      rewrite (tq_cur _ _ K4), tx_cur, Nat.eqb_refl by assumption.
      rewrite (tq_base _ _ K4), (tx_base s3 hs t T3 Hx). unfold base. rewrite G3.
      destruct Hx as [Ha _]. apply (tr_hpar _ T3 t g A3 G3 Ha). }
    assert (R04 : RunJ [t] s s4) by (eapply runj_trans; eauto).
    destruct x; cbn [fst]; now apply (sinv_finish s t s4).
  - (* root task *)
    cbn [fst]. apply (sinv_finish s t s1 raw I A N R1).
    destruct (run_actor_facts s s1 t (si_ctl _ I) A N R1) as [A1 D1].
    apply (hosts_nothing_of_base s1 t (runj_tree _ _ _ R1) A1 D1).
    pose proof (nsj_treq _ _ _ K1) as Q1. rewrite (tq_cur _ _ Q1), (tq_base _ _ Q1). unfold base. rewrite G.
    destruct (k_cur (tasks s t)); [discriminate|reflexivity].
Qed.

Lemma incoming_task s t fo x :
  tasks (fst (incoming s t fo)) x =
  if Nat.eqb x t then tk_must false (k_msg (tasks s t)) (tk_waiter None (tasks s t)) else tasks s x.
Proof. unfold incoming. cbn. unfold upd. reflexivity. Qed.

Lemma incoming_ctl s t fo : k_ctl (tasks (fst (incoming s t fo)) t) = k_ctl (tasks s t).
Proof. rewrite incoming_task, Nat.eqb_refl. reflexivity. Qed.

Lemma incoming_none s t : snd (incoming s t None) = None \/ exists o, snd (incoming s t None) = Some (ECancel o).
Proof. unfold incoming. cbn. destruct (k_must (tasks s t)); [right; eauto|now left]. Qed.

Lemma scope_exit_no_raise s c t inc :
  exit_ok s c t -> (inc = None \/ exists o, inc = Some (ECancel o)) ->
  forall e, snd (scope_exit s c t inc) <> XRaise e.
Proof.
  intros [Ha [Hh Hc]] Hi e. unfold scope_exit.
  rewrite Ha. cbn [negb]. rewrite Hh, Hc. cbn [opt_eqb]. rewrite !Nat.eqb_refl. cbn [negb].
  destruct (_ && _).
  - destruct Hi as [->|[o ->]]; [discriminate|]. destruct o; cbn; discriminate.
  - discriminate.
Qed.

Lemma alloc_t_dec s t : alloc_t s t \/ ~ alloc_t s t.
Proof. unfold alloc_t. lia. Qed.

Lemma sinv_resume s0 t fo :
  SInv s0 -> (forall f, fo = Some f -> k_waiter (tasks s0 t) = Some f) -> GStepJ s0 (fst (resume s0 t fo)).
Proof.
  intros I Hfo. unfold resume.
  pose proof (incoming_ctl s0 t fo) as Ec.
  pose proof (nsj_quiet t _ _ (quiet_incoming s0 t fo)) as K0.
  assert (Hinc : fo = None -> snd (incoming s0 t fo) = None \/ exists o, snd (incoming s0 t fo) = Some (ECancel o)).
  { intros ->. apply incoming_none. }
  destruct (incoming s0 t fo) as [s inc]. cbn [fst snd] in *.
  destruct (k_ctl (tasks s t)) eqn:Ectl; try (now apply gj_refl).
  all: assert (N : k_ctl (tasks s0 t) <> CDone) by (rewrite <- Ec; discriminate).
  all: assert (A : alloc_t s0 t)
         by (destruct (alloc_t_dec s0 t) as [H|H]; [exact H|exfalso; apply N; apply (c_unalloc _ (si_ctl _ I) t H)]).
  all: assert (R0 : RunJ [t] s0 s) by (apply runj_n; [apply I|exact K0]).
  all: pose proof (runj_tree _ _ _ R0) as T.
  all: destruct (run_actor_facts s0 s t (si_ctl _ I) A N R0) as [As Ds].
  all: pose proof (po_Lt t) as Lt.
  all: destruct (c_ok _ (si_ctl _ I) t A) as [Knew [Kck [Ksc [_ _]]]].
  all: pose proof (nsj_treq _ _ _ K0) as Q0.
  - (* CNew *)
    symmetry in Ec. destruct (Knew Ec) as [Ecur [Egrp Ehost]].
    set (s1 := upd_task s t (tk_started true)).
    assert (K1 : nsj [t] s s1) by (apply nsj_upd_task; [exact Lt|intros k; reflexivity|intros k; reflexivity|intros k; reflexivity]).
    assert (R1 : RunJ [t] s0 s1) by exact (runj_then _ _ _ _ R0 K1).
    pose proof (runj_tree _ _ _ R1) as T1. pose proof (nsj_treq _ _ _ K1) as Q1.
    assert (Q01 : treq s0 s1) by (eapply treq_trans; eauto).
    destruct inc as [e|].
    + cbn [fst]. apply (sinv_finish s0 t s1 _ I A N R1). intros x. rewrite (tq_host _ _ Q01). apply Ehost.
    + cbn [fst]. destruct (run_actor_facts s0 s1 t (si_ctl _ I) A N R1) as [A1 D1].
      destruct (k_group (tasks s1 t)) as [g|] eqn:G.
      * set (hs := k_hscope (tasks s1 t)).
        destruct (tr_kgroup _ T1 t g A1 G) as [Ag [Ah Ngh]]. fold hs in Ah, Ngh.
        assert (R2 : RunJ [t] s1 (fst (scope_enter s1 hs t))).
        { apply (runj_enter [t] s1 s1 hs t (runj_refl _ _ T1) Lt A1 D1 Ah).
          - intros _ t' g' A' G' E.
            assert (t' = t).
            { apply (tr_hscope_inj _ T1 t' t A' A1); [congruence|congruence|exact E]. }
            subst t'. split; [reflexivity|]. rewrite G in G'. inversion G'; subst g'.
            rewrite (tq_cur _ _ Q01), Ecur, <- (tq_base _ _ Q01). unfold base. now rewrite G.
          - intros _ g' G' E. rewrite G in G'. inversion G'; subst g'. now apply (Ngh g Ag). }
        apply (sinv_park s0 t _ I A N). eapply runj_trans; eauto.
      * now apply (sinv_park s0 t s1 I A N).
  - (* CIdle *)
    cbn [fst]. destruct inc as [e|]; [|now apply (sinv_park s0 t s I A N)].
    apply (sinv_park s0 t _ I A N), (runj_then _ _ _ _ R0).
    apply nsj_upd_task; [exact Lt|intros k; reflexivity|intros k; reflexivity|intros k; reflexivity].
  - (* CYield *)
    destruct k as [| |c].
    + now apply (sinv_ret s0 t s _ I A N).
    + destruct inc as [e|]; [now apply (sinv_ret s0 t s _ I A N)|].
      destruct (ckif_spins _ _ _); [|now apply (sinv_ret s0 t s _ I A N)].
      cbn [fst blocked].
      assert (R1 : RunJ [t] s0 (set_running (bare_yield s t) None)).
      { apply (runj_then _ _ _ _ R0). eapply nsj_trans; [apply nsj_quiet, quiet_bare_yield|apply nsj_set_running]. }
      apply (gj_actor s0 t _ I A N R1). unfold acted. cbn [tasks set_running bare_yield call_soon set_ready].
      rewrite Ectl. refine (conj _ (conj _ (conj _ _))); intros; discriminate.
    + assert (Ok : alloc_s s c /\ notg s c).
      { apply (scope_ok_treq s0 s c Q0). apply Ksc. rewrite <- Ec. reflexivity. }
      assert (R1 : RunJ [t] s (fst (scope_exit s c t inc))).
      { apply runj_exit; [now apply runj_refl|exact Lt|]. intros Hok. apply exit_side_pub; try assumption. apply Ok. }
      destruct (scope_exit s c t inc) as [s1 x]. cbn [fst] in R1.
      destruct x; apply (sinv_ret s0 t s1 _ I A N); eapply runj_trans; eauto.
  - (* CSleep *)
    apply (sinv_ret s0 t _ _ I A N), (runj_then _ _ _ _ R0), nsj_timer_cancel.
  - (* CAexitWait *)
    assert (Ok : alloc_s s ws /\ notg s ws).
    { apply (scope_ok_treq s0 s ws Q0). apply Ksc. rewrite <- Ec. reflexivity. }
    set (s1 := upd_group s g (gr_fut None)).
    assert (K1 : nsj [t] s s1) by (apply nsj_upd_group; intros k; reflexivity).
    assert (R1 : RunJ [t] s0 s1) by exact (runj_then _ _ _ _ R0 K1).
    assert (Ok1 : alloc_s s1 ws /\ notg s1 ws) by (apply (scope_ok_treq s s1); [apply (nsj_treq _ _ _ K1)|exact Ok]).
    destruct inc as [e|]; [|apply (sinv_wof s0 t s1); try assumption; intros w E; inversion E; now subst w].
    set (s2 := upd_scope s1 ws (sc_shield true)).
    set (s3 := scope_cancel s2 (g_scope (groups s2 g)) false).
    assert (K3 : nsj [t] s2 s3) by apply nsj_scope_cancel.
    apply (sinv_wof s0 t s3); try assumption.
    * exact (runj_then _ _ _ _ (runj_set_shield [t] s0 s1 ws true R1) K3).
    * intros w E. inversion E; subst w. apply (scope_ok_treq s2 s3); [apply (nsj_treq _ _ _ K3)|].
      apply (scope_ok_treq s1 s2); [apply treq_upd_scope; intros k; reflexivity|exact Ok1].
  - (* CAexitCk *)
    symmetry in Ec. destruct (Kck g sc exc Ec) as [Ecur Ew].
    assert (fo = None).
    { destruct fo as [f|]; [|reflexivity]. rewrite (Hfo f eq_refl) in Ew. discriminate. }
    specialize (Hinc H).
    assert (Ok : alloc_s s sc /\ notg s sc).
    { apply (scope_ok_treq s0 s sc Q0). apply Ksc. rewrite Ec. reflexivity. }
    assert (Hx : exit_ok s sc t).
    { apply exit_ok_of_cur; try assumption; [|apply Ok]. now rewrite (tq_cur _ _ Q0). }
    assert (R1 : RunJ [t] s (fst (scope_exit s sc t inc))).
    { apply runj_exit; [now apply runj_refl|exact Lt|]. intros _. apply exit_side_pub; try assumption. apply Ok. }
    pose proof (scope_exit_no_raise s sc t inc Hx Hinc) as Nr.
    destruct (scope_exit s sc t inc) as [s1 x]. cbn [fst snd] in *.
    assert (R01 : RunJ [t] s0 s1) by (eapply runj_trans; eauto).
    destruct x as [| |e]; [| |exfalso; now apply (Nr e)].
    + apply (sinv_wof s0 t s1); try assumption. intros w E. discriminate.
    + destruct inc as [e|].
      * destruct Hinc as [Hi|[o Hi]]; [discriminate|]. inversion Hi; subst e. cbn [is_cancel].
        apply (sinv_wof s0 t _ g None); try assumption; [|intros w E; discriminate].
        apply (runj_then _ _ _ _ R01), nsj_scope_cancel.
      * apply (sinv_wof s0 t s1); try assumption. intros w E. discriminate.
  - (* CStartWait *)
    destruct inc as [e|]; [|now apply (sinv_ret s0 t s _ I A N)].
    destruct (handle_pending s child); [|destruct (f_st (futs s _)); now apply (sinv_ret s0 t s _ I A N)].
    set (s1 := scope_cancel s (k_hscope (tasks s child)) false).
    assert (R1 : RunJ [t] s0 s1) by (apply (runj_then _ _ _ _ R0), nsj_scope_cancel).
    pose proof (runj_tree _ _ _ R1) as T1.
    destruct (run_actor_facts s0 s1 t (si_ctl _ I) A N R1) as [A1 D1].
    unfold new_scope. cbv zeta.
    pose proof (run_enter_fresh [t] s1 t None true T1 Lt A1 D1) as R2.
    destruct (fresh_enter_facts s1 t None true T1) as [_ [F2 [F3 _]]].
    unfold new_scope in R2, F2, F3. cbn [fst] in R2, F2, F3.
    set (s3 := fst (scope_enter _ (nscope s1) t)) in *.
    pose proof (nsj_quiet t _ _ (quiet_event_wait s3 t (k_hevent (tasks s3 child)))) as K4.
    destruct (event_wait s3 t (k_hevent (tasks s3 child))) as [s4 wf]. cbn [fst] in K4.
    apply (sinv_blocked s0 t s4); try assumption; try discriminate.
    + eapply runj_trans; [exact R1|]. exact (runj_then _ _ _ _ R2 K4).
    + intros x E. inversion E; subst x. apply (scope_ok_treq s3 s4); [apply (nsj_treq _ _ _ K4)|now split].
  - (* CStartJoin *)
    assert (Ok : alloc_s s sc /\ notg s sc).
    { apply (scope_ok_treq s0 s sc Q0). apply Ksc. rewrite <- Ec. reflexivity. }
    set (s1 := event_unwait s (k_hevent (tasks s child)) f).
    assert (K1 : nsj [t] s s1) by apply nsj_quiet, quiet_event_unwait.
    assert (R1 : RunJ [t] s0 s1) by exact (runj_then _ _ _ _ R0 K1).
    pose proof (runj_tree _ _ _ R1) as T1.
    assert (Ok1 : alloc_s s1 sc /\ notg s1 sc) by (apply (scope_ok_treq s s1); [apply (nsj_treq _ _ _ K1)|exact Ok]).
    assert (R2 : RunJ [t] s1 (fst (scope_exit s1 sc t inc))).
    { apply runj_exit; [now apply runj_refl|exact Lt|]. intros Hok. apply exit_side_pub; try assumption. apply Ok1. }
    destruct (scope_exit s1 sc t inc) as [s2 x]. cbn [fst] in R2.
    assert (R02 : RunJ [t] s0 s2) by (eapply runj_trans; eauto).
    destruct x; [| destruct inc |]; now apply (sinv_ret s0 t s2 _ I A N).
  - (* CHandleWait *)
    apply (sinv_ret s0 t _ _ I A N), (runj_then _ _ _ _ R0), nsj_quiet, quiet_event_unwait.
Qed.

Lemma sinv_env0 s s' : SInv s -> nstep0 [] s s' -> SInv s'.
Proof. intros I K. apply (sinv_run0 [] s s' I); [apply run0_n; [apply I|exact K]|intros t []]. Qed.

Lemma sinv_env s s' : SInv s -> nsj [] s s' -> GStepJ s s'.
Proof. intros I K. apply (gj_run [] s s' I); [apply runj_n; [apply I|exact K]|intros t []]. Qed.

Lemma gj_trans s s1 s2 : GStepJ s s1 -> GStepJ s1 s2 -> GStepJ s s2.
Proof.
  intros [[[I1 P1] D1] J1] [[[I2 P2] D2] J2]. split; [|now apply (jstep_trans s s1)].
  split; [|now apply (ids_trans s s1)]. split; [exact I2|]. apply (pstep_trans s s1 s2 P1 P2). exact D1.
Qed.

Lemma sinv_task_done s t :
  SInv s -> In (HTaskDone t) (ready s) ->
  GStepJ s (run_task_done (set_ready s (remove_first (HTaskDone t) (ready s))) t).
Proof.
  intros I Hin. destruct (c_td _ (si_ctl _ I) t Hin) as [A Ed].
  destruct (c_ok _ (si_ctl _ I) t A) as [_ [_ [_ [Kd _]]]]. specialize (Kd Ed).
  set (s1 := set_ready s (remove_first (HTaskDone t) (ready s))).
  assert (K1 : nsj [] s s1) by (apply nsj_remove_first; intros c; discriminate).
  rewrite run_task_done_eq. change (tasks s1 t) with (tasks s t).
  set (s2 := set_running s1 None).
  assert (K2 : nsj [] s s2) by (eapply nsj_trans; [exact K1|apply nsj_set_running]).
  destruct (k_group (tasks s t)) as [g|] eqn:G; [|now apply (sinv_env s)].
  pose proof (sinv_env s s2 I K2) as [[[[[T2 C2] D2] P2] Id2] J2].
  destruct K2 as [[[Q2 [B2 [Rq2 _]]] _] _].
  assert (Hn2 : forall x, s_host (scopes s2 x) <> Some t) by (intros x; rewrite (tq_host _ _ Q2); apply Kd).
  set (s3 := td_struct s2 t g).
  pose proof (Tree_td s2 t g T2 Hn2) as T3. fold s3 in T3.
  set (s' := td_tail s3 (tasks s t) g t).
  pose proof (nsj_td_tail [] s3 (tasks s t) g t) as K4. fold s' in K4.
  destruct K4 as [[[Q4 [B4 [Rq4 Dq4]]] Pq4] J4].
  change (td_struct s2 t g) with (done_struct s2 t g) in (value of s3).
  assert (Eh3 : forall x, s_host (scopes s3 x) = s_host (scopes s2 x))
    by (intros x; unfold s3; rewrite done_struct_scopes; now destruct (opt_eqb _ x)).
  assert (Cn : ntask s3 = ntask s2 /\ nscope s3 = nscope s2 /\ ngroup s3 = ngroup s2 /\ ready s3 = ready s2)
    by (unfold s3; rewrite done_struct_rest; now repeat split).
  destruct Cn as [C1 [C2' [C3 C4]]].
  assert (Eg3 : forall x, g_scope (groups s3 x) = g_scope (groups s2 x))
    by (intros x; unfold s3; rewrite done_struct_groups; deq x g; reflexivity).
  assert (Et3 : forall x, x <> t -> tasks s3 x = tasks s2 x)
    by (intros x Hx; unfold s3; rewrite done_struct_tasks; deq x t; [contradiction|reflexivity]).
  assert (Egr3 : forall x, k_group (tasks s3 x) = k_group (tasks s2 x))
    by (intros x; unfold s3; rewrite done_struct_tasks; deq x t; reflexivity).
  assert (Ett : k_ctl (tasks s3 t) = CDone).
  { unfold s3. rewrite done_struct_tasks, Nat.eqb_refl. cbn [k_ctl tk_tdran tk_cur].
    rewrite (tcore_ctl _ _ (B2 t (fun H => H))). exact Ed. }
  assert (Id3 : ids s2 s').
  { intros x Ax. split; [unfold alloc_t in *; now rewrite (tq_ntask _ _ Q4), C1|].
    rewrite (tq_group _ _ Q4). apply Egr3. }
  split.
  2:{ eapply jstep_trans; [exact J2|]. eapply jstep_trans; [|exact J4].
      apply jstep_of; [apply H_td_struct|apply dbstep_dbm, dbm_td_struct]. }
  split; [|now apply (ids_trans s s2)].
  split.
  2:{ (* the potential *)
      apply (pstep_trans s s2); [exact P2| |intros x Ax; now apply same_alloc_group].
      apply (pstep_trans s2 s3); [apply pstep_inert, inert_td_struct|now apply Pq4|].
      intros x Ax. split; [unfold alloc_t in *; now rewrite C1|apply Egr3]. }
  split; [split; [eapply Tree_treq; eauto|]|apply Dq4; [now apply Tree_TreeL|now apply D_td_struct]].
  apply (Ctl_step0 [t] s s' (si_ctl _ I)).
  - constructor.
    + intros x Hx. assert (x <> t) by (intros ->; apply Hx; now left).
      rewrite (B4 x (fun H => H)), (Et3 x H). apply (B2 x (fun H => H)).
    + intros x. unfold alloc_t. now rewrite (tq_ntask _ _ Q4), C1, (tq_ntask _ _ Q2).
    + intros x. unfold alloc_t. rewrite (tq_ntask _ _ Q4), C1, (tq_ntask _ _ Q2). now left.
    + intros x y _. now rewrite (tq_host _ _ Q4), Eh3, (tq_host _ _ Q2).
    + intros x Hx _. assert (x <> t) by (intros ->; apply Hx; now left).
      rewrite (tq_base _ _ Q4). unfold base. rewrite (Et3 x H).
      rewrite (tq_group _ _ Q2). destruct (k_group (tasks s x)); [|reflexivity].
      now rewrite Eg3, (tq_gscope _ _ Q2).
    + intros x. unfold alloc_s. now rewrite (tq_nscope _ _ Q4), C2', (tq_nscope _ _ Q2).
    + intros x _ Nx. apply (tq_notg _ _ Q4). intros y Hy. rewrite Eg3, (tq_gscope _ _ Q2). apply Nx.
      unfold alloc_g in *. now rewrite C3, (tq_ngroup _ _ Q2) in Hy.
    + intros x Hx. left. apply Rq4 in Hx. rewrite C4 in Hx. now apply Rq2.
  - intros t' [<-|[]].
    assert (Ec : k_ctl (tasks s' t) = CDone).
    { rewrite (tcore_ctl _ _ (B4 t (fun H => H))). exact Ett. }
    assert (A' : alloc_t s' t).
    { unfold alloc_t. now rewrite (tq_ntask _ _ Q4), C1, (tq_ntask _ _ Q2). }
    refine (conj _ (conj _ _)).
    + intros _. unfold cok. rewrite Ec. refine (conj _ (conj _ (conj _ (conj _ _)))); try discriminate.
      * intros _ x. rewrite (tq_host _ _ Q4), Eh3. apply Hn2.
      * intros _. reflexivity.
    + intros NA. contradiction.
    + intros _. split; [exact A'|exact Ec].
Qed.

Lemma sinv_run_handle s h : SInv s -> op_ok s (ARun h) = true -> GStepJ s (fst (run_handle s h)).
Proof.
  intros I. revert h.
  assert (G1 : forall h, (forall c, h <> HDeliver c) -> GStepJ s (dequeue s h))
    by (intros h Hh; now apply sinv_env, nsj_remove_first).
  apply (run_handle_cases (fun h r => op_ok s (ARun h) = true -> GStepJ s (fst r))); cbn [fst].
  - intros h _. now apply gj_refl.
  - intros t _ _. assert (K1 : GStepJ s (dequeue s (HStep t))) by (apply G1; discriminate).
    apply (gj_trans _ _ _ K1), sinv_resume; [apply K1|]. intros f E. discriminate.
  - intros t f _ Hok. assert (K1 : GStepJ s (dequeue s (HWake t f))) by (apply G1; discriminate).
    apply (gj_trans _ _ _ K1), sinv_resume; [apply K1|].
    intros f' E. inversion E; subst f'. cbn [op_ok] in Hok. apply opt_eqb_Some in Hok. exact Hok.
  - intros c Hin _. apply (sinv_env s _ I). now apply nsj_run_deliver.
  - intros t Hin _. now apply sinv_task_done.
  - intros f tm _ _. assert (K1 : GStepJ s (dequeue s (HSleepDone f tm))) by (apply G1; discriminate).
    apply (gj_trans _ _ _ K1), sinv_env; [apply K1|apply nsj_fut_complete].
  - intros c tm _ _. assert (K1 : GStepJ s (dequeue s (HTimeout c tm))) by (apply G1; discriminate).
    apply (gj_trans _ _ _ K1), sinv_env; [apply K1|].
    eapply nsj_trans; [apply nsj_set_running|]. eapply nsj_trans; [|apply nsj_set_running]. apply nsj_scope_timeout.
Qed.

Lemma sinv_new_root s : SInv s -> GStepJ s (fst (new_root s)).
Proof.
  intros I. pose proof (si_tree _ I) as T. unfold new_root. cbn [fst]. fold (root_struct s).
  set (t := ntask s). set (s1 := root_struct s).
  assert (K2 : nsj [t] s1 (set_running (park s1 t) None)).
  { eapply nsj_trans; [apply nsj_quiet, quiet_park|apply nsj_set_running]. }
  assert (R2 : RunJ [t] s (set_running (park s1 t) None)).
  { apply (runj_then _ _ s1); [apply runj_new_root; [now apply runj_refl|now left]|exact K2]. }
  pose proof (nsj_treq _ _ _ K2) as K.
  apply (gj_run [t] s _ I R2). destruct R2 as [[[[_ [_ Rq]] _] _] _]. intros t' [<-|[]].
  assert (Ec : k_ctl (tasks (set_running (park s1 t) None) t) = CIdle) by apply park_ctl.
  assert (Ed : k_tdran (tasks (set_running (park s1 t) None) t) = false).
  { rewrite (tq_tdran _ _ K). unfold s1, root_struct, t. cbn. unfold upd. now rewrite Nat.eqb_refl. }
  refine (conj _ (conj _ _)).
  - intros _. unfold cok. rewrite Ec, Ed. refine (conj _ (conj _ (conj _ (conj _ _)))); discriminate.
  - intros NA. exfalso. apply NA.
    unfold alloc_t. rewrite (tq_ntask _ _ K). unfold s1, root_struct, t. cbn [ntask].
    destruct (tr_cnt _ T) as [_ [P _]]. lia.
  - intros Hin. apply Rq in Hin. destruct (c_td _ (si_ctl _ I) t Hin) as [[_ A0] _]. unfold t in A0. lia.
Qed.

(* ops other than the two outside influences on the cancel counter *)
Definition quiet_op (o : op) : Prop :=
  match o with ANativeCancel _ | AUncancel _ => False | _ => True end.

Lemma step_gj s o : SInv s -> op_ok s o = true -> quiet_op o -> GStepJ s (fst (step s o)).
Proof.
  intros I. revert o. apply (step_cases (fun o r => op_ok s o = true -> quiet_op o -> GStepJ s (fst r))); cbn [fst].
  - intros o _ _. now apply gj_refl.
  - intros o t Ea Hidle Hok Hq. destruct o; try discriminate Ea; injection Ea as <-.
    + apply po_new_scope; assumption.
    + apply po_enter; assumption.
    + apply po_exit; assumption.
    + apply po_cancel; assumption.
    + apply po_setshield; assumption.
    + apply po_setdeadline; assumption.
    + apply po_group_new; assumption.
    + apply po_group_enter; assumption.
    + apply po_group_exit; assumption.
    + apply po_spawn; assumption.
    + apply po_start; assumption.
    + apply po_started; assumption.
    + apply po_handle_cancel; assumption.
    + apply po_handle_wait; assumption.
    + apply po_yield; assumption.
    + apply po_ckif; assumption.
    + apply po_shieldck; assumption.
    + apply po_sleep; assumption.
    + apply po_hold; assumption.
    + apply po_drop; assumption.
    + apply po_wrap; assumption.
    + apply gj_refl, I.
    + destruct Hq.
    + apply po_effdeadline; assumption.
    + apply po_failat; assumption.
  - intros t v Hidle Hok _. now apply sinv_puppet_finish.
  - intros _ _. now apply sinv_new_root.
  - intros t _ [].
  - intros c _ _. apply (sinv_env s _ I).
    eapply nsj_trans; [apply nsj_set_running|]. eapply nsj_trans; [|apply nsj_set_running]. apply nsj_scope_cancel.
  - intros h Hok _. now apply sinv_run_handle.
  - intros dt _ _ _. apply (sinv_env s _ I). apply nsj_tick.
Qed.

Theorem step_g s o : SInv s -> op_ok s o = true -> quiet_op o -> GStep s (fst (step s o)).
Proof. intros I Hok Hq. now apply step_gj. Qed.

(* every op of the domain, the two outside influences included *)
Lemma step_ij s o : SInv s -> op_ok s o = true -> SInv (fst (step s o)) /\ jstep s (fst (step s o)).
Proof.
  intros I Hok.
  assert (Q : quiet_op o -> SInv (fst (step s o)) /\ jstep s (fst (step s o))).
  { intros Hq. destruct (step_gj s o I Hok Hq) as [[[I' _] _] J]. exact (conj I' J). }
  destruct o; try exact (Q Logic.I); clear Q.
  - (* AUncancel *)
    unfold step. cbn [actor]. destruct (idle s t) eqn:Hidle; cbn [negb]; [|exact (conj I (jstep_refl s))].
    now apply po_uncancel.
  - (* ANativeCancel *)
    cbn [step actor fst]. split; [apply (sinv_env0 s _ I), ns0_task_cancel|].
    apply jstep_same; [apply treq_task_cancel|apply ss_task_cancel|apply rdq_task_cancel].
Qed.

Theorem step_inv s o : SInv s -> op_ok s o = true -> SInv (fst (step s o)).
Proof. intros I Hok. now apply step_ij. Qed.

Definition reach (s : st) : Prop := exists ops, s = final step init ops.
Definition reach_ok (s : st) : Prop := exists ops, ops_ok init ops = true /\ s = final step init ops.

Lemma reach_ok_reach s : reach_ok s -> reach s.
Proof. intros [ops [_ E]]. now exists ops. Qed.

Lemma Tree_init : Tree init.
Proof.
  constructor; cbn; try (intros; discriminate); try (intros; exfalso; unfold alloc_t, alloc_g, alloc_s in *; cbn in *; lia).
  - repeat split; lia.
  - intros; reflexivity.
  - intros p x. split; [intros []|intros [H _]; discriminate].
  - intros x t. split; [intros []|discriminate].
  - intros p. constructor.
  - intros x. constructor.
  - exists (fun _ => 0). intros; discriminate.
  - intros g _. reflexivity.
Qed.

Lemma Ctl_init : Ctl init.
Proof.
  constructor.
  - intros t [A B]. cbn in B. lia.
  - intros t _. reflexivity.
  - intros t [].
Qed.

Lemma DInv_init : DInv init.
Proof. split; intros c; cbn; discriminate. Qed.

Lemma sinv_init : SInv init.
Proof. split; [split; [apply Tree_init|apply Ctl_init]|apply DInv_init]. Qed.

Lemma reach_ok_init : reach_ok init.
Proof. exists []. now split. Qed.

Lemma ops_ok_app s a b : ops_ok s (a ++ b) = ops_ok s a && ops_ok (final step s a) b.
Proof.
  revert s. induction a as [|o a IH]; intros s; [reflexivity|]. cbn [app ops_ok final fold_left].
  now rewrite IH, andb_assoc.
Qed.

(* prefixes and extensions of a run in the domain are in the domain *)
Lemma reach_ok_final s ops : reach_ok s -> ops_ok s ops = true -> reach_ok (final step s ops).
Proof.
  intros [ops0 [H ->]] Ho. exists (ops0 ++ ops). split; [|now rewrite final_app].
  now rewrite ops_ok_app, H.
Qed.

Lemma reach_ok_step s o : reach_ok s -> op_ok s o = true -> reach_ok (fst (step s o)).
Proof. intros R Ho. apply (reach_ok_final s [o] R). cbn. now rewrite Ho. Qed.

Lemma reach_ok_ind (P : st -> Prop) :
  P init -> (forall s o, reach_ok s -> P s -> op_ok s o = true -> P (fst (step s o))) ->
  forall s, reach_ok s -> P s.
Proof.
  intros P0 Ps s [ops [H ->]]. revert H. generalize reach_ok_init P0. generalize init.
  induction ops as [|o r IH]; intros s R p H; [exact p|]. cbn [ops_ok] in H.
  apply andb_true_iff in H. destruct H as [H1 H2]. apply IH; [now apply reach_ok_step|now apply Ps|exact H2].
Qed.

Lemma reach_inv s : reach_ok s -> SInv s /\ HDI s /\ DBH s.
Proof.
  revert s. apply (reach_ok_ind (fun s => SInv s /\ HDI s /\ DBH s)); [exact (conj sinv_init (conj HDI_init DBH_init))|].
  intros a o _ [I J] Ho. destruct (step_ij a o I Ho) as [I' J']. exact (conj I' (J' J)).
Qed.

Theorem reach_sinv s : reach_ok s -> SInv s.
Proof. intros H. apply (reach_inv s H). Qed.

Theorem reach_tree s : reach_ok s -> Tree s.
Proof. intros H. apply (reach_sinv s H). Qed.

(* I4: in every reachable state of the domain, a cancelled hosted scope that a live task still reaches has its
   delivery callback scheduled *)
Theorem reach_dinv s : reach_ok s -> DInv s.
Proof. intros H. apply (reach_sinv s H). Qed.

Theorem reach_hdi s : reach_ok s -> HDI s.
Proof. intros H. apply (reach_inv s H). Qed.

(* in every reachable state: debts sit only on hosted scopes, and only below a cancelled scope *)
Theorem reach_dbh s : reach_ok s -> DBH s.
Proof. intros H. apply (reach_inv s H). Qed.

(* a delivery callback in the ready queue of a reachable state belongs to a cancelled scope *)
Corollary deliver_handle_cancelled s c :
  reach_ok s -> In (HDeliver c) (ready s) -> s_cancelled (scopes s c) = true.
Proof. intros R H. apply (hd_c _ (reach_hdi s R) c H). Qed.

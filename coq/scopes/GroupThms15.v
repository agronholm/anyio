(* C07/C02, finding F20: what an interrupted start() raises when the child failed before started().
   (a) result-level theorem for the fixed machine; (b) the pre-fix step as a local definition and a witness run in
   which the child's error surfaces nowhere; (c) the "no error lost" theorem tied to the starter that raises it. *)
From AV Require Import Base Machine MachineFacts GroupInv GroupInv2 GroupInv3 GroupInv5 GroupInv7 GroupInv9
  GroupWalk GroupThms.

Lemma handle_pending_incs_pop s h t c : handle_pending (incs (dequeue s h) t) c = handle_pending s c.
Proof.
  unfold handle_pending. destruct (incs_cview (dequeue s h) t c) as [V _]. apply cview_inv in V.
  destruct V as [_ [_ [_ [E1 [E2 _]]]]]. change (tasks (dequeue s h) c) with (tasks s c) in E1, E2. now rewrite E1, E2.
Qed.

(* (a) The starter t waits for started() of child c; the child's handle is no longer pending and the start future
   holds the exception e' the child handed over.  Then the step that resumes the starter returns RExc e' -
   whether or not a native cancellation of the starter is pending (k_must): start() raises the child's error. *)
Theorem start_raises_routed_exception s t g c f e' h : reach s ->
  k_ctl (tasks s t) = CStartWait g c f -> handle_pending s c = false -> f_st (futs s f) = FExc e' ->
  In h (ready s) -> (h = HStep t \/ exists f', h = HWake t f') ->
  h = HWake t f /\ snd (step s (ARun h)) = RExc e'.
Proof.
  intros R Hc Hp Hf Hin Hh. destruct (reachable s R) as [[K Ci G J] Hrun].
  assert (Hnr : running s <> Some t) by (rewrite Hrun; discriminate).
  pose proof (c_w s Ci t Hnr) as Hw. rewrite Hc in Hw. cbn [ctl_waiter] in Hw.
  assert (Eh' : h = HWake t f).
  { destruct Hh as [->|[f' ->]].
    - destruct (k_step s K t Hin) as [E _]. congruence.
    - destruct (k_wake s K t f' Hin) as [E _]. congruence. }
  split; [exact Eh'|]. subst h.
  rewrite (step_run_in s _ Hin), resume_unfold. cbn zeta.
  change (k_ctl (tasks (dequeue s (HWake t f)) t)) with (k_ctl (tasks s t)). rewrite Hc.
  rewrite handle_pending_incs_pop, Hp.
  assert (Einc : exists e, snd (incoming (dequeue s (HWake t f)) t (Some f)) = Some e).
  { unfold incoming. cbn [snd]. change (futs (dequeue s (HWake t f)) f) with (futs s f). rewrite Hf.
    destruct (k_must _); [destruct e'|]; eauto. }
  destruct Einc as [e ->]. cbn [ret_to_puppet snd]. unfold start_exc.
  change (futs (incs (dequeue s (HWake t f)) t) f) with (futs s f). now rewrite Hf.
Qed.

Example ex_start_raises_routed_exception :
  let s := final step init [ANewRoot; AGroupNew 1; AGroupEnter 1 1; AStart 1 1; ARun (HStep 2); AHold 2 7;
                            AFinish 2 0; ARun (HTaskDone 2); ANativeCancel 1] in
  k_ctl (tasks s 1) = CStartWait 1 2 4 /\ handle_pending s 2 = false /\ f_st (futs s 4) = FExc (EErr 7) /\
  In (HWake 1 4) (ready s) /\ k_must (tasks s 1) = true /\ snd (step s (ARun (HWake 1 4))) = RExc (EErr 7).
Proof. vm_compute. repeat split; auto. Qed.

(* resume before the fix of F20: it differs from `resume` only in the branch CStartWait / interrupted / handle no
   longer pending, where it re-raised the interruption whatever the start future held *)
Definition resume_old (s0 : st) (t : tid) (fo : option fid) : st * res :=
  match k_ctl (tasks s0 t) with
  | CStartWait g child f =>
      let '(s, inc) := incoming s0 t fo in
      match inc with
      | Some e => if handle_pending s child then resume s0 t fo else ret_to_puppet s t (RExc e)
      | None => resume s0 t fo
      end
  | _ => resume s0 t fo
  end.

Definition run_handle_old (s0 : st) (h : handle) : st * res :=
  if negb (existsb (handle_eqb h) (ready s0)) then (s0, RRejected) else
  let s := set_ready s0 (remove_first h (ready s0)) in
  match h with
  | HStep t => resume_old s t None
  | HWake t f => resume_old s t (Some f)
  | _ => run_handle s0 h
  end.

Definition step_old (s : st) (o : op) : st * res :=
  match o with ARun h => run_handle_old s h | _ => step s o end.

(* the two machines differ only where a starter is resumed while its start future holds an exception *)
Lemma resume_old_eq s0 t fo :
  (forall g c f e, k_ctl (tasks s0 t) = CStartWait g c f -> f_st (futs s0 f) <> FExc e) ->
  resume_old s0 t fo = resume s0 t fo.
Proof.
  intros H. unfold resume_old. destruct (k_ctl (tasks s0 t)) as [| | | | | |g c f| | |] eqn:Ec; try reflexivity.
  rewrite resume_unfold. cbn zeta. rewrite Ec.
  destruct (incoming s0 t fo) as [s inc] eqn:Ei.
  assert (Es : s = incs s0 t) by (rewrite <- (incoming_fst s0 t fo), Ei; reflexivity).
  cbn [snd]. subst s. destruct inc as [e|]; [|reflexivity].
  destruct (handle_pending (incs s0 t) c); [reflexivity|].
  unfold start_exc. change (futs (incs s0 t) f) with (futs s0 f).
  destruct (f_st (futs s0 f)) eqn:Ef; try reflexivity. exfalso. exact (H g c f e0 eq_refl Ef).
Qed.

Theorem step_old_eq s o :
  (forall t g c f e, k_ctl (tasks s t) = CStartWait g c f -> f_st (futs s f) <> FExc e) ->
  step_old s o = step s o.
Proof.
  intros H. destruct o; try reflexivity. cbn [step_old step actor]. unfold run_handle_old, run_handle.
  destruct (negb (existsb (handle_eqb h) (ready s))); [reflexivity|].
  destruct h; try reflexivity; apply resume_old_eq; intros g c f0 e; apply (H _ g c f0 e).
Qed.

Definition has_err (n : nat) (e : exn) : bool :=
  existsb (fun x => match x with EErr m => Nat.eqb m n | _ => false end) (leaves e).
Definition res_has_err (n : nat) (r : res) : bool :=
  match r with RExc e => has_err n e | _ => false end.
Definition opt_has_err (n : nat) (o : option exn) : bool :=
  match o with Some e => has_err n e | None => false end.

(* every place from which an exception can still surface: the errors collected by a group, what a live task
   holds, and the futures a live task waits on.  (The dead child's own record and its TaskHandle still carry the
   error, but a start() that raises returns no handle: nobody can read them.) *)
Definition err_visible (n : nat) (s : st) : bool :=
  existsb (fun g => existsb (fun p => has_err n (snd p)) (g_excs (groups s g))) (List.seq 0 (ngroup s)) ||
  existsb (fun t => match k_done (tasks s t) with
                    | Some _ => false
                    | None =>
                        opt_has_err n (k_held (tasks s t)) ||
                        match k_waiter (tasks s t) with
                        | Some f => match f_st (futs s f) with FExc e => has_err n e | _ => false end
                        | None => false
                        end
                    end) (List.seq 0 (ntask s)).

(* F20 before the fix: the child (task 2) fails with EErr 7 before started(); its task_done callback hands the
   error to the start future; the starter (task 1) is natively cancelled before it runs again; start() re-raises
   the cancellation, the group exits with it, both tasks finish: EErr 7 is in no result of the run, in no group's
   collected errors, held by no task, and the start future that holds it is awaited by nobody *)
Example start_error_lost_before_fix_refuted :
  exists ops,
    let '(s, outs) := run_ops step_old init ops in
    k_done (tasks s 2) = Some (OExc (EErr 7)) /\ k_tdran (tasks s 2) = true /\
    f_st (futs s 4) = FExc (EErr 7) /\ k_startfut (tasks s 2) = Some 4 /\
    forallb (fun r => negb (res_has_err 7 r)) outs = true /\ err_visible 7 s = false /\
    (* ... already right after start() raised, and when everything is over *)
    err_visible 7 (final step_old init (firstn 10 ops)) = false /\
    k_ctl (tasks s 1) = CDone /\ k_ctl (tasks s 2) = CDone /\
    (* the same run on the fixed machine: start() raises the child's error, and so does the task group *)
    nth 9 (snd (run_ops step init ops)) RNone = RExc (EErr 7) /\
    nth 11 (snd (run_ops step init ops)) RNone = RExc (EGroup [EErr 7]).
Proof.
  exists [ANewRoot; AGroupNew 1; AGroupEnter 1 1; AStart 1 1; ARun (HStep 2); AHold 2 7; AFinish 2 0;
          ARun (HTaskDone 2); ANativeCancel 1; ARun (HWake 1 4); AGroupExit 1 1; ARun (HStep 1); AFinish 1 0].
  vm_compute. repeat split; reflexivity.
Qed.

(* a group child whose coroutine ended with a non-cancellation error is no longer pending *)
Lemma failed_child_not_pending s g t e : reach s -> In t (g_ever (groups s g)) ->
  k_done (tasks s t) = Some (OExc e) -> handle_pending s t = false.
Proof.
  intros R Hin Hd. destruct (reachable s R) as [[K Ci G J] Hrun].
  destruct (g_grp s G g t Hin) as [Hg _].
  destruct (k_final (tasks s t)) as [o|] eqn:Ef.
  - destruct (h_fin s Ci t o) as [Hs _]; [congruence|exact Ef|]. unfold handle_pending. now rewrite Hs.
  - destruct (h_done s Ci t) as [e0 E0]; [congruence|exact Ef|]. congruence.
Qed.

(* C02/C07: the error e of a finished member t (its task_done callback has run) is among the errors collected by
   its group, or it sits in t's start future - and then every starter still waiting on that future raises exactly e
   in the step that resumes it, whether or not it has been natively cancelled in between *)
Theorem start_no_error_lost_raised s g t e : reach s -> In t (g_ever (groups s g)) ->
  k_tdran (tasks s t) = true -> k_done (tasks s t) = Some (OExc e) ->
  In e (map snd (g_excs (groups s g))) \/
  exists f, k_startfut (tasks s t) = Some f /\ f_st (futs s f) = FExc e /\
    forall t' g' c h, k_ctl (tasks s t') = CStartWait g' c f -> In h (ready s) ->
      (h = HStep t' \/ exists f', h = HWake t' f') ->
      c = t /\ h = HWake t' f /\ snd (step s (ARun h)) = RExc e.
Proof.
  intros R H1 H2 H3. destruct (start_no_error_lost s g t e R H1 H2 H3) as [H|[f [Hsf Hf]]]; [left; exact H|].
  right. exists f. split; [exact Hsf|]. split; [exact Hf|].
  intros t' g' c h Hc Hin Hh. destruct (reachable s R) as [[K Ci G J] Hrun].
  assert (Hnr : running s <> Some t') by (rewrite Hrun; discriminate).
  destruct (c_sw s Ci t' g' c f Hnr Hc) as [_ [Hsf' _]].
  assert (Ec : c = t) by (apply (kk_ss s J f c t Hsf' Hsf)). subst c. split; [reflexivity|].
  apply (start_raises_routed_exception s t' g' t f e h R Hc (failed_child_not_pending s g t e R H1 H3) Hf Hin Hh).
Qed.

Example ex_start_no_error_lost_raised :
  let s := final step init [ANewRoot; AGroupNew 1; AGroupEnter 1 1; AStart 1 1; ARun (HStep 2); AHold 2 7;
                            AFinish 2 0; ARun (HTaskDone 2); ANativeCancel 1] in
  In 2 (g_ever (groups s 1)) /\ k_tdran (tasks s 2) = true /\ k_done (tasks s 2) = Some (OExc (EErr 7)) /\
  ~ In (EErr 7) (map snd (g_excs (groups s 1))) /\ k_ctl (tasks s 1) = CStartWait 1 2 4 /\
  k_must (tasks s 1) = true /\ In (HWake 1 4) (ready s).
Proof. vm_compute. repeat split; auto. Qed.

(* Specifications of scope_enter / scope_exit needed to follow the group's cancel scope through __aexit__. *)
From AV Require Import Base Machine MachineFacts GroupInv GroupInv3 GroupInv4 GroupInv6 GroupThms2 GroupThms8.

(* other scopes keep active/host/parent across scope_enter / scope_exit of c *)
Lemma scope_enter_other s c t x : x <> c -> sc_same (scopes s x) (scopes (fst (scope_enter s c t)) x).
Proof.
  intros Hx. pose proof (kframe_kstar _ _ _ _ (ks_scope_enter s c t)) as F.
  apply (fr_sc _ _ _ _ F). intros E. apply Hx. now subst.
Qed.

Lemma scope_exit_other s c t e x : x <> c -> sc_same (scopes s x) (scopes (fst (scope_exit s c t e)) x).
Proof.
  intros Hx. pose proof (kframe_kstar _ _ _ _ (ks_scope_exit s c t e)) as F.
  apply (fr_sc _ _ _ _ F). intros E. apply Hx. now subst.
Qed.

Lemma kstar_none_same s s' x : kstar none_s none_t s s' -> sc_same (scopes s x) (scopes s' x).
Proof. intros H. apply (fr_sc _ _ _ _ (kframe_kstar _ _ _ _ H)). intros []. Qed.

Lemma kstar_none_cur s s' t : kstar none_s none_t s s' -> k_cur (tasks s' t) = k_cur (tasks s t).
Proof. intros H. apply (fr_cur _ _ _ _ (kframe_kstar _ _ _ _ H)). intros []. Qed.

(* entering an inactive scope records the task's current scope as its parent *)
Lemma scope_enter_parent s c t : s_active (scopes s c) = false ->
  s_parent (scopes (fst (scope_enter s c t)) c) = k_cur (tasks s t).
Proof.
  intros Ha. unfold scope_enter. rewrite Ha. cbn [fst].
  match goal with |- s_parent (scopes (if _ then deliver_top ?x _ else _) c) = _ => set (s5 := x) end.
  assert (P5 : s_parent (scopes s5 c) = k_cur (tasks s t)).
  { unfold s5.
    match goal with |- s_parent (scopes (upd_scope (scope_timeout ?x c) c _) c) = _ => set (s3 := x) end.
    assert (P3 : s_parent (scopes s3 c) = k_cur (tasks s t)).
    { unfold s3. destruct (k_cur (tasks s t)) as [p|].
      - cbn [upd_scope set_scopes scopes upd_task set_tasks tasks].
        destruct (Nat.eq_dec c p) as [<-|Hne].
        + rewrite !upd_same. reflexivity.
        + rewrite (upd_other _ p _ c Hne), upd_same. reflexivity.
      - cbn [upd_scope set_scopes scopes upd_task set_tasks tasks]. rewrite upd_same. reflexivity. }
    cbn [upd_scope set_scopes scopes]. rewrite upd_same. cbn [s_parent sc_active].
    destruct (kstar_none_same s3 (scope_timeout s3 c) c (ks_scope_timeout _ _ s3 c)) as [_ [_ E]]. now rewrite E. }
  destruct (s_cancelled (scopes s5 c)); [|exact P5].
  destruct (kstar_none_same s5 (deliver_top s5 c) c (ks_deliver_top _ _ s5 c)) as [_ [_ E]]. now rewrite E.
Qed.

(* a successful scope_exit: the scope becomes inactive and the task returns to the parent scope *)
Lemma scope_exit_success s c t exc : owns s t c ->
  let s' := fst (scope_exit s c t exc) in
  s_active (scopes s' c) = false /\ k_cur (tasks s' t) = s_parent (scopes s c).
Proof.
  intros [Ha [Hh [Hc _]]]. cbn zeta.
  destruct (scope_exit_shape s c t exc (conj Ha (conj Hh Hc))) as [s6 [x [X ->]]]. cbn [fst].
  set (s4 := exit_links s c t) in *. set (s5 := restart s4 (s_parent (scopes s c))) in *.
  (* P holds after the bookkeeping, and every later move keeps s_active of c and the scope pointer of t *)
  set (P := fun a => s_active (scopes a c) = false /\ k_cur (tasks a t) = s_parent (scopes s c)).
  assert (Qu : forall a y g, (forall z, s_active (g z) = s_active z) -> s_active (scopes a c) = false ->
                             s_active (scopes (upd_scope a y g) c) = false).
  { intros a y g Hg H1. cbn [upd_scope set_scopes scopes]. unfold upd.
    destruct (Nat.eqb_spec c y) as [->|_]; [now rewrite Hg|exact H1]. }
  assert (Pu : forall a y g, (forall z, s_active (g z) = s_active z) -> P a -> P (upd_scope a y g)).
  { intros a y g Hg [H1 H2]. split; [now apply Qu|exact H2]. }
  assert (Pk : forall a b, kstar none_s none_t a b -> P a -> P b).
  { intros a b K [H1 H2]. destruct (kstar_none_same a b c K) as [E _]. split; [now rewrite E|].
    now rewrite (kstar_none_cur a b t K). }
  assert (A4 : P s4).
  { unfold P, s4, exit_links. cbn [upd_task set_tasks tasks]. rewrite upd_same. split; [|reflexivity].
    change (scopes (upd_task ?a t ?g)) with (scopes a).
    assert (A2 : s_active (scopes (upd_scope (cancel_timeout (upd_scope s c (sc_active false)) c) c
                                     (fun z => sc_tasks (del t (s_tasks z)) z)) c) = false).
    { apply Qu; [reflexivity|].
      destruct (kstar_none_same _ _ c (ks_cancel_timeout none_s none_t (upd_scope s c (sc_active false)) c)) as [E _].
      rewrite E. cbn [upd_scope set_scopes scopes]. now rewrite upd_same. }
    destruct (s_parent (scopes s c)); [apply Qu; [reflexivity|exact A2]|exact A2]. }
  assert (A5 : P s5) by (apply (Pk s4), A4; apply ks_restart).
  apply Pu; [reflexivity|].
  destruct X as [y _ sA| |p _ _ _ _].
  - assert (PA : P sA) by (apply Pu; [reflexivity|]; apply (Pk s5), A5; apply ks_iter_uncancel).
    destruct y; [apply Pu; [reflexivity|exact PA]|exact PA|apply Pu; [reflexivity|exact PA]].
  - exact A5.
  - apply Pu; [reflexivity|]. apply Pu; [reflexivity|exact A5].
Qed.

Lemma scopes_ret s t r : scopes (fst (ret_to_puppet s t r)) = scopes s.
Proof. apply (kx_scopes _ _ _ _ (ret_to_puppet_fix s t r)). Qed.

Lemma aexit_raise_deactivates s t g e : owns s t (g_scope (groups s g)) ->
  s_active (scopes (fst (aexit_raise s t g e)) (g_scope (groups s g))) = false.
Proof.
  intros O. unfold aexit_raise.
  destruct (scope_exit_success s (g_scope (groups s g)) t (Some e) O) as [H _].
  destruct (scope_exit s (g_scope (groups s g)) t (Some e)) as [s1 x]. cbn [fst] in H.
  destruct x; cbn [fst]; exact H.
Qed.

Lemma aexit_finish_deactivates s t g exc : owns s t (g_scope (groups s g)) ->
  s_active (scopes (fst (aexit_finish s t g exc)) (g_scope (groups s g))) = false.
Proof.
  intros O. unfold aexit_finish. destruct (map snd (g_excs (groups s g))); [|apply aexit_raise_deactivates, O].
  destruct exc; [apply aexit_raise_deactivates, O|].
  destruct (scope_exit_success s (g_scope (groups s g)) t None O) as [H _].
  destruct (scope_exit s (g_scope (groups s g)) t None) as [s1 x]. cbn [fst] in H.
  destruct x; cbn [fst]; exact H.
Qed.

Lemma deact_ret_pair (p : st * res) t c : s_active (scopes (fst p) c) = false ->
  s_active (scopes (fst (let '(s2, r) := p in ret_to_puppet s2 t r)) c) = false.
Proof. destruct p as [s2 r]. cbn [fst]. now rewrite scopes_ret. Qed.

(* what the task inside __aexit__ holds: the wait scope w (if any) on top, the group's scope below it *)
Definition aexit_pre (s : st) (t : tid) (g : gid) (ws : option sid) : Prop :=
  let gs := g_scope (groups s g) in
  match ws with
  | Some w => owns s t w /\ s_parent (scopes s w) = Some gs /\ w <> gs /\
              s_active (scopes s gs) = true /\ s_host (scopes s gs) = Some t /\ gs < nscope s
  | None => owns s t gs
  end.

Lemma ctl_ret_pair (p : st * res) t : k_ctl (tasks (fst (let '(s2, r) := p in ret_to_puppet s2 t r)) t) = CIdle.
Proof. destruct p as [s2 r]. apply ret_to_puppet_ctl. Qed.

Lemma wof_finishes_ctl s t g ws exc : g_tasks (groups s g) = [] ->
  k_ctl (tasks (fst (aexit_wait_or_finish s t g ws exc)) t) = CIdle.
Proof.
  intros Ht. unfold aexit_wait_or_finish. rewrite Ht. destruct ws as [w|]; [|apply ctl_ret_pair].
  destruct (scope_exit s w t None) as [s1 x]. destruct x; apply ctl_ret_pair.
Qed.

Lemma left_ret_pair (p : st * res) t g : g_left (groups (fst p) g) = true ->
  g_left (groups (fst (let '(s2, r) := p in ret_to_puppet s2 t r)) g) = true.
Proof. destruct p as [s2 r]. cbn [fst]. now rewrite groups_ret. Qed.

Lemma wof_finishes_left s t g ws exc : g_tasks (groups s g) = [] ->
  g_left (groups (fst (aexit_wait_or_finish s t g ws exc)) g) = true.
Proof.
  intros Ht. unfold aexit_wait_or_finish. rewrite Ht.
  assert (L : forall a, g_left (groups (upd_group a g (gr_left true)) g) = true).
  { intros a. cbn [upd_group set_groups groups]. rewrite upd_same. reflexivity. }
  destruct ws as [w|].
  - destruct (scope_exit s w t None) as [s1 x].
    destruct x; apply left_ret_pair; rewrite ?aexit_finish_groups, ?aexit_raise_groups; apply L.
  - apply left_ret_pair. rewrite aexit_finish_groups. apply L.
Qed.

Lemma wof_finishes s t g ws exc : aexit_pre s t g ws -> g_tasks (groups s g) = [] ->
  s_active (scopes (fst (aexit_wait_or_finish s t g ws exc)) (g_scope (groups s g))) = false.
Proof.
  intros P Ht. unfold aexit_wait_or_finish. rewrite Ht. destruct ws as [w|].
  - destruct P as [O [Hp [Hne [Ha [Hh Hlt]]]]].
    destruct (scope_exit_success s w t None O) as [_ Hcur].
    destruct (scope_exit_other s w t None (g_scope (groups s g)) (fun E => Hne (eq_sym E))) as [E1 [E2 _]].
    pose proof (groups_scope_exit s w t None) as Hg.
    pose proof (fr_nscope _ _ _ _ (kframe_kstar _ _ _ _ (ks_scope_exit s w t None))) as Hn.
    destruct (scope_exit s w t None) as [s1 x]. cbn [fst] in *.
    assert (O1 : owns s1 t (g_scope (groups s1 g))).
    { rewrite Hg. unfold owns. rewrite E1, E2, Hcur, Hp, Hn. auto. }
    destruct x; apply deact_ret_pair; rewrite <- Hg;
      first [apply aexit_finish_deactivates, O1|apply aexit_raise_deactivates, O1].
  - apply deact_ret_pair, aexit_finish_deactivates, P.
Qed.

Lemma wof_blocks s t g ws exc : aexit_pre s t g ws -> g_tasks (groups s g) <> [] ->
  let s' := fst (aexit_wait_or_finish s t g ws exc) in
  let gs := g_scope (groups s g) in
  exists w', k_ctl (tasks s' t) = CAexitWait g w' exc /\ s_active (scopes s' gs) = true /\
             s_host (scopes s' gs) = Some t /\ s_parent (scopes s' w') = Some gs /\ w' <> gs /\
             g_left (groups s' g) = g_left (groups s g).
Proof.
  intros P Ht. cbn zeta. unfold aexit_wait_or_finish. destruct (g_tasks (groups s g)) as [|a l]; [contradiction|].
  assert (Hb : forall s0 w,
     let r := fst (let '(s1, f) := new_fut s0 in
                   blocked (set_ctl (suspend_on (upd_group s1 g (gr_fut (Some f))) t f) t (CAexitWait g w exc))) in
     k_ctl (tasks r t) = CAexitWait g w exc /\ scopes r = scopes s0 /\ g_left (groups r g) = g_left (groups s0 g)).
  { intros s0 w. cbn zeta. rewrite new_fut_eq. refine (conj _ (conj _ _)).
    - cbn [blocked fst]. tcase t t; [reflexivity|contradiction].
    - cbn [blocked fst set_running set_ctl upd_task set_tasks scopes]. now rewrite (kx_scopes _ _ _ _ (suspend_on_fix _ _ _)).
    - cbn [blocked fst set_running set_ctl upd_task set_tasks groups]. rewrite groups_suspend_on.
      cbn [upd_group set_groups groups]. rewrite upd_same. reflexivity. }
  destruct ws as [w|].
  - destruct P as [O [Hp [Hne [Ha [Hh Hlt]]]]]. destruct (Hb s w) as [H1 [H2 H3]]. lazy beta iota.
    exists w. rewrite H1, H2, H3. auto 10.
  - rewrite new_scope_eq. lazy beta iota. cbn [fst].
    set (s0 := fst (scope_enter (ns s None false) (nscope s) t)).
    destruct (Hb s0 (nscope s)) as [H1 [H2 H3]]. exists (nscope s). rewrite H1, H2, H3.
    assert (Hgl : g_left (groups s0 g) = g_left (groups s g)) by (unfold s0; now rewrite groups_scope_enter).
    rewrite Hgl.
    destruct P as [Ha [Hh [Hc Hlt]]].
    assert (Hne : g_scope (groups s g) <> nscope s) by lia.
    destruct (scope_enter_other (ns s None false) (nscope s) t (g_scope (groups s g)) Hne) as [E1 [E2 _]].
    unfold s0. rewrite E1, E2, ns_scope_old; [|exact Hne].
    rewrite scope_enter_parent; [|apply ns_inactive].
    change (tasks (ns s None false)) with (tasks s). refine (conj eq_refl (conj Ha (conj Hh (conj Hc (conj _ eq_refl))))). lia.
Qed.

(* C06: what fail_at / move_on report, with the provisos of the property text made explicit as predicates over the
   op history (no ghost fields in the machine):
     no_explicit_cancel c ops : the program never calls cancel() on scope c (ACancel / AExtCancel);
     no_redeadline c s ops    : no deadline is assigned to c once it is cancelled ("after it has fired").
   For the scope c created by an AFailAt op (fail_at / fail_after / move_on_at / move_on_after), under these provisos:
   cancel_called c <-> cancelled by its own deadline, and then the deadline is due; hence TimeoutError (resp.
   cancelled_caught) IFF own deadline fired /\ no enclosing cancellation visible at exit /\ the block ended with AnyIO
   cancellations only (resp. with at least one).  The last two conjuncts cannot be dropped: witnesses T1 / T2 at the end of the file. *)
From AV Require Import Base Machine MachineFacts ChainFrame ChainThms ChainWalk ChainMono TimerInv TimerThms
  TimerRun.
From Coq Require Import ZifyBool.

Section Own.
  Context (c : sid).

  (* c is an allocated scope that is neither a task group's own scope nor a task handle's scope *)
  Definition Tc (s : st) : Prop :=
    (0 < c /\ c < nscope s) /\ (forall g, g_scope (groups s g) <> c) /\ (forall t, k_hscope (tasks s t) <> c).

  (* c can become cancelled only by its deadline, and the reason does not change afterwards *)
  Record own (s s' : st) : Prop := mk_own {
    ow_mono : s_cancelled (scopes s c) = true -> s_cancelled (scopes s' c) = true;
    ow_keep : s_cancelled (scopes s c) = true -> s_bydeadline (scopes s' c) = s_bydeadline (scopes s c);
    ow_new : s_cancelled (scopes s' c) = true -> s_cancelled (scopes s c) = true \/ s_bydeadline (scopes s' c) = true
  }.

  Lemma own_refl s : own s s.
  Proof. constructor; auto. Qed.

  Lemma own_trans a b d : own a b -> own b d -> own a d.
  Proof.
    intros [M1 K1 N1] [M2 K2 N2]. constructor.
    - auto.
    - intros H. rewrite (K2 (M1 H)). auto.
    - intros H. destruct (N2 H) as [Hb|Hb]; [|now right]. destruct (N1 Hb) as [Ha|Ha]; [now left|].
      right. now rewrite (K2 Hb).
  Qed.

  Lemma own_same s s' :
    s_cancelled (scopes s' c) = s_cancelled (scopes s c) -> s_bydeadline (scopes s' c) = s_bydeadline (scopes s c) ->
    own s s'.
  Proof. intros E1 E2. constructor; rewrite ?E1, ?E2; auto. Qed.

  Record OD (s s' : st) : Prop := mk_OD {
    od_T : Tc s -> Tc s';
    od_own : Tc s -> own s s'
  }.

  Lemma od_refl s : OD s s.
  Proof. constructor; [auto|intros _; apply own_refl]. Qed.

  Lemma od_trans a b d : OD a b -> OD b d -> OD a d.
  Proof.
    intros [T1 O1] [T2 O2]. constructor; [auto|]. intros T. eapply own_trans; [apply O1, T|apply O2, T1, T].
  Qed.

  (* the scope ids stored in the tables stay, nscope may grow, c's flags as in `own` *)
  Lemma od_intro s s' :
    nscope s <= nscope s' -> (forall g, g_scope (groups s' g) = g_scope (groups s g)) ->
    (forall t, k_hscope (tasks s' t) = k_hscope (tasks s t)) -> (Tc s -> own s s') -> OD s s'.
  Proof.
    intros Hn Hg Hh Ho. constructor; [|exact Ho]. intros [[A1 A2] [B C]].
    refine (conj (conj A1 _) (conj _ _)); [lia|intros g; rewrite Hg; apply B|intros t; rewrite Hh; apply C].
  Qed.

  Lemma od_same s s' :
    nscope s' = nscope s -> groups s' = groups s -> (forall t, k_hscope (tasks s' t) = k_hscope (tasks s t)) ->
    s_cancelled (scopes s' c) = s_cancelled (scopes s c) -> s_bydeadline (scopes s' c) = s_bydeadline (scopes s c) ->
    OD s s'.
  Proof.
    intros E1 E2 E3 E4 E5. apply od_intro; [rewrite E1; apply Nat.le_refl|now rewrite E2|exact E3|]. intros _. now apply own_same.
  Qed.

  Lemma od_frame a b : frame a b -> OD a b.
  Proof.
    intros F. apply od_intro; [rewrite (fr_nscope _ _ F); lia|apply (fr_gscope _ _ F)|apply (fr_hscope _ _ F)|].
    intros _. destruct (fr_scopes _ _ F c). now apply own_same.
  Qed.

  Lemma od_upd_keep s y g :
    (forall k, s_cancelled (g k) = s_cancelled k /\ s_bydeadline (g k) = s_bydeadline k) -> OD s (upd_scope s y g).
  Proof.
    intros Hg. apply od_same; try reflexivity;
      (destruct (Nat.eq_dec c y) as [<-|E]; [rewrite scopes_upd_same; apply Hg|now rewrite scopes_upd_other]).
  Qed.

  (* a fresh scope id is not c *)
  Lemma od_new_scope s d sh : OD s (fst (new_scope s d sh)).
  Proof.
    apply od_intro; [cbn; lia|reflexivity|reflexivity|]. intros [[_ A] _].
    apply own_same; cbn [new_scope fst scopes]; now rewrite upd_other by lia.
  Qed.

  (* cancel() is not called on c; its own deadline may cancel it *)
  Definition own_side : prim_side := mk_prim_side True True True (fun s x => Tc s -> x <> c).

  Lemma od_prims : prim_hyps OD own_side.
  Proof.
    constructor; cbn [own_side ps_dl ps_setdl ps_tick ps_cancel].
    - apply od_refl.
    - apply od_trans.
    - apply od_frame.
    - intros s tm. apply od_same; reflexivity.
    - intros s w f. apply od_same; reflexivity.
    - intros s w x _. apply od_same; reflexivity.
    - intros s x o. apply od_upd_keep. intros k; auto.
    - intros s x b. apply od_upd_keep. intros k; auto.
    - intros s x d _. apply od_upd_keep. intros k; auto.
    - intros s x _. apply od_upd_keep. intros k; auto.
    - intros a s x b [T O] Ec Hb. constructor; [exact T|]. intros Ta. destruct (O Ta) as [M K N].
      destruct (Nat.eq_dec x c) as [->|Hx].
      + destruct b; [|now destruct (Hb Ta)].
        constructor; rewrite scopes_upd_same; cbn [mark sc_bydeadline sc_cancelled s_cancelled s_bydeadline]; auto.
        intros Ha. rewrite (M Ha) in Ec. discriminate.
      + eapply own_trans; [exact (O Ta)|]. apply own_same; now rewrite scopes_upd_other by auto.
    - intros s g [_ [B _]]. apply B.
    - intros s t [_ [_ C]]. apply C.
    - apply od_new_scope.
    - intros s. constructor.
      + intros [[A1 A2] [B C]]. refine (conj (conj A1 _) (conj _ C)); [cbn; lia|]. intros g. cbn [add_group groups].
        rewrite upd_eq. destruct (Nat.eqb g _); [cbn; lia|apply B].
      + intros [[_ A2] _]. apply own_same; cbn [add_group scopes new_scope fst]; now rewrite upd_other by lia.
    - intros s g sf. constructor.
      + intros [[A1 A2] [B C]]. refine (conj (conj A1 _) (conj B _)); [cbn; lia|].
        intros u. cbn [add_child tasks]. rewrite upd_eq. destruct (Nat.eqb u _); [|apply C]. cbn. lia.
      + intros [[_ A2] _]. apply own_same; cbn [add_child scopes new_scope fst]; now rewrite upd_other by lia.
    - intros s. constructor.
      + intros [[A1 A2] [B C]]. refine (conj (conj A1 A2) (conj B _)). intros u. cbn [add_root tasks]. rewrite upd_eq.
        destruct (Nat.eqb u _); [cbn; lia|apply C].
      + intros _. now apply own_same.
    - intros s t f tm. apply od_same; try reflexivity.
      intros u. cbn [set_ctl upd_task set_tasks tasks]. rewrite upd_eq. destruct (Nat.eqb_spec u t) as [->|_]; reflexivity.
    - intros s h. apply od_same; reflexivity.
    - intros s dt _ _. apply od_same; reflexivity.
  Qed.
End Own.

(* the program never calls cancel() on scope c *)
Definition no_explicit_cancel (c : sid) (ops : list op) : bool :=
  forallb (fun o => match o with ACancel _ x | AExtCancel x => negb (Nat.eqb x c) | _ => true end) ops.

(* no deadline is assigned to c once it is cancelled (evaluated along the run that starts in s) *)
Fixpoint no_redeadline (c : sid) (s : st) (ops : list op) : bool :=
  match ops with
  | [] => true
  | o :: r =>
      (match o with ASetDeadline _ x _ => negb (Nat.eqb x c && s_cancelled (scopes s c)) | _ => true end)
      && no_redeadline c (fst (step s o)) r
  end.

Lemma own_run c mid : forall s,
  Tc c s -> (s_cancelled (scopes s c) = true -> s_bydeadline (scopes s c) = true) ->
  no_explicit_cancel c mid = true ->
  Tc c (final step s mid) /\
  (s_cancelled (scopes (final step s mid) c) = true -> s_bydeadline (scopes (final step s mid) c) = true).
Proof.
  induction mid as [|o r IH]; intros s T Q H; [auto|]. cbn [no_explicit_cancel forallb] in H.
  apply andb_true_iff in H. destruct H as [Ho Hr]. cbn [final fold_left].
  assert (OK : @op_ok (prim_oks (own_side c)) s o).
  { apply prim_op_ok; [exact I|]. destruct o; try exact I; apply negb_true_iff, Nat.eqb_neq in Ho; intros _; exact Ho. }
  destruct (walk_step (prim_walk (od_prims c)) s o OK) as [T2 O2]. specialize (T2 T). destruct (O2 T) as [M K N].
  apply IH; [exact T2| |exact Hr]. intros H2. destruct (N H2) as [H1|H1]; [|exact H1]. now rewrite (K H1), (Q H1).
Qed.

Lemma step_deadline_same s o c :
  c < nscope s -> (forall t d, o <> ASetDeadline t c d) ->
  s_deadline (scopes (fst (step s o)) c) = s_deadline (scopes s c).
Proof.
  intros Hc Ho.
  destruct o;
    try (match goal with |- context [step s ?o] =>
           exact (sr_deadline _ _ _ (sr_scopes _ _ (srel_step s o I) c Hc)) end).
  - (* ASetDeadline on another scope *)
    assert (Hx : c <> c0) by (intros <-; exact (Ho t d eq_refl)).
    destruct (idle s t) eqn:Hi; [|now rewrite (step_busy s (ASetDeadline t c0 d) t eq_refl Hi)].
    rewrite (step_setdl s t c0 d Hi), (tc_deadline _ _ (fr_scopes _ _ (frame_ret _ t (RRet 0)) c)).
    unfold set_deadline_body. cbv zeta. set (s0 := upd_scope (begin_act s t) c0 (sc_deadline d)).
    pose proof (xframe_cancel_timeout s0 c0) as X.
    assert (E1 : s_deadline (scopes (cancel_timeout s0 c0) c) = s_deadline (scopes s c))
      by (rewrite (xc_deadline _ _ (xf_scopes _ _ X c)); unfold s0; now rewrite scopes_upd_other).
    destruct (_ && _); [|exact E1].
    rewrite (sr_deadline _ _ _ (sr_scopes _ _ (srel_scope_timeout _ c0) c ltac:(now rewrite (xf_nscope _ _ X)))). exact E1.
  - (* ATick *) rewrite step_tick. destruct (Z.ltb dt 0); reflexivity.
Qed.

Definition due_inv (c : sid) (s : st) : Prop :=
  s_bydeadline (scopes s c) = true -> s_cancelled (scopes s c) = true /\ due s c.

Lemma due_run c mid : forall s,
  c < nscope s -> due_inv c s -> no_redeadline c s mid = true -> due_inv c (final step s mid).
Proof.
  induction mid as [|o r IH]; intros s Hc D H; [exact D|]. cbn [no_redeadline] in H.
  apply andb_true_iff in H. destruct H as [Ho Hr]. cbn [final fold_left].
  pose proof (step_flags s o) as [Hn K]. destruct (K c Hc) as (_ & A2 & _ & A4).
  apply IH; [exact (Nat.lt_le_trans _ _ _ Hc Hn)| |exact Hr]. intros H2. destruct (A4 H2) as [H1|(Q1 & Q2 & Q3)]; [|auto].
  destruct (D H1) as [Dc (d & Ed & Hd)]. split; [auto|]. exists d. split.
  - rewrite step_deadline_same; [exact Ed|exact Hc|]. intros t d' ->. rewrite Nat.eqb_refl, Dc in Ho. discriminate.
  - exact (Z.le_trans _ _ _ Hd (step_now s o)).
Qed.

Lemma wf_run_split a : forall s b, wf_run s (a ++ b) -> wf_run s a /\ wf_run (final step s a) b.
Proof.
  induction a as [|o r IH]; intros s b H; [split; [exact I|exact H]|]. destruct H as [H1 H2].
  destruct (IH _ _ H2) as [H3 H4]. split; [split; assumption|exact H4].
Qed.

(* the state after `with fail_at(d0, shield=sh)` has been entered by task t0 *)
Lemma failat_state s1 t0 d0 sh :
  idle s1 t0 = true ->
  exists r, fst (step s1 (AFailAt t0 d0 sh)) =
            fst (ret_to_puppet (fst (scope_enter (fst (new_scope (begin_act s1 t0) d0 sh)) (nscope s1) t0)) t0 r).
Proof.
  intros Hi. unfold step. cbn [actor]. rewrite Hi. cbn [negb]. unfold puppet_op. cbv zeta.
  change (new_scope (begin_act s1 t0) d0 sh)
    with (fst (new_scope (begin_act s1 t0) d0 sh), nscope s1). cbv iota. cbn [fst snd].
  destruct (scope_enter (fst (new_scope (begin_act s1 t0) d0 sh)) (nscope s1) t0) as [sB e]. eexists. reflexivity.
Qed.

Lemma failat_init s1 t0 d0 sh :
  reach_wf s1 -> idle s1 t0 = true ->
  let c := nscope s1 in let s2 := fst (step s1 (AFailAt t0 d0 sh)) in
  Tc c s2 /\ (s_cancelled (scopes s2 c) = true -> s_bydeadline (scopes s2 c) = true) /\ due_inv c s2.
Proof.
  intros R Hi. cbv zeta. destruct (failat_state s1 t0 d0 sh Hi) as [r E]. rewrite E. clear E.
  destruct (reach_tinv s1 R) as [G _]. set (c := nscope s1).
  set (sA := fst (new_scope (begin_act s1 t0) d0 sh)). set (sB := fst (scope_enter sA c t0)).
  assert (TA : Tc c sA).
  { refine (conj (conj (gi_nscope_pos _ G) _) (conj _ _)).
    - unfold sA, c. cbn. lia.
    - intros g. unfold sA. cbn [new_scope fst groups begin_act set_running upd_task set_tasks].
      pose proof (gi_gscope _ G g). unfold c. lia.
    - intros u. unfold sA. cbn [new_scope fst tasks].
      rewrite (fr_hscope _ _ (frame_begin_act s1 t0) u). pose proof (gi_hscope _ G u). unfold c. lia. }
  assert (FA : s_cancelled (scopes sA c) = false /\ s_bydeadline (scopes sA c) = false).
  { unfold sA, c. cbn [new_scope fst scopes begin_act set_running upd_task set_tasks nscope]. rewrite upd_same. auto. }
  assert (OB : OD c sA sB) by (apply (R_scope_enter (od_prims c)); intros _; exact I).
  pose proof (od_T _ _ _ OB TA) as TB. destruct (od_own _ _ _ OB TA) as [_ _ NB].
  pose proof (frame_ret sB t0 r) as F. destruct (fr_scopes _ _ F c) as [Fd Fc _ _ _ Fb].
  refine (conj _ (conj _ _)).
  - apply (od_T _ _ _ (od_frame c _ _ F) TB).
  - rewrite Fc, Fb. intros H. destruct (NB H) as [H'|H']; [|exact H']. rewrite (proj1 FA) in H'. discriminate.
  - unfold due_inv, due. rewrite Fc, Fb, Fd, (fr_now _ _ F). intros H.
    assert (HcA : c < nscope sA) by exact (Nat.lt_succ_diag_r (nscope s1)).
    destruct (sr_bydl _ _ _ (sr_scopes _ _ (srel_scope_enter sA c t0) c HcA) H) as [H'|(Q1 & Q2 & Q3)]; [|auto].
    rewrite (proj2 FA) in H'. discriminate.
Qed.

(* cancelled_caught after `__exit__` (AExit with or without the fail_at wrapper) *)
Lemma aexit_caught s t c fa :
  idle s t = true ->
  let s0 := begin_act s t in
  s_caught (scopes (fst (step s (AExit t c fa))) c) =
  s_caught (scopes s c) || (exit_guards s0 c t && absorbed (snd (scope_exit s0 c t (k_held (tasks s0 t))))).
Proof.
  intros Hi s0. unfold step. cbn [actor]. rewrite Hi. cbn [negb]. unfold puppet_op. cbv zeta. fold s0.
  set (exc := k_held (tasks s0 t)).
  assert (K : s_caught (scopes (fst (scope_exit s0 c t exc)) c) =
              s_caught (scopes s c) || (exit_guards s0 c t && absorbed (snd (scope_exit s0 c t exc)))).
  { destruct (exit_guards s0 c t) eqn:G.
    - destruct (caught_iff_absorbed s0 c t exc G) as [K _]. rewrite K. reflexivity.
    - rewrite (scope_exit_guards_fail s0 c t exc G). cbn [fst snd andb]. now rewrite orb_false_r. }
  destruct (scope_exit s0 c t exc) as [s1 x]. cbn [fst snd] in K |- *. rewrite <- K.
  assert (Fr : forall a r, s_caught (scopes (fst (ret_to_puppet a t r)) c) = s_caught (scopes a c)).
  { intros a r. apply (tc_caught _ _ (fr_scopes _ _ (frame_ret a t r) c)). }
  destruct x; [|apply Fr|apply Fr].
  match goal with |- context [if ?b then _ else _] => destruct b end; rewrite Fr; reflexivity.
Qed.

Lemma absorbed_iff exc :
  absorbed (absorb_res exc) = true <-> only_anyio_cancel exc \/ exists r, anyio_cancel_and_rest exc r.
Proof.
  rewrite <- absorb_res_true. split.
  - destruct (absorb_res exc) as [| |r] eqn:E; [now left|discriminate|]. intros _. right. exists r. now apply absorb_res_raise.
  - intros [->|[r H]]; [reflexivity|]. apply absorb_res_raise in H. now rewrite H.
Qed.

Section Helpers.
  Context (pre : list op) (t0 : tid) (d0 : option Z) (sh : bool) (mid : list op).
  Let s1 := final step init pre.
  Let c := nscope s1.                                 (* the scope `fail_at` / `move_on_at` creates and enters *)
  Let s2 := fst (step s1 (AFailAt t0 d0 sh)).
  Let s := final step s2 mid.

  Hypothesis Hwf : wf_run init (pre ++ AFailAt t0 d0 sh :: mid).
  Hypothesis Hacc : idle s1 t0 = true.                (* the helper was really entered *)
  Hypothesis Hexp : no_explicit_cancel c mid = true.
  Hypothesis Hredl : no_redeadline c s2 mid = true.

  (* under the provisos: cancel_called <-> cancelled by the own deadline, and then the deadline has passed *)
  Lemma own_deadline_facts :
    (s_cancelled (scopes s c) = true <-> s_bydeadline (scopes s c) = true) /\
    (s_bydeadline (scopes s c) = true -> exists d, s_deadline (scopes s c) = Some d /\ (d <= now s)%Z).
  Proof.
    destruct (wf_run_split pre init _ Hwf) as [W1 W2]. fold s1 in W2.
    assert (R1 : reach_wf s1) by (exists pre; split; [exact W1|reflexivity]).
    destruct (failat_init s1 t0 d0 sh R1 Hacc) as (T2 & Q2 & D2). fold c s2 in T2, Q2, D2.
    destruct (own_run c mid s2 T2 Q2 Hexp) as [T Q]. fold s in T, Q.
    assert (Hc2 : c < nscope s2) by apply T2.
    pose proof (due_run c mid s2 Hc2 D2 Hredl) as D. fold s in D.
    split; [split; [exact Q|intros H; apply (D H)]|intros H; apply (D H)].
  Qed.

  (* TimeoutError is raised by `with fail_at(...)`  IFF  the scope was cancelled by its own deadline, no enclosing
     cancellation is visible at the exit, and the block ended with AnyIO cancellations only *)
  Theorem timeout_iff_own_deadline t :
    idle s t = true ->
    (snd (step s (AExit t c true)) = RExc ETimeout <->
     exit_guards (begin_act s t) c t = true /\ s_bydeadline (scopes s c) = true /\
     parent_visible s c = false /\ only_anyio_cancel (k_held (tasks s t))).
  Proof.
    intros Hi. destruct own_deadline_facts as [Q D]. rewrite (fail_at_timeout_iff' s t c Hi). split.
    - intros (A & B & C & E & _). rewrite Q in B. auto.
    - intros (A & B & C & E). refine (conj A (conj (proj2 Q B) (conj C (conj E (D B))))).
  Qed.

  (* cancelled_caught of a move_on scope after its exit: set before, or the scope was cancelled by its own deadline,
     no enclosing cancellation is visible at the exit, and the block ended with at least one AnyIO cancellation
     (alone, or in a group whose remainder is re-raised: the T2 case) *)
  Theorem move_on_caught_iff t fa :
    idle s t = true ->
    (s_caught (scopes (fst (step s (AExit t c fa))) c) = true <->
     s_caught (scopes s c) = true \/
     (exit_guards (begin_act s t) c t = true /\ s_bydeadline (scopes s c) = true /\ parent_visible s c = false /\
      (only_anyio_cancel (k_held (tasks s t)) \/ exists r, anyio_cancel_and_rest (k_held (tasks s t)) r))).
  Proof.
    intros Hi. destruct own_deadline_facts as [Q _]. rewrite (aexit_caught s t c fa Hi). set (sa := begin_act s t).
    assert (Hh : k_held (tasks sa t) = k_held (tasks s t)).
    { unfold sa, begin_act. cbn [set_running upd_task set_tasks tasks]. now rewrite upd_same. }
    assert (Pv : parent_visible sa c = parent_visible s c) by (apply parent_visible_ext; [reflexivity|intros x; auto]).
    rewrite Hh, orb_true_iff, andb_true_iff. apply or_iff_compat_l.
    destruct (exit_guards sa c t) eqn:G.
    - rewrite (scope_exit_result sa c t _ G), Pv. change (s_cancelled (scopes sa c)) with (s_cancelled (scopes s c)).
      destruct (s_cancelled (scopes s c)) eqn:Ec, (parent_visible s c) eqn:Ep; cbn [negb andb absorbed].
      + split; [intros [_ H]; discriminate|intros (_ & _ & H & _); discriminate].
      + rewrite absorbed_iff. split; [intros [_ H]; refine (conj eq_refl (conj (proj1 Q eq_refl) (conj eq_refl H)))|].
        intros (_ & _ & _ & H). auto.
      + split; [intros [_ H]; discriminate|intros (_ & _ & H & _); discriminate].
      + split; [intros [_ H]; discriminate|]. intros (_ & B & _). apply Q in B. discriminate.
    - split; [intros [H _]; discriminate|intros (H & _); discriminate].
  Qed.
End Helpers.

(* T1: the fail_at scope 2 (inside scope 1) is cancelled by its own deadline and the task is interrupted by it, but
   the enclosing scope 1 is cancelled before the block is left: no TimeoutError, cancelled_caught stays false, the
   cancellation propagates and the OUTER scope absorbs it.  All provisos hold (no cancel() of scope 2, no deadline
   reassignment); the conjunct that fails is `parent_visible = false`. *)
Definition t1_pre : list op := [ANewRoot; ANewScope 1 None false; AEnter 1 1].
Definition t1_mid : list op := [ASleep 1 None; ATick 5; ARun (HTimeout 2 1); AExtCancel 1].
Definition t1_state : st := final step init (t1_pre ++ AFailAt 1 (Some 5%Z) false :: t1_mid).

Example t1_enclosing_cancellation_hides_timeout :
  let c := nscope (final step init t1_pre) in
  let f := match k_waiter (tasks t1_state 1) with Some f => f | None => 0 end in
  let sa := fst (step t1_state (ARun (HWake 1 f))) in
  c = 2 /\ wf_run init (t1_pre ++ AFailAt 1 (Some 5%Z) false :: t1_mid) /\
  no_explicit_cancel c (t1_mid ++ [ARun (HWake 1 f)]) = true /\
  no_redeadline c (fst (step (final step init t1_pre) (AFailAt 1 (Some 5%Z) false))) (t1_mid ++ [ARun (HWake 1 f)]) = true /\
  snd (step t1_state (ARun (HWake 1 f))) = RExc (ECancel 3) /\          (* interrupted by scope 2's own deadline *)
  s_bydeadline (scopes sa 2) = true /\ parent_visible sa 2 = true /\
  snd (step sa (AExit 1 2 true)) = RRet 0 /\                            (* no TimeoutError, exception passes *)
  let sb := fst (step sa (AExit 1 2 true)) in
  s_caught (scopes sb 2) = false /\ k_held (tasks sb 1) = Some (ECancel 3) /\
  snd (step sb (AExit 1 1 false)) = RRet 1 /\                           (* the outer scope swallows it *)
  s_caught (scopes (fst (step sb (AExit 1 1 false))) 1) = true.
Proof. vm_compute. repeat split; try reflexivity; tauto. Qed.

(* T2: the block ends with a group holding the deadline cancellation and another error: cancelled_caught = True,
   but the remainder is re-raised instead of TimeoutError *)
Definition t2_mid : list op := [ASleep 1 None; ATick 5; ARun (HTimeout 1 1)].
Definition t2_state : st := final step init ([ANewRoot] ++ AFailAt 1 (Some 5%Z) false :: t2_mid).

Example t2_group_remainder_instead_of_timeout :
  let f := match k_waiter (tasks t2_state 1) with Some f => f | None => 0 end in
  let sa := final step t2_state [ARun (HWake 1 f); AWrap 1 7] in
  nscope (final step init [ANewRoot]) = 1 /\
  k_held (tasks sa 1) = Some (EGroup [ECancel 2; EErr 7]) /\ s_bydeadline (scopes sa 1) = true /\
  parent_visible sa 1 = false /\
  snd (step sa (AExit 1 1 true)) = RExc (EGroup [EErr 7]) /\
  s_caught (scopes (fst (step sa (AExit 1 1 true))) 1) = true.
Proof. vm_compute. repeat split; reflexivity. Qed.

(* non-vacuity of timeout_iff_own_deadline (both sides true): TimerThms.dl_fail_at_raises is the run
   [ANewRoot] ++ AFailAt 1 (Some 5) false :: [ASleep 1 None; ATick 5; ARun (HTimeout 1 1); ARun (HWake 1 f)] *)
Example own_deadline_provisos_witness :
  let f := match k_waiter (tasks t2_state 1) with Some f => f | None => 0 end in
  let mid := t2_mid ++ [ARun (HWake 1 f)] in
  wf_run init ([ANewRoot] ++ AFailAt 1 (Some 5%Z) false :: mid) /\
  idle (final step init [ANewRoot]) 1 = true /\
  no_explicit_cancel 1 mid = true /\
  no_redeadline 1 (fst (step (final step init [ANewRoot]) (AFailAt 1 (Some 5%Z) false))) mid = true /\
  let s := final step (fst (step (final step init [ANewRoot]) (AFailAt 1 (Some 5%Z) false))) mid in
  idle s 1 = true /\ snd (step s (AExit 1 1 true)) = RExc ETimeout.
Proof. vm_compute. repeat split; try reflexivity; tauto. Qed.

(* More building blocks: exception list, sleep timers, clock ticks, popping a handle, allocation of groups,
   root tasks and group children. *)
From AV Require Import Base Machine MachineFacts GroupInv2 GroupInv3 GroupInv4.

(* K, C and J do not look at groups except for g_fut *)
Lemma KCJ_upd_group s g h : (forall x, g_fut (h x) = g_fut x) ->
  (KInv s -> KInv (upd_group s g h)) /\ (CInv s -> CInv (upd_group s g h)) /\ (JInv s -> JInv (upd_group s g h)).
Proof.
  intros Hh.
  assert (V : forall x, g_fut (groups (upd_group s g h) x) = g_fut (groups s x)).
  { intros x. cbn [upd_group set_groups groups]. unfold upd. destruct (Nat.eqb_spec x g); [subst; apply Hh|auto]. }
  refine (conj _ (conj _ _)).
  - apply KInv_mono_refd; try reflexivity; auto.
    apply refd_mono; auto.
    + intros x f H. exists x. now rewrite <- V.
    + intros c f H. exists c. exact H.
  - apply C_ext; try reflexivity; auto.
  - apply J_ext; try reflexivity; auto.
Qed.

Definition add_exc (tag : nat) (e : exn) (x : group) : group := gr_excs (g_excs x ++ [(tag, e)]) x.

Lemma add_exc_groups s g tag e x :
  g_tasks (groups (upd_group s g (add_exc tag e)) x) = g_tasks (groups s x) /\
  g_ever (groups (upd_group s g (add_exc tag e)) x) = g_ever (groups s x) /\
  g_scope (groups (upd_group s g (add_exc tag e)) x) = g_scope (groups s x) /\
  g_fut (groups (upd_group s g (add_exc tag e)) x) = g_fut (groups s x) /\
  g_excs (groups (upd_group s g (add_exc tag e)) x) =
    if Nat.eqb x g then g_excs (groups s x) ++ [(tag, e)] else g_excs (groups s x).
Proof.
  cbn [upd_group set_groups groups]. unfold upd. destruct (Nat.eqb x g) eqn:E; [|tauto].
  apply Nat.eqb_eq in E. subst. cbn. tauto.
Qed.

Lemma filter_nzb_app l tag : filter nzb (l ++ [tag]) = filter nzb l ++ (if nzb tag then [tag] else []).
Proof. rewrite filter_app. cbn. destruct (nzb tag); reflexivity. Qed.

(* an exception is appended to the group's list: the body's (tag 0, not a cancellation), or that of the child
   tag whose done callback has run; in the second case the converse clause holds of tag afterwards *)
Lemma GP_add_exc (P Q : tid -> Prop) s g tag e : GInvP P s ->
  (tag = 0 -> is_cancel e = false) ->
  (tag <> 0 -> k_group (tasks s tag) = Some g /\ k_tdran (tasks s tag) = true /\
               k_done (tasks s tag) = Some (OExc e) /\ forall e', ~ In (tag, e') (g_excs (groups s g))) ->
  (forall t, Q t -> P t \/ t = tag) ->
  GInvP Q (upd_group s g (add_exc tag e)).
Proof.
  intros G H0 Ht HQ. pose proof (add_exc_groups s g tag e) as V.
  constructor; unfold alloc; cbn [upd_group set_groups tasks futs ntask nscope nfut].
  - intros x t. destruct (V x) as [-> [-> _]]. apply (gp_mem P s G x t).
  - intros x t. destruct (V x) as [_ [-> _]]. apply (gp_grp P s G x t).
  - intros x t y. destruct (V x) as [_ [_ [_ [_ ->]]]]. destruct (Nat.eqb_spec x g) as [->|Hx]; [|apply (gp_tags P s G x t y)].
    rewrite in_app_iff. intros [H|[H|[]]] Hn; [apply (gp_tags P s G g t y H Hn)|]. injection H as <- <-.
    destruct (Ht Hn) as [H1 [H2 [H3 _]]]. auto.
  - intros x y. destruct (V x) as [_ [_ [_ [_ ->]]]]. destruct (Nat.eqb x g); [|apply (gp_zero P s G x y)].
    rewrite in_app_iff. intros [H|[H|[]]]; [apply (gp_zero P s G x y H)|]. injection H as E <-. exact (H0 E).
  - intros x. destruct (V x) as [_ [_ [_ [_ ->]]]]. destruct (Nat.eqb_spec x g) as [->|Hx]; [|apply (gp_nd P s G x)].
    rewrite map_app. cbn [map fst]. rewrite filter_nzb_app. unfold nzb at 2.
    destruct (Nat.eqb_spec tag 0) as [E|E]; cbn [negb]; [rewrite app_nil_r; apply (gp_nd P s G g)|].
    apply NoDup_snoc; [apply (gp_nd P s G g)|]. intros Hin. apply filter_In in Hin.
    destruct Hin as [Hin _]. apply in_map_iff in Hin. destruct Hin as [[y e'] [Ey Hin]]. cbn in Ey. subst y.
    destruct (Ht E) as [_ [_ [_ Hnew]]]. exact (Hnew e' Hin).
  - intros x t y Qt. destruct (V x) as [_ [-> [_ [_ ->]]]]. intros H1 H2 H3.
    destruct (HQ t Qt) as [Pt| ->].
    + destruct (gp_conv P s G x t y Pt H1 H2 H3) as [H|H]; [left|right; exact H].
      destruct (Nat.eqb x g); [apply in_app_iff; auto|exact H].
    + left. destruct (gp_grp P s G x tag H1) as [Hgx [Hp _]].
      destruct Ht as [Hg [_ [Hd _]]]; [lia|]. assert (x = g) as -> by congruence.
      rewrite Nat.eqb_refl. apply in_app_iff. right. left. rewrite Hd in H3. injection H3 as <-. reflexivity.
  - intros x. destruct (V x) as [_ [_ [-> _]]]. apply (gp_gscope P s G x).
  - apply (gp_sf P s G).
Qed.

(* the body exception of __aexit__ *)
Lemma M_add_exc_body s g e : MInv s -> is_cancel e = false -> MInv (upd_group s g (add_exc 0 e)).
Proof.
  intros [K Ci G J] He.
  destruct (KCJ_upd_group s g (add_exc 0 e)) as [HK [HC HJ]]; [intros x; reflexivity|].
  constructor; auto. apply G_P. apply G_P in G. apply (GP_add_exc _ _ s g 0 e G); auto. intros H. contradiction.
Qed.

Definition casl (s : st) (w : Z) (f : fid) : st := fst (call_at s w (TSleep f)).

Lemma call_at_eq s w f : call_at s w (TSleep f) = (casl s w f, ntimer s).
Proof. reflexivity. Qed.

Lemma sleepref_casl s w f x : sleepref (casl s w f) x -> sleepref s x \/ x = f.
Proof.
  intros [[tm H]|[y [H1 H2]]]; [left; left; eauto|].
  unfold casl, call_at in H1. cbn [fst timers] in H1. rewrite in_app_iff in H1.
  destruct H1 as [H1|[<-|[]]]; [left; right; eauto|]. cbn in H2. injection H2 as ->. right. reflexivity.
Qed.

Lemma M_casl s w f : MInv s -> fresh s f -> MInv (casl s w f).
Proof.
  intros [K Ci G J] Hfr. destruct (fresh_not_ref s f Hfr) as [N1 [N2 [N3 N4]]].
  constructor.
  - revert K. apply KInv_ext; try reflexivity; auto.
    intros x [[y H]|[[y H]|[[c H]|H]]].
    + left. left. eauto.
    + left. right; left. eauto.
    + left. right; right; left. eauto.
    + apply sleepref_casl in H. destruct H as [H| ->]; [left; right; right; right; exact H|right; exact Hfr].
  - revert Ci. apply C_ext; try reflexivity; auto.
  - revert G. apply G_ext; try reflexivity; auto.
  - constructor; change (tasks (casl s w f)) with (tasks s); change (events (casl s w f)) with (events s);
      change (running (casl s w f)) with (running s); change (futs (casl s w f)) with (futs s);
      change (groups (casl s w f)) with (groups s); try apply J.
    + intros y e H Hs. apply sleepref_casl in Hs. destruct Hs as [Hs| ->]; [exact (kk_et s J y e H Hs)|exact (N1 e H)].
    + intros y c H Hs. apply sleepref_casl in Hs. destruct Hs as [Hs| ->]; [exact (kk_st s J y c H Hs)|exact (N3 c H)].
Qed.

Lemma timer_handles_th l : thtasks (map handle_of_timer l) = [] /\ tdtasks (map handle_of_timer l) = [].
Proof.
  induction l as [|x l [IH1 IH2]]; [auto|]. cbn [map]. rewrite thtasks_cons, tdtasks_cons, IH1, IH2.
  unfold handle_of_timer. destruct (tm_what x); auto.
Qed.

Lemma M_tick s dt : MInv s -> MInv (tick s dt).
Proof.
  intros [K Ci G J].
  set (due := filter (fun x => Z.leb (tm_when x) (now s + dt)) (timers s)).
  assert (Er : ready (tick s dt) = ready s ++ map handle_of_timer (sort_timers due)) by reflexivity.
  assert (Hin : forall h, In h (ready (tick s dt)) -> In h (ready s) \/
                 exists x, In x (timers s) /\ h = handle_of_timer x).
  { intros h. rewrite Er, in_app_iff. intros [H|H]; [auto|]. right. apply in_map_iff in H.
    destruct H as [x [<- Hx]]. exists x. apply (proj1 (in_sort_timers _ _)) in Hx. apply filter_In in Hx. tauto. }
  assert (Hsl : forall f, sleepref (tick s dt) f -> sleepref s f).
  { intros f [[tm H]|[x [H1 H2]]].
    - apply Hin in H. destruct H as [H|[x [H1 H2]]]; [left; eauto|]. right. exists x. split; [exact H1|].
      unfold handle_of_timer in H2. destruct (tm_what x); [injection H2 as -> _; reflexivity|discriminate].
    - right. exists x. split; [|exact H2]. cbn [tick timers set_ready set_timers set_now] in H1.
      apply filter_In in H1. tauto. }
  destruct (timer_handles_th (sort_timers due)) as [T1 T2].
  constructor.
  - revert K. apply KInv_mono_refd; try reflexivity; auto.
    + apply refd_mono; auto.
      * intros g f H. exists g. exact H.
      * intros c f H. exists c. exact H.
    + now rewrite Er, thtasks_app, T1, app_nil_r.
    + now rewrite Er, tdtasks_app, T2, app_nil_r.
    + intros h Hh H. apply Hin in H. destruct H as [H|[x [_ ->]]]; [exact H|].
      unfold handle_of_timer in Hh. destruct (tm_what x); discriminate.
  - revert Ci. apply C_ext; try reflexivity; auto.
  - revert G. apply G_ext; try reflexivity; auto.
  - revert J. apply J_ext; try reflexivity; auto.
Qed.

Lemma M_pop s h : MInv s -> In h (ready s) ->
  MInv (dequeue s h) /\ (forall t, In t (th_task h) -> ~ In t (thtasks (ready (dequeue s h)))) /\
  (forall x, In x (ready (dequeue s h)) -> In x (ready s)).
Proof.
  intros [K Ci G J] Hin. destruct (remove_first_split h (ready s) Hin) as [l1 [l2 [E1 E2]]].
  assert (Er : ready (dequeue s h) = l1 ++ l2) by (unfold dequeue; cbn; exact E2).
  assert (Hsub : forall x, In x (ready (dequeue s h)) -> In x (ready s)).
  { intros x. rewrite Er, E1, !in_app_iff. cbn. tauto. }
  assert (Nd : NoDup (thtasks l1 ++ th_task h ++ thtasks l2)).
  { pose proof (k_nodup s K) as H. now rewrite E1, thtasks_app, thtasks_cons in H. }
  assert (Nd2 : NoDup (tdtasks l1 ++ td_task h ++ tdtasks l2)).
  { pose proof (k_tdnodup s K) as H. now rewrite E1, tdtasks_app, tdtasks_cons in H. }
  assert (Hsl : forall f, sleepref (dequeue s h) f -> sleepref s f).
  { intros f [[tm H]|H]; [left; exists tm; auto|right; exact H]. }
  assert (Hrefd : forall f, refd (dequeue s h) f -> refd s f).
  { apply refd_mono; auto.
    - intros g f H. exists g. exact H.
    - intros c f H. exists c. exact H. }
  refine (conj _ (conj _ Hsub)).
  - constructor.
    + constructor; unfold alloc; change (tasks (dequeue s h)) with (tasks s); change (futs (dequeue s h)) with (futs s);
        change (running (dequeue s h)) with (running s); change (ntask (dequeue s h)) with (ntask s);
        change (nfut (dequeue s h)) with (nfut s).
      * rewrite Er, thtasks_app. eapply NoDup_app_remove_mid. exact Nd.
      * rewrite Er, tdtasks_app. eapply NoDup_app_remove_mid. exact Nd2.
      * intros t f H. apply (k_wake s K t f), Hsub, H.
      * intros t H. apply (k_step s K t), Hsub, H.
      * apply (k_w1 s K).
      * intros t f H1 H2 H3. apply (k_pend s K t f H1 H2). rewrite E1, thtasks_app, thtasks_cons, !in_app_iff.
        rewrite Er, thtasks_app, in_app_iff in H3. tauto.
      * intros t H. destruct (k_run s K t H) as [H1 H2]. split; [|exact H2]. intros H3. apply H1.
        rewrite E1, thtasks_app, thtasks_cons, !in_app_iff. rewrite Er, thtasks_app, in_app_iff in H3. tauto.
      * intros t H. apply (k_td s K t), Hsub, H.
      * intros f H. apply Hrefd in H. apply (k_ref s K f H).
      * intros t f H1 H2 H3. apply Hrefd in H3. apply (k_idle s K t f H1 H2 H3).
    + revert Ci. apply C_ext; try reflexivity; auto.
    + revert G. apply G_ext; try reflexivity; auto.
    + revert J. apply J_ext; try reflexivity; auto.
  - intros t Ht. rewrite Er, thtasks_app, in_app_iff. intros H3.
    destruct h; cbn in Ht; try contradiction; destruct Ht as [<-|[]]; cbn in Nd;
      apply NoDup_remove_2 in Nd; apply Nd; rewrite in_app_iff; tauto.
Qed.

Definition galloc (s1 : st) (c : sid) : st :=
  mkSt (tasks s1) (ntask s1) (scopes s1) (nscope s1)
       (upd (groups s1) (ngroup s1) (mkGroup c false [] [] None [] false)) (S (ngroup s1))
       (futs s1) (nfut s1) (events s1) (nevent s1) (ready s1) (timers s1) (ntimer s1) (now s1) (running s1).

Lemma M_galloc s c : MInv s -> c < nscope s -> MInv (galloc s c).
Proof.
  intros [K Ci G J] Hc.
  assert (V : forall x, groups (galloc s c) x = if Nat.eqb x (ngroup s) then mkGroup c false [] [] None [] false
                                                else groups s x).
  { intros x. reflexivity. }
  constructor.
  - revert K. apply KInv_mono_refd; try reflexivity; auto.
    apply refd_mono; auto.
    + intros x f. rewrite V. destruct (Nat.eqb x (ngroup s)); [discriminate|eauto].
    + intros x f H. exists x. exact H.
  - revert Ci. apply C_ext; try reflexivity; auto.
  - constructor; unfold alloc; change (tasks (galloc s c)) with (tasks s); change (futs (galloc s c)) with (futs s);
      change (ntask (galloc s c)) with (ntask s); change (nscope (galloc s c)) with (nscope s);
      change (nfut (galloc s c)) with (nfut s).
    + intros x t. rewrite V. destruct (Nat.eqb x (ngroup s)); [cbn; tauto|apply (g_mem s G x t)].
    + intros x t. rewrite V. destruct (Nat.eqb x (ngroup s)); [cbn; tauto|apply (g_grp s G x t)].
    + intros x t e. rewrite V. destruct (Nat.eqb x (ngroup s)); [cbn; tauto|apply (x_tags s G x t e)].
    + intros x e. rewrite V. destruct (Nat.eqb x (ngroup s)); [cbn; tauto|apply (x_zero s G x e)].
    + intros x. rewrite V. destruct (Nat.eqb x (ngroup s)); [cbn; constructor|apply (x_nd s G x)].
    + intros x t e. rewrite V. destruct (Nat.eqb x (ngroup s)); [cbn; tauto|apply (x_conv s G x t e)].
    + intros x. rewrite V. destruct (Nat.eqb x (ngroup s)); [cbn; exact Hc|apply (b_gscope s G x)].
    + apply (b_sf s G).
  - constructor; change (tasks (galloc s c)) with (tasks s); change (futs (galloc s c)) with (futs s);
      change (events (galloc s c)) with (events s); change (running (galloc s c)) with (running s); try apply J.
    + intros f e x H. rewrite V. destruct (Nat.eqb x (ngroup s)); [discriminate|apply (kk_eg s J f e x H)].
    + intros f y x H. rewrite V. destruct (Nat.eqb x (ngroup s)); [discriminate|apply (kk_sg s J f y x H)].
Qed.

Definition root_rec : task :=
  mkTask CIdle true None None false 0 0 None None None 0 0 None None None None false.

Definition child_rec (gs : sid) (g : gid) (hs : sid) (e : eid) (startf : option fid) : task :=
  mkTask CNew false None None false 0 0 (Some gs) None (Some g) hs e None None startf None false.

(* a new task record k at index ntask; for children also a fresh event at index nevent *)
Definition talloc (s1 : st) (k : task) (ev : bool) : st :=
  mkSt (upd (tasks s1) (ntask s1) k) (S (ntask s1)) (scopes s1) (nscope s1) (groups s1) (ngroup s1) (futs s1)
       (nfut s1) (if ev then upd (events s1) (nevent s1) event0 else events s1)
       (if ev then S (nevent s1) else nevent s1) (ready s1) (timers s1) (ntimer s1) (now s1) (running s1).

Definition newtask_ok (s : st) (k : task) (ev : bool) : Prop :=
  k_done k = None /\ k_waiter k = None /\ k_tdran k = false /\ k_final k = None /\ k_hexc k = None /\
  k_hret k = None /\ k_ctl k <> CDone /\ top_scope (k_ctl k) = None /\
  (forall g ch f, k_ctl k <> CStartWait g ch f) /\ (forall ch c e wf, k_ctl k <> CStartJoin ch c e wf) /\
  ctl_waiter (k_ctl k) None /\ k_hscope k < nscope s /\
  (match k_startfut k with Some f => fresh s f | None => True end) /\
  (if ev then k_hevent k = nevent s /\ k_group k <> None else k_hevent k = 0 /\ k_group k = None).

Lemma thtasks_alloc s t : KInv s -> In t (thtasks (ready s)) -> alloc s t.
Proof.
  intros K H. apply in_thtasks in H. destruct H as [H|[f H]].
  - apply (k_step s K t H).
  - destruct (k_wake s K t f H) as [H1 _]. apply (k_w1 s K t f H1).
Qed.

Lemma M_talloc s k ev : MInv s -> newtask_ok s k ev ->
  MInv (talloc s k ev).
Proof.
  intros [K Ci G J] [O1 [O2 [O3 [O4 [O5 [O6 [O7 [O8 [O9 [O10 [O11 [O12 [O13 O14]]]]]]]]]]]]].
  set (t := ntask s). set (s' := talloc s k ev).
  assert (Vo : forall x, x <> t -> tasks s' x = tasks s x).
  { intros x Hx. unfold s', talloc. cbn [tasks]. now apply upd_other. }
  assert (Vt : tasks s' t = k).
  { unfold s', talloc. cbn [tasks]. apply upd_same. }
  assert (Hal : forall x, alloc s x -> x <> t) by (unfold alloc, t; intros x H; lia).
  assert (Hal2 : forall x, alloc s x -> alloc s' x) by (unfold alloc, s', talloc; cbn; intros x H; lia).
  assert (Halt : alloc s' t).
  { unfold alloc, s', talloc, t. cbn. pose proof (c_n s Ci). lia. }
  assert (Hrun : running s <> Some t).
  { intros H. apply (k_run s K t) in H. destruct H as [_ [_ H]]. apply Hal in H. contradiction. }
  assert (Ew : forall e f, In f (e_waiters (events s' e)) -> In f (e_waiters (events s e))).
  { intros e f. unfold s', talloc. cbn [events]. destruct ev; [|auto]. unfold upd.
    destruct (Nat.eqb e (nevent s)); [cbn; tauto|auto]. }
  assert (Es : forall e, e < nevent s -> events s' e = events s e).
  { intros e He. unfold s', talloc. cbn [events]. destruct ev; [|auto]. apply upd_other. lia. }
  assert (Hsf : forall c f, k_startfut (tasks s' c) = Some f ->
            k_startfut (tasks s c) = Some f \/ (c = t /\ k_startfut k = Some f)).
  { intros c f. destruct (Nat.eq_dec c t) as [->|Hc]; [rewrite Vt; auto|rewrite (Vo c Hc); auto]. }
  assert (Hfresh : forall f, k_startfut k = Some f -> fresh s f) by (intros f E; now rewrite E in O13).
  assert (Hrefd : forall f, refd s' f -> refd s f \/ k_startfut k = Some f).
  { intros f [[e H]|[[g H]|[[c H]|H]]].
    - left. left. exists e. apply Ew, H.
    - left. right; left. eauto.
    - apply Hsf in H. destruct H as [H|[_ H]]; [left; right; right; left; eauto|auto].
    - left. right; right; right. exact H. }
  constructor.
  - constructor; change (ready s') with (ready s); change (futs s') with (futs s); change (nfut s') with (nfut s);
      change (running s') with (running s).
    + apply K.
    + apply K.
    + intros x f H. destruct (k_wake s K x f H) as [H1 H2]. rewrite Vo; [auto|]. apply Hal, (k_w1 s K x f H1).
    + intros x H. destruct (k_step s K x H) as [H1 [H2 [H3 H4]]]. rewrite Vo; [|auto].
      exact (conj H1 (conj H2 (conj H3 (Hal2 x H4)))).
    + intros x f. destruct (Nat.eq_dec x t) as [->|Hx]; [rewrite Vt, O2; discriminate|].
      rewrite (Vo x Hx). intros H. destruct (k_w1 s K x f H) as [H1 [H2 [H3 [H4 H5]]]].
      exact (conj H1 (conj H2 (conj H3 (conj (Hal2 x H4) H5)))).
    + intros x f. destruct (Nat.eq_dec x t) as [->|Hx]; [rewrite Vt, O2; discriminate|].
      rewrite (Vo x Hx). apply (k_pend s K x f).
    + intros x H. destruct (k_run s K x H) as [H1 [H2 H3]]. rewrite Vo; [|auto].
      exact (conj H1 (conj H2 (Hal2 x H3))).
    + intros x H. destruct (k_td s K x H) as [H1 [H2 [H3 H4]]]. rewrite Vo; [|auto].
      exact (conj H1 (conj H2 (conj H3 (Hal2 x H4)))).
    + intros f Hf. apply Hrefd in Hf. destruct Hf as [Hf|Hf].
      * destruct (k_ref s K f Hf) as [H1 H2]. split; [exact H1|]. intros Hp x Hx. specialize (H2 Hp x Hx).
        rewrite Vo; [exact H2|]. apply Hal, (k_w1 s K x f H2).
      * destruct (Hfresh f Hf) as [F1 [F2 _]]. split; [exact F1|]. rewrite F2. cbn. intros _ x Hx. discriminate.
    + intros x f. destruct (Nat.eq_dec x t) as [->|Hx]; [rewrite Vt, O2; discriminate|].
      rewrite (Vo x Hx). intros H1 H2 Hf. apply Hrefd in Hf. destruct Hf as [Hf|Hf]; [eapply k_idle; eauto|].
      destruct (Hfresh f Hf) as [_ [_ [_ F4]]]. exact (F4 x H2).
  - assert (Hn : nevent s <= nevent s' /\ ntask s' = S t) by (unfold s', talloc; cbn; destruct ev; lia).
    apply (C_upd_one s s' t Ci); auto; try lia.
    + intros H. apply Hal in H. contradiction.
    + intros e He. now rewrite (Es e He).
    + rewrite Vt. constructor; rewrite ?O1, ?O2, ?O3, ?O4, ?O5, ?O6, ?O8; auto; try discriminate; try contradiction.
      * intros e. split; discriminate.
      * intros g ch f _ E. exfalso. exact (O9 _ _ _ E).
      * intros ch c e wf _ E. exfalso. exact (O10 _ _ _ _ E).
      * unfold s', talloc. cbn [nevent]. destruct ev; destruct O14 as [-> _]; [lia|]. apply (c_n s Ci).
  - constructor; change (groups s') with (groups s); change (futs s') with (futs s); change (nscope s') with (nscope s);
      change (nfut s') with (nfut s).
    + intros g x. destruct (Nat.eq_dec x t) as [->|Hx]; [|rewrite (Vo x Hx); apply (g_mem s G g x)].
      rewrite Vt, O3. split; intros H.
      * apply (g_mem s G g t) in H. destruct H as [H _]. apply (g_grp s G g t) in H. destruct H as [_ H]. apply Hal in H. contradiction.
      * destruct H as [H _]. apply (g_grp s G g t) in H. destruct H as [_ H]. apply Hal in H. contradiction.
    + intros g x H. destruct (g_grp s G g x H) as [H1 H2]. rewrite Vo; auto.
    + intros g x e H Hx0. destruct (x_tags s G g x e H Hx0) as [H1 [H2 H3]].
      assert (Hx : x <> t).
      { apply Hal. destruct (Nat.lt_ge_cases x (ntask s)) as [Hlt|Hge]; [split; [lia|exact Hlt]|].
        exfalso. assert (Hna : ~ alloc s x) by (unfold alloc; lia).
        destruct (c_unalloc s Ci x Hna) as [_ [_ [Hg _]]]. congruence. }
      rewrite (Vo x Hx). auto.
    + apply (x_zero s G).
    + apply (x_nd s G).
    + intros g x e H. destruct (g_grp s G g x H) as [_ H2]. rewrite (Vo x (Hal x H2)). apply (x_conv s G g x e H).
    + apply (b_gscope s G).
    + intros x f H. apply Hsf in H. destruct H as [H|[_ H]]; [apply (b_sf s G x f H)|apply (Hfresh f H)].
  - assert (Nf : forall f, k_startfut k = Some f ->
        (forall e, ~ In f (e_waiters (events s e))) /\ (forall g, g_fut (groups s g) <> Some f) /\
        (forall c, k_startfut (tasks s c) <> Some f) /\ ~ sleepref s f).
    { intros f E. apply fresh_not_ref, Hfresh, E. }
    assert (Hev : forall x, alloc s x -> k_hevent (tasks s x) < nevent s) by (intros; apply (c_bev s Ci)).
    constructor; change (groups s') with (groups s); change (futs s') with (futs s);
      change (running s') with (running s).
    + intros f e c H. apply Ew in H. intros E. apply Hsf in E. destruct E as [E|[_ E]]; [exact (kk_es s J f e c H E)|].
      destruct (Nf f E) as [N1 _]. exact (N1 e H).
    + intros f e g H. apply Ew in H. apply (kk_eg s J f e g H).
    + intros f e H. apply Ew in H. apply (kk_et s J f e H).
    + intros f c g E. apply Hsf in E. destruct E as [E|[_ E]]; [exact (kk_sg s J f c g E)|].
      destruct (Nf f E) as [_ [N2 _]]. apply N2.
    + intros f c E. apply Hsf in E. destruct E as [E|[_ E]]; [exact (kk_st s J f c E)|].
      destruct (Nf f E) as [_ [_ [_ N4]]]. exact N4.
    + intros f e e' H H'. destruct (Nat.eq_dec e e') as [->|Hne]; [reflexivity|].
      apply (kk_ee s J f e e'); apply Ew; assumption.
    + intros f c c' E E'. apply Hsf in E, E'.
      destruct E as [E|[-> E]]; destruct E' as [E'|[-> E']]; auto.
      * apply (kk_ss s J f c c' E E').
      * destruct (Nf f E') as [_ [_ [N3 _]]]. exfalso. exact (N3 c E).
      * destruct (Nf f E) as [_ [_ [N3 _]]]. exfalso. exact (N3 c' E').
    + intros f e v H Hv. pose proof (Ew e f H) as H0. pose proof (j_ev s J f e v H0 Hv) as H1.
      unfold s', talloc in *. cbn [events] in *. destruct ev; [|exact H1]. unfold upd in *.
      destruct (Nat.eqb e (nevent s)); [cbn in H; contradiction|exact H1].
    + intros x ch c e f Hr. destruct (Nat.eq_dec x t) as [->|Hx]; [rewrite Vt; intros E; exfalso; exact (O10 _ _ _ _ E)|].
      rewrite (Vo x Hx). intros E. destruct (c_sj s Ci x ch c e (Some f) Hr E) as [H1 H2].
      rewrite (Vo ch (Hal ch H1)). rewrite Es; [|apply (c_bev s Ci ch)]. apply (j_join s J x ch c e f Hr E).
    + intros x. destruct (Nat.eq_dec x t) as [->|Hx].
      * rewrite Vt. intros Hg. destruct ev; destruct O14 as [E1 E2]; [|contradiction]. rewrite E1.
        unfold s', talloc. cbn [events]. rewrite upd_same. cbn. discriminate.
      * rewrite (Vo x Hx). rewrite Es; [apply (e_hev s J x)|apply (c_bev s Ci x)].
    + assert (Hq : forall x, x <> t -> k_group (tasks s x) <> None -> k_group k <> None ->
                  k_hevent (tasks s x) <> k_hevent k).
      { intros x Hx Hg Hk. destruct ev; destruct O14 as [E1 E2]; [|contradiction]. rewrite E1.
        pose proof (c_bev s Ci x). lia. }
      intros x x'. destruct (Nat.eq_dec x t) as [->|Hx]; destruct (Nat.eq_dec x' t) as [->|Hx']; auto.
      * rewrite Vt, (Vo x' Hx'). intros H1 H2 H3. exfalso. symmetry in H3. revert H3. apply Hq; auto.
      * rewrite Vt, (Vo x Hx). intros H1 H2 H3. exfalso. revert H3. apply Hq; auto.
      * rewrite (Vo x Hx), (Vo x' Hx'). apply (e_inj s J x x').
    + intros x. destruct (Nat.eq_dec x t) as [->|Hx]; [|rewrite (Vo x Hx); apply (e_pos s J x)].
      rewrite Vt. intros Hg. destruct ev; destruct O14 as [E1 E2]; [|contradiction]. rewrite E1. apply (c_n s Ci).
Qed.

Lemma add_in x y l : In y (add x l) <-> In y l \/ y = x.
Proof.
  unfold add, mem. destruct (existsb (Nat.eqb x) l) eqn:E.
  - split; [auto|]. intros [H| ->]; [exact H|]. apply existsb_exists in E. destruct E as [z [Hz Ez]].
    apply Nat.eqb_eq in Ez. now subst.
  - rewrite in_app_iff. cbn. intuition.
Qed.

Definition gjoin (t : tid) (x : group) : group := gr_ever (g_ever x ++ [t]) (gr_tasks (add t (g_tasks x)) x).

Lemma M_gjoin s g t : MInv s -> k_group (tasks s t) = Some g -> alloc s t -> k_tdran (tasks s t) = false ->
  (forall g', ~ In t (g_ever (groups s g'))) -> MInv (upd_group s g (gjoin t)).
Proof.
  intros [K Ci G J] Hg Hal Htd Hnew.
  destruct (KCJ_upd_group s g (gjoin t)) as [HK [HC HJ]]; [intros x; reflexivity|].
  assert (V : forall x, groups (upd_group s g (gjoin t)) x = if Nat.eqb x g then gjoin t (groups s g) else groups s x).
  { intros x. reflexivity. }
  constructor; auto.
  constructor; unfold alloc; change (tasks (upd_group s g (gjoin t))) with (tasks s);
    change (futs (upd_group s g (gjoin t))) with (futs s); change (ntask (upd_group s g (gjoin t))) with (ntask s);
    change (nscope (upd_group s g (gjoin t))) with (nscope s); change (nfut (upd_group s g (gjoin t))) with (nfut s).
  - intros x y. rewrite V. destruct (Nat.eqb_spec x g) as [->|Hx]; [|apply (g_mem s G x y)].
    cbn. rewrite add_in, in_app_iff. cbn. pose proof (g_mem s G g y) as H. split.
    + intros [Hy| ->]; [apply H in Hy; tauto|tauto].
    + intros [[Hy|[<-|[]]] H2]; [left; apply H; tauto|tauto].
  - intros x y. rewrite V. destruct (Nat.eqb_spec x g) as [->|Hx]; [|apply (g_grp s G x y)].
    cbn. rewrite in_app_iff. cbn. intros [Hy|[<-|[]]]; [apply (g_grp s G g y Hy)|auto].
  - intros x y e. rewrite V. destruct (Nat.eqb_spec x g) as [->|Hx]; [cbn|]; apply (x_tags s G _ y e).
  - intros x e. rewrite V. destruct (Nat.eqb_spec x g) as [->|Hx]; [cbn|]; apply (x_zero s G _ e).
  - intros x. rewrite V. destruct (Nat.eqb_spec x g) as [->|Hx]; [cbn|]; apply (x_nd s G _).
  - intros x y e. rewrite V. destruct (Nat.eqb_spec x g) as [->|Hx]; [|apply (x_conv s G x y e)].
    cbn. rewrite in_app_iff. cbn. intros [Hy|[<-|[]]]; [apply (x_conv s G g y e Hy)|]. congruence.
  - intros x. rewrite V. destruct (Nat.eqb_spec x g) as [->|Hx]; [cbn|]; apply (b_gscope s G _).
  - apply (b_sf s G).
Qed.

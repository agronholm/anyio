(* Non-vacuity witnesses (vm_compute) for the reach_ok request-time theorems of C04: a reachable state of the
   generated domain in which the delivery run of a cancelled scope really changes a task record, two scopes below
   the cancelled one. *)
From AV Require Import Base Machine TreeStep.
From AV Require Import ChainThms ChainWindow.

(* task 1 sits in scope 3 inside scope 2 inside scope 1, cancels scope 1 itself (the delivery skips the running
   task and re-schedules itself) and then yields: the pending HDeliver 1 will now cancel it *)
Definition rq_ops : list op :=
  [ANewRoot; ANewScope 1 None false; AEnter 1 1; ANewScope 1 None false; AEnter 1 2; ANewScope 1 None false;
   AEnter 1 3; ACancel 1 1; AYield 1].
Definition rq_state : st := final step init rq_ops.

Example request_reach_witness :
  reach_ok rq_state /\ s_cancelled (scopes rq_state 1) = true /\ In (HDeliver 1) (ready rq_state) /\
  tasks (deliver_top rq_state 1) 1 <> tasks rq_state 1 /\
  k_must (tasks rq_state 1) = false /\ k_must (tasks (deliver_top rq_state 1) 1) = true /\
  (* what the theorems conclude, checked independently *)
  k_cur (tasks rq_state 1) = Some 3 /\ eff_cancelled rq_state 3 = true /\ s_shield (scopes rq_state 3) = false /\
  vpath rq_state 1 3 2 /\ up rq_state 3 2 = Some 1 /\
  s_cancelled (scopes rq_state 3) = false /\ s_cancelled (scopes rq_state 2) = false /\
  s_shield (scopes rq_state 2) = false.
Proof.
  assert (M : k_must (tasks rq_state 1) = false /\ k_must (tasks (deliver_top rq_state 1) 1) = true)
    by (split; vm_compute; reflexivity).
  split; [exists rq_ops; split; [vm_compute; reflexivity|reflexivity]|].
  split; [vm_compute; reflexivity|]. split; [vm_compute; tauto|].
  split; [intros E; destruct M as [M1 M2]; rewrite E in M2; congruence|].
  split; [apply M|]. split; [apply M|].
  split; [vm_compute; reflexivity|]. split; [vm_compute; reflexivity|]. split; [vm_compute; reflexivity|].
  split.
  - apply (vp_step rq_state 1 2 3 1); [vm_compute; tauto|vm_compute; reflexivity|vm_compute; reflexivity|].
    apply (vp_step rq_state 2 3 3 0); [vm_compute; tauto|vm_compute; reflexivity|vm_compute; reflexivity|].
    apply vp_refl.
  - repeat split; vm_compute; reflexivity.
Qed.

(* C05 — I5 "own cancellations are compensated": the native cancel counter of a task minus the debts
   (_pending_uncancellations) of the scopes it hosts changes only by requests from outside (native cancel(),
   scopes hosted by other tasks) and by explicit uncancel().  Definitions and the accounting of every
   primitive step. *)
From Coq Require Import ZArith Lia.
From AV Require Import Base Machine MachineFacts ScopeFrames DeliverInv TreeInv DeliverAlive.

Fixpoint sumf (f : nat -> nat) (l : list nat) : nat :=
  match l with [] => 0 | x :: r => f x + sumf f r end.

Lemma sumf_app f a b : sumf f (a ++ b) = sumf f a + sumf f b.
Proof. induction a as [|x a IH]; cbn; [reflexivity|]. rewrite IH. lia. Qed.

Lemma sumf_ext f g l : (forall x, In x l -> f x = g x) -> sumf f l = sumf g l.
Proof.
  induction l as [|x l IH]; intros H; cbn; [reflexivity|].
  rewrite (H x (or_introl eq_refl)), IH; [reflexivity|]. intros y Hy. apply H. now right.
Qed.

Lemma sumf_one f g l c :
  NoDup l -> In c l -> (forall x, x <> c -> f x = g x) -> sumf g l + f c = sumf f l + g c.
Proof.
  induction l as [|x l IH]; intros Hn Hin H; [destruct Hin|].
  inversion Hn as [|? ? Hx Hl]; subst. cbn. destruct Hin as [->|Hin].
  - assert (E : sumf g l = sumf f l).
    { apply sumf_ext. intros y Hy. symmetry. apply H. intros ->. contradiction. }
    rewrite E. lia.
  - assert (x <> c) by (intros ->; contradiction). rewrite <- (H x H0).
    specialize (IH Hl Hin H). lia.
Qed.

Lemma sumf_ge f l c : In c l -> f c <= sumf f l.
Proof.
  induction l as [|y l IH]; intros H; [destruct H|]. cbn [sumf]. destruct H as [->|H]; [lia|].
  specialize (IH H). lia.
Qed.

Lemma sumf_notin f g l c : ~ In c l -> (forall x, x <> c -> f x = g x) -> sumf g l = sumf f l.
Proof. intros Hn H. apply sumf_ext. intros y Hy. symmetry. apply H. intros ->. contradiction. Qed.

Lemma in_seq1' x n : In x (seq1 n) <-> 1 <= x /\ x <= n.
Proof. induction n as [|n IH]; cbn; [lia|]. rewrite in_app_iff, IH. cbn. lia. Qed.

Lemma nodup_snoc (l : list nat) x : NoDup l -> ~ In x l -> NoDup (l ++ [x]).
Proof.
  induction l as [|y l IH]; cbn; intros Hn Hx; [constructor; [tauto|constructor]|].
  inversion Hn as [|z l' Hy Hl]; subst. constructor.
  - intros H. apply in_app_or in H. destruct H as [H|[H|[]]]; [contradiction|]. subst. apply Hx. now left.
  - apply IH; [exact Hl|]. intros H. apply Hx. now right.
Qed.

Lemma nodup_seq1 n : NoDup (seq1 n).
Proof.
  induction n as [|n IH]; cbn; [constructor|]. apply nodup_snoc; [exact IH|].
  rewrite in_seq1'. lia.
Qed.

Definition owed (s : st) (t : tid) (c : sid) : nat :=
  if opt_eqb (s_host (scopes s c)) t then s_pending (scopes s c) else 0.

Definition pending_of (s : st) (t : tid) : nat := sumf (owed s t) (seq1 (pred (nscope s))).

Definition phi (s : st) (t : tid) : Z := (Z.of_nat (k_ncancel (tasks s t)) - Z.of_nat (pending_of s t))%Z.

Record PInv (s : st) : Prop := {
  pi_unhosted : forall c, s_host (scopes s c) = None -> s_pending (scopes s c) = 0;
  pi_nonneg : forall t, pending_of s t <= k_ncancel (tasks s t)
}.

(* accounting view: what phi and PInv look at *)
Definition sc_acct (c : scope) := (s_host c, s_pending c).

Record inert (a b : st) : Prop := {
  in_nscope : nscope b = nscope a;
  in_scope : forall c, sc_acct (scopes b c) = sc_acct (scopes a c);
  in_task : forall t, k_ncancel (tasks b t) = k_ncancel (tasks a t)
}.

Lemma inert_refl a : inert a a.
Proof. constructor; auto. Qed.

Lemma inert_trans a b c : inert a b -> inert b c -> inert a c.
Proof.
  intros H1 H2. constructor.
  - now rewrite (in_nscope _ _ H2), (in_nscope _ _ H1).
  - intros x. now rewrite (in_scope _ _ H2), (in_scope _ _ H1).
  - intros x. now rewrite (in_task _ _ H2), (in_task _ _ H1).
Qed.

Section AcctProj.
  Variables a b : scope.
  Hypothesis H : sc_acct b = sc_acct a.
  Lemma ac_host : s_host b = s_host a. Proof. unfold sc_acct in H. now inversion H. Qed.
  Lemma ac_pending : s_pending b = s_pending a. Proof. unfold sc_acct in H. now inversion H. Qed.
End AcctProj.

Lemma owed_inert a b t c : inert a b -> owed b t c = owed a t c.
Proof.
  intros H. unfold owed. now rewrite (ac_host _ _ (in_scope _ _ H c)), (ac_pending _ _ (in_scope _ _ H c)).
Qed.

Lemma pending_of_inert a b t : inert a b -> pending_of b t = pending_of a t.
Proof.
  intros H. unfold pending_of. rewrite (in_nscope _ _ H). apply sumf_ext. intros c _. now apply owed_inert.
Qed.

Lemma phi_inert a b t : inert a b -> phi b t = phi a t.
Proof. intros H. unfold phi. now rewrite (pending_of_inert a b t H), (in_task _ _ H t). Qed.

Lemma PInv_inert a b : PInv a -> inert a b -> PInv b.
Proof.
  intros P H. constructor.
  - intros c. rewrite (ac_host _ _ (in_scope _ _ H c)), (ac_pending _ _ (in_scope _ _ H c)). apply P.
  - intros t. rewrite (pending_of_inert a b t H), (in_task _ _ H t). apply P.
Qed.

Lemma inert_cancel_timeout s c : inert s (cancel_timeout s c).
Proof.
  unfold cancel_timeout. destruct (s_timeout (scopes s c)); [|apply inert_refl].
  constructor; auto. intros x. cbn. unfold upd. destruct (Nat.eqb_spec x c); [subst|]; reflexivity.
Qed.

Lemma inert_upd_scope s c g : (forall k, sc_acct (g k) = sc_acct k) -> inert s (upd_scope s c g).
Proof.
  intros Hg. constructor; auto. intros x. cbn. unfold upd. destruct (Nat.eqb_spec x c); [subst; apply Hg|reflexivity].
Qed.

Lemma inert_same a b :
  nscope b = nscope a -> scopes b = scopes a -> (forall t, k_ncancel (tasks b t) = k_ncancel (tasks a t)) -> inert a b.
Proof. intros E1 E2 E3. constructor; [exact E1|intros c; now rewrite E2|exact E3]. Qed.

Lemma inert_upd_task s t g : (forall k, k_ncancel (g k) = k_ncancel k) -> inert s (upd_task s t g).
Proof.
  intros Hg. apply inert_same; [reflexivity|reflexivity|]. intros x. cbn. unfold upd.
  destruct (Nat.eqb_spec x t); [subst; apply Hg|reflexivity].
Qed.
Lemma quiet_inert t a b : quiet t a b -> inert a b.
Proof.
  intros H. constructor; [apply H|intros c; now rewrite (qt_scopes _ _ _ H)|].
  intros x. exact (f_equal k_ncancel (qt_tasks _ _ _ H x)).
Qed.

Lemma inert_call_soon s h : inert s (call_soon s h).
Proof. apply inert_same; reflexivity. Qed.

Lemma inert_set_running s v : inert s (set_running s v).
Proof. apply (quiet_inert 0), quiet_set_running. Qed.

Lemma inert_timer_cancel s tm : inert s (timer_cancel s tm).
Proof. apply inert_same; reflexivity. Qed.

Lemma inert_tick s dt : inert s (tick s dt).
Proof. apply inert_same; reflexivity. Qed.

Lemma inert_finish_task s t o : inert s (finish_task s t o).
Proof.
  unfold finish_task. eapply inert_trans; [|apply inert_set_running].
  set (s1 := upd_task s t _).
  assert (K : inert s s1) by (apply inert_upd_task; intros k; reflexivity).
  destruct (k_group (tasks s t)); [|exact K]. eapply inert_trans; [exact K|apply inert_call_soon].
Qed.

Lemma inert_td_struct s t g : inert s (td_struct s t g).
Proof.
  unfold td_struct.
  set (s1 := match k_cur (tasks s t) with Some c => _ | None => s end).
  assert (K1 : inert s s1).
  { unfold s1. destruct (k_cur (tasks s t)); [|apply inert_refl]. apply inert_upd_scope. intros k; reflexivity. }
  eapply inert_trans; [exact K1|]. eapply inert_trans; [|apply inert_upd_task; intros k; reflexivity].
  apply inert_same; reflexivity.
Qed.

(* sums of debts as a function of the host and pending tables; one scope's debt changes *)
Definition pend (h : sid -> option tid) (pd : sid -> nat) (n : nat) (t : tid) : nat :=
  sumf (fun c => if opt_eqb (h c) t then pd c else 0) (seq1 (pred n)).

Lemma pending_of_pend s t :
  pending_of s t = pend (fun c => s_host (scopes s c)) (fun c => s_pending (scopes s c)) (nscope s) t.
Proof. reflexivity. Qed.

Lemma pend_one h pd h' pd' n t c :
  0 < c < n -> (forall x, x <> c -> h' x = h x /\ pd' x = pd x) ->
  pend h' pd' n t + (if opt_eqb (h c) t then pd c else 0) =
  pend h pd n t + (if opt_eqb (h' c) t then pd' c else 0).
Proof.
  intros Hc H. unfold pend.
  apply (sumf_one (fun c => if opt_eqb (h c) t then pd c else 0) (fun c => if opt_eqb (h' c) t then pd' c else 0)).
  - apply nodup_seq1.
  - apply in_seq1'. lia.
  - intros x Hx. destruct (H x Hx) as [E1 E2]. now rewrite E1, E2.
Qed.

Lemma pending_of_one a b t c :
  nscope b = nscope a -> 0 < c < nscope a ->
  (forall x, x <> c -> s_host (scopes b x) = s_host (scopes a x) /\ s_pending (scopes b x) = s_pending (scopes a x)) ->
  pending_of b t + owed a t c = pending_of a t + owed b t c.
Proof.
  intros En Hc H. rewrite !pending_of_pend, En.
  exact (pend_one (fun x => s_host (scopes a x)) (fun x => s_pending (scopes a x))
                  (fun x => s_host (scopes b x)) (fun x => s_pending (scopes b x)) (nscope a) t c Hc H).
Qed.

Lemma task_cancel_ncancel s t o t' : k_done (tasks s t) = None ->
  k_ncancel (tasks (task_cancel s t o) t') =
  if Nat.eqb t' t then S (k_ncancel (tasks s t)) else k_ncancel (tasks s t').
Proof.
  intros Hd. unfold task_cancel. rewrite Hd.
  destruct (k_waiter (tasks s t)) as [f|].
  - destruct (fut_pending _ f).
    + rewrite fut_complete_tasks. cbn. unfold upd. destruct (Nat.eqb t' t); reflexivity.
    + cbn. unfold upd. destruct (Nat.eqb_spec t' t); [subst; now rewrite Nat.eqb_refl|reflexivity].
  - cbn. unfold upd. destruct (Nat.eqb_spec t' t); [subst; now rewrite Nat.eqb_refl|reflexivity].
Qed.

Lemma task_cancel_done_noop s t o : k_done (tasks s t) <> None -> task_cancel s t o = s.
Proof. intros H. unfold task_cancel. destruct (k_done (tasks s t)); [reflexivity|now elim H]. Qed.

Lemma task_cancel_nscope s t o : nscope (task_cancel s t o) = nscope s.
Proof. apply (kf_nscope _ _ (kframe_task_cancel s t o)). Qed.

(* what one step of the delivery loop does to the accounts *)
Definition acct_step (origin : sid) (t : tid) (a a' : st) : Prop :=
  inert a a' \/
  (k_done (tasks a t) = None /\ nscope a' = nscope a /\
   (forall t', k_ncancel (tasks a' t') = if Nat.eqb t' t then S (k_ncancel (tasks a t)) else k_ncancel (tasks a t')) /\
   (forall c, s_host (scopes a' c) = s_host (scopes a c)) /\
   (forall c, s_pending (scopes a' c) =
              if Nat.eqb c origin && opt_eqb (s_host (scopes a origin)) t
              then S (s_pending (scopes a origin)) else s_pending (scopes a c))).

Lemma deliver_task_acct self origin a r t :
  acct_step origin t a (fst (deliver_task self origin (a, r) t)).
Proof.
  unfold deliver_task.
  destruct (k_done (tasks a t)) eqn:Hd; [left; apply inert_refl|].
  destruct (k_must (tasks a t)); [left; apply inert_refl|].
  destruct (_ && _); [|left; apply inert_refl].
  destruct (match k_waiter (tasks a t) with Some f => fut_pending a f | None => true end); [|left; apply inert_refl].
  cbn [fst]. right. set (a1 := task_cancel a t (S origin)).
  assert (Es : scopes a1 = scopes a) by apply task_cancel_scopes.
  rewrite Es. split; [exact Hd|].
  destruct (opt_eqb (s_host (scopes a origin)) t) eqn:Eh.
  - split; [apply task_cancel_nscope|]. split; [intros t'; now apply task_cancel_ncancel|]. split.
    + intros c. cbn. rewrite Es. unfold upd. destruct (Nat.eqb_spec c origin); [subst|]; reflexivity.
    + intros c. cbn. rewrite Es. unfold upd. rewrite andb_true_r.
      destruct (Nat.eqb_spec c origin); [subst|]; reflexivity.
  - split; [apply task_cancel_nscope|]. split; [intros t'; now apply task_cancel_ncancel|]. split.
    + intros c. rewrite Es. reflexivity.
    + intros c. rewrite Es. now rewrite andb_false_r.
Qed.

(* effect on the potential *)
Lemma phi_acct_step origin t a a' :
  (s_host (scopes a origin) = Some t -> 0 < origin < nscope a) ->
  acct_step origin t a a' ->
  (forall t', t' <> t -> phi a' t' = phi a t') /\
  (phi a' t = phi a t \/
   (phi a' t = (phi a t + 1)%Z /\ s_host (scopes a origin) <> Some t /\ k_done (tasks a t) = None)).
Proof.
  intros Hal [H|[Hd [En [Ek [Eah Ep]]]]].
  { split; [intros t' _; now apply phi_inert|left; now apply phi_inert]. }
  destruct (opt_eqb (s_host (scopes a origin)) t) eqn:Eh.
  - apply opt_eqb_Some in Eh. specialize (Hal Eh).
    assert (Hone : forall t', pending_of a' t' + owed a t' origin = pending_of a t' + owed a' t' origin).
    { intros t'. apply pending_of_one; [exact En|exact Hal|]. intros x Hx. split; [apply Eah|].
      rewrite Ep. destruct (Nat.eqb_spec x origin); [contradiction|reflexivity]. }
    assert (Epo : s_pending (scopes a' origin) = S (s_pending (scopes a origin))).
    { rewrite Ep, Nat.eqb_refl. reflexivity. }
    assert (Eo : forall t', owed a' t' origin = if Nat.eqb t' t then S (s_pending (scopes a origin)) else 0).
    { intros t'. unfold owed. rewrite (Eah origin), Eh, Epo. cbn [opt_eqb].
      rewrite (Nat.eqb_sym t t'). reflexivity. }
    assert (Eo0 : forall t', owed a t' origin = if Nat.eqb t' t then s_pending (scopes a origin) else 0).
    { intros t'. unfold owed. rewrite Eh. cbn [opt_eqb]. rewrite (Nat.eqb_sym t t'). reflexivity. }
    split.
    + intros t' Hne. unfold phi. rewrite Ek. specialize (Hone t'). rewrite Eo, Eo0 in Hone.
      destruct (Nat.eqb_spec t' t); [contradiction|]. lia.
    + left. unfold phi. rewrite Ek, Nat.eqb_refl. specialize (Hone t). rewrite Eo, Eo0, Nat.eqb_refl in Hone. lia.
  - assert (Ei : forall t', pending_of a' t' = pending_of a t').
    { intros t'. unfold pending_of. rewrite En. apply sumf_ext. intros c _. unfold owed.
      rewrite (Eah c), Ep. now rewrite andb_false_r. }
    apply opt_eqb_false in Eh. split.
    + intros t' Hne. unfold phi. rewrite Ek, Ei. destruct (Nat.eqb_spec t' t); [contradiction|reflexivity].
    + right. split; [|split; assumption]. unfold phi. rewrite Ek, Nat.eqb_refl, Ei. lia.
Qed.

Lemma PInv_acct_step origin t a a' :
  (s_host (scopes a origin) = Some t -> 0 < origin < nscope a) ->
  acct_step origin t a a' -> PInv a -> PInv a'.
Proof.
  intros Hal St P. destruct St as [H|[Hd [En [Ek [Eah Ep]]]]]; [now apply (PInv_inert a)|].
  destruct (phi_acct_step origin t a a' Hal (or_intror (conj Hd (conj En (conj Ek (conj Eah Ep)))))) as [F1 F2].
  constructor.
  - intros c Hc. rewrite (Eah c) in Hc. rewrite Ep.
    destruct (Nat.eqb_spec c origin) as [->|Hne]; cbn [andb]; [|now apply P].
    rewrite Hc. cbn [opt_eqb]. now apply P.
  - intros t'. pose proof (pi_nonneg _ P t') as N0.
    destruct (Nat.eq_dec t' t) as [->|Hne].
    + unfold phi in F2. destruct F2 as [F2|[F2 _]]; lia.
    + specialize (F1 t' Hne). unfold phi in F1. lia.
Qed.

Section DeliverPhi.
  Variables (s0 : st) (origin : sid).
  Hypothesis L1 : forall x t, In t (s_tasks (scopes s0 x)) -> k_cur (tasks s0 t) = Some x.
  Hypothesis L2 : forall p x, In x (s_children (scopes s0 p)) -> s_parent (scopes s0 x) = Some p.
  Hypothesis HA : forall t, s_host (scopes s0 origin) = Some t -> 0 < origin < nscope s0.

  (* t is reached by the origin, which is hosted by somebody else: a foreign request *)
  Definition foreign (t : tid) : Prop :=
    k_done (tasks s0 t) = None /\ (exists x, k_cur (tasks s0 t) = Some x /\ vis s0 origin x) /\
    s_host (scopes s0 origin) <> Some t.

  (* carried through one delivery from s0: only requests are placed (kframe), PInv is kept, no potential falls, and
     it rises only for a task that is reached but does not host the origin (nobody pays that request back) *)
  Definition J (a : st) : Prop :=
    kframe s0 a /\ (PInv s0 -> PInv a) /\
    forall t, (phi s0 t <= phi a t)%Z /\ ((phi s0 t < phi a t)%Z -> foreign t).

  Lemma J_refl : J s0.
  Proof. split; [apply kframe_refl|]. split; [auto|]. intros t. split; lia. Qed.

  Lemma J_inert a b : J a -> kframe a b -> inert a b -> J b.
  Proof.
    intros [K [P H]] Kb Ib. split; [eapply kframe_trans; eauto|]. split.
    - intros P0. apply (PInv_inert a); auto.
    - intros t. rewrite (phi_inert a b t Ib). apply H.
  Qed.

  Lemma J_task self a r t :
    J a -> vis s0 origin self -> In t (s_tasks (scopes s0 self)) ->
    J (fst (deliver_task self origin (a, r) t)).
  Proof.
    intros [K [P H]] Hv Hin.
    pose proof (deliver_task_acct self origin a r t) as St.
    pose proof (kframe_deliver_task self origin a r t) as Ks.
    set (a' := fst (deliver_task self origin (a, r) t)) in *.
    assert (Eh : s_host (scopes a origin) = s_host (scopes s0 origin)) by apply (core_host _ _ (kf_scopes _ _ K origin)).
    assert (Hal : s_host (scopes a origin) = Some t -> 0 < origin < nscope a).
    { rewrite Eh, (kf_nscope _ _ K). apply HA. }
    destruct (phi_acct_step origin t a a' Hal St) as [F1 F2].
    split; [eapply kframe_trans; eauto|]. split.
    - intros P0. apply (PInv_acct_step origin t a a' Hal St). auto.
    - intros t'. destruct (H t') as [H1 H2]. destruct (Nat.eq_dec t' t) as [->|Hne].
      + destruct F2 as [F2|[F2 [F3 F4]]]; rewrite F2; [split; assumption|]. split; [lia|].
        intros _. split; [|split].
        * now rewrite <- (tcore_done _ _ (kf_tasks _ _ K t)).
        * exists self. split; [now apply L1|exact Hv].
        * now rewrite <- Eh.
      + rewrite (F1 t' Hne). split; assumption.
  Qed.

  Lemma J_deliver fu : forall a self, J a -> vis s0 origin self -> J (fst (deliver fu a self origin)).
  Proof.
    intros a self Ja Hv.
    apply (deliver_walk s0 origin (vis s0 origin) J (fun _ _ _ => True)); auto.
    - intros x ch Hx Hin Hs Hc. eapply vis_up; eauto.
    - intros b Hb. apply Hb.
    - intros x t b r Hx Hin Hb. split; [now apply J_task|exact I].
    - intros b c Hb. apply (J_inert b); [exact Hb|apply kframe_upd_scope; intros k; reflexivity|].
      apply inert_upd_scope. intros k; reflexivity.
    - intros b Hb. apply (J_inert b); [exact Hb|now apply kframe_call_soon|apply inert_call_soon].
  Qed.
End DeliverPhi.

Definition host_ok (s : st) : Prop :=
  forall c t, s_host (scopes s c) = Some t -> 0 < c < nscope s.

Lemma host_ok_Tree s : Tree s -> host_ok s.
Proof.
  intros T c t H. destruct (s_active (scopes s c)) eqn:Ea.
  - apply (tr_act_alloc _ T c Ea).
  - rewrite (tr_host_inact _ T c Ea) in H. discriminate.
Qed.

Definition links_ok (s : st) : Prop :=
  (forall x t, In t (s_tasks (scopes s x)) -> k_cur (tasks s t) = Some x) /\
  (forall p x, In x (s_children (scopes s p)) -> s_parent (scopes s x) = Some p).

Lemma links_ok_TreeL s : TreeL s -> links_ok s.
Proof.
  intros T. split.
  - intros x t H. now apply (tl_task _ T).
  - intros p x H. apply (tl_child _ T) in H. apply H.
Qed.

Lemma deliver_top_phi s c :
  links_ok s -> host_ok s ->
  (PInv s -> PInv (deliver_top s c)) /\
  forall t, (phi s t <= phi (deliver_top s c) t)%Z /\
            ((phi s t < phi (deliver_top s c) t)%Z ->
             k_done (tasks s t) = None /\ (exists x, k_cur (tasks s t) = Some x /\ vis s c x) /\
             s_host (scopes s c) <> Some t).
Proof.
  intros [L1 L2] HO.
  destruct (J_deliver s c L1 L2 (fun t H => HO c t H) (S (nscope s)) s c (J_refl s c) (vis_here s c)) as [_ [P H]].
  split; [exact P|exact H].
Qed.

Definition pstep (a b : st) : Prop :=
  PInv a ->
  PInv b /\ forall t, alloc_t a t ->
            (phi a t <= phi b t)%Z /\ (k_group (tasks a t) = None -> phi b t = phi a t).

Lemma pstep_refl a : pstep a a.
Proof. intros P. split; [exact P|]. intros t _. split; [lia|reflexivity]. Qed.

Lemma pstep_trans a b c :
  pstep a b -> pstep b c ->
  (forall t, alloc_t a t -> alloc_t b t /\ k_group (tasks b t) = k_group (tasks a t)) -> pstep a c.
Proof.
  intros H1 H2 Hk P. destruct (H1 P) as [Pb F1]. destruct (H2 Pb) as [Pc F2]. split; [exact Pc|].
  intros t A. destruct (Hk t A) as [Ab Eg]. destruct (F1 t A) as [M1 R1]. destruct (F2 t Ab) as [M2 R2].
  split; [lia|]. intros G. rewrite R2; [now apply R1|now rewrite Eg].
Qed.

Lemma pstep_inert a b : inert a b -> pstep a b.
Proof.
  intros H P. split; [now apply (PInv_inert a)|]. intros t _. rewrite (phi_inert a b t H). split; [lia|reflexivity].
Qed.

(* a root task hosts every scope above its current one *)
Inductive anc (s : st) (c : sid) : sid -> Prop :=
| anc_here : anc s c c
| anc_up x p : s_parent (scopes s x) = Some p -> anc s c p -> anc s c x.

Lemma vis_anc s c x : vis s c x -> anc s c x.
Proof. induction 1 as [|x p E1 E2 E3 H IH]; [apply anc_here|eapply anc_up; eauto]. Qed.

Definition rooted (s : st) : Prop :=
  forall t x c, k_group (tasks s t) = None -> k_cur (tasks s t) = Some x -> anc s c x ->
                s_host (scopes s c) = Some t.

Lemma rooted_Tree s : Tree s -> rooted s.
Proof.
  intros T t x c G Hc Ha.
  pose proof (tr_cur_alloc _ T t x Hc) as A. pose proof (not_tdran_of_cur s t x T Hc) as D.
  destruct (tr_stack _ T t A D) as [l [S _]]. rewrite Hc in S.
  assert (B : base s t = None) by (unfold base; now rewrite G).
  clear Hc. revert l S. induction Ha as [|x p Ep Ha IH]; intros l S.
  - inversion S as [E0|y l' Hh Hact S' E1]; subst; [congruence|exact Hh].
  - inversion S as [E0|y l' Hh Hact S' E1]; subst; [congruence|]. rewrite Ep in S'. now apply (IH l').
Qed.

Definition Pok (s : st) : Prop := links_ok s /\ host_ok s /\ rooted s.

Lemma Pok_Tree s : Tree s -> Pok s.
Proof.
  intros T. split; [apply links_ok_TreeL, Tree_TreeL, T|]. split; [now apply host_ok_Tree|now apply rooted_Tree].
Qed.

Lemma anc_ext a b c x : (forall y, s_parent (scopes b y) = s_parent (scopes a y)) -> anc b c x -> anc a c x.
Proof.
  intros E H. induction H as [|x p Ep H IH]; [apply anc_here|]. rewrite E in Ep. eapply anc_up; eauto.
Qed.

Lemma Pok_ext a b :
  Pok a -> nscope b = nscope a ->
  (forall x, s_parent (scopes b x) = s_parent (scopes a x) /\ s_children (scopes b x) = s_children (scopes a x) /\
             s_tasks (scopes b x) = s_tasks (scopes a x) /\ s_host (scopes b x) = s_host (scopes a x)) ->
  (forall t, k_cur (tasks b t) = k_cur (tasks a t) /\ k_group (tasks b t) = k_group (tasks a t)) -> Pok b.
Proof.
  intros [[L1 L2] [HO RT]] En Es Et.
  assert (EP : forall x, s_parent (scopes b x) = s_parent (scopes a x)) by (intros x; apply Es).
  split; [split|split].
  - intros x t. destruct (Es x) as [_ [_ [E _]]]. destruct (Et t) as [E' _]. rewrite E, E'. apply L1.
  - intros p x. destruct (Es p) as [_ [E _]]. rewrite E, EP. apply L2.
  - intros c t. destruct (Es c) as [_ [_ [_ E]]]. rewrite E, En. apply HO.
  - intros t x c. destruct (Et t) as [E1 E2]. destruct (Es c) as [_ [_ [_ E]]]. rewrite E1, E2, E.
    intros G Hc Ha. apply (RT t x c G Hc). now apply (anc_ext a b).
Qed.

Lemma Pok_kframe a b : Pok a -> kframe a b -> Pok b.
Proof.
  intros P K. apply (Pok_ext a b P (kf_nscope _ _ K)).
  - intros x. pose proof (kf_scopes _ _ K x) as E.
    now rewrite (core_parent _ _ E), (core_children _ _ E), (core_tasks _ _ E), (core_host _ _ E).
  - intros t. pose proof (kf_tasks _ _ K t) as E. now rewrite (tcore_cur _ _ E), (tcore_group _ _ E).
Qed.

Lemma Pok_treq a b : Pok a -> treq a b -> Pok b.
Proof.
  intros P K. apply (Pok_ext a b P (tq_nscope _ _ K)).
  - intros x. now rewrite (tq_parent _ _ K), (tq_children _ _ K), (tq_stasks _ _ K), (tq_host _ _ K).
  - intros t. now rewrite (tq_cur _ _ K), (tq_group _ _ K).
Qed.

Lemma P_deliver_top s c : Pok s -> pstep s (deliver_top s c).
Proof.
  intros [L [HO RT]] P. destruct (deliver_top_phi s c L HO) as [Pp H]. split; [now apply Pp|].
  intros t _. destruct (H t) as [M F]. split; [exact M|]. intros G.
  destruct (Z.eq_dec (phi (deliver_top s c) t) (phi s t)) as [E|N]; [exact E|exfalso].
  assert (Hlt : (phi s t < phi (deliver_top s c) t)%Z) by lia.
  destruct (F Hlt) as [_ [[x [Hc Hv]] Hh]]. apply Hh. apply (RT t x c G Hc). now apply vis_anc.
Qed.

Lemma P_restart s x : Pok s -> pstep s (restart s x).
Proof. intros Pk. apply restart_closed; [apply pstep_refl|]. intros c _ _. now apply P_deliver_top. Qed.

Lemma same_alloc_group a b : treq a b ->
  forall t, alloc_t a t -> alloc_t b t /\ k_group (tasks b t) = k_group (tasks a t).
Proof. intros K t A. split; [now apply (tq_alloc_t _ _ K)|apply (tq_group _ _ K)]. Qed.

Lemma P_scope_cancel s c b : Pok s -> pstep s (scope_cancel s c b).
Proof.
  intros Pk. unfold scope_cancel. destruct (s_cancelled (scopes s c)); [apply pstep_refl|].
  set (s2 := upd_scope (cancel_timeout s c) c (fun x => sc_bydeadline b (sc_cancelled true x))).
  assert (K2 : treq s s2).
  { eapply treq_trans; [apply treq_cancel_timeout|]. apply treq_upd_scope. intros k; reflexivity. }
  assert (I2 : inert s s2).
  { eapply inert_trans; [apply inert_cancel_timeout|]. apply inert_upd_scope. intros k; reflexivity. }
  destruct (s_host (scopes s2 c)); [|now apply pstep_inert].
  apply (pstep_trans s s2); [now apply pstep_inert| |now apply same_alloc_group].
  apply P_deliver_top. now apply (Pok_treq s).
Qed.

Lemma P_scope_timeout s c : Pok s -> pstep s (scope_timeout s c).
Proof.
  intros Pk. unfold scope_timeout. destruct (s_deadline (scopes s c)); [|apply pstep_refl].
  destruct (Z.leb z (now s)); [now apply P_scope_cancel|]. apply pstep_inert.
  constructor; auto. intros x. cbn. unfold upd. destruct (Nat.eqb_spec x c); [subst|]; reflexivity.
Qed.

Lemma iter_uncancel_spec n t : forall s,
  scopes (iter n (fun a => task_uncancel a t) s) = scopes s /\
  nscope (iter n (fun a => task_uncancel a t) s) = nscope s /\
  forall t', k_ncancel (tasks (iter n (fun a => task_uncancel a t) s) t') =
             if Nat.eqb t' t then k_ncancel (tasks s t) - n else k_ncancel (tasks s t').
Proof.
  induction n as [|n IH]; intros s; cbn [iter].
  - split; [reflexivity|split; [reflexivity|]]. intros t'. destruct (Nat.eqb_spec t' t); [subst; lia|reflexivity].
  - destruct (IH (task_uncancel s t)) as [E1 [E2 E3]]. split; [exact E1|split; [exact E2|]].
    intros t'. rewrite E3. unfold task_uncancel. cbn. unfold upd. rewrite Nat.eqb_refl. cbn.
    destruct (Nat.eqb_spec t' t); [lia|reflexivity].
Qed.

(* the accounting of the part of __exit__ after the restart: hand = true: handed over to the parent *)
Lemma scope_exit_acct s c t exc :
  exit_ok s c t -> s_parent (scopes s c) <> Some c ->
  let s5 := restart (exit_struct s c t) (s_parent (scopes s c)) in
  let n := s_pending (scopes s5 c) in
  let sf := fst (scope_exit s c t exc) in
  nscope sf = nscope s5 /\
  exists hand : bool,
    (hand = true -> exists p, s_parent (scopes s c) = Some p /\ s_host (scopes s5 p) = Some t) /\
    (forall x, s_host (scopes sf x) = if Nat.eqb x c then None else s_host (scopes s5 x)) /\
    (forall x, s_pending (scopes sf x) =
               if Nat.eqb x c then 0
               else if hand && opt_eqb (s_parent (scopes s c)) x then s_pending (scopes s5 x) + n
               else s_pending (scopes s5 x)) /\
    (forall t', k_ncancel (tasks sf t') =
                if Nat.eqb t' t && negb hand then k_ncancel (tasks s5 t) - n else k_ncancel (tasks s5 t')).
Proof.
  intros Hok Hpc. cbv zeta. destruct (scope_exit_shape s c t exc Hok) as [s6 [x [X E]]]. rewrite E. cbn [fst].
  change (exit_links s c t) with (exit_struct s c t) in X. clear E.
  set (s5 := restart (exit_struct s c t) (s_parent (scopes s c))) in *. set (n := s_pending (scopes s5 c)).
  assert (Eu : forall a g y, scopes (upd_scope a c g) y = if Nat.eqb y c then g (scopes a c) else scopes a y).
  { intros a g y. cbn. unfold upd. destruct (Nat.eqb_spec y c); [subst|]; reflexivity. }
  destruct X as [x' _ sA| Hb Hn |p Hb Ep Ehp Hn].
  - (* paid: the task uncancels n times; caught := true does not show in the accounts *)
    destruct (iter_uncancel_spec n t s5) as [U1 [U2 U3]]. fold n in sA.
    set (sB := match x' with XFalse => sA | _ => upd_scope sA c (sc_caught true) end).
    assert (HB : (forall y, sc_acct (scopes sB y) = sc_acct (scopes sA y)) /\ nscope sB = nscope sA /\ tasks sB = tasks sA).
    { unfold sB. destruct x'; (split; [|now split]); intros y; rewrite ?Eu; destruct (Nat.eqb y c) eqn:Ey;
        try reflexivity; apply Nat.eqb_eq in Ey; now subst y. }
    destruct HB as [HB1 [HB2 HB3]]. clearbody sB.
    assert (EA : forall y, sc_acct (scopes sA y) = if Nat.eqb y c then (s_host (scopes s5 c), 0) else sc_acct (scopes s5 y)).
    { intros y. unfold sA. rewrite Eu, U1. destruct (Nat.eqb y c); reflexivity. }
    split; [cbn; rewrite HB2; exact U2|]. exists false. split; [discriminate|]. split; [|split].
    + intros y. rewrite Eu. destruct (Nat.eqb y c) eqn:Ey; [reflexivity|].
      rewrite (ac_host _ _ (HB1 y)). pose proof (EA y) as Ey'. rewrite Ey in Ey'. exact (ac_host _ _ Ey').
    + intros y. rewrite Eu. pose proof (EA y) as Ey'. destruct (Nat.eqb y c) eqn:Ey.
      * apply Nat.eqb_eq in Ey. subst y. cbn [s_pending sc_host]. rewrite (ac_pending _ _ (HB1 c)).
        exact (f_equal snd Ey').
      * cbn [andb]. rewrite (ac_pending _ _ (HB1 y)). exact (ac_pending _ _ Ey').
    + intros t'. rewrite andb_true_r. cbn [tasks upd_scope set_scopes]. rewrite HB3. apply U3.
  - fold n in Hn. split; [reflexivity|]. exists false. split; [discriminate|]. split; [|split].
    + intros y. rewrite Eu. destruct (Nat.eqb y c); reflexivity.
    + intros y. rewrite Eu. destruct (Nat.eqb_spec y c); [subst; exact Hn|reflexivity].
    + intros t'. rewrite andb_true_r, Hn. cbn [tasks upd_scope set_scopes].
      destruct (Nat.eqb_spec t' t); [subst; lia|reflexivity].
  - fold n. assert (Hne : p <> c) by congruence.
    split; [reflexivity|]. exists true. split; [intros _; exists p; now split|]. split; [|split].
    + intros y. rewrite !Eu. destruct (Nat.eqb_spec y c) as [->|Hy]; [now rewrite Nat.eqb_refl|].
      cbn [scopes upd_scope set_scopes]. unfold upd. destruct (Nat.eqb_spec y p); [subst|]; reflexivity.
    + intros y. rewrite !Eu, Ep. cbn [andb opt_eqb]. destruct (Nat.eqb_spec y c) as [->|Hy]; [now rewrite Nat.eqb_refl|].
      cbn [scopes upd_scope set_scopes]. unfold upd. rewrite (Nat.eqb_sym p y).
      destruct (Nat.eqb_spec y p); [subst|]; reflexivity.
    + intros t'. rewrite andb_false_r. reflexivity.
Qed.

Lemma exit_struct_inert s c t : inert s (exit_struct s c t).
Proof.
  unfold exit_struct.
  set (s0 := upd_scope s c (sc_active false)).
  assert (I0 : inert s s0) by (apply inert_upd_scope; intros k; reflexivity).
  set (s1 := cancel_timeout s0 c). assert (I1 : inert s s1) by (eapply inert_trans; [exact I0|apply inert_cancel_timeout]).
  set (s2 := upd_scope s1 c (fun x => sc_tasks (del t (s_tasks x)) x)).
  assert (I2 : inert s s2) by (eapply inert_trans; [exact I1|apply inert_upd_scope; intros k; reflexivity]).
  assert (Iu : forall a, inert a (upd_task a t (tk_cur (s_parent (scopes s c))))).
  { intros a. constructor; auto. intros x. cbn. unfold upd. destruct (Nat.eqb_spec x t); [subst|]; reflexivity. }
  destruct (s_parent (scopes s c)) as [p|].
  - eapply inert_trans; [|apply Iu]. eapply inert_trans; [exact I2|]. apply inert_upd_scope. intros k; reflexivity.
  - eapply inert_trans; [exact I2|apply Iu].
Qed.

Lemma exit_struct_ntask s c t : ntask (exit_struct s c t) = ntask s.
Proof.
  unfold exit_struct. cbn [ntask upd_task set_tasks].
  assert (E : forall a, ntask (cancel_timeout a c) = ntask a).
  { intros a. unfold cancel_timeout. destruct (s_timeout (scopes a c)); reflexivity. }
  destruct (s_parent (scopes s c)); cbn [ntask upd_scope set_scopes]; rewrite E; reflexivity.
Qed.

Lemma P_exit s c t exc :
  Tree s -> exit_ok s c t ->
  (forall x, ~ In x (s_children (scopes s c))) ->
  (forall t', In t' (s_tasks (scopes s c)) -> t' = t) ->
  (forall g, alloc_g s g -> g_scope (groups s g) = c -> g_tasks (groups s g) = []) ->
  pstep s (fst (scope_exit s c t exc)).
Proof.
  intros T Hok NC NT NG P.
  pose proof (tx_pc s c t T Hok) as Hpc.
  destruct (scope_exit_acct s c t exc Hok Hpc) as [En [hand [Hhand [Fh [Fp Fn]]]]].
  set (s4 := exit_struct s c t) in *. set (par := s_parent (scopes s c)) in *.
  set (s5 := restart s4 par) in *. set (n := s_pending (scopes s5 c)) in *.
  set (sf := fst (scope_exit s c t exc)) in *.
  destruct Hok as [Ha [Hh Hc]].
  pose proof (exit_struct_inert s c t) as I4. fold s4 in I4.
  pose proof (PInv_inert s s4 P I4) as P4.
  (* the state after the structural part is good enough for the restart *)
  pose proof (Tree_exit s c t T (conj Ha (conj Hh Hc)) NC NT NG) as Tx.
  assert (V4 : forall y, s_parent (scopes s4 y) = s_parent (scopes s y) /\ s_host (scopes s4 y) = s_host (scopes s y)).
  { intros y. pose proof (exit_struct_view s c t y) as E. fold s4 in E.
    now rewrite (vw_parent _ _ E), (vw_host _ _ E). }
  assert (Pk4 : Pok s4).
  { split; [|split].
    - apply links_ok_TreeL. apply (TreeL_ext (xstate s c t) s4 (Tree_TreeL _ Tx)); [reflexivity| |intros x; reflexivity].
      intros x. unfold xstate. fold s4. cbn. unfold upd. destruct (Nat.eqb_spec x c); [subst|]; now repeat split.
    - intros y t' H. destruct (V4 y) as [_ E]. rewrite E in H.
      rewrite (in_nscope _ _ I4). apply (host_ok_Tree s T y t' H).
    - intros t' x A G Hcur Han. destruct (V4 A) as [_ E]. rewrite E.
      assert (Han' : anc s A x) by (apply (anc_ext s s4 A x); [intros y; apply V4|exact Han]).
      unfold s4 in G, Hcur. rewrite exit_struct_task in G, Hcur.
      destruct (Nat.eqb_spec t' t) as [->|Hne].
      + cbn in G, Hcur. apply (rooted_Tree s T t c A G Hc). eapply anc_up; [exact Hcur|exact Han'].
      + now apply (rooted_Tree s T t' x A). }
  pose proof (P_restart s4 par Pk4 P4) as [P5 F5]. fold s5 in P5, F5.
  pose proof (kframe_restart s4 par) as K5. fold s5 in K5.
  (* facts about c and t in s5 *)
  assert (Hh5 : s_host (scopes s5 c) = Some t).
  { rewrite (core_host _ _ (kf_scopes _ _ K5 c)). destruct (V4 c) as [_ E]. now rewrite E. }
  assert (Ac : 0 < c < nscope s5).
  { rewrite (kf_nscope _ _ K5), (in_nscope _ _ I4). apply (tr_act_alloc _ T c Ha). }
  assert (Ow5 : forall t', owed s5 t' c = if Nat.eqb t' t then n else 0).
  { intros t'. unfold owed. rewrite Hh5. cbn [opt_eqb]. now rewrite (Nat.eqb_sym t t'). }
  assert (Nle : n <= k_ncancel (tasks s5 t)).
  { pose proof (pi_nonneg _ P5 t) as H1.
    assert (n <= pending_of s5 t); [|lia].
    unfold pending_of. assert (Hin : In c (seq1 (pred (nscope s5)))) by (apply in_seq1'; lia).
    pose proof (sumf_ge (owed s5 t) _ c Hin) as Hge. rewrite (Ow5 t), Nat.eqb_refl in Hge. exact Hge. }
  (* the potential after the tail equals the potential before it *)
  assert (Efin : forall t', pending_of sf t' + (if Nat.eqb t' t && negb hand then n else 0) = pending_of s5 t').
  { intros t'. rewrite !pending_of_pend, En.
    set (h5 := fun x => s_host (scopes s5 x)). set (p5 := fun x => s_pending (scopes s5 x)).
    set (hf := fun x => s_host (scopes sf x)). set (pf := fun x => s_pending (scopes sf x)).
    assert (O5 : (if opt_eqb (h5 c) t' then p5 c else 0) = if Nat.eqb t' t then n else 0).
    { unfold h5, p5. rewrite Hh5. cbn [opt_eqb]. now rewrite (Nat.eqb_sym t t'). }
    destruct hand.
    - (* handed to the parent, which the same task hosts *)
      destruct (Hhand eq_refl) as [p [Ep Hp]]. assert (Hne : p <> c) by (intros ->; apply Hpc; exact Ep).
      assert (Ap : 0 < p < nscope s5).
      { rewrite (kf_nscope _ _ K5), (in_nscope _ _ I4).
        apply (tr_act_alloc _ T p). apply (tr_par_act _ T c p Ha Ep). }
      rewrite andb_false_r, Nat.add_0_r.
      set (h1 := fun x => if Nat.eqb x c then None else h5 x).
      set (p1 := fun x => if Nat.eqb x c then 0 else p5 x).
      assert (O1c : (if opt_eqb (h1 c) t' then p1 c else 0) = 0).
      { unfold h1, p1. rewrite Nat.eqb_refl. reflexivity. }
      pose proof (pend_one h5 p5 h1 p1 (nscope s5) t' c Ac) as S1. rewrite O5, O1c in S1.
      assert (S1' : pend h1 p1 (nscope s5) t' + (if Nat.eqb t' t then n else 0) = pend h5 p5 (nscope s5) t' + 0).
      { apply S1. intros x Hx. unfold h1, p1. destruct (Nat.eqb_spec x c); [contradiction|now split]. }
      assert (O1p : (if opt_eqb (h1 p) t' then p1 p else 0) = if Nat.eqb t' t then p5 p else 0).
      { unfold h1, p1. destruct (Nat.eqb_spec p c); [contradiction|]. unfold h5. rewrite Hp. cbn [opt_eqb].
        now rewrite (Nat.eqb_sym t t'). }
      assert (Ofp : (if opt_eqb (hf p) t' then pf p else 0) = if Nat.eqb t' t then p5 p + n else 0).
      { unfold hf, pf. rewrite Fh, Fp. destruct (Nat.eqb_spec p c); [contradiction|]. rewrite Hp. cbn [opt_eqb andb].
        fold par. rewrite Ep. cbn [opt_eqb]. rewrite Nat.eqb_refl, (Nat.eqb_sym t t'). reflexivity. }
      pose proof (pend_one h1 p1 hf pf (nscope s5) t' p Ap) as S2. rewrite O1p, Ofp in S2.
      assert (S2' : pend hf pf (nscope s5) t' + (if Nat.eqb t' t then p5 p else 0) =
                    pend h1 p1 (nscope s5) t' + (if Nat.eqb t' t then p5 p + n else 0)).
      { apply S2. intros x Hx. unfold hf, pf, h1, p1. rewrite Fh, Fp. fold par. rewrite Ep. cbn [andb opt_eqb].
        rewrite (Nat.eqb_sym p x). destruct (Nat.eqb_spec x p); [contradiction|]. now split. }
      destruct (Nat.eqb t' t); lia.
    - (* paid *)
      rewrite andb_true_r.
      assert (Ofc : (if opt_eqb (hf c) t' then pf c else 0) = 0).
      { unfold hf, pf. rewrite Fh, Nat.eqb_refl. reflexivity. }
      pose proof (pend_one h5 p5 hf pf (nscope s5) t' c Ac) as S1. rewrite O5, Ofc in S1.
      rewrite Nat.add_0_r in S1. apply S1. intros x Hx. unfold hf, pf, h5, p5. rewrite Fh, Fp.
      destruct (Nat.eqb_spec x c); [contradiction|]. now split. }
  assert (Ephi : forall t', phi sf t' = phi s5 t').
  { intros t'. unfold phi. specialize (Efin t'). rewrite Fn.
    destruct (Nat.eq_dec t' t) as [Ett|Hne].
    - subst t'. rewrite Nat.eqb_refl in *. cbn [andb] in *. destruct hand; cbn [negb] in *; lia.
    - destruct (Nat.eqb_spec t' t); [contradiction|]. cbn [andb] in *. lia. }
  assert (Pf : PInv sf).
  { constructor.
    - intros x Hx. rewrite Fh in Hx. rewrite Fp. destruct (Nat.eqb_spec x c); [reflexivity|].
      destruct (hand && opt_eqb par x) eqn:Eh.
      + apply andb_true_iff in Eh. destruct Eh as [E1 E2]. apply opt_eqb_Some in E2.
        destruct (Hhand E1) as [p [Ep Hp]]. pose proof (eq_trans (eq_sym Ep) E2) as E3. inversion E3; subst p. congruence.
      + now apply P5.
    - intros t'. pose proof (pi_nonneg _ P5 t') as H1. specialize (Ephi t'). unfold phi in Ephi. lia. }
  split; [exact Pf|].
  intros t' A.
  assert (A4 : alloc_t s4 t') by (unfold alloc_t, s4; rewrite exit_struct_ntask; exact A).
  assert (G4 : k_group (tasks s4 t') = k_group (tasks s t')).
  { unfold s4. rewrite exit_struct_task. destruct (Nat.eqb_spec t' t); [subst|]; reflexivity. }
  destruct (F5 t' A4) as [M5 R5]. rewrite (Ephi t'), <- (phi_inert s s4 t' I4).
  split; [exact M5|]. intros G. apply R5. now rewrite G4.
Qed.

Lemma seq1_pred n : 0 < n -> seq1 n = seq1 (pred n) ++ [n].
Proof. destruct n; [lia|reflexivity]. Qed.

Lemma P_new_scope s d sh : Tree s -> pstep s (fst (new_scope s d sh)).
Proof.
  intros T P. set (s' := fst (new_scope s d sh)). set (c0 := nscope s).
  assert (Pos : 0 < c0) by apply T.
  assert (Es : forall y, y <> c0 -> scopes s' y = scopes s y).
  { intros y Hy. unfold s'. cbn. unfold upd. destruct (Nat.eqb_spec y (nscope s)); [contradiction|reflexivity]. }
  assert (E0 : s_host (scopes s' c0) = None /\ s_pending (scopes s' c0) = 0).
  { unfold s', c0. cbn. unfold upd. rewrite Nat.eqb_refl. now split. }
  assert (Ep : forall t, pending_of s' t = pending_of s t).
  { intros t. unfold pending_of. change (nscope s') with (S c0). cbn [pred]. fold c0.
    rewrite (seq1_pred c0 Pos), sumf_app. cbn [sumf].
    assert (E1 : owed s' t c0 = 0) by (unfold owed; destruct E0 as [E0 _]; rewrite E0; reflexivity).
    rewrite E1, !Nat.add_0_r. apply sumf_ext. intros y Hy. apply in_seq1' in Hy.
    unfold owed. rewrite (Es y); [reflexivity|lia]. }
  split.
  - constructor.
    + intros y Hy. destruct (Nat.eq_dec y c0) as [->|Hne]; [apply E0|]. rewrite (Es y Hne) in *. now apply P.
    + intros t. rewrite Ep. apply P.
  - intros t _. unfold phi. rewrite Ep. change (tasks s' t) with (tasks s t). split; [lia|reflexivity].
Qed.

Lemma enter_s3_acct s c t y : k_cur (tasks s t) <> Some c ->
  s_host (scopes (enter_s3 s c t) y) = (if Nat.eqb y c then Some t else s_host (scopes s y)) /\
  s_pending (scopes (enter_s3 s c t) y) = s_pending (scopes s y).
Proof.
  intros Hpc. change (enter_s3 s c t) with (enter_links s c t). rewrite (enter_links_scopes s c t y Hpc).
  destruct (Nat.eqb_spec y c) as [->|_]; [now split|].
  destruct (opt_eqb (k_cur (tasks s t)) y); now split.
Qed.

Lemma P_enter s c t :
  Tree s -> alloc_t s t -> k_tdran (tasks s t) = false -> alloc_s s c -> s_active (scopes s c) = false ->
  (forall t' g, alloc_t s t' -> k_group (tasks s t') = Some g -> k_hscope (tasks s t') = c ->
     t' = t /\ k_cur (tasks s t) = Some (g_scope (groups s g))) ->
  (forall g, k_group (tasks s t) = Some g -> g_scope (groups s g) <> c) ->
  pstep s (fst (scope_enter s c t)).
Proof.
  intros T At Dt Ac Ic Hh Hg.
  assert (Hpc : k_cur (tasks s t) <> Some c) by (intros E; apply (tr_cur_act _ T) in E; congruence).
  pose proof (Tree_enter s c t T At Dt Ac Ic Hh Hg) as Te.
  set (s3 := enter_s3 s c t). set (s5 := enter_s5 s c t).
  (* same allocation and groups all along *)
  assert (Ag3 : forall x, alloc_t s x -> alloc_t s3 x /\ k_group (tasks s3 x) = k_group (tasks s x)).
  { intros x A. split.
    - unfold alloc_t, s3, enter_s3. destruct (k_cur (tasks s t)); exact A.
    - unfold s3. rewrite enter_s3_task. destruct (Nat.eqb_spec x t); [subst|]; reflexivity. }
  (* the structural part *)
  assert (P3 : pstep s s3).
  { intros P. assert (Hc0 : s_pending (scopes s c) = 0) by (apply P; apply (tr_host_inact _ T c Ic)).
    assert (En : nscope s3 = nscope s) by (unfold s3, enter_s3; destruct (k_cur (tasks s t)); reflexivity).
    assert (Ep : forall t', pending_of s3 t' = pending_of s t').
    { intros t'. rewrite !pending_of_pend, En.
      pose proof (pend_one (fun x => s_host (scopes s x)) (fun x => s_pending (scopes s x))
                    (fun x => s_host (scopes s3 x)) (fun x => s_pending (scopes s3 x)) (nscope s) t' c Ac) as S1.
      cbv beta in S1. destruct (enter_s3_acct s c t c Hpc) as [E1 E2]. fold s3 in E1, E2.
      rewrite E1, E2, Nat.eqb_refl, Hc0, (tr_host_inact _ T c Ic) in S1. cbn [opt_eqb] in S1.
      assert (pend (fun x => s_host (scopes s3 x)) (fun x => s_pending (scopes s3 x)) (nscope s) t' + 0 =
              pend (fun x => s_host (scopes s x)) (fun x => s_pending (scopes s x)) (nscope s) t' +
              (if Nat.eqb t t' then 0 else 0)); [|destruct (Nat.eqb t t'); lia].
      apply S1. intros x Hx. destruct (enter_s3_acct s c t x Hpc) as [F1 F2]. fold s3 in F1, F2.
      rewrite F1, F2. destruct (Nat.eqb_spec x c); [contradiction|now split]. }
    assert (Ek : forall t', k_ncancel (tasks s3 t') = k_ncancel (tasks s t')).
    { intros t'. unfold s3. rewrite enter_s3_task. destruct (Nat.eqb_spec t' t); [subst|]; reflexivity. }
    split.
    - constructor.
      + intros y Hy. destruct (enter_s3_acct s c t y Hpc) as [F1 F2]. fold s3 in F1, F2. rewrite F1 in Hy. rewrite F2.
        destruct (Nat.eqb_spec y c); [discriminate|now apply P].
      + intros t'. rewrite Ep, Ek. apply P.
    - intros t' _. unfold phi. rewrite Ep, Ek. split; [lia|reflexivity]. }
  (* the deadline check on the half-entered scope *)
  assert (Pk3 : Pok s3).
  { apply (Pok_ext (enter_struct s c t) s3 (Pok_Tree _ Te)).
    - unfold s3, enter_struct, enter_s3. destruct (k_cur (tasks s t)); reflexivity.
    - intros x. unfold enter_struct. fold (enter_s3 s c t). fold s3. cbn. unfold upd.
      destruct (Nat.eqb_spec x c); [subst|]; now repeat split.
    - intros x. unfold enter_struct. fold (enter_s3 s c t). now split. }
  pose proof (P_scope_timeout s3 c Pk3) as P4.
  assert (K4 : treq s3 (scope_timeout s3 c)) by apply treq_scope_timeout.
  assert (P5 : pstep (scope_timeout s3 c) s5).
  { apply pstep_inert. unfold s5, enter_s5. fold s3. apply inert_upd_scope. intros k; reflexivity. }
  assert (K5 : treq (enter_struct s c t) s5) by apply treq_enter_s5.
  assert (P35 : pstep s3 s5).
  { apply (pstep_trans s3 (scope_timeout s3 c)); [exact P4|exact P5|now apply same_alloc_group]. }
  assert (Ag5 : forall x, alloc_t s3 x -> alloc_t s5 x /\ k_group (tasks s5 x) = k_group (tasks s3 x)).
  { intros x A. unfold s5, enter_s5. fold s3. split.
    - unfold alloc_t in *. cbn [ntask upd_scope set_scopes]. now rewrite (tq_ntask _ _ K4).
    - cbn [tasks upd_scope set_scopes]. apply (tq_group _ _ K4). }
  assert (P05 : pstep s s5) by (apply (pstep_trans s s3); assumption).
  rewrite (scope_enter_eq s c t Ic). fold s5.
  destruct (s_cancelled (scopes s5 c)); [|exact P05].
  apply (pstep_trans s s5); [exact P05| |].
  - apply P_deliver_top. apply (Pok_treq (enter_struct s c t)); [now apply Pok_Tree|exact K5].
  - intros x A. destruct (Ag3 x A) as [A3 G3]. destruct (Ag5 x A3) as [A5 G5]. split; [exact A5|congruence].
Qed.

Lemma pending_of_zero s t : (forall x, s_host (scopes s x) <> Some t) -> pending_of s t = 0.
Proof.
  intros Fh. unfold pending_of. induction (seq1 (pred (nscope s))) as [|y l IH]; [reflexivity|].
  cbn [sumf]. rewrite IH. unfold owed. destruct (opt_eqb (s_host (scopes s y)) t) eqn:E; [|reflexivity].
  apply opt_eqb_Some in E. now apply Fh in E.
Qed.

Lemma P_spawn s g sf :
  Tree s -> alloc_g s g -> s_active (scopes s (g_scope (groups s g))) = true ->
  pstep s (fst (spawn_task s g sf)).
Proof.
  intros T Ag Ha. rewrite spawn_task_eq. cbn [fst].
  set (s1 := fst (new_scope s None false)). set (s2 := spawn_struct s g sf). set (tn := ntask s).
  pose proof (Tree_new_scope s None false T) as T1. fold s1 in T1.
  pose proof (Tree_spawn s g sf T Ag Ha) as T2. fold s2 in T2.
  destruct (Tree_fresh_task s1 tn T1 (le_n _)) as [_ Fh].
  assert (Ea : forall y, s_host (scopes s2 y) = s_host (scopes s1 y) /\ s_pending (scopes s2 y) = s_pending (scopes s1 y)).
  { intros y. unfold s2, spawn_struct. cbn. unfold upd.
    destruct (Nat.eqb_spec y (g_scope (groups s g))) as [->|Hy]; now split. }
  assert (Ep : forall t, pending_of s2 t = pending_of s1 t).
  { intros t. unfold pending_of. change (nscope s2) with (nscope s1). apply sumf_ext. intros y _.
    unfold owed. destruct (Ea y) as [E1 E2]. now rewrite E1, E2. }
  assert (Ek : forall t, t <> tn -> tasks s2 t = tasks s1 t).
  { intros t Ht. unfold s2. now rewrite sp_task_other. }
  assert (P12 : pstep s1 s2).
  { intros P. split.
    - constructor.
      + intros y Hy. destruct (Ea y) as [E1 E2]. rewrite E1 in Hy. rewrite E2. now apply P.
      + intros t. rewrite Ep. destruct (Nat.eq_dec t tn) as [->|Hne]; [|rewrite (Ek t Hne); apply P].
        rewrite (pending_of_zero s1 tn Fh). lia.
    - intros t A. assert (t <> tn) by (unfold alloc_t, tn, s1 in *; cbn in A; lia).
      unfold phi. rewrite Ep, (Ek t H). split; [lia|reflexivity]. }
  assert (P02 : pstep s s2).
  { apply (pstep_trans s s1); [now apply P_new_scope|exact P12|]. intros t A. split; [exact A|reflexivity]. }
  set (gs := g_scope (groups s g)).
  assert (P23 : pstep s2 (call_soon (restart s2 (Some gs)) (HStep (ntask s)))).
  { apply (pstep_trans s2 (restart s2 (Some gs))); [apply P_restart; now apply Pok_Tree|apply pstep_inert, inert_call_soon|].
    intros t A. apply same_alloc_group; [apply kframe_treq, kframe_restart|exact A]. }
  apply (pstep_trans s s2); [exact P02|exact P23|].
  intros t A. assert (t <> tn) by (unfold alloc_t, tn in *; lia). split.
  - unfold alloc_t, s2, spawn_struct in *. cbn. lia.
  - rewrite (Ek t H). reflexivity.
Qed.

Lemma P_set_shield s c (b : bool) : Pok s ->
  pstep s (if b then upd_scope s c (sc_shield true)
           else restart (upd_scope s c (sc_shield false)) (s_parent (scopes (upd_scope s c (sc_shield false)) c))).
Proof.
  intros Pk. destruct b; [apply pstep_inert, inert_upd_scope; intros k; reflexivity|].
  set (s1 := upd_scope s c (sc_shield false)).
  assert (K1 : treq s s1) by (apply treq_upd_scope; intros k; reflexivity).
  apply (pstep_trans s s1); [apply pstep_inert, inert_upd_scope; intros k; reflexivity| |now apply same_alloc_group].
  apply P_restart. now apply (Pok_treq s).
Qed.

Lemma P_run_deliver s c : Pok s ->
  pstep s (deliver_top (set_running (set_ready s (remove_first (HDeliver c) (ready s))) None) c).
Proof.
  intros Pk. set (s1 := set_running (set_ready s (remove_first (HDeliver c) (ready s))) None).
  assert (K1 : treq s s1) by (eapply treq_trans; [apply treq_set_ready|apply treq_set_running]).
  apply (pstep_trans s s1); [apply pstep_inert, inert_same; reflexivity| |now apply same_alloc_group].
  apply P_deliver_top. now apply (Pok_treq s).
Qed.

Lemma P_new_root s : Tree s -> pstep s (root_struct s).
Proof.
  intros T P. set (tn := ntask s). destruct (Tree_fresh_task s tn T (le_n _)) as [_ Fh].
  assert (Ep : forall t, pending_of (root_struct s) t = pending_of s t) by (intros t; reflexivity).
  assert (Ek : forall t, t <> tn -> tasks (root_struct s) t = tasks s t).
  { intros t Ht. unfold root_struct. cbn. unfold upd. destruct (Nat.eqb_spec t (ntask s)); [contradiction|reflexivity]. }
  split.
  - constructor; [apply P|]. intros t. rewrite Ep. destruct (Nat.eq_dec t tn) as [->|Hne]; [|rewrite (Ek t Hne); apply P].
    rewrite (pending_of_zero s tn Fh). lia.
  - intros t A. assert (t <> tn) by (unfold alloc_t, tn in *; lia).
    unfold phi. rewrite Ep, (Ek t H). split; [lia|reflexivity].
Qed.

Lemma P_group_new s : Tree s -> pstep s (gnew_struct s).
Proof.
  intros T. apply (pstep_trans s (fst (new_scope s None false))); [now apply P_new_scope| |].
  - apply pstep_inert. apply inert_same; reflexivity.
  - intros t A. split; [exact A|reflexivity].
Qed.

Lemma native_cancel_phi s t : k_done (tasks s t) = None ->
  forall t', phi (task_cancel s t 0) t' = (if Nat.eqb t' t then phi s t' + 1 else phi s t')%Z.
Proof.
  intros Hd t'. unfold phi.
  assert (Ep : pending_of (task_cancel s t 0) t' = pending_of s t').
  { unfold pending_of. rewrite task_cancel_nscope. apply sumf_ext. intros y _. unfold owed.
    now rewrite task_cancel_scopes. }
  rewrite Ep, (task_cancel_ncancel s t 0 t' Hd). destruct (Nat.eqb_spec t' t); [subst|]; lia.
Qed.

Lemma native_cancel_PInv s t : PInv s -> PInv (task_cancel s t 0).
Proof.
  intros P. destruct (k_done (tasks s t)) eqn:Hd.
  { rewrite task_cancel_done_noop; [exact P|congruence]. }
  constructor.
  - intros c. rewrite task_cancel_scopes. apply P.
  - intros t'. pose proof (native_cancel_phi s t Hd t') as H. pose proof (pi_nonneg _ P t') as N.
    unfold phi in H. destruct (Nat.eqb t' t); lia.
Qed.

Lemma uncancel_phi s t :
  forall t', phi (task_uncancel s t) t' =
             (if Nat.eqb t' t && negb (Nat.eqb (k_ncancel (tasks s t)) 0) then phi s t' - 1 else phi s t')%Z.
Proof.
  intros t'. unfold phi.
  assert (Ep : pending_of (task_uncancel s t) t' = pending_of s t') by reflexivity.
  rewrite Ep. unfold task_uncancel. cbn [tasks upd_task set_tasks]. unfold upd.
  destruct (Nat.eqb_spec t' t) as [->|Hne]; cbn [andb]; [|lia].
  cbn [k_ncancel tk_ncancel]. destruct (k_ncancel (tasks s t)) as [|m]; cbn [pred Nat.eqb negb]; lia.
Qed.

(* explicit uncancel() stays within the requests that came from outside *)
Lemma uncancel_PInv s t : PInv s -> pending_of s t < k_ncancel (tasks s t) -> PInv (task_uncancel s t).
Proof.
  intros P G. constructor; [apply P|]. intros t'.
  pose proof (uncancel_phi s t t') as H. pose proof (pi_nonneg _ P t') as N. unfold phi in H.
  destruct (Nat.eq_dec t' t) as [Ett|Hne].
  - subst t'. rewrite Nat.eqb_refl in H. cbn [andb] in H.
    destruct (Nat.eqb_spec (k_ncancel (tasks s t)) 0); cbn [negb] in H; lia.
  - destruct (Nat.eqb_spec t' t); [contradiction|]. cbn [andb] in H. lia.
Qed.

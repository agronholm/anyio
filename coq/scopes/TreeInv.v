(* The structural invariant of the S machine (I1 tree, I2 stack) and its preservation by the structural steps
   (TreeStep walks over the ops of the generated domain): scopes form a forest consistent with parent/children/tasks/host, every task's scopes form
   a stack from its current scope down to its base, group children live below their group's scope. *)
From AV Require Import Base Machine MachineFacts ScopeFrames.

Definition alloc_s (s : st) (c : sid) : Prop := 0 < c /\ c < nscope s.
Definition alloc_t (s : st) (t : tid) : Prop := 0 < t /\ t < ntask s.
Definition alloc_g (s : st) (g : gid) : Prop := 0 < g /\ g < ngroup s.

(* the scope below a task's own stack: the group's scope for a group child, nothing for a root task *)
Definition base (s : st) (t : tid) : option sid :=
  match k_group (tasks s t) with Some g => Some (g_scope (groups s g)) | None => None end.

(* the scopes hosted by t, innermost first, linked by s_parent, ending at the task's base *)
Inductive stack (s : st) (t : tid) : option sid -> list sid -> Prop :=
| stack_nil : stack s t (base s t) []
| stack_cons x l :
    s_host (scopes s x) = Some t -> s_active (scopes s x) = true ->
    stack s t (s_parent (scopes s x)) l -> stack s t (Some x) (x :: l).

Definition notg (s : st) (c : sid) : Prop := forall g, alloc_g s g -> g_scope (groups s g) <> c.

(* tr_rank: a rank that decreases along parent links of active scopes exists, so these links are acyclic and a
   walk along them visits each scope id once; every fuel bound (nscope s) of the machine's walks comes from that.
   tr_stack: the scopes a task hosts are the parent chain from its current scope down to its base. *)
Record Tree (s : st) : Prop := {
  tr_cnt : 0 < nscope s /\ 0 < ntask s /\ 0 < ngroup s;
  tr_act_alloc : forall x, s_active (scopes s x) = true -> alloc_s s x;
  tr_host_act : forall x, s_active (scopes s x) = true ->
                exists t, s_host (scopes s x) = Some t /\ alloc_t s t;
  tr_host_inact : forall x, s_active (scopes s x) = false -> s_host (scopes s x) = None;
  tr_child : forall p x, In x (s_children (scopes s p)) <->
                         s_active (scopes s x) = true /\ s_parent (scopes s x) = Some p;
  tr_task : forall x t, In t (s_tasks (scopes s x)) <-> k_cur (tasks s t) = Some x;
  tr_nd_c : forall p, NoDup (s_children (scopes s p));
  tr_nd_t : forall x, NoDup (s_tasks (scopes s x));
  tr_cur_act : forall t x, k_cur (tasks s t) = Some x -> s_active (scopes s x) = true;
  tr_cur_alloc : forall t x, k_cur (tasks s t) = Some x -> alloc_t s t;
  tr_par_act : forall x p, s_active (scopes s x) = true -> s_parent (scopes s x) = Some p ->
                           s_active (scopes s p) = true;
  tr_rank : exists rk : sid -> nat, forall x p,
              s_active (scopes s x) = true -> s_parent (scopes s x) = Some p -> rk p < rk x;
  tr_stack : forall t, alloc_t s t -> k_tdran (tasks s t) = false ->
             exists l, stack s t (k_cur (tasks s t)) l /\
                       forall x, s_active (scopes s x) = true -> s_host (scopes s x) = Some t -> In x l;
  tr_tdran : forall t, k_tdran (tasks s t) = true ->
             k_cur (tasks s t) = None /\ forall x, s_host (scopes s x) <> Some t;
  tr_gscope : forall g, alloc_g s g -> alloc_s s (g_scope (groups s g));
  tr_gscope_inj : forall g1 g2, alloc_g s g1 -> alloc_g s g2 ->
                  g_scope (groups s g1) = g_scope (groups s g2) -> g1 = g2;
  tr_gblank : forall g, ~ alloc_g s g -> g_scope (groups s g) = 0;
  tr_kgroup : forall t g, alloc_t s t -> k_group (tasks s t) = Some g ->
              alloc_g s g /\ alloc_s s (k_hscope (tasks s t)) /\ notg s (k_hscope (tasks s t));
  tr_hscope_inj : forall t1 t2, alloc_t s t1 -> alloc_t s t2 ->
                  k_group (tasks s t1) <> None -> k_group (tasks s t2) <> None ->
                  k_hscope (tasks s t1) = k_hscope (tasks s t2) -> t1 = t2;
  tr_member : forall t g, alloc_t s t -> k_group (tasks s t) = Some g -> k_tdran (tasks s t) = false ->
              In t (g_tasks (groups s g));
  tr_gact : forall t g, alloc_g s g -> In t (g_tasks (groups s g)) ->
            s_active (scopes s (g_scope (groups s g))) = true;
  tr_ghost : forall t g, alloc_t s t -> k_group (tasks s t) = Some g -> k_tdran (tasks s t) = false ->
             s_host (scopes s (g_scope (groups s g))) <> Some t;
  tr_hpar : forall t g, alloc_t s t -> k_group (tasks s t) = Some g ->
            s_active (scopes s (k_hscope (tasks s t))) = true ->
            s_parent (scopes s (k_hscope (tasks s t))) = Some (g_scope (groups s g)) /\
            s_host (scopes s (k_hscope (tasks s t))) = Some t
}.

Section TreqProj.
  Variables s s' : st.
  Hypothesis H : treq s s'.
  Lemma tq_parent x : s_parent (scopes s' x) = s_parent (scopes s x).
  Proof. pose proof (tq_scopes _ _ H x) as E. unfold sc_tree in E. now inversion E. Qed.
  Lemma tq_children x : s_children (scopes s' x) = s_children (scopes s x).
  Proof. pose proof (tq_scopes _ _ H x) as E. unfold sc_tree in E. now inversion E. Qed.
  Lemma tq_active x : s_active (scopes s' x) = s_active (scopes s x).
  Proof. pose proof (tq_scopes _ _ H x) as E. unfold sc_tree in E. now inversion E. Qed.
  Lemma tq_stasks x : s_tasks (scopes s' x) = s_tasks (scopes s x).
  Proof. pose proof (tq_scopes _ _ H x) as E. unfold sc_tree in E. now inversion E. Qed.
  Lemma tq_host x : s_host (scopes s' x) = s_host (scopes s x).
  Proof. pose proof (tq_scopes _ _ H x) as E. unfold sc_tree in E. now inversion E. Qed.
  Lemma tq_cur t : k_cur (tasks s' t) = k_cur (tasks s t).
  Proof. pose proof (tq_tasks _ _ H t) as E. unfold tk_tree in E. now inversion E. Qed.
  Lemma tq_group t : k_group (tasks s' t) = k_group (tasks s t).
  Proof. pose proof (tq_tasks _ _ H t) as E. unfold tk_tree in E. now inversion E. Qed.
  Lemma tq_hscope t : k_hscope (tasks s' t) = k_hscope (tasks s t).
  Proof. pose proof (tq_tasks _ _ H t) as E. unfold tk_tree in E. now inversion E. Qed.
  Lemma tq_tdran t : k_tdran (tasks s' t) = k_tdran (tasks s t).
  Proof. pose proof (tq_tasks _ _ H t) as E. unfold tk_tree in E. now inversion E. Qed.
  Lemma tq_gscope g : g_scope (groups s' g) = g_scope (groups s g).
  Proof. pose proof (tq_groups _ _ H g) as E. unfold gr_tree in E. now inversion E. Qed.
  Lemma tq_gtasks g : g_tasks (groups s' g) = g_tasks (groups s g).
  Proof. pose proof (tq_groups _ _ H g) as E. unfold gr_tree in E. now inversion E. Qed.
  Lemma tq_alloc_s x : alloc_s s' x <-> alloc_s s x.
  Proof. unfold alloc_s. now rewrite (tq_nscope _ _ H). Qed.
  Lemma tq_alloc_t x : alloc_t s' x <-> alloc_t s x.
  Proof. unfold alloc_t. now rewrite (tq_ntask _ _ H). Qed.
  Lemma tq_alloc_g x : alloc_g s' x <-> alloc_g s x.
  Proof. unfold alloc_g. now rewrite (tq_ngroup _ _ H). Qed.
  Lemma tq_base t : base s' t = base s t.
  Proof. unfold base. rewrite tq_group. destruct (k_group (tasks s t)); [now rewrite tq_gscope|reflexivity]. Qed.
  Lemma tq_notg c : notg s' c <-> notg s c.
  Proof.
    unfold notg. split; intros N g Hg.
    - rewrite <- tq_gscope. apply N. now apply tq_alloc_g.
    - rewrite tq_gscope. apply N. now apply tq_alloc_g.
  Qed.
End TreqProj.

(* stack only looks at host/active/parent of its members and at the base *)
Lemma stack_ext s s' t o l :
  stack s t o l -> base s' t = base s t ->
  (forall x, In x l -> s_host (scopes s' x) = s_host (scopes s x) /\
                       s_active (scopes s' x) = s_active (scopes s x) /\
                       s_parent (scopes s' x) = s_parent (scopes s x)) ->
  stack s' t o l.
Proof.
  intros H Hb. induction H as [|x l Hh Ha Hs IH]; intros Hx.
  - rewrite <- Hb. apply stack_nil.
  - destruct (Hx x (or_introl eq_refl)) as [E1 [E2 E3]].
    apply stack_cons; [now rewrite E1|now rewrite E2|].
    rewrite E3. apply IH. intros y Hy. apply Hx. now right.
Qed.

Lemma stack_members s t o l : stack s t o l ->
  forall x, In x l -> s_host (scopes s x) = Some t /\ s_active (scopes s x) = true.
Proof.
  induction 1 as [|x l Hh Ha Hs IH]; intros y Hy; [destruct Hy|].
  destruct Hy as [<-|Hy]; [now split|now apply IH].
Qed.

Lemma stack_rank s t o l (rk : sid -> nat) :
  (forall x p, s_active (scopes s x) = true -> s_parent (scopes s x) = Some p -> rk p < rk x) ->
  stack s t o l -> forall x, o = Some x -> forall y, In y l -> rk y <= rk x.
Proof.
  intros Hrk H. induction H as [|x l Hh Ha Hs IH]; intros z Hz y Hy; [destruct Hy|].
  inversion Hz; subst z. destruct Hy as [<-|Hy]; [apply le_n|].
  destruct (s_parent (scopes s x)) as [p|] eqn:Ep.
  - specialize (IH p eq_refl y Hy). specialize (Hrk x p Ha Ep). lia.
  - inversion Hs; subst; destruct Hy.
Qed.

Lemma stack_tail_rank s t x l (rk : sid -> nat) :
  (forall x p, s_active (scopes s x) = true -> s_parent (scopes s x) = Some p -> rk p < rk x) ->
  stack s t (Some x) (x :: l) -> s_active (scopes s x) = true -> forall y, In y l -> rk y < rk x.
Proof.
  intros Hrk H Ha y Hy. inversion H as [|x' l' Hh Ha' Hs]; subst.
  destruct (s_parent (scopes s x)) as [p|] eqn:Ep.
  - pose proof (stack_rank s t (Some p) l rk Hrk Hs p eq_refl y Hy). specialize (Hrk x p Ha Ep). lia.
  - inversion Hs; subst; destruct Hy.
Qed.

Lemma Tree_treq s s' : Tree s -> treq s s' -> Tree s'.
Proof.
  intros T H. constructor.
  - rewrite (tq_nscope _ _ H), (tq_ntask _ _ H), (tq_ngroup _ _ H). apply T.
  - intros x. rewrite (tq_active _ _ H), (tq_alloc_s _ _ H). apply T.
  - intros x. rewrite (tq_active _ _ H), (tq_host _ _ H). intros Ha.
    destruct (tr_host_act _ T x Ha) as [t [E A]]. exists t. split; [exact E|now apply (tq_alloc_t _ _ H)].
  - intros x. rewrite (tq_active _ _ H), (tq_host _ _ H). apply T.
  - intros p x. rewrite (tq_children _ _ H), (tq_active _ _ H), (tq_parent _ _ H). apply T.
  - intros x t. rewrite (tq_stasks _ _ H), (tq_cur _ _ H). apply T.
  - intros p. rewrite (tq_children _ _ H). apply T.
  - intros x. rewrite (tq_stasks _ _ H). apply T.
  - intros t x. rewrite (tq_cur _ _ H), (tq_active _ _ H). apply T.
  - intros t x. rewrite (tq_cur _ _ H), (tq_alloc_t _ _ H). apply T.
  - intros x p. rewrite !(tq_active _ _ H), (tq_parent _ _ H). apply T.
  - destruct (tr_rank _ T) as [rk Hrk]. exists rk. intros x p.
    rewrite (tq_active _ _ H), (tq_parent _ _ H). apply Hrk.
  - intros t. rewrite (tq_alloc_t _ _ H), (tq_tdran _ _ H), (tq_cur _ _ H). intros A D.
    destruct (tr_stack _ T t A D) as [l [S C]]. exists l. split.
    + eapply stack_ext; [exact S|apply (tq_base _ _ H)|].
      intros x _. now rewrite (tq_host _ _ H), (tq_active _ _ H), (tq_parent _ _ H).
    + intros x. rewrite (tq_active _ _ H), (tq_host _ _ H). apply C.
  - intros t. rewrite (tq_tdran _ _ H), (tq_cur _ _ H). intros D.
    destruct (tr_tdran _ T t D) as [E N]. split; [exact E|]. intros x. rewrite (tq_host _ _ H). apply N.
  - intros g. rewrite (tq_alloc_g _ _ H), (tq_gscope _ _ H), (tq_alloc_s _ _ H). apply T.
  - intros g1 g2. rewrite !(tq_alloc_g _ _ H), !(tq_gscope _ _ H). apply T.
  - intros g. rewrite (tq_alloc_g _ _ H), (tq_gscope _ _ H). apply T.
  - intros t g. rewrite (tq_alloc_t _ _ H), (tq_group _ _ H), (tq_hscope _ _ H),
      (tq_alloc_g _ _ H), (tq_alloc_s _ _ H), (tq_notg _ _ H). apply T.
  - intros t1 t2. rewrite !(tq_alloc_t _ _ H), !(tq_group _ _ H), !(tq_hscope _ _ H). apply T.
  - intros t g. rewrite (tq_alloc_t _ _ H), (tq_group _ _ H), (tq_tdran _ _ H), (tq_gtasks _ _ H). apply T.
  - intros t g. rewrite (tq_alloc_g _ _ H), (tq_gtasks _ _ H), (tq_gscope _ _ H), (tq_active _ _ H). apply T.
  - intros t g. rewrite (tq_alloc_t _ _ H), (tq_group _ _ H), (tq_tdran _ _ H), (tq_gscope _ _ H),
      (tq_host _ _ H). apply T.
  - intros t g. rewrite (tq_alloc_t _ _ H), (tq_group _ _ H), (tq_hscope _ _ H), (tq_active _ _ H),
      (tq_parent _ _ H), (tq_host _ _ H), (tq_gscope _ _ H). apply T.
Qed.

Section Enter.
  Variables (s : st) (c : sid) (t : tid).
  Hypothesis Hpc : k_cur (tasks s t) <> Some c.

  Lemma es_scope x :
    scopes (enter_struct s c t) x =
    if Nat.eqb x c
    then sc_active true (sc_parent (k_cur (tasks s t))
           (sc_tasks (add t (s_tasks (scopes s c))) (sc_host (Some t) (scopes s c))))
    else if opt_eqb (k_cur (tasks s t)) x
         then sc_tasks (del t (s_tasks (scopes s x))) (sc_children (add c (s_children (scopes s x))) (scopes s x))
         else scopes s x.
  Proof.
    change (enter_struct s c t) with (upd_scope (enter_links s c t) c (sc_active true)).
    cbn [scopes upd_scope set_scopes]. unfold upd. rewrite !(enter_links_scopes s c t _ Hpc), Nat.eqb_refl.
    destruct (Nat.eqb x c); reflexivity.
  Qed.

  Lemma es_task x :
    tasks (enter_struct s c t) x = if Nat.eqb x t then tk_cur (Some c) (tasks s t) else tasks s x.
  Proof. apply enter_links_tasks. Qed.

  Lemma es_misc :
    ntask (enter_struct s c t) = ntask s /\ nscope (enter_struct s c t) = nscope s /\
    ngroup (enter_struct s c t) = ngroup s /\ groups (enter_struct s c t) = groups s.
  Proof. unfold enter_struct. destruct (k_cur (tasks s t)); repeat split; reflexivity. Qed.
End Enter.

Ltac deq a b := destruct (Nat.eqb_spec a b) as [?|?]; [subst|].

Lemma no_members {A} (l : list A) : (forall x, ~ In x l) -> l = [].
Proof. destruct l as [|a l]; [reflexivity|]. intros H. exfalso. apply (H a). now left. Qed.

Section TreeEnter.
  Variables (s : st) (c : sid) (t : tid).
  Hypothesis T : Tree s.
  Hypothesis At : alloc_t s t.
  Hypothesis Dt : k_tdran (tasks s t) = false.
  Hypothesis Ac : alloc_s s c.
  Hypothesis Ic : s_active (scopes s c) = false.
  Hypothesis Hh : forall t' g, alloc_t s t' -> k_group (tasks s t') = Some g -> k_hscope (tasks s t') = c ->
                    t' = t /\ k_cur (tasks s t) = Some (g_scope (groups s g)).
  Hypothesis Hg : forall g, k_group (tasks s t) = Some g -> g_scope (groups s g) <> c.

  Let s' := enter_struct s c t.

  Lemma te_pc : k_cur (tasks s t) <> Some c.
  Proof. intros E. apply (tr_cur_act _ T) in E. congruence. Qed.

  Lemma te_nochild : s_children (scopes s c) = [].
  Proof.
    apply no_members. intros x Hx. apply (tr_child _ T) in Hx. destruct Hx as [Ha Hp].
    pose proof (tr_par_act _ T x c Ha Hp). congruence.
  Qed.

  Lemma te_notask : s_tasks (scopes s c) = [].
  Proof.
    apply no_members. intros x Hx. apply (tr_task _ T) in Hx. apply (tr_cur_act _ T) in Hx. congruence.
  Qed.

  Lemma te_A x : s_active (scopes s' x) = if Nat.eqb x c then true else s_active (scopes s x).
  Proof.
    unfold s'. rewrite (es_scope s c t te_pc). destruct (Nat.eqb x c); [reflexivity|].
    destruct (opt_eqb _ x); reflexivity.
  Qed.
  Lemma te_P x : s_parent (scopes s' x) = if Nat.eqb x c then k_cur (tasks s t) else s_parent (scopes s x).
  Proof.
    unfold s'. rewrite (es_scope s c t te_pc). destruct (Nat.eqb x c); [reflexivity|].
    destruct (opt_eqb _ x); reflexivity.
  Qed.
  Lemma te_H x : s_host (scopes s' x) = if Nat.eqb x c then Some t else s_host (scopes s x).
  Proof.
    unfold s'. rewrite (es_scope s c t te_pc). destruct (Nat.eqb x c); [reflexivity|].
    destruct (opt_eqb _ x); reflexivity.
  Qed.
  Lemma te_C x : s_children (scopes s' x) =
    if Nat.eqb x c then [] else
    if opt_eqb (k_cur (tasks s t)) x then add c (s_children (scopes s x)) else s_children (scopes s x).
  Proof.
    unfold s'. rewrite (es_scope s c t te_pc). destruct (Nat.eqb x c); [apply te_nochild|].
    destruct (opt_eqb _ x); reflexivity.
  Qed.
  Lemma te_T x : s_tasks (scopes s' x) =
    if Nat.eqb x c then [t] else
    if opt_eqb (k_cur (tasks s t)) x then del t (s_tasks (scopes s x)) else s_tasks (scopes s x).
  Proof.
    unfold s'. rewrite (es_scope s c t te_pc). destruct (Nat.eqb x c).
    - cbn. now rewrite te_notask.
    - destruct (opt_eqb _ x); reflexivity.
  Qed.
  Lemma te_cur x : k_cur (tasks s' x) = if Nat.eqb x t then Some c else k_cur (tasks s x).
  Proof. unfold s'. rewrite (es_task s c t). destruct (Nat.eqb x t); reflexivity. Qed.
  Lemma te_group x : k_group (tasks s' x) = k_group (tasks s x).
  Proof. unfold s'. rewrite (es_task s c t). deq x t; reflexivity. Qed.
  Lemma te_hscope x : k_hscope (tasks s' x) = k_hscope (tasks s x).
  Proof. unfold s'. rewrite (es_task s c t). deq x t; reflexivity. Qed.
  Lemma te_tdran x : k_tdran (tasks s' x) = k_tdran (tasks s x).
  Proof. unfold s'. rewrite (es_task s c t). deq x t; reflexivity. Qed.
  Lemma te_groups : groups s' = groups s. Proof. apply (es_misc s c t te_pc). Qed.
  Lemma te_alloc_s x : alloc_s s' x <-> alloc_s s x.
  Proof. unfold alloc_s, s'. destruct (es_misc s c t te_pc) as [_ [E _]]. now rewrite E. Qed.
  Lemma te_alloc_t x : alloc_t s' x <-> alloc_t s x.
  Proof. unfold alloc_t, s'. destruct (es_misc s c t te_pc) as [E _]. now rewrite E. Qed.
  Lemma te_alloc_g x : alloc_g s' x <-> alloc_g s x.
  Proof. unfold alloc_g, s'. destruct (es_misc s c t te_pc) as [_ [_ [E _]]]. now rewrite E. Qed.
  Lemma te_base x : base s' x = base s x.
  Proof. unfold base. now rewrite te_group, te_groups. Qed.
  Lemma te_notg x : notg s' x <-> notg s x.
  Proof.
    unfold notg. rewrite te_groups. split; intros N g Hg'; apply N; now apply te_alloc_g.
  Qed.

  Lemma Tree_enter : Tree s'.
  Proof.
    pose proof te_pc as Hpc.
    constructor.
    - unfold s'. destruct (es_misc s c t te_pc) as [E1 [E2 [E3 _]]]. rewrite E1, E2, E3. apply T.
    - intros x. rewrite te_A, te_alloc_s. deq x c; [intros _; exact Ac|apply T].
    - intros x. rewrite te_A, te_H. deq x c.
      + intros _. exists t. split; [reflexivity|now apply te_alloc_t].
      + intros Ha. destruct (tr_host_act _ T x Ha) as [t' [E A]]. exists t'. split; [exact E|now apply te_alloc_t].
    - intros x. rewrite te_A, te_H. deq x c; [discriminate|apply T].
    - intros p x. rewrite te_C, te_A, te_P. deq p c.
      + split; [intros []|]. deq x c; intros [Ha Hp]; [contradiction|].
        pose proof (tr_par_act _ T x c Ha Hp). congruence.
      + destruct (opt_eqb (k_cur (tasks s t)) p) eqn:Ep.
        * apply opt_eqb_Some in Ep. rewrite in_add. deq x c.
          -- split; [intros _; now split|intros _; now right].
          -- rewrite (tr_child _ T p x). split; [intros [H|H]; [exact H|contradiction]|intros H; now left].
        * apply opt_eqb_false in Ep. deq x c.
          -- split.
             ++ intros Hx. apply (tr_child _ T) in Hx. destruct Hx as [Ha _]. congruence.
             ++ intros [_ Hp]. contradiction.
          -- apply T.
    - intros x t'. rewrite te_T, te_cur. deq x c.
      + deq t' t.
        * split; [reflexivity|intros _; now left].
        * split; [intros [H|[]]; congruence|].
          intros E. apply (tr_cur_act _ T) in E. congruence.
      + destruct (opt_eqb (k_cur (tasks s t)) x) eqn:Ep.
        * apply opt_eqb_Some in Ep. rewrite in_del. deq t' t.
          -- split; [intros [_ H]; contradiction|intros [= E]; congruence].
          -- rewrite (tr_task _ T x t'). split; [intros [H _]; exact H|intros H; now split].
        * apply opt_eqb_false in Ep. deq t' t.
          -- rewrite (tr_task _ T x t). split; [contradiction|intros [= E]; congruence].
          -- apply T.
    - intros p. rewrite te_C. deq p c; [constructor|].
      destruct (opt_eqb _ p); [apply nodup_add|]; apply T.
    - intros x. rewrite te_T. deq x c; [constructor; [intros []|constructor]|].
      destruct (opt_eqb _ x); [apply nodup_del|]; apply T.
    - intros t' x. rewrite te_cur, te_A. deq t' t.
      + intros [= <-]. now rewrite Nat.eqb_refl.
      + intros E. deq x c; [reflexivity|now apply (tr_cur_act _ T t')].
    - intros t' x. rewrite te_cur, te_alloc_t. deq t' t; [intros _; exact At|apply T].
    - intros x p. rewrite !te_A, te_P. deq x c.
      + intros _ E. apply (tr_cur_act _ T) in E. deq p c; [reflexivity|exact E].
      + intros Ha Hp. pose proof (tr_par_act _ T x p Ha Hp). deq p c; [reflexivity|assumption].
    - destruct (tr_rank _ T) as [rk Hrk].
      exists (upd rk c (S (match k_cur (tasks s t) with Some p => rk p | None => 0 end))).
      intros x p. rewrite te_A, te_P. unfold upd. deq x c.
      + intros _ E. rewrite E. deq p c; [congruence|]. lia.
      + intros Ha Hp. deq p c.
        * pose proof (tr_par_act _ T x c Ha Hp). congruence.
        * now apply Hrk.
    - intros t'. rewrite te_alloc_t, te_tdran, te_cur. intros A D.
      destruct (tr_stack _ T t' A D) as [l [S C]].
      assert (Hl : forall x, In x l ->
                   s_host (scopes s' x) = s_host (scopes s x) /\
                   s_active (scopes s' x) = s_active (scopes s x) /\
                   s_parent (scopes s' x) = s_parent (scopes s x)).
      { intros x Hx. destruct (stack_members _ _ _ _ S x Hx) as [_ Ha].
        rewrite te_H, te_A, te_P. deq x c; [congruence|now repeat split]. }
      deq t' t.
      + exists (c :: l). split.
        * apply stack_cons; [rewrite te_H; now rewrite Nat.eqb_refl|rewrite te_A; now rewrite Nat.eqb_refl|].
          rewrite te_P, Nat.eqb_refl. eapply stack_ext; [exact S|apply te_base|exact Hl].
        * intros x. rewrite te_A, te_H. deq x c; [intros _ _; now left|]. intros Ha Hh'. right. now apply C.
      + exists l. split.
        * eapply stack_ext; [exact S|apply te_base|exact Hl].
        * intros x. rewrite te_A, te_H. deq x c; [intros _ [= E]; congruence|apply C].
    - intros t'. rewrite te_tdran, te_cur. intros D.
      destruct (tr_tdran _ T t' D) as [E N]. deq t' t; [congruence|].
      split; [exact E|]. intros x. rewrite te_H. deq x c; [intros [= E']; congruence|apply N].
    - intros g. rewrite te_alloc_g, te_groups, te_alloc_s. apply T.
    - intros g1 g2. rewrite !te_alloc_g, te_groups. apply T.
    - intros g. rewrite te_alloc_g, te_groups. apply T.
    - intros t' g. rewrite te_alloc_t, te_group, te_hscope, te_alloc_g, te_alloc_s, te_notg. apply T.
    - intros t1 t2. rewrite !te_alloc_t, !te_group, !te_hscope. apply T.
    - intros t' g. rewrite te_alloc_t, te_group, te_tdran, te_groups. apply T.
    - intros t' g. rewrite te_alloc_g, te_groups, te_A. intros A Hin.
      deq (g_scope (groups s g)) c; [reflexivity|now apply (tr_gact _ T t' g)].
    - intros t' g. rewrite te_alloc_t, te_group, te_tdran, te_groups, te_H. intros A G D.
      deq (g_scope (groups s g)) c.
      + intros [= E]. subst t'. now apply (Hg g).
      + now apply (tr_ghost _ T t' g).
    - intros t' g. rewrite te_alloc_t, te_group, te_hscope, te_groups, te_A, te_P, te_H. intros A G.
      deq (k_hscope (tasks s t')) c.
      + intros _. destruct (Hh t' g A G eq_refl) as [-> E]. now split.
      + now apply (tr_hpar _ T t' g).
  Qed.
End TreeEnter.

Definition xstate (s : st) (c : sid) (t : tid) : st := upd_scope (exit_struct s c t) c (sc_host None).

Section Exit.
  Variables (s : st) (c : sid) (t : tid).
  Hypothesis Hpc : s_parent (scopes s c) <> Some c.

  Lemma xs_tree x :
    sc_tree (scopes (xstate s c t) x) =
    if Nat.eqb x c
    then (s_parent (scopes s c), s_children (scopes s c), false, del t (s_tasks (scopes s c)), None)
    else if opt_eqb (s_parent (scopes s c)) x
         then (s_parent (scopes s x), del c (s_children (scopes s x)), s_active (scopes s x),
               add t (s_tasks (scopes s x)), s_host (scopes s x))
         else sc_tree (scopes s x).
  Proof.
    change (xstate s c t) with (upd_scope (exit_links s c t) c (sc_host None)).
    cbn [scopes upd_scope set_scopes]. unfold upd. rewrite !(exit_links_scopes s c t _ Hpc), Nat.eqb_refl.
    destruct (Nat.eqb x c); [reflexivity|]. destruct (opt_eqb (s_parent (scopes s c)) x); reflexivity.
  Qed.

  Lemma xs_task x :
    tasks (xstate s c t) x = if Nat.eqb x t then tk_cur (s_parent (scopes s c)) (tasks s t) else tasks s x.
  Proof. apply exit_links_tasks. Qed.

  Lemma xs_misc :
    ntask (xstate s c t) = ntask s /\ nscope (xstate s c t) = nscope s /\
    ngroup (xstate s c t) = ngroup s /\ groups (xstate s c t) = groups s.
  Proof.
    unfold xstate, exit_struct.
    destruct (s_parent (scopes s c)); cbn; unfold cancel_timeout; destruct (s_timeout _); repeat split; reflexivity.
  Qed.
End Exit.

Section TreeExit.
  Variables (s : st) (c : sid) (t : tid).
  Hypothesis T : Tree s.
  Hypothesis Hok : exit_ok s c t.
  Hypothesis NC : forall x, ~ In x (s_children (scopes s c)).
  Hypothesis NT : forall t', In t' (s_tasks (scopes s c)) -> t' = t.
  Hypothesis NG : forall g, alloc_g s g -> g_scope (groups s g) = c -> g_tasks (groups s g) = [].

  Let s' := xstate s c t.

  Lemma tx_pc : s_parent (scopes s c) <> Some c.
  Proof.
    destruct Hok as [Ha _]. destruct (tr_rank _ T) as [rk Hrk]. intros E.
    specialize (Hrk c c Ha E). lia.
  Qed.

  Lemma tx_A x : s_active (scopes s' x) = if Nat.eqb x c then false else s_active (scopes s x).
  Proof.
    change (s_active (scopes s' x)) with (snd (fst (fst (sc_tree (scopes s' x))))).
    unfold s'. rewrite (xs_tree s c t tx_pc x).
    destruct (Nat.eqb x c); [reflexivity|]. destruct (opt_eqb _ x); reflexivity.
  Qed.
  Lemma tx_P x : s_parent (scopes s' x) = s_parent (scopes s x).
  Proof.
    change (s_parent (scopes s' x)) with (fst (fst (fst (fst (sc_tree (scopes s' x)))))).
    unfold s'. rewrite (xs_tree s c t tx_pc x).
    deq x c; [reflexivity|]. destruct (opt_eqb _ x); reflexivity.
  Qed.
  Lemma tx_H x : s_host (scopes s' x) = if Nat.eqb x c then None else s_host (scopes s x).
  Proof.
    change (s_host (scopes s' x)) with (snd (sc_tree (scopes s' x))).
    unfold s'. rewrite (xs_tree s c t tx_pc x).
    destruct (Nat.eqb x c); [reflexivity|]. destruct (opt_eqb _ x); reflexivity.
  Qed.
  Lemma tx_C x : s_children (scopes s' x) =
    if Nat.eqb x c then s_children (scopes s c) else
    if opt_eqb (s_parent (scopes s c)) x then del c (s_children (scopes s x)) else s_children (scopes s x).
  Proof.
    change (s_children (scopes s' x)) with (snd (fst (fst (fst (sc_tree (scopes s' x)))))).
    unfold s'. rewrite (xs_tree s c t tx_pc x).
    destruct (Nat.eqb x c); [reflexivity|]. destruct (opt_eqb _ x); reflexivity.
  Qed.
  Lemma tx_T x : s_tasks (scopes s' x) =
    if Nat.eqb x c then del t (s_tasks (scopes s c)) else
    if opt_eqb (s_parent (scopes s c)) x then add t (s_tasks (scopes s x)) else s_tasks (scopes s x).
  Proof.
    change (s_tasks (scopes s' x)) with (snd (fst (sc_tree (scopes s' x)))).
    unfold s'. rewrite (xs_tree s c t tx_pc x).
    destruct (Nat.eqb x c); [reflexivity|]. destruct (opt_eqb _ x); reflexivity.
  Qed.
  Lemma tx_cur x : k_cur (tasks s' x) = if Nat.eqb x t then s_parent (scopes s c) else k_cur (tasks s x).
  Proof. unfold s'. rewrite (xs_task s c t). destruct (Nat.eqb x t); reflexivity. Qed.
  Lemma tx_group x : k_group (tasks s' x) = k_group (tasks s x).
  Proof. unfold s'. rewrite (xs_task s c t). deq x t; reflexivity. Qed.
  Lemma tx_hscope x : k_hscope (tasks s' x) = k_hscope (tasks s x).
  Proof. unfold s'. rewrite (xs_task s c t). deq x t; reflexivity. Qed.
  Lemma tx_tdran x : k_tdran (tasks s' x) = k_tdran (tasks s x).
  Proof. unfold s'. rewrite (xs_task s c t). deq x t; reflexivity. Qed.
  Lemma tx_groups : groups s' = groups s. Proof. apply (xs_misc s c t tx_pc). Qed.
  Lemma tx_alloc_s x : alloc_s s' x <-> alloc_s s x.
  Proof. unfold alloc_s, s'. destruct (xs_misc s c t tx_pc) as [_ [E _]]. now rewrite E. Qed.
  Lemma tx_alloc_t x : alloc_t s' x <-> alloc_t s x.
  Proof. unfold alloc_t, s'. destruct (xs_misc s c t tx_pc) as [E _]. now rewrite E. Qed.
  Lemma tx_alloc_g x : alloc_g s' x <-> alloc_g s x.
  Proof. unfold alloc_g, s'. destruct (xs_misc s c t tx_pc) as [_ [_ [E _]]]. now rewrite E. Qed.
  Lemma tx_base x : base s' x = base s x.
  Proof. unfold base. now rewrite tx_group, tx_groups. Qed.
  Lemma tx_notg x : notg s' x <-> notg s x.
  Proof. unfold notg. rewrite tx_groups. split; intros N g Hg'; apply N; now apply tx_alloc_g. Qed.

  Lemma Tree_exit : Tree s'.
  Proof.
    pose proof tx_pc as Hpc. destruct Hok as [Ha [Hh Hc]].
    assert (At : alloc_t s t) by (eapply tr_cur_alloc; eauto).
    assert (Dt : k_tdran (tasks s t) = false).
    { destruct (k_tdran (tasks s t)) eqn:D; [|reflexivity]. apply (tr_tdran _ T) in D. destruct D as [D _]. congruence. }
    constructor.
    - unfold s'. destruct (xs_misc s c t tx_pc) as [E1 [E2 [E3 _]]]. rewrite E1, E2, E3. apply T.
    - intros x. rewrite tx_A, tx_alloc_s. deq x c; [discriminate|apply T].
    - intros x. rewrite tx_A, tx_H. deq x c; [discriminate|].
      intros Hx. destruct (tr_host_act _ T x Hx) as [t' [E A]]. exists t'. split; [exact E|now apply tx_alloc_t].
    - intros x. rewrite tx_A, tx_H. deq x c; [reflexivity|apply T].
    - intros p x. rewrite tx_C, tx_A, tx_P. deq p c.
      + split; [intros Hx; now apply NC in Hx|]. deq x c; intros [Hx Hp]; [discriminate|].
        exfalso. apply (NC x). apply (tr_child _ T). now split.
      + destruct (opt_eqb (s_parent (scopes s c)) p) eqn:Ep.
        * apply opt_eqb_Some in Ep. rewrite in_del. deq x c.
          -- split; [intros [_ H]; contradiction|intros [H _]; discriminate].
          -- rewrite (tr_child _ T p x). split; [intros [H _]; exact H|intros H; now split].
        * apply opt_eqb_false in Ep. deq x c.
          -- split; [|intros [H _]; discriminate].
             intros Hx. apply (tr_child _ T) in Hx. destruct Hx as [_ Hx]. contradiction.
          -- apply T.
    - intros x t'. rewrite tx_T, tx_cur. deq x c.
      + rewrite in_del. deq t' t.
        * split; [intros [_ H]; contradiction|intros E; contradiction].
        * rewrite (tr_task _ T c t'). split; [intros [H _]; exact H|intros H; now split].
      + destruct (opt_eqb (s_parent (scopes s c)) x) eqn:Ep.
        * apply opt_eqb_Some in Ep. rewrite in_add. deq t' t.
          -- split; [intros _; exact Ep|intros _; now right].
          -- rewrite (tr_task _ T x t'). split; [intros [H|H]; [exact H|contradiction]|intros H; now left].
        * apply opt_eqb_false in Ep. deq t' t.
          -- rewrite (tr_task _ T x t). split; [intros E; congruence|intros E; contradiction].
          -- apply T.
    - intros p. rewrite tx_C. deq p c; [apply T|]. destruct (opt_eqb _ p); [apply nodup_del|]; apply T.
    - intros x. rewrite tx_T. deq x c; [apply nodup_del, T|]. destruct (opt_eqb _ x); [apply nodup_add|]; apply T.
    - intros t' x. rewrite tx_cur, tx_A. deq t' t.
      + intros E. pose proof (tr_par_act _ T c x Ha E). deq x c; [contradiction|assumption].
      + intros E. deq x c.
        * exfalso. apply n. apply NT. now apply (tr_task _ T).
        * now apply (tr_cur_act _ T t').
    - intros t' x. rewrite tx_cur, tx_alloc_t. deq t' t; [intros _; exact At|apply T].
    - intros x p. rewrite !tx_A, tx_P. deq x c; [discriminate|]. intros Hx Hp.
      deq p c.
      + exfalso. apply (NC x). apply (tr_child _ T). now split.
      + now apply (tr_par_act _ T x p).
    - destruct (tr_rank _ T) as [rk Hrk]. exists rk. intros x p. rewrite tx_A, tx_P.
      deq x c; [discriminate|apply Hrk].
    - intros t'. rewrite tx_alloc_t, tx_tdran, tx_cur. intros A D.
      destruct (tr_stack _ T t' A D) as [l [S C]].
      deq t' t.
      + rewrite Hc in S. inversion S as [E0|x l' Hh' Ha' S' E1]; subst.
        * exfalso. apply (C c Ha Hh).
        * destruct (tr_rank _ T) as [rk Hrk].
          assert (Hl : forall x, In x l' -> x <> c).
          { intros x Hx ->. pose proof (stack_tail_rank s t c l' rk Hrk S Ha c Hx). lia. }
          exists l'. split.
          -- eapply stack_ext; [exact S'|apply tx_base|].
             intros x Hx. specialize (Hl x Hx). rewrite tx_H, tx_A, tx_P. deq x c; [contradiction|now repeat split].
          -- intros x. rewrite tx_A, tx_H. deq x c; [discriminate|]. intros Hx Hhx.
             destruct (C x Hx Hhx) as [E|Hin]; [congruence|exact Hin].
      + assert (Hl : forall x, In x l -> x <> c).
        { intros x Hx ->. destruct (stack_members _ _ _ _ S c Hx) as [E _]. congruence. }
        exists l. split.
        * eapply stack_ext; [exact S|apply tx_base|].
          intros x Hx. specialize (Hl x Hx). rewrite tx_H, tx_A, tx_P. deq x c; [contradiction|now repeat split].
        * intros x. rewrite tx_A, tx_H. deq x c; [discriminate|apply C].
    - intros t'. rewrite tx_tdran, tx_cur. intros D. destruct (tr_tdran _ T t' D) as [E N].
      deq t' t; [congruence|]. split; [exact E|]. intros x. rewrite tx_H. deq x c; [discriminate|apply N].
    - intros g. rewrite tx_alloc_g, tx_groups, tx_alloc_s. apply T.
    - intros g1 g2. rewrite !tx_alloc_g, tx_groups. apply T.
    - intros g. rewrite tx_alloc_g, tx_groups. apply T.
    - intros t' g. rewrite tx_alloc_t, tx_group, tx_hscope, tx_alloc_g, tx_alloc_s, tx_notg. apply T.
    - intros t1 t2. rewrite !tx_alloc_t, !tx_group, !tx_hscope. apply T.
    - intros t' g. rewrite tx_alloc_t, tx_group, tx_tdran, tx_groups. apply T.
    - intros t' g. rewrite tx_alloc_g, tx_groups, tx_A. intros A Hin.
      deq (g_scope (groups s g)) c.
      + rewrite (NG g A eq_refl) in Hin. destruct Hin.
      + now apply (tr_gact _ T t' g).
    - intros t' g. rewrite tx_alloc_t, tx_group, tx_tdran, tx_groups, tx_H. intros A G D.
      deq (g_scope (groups s g)) c; [discriminate|now apply (tr_ghost _ T t' g)].
    - intros t' g. rewrite tx_alloc_t, tx_group, tx_hscope, tx_groups, tx_A, tx_P, tx_H. intros A G.
      deq (k_hscope (tasks s t')) c; [discriminate|now apply (tr_hpar _ T t' g)].
  Qed.
End TreeExit.

Section TreeNewScope.
  Variables (s : st) (d : option Z) (sh : bool).
  Hypothesis T : Tree s.
  Let s' := fst (new_scope s d sh).

  Lemma tn_inactive : s_active (scopes s (nscope s)) = false.
  Proof.
    destruct (s_active (scopes s (nscope s))) eqn:E; [|reflexivity].
    apply (tr_act_alloc _ T) in E. destruct E as [_ E]. lia.
  Qed.
  Lemma tn_nochild : s_children (scopes s (nscope s)) = [].
  Proof.
    apply no_members. intros x Hx. apply (tr_child _ T) in Hx. destruct Hx as [Ha Hp].
    pose proof (tr_par_act _ T x (nscope s) Ha Hp). pose proof tn_inactive. congruence.
  Qed.
  Lemma tn_notask : s_tasks (scopes s (nscope s)) = [].
  Proof.
    apply no_members. intros x Hx. apply (tr_task _ T) in Hx. apply (tr_cur_act _ T) in Hx.
    pose proof tn_inactive. congruence.
  Qed.
  Lemma tn_A x : s_active (scopes s' x) = s_active (scopes s x).
  Proof. unfold s'. cbn. unfold upd. deq x (nscope s); [now rewrite tn_inactive|reflexivity]. Qed.
  Lemma tn_H x : s_host (scopes s' x) = s_host (scopes s x).
  Proof.
    unfold s'. cbn. unfold upd. deq x (nscope s); [|reflexivity].
    now rewrite (tr_host_inact _ T _ tn_inactive).
  Qed.
  Lemma tn_C x : s_children (scopes s' x) = s_children (scopes s x).
  Proof. unfold s'. cbn. unfold upd. deq x (nscope s); [now rewrite tn_nochild|reflexivity]. Qed.
  Lemma tn_T x : s_tasks (scopes s' x) = s_tasks (scopes s x).
  Proof. unfold s'. cbn. unfold upd. deq x (nscope s); [now rewrite tn_notask|reflexivity]. Qed.
  Lemma tn_P x : s_active (scopes s x) = true -> s_parent (scopes s' x) = s_parent (scopes s x).
  Proof.
    intros Ha. unfold s'. cbn. unfold upd. deq x (nscope s); [|reflexivity].
    pose proof tn_inactive. congruence.
  Qed.
  Lemma tn_alloc_s x : alloc_s s x -> alloc_s s' x.
  Proof. unfold alloc_s, s'. cbn. lia. Qed.

  Lemma Tree_new_scope : Tree s'.
  Proof.
    constructor.
    - unfold s'. cbn. destruct (tr_cnt _ T) as [A [B C]]. repeat split; try assumption. lia.
    - intros x. rewrite tn_A. intros Ha. now apply tn_alloc_s, T.
    - intros x. rewrite tn_A, tn_H. apply T.
    - intros x. rewrite tn_A, tn_H. apply T.
    - intros p x. rewrite tn_C, tn_A. rewrite (tr_child _ T p x). split; intros [Ha Hp]; (split; [exact Ha|]).
      + now rewrite tn_P.
      + now rewrite tn_P in Hp.
    - intros x t. rewrite tn_T. apply T.
    - intros p. rewrite tn_C. apply T.
    - intros x. rewrite tn_T. apply T.
    - intros t x. rewrite tn_A. apply T.
    - intros t x. apply T.
    - intros x p. rewrite !tn_A. intros Ha. rewrite (tn_P x Ha). now apply T.
    - destruct (tr_rank _ T) as [rk Hrk]. exists rk. intros x p. rewrite tn_A. intros Ha.
      rewrite (tn_P x Ha). now apply Hrk.
    - intros t A D. destruct (tr_stack _ T t A D) as [l [S C]]. exists l. split.
      + eapply stack_ext; [exact S|reflexivity|]. intros x Hx.
        destruct (stack_members _ _ _ _ S x Hx) as [_ Ha]. now rewrite tn_H, tn_A, (tn_P x Ha).
      + intros x. rewrite tn_A, tn_H. apply C.
    - intros t D. destruct (tr_tdran _ T t D) as [E N]. split; [exact E|]. intros x. rewrite tn_H. apply N.
    - intros g A. apply tn_alloc_s. exact (tr_gscope _ T g A).
    - exact (tr_gscope_inj _ T).
    - exact (tr_gblank _ T).
    - intros t g A G. destruct (tr_kgroup _ T t g A G) as [A1 [A2 A3]]. split; [exact A1|]. split; [|exact A3].
      now apply tn_alloc_s.
    - apply T.
    - apply T.
    - intros t g A Hin. rewrite tn_A. now apply (tr_gact _ T t g).
    - intros t g A G D. rewrite tn_H. now apply (tr_ghost _ T t g).
    - intros t g A G. rewrite tn_A, tn_H. intros Ha. rewrite (tn_P _ Ha). now apply (tr_hpar _ T t g).
  Qed.
End TreeNewScope.

Definition root_struct (s : st) : st :=
  mkSt (upd (tasks s) (ntask s)
            (mkTask CIdle true None None false 0 0 None None None 0 0 None None None None false))
       (S (ntask s)) (scopes s) (nscope s) (groups s) (ngroup s) (futs s) (nfut s)
       (events s) (nevent s) (ready s) (timers s) (ntimer s) (now s) (running s).

Lemma alloc_t_root s x : alloc_t (root_struct s) x <-> alloc_t s x \/ (x = ntask s /\ 0 < x).
Proof. unfold alloc_t. cbn. lia. Qed.

Lemma Tree_fresh_task s t : Tree s -> ntask s <= t ->
  k_cur (tasks s t) = None /\ (forall x, s_host (scopes s x) <> Some t).
Proof.
  intros T Ht. split.
  - destruct (k_cur (tasks s t)) eqn:E; [|reflexivity]. apply (tr_cur_alloc _ T) in E. unfold alloc_t in E. lia.
  - intros x Hx. destruct (s_active (scopes s x)) eqn:Ea.
    + destruct (tr_host_act _ T x Ea) as [t' [E A]]. unfold alloc_t in A. rewrite Hx in E. inversion E. lia.
    + rewrite (tr_host_inact _ T x Ea) in Hx. discriminate.
Qed.

Lemma Tree_new_root s : Tree s -> Tree (root_struct s).
Proof.
  intros T. set (t := ntask s). set (s' := root_struct s).
  destruct (Tree_fresh_task s t T (le_n _)) as [Fc Fh].
  assert (Ecur : forall x, k_cur (tasks s' x) = k_cur (tasks s x)).
  { intros x. unfold s', root_struct. cbn. unfold upd. deq x (ntask s); [symmetry; exact Fc|reflexivity]. }
  assert (Eg : forall x, x <> t -> tasks s' x = tasks s x).
  { intros x Hx. unfold s', root_struct. cbn. unfold upd. deq x (ntask s); [contradiction|reflexivity]. }
  assert (Et : tasks s' t = mkTask CIdle true None None false 0 0 None None None 0 0 None None None None false).
  { unfold s', root_struct. cbn. unfold upd. now rewrite Nat.eqb_refl. }
  assert (Al : forall x, alloc_t s x -> alloc_t s' x) by (intros x; unfold alloc_t; cbn; lia).
  assert (Pos : 0 < t) by apply T.
  constructor; try (exact (tr_act_alloc _ T)); try (exact (tr_host_inact _ T)); try (exact (tr_child _ T));
    try (exact (tr_nd_c _ T)); try (exact (tr_nd_t _ T)); try (exact (tr_par_act _ T)); try (exact (tr_rank _ T));
    try (exact (tr_gscope _ T)); try (exact (tr_gscope_inj _ T)); try (exact (tr_gblank _ T)).
  - cbn. destruct (tr_cnt _ T) as [A [B C]]. repeat split; try assumption. lia.
  - intros x Ha. destruct (tr_host_act _ T x Ha) as [t' [E A]]. exists t'. split; [exact E|now apply Al].
  - intros x t'. rewrite Ecur. apply T.
  - intros t' x. rewrite Ecur. apply T.
  - intros t' x. rewrite Ecur. intros E. apply Al. now apply (tr_cur_alloc _ T t' x).
  - intros t' A D. rewrite Ecur. apply alloc_t_root in A. destruct A as [A|[-> _]].
    + assert (t' <> t) by (unfold alloc_t, t in *; lia).
      rewrite (Eg t' H) in D. destruct (tr_stack _ T t' A D) as [l [S C]]. exists l. split; [|exact C].
      eapply stack_ext; [exact S| |intros; now repeat split].
      unfold base. now rewrite (Eg t' H).
    + fold t. rewrite Fc. exists []. split.
      * replace (@None sid) with (base s' t) by (unfold base; now rewrite Et). apply stack_nil.
      * intros x _ Hx. now apply Fh in Hx.
  - intros t' D. rewrite Ecur. deq t' t; [rewrite Et in D; discriminate|].
    rewrite (Eg t' n) in D. now apply (tr_tdran _ T).
  - intros t' g A G. apply alloc_t_root in A. destruct A as [A|[-> _]].
    + assert (t' <> t) by (unfold alloc_t, t in *; lia). rewrite (Eg t' H) in *. now apply (tr_kgroup _ T).
    + fold t in G. rewrite Et in G. discriminate.
  - intros t1 t2 A1 A2 G1 G2. apply alloc_t_root in A1, A2.
    destruct A1 as [A1|[-> _]]; [|fold t in G1; rewrite Et in G1; now elim G1].
    destruct A2 as [A2|[-> _]]; [|fold t in G2; rewrite Et in G2; now elim G2].
    assert (t1 <> t) by (unfold alloc_t, t in *; lia). assert (t2 <> t) by (unfold alloc_t, t in *; lia).
    rewrite (Eg t1 H), (Eg t2 H0) in *. now apply (tr_hscope_inj _ T).
  - intros t' g A G D. apply alloc_t_root in A. destruct A as [A|[-> _]].
    + assert (t' <> t) by (unfold alloc_t, t in *; lia). rewrite (Eg t' H) in *. now apply (tr_member _ T).
    + fold t in G. rewrite Et in G. discriminate.
  - exact (tr_gact _ T).
  - intros t' g A G D. apply alloc_t_root in A. destruct A as [A|[-> _]].
    + assert (t' <> t) by (unfold alloc_t, t in *; lia). rewrite (Eg t' H) in *. now apply (tr_ghost _ T).
    + fold t in G. rewrite Et in G. discriminate.
  - intros t' g A G. apply alloc_t_root in A. destruct A as [A|[-> _]].
    + assert (t' <> t) by (unfold alloc_t, t in *; lia). rewrite (Eg t' H) in *. now apply (tr_hpar _ T).
    + fold t in G. rewrite Et in G. discriminate.
Qed.

Definition gnew_struct (s : st) : st :=
  let s1 := fst (new_scope s None false) in
  mkSt (tasks s1) (ntask s1) (scopes s1) (nscope s1)
       (upd (groups s1) (ngroup s1) (mkGroup (nscope s) false [] [] None [] false)) (S (ngroup s1))
       (futs s1) (nfut s1) (events s1) (nevent s1) (ready s1) (timers s1) (ntimer s1) (now s1) (running s1).

Lemma Tree_group_new s : Tree s -> Tree (gnew_struct s).
Proof.
  intros T. pose proof (Tree_new_scope s None false T) as T1.
  set (s1 := fst (new_scope s None false)) in *. set (g := ngroup s). set (s' := gnew_struct s).
  assert (Eg : forall x, x <> g -> groups s' x = groups s1 x).
  { intros x Hx. unfold s', gnew_struct. cbn. unfold upd. deq x (ngroup s); [contradiction|reflexivity]. }
  assert (Egg : groups s' g = mkGroup (nscope s) false [] [] None [] false).
  { unfold s', gnew_struct. cbn. unfold upd. now rewrite Nat.eqb_refl. }
  assert (Al : forall x : nat, alloc_g s' x <-> alloc_g s1 x \/ x = g).
  { intros x. unfold alloc_g, s', gnew_struct, g, s1. cbn. destruct (tr_cnt _ T) as [_ [_ C]]. lia. }
  assert (Old : forall x, alloc_g s1 x -> x <> g) by (intros x; unfold alloc_g, g, s1; cbn; lia).
  assert (Gs : forall x, alloc_g s1 x -> g_scope (groups s1 x) < nscope s).
  { intros x A. apply (tr_gscope _ T x A). }
  assert (Hs : forall t g', alloc_t s1 t -> k_group (tasks s1 t) = Some g' -> k_hscope (tasks s1 t) < nscope s).
  { intros t g' A G. destruct (tr_kgroup _ T t g' A G) as [_ [[_ A2] _]]. exact A2. }
  assert (Bs : forall t, alloc_t s1 t -> base s' t = base s1 t).
  { intros t A. unfold base. change (tasks s' t) with (tasks s1 t).
    destruct (k_group (tasks s1 t)) as [g'|] eqn:G; [|reflexivity].
    destruct (tr_kgroup _ T1 t g' A G) as [A1 _]. now rewrite (Eg g' (Old g' A1)). }
  constructor; try (exact (tr_act_alloc _ T1)); try (exact (tr_host_act _ T1)); try (exact (tr_host_inact _ T1));
    try (exact (tr_child _ T1)); try (exact (tr_task _ T1)); try (exact (tr_nd_c _ T1)); try (exact (tr_nd_t _ T1));
    try (exact (tr_cur_act _ T1)); try (exact (tr_cur_alloc _ T1)); try (exact (tr_par_act _ T1));
    try (exact (tr_rank _ T1)); try (exact (tr_tdran _ T1)).
  - cbn. destruct (tr_cnt _ T1) as [A [B C]]. repeat split; try assumption. lia.
  - intros t A D. destruct (tr_stack _ T1 t A D) as [l [S C]]. exists l. split; [|exact C].
    eapply stack_ext; [exact S|now apply Bs|intros; now repeat split].
  - intros x A. apply Al in A. destruct A as [A| ->].
    + rewrite (Eg x (Old x A)). exact (tr_gscope _ T1 x A).
    + rewrite Egg. unfold alloc_s, s', gnew_struct. cbn. destruct (tr_cnt _ T) as [A _]. lia.
  - intros g1 g2 A1 A2. apply Al in A1, A2. destruct A1 as [A1| ->], A2 as [A2| ->].
    + rewrite (Eg g1 (Old g1 A1)), (Eg g2 (Old g2 A2)). now apply (tr_gscope_inj _ T1).
    + rewrite (Eg g1 (Old g1 A1)), Egg. cbn [g_scope]. intros E. pose proof (Gs g1 A1). lia.
    + rewrite (Eg g2 (Old g2 A2)), Egg. cbn [g_scope]. intros E. pose proof (Gs g2 A2). lia.
    + reflexivity.
  - intros x N. assert (x <> g) by (intros ->; apply N, Al; now right).
    rewrite (Eg x H). apply (tr_gblank _ T1). intros A. apply N, Al. now left.
  - intros t g' A G. destruct (tr_kgroup _ T1 t g' A G) as [A1 [A2 A3]].
    split; [apply Al; now left|]. split; [exact A2|].
    intros x Ax. apply Al in Ax. destruct Ax as [Ax| ->].
    + rewrite (Eg x (Old x Ax)). now apply A3.
    + rewrite Egg. cbn [g_scope]. change (tasks s' t) with (tasks s1 t). pose proof (Hs t g' A G). lia.
  - exact (tr_hscope_inj _ T1).
  - intros t g' A G D. destruct (tr_kgroup _ T1 t g' A G) as [A1 _]. rewrite (Eg g' (Old g' A1)).
    now apply (tr_member _ T1).
  - intros t x A Hin. apply Al in A. destruct A as [A| ->].
    + rewrite (Eg x (Old x A)) in *. now apply (tr_gact _ T1 t x).
    + rewrite Egg in Hin. destruct Hin.
  - intros t g' A G D. destruct (tr_kgroup _ T1 t g' A G) as [A1 _]. rewrite (Eg g' (Old g' A1)).
    now apply (tr_ghost _ T1).
  - intros t g' A G. destruct (tr_kgroup _ T1 t g' A G) as [A1 _]. rewrite (Eg g' (Old g' A1)).
    now apply (tr_hpar _ T1).
Qed.

Definition spawn_struct (s : st) (g : gid) (startf : option fid) : st :=
  let t := ntask s in
  let s1 := fst (new_scope s None false) in
  let hs := nscope s in
  let e := nevent s1 in
  let k := mkTask CNew false None None false 0 0 (Some (g_scope (groups s1 g))) None (Some g) hs e None None
                  startf None false in
  let s2 := mkSt (upd (tasks s1) t k) (S t) (scopes s1) (nscope s1) (groups s1) (ngroup s1) (futs s1)
                 (nfut s1) (upd (events s1) e event0) (S e) (ready s1) (timers s1) (ntimer s1) (now s1)
                 (running s1) in
  let gs := g_scope (groups s2 g) in
  let s3 := upd_scope s2 gs (fun x => sc_tasks (add t (s_tasks x)) x) in
  upd_group s3 g (fun x => gr_ever (g_ever x ++ [t]) (gr_tasks (add t (g_tasks x)) x)).

Lemma spawn_task_eq s g startf :
  spawn_task s g startf =
  (call_soon (restart (spawn_struct s g startf) (Some (g_scope (groups s g)))) (HStep (ntask s)), ntask s).
Proof. reflexivity. Qed.

Lemma Tree_spawn s g startf :
  Tree s -> alloc_g s g -> s_active (scopes s (g_scope (groups s g))) = true ->
  Tree (spawn_struct s g startf).
Proof.
  intros T Ag Hact. pose proof (Tree_new_scope s None false T) as T1.
  set (s1 := fst (new_scope s None false)) in *. set (t := ntask s). set (hs := nscope s).
  set (gs := g_scope (groups s g)). set (s' := spawn_struct s g startf).
  assert (Ags : alloc_s s gs) by (apply (tr_gscope _ T g Ag)).
  assert (Hne : gs <> hs) by (unfold alloc_s, hs in *; lia).
  destruct (Tree_fresh_task s1 t T1 (le_n _)) as [Fc Fh].
  assert (Ihs : s_active (scopes s1 hs) = false).
  { unfold s1. rewrite tn_A by exact T. apply tn_inactive. exact T. }
  assert (Act1 : s_active (scopes s1 gs) = true).
  { unfold s1. rewrite tn_A by exact T. exact Hact. }
  assert (Es : forall x, scopes s' x = if Nat.eqb x gs then sc_tasks (add t (s_tasks (scopes s1 gs))) (scopes s1 gs)
                                       else scopes s1 x).
  { intros x. unfold s', spawn_struct. cbn. reflexivity. }
  assert (EA : forall x, s_active (scopes s' x) = s_active (scopes s1 x)).
  { intros x. rewrite Es. deq x gs; reflexivity. }
  assert (EP : forall x, s_parent (scopes s' x) = s_parent (scopes s1 x)).
  { intros x. rewrite Es. deq x gs; reflexivity. }
  assert (EH : forall x, s_host (scopes s' x) = s_host (scopes s1 x)).
  { intros x. rewrite Es. deq x gs; reflexivity. }
  assert (EC : forall x, s_children (scopes s' x) = s_children (scopes s1 x)).
  { intros x. rewrite Es. deq x gs; reflexivity. }
  assert (ET : forall x, s_tasks (scopes s' x) = if Nat.eqb x gs then add t (s_tasks (scopes s1 gs))
                                                 else s_tasks (scopes s1 x)).
  { intros x. rewrite Es. deq x gs; reflexivity. }
  assert (Ek : forall x, x <> t -> tasks s' x = tasks s1 x).
  { intros x Hx. unfold s', spawn_struct. cbn. unfold upd. deq x (ntask s); [contradiction|reflexivity]. }
  assert (Ekt : k_cur (tasks s' t) = Some gs /\ k_group (tasks s' t) = Some g /\
                k_hscope (tasks s' t) = hs /\ k_tdran (tasks s' t) = false).
  { unfold s', spawn_struct. cbn. unfold upd. rewrite Nat.eqb_refl. cbn. repeat split. }
  destruct Ekt as [Kc [Kg [Kh Kd]]].
  assert (Egs : forall x, g_scope (groups s' x) = g_scope (groups s1 x)).
  { intros x. unfold s', spawn_struct. cbn. unfold upd. deq x g; reflexivity. }
  assert (Egt : forall x, g_tasks (groups s' x) = if Nat.eqb x g then add t (g_tasks (groups s1 g))
                                                  else g_tasks (groups s1 x)).
  { intros x. unfold s', spawn_struct. cbn. unfold upd. deq x g; reflexivity. }
  assert (Alt : forall x : nat, alloc_t s' x <-> alloc_t s1 x \/ x = t).
  { intros x. unfold alloc_t, s', spawn_struct, t, s1. cbn. destruct (tr_cnt _ T) as [_ [B _]]. lia. }
  assert (Old : forall x, alloc_t s1 x -> x <> t) by (intros x; unfold alloc_t, t, s1; cbn; lia).
  assert (Als : forall x, alloc_s s' x <-> alloc_s s1 x) by (intros x; reflexivity).
  assert (Alg : forall x, alloc_g s' x <-> alloc_g s1 x) by (intros x; reflexivity).
  assert (Ecur : forall x, k_cur (tasks s' x) = if Nat.eqb x t then Some gs else k_cur (tasks s1 x)).
  { intros x. deq x t; [exact Kc|now rewrite Ek]. }
  assert (Bs : forall x, x <> t -> base s' x = base s1 x).
  { intros x Hx. unfold base. rewrite (Ek x Hx). destruct (k_group (tasks s1 x)); [now rewrite Egs|reflexivity]. }
  assert (Ng : forall x, notg s' x <-> notg s1 x).
  { intros x. unfold notg. split; intros N y Hy; [rewrite <- Egs|rewrite Egs]; now apply N. }
  assert (Gold : forall x, alloc_g s1 x -> g_scope (groups s1 x) < hs).
  { intros x A. apply (tr_gscope _ T x A). }
  assert (Hold : forall x g', alloc_t s1 x -> k_group (tasks s1 x) = Some g' -> k_hscope (tasks s1 x) < hs).
  { intros x g' A G. destruct (tr_kgroup _ T x g' A G) as [_ [[_ A2] _]]. exact A2. }
  constructor.
  - cbn. destruct (tr_cnt _ T1) as [A [B C]]. repeat split; try assumption. lia.
  - intros x. rewrite EA. apply (tr_act_alloc _ T1).
  - intros x. rewrite EA, EH. intros Ha. destruct (tr_host_act _ T1 x Ha) as [t' [E A]].
    exists t'. split; [exact E|apply Alt; now left].
  - intros x. rewrite EA, EH. apply (tr_host_inact _ T1).
  - intros p x. rewrite EC, EA, EP. apply (tr_child _ T1).
  - intros x t'. rewrite ET, Ecur. deq x gs.
    + rewrite in_add. deq t' t.
      * split; [reflexivity|intros _; now right].
      * rewrite (tr_task _ T1 gs t'). split; [intros [H|H]; [exact H|contradiction]|intros H; now left].
    + deq t' t.
      * rewrite (tr_task _ T1 x t), Fc. split; [discriminate|intros [= E]; congruence].
      * apply (tr_task _ T1).
  - intros p. rewrite EC. apply (tr_nd_c _ T1).
  - intros x. rewrite ET. deq x gs; [apply nodup_add|]; apply (tr_nd_t _ T1).
  - intros t' x. rewrite Ecur, EA. deq t' t; [intros [= <-]; exact Act1|apply (tr_cur_act _ T1)].
  - intros t' x. rewrite Ecur. deq t' t.
    + intros _. apply Alt. now right.
    + intros E. apply Alt. left. now apply (tr_cur_alloc _ T1 t' x).
  - intros x p. rewrite !EA, EP. apply (tr_par_act _ T1).
  - destruct (tr_rank _ T1) as [rk Hrk]. exists rk. intros x p. rewrite EA, EP. apply Hrk.
  - intros t' A D. apply Alt in A. destruct A as [A| ->].
    + pose proof (Old t' A) as Hn. rewrite (Ek t' Hn) in *.
      destruct (tr_stack _ T1 t' A D) as [l [S C]]. exists l. split.
      * eapply stack_ext; [exact S|now apply Bs|]. intros x _. now rewrite EH, EA, EP.
      * intros x. rewrite EA, EH. apply C.
    + exists []. split.
      * rewrite Kc. replace (Some gs) with (base s' t); [apply stack_nil|].
        unfold base. rewrite Kg, Egs. reflexivity.
      * intros x _. rewrite EH. intros Hx. now apply Fh in Hx.
  - intros t' D. deq t' t; [congruence|]. rewrite (Ek t' n) in *.
    destruct (tr_tdran _ T1 t' D) as [E N]. split; [exact E|]. intros x. rewrite EH. apply N.
  - intros x A. rewrite Egs. apply (tr_gscope _ T1 x A).
  - intros g1 g2 A1 A2. rewrite !Egs. now apply (tr_gscope_inj _ T1).
  - intros x N. rewrite Egs. now apply (tr_gblank _ T1).
  - intros t' g' A G. apply Alt in A. destruct A as [A| ->].
    + rewrite (Ek t' (Old t' A)) in *. rewrite Ng. now apply (tr_kgroup _ T1).
    + rewrite Kg in G. inversion G; subst g'. rewrite Kh. split; [exact Ag|]. split.
      * unfold alloc_s, hs, s', spawn_struct. cbn. destruct (tr_cnt _ T) as [A _]. lia.
      * apply Ng. intros y Hy E. pose proof (Gold y Hy). lia.
  - intros t1 t2 A1 A2 G1 G2 E. apply Alt in A1, A2. destruct A1 as [A1| ->], A2 as [A2| ->].
    + rewrite (Ek t1 (Old t1 A1)), (Ek t2 (Old t2 A2)) in *. now apply (tr_hscope_inj _ T1).
    + rewrite (Ek t1 (Old t1 A1)), Kh in *. destruct (k_group (tasks s1 t1)) as [g'|] eqn:G; [|now elim G1].
      pose proof (Hold t1 g' A1 G). lia.
    + rewrite (Ek t2 (Old t2 A2)), Kh in *. destruct (k_group (tasks s1 t2)) as [g'|] eqn:G; [|now elim G2].
      pose proof (Hold t2 g' A2 G). lia.
    + reflexivity.
  - intros t' g' A G D. rewrite Egt. apply Alt in A. destruct A as [A| ->].
    + rewrite (Ek t' (Old t' A)) in *. pose proof (tr_member _ T1 t' g' A G D) as M.
      deq g' g; [apply in_add; now left|exact M].
    + rewrite Kg in G. inversion G; subst g'. rewrite Nat.eqb_refl. apply in_add. now right.
  - intros t' g' A. rewrite Egt, Egs, EA. deq g' g.
    + intros _. exact Act1.
    + apply (tr_gact _ T1 t' g' A).
  - intros t' g' A G D. rewrite Egs, EH. apply Alt in A. destruct A as [A| ->].
    + rewrite (Ek t' (Old t' A)) in *. now apply (tr_ghost _ T1).
    + apply Fh.
  - intros t' g' A G. rewrite Egs, EA, EP, EH. apply Alt in A. destruct A as [A| ->].
    + rewrite (Ek t' (Old t' A)) in *. now apply (tr_hpar _ T1).
    + rewrite Kh, Ihs. discriminate.
Qed.

Definition td_struct (s : st) (t : tid) (g : gid) : st :=
  let s1 := match k_cur (tasks s t) with
            | Some c => upd_scope s c (fun x => sc_tasks (del t (s_tasks x)) x)
            | None => s
            end in
  let s2 := upd_group s1 g (fun x => gr_tasks (del t (g_tasks x)) x) in
  upd_task s2 t (fun x => tk_tdran true (tk_cur None x)).

Definition td_tail (s3 : st) (k : task) (g : gid) (t : tid) : st :=
  let s4 := match g_fut (groups s3 g), g_tasks (groups s3 g) with
            | Some f, [] => fut_complete s3 f (FRes 0)
            | _, _ => s3
            end in
  let exc := match k_done k with
             | Some (OExc e) => Some e
             | Some (OCanc e) => Some e
             | _ => None
             end in
  let sf := k_startfut k in
  let sf_state := match sf with Some f => Some (f_st (futs s4 f)) | None => None end in
  match exc with
  | Some e =>
      match sf_state with
      | Some (FCanc _) =>
          if is_cancel e then s4 else
          let s5 := upd_group s4 g (fun x => gr_excs (g_excs x ++ [(t, e)]) x) in
          (* F23: a failed child calls cancel() on the group's own scope; cancel() is a no-op when it has been
             called before, so the test `if not cancel_called` of the source is folded into scope_cancel *)
          scope_cancel s5 (g_scope (groups s5 g)) false
      | Some FPend =>
          match sf with Some f => fut_complete s4 f (FExc e) | None => s4 end
      | _ =>
          if is_cancel e then
            if eff_cancelled s4 (g_scope (groups s4 g)) then s4 else scope_cancel s4 (g_scope (groups s4 g)) false
          else
            let s5 := upd_group s4 g (fun x => gr_excs (g_excs x ++ [(t, e)]) x) in
            scope_cancel s5 (g_scope (groups s5 g)) false
      end
  | None =>
      match sf, sf_state with
      | Some f, Some FPend => fut_complete s4 f (FExc ERuntime)
      | _, _ => s4
      end
  end.

Lemma treq_td_tail s3 k g t : treq s3 (td_tail s3 k g t).
Proof.
  apply (td_tail_closed treq g t treq_refl treq_trans treq_fut_complete); [|intros a; apply treq_scope_cancel].
  intros a e. apply treq_upd_group. intros x; reflexivity.
Qed.

Lemma Tree_td s t g :
  Tree s -> (forall x, s_host (scopes s x) <> Some t) -> Tree (td_struct s t g).
Proof.
  intros T Hn. set (s' := td_struct s t g).
  assert (Es : forall x, scopes s' x = if opt_eqb (k_cur (tasks s t)) x
                                       then sc_tasks (del t (s_tasks (scopes s x))) (scopes s x) else scopes s x).
  { intros x. unfold s', td_struct. destruct (k_cur (tasks s t)) as [c|]; cbn; [|reflexivity].
    unfold upd. rewrite (Nat.eqb_sym c x). deq x c; reflexivity. }
  assert (EA : forall x, s_active (scopes s' x) = s_active (scopes s x)).
  { intros x. rewrite Es. destruct (opt_eqb _ x); reflexivity. }
  assert (EP : forall x, s_parent (scopes s' x) = s_parent (scopes s x)).
  { intros x. rewrite Es. destruct (opt_eqb _ x); reflexivity. }
  assert (EH : forall x, s_host (scopes s' x) = s_host (scopes s x)).
  { intros x. rewrite Es. destruct (opt_eqb _ x); reflexivity. }
  assert (EC : forall x, s_children (scopes s' x) = s_children (scopes s x)).
  { intros x. rewrite Es. destruct (opt_eqb _ x); reflexivity. }
  assert (ET : forall x, s_tasks (scopes s' x) = if opt_eqb (k_cur (tasks s t)) x
                                                 then del t (s_tasks (scopes s x)) else s_tasks (scopes s x)).
  { intros x. rewrite Es. destruct (opt_eqb _ x); reflexivity. }
  assert (Ek : forall x, tasks s' x = if Nat.eqb x t then tk_tdran true (tk_cur None (tasks s t)) else tasks s x).
  { intros x. unfold s', td_struct. cbn. unfold upd. destruct (k_cur (tasks s t)); reflexivity. }
  assert (Ecur : forall x, k_cur (tasks s' x) = if Nat.eqb x t then None else k_cur (tasks s x)).
  { intros x. rewrite Ek. deq x t; reflexivity. }
  assert (Egrp : forall x, k_group (tasks s' x) = k_group (tasks s x)).
  { intros x. rewrite Ek. deq x t; reflexivity. }
  assert (Ehs : forall x, k_hscope (tasks s' x) = k_hscope (tasks s x)).
  { intros x. rewrite Ek. deq x t; reflexivity. }
  assert (Etd : forall x, k_tdran (tasks s' x) = if Nat.eqb x t then true else k_tdran (tasks s x)).
  { intros x. rewrite Ek. deq x t; reflexivity. }
  assert (Egs : forall x, g_scope (groups s' x) = g_scope (groups s x)).
  { intros x. unfold s', td_struct. cbn. unfold upd. destruct (k_cur (tasks s t)); deq x g; reflexivity. }
  assert (Egt : forall x, g_tasks (groups s' x) = if Nat.eqb x g then del t (g_tasks (groups s g))
                                                  else g_tasks (groups s x)).
  { intros x. unfold s', td_struct. cbn. unfold upd. destruct (k_cur (tasks s t)); deq x g; reflexivity. }
  assert (Cn : ntask s' = ntask s /\ nscope s' = nscope s /\ ngroup s' = ngroup s).
  { unfold s', td_struct. destruct (k_cur (tasks s t)); repeat split; reflexivity. }
  destruct Cn as [Cn1 [Cn2 Cn3]].
  assert (Alt : forall x, alloc_t s' x <-> alloc_t s x) by (intros x; unfold alloc_t; now rewrite Cn1).
  assert (Als : forall x, alloc_s s' x <-> alloc_s s x) by (intros x; unfold alloc_s; now rewrite Cn2).
  assert (Alg : forall x, alloc_g s' x <-> alloc_g s x) by (intros x; unfold alloc_g; now rewrite Cn3).
  assert (Bs : forall x, base s' x = base s x).
  { intros x. unfold base. rewrite Egrp. destruct (k_group (tasks s x)); [now rewrite Egs|reflexivity]. }
  assert (Ng : forall x, notg s' x <-> notg s x).
  { intros x. unfold notg. split; intros N y Hy; [rewrite <- Egs|rewrite Egs]; apply N; now apply Alg. }
  constructor.
  - rewrite Cn1, Cn2, Cn3. apply T.
  - intros x. rewrite EA, Als. apply T.
  - intros x. rewrite EA, EH. intros Ha. destruct (tr_host_act _ T x Ha) as [t' [E A]].
    exists t'. split; [exact E|now apply Alt].
  - intros x. rewrite EA, EH. apply T.
  - intros p x. rewrite EC, EA, EP. apply T.
  - intros x t'. rewrite ET, Ecur. destruct (opt_eqb (k_cur (tasks s t)) x) eqn:E.
    + apply opt_eqb_Some in E. rewrite in_del. deq t' t.
      * split; [intros [_ H]; contradiction|discriminate].
      * rewrite (tr_task _ T x t'). split; [intros [H _]; exact H|intros H; now split].
    + apply opt_eqb_false in E. deq t' t.
      * rewrite (tr_task _ T x t). split; [contradiction|discriminate].
      * apply T.
  - intros p. rewrite EC. apply T.
  - intros x. rewrite ET. destruct (opt_eqb _ x); [apply nodup_del|]; apply T.
  - intros t' x. rewrite Ecur, EA. deq t' t; [discriminate|apply T].
  - intros t' x. rewrite Ecur, Alt. deq t' t; [discriminate|apply T].
  - intros x p. rewrite !EA, EP. apply T.
  - destruct (tr_rank _ T) as [rk Hrk]. exists rk. intros x p. rewrite EA, EP. apply Hrk.
  - intros t'. rewrite Alt, Etd, Ecur. deq t' t; [discriminate|]. intros A D.
    destruct (tr_stack _ T t' A D) as [l [S C]]. exists l. split.
    + eapply stack_ext; [exact S|apply Bs|]. intros x _. now rewrite EH, EA, EP.
    + intros x. rewrite EA, EH. apply C.
  - intros t'. rewrite Etd, Ecur. deq t' t.
    + intros _. split; [reflexivity|]. intros x. rewrite EH. apply Hn.
    + intros D. destruct (tr_tdran _ T t' D) as [E N]. split; [exact E|]. intros x. rewrite EH. apply N.
  - intros x. rewrite Alg, Egs, Als. apply T.
  - intros g1 g2. rewrite !Alg, !Egs. apply T.
  - intros x. rewrite Alg, Egs. apply T.
  - intros t' g'. rewrite Alt, Egrp, Ehs, Alg, Als, Ng. apply T.
  - intros t1 t2. rewrite !Alt, !Egrp, !Ehs. apply T.
  - intros t' g'. rewrite Alt, Egrp, Etd, Egt. deq t' t; [discriminate|]. intros A G D.
    pose proof (tr_member _ T t' g' A G D) as M. deq g' g; [apply in_del; now split|exact M].
  - intros t' g'. rewrite Alg, Egt, Egs, EA. intros A Hin. apply (tr_gact _ T t' g' A).
    deq g' g; [apply in_del in Hin; apply Hin|exact Hin].
  - intros t' g'. rewrite Alt, Egrp, Etd, Egs, EH. deq t' t; [discriminate|]. apply T.
  - intros t' g'. rewrite Alt, Egrp, Ehs, Egs, EA, EP, EH. apply T.
Qed.

Definition ctl_scope (c : ctl) : option sid :=
  match c with
  | CYield (YShield x) => Some x
  | CAexitWait _ x _ => Some x
  | CAexitCk _ x _ => Some x
  | CStartJoin _ x _ _ => Some x
  | _ => None
  end.

(* what the control state of an allocated task promises about the tree (one clause per state that needs one) *)
Definition cok (s : st) (t : tid) : Prop :=
  (k_ctl (tasks s t) = CNew ->
     k_cur (tasks s t) = base s t /\ k_group (tasks s t) <> None /\ forall x, s_host (scopes s x) <> Some t) /\
  (forall g c e, k_ctl (tasks s t) = CAexitCk g c e ->
     k_cur (tasks s t) = Some c /\ k_waiter (tasks s t) = None) /\
  (forall c, ctl_scope (k_ctl (tasks s t)) = Some c -> alloc_s s c /\ notg s c) /\
  (k_ctl (tasks s t) = CDone -> forall x, s_host (scopes s x) <> Some t) /\
  (k_tdran (tasks s t) = true -> k_ctl (tasks s t) = CDone).

Record Ctl (s : st) : Prop := {
  c_ok : forall t, alloc_t s t -> cok s t;
  c_unalloc : forall t, ~ alloc_t s t -> k_ctl (tasks s t) = CDone;
  c_td : forall t, In (HTaskDone t) (ready s) -> alloc_t s t /\ k_ctl (tasks s t) = CDone
}.

(* the three clauses of Ctl for one task *)
Definition cokx (s : st) (t : tid) : Prop :=
  (alloc_t s t -> cok s t) /\ (~ alloc_t s t -> k_ctl (tasks s t) = CDone) /\
  (In (HTaskDone t) (ready s) -> alloc_t s t /\ k_ctl (tasks s t) = CDone).

(* what a step keeps for Ctl: l is the set of tasks whose records the step may rewrite (the actor, a task it creates);
   every other task keeps its cok clauses, and only tasks of l may get a new task-done callback *)
Record creq (l : list tid) (s s' : st) : Prop := {
  cq_tcb : tcb l s s';
  cq_alloc_t : forall t, alloc_t s t -> alloc_t s' t;
  cq_alloc_t' : forall t, alloc_t s' t -> alloc_t s t \/ In t l;
  cq_host : forall t x, ~ In t l -> s_host (scopes s' x) = Some t -> s_host (scopes s x) = Some t;
  cq_base : forall t, ~ In t l -> alloc_t s t -> base s' t = base s t;
  cq_alloc_s : forall c, alloc_s s c -> alloc_s s' c;
  cq_notg : forall c, alloc_s s c -> notg s c -> notg s' c;
  cq_td : forall t, In (HTaskDone t) (ready s') -> In (HTaskDone t) (ready s) \/ In t l;
  cq_ids : forall t, alloc_t s t -> k_group (tasks s' t) = k_group (tasks s t) /\
                                    k_hscope (tasks s' t) = k_hscope (tasks s t) /\
                                    k_tdran (tasks s' t) = k_tdran (tasks s t)
}.

Lemma creq_refl l s : creq l s s.
Proof. constructor; auto. apply tcb_refl. Qed.

Lemma creq_trans l a b c : creq l a b -> creq l b c -> creq l a c.
Proof.
  intros H1 H2. constructor.
  - eapply tcb_trans; [apply H1|apply H2].
  - intros t A. apply H2, H1, A.
  - intros t A. apply (cq_alloc_t' _ _ _ H2) in A. destruct A as [A|A]; [|now right]. now apply (cq_alloc_t' _ _ _ H1).
  - intros t x N E. apply (cq_host _ _ _ H1 t x N). now apply (cq_host _ _ _ H2 t x N).
  - intros t N A. rewrite (cq_base _ _ _ H2 t N (cq_alloc_t _ _ _ H1 t A)). now apply (cq_base _ _ _ H1).
  - intros x A. apply H2, H1, A.
  - intros x A N. apply (cq_notg _ _ _ H2); [now apply H1|now apply (cq_notg _ _ _ H1)].
  - intros t A. apply (cq_td _ _ _ H2) in A. destruct A as [A|A]; [|now right]. now apply (cq_td _ _ _ H1).
  - intros t A. destruct (cq_ids _ _ _ H1 t A) as [E1 [E2 E3]].
    destruct (cq_ids _ _ _ H2 t (cq_alloc_t _ _ _ H1 t A)) as [F1 [F2 F3]].
    rewrite F1, F2, F3. now repeat split.
Qed.

Lemma creq_treq l s s' : treq s s' -> tcb l s s' -> rq_td s s' -> creq l s s'.
Proof.
  intros H Hc Hr. constructor.
  - exact Hc.
  - intros t. now rewrite (tq_alloc_t _ _ H).
  - intros t A. left. now apply (tq_alloc_t _ _ H).
  - intros t x _. now rewrite (tq_host _ _ H).
  - intros t _ _. apply (tq_base _ _ H).
  - intros x. now rewrite (tq_alloc_s _ _ H).
  - intros x _. now rewrite (tq_notg _ _ H).
  - intros t A. left. now apply Hr.
  - intros t _. now rewrite (tq_group _ _ H), (tq_hscope _ _ H), (tq_tdran _ _ H).
Qed.

(* creq without cq_ids: the done-callback flips k_tdran of its task (TreeStep.sinv_task_done) *)
Record creq0 (l : list tid) (s s' : st) : Prop := {
  c0_tcb : tcb l s s';
  c0_alloc_t : forall t, alloc_t s t -> alloc_t s' t;
  c0_alloc_t' : forall t, alloc_t s' t -> alloc_t s t \/ In t l;
  c0_host : forall t x, ~ In t l -> s_host (scopes s' x) = Some t -> s_host (scopes s x) = Some t;
  c0_base : forall t, ~ In t l -> alloc_t s t -> base s' t = base s t;
  c0_alloc_s : forall c, alloc_s s c -> alloc_s s' c;
  c0_notg : forall c, alloc_s s c -> notg s c -> notg s' c;
  c0_td : forall t, In (HTaskDone t) (ready s') -> In (HTaskDone t) (ready s) \/ In t l
}.

Lemma creq_creq0 l s s' : creq l s s' -> creq0 l s s'.
Proof. intros Q. constructor; apply Q. Qed.

Lemma Ctl_step0 l s s' :
  Ctl s -> creq0 l s s' -> (forall t, In t l -> cokx s' t) -> Ctl s'.
Proof.
  intros C Q Hl.
  assert (Same : forall t, ~ In t l -> tk_core (tasks s' t) = tk_core (tasks s t)) by apply Q.
  constructor.
  - intros t A. destruct (in_dec Nat.eq_dec t l) as [Hin|Hn]; [destruct (Hl t Hin) as [H _]; now apply H|].
    destruct (c0_alloc_t' _ _ _ Q t A) as [A0|A0]; [|contradiction].
    pose proof (Same t Hn) as E. destruct (c_ok _ C t A0) as [K1 [K2 [K3 [K4 K5]]]].
    unfold cok. rewrite (tcore_ctl _ _ E), (tcore_cur _ _ E), (tcore_group _ _ E), (tcore_waiter _ _ E),
      (tcore_tdran _ _ E).
    assert (Hh : (forall x, s_host (scopes s x) <> Some t) -> forall x, s_host (scopes s' x) <> Some t).
    { intros N x Hx. apply (N x). now apply (c0_host _ _ _ Q t x Hn). }
    refine (conj _ (conj _ (conj _ (conj _ _)))).
    + intros Hc. destruct (K1 Hc) as [E1 [E2 E3]]. rewrite (c0_base _ _ _ Q t Hn A0). auto.
    + exact K2.
    + intros c Hc. destruct (K3 c Hc) as [A1 N1]. split; [exact (c0_alloc_s _ _ _ Q c A1)|now apply (c0_notg _ _ _ Q)].
    + intros Hc. auto.
    + exact K5.
  - intros t A. destruct (in_dec Nat.eq_dec t l) as [Hin|Hn]; [destruct (Hl t Hin) as [_ [H _]]; now apply H|].
    rewrite (tcore_ctl _ _ (Same t Hn)). apply (c_unalloc _ C). intros A0. apply A. exact (c0_alloc_t _ _ _ Q t A0).
  - intros t Hin. destruct (in_dec Nat.eq_dec t l) as [Hl'|Hn]; [destruct (Hl t Hl') as [_ [_ H]]; now apply H|].
    rewrite (tcore_ctl _ _ (Same t Hn)).
    destruct (c0_td _ _ _ Q t Hin) as [H|H]; [|contradiction].
    destruct (c_td _ C t H) as [A E]. split; [exact (c0_alloc_t _ _ _ Q t A)|exact E].
Qed.

Lemma Ctl_step l s s' :
  Ctl s -> creq l s s' -> (forall t, In t l -> cokx s' t) -> Ctl s'.
Proof. intros C Q. apply (Ctl_step0 l s s' C (creq_creq0 _ _ _ Q)). Qed.

(* the running invariant inside one op *)
Definition Run (l : list tid) (s0 s : st) : Prop := Tree s /\ creq l s0 s /\ rq_td s0 s.

Lemma run_treq l s0 s s' : Run l s0 s -> treq s s' -> tcb l s s' -> rq_td s s' -> Run l s0 s'.
Proof.
  intros [T [Q R]] H Hc Hr. split; [eapply Tree_treq; eauto|]. split; [|eapply rq_td_trans; eauto].
  eapply creq_trans; [exact Q|now apply creq_treq].
Qed.

Lemma run_new_scope l s0 s d sh : Run l s0 s -> Run l s0 (fst (new_scope s d sh)).
Proof.
  intros [T [Q R]]. split; [now apply Tree_new_scope|]. split; [|exact R]. eapply creq_trans; [exact Q|].
  constructor.
  - apply tcb_same_tasks. reflexivity.
  - intros t A. exact A.
  - intros t A. left. exact A.
  - intros t x _. now rewrite (tn_H s d sh T).
  - intros t _ _. reflexivity.
  - intros x. apply tn_alloc_s.
  - intros x _ N. exact N.
  - intros t A. left. exact A.
  - intros t _. now repeat split.
Qed.

Lemma run_enter l s0 s c t :
  Run l s0 s -> In t l -> alloc_t s t -> k_tdran (tasks s t) = false -> alloc_s s c ->
  (s_active (scopes s c) = false ->
   forall t' g, alloc_t s t' -> k_group (tasks s t') = Some g -> k_hscope (tasks s t') = c ->
     t' = t /\ k_cur (tasks s t) = Some (g_scope (groups s g))) ->
  (s_active (scopes s c) = false ->
   forall g, k_group (tasks s t) = Some g -> g_scope (groups s g) <> c) ->
  Run l s0 (fst (scope_enter s c t)).
Proof.
  intros [T [Q R]] Hin At Dt Ac Hh0 Hg0.
  destruct (s_active (scopes s c)) eqn:Ic.
  { rewrite (scope_enter_fail s c t Ic). exact (conj T (conj Q R)). }
  pose proof (Hh0 eq_refl) as Hh. pose proof (Hg0 eq_refl) as Hg.
  destruct (scope_enter_spec s c t Ic) as [_ K].
  pose proof (Tree_enter s c t T At Dt Ac Ic Hh Hg) as T'.
  split; [eapply Tree_treq; eauto|].
  split; [|eapply rq_td_trans; [exact R|apply rq_td_scope_enter]]. eapply creq_trans; [exact Q|].
  set (s' := fst (scope_enter s c t)) in *.
  constructor.
  - now apply tcb_scope_enter.
  - intros x A. apply (tq_alloc_t _ _ K). now apply (te_alloc_t s c t T Ic).
  - intros x A. left. apply (tq_alloc_t _ _ K) in A. now apply (te_alloc_t s c t T Ic) in A.
  - intros t' x N. rewrite (tq_host _ _ K), (te_H s c t T Ic). deq x c; [|auto].
    intros [= E]. subst t'. contradiction.
  - intros t' _ _. rewrite (tq_base _ _ K). apply (te_base s c t T Ic).
  - intros x A. apply (tq_alloc_s _ _ K). now apply (te_alloc_s s c t T Ic).
  - intros x _ N. apply (tq_notg _ _ K). now apply (te_notg s c t T Ic).
  - intros t' A. left. now apply (rq_td_scope_enter s c t).
  - intros t' _. rewrite (tq_group _ _ K), (tq_hscope _ _ K), (tq_tdran _ _ K).
    now rewrite (te_group s c t), (te_hscope s c t), (te_tdran s c t).
Qed.

Lemma treq_exit_result s c t exc : exit_ok s c t -> treq (xstate s c t) (fst (scope_exit s c t exc)).
Proof.
  intros Hok. destruct (scope_exit_spec s c t exc Hok) as [s6 [K E]]. rewrite E. unfold xstate.
  apply treq_upd_scope_congr.
  - intros x y H. unfold sc_tree in *. cbn. now inversion H.
  - apply kframe_treq. eapply kframe_trans; [apply kframe_restart|exact K].
Qed.

Lemma run_exit l s0 s c t exc :
  Run l s0 s -> In t l ->
  (exit_ok s c t ->
     (forall x, ~ In x (s_children (scopes s c))) /\
     (forall t', In t' (s_tasks (scopes s c)) -> t' = t) /\
     (forall g, alloc_g s g -> g_scope (groups s g) = c -> g_tasks (groups s g) = [])) ->
  Run l s0 (fst (scope_exit s c t exc)).
Proof.
  intros [T [Q R]] Hin Hside.
  destruct (exit_ok_dec s c t) as [Hok|Hno].
  2:{ rewrite (scope_exit_fail s c t exc Hno). exact (conj T (conj Q R)). }
  destruct (Hside Hok) as [NC [NT NG]].
  pose proof (treq_exit_result s c t exc Hok) as K.
  pose proof (Tree_exit s c t T Hok NC NT NG) as T'.
  split; [eapply Tree_treq; eauto|].
  split; [|eapply rq_td_trans; [exact R|apply rq_td_scope_exit]]. eapply creq_trans; [exact Q|].
  set (s' := fst (scope_exit s c t exc)) in *.
  constructor.
  - now apply tcb_scope_exit.
  - intros x A. apply (tq_alloc_t _ _ K). now apply (tx_alloc_t s c t T Hok).
  - intros x A. left. apply (tq_alloc_t _ _ K) in A. now apply (tx_alloc_t s c t T Hok) in A.
  - intros t' x N. rewrite (tq_host _ _ K), (tx_H s c t T Hok). deq x c; [discriminate|auto].
  - intros t' _ _. rewrite (tq_base _ _ K). apply (tx_base s c t T Hok).
  - intros x A. apply (tq_alloc_s _ _ K). now apply (tx_alloc_s s c t T Hok).
  - intros x _ N. apply (tq_notg _ _ K). now apply (tx_notg s c t T Hok).
  - intros t' A. left. now apply (rq_td_scope_exit s c t exc).
  - intros t' _. rewrite (tq_group _ _ K), (tq_hscope _ _ K), (tq_tdran _ _ K).
    now rewrite (tx_group s c t), (tx_hscope s c t), (tx_tdran s c t).
Qed.

Lemma stack_bottom s t o l : stack s t o l ->
  forall x p, In x l -> s_parent (scopes s x) = Some p -> s_host (scopes s p) <> Some t -> Some p = base s t.
Proof.
  induction 1 as [|y l Hh Ha Hs IH]; intros x p Hx Hp Hn; [destruct Hx|].
  destruct Hx as [<-|Hx]; [|now apply (IH x p)].
  rewrite Hp in Hs. inversion Hs; subst; [reflexivity|contradiction].
Qed.

Lemma not_tdran_of_host s t x : Tree s -> s_host (scopes s x) = Some t -> k_tdran (tasks s t) = false.
Proof.
  intros T H. destruct (k_tdran (tasks s t)) eqn:D; [|reflexivity].
  destruct (tr_tdran _ T t D) as [_ N]. now apply N in H.
Qed.

Lemma not_tdran_of_cur s t x : Tree s -> k_cur (tasks s t) = Some x -> k_tdran (tasks s t) = false.
Proof.
  intros T H. destruct (k_tdran (tasks s t)) eqn:D; [|reflexivity].
  destruct (tr_tdran _ T t D) as [E _]. congruence.
Qed.

Lemma exit_side s c t :
  Tree s -> exit_ok s c t ->
  (forall g, alloc_g s g -> g_scope (groups s g) = c -> g_tasks (groups s g) = []) ->
  (forall x, ~ In x (s_children (scopes s c))) /\
  (forall t', In t' (s_tasks (scopes s c)) -> t' = t) /\
  (forall g, alloc_g s g -> g_scope (groups s g) = c -> g_tasks (groups s g) = []).
Proof.
  intros T [Ha [Hh Hc]] NG.
  assert (Based : forall t', alloc_t s t' -> k_tdran (tasks s t') = false -> Some c = base s t' -> False).
  { intros t' A D B. unfold base in B. destruct (k_group (tasks s t')) as [g'|] eqn:G; [|discriminate].
    inversion B as [E]. destruct (tr_kgroup _ T t' g' A G) as [Ag _].
    pose proof (tr_member _ T t' g' A G D) as M. rewrite (NG g' Ag (eq_sym E)) in M. destruct M. }
  destruct (tr_rank _ T) as [rk Hrk].
  refine (conj _ (conj _ NG)).
  - intros x Hx. apply (tr_child _ T) in Hx. destruct Hx as [Hax Hpx].
    destruct (tr_host_act _ T x Hax) as [t' [Hhx At']].
    pose proof (not_tdran_of_host s t' x T Hhx) as Dt'.
    destruct (tr_stack _ T t' At' Dt') as [l [S C]]. pose proof (C x Hax Hhx) as Hin.
    destruct (Nat.eq_dec t' t) as [->|Hne].
    + rewrite Hc in S. inversion S as [E0|y l' Hh' Ha' S' E1]; subst; [destruct Hin|].
      destruct Hin as [<-|Hin].
      * specialize (Hrk c c Hax Hpx). lia.
      * pose proof (stack_tail_rank s t c l' rk Hrk S Ha x Hin). specialize (Hrk x c Hax Hpx). lia.
    + apply (Based t' At' Dt'). eapply stack_bottom; eauto. congruence.
  - intros t' Ht'. apply (tr_task _ T) in Ht'.
    destruct (Nat.eq_dec t' t) as [->|Hne]; [reflexivity|exfalso].
    pose proof (tr_cur_alloc _ T t' c Ht') as At'. pose proof (not_tdran_of_cur s t' c T Ht') as Dt'.
    destruct (tr_stack _ T t' At' Dt') as [l [S _]]. rewrite Ht' in S.
    inversion S as [E0|y l' Hh' Ha' S' E1]; subst.
    + now apply (Based t' At' Dt').
    + congruence.
Qed.

Lemma exit_side_pub s c t :
  Tree s -> notg s c -> exit_ok s c t ->
  (forall x, ~ In x (s_children (scopes s c))) /\
  (forall t', In t' (s_tasks (scopes s c)) -> t' = t) /\
  (forall g, alloc_g s g -> g_scope (groups s g) = c -> g_tasks (groups s g) = []).
Proof.
  intros T N Hok. apply exit_side; [exact T|exact Hok|]. intros g A E. now apply N in E.
Qed.

Lemma exit_side_group s g t :
  Tree s -> alloc_g s g -> g_tasks (groups s g) = [] -> exit_ok s (g_scope (groups s g)) t ->
  (forall x, ~ In x (s_children (scopes s (g_scope (groups s g))))) /\
  (forall t', In t' (s_tasks (scopes s (g_scope (groups s g)))) -> t' = t) /\
  (forall g', alloc_g s g' -> g_scope (groups s g') = g_scope (groups s g) -> g_tasks (groups s g') = []).
Proof.
  intros T A E Hok. apply exit_side; [exact T|exact Hok|]. intros g' A' E'.
  now rewrite (tr_gscope_inj _ T g' g A' A E').
Qed.

Lemma sp_host s g sf x : Tree s -> s_host (scopes (spawn_struct s g sf) x) = s_host (scopes s x).
Proof.
  intros T. unfold spawn_struct. cbn. unfold upd.
  destruct (Nat.eqb x (g_scope (groups s g))) eqn:E1; cbn.
  - apply Nat.eqb_eq in E1. subst x. destruct (Nat.eqb_spec (g_scope (groups s g)) (nscope s)); [|reflexivity].
    cbn. rewrite e. symmetry. apply (tr_host_inact _ T). apply tn_inactive. exact T.
  - destruct (Nat.eqb_spec x (nscope s)); [|reflexivity].
    cbn. subst x. symmetry. apply (tr_host_inact _ T). apply tn_inactive. exact T.
Qed.

Lemma sp_task_other s g sf x : x <> ntask s -> tasks (spawn_struct s g sf) x = tasks s x.
Proof. intros H. unfold spawn_struct. cbn. unfold upd. deq x (ntask s); [contradiction|reflexivity]. Qed.

Lemma sp_gscope s g sf x : g_scope (groups (spawn_struct s g sf) x) = g_scope (groups s x).
Proof. unfold spawn_struct. cbn. unfold upd. deq x g; reflexivity. Qed.

Lemma run_spawn l s0 s g sf :
  Run l s0 s -> In (ntask s) l -> alloc_g s g -> s_active (scopes s (g_scope (groups s g))) = true ->
  Run l s0 (fst (spawn_task s g sf)).
Proof.
  intros [T [Q R]] Hin Ag Ha. rewrite spawn_task_eq. cbn [fst].
  set (s1 := spawn_struct s g sf).
  set (s' := call_soon (restart s1 (Some (g_scope (groups s g)))) (HStep (ntask s))).
  assert (K : kframe s1 (restart s1 (Some (g_scope (groups s g))))) by apply kframe_restart.
  assert (K' : treq s1 s').
  { eapply treq_trans; [apply kframe_treq, K|apply treq_call_soon]. }
  split; [apply (Tree_treq s1 s'); [apply Tree_spawn; assumption|exact K']|].
  assert (R' : rq_td s s').
  { intros t' A. cbn in A. apply in_app_or in A. destruct A as [A|[A|[]]]; [|discriminate].
    apply (rq_td_kframe _ _ K) in A. exact A. }
  split; [|eapply rq_td_trans; [exact R|exact R']].
  eapply creq_trans; [exact Q|].
  assert (N1 : ntask s' = S (ntask s)) by (rewrite (tq_ntask _ _ K'); reflexivity).
  assert (N2 : nscope s' = S (nscope s)) by (rewrite (tq_nscope _ _ K'); reflexivity).
  assert (N3 : ngroup s' = ngroup s) by (rewrite (tq_ngroup _ _ K'); reflexivity).
  constructor.
  - intros t' N. assert (t' <> ntask s) by (intros ->; contradiction).
    change (tasks s' t') with (tasks (restart s1 (Some (g_scope (groups s g)))) t').
    rewrite (kf_tasks _ _ K t'). unfold s1. now rewrite sp_task_other.
  - intros x. unfold alloc_t. rewrite N1. lia.
  - intros x. unfold alloc_t. rewrite N1. intros A. destruct (Nat.eq_dec x (ntask s)) as [->|N]; [now right|left; lia].
  - intros t' x _. rewrite (tq_host _ _ K'). unfold s1. now rewrite sp_host.
  - intros t' N A. rewrite (tq_base _ _ K'). unfold base, s1.
    assert (t' <> ntask s) by (intros ->; contradiction). rewrite sp_task_other by assumption.
    destruct (k_group (tasks s t')); [now rewrite sp_gscope|reflexivity].
  - intros x. unfold alloc_s. rewrite N2. lia.
  - intros x _ N. apply (tq_notg _ _ K'). intros y Hy. unfold s1. rewrite sp_gscope. apply N.
    unfold alloc_g in *. exact Hy.
  - intros t' A. left. now apply R'.
  - intros t' A. assert (t' <> ntask s) by (unfold alloc_t in A; lia).
    rewrite (tq_group _ _ K'), (tq_hscope _ _ K'), (tq_tdran _ _ K'). unfold s1.
    rewrite sp_task_other by assumption. now repeat split.
Qed.

Lemma run_group_new l s0 s : Run l s0 s -> Run l s0 (gnew_struct s).
Proof.
  intros [T [Q R]]. split; [now apply Tree_group_new|]. split; [|exact R]. eapply creq_trans; [exact Q|].
  constructor.
  - apply tcb_same_tasks. reflexivity.
  - intros t A. exact A.
  - intros t A. left. exact A.
  - intros t x _. change (scopes (gnew_struct s) x) with (scopes (fst (new_scope s None false)) x).
    now rewrite (tn_H s None false T).
  - intros t _ A. unfold base. change (tasks (gnew_struct s) t) with (tasks s t).
    destruct (k_group (tasks s t)) as [g|] eqn:G; [|reflexivity].
    destruct (tr_kgroup _ T t g A G) as [[_ Ag] _].
    unfold gnew_struct. cbn. unfold upd. deq g (ngroup s); [lia|reflexivity].
  - intros x. unfold alloc_s. cbn. lia.
  - intros x [_ A] N y Hy. unfold gnew_struct. cbn. unfold upd. deq y (ngroup s).
    + cbn. lia.
    + apply N. unfold alloc_g in *. cbn in Hy. lia.
  - intros t A. left. exact A.
  - intros t _. now repeat split.
Qed.

Lemma run_new_root l s0 s : Run l s0 s -> In (ntask s) l -> Run l s0 (root_struct s).
Proof.
  intros [T [Q R]] Hin. split; [now apply Tree_new_root|]. split; [|exact R]. eapply creq_trans; [exact Q|].
  constructor.
  - intros t' N. assert (t' <> ntask s) by (intros ->; contradiction).
    unfold root_struct. cbn. unfold upd. deq t' (ntask s); [contradiction|reflexivity].
  - intros x. unfold alloc_t. cbn. lia.
  - intros x. unfold alloc_t. cbn. intros A. destruct (Nat.eq_dec x (ntask s)) as [->|N]; [now right|left; lia].
  - intros t x _ E. exact E.
  - intros t' N A. assert (t' <> ntask s) by (intros ->; contradiction).
    unfold base, root_struct. cbn. unfold upd. deq t' (ntask s); [contradiction|reflexivity].
  - intros x A. exact A.
  - intros x _ N. exact N.
  - intros t A. left. exact A.
  - intros t' A. assert (t' <> ntask s) by (unfold alloc_t in A; lia).
    unfold root_struct. cbn. unfold upd. deq t' (ntask s); [contradiction|now repeat split].
Qed.

Lemma creq_finish l s t o : In t l -> creq l s (finish_task s t o).
Proof.
  intros Hin. pose proof (treq_finish_task s t o) as K.
  constructor.
  - now apply tcb_finish_task.
  - intros x. now rewrite (tq_alloc_t _ _ K).
  - intros x A. left. now apply (tq_alloc_t _ _ K).
  - intros t' x _. now rewrite (tq_host _ _ K).
  - intros t' _ _. apply (tq_base _ _ K).
  - intros x. now rewrite (tq_alloc_s _ _ K).
  - intros x _. now rewrite (tq_notg _ _ K).
  - intros t' A. unfold finish_task in A. cbn [ready set_running] in A.
    destruct (k_group (tasks s t)); cbn in A; [|now left].
    apply in_app_or in A. destruct A as [A|[A|[]]]; [now left|]. inversion A; subst. now right.
  - intros t' _. now rewrite (tq_group _ _ K), (tq_hscope _ _ K), (tq_tdran _ _ K).
Qed.

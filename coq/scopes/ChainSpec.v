(* Tie T, hand-written half: declarative specifications of the scope-chain predicates of AnyIO's asyncio
   backend, over an explicit chain (innermost scope first), and the abstraction `chain_of` of an S-machine state
   into such a chain.  tools/translate_chain.py regenerates ChainGen.v from the Python source on every check;
   ChainEq.v proves generated = spec (all chains) and Machine = spec (through chain_of). *)
From AV Require Import Base Machine.

(* what the walks read of one CancelScope *)
Record scope_rec := mkRec {
  r_cancelled : bool;          (* _cancel_called *)
  r_shield : bool;             (* _shield *)
  r_deadline : option Z;       (* _deadline; None = +inf *)
  r_chandle : bool;            (* _cancel_handle is not None *)
  r_hosted : bool              (* _host_task is not None: entered and not yet exited *)
}.

(* what is_anyio_cancellation reads of one exception of a __context__ chain *)
Record exc_rec := mkExc {
  x_is_cancelled_error : bool; (* isinstance(e, CancelledError) *)
  x_has_scope_tag : bool       (* e.args[0] is a str starting with "Cancelled via cancel scope " *)
}.

Definition is_nil {A} (l : list A) : bool := match l with [] => true | _ => false end.

Definition next_is_cancelled_error (rest : list exc_rec) : bool :=
  match rest with n :: _ => x_is_cancelled_error n | [] => false end.

(* _visible_parent_scope is None: the scope is shielded, or it has been exited (an exited scope is unlinked from its
   parent, cancellation can no longer be delivered through it; F42) *)
Definition stops (r : scope_rec) : bool := r_shield r || negb (r_hosted r).

(* a scope the upward walks of _effectively_cancelled / checkpoint_if_cancelled / current_effective_deadline pass
   through: not cancelled, not shielded, still entered *)
Definition open_rec (r : scope_rec) : Prop := r_cancelled r = false /\ stops r = false.

(* a scope the walks of check_cancelled / _restart_cancellation pass through: neither cancelled nor shielded *)
Definition open_sh (r : scope_rec) : Prop := r_cancelled r = false /\ r_shield r = false.

(* _effectively_cancelled (also: checkpoint_if_cancelled spins, check_cancelled raises) *)
Fixpoint eff_cancelled_spec (l : list scope_rec) : bool :=
  match l with
  | [] => false
  | r :: rest => r_cancelled r || (negb (stops r) && eff_cancelled_spec rest)
  end.

(* Prop reading: some scope of the chain is cancelled and everything below it is open *)
Definition eff_cancelled_P (l : list scope_rec) : Prop :=
  exists pre r post, l = pre ++ r :: post /\ Forall open_rec pre /\ r_cancelled r = true.

(* a walk w that answers true at a cancelled scope and goes on above a scope where `stop` is false *)
Lemma walk_iff (stop : scope_rec -> bool) (w : list scope_rec -> bool) :
  w [] = false -> (forall r rest, w (r :: rest) = r_cancelled r || (negb (stop r) && w rest)) ->
  forall l, w l = true <->
            exists pre r post, l = pre ++ r :: post /\
                               Forall (fun x => r_cancelled x = false /\ stop x = false) pre /\ r_cancelled r = true.
Proof.
  intros W0 WS l. split.
  - induction l as [|a l IH]; [rewrite W0|rewrite WS]; [discriminate|]. destruct (r_cancelled a) eqn:Ec.
    { intros _. exists [], a, l. auto. }
    destruct (stop a) eqn:Es; [discriminate|]. intros H.
    destruct (IH H) as (pre & r & post & -> & Hp & Hc). exists (a :: pre), r, post. auto.
  - intros (pre & r & post & -> & Hp & Hc). induction Hp as [|a pre [Ha1 Ha2] _ IH]; cbn [app]; rewrite WS.
    + now rewrite Hc.
    + now rewrite Ha1, Ha2, IH.
Qed.

Lemma eff_cancelled_spec_iff l : eff_cancelled_spec l = true <-> eff_cancelled_P l.
Proof. apply (walk_iff stops); reflexivity. Qed.

(* the part of the chain the walks can see: up to and including the nearest shielded or exited scope *)
Fixpoint visible (l : list scope_rec) : list scope_rec :=
  match l with
  | [] => []
  | r :: rest => if stops r then [r] else r :: visible rest
  end.

Lemma eff_cancelled_spec_visible l : eff_cancelled_spec l = existsb r_cancelled (visible l).
Proof.
  induction l as [|a l IH]; cbn [eff_cancelled_spec visible]; [reflexivity|].
  destruct (stops a); cbn [existsb negb andb].
  - now rewrite !orb_false_r.
  - now rewrite IH.
Qed.

Definition ckif_spins_spec (l : list scope_rec) : bool := eff_cancelled_spec l.

(* the walk that only stops at shields (check_cancelled, _restart_cancellation; before the F42 fix: all walks) *)
Fixpoint sh_cancelled_spec (l : list scope_rec) : bool :=
  match l with
  | [] => false
  | r :: rest => r_cancelled r || (negb (r_shield r) && sh_cancelled_spec rest)
  end.

Lemma sh_cancelled_spec_iff l :
  sh_cancelled_spec l = true <-> exists pre r post, l = pre ++ r :: post /\ Forall open_sh pre /\ r_cancelled r = true.
Proof. apply (walk_iff r_shield); reflexivity. Qed.

Definition check_cancelled_raises_spec (l : list scope_rec) : bool := sh_cancelled_spec l.

(* on chains whose scopes are all still entered the two kinds of walk coincide *)
Definition all_hosted (l : list scope_rec) : Prop := Forall (fun r => r_hosted r = true) l.

Lemma stops_hosted r : r_hosted r = true -> stops r = r_shield r.
Proof. intros H. unfold stops. rewrite H. apply orb_false_r. Qed.

Lemma sh_cancelled_hosted l : all_hosted l -> sh_cancelled_spec l = eff_cancelled_spec l.
Proof.
  induction 1 as [|a l Ha _ IH]; [reflexivity|]. cbn [sh_cancelled_spec eff_cancelled_spec].
  now rewrite IH, (stops_hosted a Ha).
Qed.

(* _parent_cancellation_is_visible_to_us; the chain starts at the scope itself *)
Definition parent_visible_spec (l : list scope_rec) : bool :=
  match l with
  | self :: (_ :: _) as rest => negb (r_shield self) && eff_cancelled_spec rest
  | _ => false
  end.

Lemma parent_visible_spec_iff l :
  parent_visible_spec l = true <->
  exists self rest, l = self :: rest /\ r_shield self = false /\ eff_cancelled_P rest.
Proof.
  destruct l as [|self [|p rest]]; cbn [parent_visible_spec].
  - split; [discriminate|]. intros (a & b & E & _); discriminate.
  - split; [discriminate|]. intros (a & b & E & _ & (pre & r & post & E2 & _)).
    injection E as _ <-. destruct pre; discriminate.
  - rewrite andb_true_iff, eff_cancelled_spec_iff. split.
    + intros [Hs Hc]. exists self, (p :: rest). refine (conj eq_refl (conj _ Hc)). now destruct (r_shield self).
    + intros (a & b & E & Hs & Hc). injection E as <- <-. rewrite Hs. auto.
Qed.

Definition min_deadline (l : list scope_rec) (acc : xtime) : xtime :=
  fold_left (fun a r => xmin a (r_deadline r)) l acc.

Definition eff_deadline_acc (l : list scope_rec) (acc : xtime) : xtime :=
  if eff_cancelled_spec l then XNegInf else min_deadline (visible l) acc.

(* -inf if a scope of the visible chain is cancelled, else the minimum of the visible deadlines *)
Definition eff_deadline_spec (l : list scope_rec) : xtime := eff_deadline_acc l XInf.

Definition xle (a b : xtime) : Prop :=
  match a, b with
  | XNegInf, _ => True
  | _, XInf => True
  | XFin x, XFin y => (x <= y)%Z
  | _, _ => False
  end.

Definition xof (d : option Z) : xtime := match d with Some z => XFin z | None => XInf end.

Lemma xmin_neginf d : xmin XNegInf d = XNegInf.
Proof. reflexivity. Qed.

Lemma min_deadline_neginf l : min_deadline l XNegInf = XNegInf.
Proof. induction l as [|a l IH]; cbn; auto. Qed.

Lemma xle_refl a : xle a a.
Proof. destruct a; cbn; auto; lia. Qed.

Lemma xle_trans a b c : xle a b -> xle b c -> xle a c.
Proof. destruct a, b, c; cbn; auto; try lia; try contradiction. Qed.

Lemma xmin_le_l a d : xle (xmin a d) a.
Proof. destruct a, d; cbn; auto; lia. Qed.

Lemma xmin_le_r a d : xle (xmin a d) (xof d).
Proof. destruct a, d; cbn; auto; lia. Qed.

Lemma xmin_either a d : xmin a d = a \/ xmin a d = xof d.
Proof.
  destruct a, d; cbn; auto.
  destruct (Z.min_spec z z0) as [[_ ->]|[_ ->]]; auto.
Qed.

(* min_deadline is the greatest lower bound of acc and the deadlines of l, and is attained *)
Lemma min_deadline_lower l : forall acc,
  xle (min_deadline l acc) acc /\ forall r, In r l -> xle (min_deadline l acc) (xof (r_deadline r)).
Proof.
  induction l as [|a l IH]; intros acc; cbn [min_deadline fold_left].
  - split; [apply xle_refl|]. intros r [].
  - destruct (IH (xmin acc (r_deadline a))) as [H1 H2]. fold (min_deadline l (xmin acc (r_deadline a))) in *.
    split.
    + eapply xle_trans; [exact H1|apply xmin_le_l].
    + intros r [<-|Hin].
      * eapply xle_trans; [exact H1|apply xmin_le_r].
      * now apply H2.
Qed.

Lemma min_deadline_attained l : forall acc,
  min_deadline l acc = acc \/ exists r, In r l /\ min_deadline l acc = xof (r_deadline r).
Proof.
  induction l as [|a l IH]; intros acc; cbn [min_deadline fold_left]; [now left|].
  fold (min_deadline l (xmin acc (r_deadline a))).
  destruct (IH (xmin acc (r_deadline a))) as [H|(r & Hin & H)].
  - destruct (xmin_either acc (r_deadline a)) as [E|E].
    + left. now rewrite H, E.
    + right. exists a. split; [now left|]. now rewrite H, E.
  - right. exists r. split; [now right|exact H].
Qed.

Theorem eff_deadline_spec_neginf l : eff_deadline_spec l = XNegInf <-> eff_cancelled_spec l = true.
Proof.
  unfold eff_deadline_spec, eff_deadline_acc. destruct (eff_cancelled_spec l) eqn:E.
  - split; auto.
  - split; [|discriminate]. intros H.
    destruct (min_deadline_attained (visible l) XInf) as [H1|(r & _ & H1)]; rewrite H1 in H.
    + discriminate.
    + destruct (r_deadline r); discriminate.
Qed.

Theorem eff_deadline_spec_min l : eff_cancelled_spec l = false ->
  (forall r, In r (visible l) -> xle (eff_deadline_spec l) (xof (r_deadline r))) /\
  (eff_deadline_spec l = XInf \/ exists r, In r (visible l) /\ eff_deadline_spec l = xof (r_deadline r)).
Proof.
  intros E. unfold eff_deadline_spec, eff_deadline_acc. rewrite E. split.
  - apply min_deadline_lower.
  - apply min_deadline_attained.
Qed.

(* _restart_cancellation: which scope (index in the chain) gets _deliver_cancellation restarted *)
Fixpoint first_cancelled (l : list scope_rec) : option (nat * scope_rec) :=
  match l with
  | [] => None
  | r :: rest =>
      if r_cancelled r then Some (0, r)
      else if r_shield r then None
      else match first_cancelled rest with Some (i, x) => Some (S i, x) | None => None end
  end.

Definition restart_target_spec (l : list scope_rec) : option nat :=
  match first_cancelled l with
  | Some (i, r) => if r_chandle r then None else Some i
  | None => None
  end.

Lemma first_cancelled_iff l i r :
  first_cancelled l = Some (i, r) <->
  exists pre post, l = pre ++ r :: post /\ length pre = i /\ Forall open_sh pre /\ r_cancelled r = true.
Proof.
  split.
  - revert i r. induction l as [|a l IH]; intros i r; cbn [first_cancelled]; [discriminate|].
    destruct (r_cancelled a) eqn:Ec.
    { intros H. injection H as <- <-. exists [], l. auto. }
    destruct (r_shield a) eqn:Es; [discriminate|].
    destruct (first_cancelled l) as [[j x]|]; [|discriminate]. intros H. injection H as <- <-.
    destruct (IH j x eq_refl) as (pre & post & -> & <- & Hp & Hc). exists (a :: pre), post.
    refine (conj eq_refl (conj eq_refl (conj _ Hc))). constructor; [split; assumption|exact Hp].
  - intros (pre & post & -> & <- & Hp & Hc). induction Hp as [|a pre [Ha1 Ha2] _ IH]; cbn [app first_cancelled length].
    + now rewrite Hc.
    + now rewrite Ha1, Ha2, IH.
Qed.

Theorem restart_target_spec_iff l i :
  restart_target_spec l = Some i <->
  exists pre r post, l = pre ++ r :: post /\ length pre = i /\ Forall open_sh pre /\
                     r_cancelled r = true /\ r_chandle r = false.
Proof.
  unfold restart_target_spec. split.
  - destruct (first_cancelled l) as [[j r]|] eqn:E; [|discriminate].
    destruct (r_chandle r) eqn:Eh; [discriminate|]. intros H. injection H as <-.
    apply first_cancelled_iff in E. destruct E as (pre & post & E & Hl & Hp & Hc).
    exists pre, r, post. auto.
  - intros (pre & r & post & E & Hl & Hp & Hc & Hh).
    assert (H : first_cancelled l = Some (i, r)) by (apply first_cancelled_iff; exists pre, post; auto).
    now rewrite H, Hh.
Qed.

Lemma first_cancelled_some_eff l : sh_cancelled_spec l = true <-> exists p, first_cancelled l = Some p.
Proof.
  induction l as [|a l IH]; cbn [sh_cancelled_spec first_cancelled].
  - split; [discriminate|]. intros [p H]; discriminate.
  - destruct (r_cancelled a); cbn [orb].
    + split; eauto.
    + destruct (r_shield a); cbn [negb andb].
      * split; [discriminate|]. intros [p H]; discriminate.
      * rewrite IH. split.
        -- intros [[j x] ->]. eauto.
        -- intros [p H]. destruct (first_cancelled l) as [[j x]|]; [eauto|discriminate].
Qed.

Fixpoint is_anyio_cancellation_spec (l : list exc_rec) : bool :=
  match l with
  | [] => false
  | e :: rest => x_has_scope_tag e || (next_is_cancelled_error rest && is_anyio_cancellation_spec rest)
  end.

(* some exception of the chain carries the tag, and every link followed to get there leads to a CancelledError *)
Definition is_anyio_cancellation_P (l : list exc_rec) : Prop :=
  exists pre e post, l = pre ++ e :: post /\ x_has_scope_tag e = true /\
    Forall (fun x => x_has_scope_tag x = false) pre /\
    Forall (fun x => x_is_cancelled_error x = true) (tl (pre ++ [e])).

Lemma is_anyio_cancellation_spec_iff l : is_anyio_cancellation_spec l = true <-> is_anyio_cancellation_P l.
Proof.
  split.
  - induction l as [|a l IH]; cbn [is_anyio_cancellation_spec]; [discriminate|]. destruct (x_has_scope_tag a) eqn:Et.
    { intros _. exists [], a, l. refine (conj eq_refl (conj Et (conj _ _))); constructor. }
    cbn [orb]. intros H. apply andb_true_iff in H. destruct H as [Hn Hr].
    destruct (IH Hr) as (pre & e & post & -> & He & Hp & Hc). exists (a :: pre), e, post.
    refine (conj eq_refl (conj He (conj (Forall_cons _ Et Hp) _))). cbn [app tl].
    destruct pre as [|b pre]; cbn in *; constructor; assumption || constructor.
  - intros (pre & e & post & -> & He & Hp & Hc). induction Hp as [|a pre Ha _ IH]; cbn [app is_anyio_cancellation_spec].
    + now rewrite He.
    + rewrite Ha. cbn [orb app tl] in *. apply andb_true_iff. split.
      * destruct pre; cbn in *; inversion Hc; assumption.
      * apply IH. destruct pre; cbn in *; [constructor|inversion Hc; assumption].
Qed.

Definition rec_of (c : scope) : scope_rec :=
  mkRec (s_cancelled c) (s_shield c) (s_deadline c) (s_chandle c)
        (match s_host c with Some _ => true | None => false end).

Fixpoint chain_of (fuel : nat) (s : st) (x : option sid) : list scope_rec :=
  match fuel, x with
  | S fu, Some c => rec_of (scopes s c) :: chain_of fu s (s_parent (scopes s c))
  | _, _ => []
  end.

(* the scope ids of the same walk, so that an index of the chain names a scope *)
Fixpoint sids_of (fuel : nat) (s : st) (x : option sid) : list sid :=
  match fuel, x with
  | S fu, Some c => c :: sids_of fu s (s_parent (scopes s c))
  | _, _ => []
  end.

Lemma chain_sids_length fuel s : forall x, length (chain_of fuel s x) = length (sids_of fuel s x).
Proof.
  induction fuel as [|fu IH]; intros x; [reflexivity|].
  destruct x as [c|]; cbn; [|reflexivity]. now rewrite IH.
Qed.

Lemma chain_of_nth fuel s : forall x i c,
  nth_error (sids_of fuel s x) i = Some c -> nth_error (chain_of fuel s x) i = Some (rec_of (scopes s c)).
Proof.
  induction fuel as [|fu IH]; intros x i c; [destruct i; discriminate|].
  destruct x as [y|]; cbn [sids_of chain_of]; [|destruct i; discriminate].
  destruct i as [|i]; cbn [nth_error].
  - intros H. now injection H as ->.
  - apply IH.
Qed.

(* chains depend only on the (cancelled, shield, deadline, chandle, parent) fields *)
Lemma chain_of_ext fuel s s' :
  (forall c, rec_of (scopes s' c) = rec_of (scopes s c) /\ s_parent (scopes s' c) = s_parent (scopes s c)) ->
  forall x, chain_of fuel s' x = chain_of fuel s x.
Proof.
  intros H. induction fuel as [|fu IH]; intros x; [reflexivity|].
  destruct x as [c|]; cbn [chain_of]; [|reflexivity].
  destruct (H c) as [-> ->]. now rewrite IH.
Qed.

(* F42: the three walks stop at an exited scope (host = None) and ignore everything above it *)
Lemma eff_cancelled_spec_stop pre e post :
  stops e = true -> eff_cancelled_spec (pre ++ e :: post) = eff_cancelled_spec (pre ++ [e]).
Proof.
  intros He. induction pre as [|a pre IH]; cbn [app eff_cancelled_spec]; [|now rewrite IH].
  rewrite He. cbn [negb andb]. reflexivity.
Qed.

Lemma visible_stop pre e post : stops e = true -> visible (pre ++ e :: post) = visible (pre ++ [e]).
Proof.
  intros He. induction pre as [|a pre IH]; cbn [app visible]; [now rewrite He|]. now rewrite IH.
Qed.

Theorem chain_walk_stops_at_exited_scope pre e post :
  r_hosted e = false ->
  eff_cancelled_spec (pre ++ e :: post) = eff_cancelled_spec (pre ++ [e]) /\
  ckif_spins_spec (pre ++ e :: post) = ckif_spins_spec (pre ++ [e]) /\
  eff_deadline_spec (pre ++ e :: post) = eff_deadline_spec (pre ++ [e]).
Proof.
  intros He. assert (Hs : stops e = true) by (unfold stops; rewrite He; apply orb_true_r).
  unfold ckif_spins_spec, eff_deadline_spec, eff_deadline_acc.
  now rewrite (eff_cancelled_spec_stop pre e post Hs), (visible_stop pre e post Hs).
Qed.

(* non-vacuity: a task left in an exited scope below a cancelled ancestor (the F42 situation) *)
Definition f42_chain : list scope_rec :=
  [mkRec false false None false false;          (* the exited internal scope of run_sync(): host = None *)
   mkRec true false (Some 3%Z) true true].      (* its former parent: cancelled, delivery running *)

Example f42_new_walks :
  eff_cancelled_spec f42_chain = false /\ ckif_spins_spec f42_chain = false /\ eff_deadline_spec f42_chain = XInf.
Proof. repeat split; reflexivity. Qed.

(* the walk that stops only at shields (every walk before the fix) sees the cancelled ancestor although no delivery
   can reach the task: checkpoint_if_cancelled spins forever *)
Example f42_old_walk_refuted_pinned : sh_cancelled_spec f42_chain = true /\ eff_cancelled_spec f42_chain = false.
Proof. split; reflexivity. Qed.

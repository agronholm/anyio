(* Instance of the generic step walk: how cancel_called, cancelled_caught and the ghost "cancelled by its own
   deadline" can move in ONE step, for EVERY op:
     - cancelled_caught and cancel_called are never reset (allocated scopes);
     - cancelled_caught becomes true only on a scope that is cancel_called;
     - a scope becomes cancelled-by-deadline only in a step in which it becomes cancel_called, and at the end of
       that step its deadline is <= now (never early). *)
From AV Require Import Base Machine MachineFacts ChainFrame ChainThms ChainWalk.

(* the relation kept by every op that neither assigns a deadline nor moves the clock; WREL below is what survives
   those two *)
Record srel1 (s s' : st) (c : sid) : Prop := mk_srel1 {
  sr_deadline : s_deadline (scopes s' c) = s_deadline (scopes s c);
  sr_caught : s_caught (scopes s c) = true -> s_caught (scopes s' c) = true;
  sr_canc : s_cancelled (scopes s c) = true -> s_cancelled (scopes s' c) = true;
  sr_caught_by : s_caught (scopes s' c) = true ->
                 s_caught (scopes s c) = true \/ s_cancelled (scopes s' c) = true;
  sr_bydl : s_bydeadline (scopes s' c) = true ->
            s_bydeadline (scopes s c) = true \/
            (s_cancelled (scopes s c) = false /\ s_cancelled (scopes s' c) = true /\ due s' c)
}.

Record SREL (s s' : st) : Prop := mk_SREL {
  sr_now : now s' = now s;
  sr_nscope : nscope s <= nscope s';
  sr_scopes : forall c, c < nscope s -> srel1 s s' c
}.

Record flags_eq (a b : scope) : Prop := mk_flags_eq {
  fe_deadline : s_deadline a = s_deadline b;
  fe_caught : s_caught a = s_caught b;
  fe_cancelled : s_cancelled a = s_cancelled b;
  fe_bydeadline : s_bydeadline a = s_bydeadline b
}.

Lemma flags_eq_refl a : flags_eq a a.
Proof. constructor; reflexivity. Qed.

Lemma srel_flags_eq s s' :
  now s' = now s -> nscope s <= nscope s' ->
  (forall c, c < nscope s -> flags_eq (scopes s' c) (scopes s c)) -> SREL s s'.
Proof.
  intros H1 H2 H3. constructor; auto. intros c Hc. destruct (H3 c Hc) as [E1 E2 E3 E4].
  constructor; rewrite ?E1, ?E2, ?E3, ?E4; auto.
Qed.

Lemma srel_refl s : SREL s s.
Proof. apply srel_flags_eq; auto. intros; apply flags_eq_refl. Qed.

Lemma srel_trans a b c : SREL a b -> SREL b c -> SREL a c.
Proof.
  intros [N1 M1 H1] [N2 M2 H2]. constructor; [congruence|lia|].
  intros x Hx. destruct (H1 x Hx) as [D1 C1 K1 B1 Y1]. destruct (H2 x ltac:(lia)) as [D2 C2 K2 B2 Y2].
  constructor.
  - congruence.
  - auto.
  - auto.
  - intros H. destruct (B2 H) as [H'|H']; [|now right]. destruct (B1 H') as [H''|H'']; [now left|right; auto].
  - intros H. destruct (Y2 H) as [H'|(Q1 & Q2 & Q3)].
    + destruct (Y1 H') as [H''|(Q1 & Q2 & d & Q3 & Q4)]; [now left|]. right.
      refine (conj Q1 (conj (K2 Q2) _)). exists d. split; [congruence|]. rewrite N2. exact Q4.
    + right. refine (conj _ (conj Q2 Q3)).
      destruct (s_cancelled (scopes a x)) eqn:E; [|reflexivity]. rewrite (K1 eq_refl) in Q1. discriminate.
Qed.

Lemma srel_frame a b : frame a b -> SREL a b.
Proof.
  intros F. apply srel_flags_eq; [apply (fr_now _ _ F)|rewrite (fr_nscope _ _ F); lia|].
  intros c _. destruct (fr_scopes _ _ F c). constructor; assumption.
Qed.

Lemma srel_upd_scope s x g : (forall k, flags_eq (g k) k) -> SREL s (upd_scope s x g).
Proof.
  intros Hg. apply srel_flags_eq; auto. intros c _. cbn [upd_scope set_scopes scopes]. rewrite upd_eq.
  destruct (Nat.eqb c x) eqn:E; [|apply flags_eq_refl]. apply Nat.eqb_eq in E. subst c. apply Hg.
Qed.

Lemma srel_same_scopes s s' : now s' = now s -> nscope s' = nscope s -> scopes s' = scopes s -> SREL s s'.
Proof.
  intros H1 H2 H3. apply srel_flags_eq; [exact H1|lia|]. intros c _. rewrite H3. apply flags_eq_refl.
Qed.

Lemma srel_new_scope s d sh : SREL s (fst (new_scope s d sh)).
Proof.
  apply srel_flags_eq; [reflexivity|cbn; lia|]. intros c Hc. cbn [new_scope fst scopes].
  rewrite upd_other by lia. apply flags_eq_refl.
Qed.

(* no deadline is assigned and the clock stands still; a scope is marked cancelled-by-deadline when its deadline is due *)
Definition srel_side : prim_side := mk_prim_side True False False (fun _ _ => True).

Lemma srel_prims : prim_hyps SREL srel_side.
Proof.
  constructor; cbn [srel_side ps_dl ps_setdl ps_tick ps_cancel].
  - apply srel_refl.
  - apply srel_trans.
  - apply srel_frame.
  - intros s tm. apply srel_same_scopes; reflexivity.
  - intros s w f. apply srel_same_scopes; reflexivity.
  - intros s w c _. apply srel_same_scopes; reflexivity.
  - intros s c o. apply srel_upd_scope. intros k; constructor; reflexivity.
  - intros s c b. apply srel_upd_scope. intros k; constructor; reflexivity.
  - intros s c d [].
  - intros s c Ec. constructor; [reflexivity|apply Nat.le_refl|]. intros x _.
    destruct (Nat.eq_dec x c) as [->|Hx]; constructor; rewrite ?scopes_upd_same, ?(scopes_upd_other _ _ _ _ Hx); cbn; auto.
  - intros a s c b [N1 M1 K1] Ec Hb. constructor; [exact N1|exact M1|]. intros x Hx. destruct (K1 x Hx) as [D C K B Y].
    destruct (Nat.eq_dec x c) as [->|Hc]; constructor; unfold due;
      rewrite ?scopes_upd_same, ?(scopes_upd_other _ _ _ _ Hc); cbn [mark sc_bydeadline sc_cancelled s_deadline s_caught s_cancelled s_bydeadline upd_scope set_scopes now]; auto.
    intros ->. right. destruct Hb as [Hd _]. refine (conj _ (conj eq_refl Hd)).
    destruct (s_cancelled (scopes a c)); [|reflexivity]. now rewrite (K eq_refl) in Ec.
  - intros; exact I.
  - intros; exact I.
  - apply srel_new_scope.
  - intros s. eapply srel_trans; [apply srel_new_scope|]. apply srel_same_scopes; reflexivity.
  - intros s g sf. eapply srel_trans; [apply srel_new_scope|]. apply srel_same_scopes; reflexivity.
  - intros s. apply srel_same_scopes; reflexivity.
  - intros s t f tm. apply srel_same_scopes; reflexivity.
  - intros s h. apply srel_same_scopes; reflexivity.
  - intros s dt _ [].
Qed.

Lemma srel_walk : walk_hyps SREL (prim_oks srel_side).
Proof. exact (prim_walk srel_prims). Qed.

Lemma srel_step s o :
  match o with ASetDeadline _ _ _ | ATick _ => False | _ => True end -> SREL s (fst (step s o)).
Proof. intros Ho. apply (walk_step srel_walk), prim_op_ok; [exact I|]. destruct o; exact Ho || exact I. Qed.

Lemma srel_scope_timeout s c : SREL s (scope_timeout s c).
Proof. apply (R_scope_timeout srel_prims); [apply srel_refl|intros _; exact I]. Qed.

Lemma srel_scope_enter s c t : SREL s (fst (scope_enter s c t)).
Proof. apply (R_scope_enter srel_prims). intros _; exact I. Qed.

(* the relation that survives the two ops that move deadlines / the clock *)
Record WREL (s s' : st) : Prop := mk_WREL {
  wr_nscope : nscope s <= nscope s';
  wr_scopes : forall c, c < nscope s ->
    (s_caught (scopes s c) = true -> s_caught (scopes s' c) = true) /\
    (s_cancelled (scopes s c) = true -> s_cancelled (scopes s' c) = true) /\
    (s_caught (scopes s' c) = true -> s_caught (scopes s c) = true \/ s_cancelled (scopes s' c) = true) /\
    (s_bydeadline (scopes s' c) = true ->
     s_bydeadline (scopes s c) = true \/
     (s_cancelled (scopes s c) = false /\ s_cancelled (scopes s' c) = true /\ due s' c))
}.

Lemma srel_wrel s s' : SREL s s' -> WREL s s'.
Proof. intros [N M K]. constructor; [exact M|]. intros c Hc. destruct (K c Hc). auto. Qed.

(* SREL after a move that keeps the allocation bound and the three flags WREL speaks of *)
Lemma wrel_pre a b c :
  nscope b = nscope a ->
  (forall x, s_caught (scopes b x) = s_caught (scopes a x) /\ s_cancelled (scopes b x) = s_cancelled (scopes a x) /\
             s_bydeadline (scopes b x) = s_bydeadline (scopes a x)) ->
  SREL b c -> WREL a c.
Proof.
  intros N F [N2 M2 K2]. constructor; [lia|]. intros x Hx. destruct (K2 x ltac:(lia)) as [D2 C2 Q2 B2 Y2].
  destruct (F x) as (E1 & E2 & E3). rewrite <- E1, <- E2, <- E3. auto.
Qed.

Theorem step_flags s o : WREL s (fst (step s o)).
Proof.
  destruct o; try (apply srel_wrel, srel_step; exact I).
  - (* ASetDeadline: once the deadline is stored and the old timer cancelled, the rest is an SREL move *)
    destruct (idle s t) eqn:Hi; [|rewrite (step_busy s (ASetDeadline t c d) t eq_refl Hi); apply srel_wrel, srel_refl].
    rewrite (step_setdl s t c d Hi). unfold set_deadline_body. cbv zeta. set (s0 := upd_scope (begin_act s t) c (sc_deadline d)).
    pose proof (xframe_cancel_timeout s0 c) as X. apply (wrel_pre s (cancel_timeout s0 c)).
    + apply (xf_nscope _ _ X).
    + intros x. destruct (xf_scopes _ _ X x) as [Xc _ _ Xk _ Xb]. rewrite Xk, Xc, Xb. unfold s0.
      destruct (Nat.eq_dec x c) as [->|Hx]; rewrite ?scopes_upd_same, ?(scopes_upd_other _ _ _ _ Hx); auto.
    + eapply srel_trans; [|apply srel_frame, frame_ret].
      destruct (_ && _); [apply srel_scope_timeout|apply srel_refl].
  - (* ATick *)
    rewrite step_tick. destruct (Z.ltb dt 0); cbn [fst]; [apply srel_wrel, srel_refl|].
    constructor; [reflexivity|]. intros c _. cbn [tick set_ready set_timers set_now scopes]. tauto.
Qed.

(* C04: cancelled_caught / cancel_called are never reset, and cancelled_caught appears only on a cancelled scope *)
Theorem caught_cancelled_monotone s o c :
  c < nscope s ->
  (s_caught (scopes s c) = true -> s_caught (scopes (fst (step s o)) c) = true) /\
  (s_cancelled (scopes s c) = true -> s_cancelled (scopes (fst (step s o)) c) = true) /\
  (s_caught (scopes s c) = false -> s_caught (scopes (fst (step s o)) c) = true ->
   s_cancelled (scopes (fst (step s o)) c) = true).
Proof.
  intros Hc. destruct (wr_scopes _ _ (step_flags s o) c Hc) as (A1 & A2 & A3 & _).
  refine (conj A1 (conj A2 _)). intros H0 H1. destruct (A3 H1) as [H|H]; [congruence|exact H].
Qed.

(* C06: never early.  A scope is marked cancelled-by-deadline only in a step in which it becomes cancelled, and
   when that step ends its deadline has been reached. *)
Theorem deadline_cancel_only_when_due s o c :
  c < nscope s ->
  s_bydeadline (scopes s c) = false -> s_bydeadline (scopes (fst (step s o)) c) = true ->
  s_cancelled (scopes s c) = false /\ s_cancelled (scopes (fst (step s o)) c) = true /\
  exists d, s_deadline (scopes (fst (step s o)) c) = Some d /\ (d <= now (fst (step s o)))%Z.
Proof.
  intros Hc H0 H1. destruct (wr_scopes _ _ (step_flags s o) c Hc) as (_ & _ & _ & A4).
  destruct (A4 H1) as [H|H]; [congruence|exact H].
Qed.

(* the only place where the ghost is set: CancelScope._timeout, under its own test *)
Theorem scope_timeout_only_when_due s c x :
  s_bydeadline (scopes (scope_timeout s c) x) = true -> s_bydeadline (scopes s x) = false ->
  x = c /\ exists d, s_deadline (scopes s c) = Some d /\ (d <= now s)%Z.
Proof.
  unfold scope_timeout. destruct (s_deadline (scopes s c)) as [d|] eqn:Ed; [|congruence].
  destruct (Z.leb d (now s)) eqn:El.
  - intros H1 H0. assert (x = c) as ->.
    { destruct (Nat.eq_dec x c) as [->|Hx]; [reflexivity|]. exfalso.
      unfold scope_cancel in H1. destruct (s_cancelled (scopes s c)); [congruence|].
      set (s2 := upd_scope (cancel_timeout s c) c _) in H1.
      assert (E2 : s_bydeadline (scopes s2 x) = s_bydeadline (scopes s x)).
      { unfold s2. cbn [upd_scope set_scopes scopes]. rewrite upd_other by exact Hx.
        unfold cancel_timeout. destruct (s_timeout (scopes s c)); [|reflexivity].
        cbn [upd_scope set_scopes scopes timer_cancel set_ready set_timers]. now rewrite upd_other. }
      destruct (s_host (scopes s2 c)).
      - pose proof (deliver_top_dframe s2 c) as D. rewrite (ce_bydeadline _ _ (df_scopes _ _ D x)) in H1. congruence.
      - congruence. }
    split; [reflexivity|]. exists d. split; [reflexivity|now apply Z.leb_le].
  - cbn [call_at]. intros H1 H0. exfalso. cbn [upd_scope set_scopes scopes] in H1. rewrite upd_eq in H1.
    destruct (Nat.eqb x c) eqn:E; [apply Nat.eqb_eq in E; subst x|]; cbn in H1; congruence.
Qed.

(* which ops can mark a scope cancelled-by-deadline at all *)
Record NB (s s' : st) : Prop := mk_NB {
  nb_nscope : nscope s <= nscope s';
  nb_scopes : forall c, c < nscope s -> s_bydeadline (scopes s' c) = true -> s_bydeadline (scopes s c) = true
}.

Lemma nb_refl s : NB s s.
Proof. constructor; auto. Qed.

Lemma nb_trans a b c : NB a b -> NB b c -> NB a c.
Proof. intros [N1 K1] [N2 K2]. constructor; [lia|]. intros x Hx H. apply K1; [exact Hx|]. apply K2; [lia|exact H]. Qed.

Lemma nb_same s s' : nscope s <= nscope s' ->
  (forall c, c < nscope s -> s_bydeadline (scopes s' c) = s_bydeadline (scopes s c)) -> NB s s'.
Proof. intros H1 H2. constructor; [exact H1|]. intros c Hc. now rewrite (H2 c Hc). Qed.

Lemma nb_frame a b : frame a b -> NB a b.
Proof.
  intros F. apply nb_same; [rewrite (fr_nscope _ _ F); lia|]. intros c _. apply (tc_bydeadline _ _ (fr_scopes _ _ F c)).
Qed.

Lemma nb_upd_scope s x g : (forall k, s_bydeadline (g k) = s_bydeadline k) -> NB s (upd_scope s x g).
Proof.
  intros Hg. apply nb_same; [cbn; lia|]. intros c _. cbn [upd_scope set_scopes scopes]. rewrite upd_eq.
  destruct (Nat.eqb c x) eqn:E; [|reflexivity]. apply Nat.eqb_eq in E. subst c. apply Hg.
Qed.

Lemma nb_same_scopes s s' : nscope s' = nscope s -> scopes s' = scopes s -> NB s s'.
Proof. intros H1 H2. apply nb_same; [lia|]. intros c _. now rewrite H2. Qed.

Lemma nb_new_scope s d sh : NB s (fst (new_scope s d sh)).
Proof.
  apply nb_same; [cbn; lia|]. intros c Hc. cbn [new_scope fst scopes]. now rewrite upd_other by lia.
Qed.

(* cancel() is fine, _timeout finding its deadline due is not *)
Definition nb_side : prim_side := mk_prim_side False True True (fun _ _ => True).

Lemma nb_prims : prim_hyps NB nb_side.
Proof.
  constructor; cbn [nb_side ps_dl ps_setdl ps_tick ps_cancel].
  - apply nb_refl.
  - apply nb_trans.
  - apply nb_frame.
  - intros s tm. apply nb_same_scopes; reflexivity.
  - intros s w f. apply nb_same_scopes; reflexivity.
  - intros s w c _. apply nb_same_scopes; reflexivity.
  - intros s c o. apply nb_upd_scope. reflexivity.
  - intros s c b. apply nb_upd_scope. reflexivity.
  - intros s c d _. apply nb_upd_scope. reflexivity.
  - intros s c _. apply nb_upd_scope. reflexivity.
  - intros a s c b [N K] _ Hb. destruct b; [destruct Hb as [_ []]|]. constructor; [exact N|]. intros x Hx.
    destruct (Nat.eq_dec x c) as [->|Hc]; rewrite ?scopes_upd_same, ?(scopes_upd_other _ _ _ _ Hc);
      [cbn; discriminate|now apply K].
  - intros; exact I.
  - intros; exact I.
  - apply nb_new_scope.
  - intros s. eapply nb_trans; [apply nb_new_scope|]. apply nb_same_scopes; reflexivity.
  - intros s g sf. eapply nb_trans; [apply nb_new_scope|]. apply nb_same_scopes; reflexivity.
  - intros s. apply nb_same_scopes; reflexivity.
  - intros s t f tm. apply nb_same_scopes; reflexivity.
  - intros s h. apply nb_same_scopes; reflexivity.
  - intros s dt _ _. apply nb_same_scopes; reflexivity.
Qed.

(* ops that cannot run _timeout on a scope with a finite deadline *)
Definition quiet_op (s : st) (o : op) : Prop :=
  match o with
  | AEnter _ c => s_deadline (scopes s c) = None
  | ASetDeadline _ _ d => d = None
  | AFailAt _ d _ => d = None
  | AGroupEnter _ g => s_deadline (scopes s (g_scope (groups s g))) = None
  | ARun (HStep t) | ARun (HWake t _) => s_deadline (scopes s (k_hscope (tasks s t))) = None
  | ARun (HTimeout _ _) => False
  | _ => True
  end.

Lemma quiet_op_ok s o : quiet_op s o -> @op_ok (prim_oks nb_side) s o.
Proof.
  assert (K : forall (a : st) c, s_deadline (scopes a c) = None -> due a c -> False)
    by (intros a c E (d & Ed & _); congruence).
  destruct o; cbn [quiet_op op_ok prim_oks nb_side ps_dl ps_setdl ps_tick ps_cancel
                   ok_enter ok_setdl ok_tick ok_new ok_genter ok_henter ok_trun ok_cancel]; auto.
  - (* AEnter *) exact (K (begin_act s t) c).
  - (* AGroupEnter *) intros E. apply K. cbn [upd_group set_groups groups scopes begin_act set_running upd_task set_tasks].
    rewrite upd_same. exact E.
  - (* ARun *) destruct h; cbn [run_ok prim_oks ok_henter ok_trun]; auto; intros E; apply K;
      cbn [upd_task set_tasks tasks scopes incoming fst set_running dequeue set_ready]; rewrite !upd_same; exact E.
Qed.

(* C06: the ghost "cancelled by its deadline" can only appear in a step that enters a scope with a finite
   deadline (AEnter, AFailAt, AGroupEnter, first step of a child), assigns a finite deadline, or runs a fired
   timeout callback *)
Theorem bydeadline_only_by_timeout_ops s o c :
  c < nscope s -> quiet_op s o -> s_bydeadline (scopes s c) = false ->
  s_bydeadline (scopes (fst (step s o)) c) = false.
Proof.
  intros Hc Hq H0. pose proof (walk_step (prim_walk nb_prims) s o (quiet_op_ok s o Hq)) as [_ K].
  destruct (s_bydeadline (scopes (fst (step s o)) c)) eqn:E; [|reflexivity]. rewrite (K c Hc E) in H0. discriminate.
Qed.

(* The mid-step predicate Run (the invariant while a task is running) and its preservation by the blocks that
   puppet operations and resumptions are made of. *)
From AV Require Import Base Machine MachineFacts GroupInv GroupInv2 GroupInv3 GroupInv4 GroupInv5.

Definition Run (t : tid) (s : st) : Prop :=
  MInv s /\ running s = Some t /\ k_final (tasks s t) = None.

Definition owns (s : st) (t : tid) (c : sid) : Prop :=
  s_active (scopes s c) = true /\ s_host (scopes s c) = Some t /\ k_cur (tasks s t) = Some c /\ c < nscope s.

Lemma kframe_final C T s s' t : kframe C T s s' -> k_final (tasks s' t) = k_final (tasks s t).
Proof. intros F. pose proof (tview_inv _ _ (fr_tv _ _ _ _ F t)). tauto. Qed.

Lemma Run_kstar C T t s s' : kstar C T s s' -> ksafe C T s -> Run t s -> Run t s'.
Proof.
  intros H S [M [Hr Hf]]. pose proof (kframe_kstar _ _ _ _ H) as F.
  refine (conj (M_kstar _ _ _ _ H S M) (conj _ _)).
  - now rewrite (fr_running _ _ _ _ F).
  - now rewrite (kframe_final _ _ _ _ t F).
Qed.

Lemma Run_kstar_none t s s' : kstar none_s none_t s s' -> Run t s -> Run t s'.
Proof. intros H. apply (Run_kstar _ _ t _ _ H), ksafe_none. Qed.

Lemma owns_kframe C T s s' t c : kframe C T s s' -> ~ C c -> ~ T t -> owns s t c -> owns s' t c.
Proof.
  intros F HC HT [H1 [H2 [H3 H4]]]. destruct (fr_sc _ _ _ _ F c HC) as [E1 [E2 _]].
  unfold owns. rewrite E1, E2, (fr_cur _ _ _ _ F t HT), (fr_nscope _ _ _ _ F). auto.
Qed.

Lemma owns_kstar_none s s' t c : kstar none_s none_t s s' -> owns s t c -> owns s' t c.
Proof. intros H. apply (owns_kframe _ _ _ _ _ _ (kframe_kstar _ _ _ _ H)); intros []. Qed.

Lemma scope_enter_active s c t : s_active (scopes s c) = true -> scope_enter s c t = (s, Some ERuntime).
Proof. intros H. unfold scope_enter. now rewrite H. Qed.

Lemma ksafe_enter s c t : CInv s -> running s = Some t -> s_active (scopes s c) = false -> ksafe (eq c) (eq t) s.
Proof.
  intros Ci Hr Ha. split.
  - intros x c' Hx Ht <-. destruct (c_top s Ci x c Hx Ht) as [H _]. congruence.
  - intros x <-. exact Hr.
Qed.

Lemma ksafe_exit s c t : CInv s -> running s = Some t -> s_host (scopes s c) = Some t -> ksafe (eq c) (eq t) s.
Proof.
  intros Ci Hr Hh. split.
  - intros x c' Hx Ht <-. destruct (c_top s Ci x c Hx Ht) as [_ [H _]]. rewrite Hh in H. injection H as ->.
    contradiction.
  - intros x <-. exact Hr.
Qed.

Lemma Run_scope_enter t s c : Run t s -> Run t (fst (scope_enter s c t)).
Proof.
  intros R. destruct (s_active (scopes s c)) eqn:Ea.
  - rewrite scope_enter_active; auto.
  - destruct R as [M [Hr Hf]]. apply (Run_kstar _ _ t _ _ (ks_scope_enter s c t)); [|split; auto].
    apply ksafe_enter; auto. apply M.
Qed.

Lemma Run_scope_exit t s c exc : Run t s -> Run t (fst (scope_exit s c t exc)).
Proof.
  intros R. destruct (scope_exit_cases s c t exc) as [E|[Ha [Hh Hc]]].
  - rewrite E. exact R.
  - destruct R as [M [Hr Hf]]. apply (Run_kstar _ _ t _ _ (ks_scope_exit s c t exc)); [|split; auto].
    apply ksafe_exit; auto. apply M.
Qed.

(* entering an inactive scope makes the task own it *)
Lemma scope_enter_owns s c t : s_active (scopes s c) = false -> c < nscope s ->
  owns (fst (scope_enter s c t)) t c.
Proof.
  intros Ha Hc. rewrite scope_enter_eq, Ha. cbn zeta. cbn [fst].
  match goal with |- owns (if _ then deliver_top ?x _ else _) _ _ => set (s5 := x) end.
  assert (O5 : owns s5 t c).
  { assert (O3 : s_host (scopes (enter_links s c t) c) = Some t /\ k_cur (tasks (enter_links s c t) t) = Some c /\
                 nscope (enter_links s c t) = nscope s).
    { rewrite enter_links_tasks, Nat.eqb_refl. unfold enter_links. cbn zeta. destruct (k_cur (tasks s t)) as [p|].
      - cbn [upd_scope set_scopes scopes upd_task set_tasks nscope]. refine (conj _ (conj eq_refl eq_refl)).
        destruct (Nat.eq_dec c p) as [<-|Hne]; [rewrite !upd_same|rewrite (upd_other _ p _ c Hne), upd_same]; reflexivity.
      - cbn [upd_scope set_scopes scopes upd_task set_tasks nscope]. rewrite upd_same. auto. }
    destruct O3 as [H1 [H2 H3]].
    pose proof (kframe_kstar _ _ _ _ (ks_scope_timeout none_s none_t (enter_links s c t) c)) as F.
    destruct (fr_sc _ _ _ _ F c (fun x => x)) as [_ [E2 _]].
    unfold owns, s5. cbn [upd_scope set_scopes scopes tasks nscope]. rewrite upd_same. cbn.
    rewrite E2, (fr_cur _ _ _ _ F t (fun x => x)), (fr_nscope _ _ _ _ F), H3. auto. }
  destruct (s_cancelled (scopes s5 c)); [|exact O5].
  apply (owns_kstar_none _ _ _ _ (ks_deliver_top _ _ s5 c)), O5.
Qed.

Lemma begin_act_final s t : k_final (tasks (begin_act s t) t) = k_final (tasks s t).
Proof. unfold begin_act. tcase t t; [reflexivity|contradiction]. Qed.
Lemma begin_act_done s t : k_done (tasks (begin_act s t) t) = k_done (tasks s t).
Proof. unfold begin_act. tcase t t; [reflexivity|contradiction]. Qed.

Lemma Run_begin s t : Inv s -> idle s t = true -> Run t (begin_act s t).
Proof.
  intros I Hi. destruct (M_begin_act s t I Hi) as [M [Hr [Hc Hal]]]. refine (conj M (conj Hr _)).
  rewrite begin_act_final. destruct I as [M0 Hrun].
  destruct (k_final (tasks s t)) eqn:E; [|reflexivity]. exfalso.
  assert (Hd : k_done (tasks s t) <> None).
  { apply (h_fd s (m_c s M0) t); [rewrite Hrun; discriminate|congruence]. }
  apply Hd. destruct (k_run _ (m_k _ M) t Hr) as [_ [H _]]. rewrite begin_act_done in H. exact H.
Qed.

Lemma Inv_ret s t r : Run t s -> Inv (fst (ret_to_puppet s t r)).
Proof. intros [M [Hr Hf]]. split; [apply M_ret_to_puppet; auto|reflexivity]. Qed.

Lemma Run_new_scope t s d sh : Run t s -> Run t (ns s d sh).
Proof. intros [M [Hr Hf]]. exact (conj (M_new_scope s d sh M) (conj Hr Hf)). Qed.

Lemma Run_upd_task_irrel t s x g : tk_irrel g -> Run t s -> Run t (upd_task s x g).
Proof.
  intros Hg [M [Hr Hf]]. refine (conj (M_upd_task_irrel s x g Hg M) (conj Hr _)).
  tcase t x; [|exact Hf]. subst. destruct (Hg (tasks s x)) as [_ [_ [_ [_ [_ [_ [_ [_ [_ [_ [-> _]]]]]]]]]]]. exact Hf.
Qed.

Lemma Run_keeps t s c g : sc_keeps g -> Run t s -> Run t (upd_scope s c g).
Proof. intros Hg. apply Run_kstar_none, ks_one, kp_scope_keeps, Hg. Qed.

Lemma Run_scope_cancel t s c b : Run t s -> Run t (scope_cancel s c b).
Proof. apply Run_kstar_none, ks_scope_cancel. Qed.

Lemma Run_new_fut t s : Run t s -> Run t (nf s) /\ fresh (nf s) (nfut s).
Proof. intros [M [Hr Hf]]. destruct (M_new_fut s M) as [M1 F]. exact (conj (conj M1 (conj Hr Hf)) F). Qed.

Lemma Run_gr_entered t s g b : Run t s -> Run t (upd_group s g (gr_entered b)).
Proof. intros [M [Hr Hf]]. exact (conj (M_gr_entered s g b M) (conj Hr Hf)). Qed.

(* a control state other than the waits of start(): what is asked is that the task owns the scope on top *)
Definition simple_ctl (c : ctl) : bool :=
  match c with CDone | CStartWait _ _ _ | CStartJoin _ _ _ _ => false | _ => true end.

Lemma ctl_ok_simple s t c : simple_ctl c = true -> (forall x, top_scope c = Some x -> owns s t x) -> ctl_ok s t c.
Proof.
  intros Hs Ho. destruct c; try discriminate; (refine (conj _ (conj Ho (conj _ _))); discriminate).
Qed.

Lemma Inv_block_yield s t c : Run t s -> ctl_waiter c None -> ctl_ok s t c ->
  Inv (fst (blocked (set_ctl (bare_yield s t) t c))).
Proof. intros [M [Hr Hf]] Hw Ho. split; [apply M_block_yield; auto|reflexivity]. Qed.

Lemma Inv_block_on s t f c : Run t s -> unwaited s f -> ctl_waiter c (Some f) -> c <> CIdle -> ctl_ok s t c ->
  Inv (fst (blocked (set_ctl (suspend_on s t f) t c))).
Proof.
  intros [M [Hr Hf]] Hu Hw Hi Ho. split; [apply M_block_on; auto|reflexivity].
Qed.

Lemma Run_fut_complete t s f v : Run t s -> v <> FPend -> refd s f ->
  (forall r e, v = FRes r -> In f (e_waiters (events s e)) -> e_set (events s e) = true) ->
  Run t (fut_complete s f v).
Proof.
  intros [M [Hr Hf]] Hv Hrf He. refine (conj (M_fut_complete s f v M Hv Hrf He) (conj _ _)).
  - now rewrite fc_running.
  - now rewrite fc_tasks.
Qed.

Lemma Run_evadd t s e f : Run t s -> fresh s f -> Run t (evadd s e f).
Proof. intros [M [Hr Hf]] F. exact (conj (M_evadd s e f M F) (conj Hr Hf)). Qed.

(* Event.wait(): a checkpoint if the event is set, else the task waits on a new future added to the event *)
Lemma Inv_event_wait s t e (c : option fid -> ctl) : Run t s ->
  ctl_waiter (c None) None -> (forall f, ctl_waiter (c (Some f)) (Some f)) -> (forall f, c (Some f) <> CIdle) ->
  ctl_ok s t (c None) -> ctl_ok (evadd (nf s) e (nfut s)) t (c (Some (nfut s))) ->
  Inv (fst (let '(s1, f) := event_wait s t e in blocked (set_ctl s1 t (c f)))).
Proof.
  intros R W0 W1 Hi O0 O1. unfold event_wait. destruct (e_set (events s e)).
  - apply Inv_block_yield; auto.
  - rewrite new_fut_eq. destruct (Run_new_fut t s R) as [R1 F].
    change (upd_event (nf s) e (fun x => mkEvent (e_set x) (e_waiters x ++ [nfut s]))) with (evadd (nf s) e (nfut s)).
    apply Inv_block_on; auto; [apply Run_evadd; auto|apply unwaited_evadd, F].
Qed.

Lemma ns_inactive s d sh : s_active (scopes (ns s d sh) (nscope s)) = false.
Proof. rewrite ns_scope_new. reflexivity. Qed.

Lemma ns_nscope s d sh : nscope (ns s d sh) = S (nscope s).
Proof. reflexivity. Qed.

(* a fresh scope entered by the running task *)
Lemma Run_fresh_scope t s d sh : Run t s ->
  let s2 := fst (scope_enter (ns s d sh) (nscope s) t) in Run t s2 /\ owns s2 t (nscope s).
Proof.
  intros R. cbn zeta. split.
  - apply Run_scope_enter, Run_new_scope, R.
  - apply scope_enter_owns; [apply ns_inactive|rewrite ns_nscope; lia].
Qed.

Lemma Run_casl t s w f : Run t s -> fresh s f -> Run t (casl s w f).
Proof. intros [M [Hr Hf]] F. exact (conj (M_casl s w f M F) (conj Hr Hf)). Qed.

Lemma Inv_park s t : Run t s -> Inv (set_running (park s t) None).
Proof. intros [M [Hr Hf]]. split; [apply M_park; auto|reflexivity]. Qed.

Definition spawned (s : st) (g : gid) (sf : option fid) : st := fst (spawn_task s g sf).

Lemma spawn_task_eq s g sf : spawn_task s g sf = (spawned s g sf, ntask s).
Proof. reflexivity. Qed.

Lemma spawned_eq s g sf :
  spawned s g sf =
  let s1 := ns s None false in
  let c := ntask s in
  let gs := g_scope (groups s g) in
  let s2 := talloc s1 (child_rec gs g (nscope s) (nevent s) sf) true in
  let s3 := upd_scope s2 gs (fun x => sc_tasks (add c (s_tasks x)) x) in
  let s4 := upd_group s3 g (gjoin c) in
  call_soon (restart s4 (Some gs)) (HStep c).
Proof. reflexivity. Qed.

Lemma Run_spawn t s g sf : Run t s -> match sf with Some f => fresh s f | None => True end ->
  let c := ntask s in let s' := spawned s g sf in
  Run t s' /\ alloc s' c /\ k_startfut (tasks s' c) = sf /\ k_group (tasks s' c) = Some g /\ c <> t /\
  (forall f, sf = Some f -> unwaited s' f).
Proof.
  intros R Hsf. cbn zeta. rewrite spawned_eq. cbn zeta.
  set (c := ntask s). set (gs := g_scope (groups s g)).
  set (k := child_rec gs g (nscope s) (nevent s) sf).
  set (s1 := ns s None false). set (s2 := talloc s1 k true).
  set (s3 := upd_scope s2 gs (fun x => sc_tasks (add c (s_tasks x)) x)).
  set (s4 := upd_group s3 g (gjoin c)). set (s5 := restart s4 (Some gs)).
  assert (R' := R). destruct R' as [M0 [Hr0 Hf0]].
  destruct (k_run s (m_k s M0) t Hr0) as [_ [_ Halt]].
  assert (Hct : c <> t) by (unfold alloc, c in *; lia).
  destruct (Run_new_scope t s None false R) as [M1 [Hr1 Hf1]]. fold s1 in M1, Hr1, Hf1.
  assert (Ok : newtask_ok s1 k true).
  { unfold newtask_ok, k, child_rec. cbn [k_done k_waiter k_tdran k_final k_hexc k_hret k_ctl k_hscope k_startfut k_hevent k_group top_scope ctl_waiter].
    refine (conj eq_refl (conj eq_refl (conj eq_refl (conj eq_refl (conj eq_refl (conj eq_refl (conj _ (conj eq_refl (conj _ (conj _ (conj eq_refl (conj _ (conj _ (conj eq_refl _)))))))))))))); try discriminate.
    - unfold s1. rewrite ns_nscope. lia.
    - destruct sf; [exact Hsf|exact I]. }
  pose proof (M_talloc s1 k true M1 Ok) as M2. fold s2 in M2.
  assert (T2c : tasks s2 c = k) by (unfold s2, talloc; cbn [tasks]; apply upd_same).
  assert (T2o : forall x, x <> c -> tasks s2 x = tasks s x).
  { intros x Hx. unfold s2, talloc. cbn [tasks]. now apply upd_other. }
  assert (R2 : Run t s2).
  { refine (conj M2 (conj Hr1 _)). rewrite T2o; auto. }
  assert (R3 : Run t s3) by (apply Run_keeps; [apply keeps_tasks|exact R2]).
  assert (R4 : Run t s4).
  { destruct R3 as [M3 [Hr3 Hf3]]. refine (conj _ (conj Hr3 Hf3)). apply M_gjoin; auto.
    - change (tasks s3) with (tasks s2). rewrite T2c. reflexivity.
    - unfold alloc. change (ntask s3) with (S c). pose proof (c_n s (m_c s M0)). unfold c. lia.
    - change (tasks s3) with (tasks s2). rewrite T2c. reflexivity.
    - intros g' Hin. change (groups s3) with (groups s) in Hin.
      destruct (g_grp s (m_g s M0) g' c Hin) as [_ [_ H]]. unfold c in H. lia. }
  pose proof (ks_restart none_s none_t s4 (Some gs)) as KS. fold s5 in KS.
  pose proof (kframe_kstar _ _ _ _ KS) as F.
  assert (R5 : Run t s5) by (apply (Run_kstar_none t _ _ KS), R4).
  assert (V5 : forall x, tview (tasks s5 x) = tview (tasks s2 x)).
  { intros x. rewrite (fr_tv _ _ _ _ F x). reflexivity. }
  assert (T5c : k_waiter (tasks s5 c) = None /\ k_done (tasks s5 c) = None /\ k_startfut (tasks s5 c) = sf /\
                k_group (tasks s5 c) = Some g).
  { pose proof (tview_inv _ _ (V5 c)) as V. rewrite T2c in V.
    destruct V as [_ [V2 [V3 [V4 [_ [_ [_ [_ [V9 _]]]]]]]]]. rewrite V2, V3, V4, V9. unfold k. cbn. auto. }
  destruct T5c as [W5 [D5 [S5 G5]]].
  assert (Al5 : alloc s5 c).
  { unfold alloc. rewrite (fr_ntask _ _ _ _ F). change (ntask s4) with (S c). pose proof (c_n s (m_c s M0)). unfold c. lia. }
  assert (R6 : Run t (call_soon s5 (HStep c))).
  { destruct R5 as [M5 [Hr5 Hf5]]. refine (conj _ (conj Hr5 Hf5)). apply M_call_soon; [exact M5|].
    refine (conj (conj W5 (conj D5 (conj _ Al5))) _).
    - rewrite Hr5. congruence.
    - intros Hin. apply in_thtasks in Hin. destruct Hin as [Hin|[f Hin]].
      + apply (fr_step _ _ _ _ F) in Hin. change (ready s4) with (ready s) in Hin.
        destruct (k_step s (m_k s M0) c Hin) as [_ [_ [_ [_ H]]]]. unfold c in H. lia.
      + destruct (k_wake s5 (m_k s5 M5) c f Hin) as [H _]. congruence. }
  refine (conj R6 (conj Al5 (conj S5 (conj G5 (conj Hct _))))).
  intros f ->. destruct (fresh_unwaited s f Hsf) as [U1 [U2 U3]].
  apply (unwaited_kframe _ _ s4 _ f F). refine (conj U1 (conj U2 _)).
  intros x. change (tasks s4) with (tasks s2). destruct (Nat.eq_dec x c) as [->|Hx]; [rewrite T2c; discriminate|].
  rewrite T2o; auto.
Qed.

Lemma Run_gr_left t s g b : Run t s -> Run t (upd_group s g (gr_left b)).
Proof. intros [M [Hr Hf]]. exact (conj (M_gr_left s g b M) (conj Hr Hf)). Qed.

Lemma Run_aexit_raise t s g e : Run t s -> Run t (fst (aexit_raise s t g e)).
Proof.
  intros R. unfold aexit_raise.
  pose proof (Run_scope_exit t s (g_scope (groups s g)) (Some e) R) as R1.
  destruct (scope_exit s (g_scope (groups s g)) t (Some e)) as [s1 x]. cbn [fst] in R1.
  pose proof (Run_gr_left t s1 g true R1) as R2.
  destruct x; cbn [fst]; auto. apply Run_upd_task_irrel; auto using irrel_held.
Qed.

Lemma Run_aexit_finish t s g exc : Run t s -> Run t (fst (aexit_finish s t g exc)).
Proof.
  intros R. unfold aexit_finish. destruct (map snd (g_excs (groups s g))) as [|a l].
  - destruct exc as [e|]; [apply Run_aexit_raise, R|].
    pose proof (Run_scope_exit t s (g_scope (groups s g)) None R) as R1.
    destruct (scope_exit s (g_scope (groups s g)) t None) as [s1 x]. cbn [fst] in R1.
    pose proof (Run_gr_left t s1 g true R1) as R2. destruct x; exact R2.
  - apply Run_aexit_raise, R.
Qed.

Lemma Inv_ret_pair t (p : st * res) : Run t (fst p) -> Inv (fst (let '(s2, r) := p in ret_to_puppet s2 t r)).
Proof. destruct p as [s2 r]. cbn [fst]. apply Inv_ret. Qed.

Lemma Run_gr_fut_some t s g f : Run t s -> fresh s f -> Run t (upd_group s g (gr_fut (Some f))).
Proof. intros [M [Hr Hf]] F. exact (conj (M_gr_fut_some s g f M F) (conj Hr Hf)). Qed.

Lemma Run_gr_fut_none t s g : Run t s -> Run t (upd_group s g (gr_fut None)).
Proof. intros [M [Hr Hf]]. exact (conj (M_gr_fut_none s g M) (conj Hr Hf)). Qed.

Lemma aexit_block s t g w exc : Run t s -> owns s t w ->
  Inv (fst (let '(s1, f) := new_fut s in
            let s2 := upd_group s1 g (gr_fut (Some f)) in
            blocked (set_ctl (suspend_on s2 t f) t (CAexitWait g w exc)))).
Proof.
  intros R O. rewrite new_fut_eq. cbn zeta. destruct (Run_new_fut t s R) as [R1 F].
  apply Inv_block_on; [apply Run_gr_fut_some; auto|exact (fresh_unwaited _ _ F)|exact I|discriminate|].
  apply ctl_ok_simple; [reflexivity|intros x E; injection E as <-; exact O].
Qed.

Lemma Inv_aexit_wof s t g ws exc : Run t s -> (forall w, ws = Some w -> owns s t w) ->
  Inv (fst (aexit_wait_or_finish s t g ws exc)).
Proof.
  intros R O. unfold aexit_wait_or_finish. destruct (g_tasks (groups s g)) as [|a l].
  - destruct ws as [w|].
    + pose proof (Run_scope_exit t s w None R) as R1.
      destruct (scope_exit s w t None) as [s1 x]. cbn [fst] in R1.
      destruct x; apply Inv_ret_pair; try (apply Run_aexit_finish, R1). apply Run_aexit_raise, R1.
    + apply Inv_ret_pair, Run_aexit_finish, R.
  - destruct ws as [w|].
    + apply aexit_block; auto.
    + rewrite new_scope_eq. destruct (Run_fresh_scope t s None false R) as [R2 O2].
      apply aexit_block; auto.
Qed.

Lemma Run_add_exc_body t s g e : Run t s -> is_cancel e = false -> Run t (upd_group s g (add_exc 0 e)).
Proof. intros [M [Hr Hf]] He. exact (conj (M_add_exc_body s g e M He) (conj Hr Hf)). Qed.


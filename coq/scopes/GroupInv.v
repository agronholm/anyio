(* Frame infrastructure for the S machine (scopes/Machine.v).
   The cancel-scope machinery (deliver, restart, scope_cancel, scope_enter, scope_exit, scope_timeout ...) is
   shown to be a composition of a few primitive moves ([kprim]); invariants are then proved once per primitive.
   [kstar C T] tracks which scopes (C) may change their active/host/parent fields and which tasks (T) may change
   their current-scope pointer. *)
From AV Require Import Base Machine MachineFacts.

Definition reach (s : st) : Prop := exists ops, s = final step init ops.

Lemma reach_step s o : reach s -> reach (fst (step s o)).
Proof. intros [ops ->]. exists (ops ++ [o]). rewrite final_app. reflexivity. Qed.

Lemma reach_init : reach init.
Proof. exists []. reflexivity. Qed.

(* a task-record transformer that only touches the cancellation counters / held exception / started flag *)
Definition tk_irrel (g : task -> task) : Prop :=
  forall k, k_ctl (g k) = k_ctl k /\ k_done (g k) = k_done k /\ k_waiter (g k) = k_waiter k /\
            k_cur (g k) = k_cur k /\ k_group (g k) = k_group k /\ k_hscope (g k) = k_hscope k /\
            k_hevent (g k) = k_hevent k /\ k_hexc (g k) = k_hexc k /\ k_hret (g k) = k_hret k /\
            k_startfut (g k) = k_startfut k /\ k_final (g k) = k_final k /\ k_tdran (g k) = k_tdran k.

Lemma irrel_ncancel n : tk_irrel (tk_ncancel n).
Proof. intros k. cbn. tauto. Qed.
Lemma irrel_must b m : tk_irrel (tk_must b m).
Proof. intros k. cbn. tauto. Qed.
Lemma irrel_held h : tk_irrel (tk_held h).
Proof. intros k. cbn. tauto. Qed.
Lemma irrel_started b : tk_irrel (tk_started b).
Proof. intros k. cbn. tauto. Qed.
Lemma irrel_uncancel : tk_irrel (fun k => tk_ncancel (pred (k_ncancel k)) k).
Proof. intros k. cbn. tauto. Qed.

(* a scope-record transformer that keeps active/host/parent and never un-cancels *)
Definition sc_keeps (g : scope -> scope) : Prop :=
  forall x, s_active (g x) = s_active x /\ s_host (g x) = s_host x /\ s_parent (g x) = s_parent x /\
            (s_cancelled x = true -> s_cancelled (g x) = true).

Inductive kprim (C : sid -> Prop) (T : tid -> Prop) : st -> st -> Prop :=
| kp_scope s c g : (C c \/ sc_keeps g) ->
                   (s_cancelled (scopes s c) = true -> s_cancelled (g (scopes s c)) = true) ->
                   kprim C T s (upd_scope s c g)
| kp_cancel s t o : kprim C T s (task_cancel s t o)
| kp_task s t g : tk_irrel g -> kprim C T s (upd_task s t g)
| kp_soon s c : kprim C T s (call_soon s (HDeliver c))
| kp_tcancel s tm : kprim C T s (timer_cancel s tm)
| kp_callat s w c : kprim C T s (fst (call_at s w (TScope c)))
| kp_cur s t x : T t -> kprim C T s (upd_task s t (tk_cur x)).

Inductive kstar (C : sid -> Prop) (T : tid -> Prop) : st -> st -> Prop :=
| ks_refl s : kstar C T s s
| ks_snoc s1 s2 s3 : kstar C T s1 s2 -> kprim C T s2 s3 -> kstar C T s1 s3.

Lemma ks_one C T s s' : kprim C T s s' -> kstar C T s s'.
Proof. intros H. eapply ks_snoc; [apply ks_refl|exact H]. Qed.

Lemma ks_trans C T s1 s2 s3 : kstar C T s1 s2 -> kstar C T s2 s3 -> kstar C T s1 s3.
Proof.
  intros H1 H2. revert H1. induction H2 as [|a b c Hab IH Hbc]; intros H1; [exact H1|].
  eapply ks_snoc; [apply IH, H1|exact Hbc].
Qed.

Lemma kprim_weaken (C C' : sid -> Prop) (T T' : tid -> Prop) s s' :
  (forall c, C c -> C' c) -> (forall t, T t -> T' t) -> kprim C T s s' -> kprim C' T' s s'.
Proof.
  intros HC HT H. destruct H.
  - apply kp_scope; [|assumption]. destruct H; [left; auto|right; auto].
  - apply kp_cancel.
  - apply kp_task; assumption.
  - apply kp_soon.
  - apply kp_tcancel.
  - apply kp_callat.
  - apply kp_cur. auto.
Qed.

Lemma kstar_weaken (C C' : sid -> Prop) (T T' : tid -> Prop) s s' :
  (forall c, C c -> C' c) -> (forall t, T t -> T' t) -> kstar C T s s' -> kstar C' T' s s'.
Proof.
  intros HC HT H. induction H; [apply ks_refl|].
  eapply ks_snoc; [eassumption|]. eapply kprim_weaken; eauto.
Qed.

Definition none_s : sid -> Prop := fun _ => False.
Definition none_t : tid -> Prop := fun _ => False.

Lemma kstar_none C T s s' : kstar none_s none_t s s' -> kstar C T s s'.
Proof. apply kstar_weaken; intros ? []. Qed.

Lemma keeps_shield b : sc_keeps (sc_shield b).
Proof. intros x. cbn. tauto. Qed.
Lemma keeps_deadline d : sc_keeps (sc_deadline d).
Proof. intros x. cbn. tauto. Qed.
Lemma keeps_tasks (f : scope -> list tid) : sc_keeps (fun x => sc_tasks (f x) x).
Proof. intros x. cbn. tauto. Qed.

Lemma kp_scope_keeps C T s c g : sc_keeps g -> kprim C T s (upd_scope s c g).
Proof. intros H. apply kp_scope; [right; exact H|]. apply H. Qed.

(* one update of a scope record by setters of fields other than active, host, parent and cancelled (or setting
   cancelled): sc_keeps holds by computing the four projections *)
Ltac ks_keeps := eapply ks_one, kp_scope_keeps; intros ?; cbn; tauto.

(* the scope machinery is made of primitive moves *)
Lemma ks_cancel_timeout C T s c : kstar C T s (cancel_timeout s c).
Proof.
  apply (cancel_timeout_closed (kstar C T) c (ks_refl C T) (ks_trans C T)).
  - intros a tm _. apply ks_one, kp_tcancel.
  - intros a. ks_keeps.
Qed.

Lemma ks_deliver_top C T s c : kstar C T s (deliver_top s c).
Proof.
  apply (deliver_top_closed (kstar C T) c (ks_refl C T) (ks_trans C T)).
  - intros self a t a' [_|_]; [apply ks_refl|]. cbn zeta.
    destruct (opt_eqb _ t); [|apply ks_one, kp_cancel].
    eapply ks_trans; [apply ks_one, kp_cancel|]. ks_keeps.
  - intros a b. ks_keeps.
  - intros a. apply ks_one, kp_soon.
Qed.

Lemma ks_restart C T s x : kstar C T s (restart s x).
Proof. apply restart_closed; [apply ks_refl|intros c _ _; apply ks_deliver_top]. Qed.

Lemma ks_scope_cancel C T s c b : kstar C T s (scope_cancel s c b).
Proof.
  apply (scope_cancel_closed (kstar C T) c (ks_refl C T) (ks_trans C T)).
  - intros a. apply ks_cancel_timeout.
  - intros a. ks_keeps.
  - intros a _ _. apply ks_deliver_top.
Qed.

Lemma ks_scope_timeout C T s c : kstar C T s (scope_timeout s c).
Proof.
  apply (scope_timeout_closed (kstar C T) c (ks_refl C T)).
  - intros a. apply ks_scope_cancel.
  - intros a d _ _. eapply ks_trans; [apply ks_one, kp_callat|]. ks_keeps.
Qed.

Lemma ks_iter_uncancel C T n t : forall s, kstar C T s (iter n (fun a => task_uncancel a t) s).
Proof.
  induction n as [|n IH]; intros s; cbn [iter]; [apply ks_refl|].
  eapply ks_trans; [|apply IH]. apply ks_one. unfold task_uncancel. apply kp_task, irrel_uncancel.
Qed.

Lemma kp_scope_at (C : sid -> Prop) T s c g : C c ->
  (s_cancelled (scopes s c) = true -> s_cancelled (g (scopes s c)) = true) ->
  kprim C T s (upd_scope s c g).
Proof. intros H H2. apply kp_scope; [left; exact H|exact H2]. Qed.

Ltac ks_at := apply kp_scope_at; [reflexivity|cbn; auto].
Ltac ks_peel tac := eapply ks_snoc; [|tac].

(* __enter__ and __exit__ touch the active/host/parent fields of c only and move the scope pointer of t only *)
Lemma ks_scope_enter s c t :
  kstar (eq c) (eq t) s (fst (scope_enter s c t)).
Proof.
  rewrite scope_enter_eq. destruct (s_active (scopes s c)); [apply ks_refl|]. cbn zeta. cbn [fst].
  match goal with |- kstar _ _ _ (if _ then deliver_top ?x _ else _) => set (s5 := x) end.
  assert (K : kstar (eq c) (eq t) s s5).
  { unfold s5. ks_peel ks_at. eapply ks_trans; [|apply ks_scope_timeout]. unfold enter_links. cbn zeta.
    assert (K2 : kstar (eq c) (eq t) s (upd_task (upd_scope s c (fun x : scope =>
                   sc_parent (k_cur (tasks s t)) (sc_tasks (add t (s_tasks x)) (sc_host (Some t) x))))
                   t (tk_cur (Some c)))).
    { ks_peel ltac:(apply kp_cur; reflexivity). apply ks_one. ks_at. }
    destruct (k_cur (tasks s t)) as [p|]; [|exact K2].
    eapply ks_trans; [exact K2|]. ks_keeps. }
  destruct (s_cancelled (scopes s5 c)); [|exact K].
  eapply ks_trans; [exact K|apply ks_deliver_top].
Qed.

Lemma scope_exit_cases s c t exc :
  scope_exit s c t exc = (s, XRaise ERuntime) \/
  (s_active (scopes s c) = true /\ s_host (scopes s c) = Some t /\ k_cur (tasks s t) = Some c).
Proof.
  assert (D : forall a b : option nat, {a = b} + {a <> b}) by (repeat decide equality).
  destruct (s_active (scopes s c)) eqn:Ea, (D (s_host (scopes s c)) (Some t)) as [Eh|Eh],
    (D (k_cur (tasks s t)) (Some c)) as [Ec|Ec]; auto;
    left; apply scope_exit_fail; rewrite ?Ea; intros [H1 [H2 H3]]; congruence.
Qed.

Lemma ks_scope_exit s c t exc :
  kstar (eq c) (eq t) s (fst (scope_exit s c t exc)).
Proof.
  destruct (scope_exit_cases s c t exc) as [->|G]; [apply ks_refl|].
  destruct (scope_exit_shape s c t exc G) as [s6 [x [X ->]]]. cbn [fst]. ks_peel ks_at.
  set (s5 := restart _ _) in X.
  assert (K5 : kstar (eq c) (eq t) s s5).
  { unfold s5. eapply ks_trans; [|apply ks_restart]. unfold exit_links. cbn zeta.
    ks_peel ltac:(apply kp_cur; reflexivity).
    assert (K2 : kstar (eq c) (eq t) s
              (upd_scope (cancel_timeout (upd_scope s c (sc_active false)) c) c
                 (fun x : scope => sc_tasks (del t (s_tasks x)) x))).
    { eapply ks_trans; [|ks_keeps]. eapply ks_trans; [|apply ks_cancel_timeout]. apply ks_one. ks_at. }
    destruct (s_parent (scopes s c)) as [p|]; [|exact K2].
    eapply ks_trans; [exact K2|]. ks_keeps. }
  apply (ks_trans _ _ _ _ _ K5). clear K5 G. destruct X as [x _|_ _|p _ _ _ _].
  - assert (K6 : kstar (eq c) (eq t) s5
                   (upd_scope (iter (s_pending (scopes s5 c)) (fun a => task_uncancel a t) s5) c (sc_pending 0))).
    { eapply ks_trans; [apply ks_iter_uncancel|]. ks_keeps. }
    destruct x; try exact K6; (eapply ks_trans; [exact K6|ks_keeps]).
  - apply ks_refl.
  - eapply ks_trans; [|ks_keeps]. ks_keeps.
Qed.

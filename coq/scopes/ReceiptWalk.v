(* C04: where a scope-tagged cancellation request on a task comes from, for EVERY op of the machine.
   A request with origin org held by task t (Held): t's _must_cancel is set with message org, or the future t
   waits on was cancelled with message org.  Such a request is only ever placed by a delivery run of org, and
   at that moment org is cancelled and visible from t's current scope through unshielded, uncancelled scopes
   (OC).  One relation (W) is carried through every helper and every op. *)
From Coq Require Import ZArith Lia.
From AV Require Import Base Machine ScopeFrames DeliverInv TreeInv DeliverAlive TreeStep KernelInv DebtInv ActWalk
  ActThms ChainFrame ChainThms MachineFacts.

Definition Held (s : st) (t : tid) (org : sid) : Prop :=
  (k_must (tasks s t) = true /\ k_msg (tasks s t) = S org) \/
  (exists f, k_waiter (tasks s t) = Some f /\ f_st (futs s f) = FCanc (S org)).

(* org is cancelled and the walk from t's current scope reaches it through open scopes *)
Definition OC (s : st) (t : tid) (org : sid) : Prop :=
  exists x, k_cur (tasks s t) = Some x /\ vis s org x /\ s_cancelled (scopes s org) = true.

Definition hcore (k : task) := (k_must k, k_msg k, k_waiter k).

Lemma upd_task_eq s t g : tasks (upd_task s t g) t = g (tasks s t).
Proof. cbn. unfold upd. now rewrite Nat.eqb_refl. Qed.
Lemma upd_task_ne s t g x : x <> t -> tasks (upd_task s t g) x = tasks s x.
Proof. intros H. cbn. unfold upd. destruct (Nat.eqb_spec x t); [contradiction|reflexivity]. Qed.

(* a NATIVE request that the task's next step will receive *)
Definition NHeld (s : st) (t : tid) : Prop :=
  (k_must (tasks s t) = true /\ k_msg (tasks s t) = 0) \/
  (exists f, k_waiter (tasks s t) = Some f /\ f_st (futs s f) = FCanc 0).

(* Held s t org and NHeld s t are HeldMsg s t (S org) and HeldMsg s t 0: what is shown for every message holds
   of both, in the direction in which it is needed (a request held after a step was held before; a native
   request held before is still held after) *)
Definition HeldMsg (s : st) (t : tid) (msg : nat) : Prop :=
  (k_must (tasks s t) = true /\ k_msg (tasks s t) = msg) \/
  (exists f, k_waiter (tasks s t) = Some f /\ f_st (futs s f) = FCanc msg).

Lemma hm_same a b t msg :
  hcore (tasks b t) = hcore (tasks a t) ->
  (forall f, k_waiter (tasks a t) = Some f -> f_st (futs a f) = FCanc msg -> f_st (futs b f) = FCanc msg) ->
  HeldMsg a t msg -> HeldMsg b t msg.
Proof.
  intros E F. unfold hcore in E. injection E as E1 E2 E3.
  intros [[H1 H2]|[f [H1 H2]]]; [left; now rewrite E1, E2|right].
  exists f. split; [now rewrite E3|now apply F].
Qed.

Lemma hm_eq a b t msg : tasks b t = tasks a t -> futs b = futs a -> HeldMsg a t msg -> HeldMsg b t msg.
Proof. intros E F. apply hm_same; [now rewrite E|]. intros f _. now rewrite F. Qed.

Lemma held_same m m' t :
  hcore (tasks m' t) = hcore (tasks m t) ->
  (forall f o, k_waiter (tasks m t) = Some f -> f_st (futs m' f) = FCanc (S o) -> f_st (futs m f) = FCanc (S o)) ->
  forall org, Held m' t org -> Held m t org.
Proof.
  intros E F org. apply (hm_same m' m t (S org)); [now symmetry|]. intros f Hf. apply F.
  unfold hcore in E. injection E as _ _ <-. exact Hf.
Qed.

Lemma held_eq m m' t : tasks m' t = tasks m t -> futs m' = futs m -> forall org, Held m' t org -> Held m t org.
Proof. intros E F org. now apply (hm_eq m' m t (S org)). Qed.

Lemma nheld_same m m' t :
  hcore (tasks m' t) = hcore (tasks m t) ->
  (forall f, k_waiter (tasks m t) = Some f -> f_st (futs m f) = FCanc 0 -> f_st (futs m' f) = FCanc 0) ->
  NHeld m t -> NHeld m' t.
Proof. apply (hm_same m m' t 0). Qed.

Lemma nheld_eq m m' t : tasks m' t = tasks m t -> futs m' = futs m -> NHeld m t -> NHeld m' t.
Proof. apply (hm_eq m m' t 0). Qed.

Record TW (s : st) : Prop := {
  to_cp : forall p c, In c (s_children (scopes s p)) -> s_parent (scopes s c) = Some p;
  to_tc : forall t x, In t (s_tasks (scopes s x)) -> k_cur (tasks s t) = Some x;
  to_pa : forall y p, s_parent (scopes s y) = Some p -> p < nscope s;
  to_cu : forall t x, k_cur (tasks s t) = Some x -> x < nscope s;
  to_ct : forall t x, k_cur (tasks s t) = Some x -> t < ntask s
}.

(* ... and what keeps them true when a fresh scope is created: listed children are allocated *)
Record TO (s : st) : Prop := {
  to_w : TW s;
  to_ca : forall p c, In c (s_children (scopes s p)) -> c < nscope s
}.

Lemma TO_reach s : reach_ok s -> TO s.
Proof.
  intros R. pose proof (reach_tree s R) as T. pose proof (reach_hdi s R) as H. constructor; [constructor|].
  - intros p c Hc. apply (proj1 (tr_child _ T p c) Hc).
  - intros t x Hx. apply (proj1 (tr_task _ T x t) Hx).
  - apply H.
  - apply H.
  - intros t x Hx. apply (tr_cur_alloc _ T t x Hx).
  - intros p c Hc. destruct (proj1 (tr_child _ T p c) Hc) as [A _]. apply (tr_act_alloc _ T c A).
Qed.

Lemma TW_treq a b : TW a -> treq a b -> TW b.
Proof.
  intros T K. constructor.
  - intros p c. rewrite (tq_children _ _ K), (tq_parent _ _ K). apply T.
  - intros t x. rewrite (tq_stasks _ _ K), (tq_cur _ _ K). apply T.
  - intros y p. rewrite (tq_parent _ _ K), (tq_nscope _ _ K). apply T.
  - intros t x. rewrite (tq_cur _ _ K), (tq_nscope _ _ K). apply T.
  - intros t x. rewrite (tq_cur _ _ K), (tq_ntask _ _ K). apply T.
Qed.

Lemma TO_treq a b : TO a -> treq a b -> TO b.
Proof.
  intros [T C] K. constructor; [now apply (TW_treq a)|].
  intros p c. rewrite (tq_children _ _ K), (tq_nscope _ _ K). apply C.
Qed.

Lemma TW_TreeOK s : TW s -> TreeOK s.
Proof. intros T. constructor; apply T. Qed.

Definition vq (m m' : st) : Prop :=
  nscope m <= nscope m' /\ forall y, y < nscope m -> view3 (scopes m' y) = view3 (scopes m y).

Lemma vq_refl m : vq m m. Proof. split; [lia|reflexivity]. Qed.
Lemma vq_trans a b c : vq a b -> vq b c -> vq a c.
Proof. intros [N1 V1] [N2 V2]. split; [lia|]. intros y Hy. rewrite V2 by lia. now apply V1. Qed.

Lemma v3_parent a b : view3 a = view3 b -> s_parent a = s_parent b.
Proof. unfold view3. intros E. now inversion E. Qed.
Lemma v3_shield a b : view3 a = view3 b -> s_shield a = s_shield b.
Proof. unfold view3. intros E. now inversion E. Qed.
Lemma v3_cancelled a b : view3 a = view3 b -> s_cancelled a = s_cancelled b.
Proof. unfold view3. intros E. now inversion E. Qed.

Lemma vis_alloc m c x : TW m -> vis m c x -> x < nscope m -> c < nscope m.
Proof.
  intros T V. induction V as [|x p E1 E2 E3 V IH]; intros Hx; [exact Hx|]. apply IH. apply (to_pa _ T x p E3).
Qed.

Lemma vis_fwd m m' c x : TW m -> vq m m' -> x < nscope m -> vis m c x -> vis m' c x.
Proof.
  intros T [_ Q] Hx V. induction V as [|x p E1 E2 E3 V IH]; [apply vis_here|].
  pose proof (Q x Hx) as E. apply (vis_up m' c x p).
  - now rewrite (v3_shield _ _ E).
  - now rewrite (v3_cancelled _ _ E).
  - now rewrite (v3_parent _ _ E).
  - apply IH. apply (to_pa _ T x p E3).
Qed.

Lemma vis_bwd m m' c x : TW m -> vq m m' -> x < nscope m -> vis m' c x -> vis m c x.
Proof.
  intros T [_ Q] Hx V. induction V as [|x p E1 E2 E3 V IH]; [apply vis_here|].
  pose proof (Q x Hx) as E.
  rewrite (v3_shield _ _ E) in E1. rewrite (v3_cancelled _ _ E) in E2. rewrite (v3_parent _ _ E) in E3.
  apply (vis_up m c x p E1 E2 E3). apply IH. apply (to_pa _ T x p E3).
Qed.

Lemma OC_fwd m m' t org :
  TW m -> vq m m' -> k_cur (tasks m' t) = k_cur (tasks m t) -> OC m t org -> OC m' t org.
Proof.
  intros T Q Ec [x [Hx [V C]]]. pose proof (to_cu _ T t x Hx) as Ax. exists x. rewrite Ec.
  split; [exact Hx|]. split; [now apply (vis_fwd m m')|].
  rewrite (v3_cancelled _ _ (proj2 Q org (vis_alloc m org x T V Ax))). exact C.
Qed.

Lemma OC_bwd m m' t org :
  TW m -> vq m m' -> k_cur (tasks m' t) = k_cur (tasks m t) -> OC m' t org -> OC m t org.
Proof.
  intros T Q Ec [x [Hx [V C]]]. rewrite Ec in Hx. pose proof (to_cu _ T t x Hx) as Ax. exists x.
  split; [exact Hx|]. pose proof (vis_bwd m m' org x T Q Ax V) as V'. split; [exact V'|].
  rewrite <- (v3_cancelled _ _ (proj2 Q org (vis_alloc m org x T V' Ax))). exact C.
Qed.

Definition MP (s : st) : Prop :=
  forall t f, k_must (tasks s t) = true -> k_waiter (tasks s t) = Some f -> f_st (futs s f) <> FPend.

Lemma MP_frame m m' :
  (forall t, hcore (tasks m' t) = hcore (tasks m t) \/ k_must (tasks m' t) = false) ->
  (forall f, f_st (futs m' f) = FPend -> f_st (futs m f) = FPend) -> MP m -> MP m'.
Proof.
  intros Ht Hf M t f Hm Hw Hp. destruct (Ht t) as [E|E]; [|congruence].
  unfold hcore in E. injection E as E1 E2 E3. rewrite E1 in Hm. rewrite E3 in Hw. apply (M t f Hm Hw), Hf, Hp.
Qed.

Lemma MP_same m m' : tasks m' = tasks m -> futs m' = futs m -> MP m -> MP m'.
Proof. intros Et Ef. apply MP_frame; [intros t; left; now rewrite Et|intros f; now rewrite Ef]. Qed.

Lemma fut_complete_st m g v f :
  f_st (futs (fut_complete m g v) f) =
  if Nat.eqb f g then match f_st (futs m g) with FPend => v | x => x end else f_st (futs m f).
Proof.
  unfold fut_complete. destruct (Nat.eqb_spec f g) as [->|Hf].
  - destruct (f_st (futs m g)) eqn:E; try (now rewrite E). destruct (f_waiter (futs m g)); cbn; now rewrite upd_same.
  - destruct (f_st (futs m g)); try reflexivity. destruct (f_waiter (futs m g)); cbn; now rewrite upd_other.
Qed.

Lemma fut_complete_pend m g v f : f_st (futs (fut_complete m g v) f) = FPend -> f_st (futs m f) = FPend.
Proof. rewrite fut_complete_st. destruct (Nat.eqb_spec f g) as [->|_]; [|auto]. now destruct (f_st (futs m g)). Qed.

Lemma fut_complete_done m g v f : f_st (futs m f) <> FPend -> f_st (futs (fut_complete m g v) f) = f_st (futs m f).
Proof.
  intros Hd. rewrite fut_complete_st. destruct (Nat.eqb_spec f g) as [->|_]; [|reflexivity].
  now destruct (f_st (futs m g)).
Qed.

(* Task.cancel(o) on a task t that is not done, as far as requests can see it: the cancel counter goes up; the
   request goes to the pending future t waits on, or else is recorded in t *)
Definition cancelled_from (s : st) (t : tid) (o : nat) (X : st) : Prop :=
  k_ncancel (tasks X t) = S (k_ncancel (tasks s t)) /\
  ((exists f, k_waiter (tasks s t) = Some f /\ f_st (futs s f) = FPend /\ hcore (tasks X t) = hcore (tasks s t) /\
              forall g, f_st (futs X g) = if Nat.eqb g f then FCanc o else f_st (futs s g)) \/
   ((forall f, k_waiter (tasks s t) = Some f -> f_st (futs s f) <> FPend) /\
    hcore (tasks X t) = (true, o, k_waiter (tasks s t)) /\ forall g, f_st (futs X g) = f_st (futs s g))).

Lemma task_cancel_char s t o : k_done (tasks s t) = None -> cancelled_from s t o (task_cancel s t o).
Proof.
  intros Hd. unfold task_cancel. rewrite Hd.
  set (s1 := upd_task s t (tk_ncancel (S (k_ncancel (tasks s t))))).
  assert (E1 : tasks s1 t = tk_ncancel (S (k_ncancel (tasks s t))) (tasks s t)) by apply upd_task_eq.
  assert (B : (forall f, k_waiter (tasks s t) = Some f -> f_st (futs s f) <> FPend) ->
              cancelled_from s t o (upd_task s1 t (tk_must true o))).
  { intros Hn. unfold cancelled_from. rewrite upd_task_eq, E1. split; [reflexivity|]. right. split; [exact Hn|now split]. }
  destruct (k_waiter (tasks s t)) as [f|] eqn:Ew; [|apply B; discriminate].
  unfold fut_pending. change (futs s1) with (futs s).
  destruct (f_st (futs s f)) eqn:Ef; try (apply B; intros g [= <-]; congruence).
  unfold cancelled_from. rewrite fut_complete_tasks, E1. split; [reflexivity|]. left. exists f.
  split; [exact Ew|]. split; [exact Ef|]. split; [reflexivity|].
  intros g. rewrite fut_complete_st. change (futs s1) with (futs s). now rewrite Ef.
Qed.

(* a request held after Task.cancel(o) was held before, or carries o and is held by t, or by a task that
   waited on the same pending future as t *)
Lemma hm_task_cancel s t o x msg : HeldMsg (task_cancel s t o) x msg ->
  HeldMsg s x msg \/
  msg = o /\ k_done (tasks s t) = None /\
  (x = t \/ exists f, k_waiter (tasks s x) = Some f /\ k_waiter (tasks s t) = Some f /\ f_st (futs s f) = FPend).
Proof.
  destruct (k_done (tasks s t)) eqn:Hd; [unfold task_cancel; rewrite Hd; now left|].
  destruct (task_cancel_char s t o Hd) as (_ & C).
  assert (Hx : x = t \/ tasks (task_cancel s t o) x = tasks s x) by (destruct (Nat.eq_dec x t); [now left|right; now apply task_cancel_other]).
  destruct C as [(f & Ew & Ef & Eh & Eg)|(Hn & Eh & Eg)]; unfold hcore in Eh; injection Eh as E1 E2 E3.
  - assert (Ex : hcore (tasks (task_cancel s t o) x) = hcore (tasks s x)).
    { destruct Hx as [-> | ->]; [|reflexivity]. unfold hcore. now rewrite E1, E2, E3. }
    unfold hcore in Ex. injection Ex as X1 X2 X3. intros [[A B]|[g [A B]]].
    + left. left. split; congruence.
    + rewrite X3 in A. rewrite Eg in B. destruct (Nat.eqb_spec g f) as [->|_]; [|left; right; now exists g].
      injection B as <-. right. split; [reflexivity|]. split; [reflexivity|]. right. now exists f.
  - intros [[A B]|[g [A B]]].
    + destruct Hx as [->|Ex]; [|left; left; rewrite <- Ex; now split].
      right. split; [congruence|]. split; [reflexivity|now left].
    + left. right. exists g. rewrite <- Eg. split; [|exact B]. destruct Hx as [->|Ex]; congruence.
Qed.

(* ... and a request held before is still held, except that t's own recorded request is overwritten *)
Lemma hm_task_cancel_fwd s t o x msg : x <> t \/ msg = o -> HeldMsg s x msg -> HeldMsg (task_cancel s t o) x msg.
Proof.
  intros Hx. destruct (k_done (tasks s t)) eqn:Hd; [unfold task_cancel; now rewrite Hd|].
  destruct (task_cancel_char s t o Hd) as (_ & C).
  assert (Hk : x = t \/ tasks (task_cancel s t o) x = tasks s x) by (destruct (Nat.eq_dec x t); [now left|right; now apply task_cancel_other]).
  destruct C as [(f & Ew & Ef & Eh & Eg)|(Hn & Eh & Eg)]; unfold hcore in Eh; injection Eh as E1 E2 E3.
  - assert (Ex : hcore (tasks (task_cancel s t o) x) = hcore (tasks s x)).
    { destruct Hk as [-> | ->]; [|reflexivity]. unfold hcore. now rewrite E1, E2, E3. }
    apply hm_same; [exact Ex|]. intros g _ Hg. rewrite Eg. destruct (Nat.eqb_spec g f) as [->|_]; congruence.
  - intros [[A B]|[g [A B]]].
    + left. destruct Hk as [->|Ex]; [|now rewrite Ex]. destruct Hx as [Hx| ->]; [now elim Hx|]. now split.
    + right. exists g. rewrite Eg. split; [|exact B]. destruct Hk as [->|Ex]; congruence.
Qed.

Lemma MP_task_cancel m t o : MP m -> MP (task_cancel m t o).
Proof.
  intros M. destruct (k_done (tasks m t)) eqn:Hd; [unfold task_cancel; now rewrite Hd|].
  destruct (task_cancel_char m t o Hd) as (_ & C). intros x g Hm Hw Hp.
  assert (Hk : x = t \/ tasks (task_cancel m t o) x = tasks m x) by (destruct (Nat.eq_dec x t); [now left|right; now apply task_cancel_other]).
  destruct C as [(f & Ew & Ef & Eh & Eg)|(Hn & Eh & Eg)]; unfold hcore in Eh; injection Eh as E1 E2 E3; rewrite Eg in Hp.
  - destruct (Nat.eqb_spec g f); [discriminate|]. apply (M x g); [| |exact Hp]; destruct Hk as [->|Ex]; congruence.
  - destruct Hk as [->|Ex]; [apply (Hn g); congruence|]. rewrite Ex in Hm, Hw. now apply (M x g).
Qed.

Lemma wait_link_kframe m a : wait_link m -> kframe m a -> wait_link a.
Proof.
  intros WL K t f Hw Hp. rewrite (tcore_waiter _ _ (kf_tasks _ _ K t)) in Hw.
  rewrite (kf_fwaiter _ _ K f). apply (WL t f Hw).
  destruct (f_st (futs m f)) eqn:E; [reflexivity| | |]; rewrite (kf_fdone _ _ K f) in Hp; congruence.
Qed.

Definition dlog (origin : sid) (a b : st) : Prop :=
  kframe a b /\
  (wait_link a -> forall t, k_ncancel (tasks a t) <= k_ncancel (tasks b t) /\
     forall org, Held b t org -> Held a t org \/ (org = origin /\ k_ncancel (tasks a t) < k_ncancel (tasks b t))).

Lemma dlog_eq origin a b : kframe a b -> tasks b = tasks a -> futs b = futs a -> dlog origin a b.
Proof.
  intros K Et Ef. split; [exact K|]. intros _ t. rewrite Et. split; [apply le_n|]. intros org Hh. left.
  revert Hh. apply held_eq; [now rewrite Et|exact Ef].
Qed.

Lemma dlog_trans origin a b c : dlog origin a b -> dlog origin b c -> dlog origin a c.
Proof.
  intros [K1 H1] [K2 H2]. split; [exact (kframe_trans _ _ _ K1 K2)|]. intros WL t.
  destruct (H1 WL t) as [L1 G1]. destruct (H2 (wait_link_kframe a b WL K1) t) as [L2 G2]. split; [lia|].
  intros org Hh. destruct (G2 org Hh) as [A|[-> A]]; [|right; split; [reflexivity|lia]].
  destruct (G1 org A) as [B|[-> B]]; [now left|right; split; [reflexivity|lia]].
Qed.

Lemma dlog_task_cancel origin a u : dlog origin a (task_cancel a u (S origin)).
Proof.
  split; [apply kframe_task_cancel|]. intros WL t.
  assert (L : k_ncancel (tasks a t) <= k_ncancel (tasks (task_cancel a u (S origin)) t) /\
              (t = u -> k_done (tasks a u) = None -> k_ncancel (tasks a t) < k_ncancel (tasks (task_cancel a u (S origin)) t))).
  { destruct (Nat.eq_dec t u) as [->|Ht]; [|rewrite task_cancel_other by exact Ht; split; [apply le_n|now intros]].
    destruct (k_done (tasks a u)) eqn:Hd; [unfold task_cancel; rewrite Hd; split; [apply le_n|discriminate]|].
    destruct (task_cancel_char a u (S origin) Hd) as [E _]. rewrite E. split; [apply le_S, le_n|intros _ _; apply le_n]. }
  split; [apply L|]. intros org Hh. destruct (hm_task_cancel a u (S origin) t (S org) Hh) as [A|(E & Hd & Hx)]; [now left|].
  right. injection E as ->. split; [reflexivity|]. apply L; [|exact Hd].
  destruct Hx as [Hx|(f & W1 & W2 & Ef)]; [exact Hx|]. pose proof (WL t f W1 Ef) as F1. pose proof (WL u f W2 Ef) as F2. congruence.
Qed.

Lemma dlog_deliver_top m c : dlog c m (deliver_top m c).
Proof.
  unfold deliver_top. apply dmove_closed; [intros a; now apply dlog_eq; [apply kframe_refl| |]|apply dlog_trans|].
  intros a a' [self t a1 [_|D]|b|].
  - now apply dlog_eq; [apply kframe_refl| |].
  - cbv zeta. apply (dlog_trans c a (task_cancel a t (S c))); [apply dlog_task_cancel|].
    destruct (opt_eqb _ t); [|now apply dlog_eq; [apply kframe_refl| |]].
    now apply dlog_eq; [apply kframe_upd_scope; intros k; reflexivity| |].
  - now apply dlog_eq; [apply kframe_upd_scope; intros k; reflexivity| |].
  - now apply dlog_eq; [apply kframe_call_soon|reflexivity|reflexivity].
Qed.

Lemma vis_top m c ch x : s_shield (scopes m ch) = false -> s_cancelled (scopes m ch) = false ->
  s_parent (scopes m ch) = Some c -> vis m ch x -> vis m c x.
Proof.
  intros E1 E2 E3 V. induction V as [|x p F1 F2 F3 V IH]; [apply (vis_up m c ch c E1 E2 E3), vis_here|].
  apply (vis_up m c x p F1 F2 F3), IH.
Qed.

Lemma vpath_vis m c x n : TW m -> vpath m c x n -> vis m c x.
Proof.
  intros T. induction 1 as [x|self ch x n Hc Hs Hk Hp IH]; [apply vis_here|].
  apply (vis_top m self ch x Hs Hk (to_cp _ T self ch Hc) IH).
Qed.

Theorem held_deliver_top m c :
  TW m -> wait_link m -> s_cancelled (scopes m c) = true ->
  forall t org, Held (deliver_top m c) t org -> Held m t org \/ OC m t org.
Proof.
  intros T WL Hc t org Hh. destruct (proj2 (dlog_deliver_top m c) WL t) as [_ D].
  destruct (D org Hh) as [H|[-> Hn]]; [now left|]. right.
  assert (Hne : tasks (fst (deliver (S (nscope m)) m c c)) t <> tasks m t) by (intros E; unfold deliver_top in Hn; rewrite E in Hn; lia).
  destruct (deliver_touches_only_reach _ _ _ _ _ Hne) as (x & Hx & Ht).
  destruct (vlist_vpath _ _ _ _ Hx) as (n & _ & Hp).
  exists x. split; [apply (to_tc _ T t x Ht)|]. split; [apply (vpath_vis m c x n T Hp)|exact Hc].
Qed.

Lemma held_restart m x : TW m -> wait_link m ->
  forall t org, Held (restart m x) t org -> Held m t org \/ OC m t org.
Proof.
  intros T WL. apply (restart_closed (fun a b => forall t org, Held b t org -> Held a t org \/ OC a t org)); [now left|].
  intros c Hc _. now apply held_deliver_top.
Qed.

(* what one task's turn in a delivery does to a predicate of the tasks and the futures *)
Lemma deliver_top_inv (P : st -> Prop) c :
  (forall a b, tasks b = tasks a -> futs b = futs a -> P a -> P b) ->
  (forall self a t, deliverable self a t -> P a -> P (task_cancel a t (S c))) ->
  forall m, P m -> P (deliver_top m c).
Proof.
  intros Pe Pc m. unfold deliver_top. apply (dmove_closed (fun a b => P a -> P b)); auto.
  intros a a' [self t a1 [_|D]|b|]; auto.
  - intros Pa. cbv zeta. pose proof (Pc self a t D Pa) as P1. destruct (opt_eqb _ t); [|exact P1].
    revert P1. now apply Pe.
  - now apply Pe.
  - now apply Pe.
Qed.

Lemma MP_deliver_top m c : MP m -> MP (deliver_top m c).
Proof. apply deliver_top_inv; [intros a b; apply MP_same|]. intros _ a t _. apply MP_task_cancel. Qed.

Lemma nheld_deliver_top m c t : NHeld m t -> NHeld (deliver_top m c) t.
Proof.
  apply (deliver_top_inv (fun a => NHeld a t)); [intros a b Et; apply nheld_eq; now rewrite Et|].
  intros self a u (_ & Hm & _ & _ & Hw) Ha. apply (hm_task_cancel_fwd a u (S c) t 0); [left|exact Ha].
  intros ->. destruct Ha as [[A _]|[f [A B]]]; [congruence|]. specialize (Hw f A). unfold fut_pending in Hw.
  rewrite B in Hw. discriminate.
Qed.

(* The relation carried through every helper.  U: the tasks whose own record / current scope the step may
   change (the actor, a task created or retired by the step).  Flags: v -- the three walk fields of every
   allocated scope are unchanged; b / f -- a new request may be justified by OC in the state before / after
   the step; e -- the step may end the running segment.                                                      *)
Record W (v b f e : bool) (U : list tid) (m m' : st) : Prop := {
  w_to : TO m -> TO m';
  w_k : KInv m -> KInv m';
  w_mp : KInv m -> MP m -> MP m';
  w_ns : nscope m <= nscope m';
  w_nt : ntask m <= ntask m';
  w_cur : forall t, ~ In t U -> k_cur (tasks m' t) = k_cur (tasks m t);
  w_v : v = true -> forall y, y < nscope m -> view3 (scopes m' y) = view3 (scopes m y);
  w_h : TO m -> KInv m -> forall t org, ~ In t U -> Held m' t org ->
        Held m t org \/ (b = true /\ OC m t org) \/ (f = true /\ OC m' t org);
  w_run : e = false -> forall u, running m = Some u -> running m' = Some u;
  w_own : KInv m -> forall u, running m = Some u -> forall org, Held m' u org -> Held m u org;
  w_nh : KInv m -> forall t, ~ In t U -> NHeld m t -> NHeld m' t
}.

Lemma W_refl v b f e U m : W v b f e U m m.
Proof. constructor; auto. Qed.

(* when a step with flags 1 followed by a step with flags 2 has the flags v b f: a request justified in the
   state between the two is carried to the start through the first step, or to the end through the second,
   whichever keeps the views *)
Definition seq_ok (v1 b1 f1 v2 b2 f2 v b f : bool) : bool :=
  implb v (v1 && v2) && implb b1 b && implb f2 f &&
  implb b2 (v1 && b || v2 && f) && implb f1 (v1 && b || v2 && f).

Lemma W_trans {v1 b1 f1 v2 b2 f2 v b f e U m} m' {m''} :
  W v1 b1 f1 false U m m' -> W v2 b2 f2 e U m' m'' -> seq_ok v1 b1 f1 v2 b2 f2 v b f = true ->
  W v b f e U m m''.
Proof.
  intros H1 H2 Hs. unfold seq_ok in Hs.
  apply andb_true_iff in Hs. destruct Hs as [Hs Cf1]. apply andb_true_iff in Hs. destruct Hs as [Hs Cb2].
  apply andb_true_iff in Hs. destruct Hs as [Hs Cf]. apply andb_true_iff in Hs. destruct Hs as [Cv Cb].
  constructor.
  - intros T. apply H2, H1, T.
  - intros K. apply H2, H1, K.
  - intros K M. apply (w_mp _ _ _ _ _ _ _ H2); [apply H1, K|now apply H1].
  - apply (Nat.le_trans _ (nscope m')); [apply H1|apply H2].
  - apply (Nat.le_trans _ (ntask m')); [apply H1|apply H2].
  - intros t Ht. rewrite (w_cur _ _ _ _ _ _ _ H2 t Ht). now apply H1.
  - intros -> y Hy. apply andb_true_iff in Cv. destruct Cv as [E1 E2].
    rewrite (w_v _ _ _ _ _ _ _ H2 E2 y (Nat.lt_le_trans _ _ _ Hy (w_ns _ _ _ _ _ _ _ H1))). now apply H1.
  - intros T K t org Ht Hh.
    pose proof (w_to _ _ _ _ _ _ _ H1 T) as T'. pose proof (w_k _ _ _ _ _ _ _ H1 K) as K'.
    assert (Mid : OC m' t org -> (v1 && b || v2 && f) = true -> (b = true /\ OC m t org) \/ (f = true /\ OC m'' t org)).
    { intros A C. apply orb_true_iff in C. destruct C as [C|C]; apply andb_true_iff in C; destruct C as [Ev E].
      - left. split; [exact E|]. revert A.
        apply (OC_bwd m m'); [apply T|split; [apply H1|apply (w_v _ _ _ _ _ _ _ H1 Ev)]|now apply H1].
      - right. split; [exact E|]. revert A.
        apply (OC_fwd m' m''); [apply T'|split; [apply H2|apply (w_v _ _ _ _ _ _ _ H2 Ev)]|now apply H2]. }
    destruct (w_h _ _ _ _ _ _ _ H2 T' K' t org Ht Hh) as [A|[[-> A]|[-> A]]].
    + destruct (w_h _ _ _ _ _ _ _ H1 T K t org Ht A) as [B|[[-> B]|[-> B]]].
      * now left.
      * right. left. split; [exact Cb|exact B].
      * right. apply (Mid B Cf1).
    + right. apply (Mid A Cb2).
    + right. right. split; [exact Cf|exact A].
  - intros He u Hr. apply (w_run _ _ _ _ _ _ _ H2 He), (w_run _ _ _ _ _ _ _ H1 eq_refl), Hr.
  - intros K u Hr org Hh. apply (w_own _ _ _ _ _ _ _ H1 K u Hr).
    apply (w_own _ _ _ _ _ _ _ H2 (w_k _ _ _ _ _ _ _ H1 K) u); [|exact Hh].
    apply (w_run _ _ _ _ _ _ _ H1 eq_refl), Hr.
  - intros K t Ht Hn. apply (w_nh _ _ _ _ _ _ _ H2 (w_k _ _ _ _ _ _ _ H1 K) t Ht), (w_nh _ _ _ _ _ _ _ H1 K t Ht), Hn.
Qed.

Lemma W_weaken v b f e U v' b' f' e' U' m m' :
  W v b f e U m m' -> (v' = true -> v = true) -> (b = true -> b' = true) -> (f = true -> f' = true) ->
  (e' = false -> e = false) -> incl U U' -> W v' b' f' e' U' m m'.
Proof.
  intros H Cv Cb Cf Ce I0. constructor.
  - apply H.
  - apply H.
  - apply H.
  - apply H.
  - apply H.
  - intros t Ht. apply H. intros Hin. apply Ht, I0, Hin.
  - intros E. apply H. now apply Cv.
  - intros T K t org Ht Hh. destruct (w_h _ _ _ _ _ _ _ H T K t org) as [A|[[E A]|[E A]]]; auto.
  - intros E. apply H. now apply Ce.
  - apply H.
  - intros K t Ht. apply H; [exact K|]. intros Hin. apply Ht, I0, Hin.
Qed.

(* the kinds that occur *)
Notation WT := (W true false false false).   (* quiet and strict: views kept, no new request *)
Notation WQ := (W true true false false).    (* quiet: views kept, new requests justified in the state before *)
Notation WS := (W false false false false).  (* silent: views may change, no new request *)
Notation WC := (W false false true false).   (* a flag change: new requests justified in the state after *)
Notation WF := (W false true true false).    (* one flag change somewhere inside *)
Notation WTE := (W true false false true).
Notation WQE := (W true true false true).
Notation WFE := (W false true true true).

(* WT is the strongest kind, WF the weakest that keeps the running segment, WFE the weakest *)
Lemma WT_any {v b f e U a c} : WT U a c -> W v b f e U a c.
Proof. intros H. apply (W_weaken _ _ _ _ _ _ _ _ _ _ a c H); auto; try discriminate. apply incl_refl. Qed.

Lemma W_WF {v b f U a c} : W v b f false U a c -> WF U a c.
Proof. intros H. apply (W_weaken _ _ _ _ _ _ _ _ _ _ a c H); auto; try discriminate. apply incl_refl. Qed.

Lemma W_WFE {v b f e U a c} : W v b f e U a c -> WFE U a c.
Proof. intros H. apply (W_weaken _ _ _ _ _ _ _ _ _ _ a c H); auto; try discriminate. apply incl_refl. Qed.

Lemma WT_WTE U a b : WT U a b -> WTE U a b.
Proof. apply WT_any. Qed.

(* a WT step before or after a walk does not change its kind; every other composition goes through W_trans *)
Lemma W_pre {v b f e U m} m' {m''} : WT U m m' -> W v b f e U m' m'' -> W v b f e U m m''.
Proof. intros H1 H2. apply (W_trans m' H1 H2). destruct v, b, f; reflexivity. Qed.

Lemma W_post {v b f e U m} m' {m''} : W v b f false U m m' -> W true false false e U m' m'' -> W v b f e U m m''.
Proof. intros H1 H2. apply (W_trans m' H1 H2). destruct v, b, f; reflexivity. Qed.

Lemma WF_r U a b c : WF U a b -> WQ U b c -> WF U a c.
Proof. intros H1 H2. apply (W_trans b H1 H2); reflexivity. Qed.

(* a step that keeps the tree fields and the walk views, and places no request on anybody *)
Lemma WT_light U m m' :
  treq m m' -> (KInv m -> KInv m') -> (KInv m -> MP m -> MP m') ->
  (forall y, view3 (scopes m' y) = view3 (scopes m y)) ->
  (KInv m -> forall t org, Held m' t org -> Held m t org) ->
  (KInv m -> forall t, ~ In t U -> NHeld m t -> NHeld m' t) ->
  running m' = running m -> WT U m m'.
Proof.
  intros Q K Mp V H Nh R. constructor.
  - intros T. now apply (TO_treq m).
  - exact K.
  - exact Mp.
  - rewrite (tq_nscope _ _ Q). apply le_n.
  - rewrite (tq_ntask _ _ Q). apply le_n.
  - intros t _. apply (tq_cur _ _ Q).
  - intros _ y _. apply V.
  - intros _ Kk t org _ Hh. left. now apply H.
  - intros _ u Hu. now rewrite R.
  - intros Kk u _ org. now apply H.
  - exact Nh.
Qed.

(* a step that keeps the futures and every task's request fields, except that a task of U may come out
   without wait, and with no recorded request or the one it had *)
Lemma W_frame v e U m m' :
  (TO m -> TO m') -> nscope m <= nscope m' -> ntask m <= ntask m' ->
  nfut m' = nfut m -> futs m' = futs m ->
  (e = false -> forall u, running m = Some u -> running m' = Some u) ->
  (forall t, hcore (tasks m' t) = hcore (tasks m t) \/
             In t U /\ k_waiter (tasks m' t) = None /\
             (k_must (tasks m' t) = true -> k_must (tasks m t) = true /\ k_msg (tasks m t) = k_msg (tasks m' t))) ->
  (forall t, ~ In t U -> k_cur (tasks m' t) = k_cur (tasks m t)) ->
  (v = true -> forall y, y < nscope m -> view3 (scopes m' y) = view3 (scopes m y)) ->
  W v false false e U m m'.
Proof.
  intros T Ns Nt Nf Ef Er Hc Cu V.
  assert (Hb : forall t org, Held m' t org -> Held m t org).
  { intros t org. destruct (Hc t) as [E|(_ & E1 & E2)].
    - apply held_same; [exact E|]. intros f o _. now rewrite Ef.
    - intros [[A B]|[f [A _]]]; [|congruence]. left. destruct (E2 A) as [E3 E4]. split; congruence. }
  constructor.
  - exact T.
  - intros K. apply (KInv_kq m _ K). apply kq_same; [exact Nf|exact Ef|].
    intros t. destruct (Hc t) as [E|(_ & E & _)]; [left|now right]. unfold hcore in E. now injection E.
  - intros _ M t f Hm Hw. destruct (Hc t) as [E|(_ & E & _)]; [|congruence].
    unfold hcore in E. injection E as E1 _ E3. rewrite Ef. apply (M t f); congruence.
  - exact Ns.
  - exact Nt.
  - exact Cu.
  - exact V.
  - intros _ _ t org _ Hh. left. now apply Hb.
  - exact Er.
  - intros _ u _ org. apply Hb.
  - intros _ t Ht. destruct (Hc t) as [E|(Hin & _)]; [|contradiction].
    apply nheld_same; [exact E|]. intros f _. now rewrite Ef.
Qed.

Lemma view3_same a b : scopes b = scopes a -> forall y, view3 (scopes b y) = view3 (scopes a y).
Proof. intros E y. now rewrite E. Qed.

Lemma vw_view3 a b : sc_view a = sc_view b -> view3 a = view3 b.
Proof. unfold sc_view, view3. intros E. now inversion E. Qed.

Lemma dq_view3 a b : dq a b -> forall y, view3 (scopes b y) = view3 (scopes a y).
Proof. intros Q y. apply vw_view3, (dq_scope _ _ Q). Qed.

Lemma WT_upd_task U m u g : (forall k, tk_tree (g k) = tk_tree k) -> (forall k, hcore (g k) = hcore k) ->
  WT U m (upd_task m u g).
Proof.
  intros Hg Hh. pose proof (treq_upd_task m u g Hg) as Q. apply W_frame; try reflexivity; try apply le_n.
  - intros T. now apply (TO_treq m).
  - intros _ v Hv. exact Hv.
  - intros t. left. cbn [tasks upd_task set_tasks]. unfold upd. destruct (Nat.eqb_spec t u); [subst; apply Hh|reflexivity].
  - intros t _. apply (tq_cur _ _ Q).
Qed.

Lemma WT_same U m m' :
  treq m m' -> tasks m' = tasks m -> futs m' = futs m -> nfut m' = nfut m ->
  (forall y, view3 (scopes m' y) = view3 (scopes m y)) -> running m' = running m -> WT U m m'.
Proof.
  intros Q Et Ef En V R. apply W_frame; auto.
  - intros T. now apply (TO_treq m).
  - rewrite (tq_nscope _ _ Q). apply le_n.
  - rewrite (tq_ntask _ _ Q). apply le_n.
  - intros _ u Hu. now rewrite R.
  - intros t. left. now rewrite Et.
  - intros t _. now rewrite Et.
Qed.

Definition sc_links (c : scope) := (s_parent c, s_children c, s_tasks c).

Lemma TO_frame m m' :
  nscope m' = nscope m -> ntask m' = ntask m ->
  (forall y, sc_links (scopes m' y) = sc_links (scopes m y)) ->
  (forall t, k_cur (tasks m' t) = k_cur (tasks m t)) -> TO m -> TO m'.
Proof.
  intros En Ent Es Ec [T C].
  assert (Ep : forall y, s_parent (scopes m' y) = s_parent (scopes m y)) by (intros y; pose proof (Es y) as E; now injection E).
  assert (Ech : forall y, s_children (scopes m' y) = s_children (scopes m y)) by (intros y; pose proof (Es y) as E; now injection E).
  assert (Et : forall y, s_tasks (scopes m' y) = s_tasks (scopes m y)) by (intros y; pose proof (Es y) as E; now injection E).
  constructor; [constructor|].
  - intros p k. rewrite Ech, Ep. apply T.
  - intros t x. rewrite Et, Ec. apply T.
  - intros y p. rewrite Ep, En. apply T.
  - intros t x. rewrite Ec, En. apply T.
  - intros t x. rewrite Ec, Ent. apply T.
  - intros p k. rewrite Ech, En. apply C.
Qed.

Lemma W_upd_scope v U m c g :
  (forall k, sc_links (g k) = sc_links k) -> (v = true -> forall k, view3 (g k) = view3 k) ->
  W v false false false U m (upd_scope m c g).
Proof.
  intros G1 G2. apply W_frame; try reflexivity; try apply le_n.
  - apply TO_frame; try reflexivity. intros y. cbn. unfold upd. destruct (Nat.eqb_spec y c); [subst; apply G1|reflexivity].
  - intros _ u Hu. exact Hu.
  - intros t. now left.
  - intros Hv y _. cbn. unfold upd. destruct (Nat.eqb_spec y c); [subst; now apply G2|reflexivity].
Qed.

Lemma WT_upd_group U m g h : (forall k, gr_tree (h k) = gr_tree k) -> WT U m (upd_group m g h).
Proof. intros Hh. apply WT_same; try reflexivity. now apply treq_upd_group. Qed.

Lemma WT_set_running_same U m : WT U m (set_running m (running m)).
Proof. apply WT_same; try reflexivity. apply treq_set_running. Qed.

Lemma WT_call_soon U m h : WT U m (call_soon m h).
Proof. apply WT_same; try reflexivity. apply treq_call_soon. Qed.

Lemma WT_set_ctl U m u c : WT U m (set_ctl m u c).
Proof. apply WT_upd_task; intros k; reflexivity. Qed.

Lemma WT_bare_yield U m u : WT U m (bare_yield m u).
Proof. apply WT_call_soon. Qed.

Lemma WT_fut_complete U m g v : (forall o, v <> FCanc (S o)) -> WT U m (fut_complete m g v).
Proof.
  intros Hv. apply WT_light.
  - apply treq_fut_complete.
  - intros K. apply (KInv_kq m); [exact K|apply kq_kframe, kframe_fut_complete].
  - intros _. apply MP_frame; [intros t; left; now rewrite fut_complete_tasks|apply fut_complete_pend].
  - apply dq_view3, dq_fut_complete.
  - intros _ t. apply held_same; [now rewrite fut_complete_tasks|].
    intros f o _. rewrite fut_complete_st. destruct (Nat.eqb_spec f g) as [->|_]; [|auto].
    destruct (f_st (futs m g)); auto. intros E. now elim (Hv o).
  - intros _ t _. apply nheld_same; [now rewrite fut_complete_tasks|]. intros f _ Hf.
    rewrite fut_complete_done; [exact Hf|congruence].
  - apply (kf_running _ _ (kframe_fut_complete m g v)).
Qed.

Lemma KInv_new_fut m : KInv m -> KInv (fst (new_fut m)).
Proof.
  intros [A L]. constructor.
  - intros x y Hw. cbn in *. pose proof (A x y Hw). lia.
  - intros x y Hw Hp. cbn in *. pose proof (A x y Hw) as Hy. unfold upd in *.
    destruct (Nat.eqb_spec y (nfut m)); [lia|]. now apply L.
Qed.

Lemma WT_new_fut U m : WT U m (fst (new_fut m)).
Proof.
  apply WT_light.
  - apply treq_new_fut.
  - apply KInv_new_fut.
  - intros K M t f Hm Hw. cbn in *. unfold upd. pose proof (k_alloc _ K t f Hw).
    destruct (Nat.eqb_spec f (nfut m)); [lia|now apply (M t f)].
  - intros y. reflexivity.
  - intros _ t. apply held_same; [reflexivity|]. intros f o _. cbn. unfold upd.
    destruct (Nat.eqb_spec f (nfut m)); [discriminate|auto].
  - intros K t _. apply nheld_same; [reflexivity|]. intros f Hf. cbn. unfold upd.
    pose proof (k_alloc _ K t f Hf). destruct (Nat.eqb_spec f (nfut m)); [lia|auto].
  - reflexivity.
Qed.

(* suspending on a pending future f: the other tasks and futures are untouched; the task waits on f and keeps no
   recorded request, which, if it had one, has gone to f *)
Lemma suspend_pending_char m u f : f_st (futs m f) = FPend ->
  (forall x, x <> u -> tasks (suspend_on m u f) x = tasks m x) /\
  (forall g, g <> f -> futs (suspend_on m u f) g = futs m g) /\
  k_waiter (tasks (suspend_on m u f) u) = Some f /\ k_must (tasks (suspend_on m u f) u) = false /\
  f_st (futs (suspend_on m u f) f) = (if k_must (tasks m u) then FCanc (k_msg (tasks m u)) else FPend).
Proof.
  intros Ep. pose proof (suspend_on_fix m u f) as X.
  split; [intros x Hx; apply (kx_tasks _ _ _ _ X); congruence|].
  split; [intros g Hg; apply (kx_futs _ _ _ _ X); congruence|].
  unfold suspend_on. rewrite Ep.
  set (s2 := upd_task (upd_fut m f (fun x => mkFut (f_st x) (Some u))) u (tk_waiter (Some f))).
  assert (E2 : tasks s2 u = tk_waiter (Some f) (tasks m u)) by (unfold s2; cbn [tasks upd_task set_tasks]; apply upd_same).
  assert (P2 : f_st (futs s2 f) = FPend) by (unfold s2; cbn [futs upd_task upd_fut set_tasks set_futs]; now rewrite upd_same).
  destruct (k_must (tasks m u)) eqn:Em.
  - rewrite upd_task_eq, fut_complete_tasks, E2. split; [reflexivity|]. split; [reflexivity|].
    change (futs (upd_task ?a _ _)) with (futs a). now rewrite fut_complete_st, Nat.eqb_refl, P2.
  - rewrite E2. split; [reflexivity|]. split; [exact Em|exact P2].
Qed.

Section Fresh.
  Variables (m : st) (u : tid) (f : fid).
  Hypothesis K : KInv m.
  Hypothesis Ef : futs m f = fut0.

  Lemma fresh_unwaited x : k_waiter (tasks m x) <> Some f.
  Proof.
    intros Hx. assert (Hp : f_st (futs m f) = FPend) by now rewrite Ef.
    pose proof (k_link _ K x f Hx Hp) as E. rewrite Ef in E. discriminate.
  Qed.

  Lemma K_suspend_fresh : f < nfut m -> KInv (suspend_on m u f).
  Proof.
    intros Hf. pose proof fresh_unwaited as Fresh. destruct K as [A2 L2].
    unfold suspend_on.
    set (s3 := upd_task (upd_fut m f (fun x => mkFut (f_st x) (Some u))) u (tk_waiter (Some f))).
    assert (K3 : KInv s3).
    { constructor.
      - intros x y Hw. unfold s3 in *. cbn in *. unfold upd in Hw.
        destruct (Nat.eqb_spec x u); [inversion Hw; subst; exact Hf|now apply (A2 x y)].
      - intros x y Hw Hp. unfold s3 in *. cbn in *. unfold upd in *.
        destruct (Nat.eqb_spec x u) as [->|Hx].
        + inversion Hw; subst y. now rewrite Nat.eqb_refl.
        + destruct (Nat.eqb_spec y f) as [->|Hy]; [now elim (Fresh x)|]. now apply L2. }
    destruct (f_st (futs m f)).
    - destruct (k_must (tasks m u)); [|exact K3].
      apply (KInv_kq s3); [exact K3|]. eapply kq_trans; [apply kq_kframe, kframe_fut_complete|].
      apply kq_upd_task. intros k; now left.
    - apply (KInv_kq s3); [exact K3|]. apply kq_tasks_same; reflexivity.
    - apply (KInv_kq s3); [exact K3|]. apply kq_tasks_same; reflexivity.
    - apply (KInv_kq s3); [exact K3|]. apply kq_tasks_same; reflexivity.
  Qed.

  Lemma suspend_fresh_other t msg : t <> u -> HeldMsg (suspend_on m u f) t msg <-> HeldMsg m t msg.
  Proof.
    intros Ht. destruct (suspend_pending_char m u f) as (Et & Eg & _); [now rewrite Ef|].
    split; apply hm_same; rewrite ?(Et t Ht); try reflexivity; intros g Hg; rewrite Eg; auto;
      intros ->; now apply (fresh_unwaited t).
  Qed.

  Lemma held_suspend_fresh t org : Held (suspend_on m u f) t org -> Held m t org.
  Proof.
    destruct (Nat.eq_dec t u) as [->|Ht]; [|apply (suspend_fresh_other t (S org) Ht)].
    destruct (suspend_pending_char m u f) as (_ & _ & Ew & Em & Es); [now rewrite Ef|].
    intros [[A _]|[g [A B]]]; [congruence|]. left. rewrite Ew in A. injection A as <-. rewrite Es in B.
    destruct (k_must (tasks m u)); [now injection B|discriminate].
  Qed.

  Lemma MP_suspend_fresh : MP m -> MP (suspend_on m u f).
  Proof.
    intros M x g Hm Hw Hp. destruct (suspend_pending_char m u f) as (Et & Eg & _ & Em & _); [now rewrite Ef|].
    assert (Hx : x <> u) by (intros ->; congruence). rewrite (Et x Hx) in Hm, Hw.
    assert (Hg : g <> f) by (intros ->; now apply (fresh_unwaited x)). rewrite (Eg g Hg) in Hp. now apply (M x g).
  Qed.
End Fresh.

Lemma WT_suspend_fresh U m u f : In u U -> futs m f = fut0 -> f < nfut m -> WT U m (suspend_on m u f).
Proof.
  intros Hin Ef Hf. apply WT_light.
  - apply (quiet_treq u), quiet_suspend_on.
  - intros K. now apply K_suspend_fresh.
  - intros K. now apply MP_suspend_fresh.
  - apply view3_same, (proj1 (ss_suspend_on m u f)).
  - intros K. now apply held_suspend_fresh.
  - intros K t Ht. apply (suspend_fresh_other m u f K Ef t 0). intros ->. contradiction.
  - apply (proj2 (suspend_on_cnt m u f)).
Qed.

Lemma WT_park U m u : In u U -> WT U m (park m u).
Proof.
  intros Hin. unfold park. cbn [new_fut]. unfold new_fut.
  set (m1 := fst (new_fut m)).
  apply (W_pre (suspend_on m1 u (nfut m))); [|apply WT_set_ctl].
  apply (W_pre m1); [apply WT_new_fut|].
  apply WT_suspend_fresh; [exact Hin|unfold m1; cbn; unfold upd; now rewrite Nat.eqb_refl|unfold m1; cbn; lia].
Qed.

Lemma WTE_set_running U m v : WTE U m (set_running m v).
Proof.
  apply W_frame; try reflexivity; try apply le_n; try discriminate.
  - apply TO_frame; reflexivity.
  - intros t. now left.
Qed.

(* a task starts or ends a running segment: its record k' has no wait, and no recorded request unless the one
   it had; nothing else that the walk looks at changes *)
Lemma W_resume e U m m' u k' :
  In u U -> scopes m' = scopes m -> nscope m' = nscope m -> ntask m' = ntask m -> nfut m' = nfut m ->
  futs m' = futs m -> tasks m' = upd (tasks m) u k' -> k_cur k' = k_cur (tasks m u) -> k_waiter k' = None ->
  (k_must k' = true -> k_must (tasks m u) = true /\ k_msg (tasks m u) = k_msg k') ->
  (e = false -> running m = None) -> W true false false e U m m'.
Proof.
  intros Hin Es En Ent Nf Ef Et Hc Hw Hm Hr.
  assert (Ek : forall t, t <> u -> tasks m' t = tasks m t) by (intros t Ht; rewrite Et; now apply upd_other).
  assert (Eu : tasks m' u = k') by (rewrite Et; apply upd_same).
  apply W_frame; auto.
  - apply TO_frame; auto; [intros y; now rewrite Es|]. intros t. destruct (Nat.eq_dec t u) as [->|Ht]; [now rewrite Eu|now rewrite Ek].
  - rewrite En. apply le_n.
  - rewrite Ent. apply le_n.
  - intros E v Hv. rewrite (Hr E) in Hv. discriminate.
  - intros t. destruct (Nat.eq_dec t u) as [->|Ht]; [right; now rewrite Eu|left; now rewrite Ek].
  - intros t Ht. rewrite Ek; [reflexivity|]. intros ->. contradiction.
  - intros _ y _. now rewrite Es.
Qed.

Lemma WT_begin_act U m u : In u U -> running m = None -> WT U m (begin_act m u).
Proof. intros Hin Hr. apply (W_resume false U m _ u (tk_waiter None (tasks m u))); auto. Qed.

Lemma WT_incoming U m u fo : In u U -> running m = None -> WT U m (fst (incoming m u fo)).
Proof.
  intros Hin Hr. apply (W_resume false U m _ u (tk_must false (k_msg (tasks m u)) (tk_waiter None (tasks m u)))); auto.
  discriminate.
Qed.

Lemma WTE_ret U m u r : In u U -> WTE U m (fst (ret_to_puppet m u r)).
Proof.
  intros Hin. unfold ret_to_puppet. cbn [fst].
  set (m1 := match r with RExc e => upd_task m u (tk_held (Some e)) | _ => m end).
  assert (H1 : WT U m m1).
  { unfold m1. destruct r; try apply W_refl. apply WT_upd_task; intros k; reflexivity. }
  apply (W_pre m1 H1). apply (W_pre (park m1 u)); [now apply WT_park|apply WTE_set_running].
Qed.

Lemma WTE_blocked U m : WTE U m (fst (blocked m)).
Proof. apply WTE_set_running. Qed.

Lemma WTE_finish_task U m u o : In u U -> WTE U m (finish_task m u o).
Proof.
  intros Hin. unfold finish_task.
  match goal with |- context [upd_task m u ?g] => apply (W_resume true U m _ u (g (tasks m u))) end;
    auto; try discriminate; destruct (k_group (tasks m u)); reflexivity.
Qed.

Lemma WT_task_cancel_native U m u : WT U m (task_cancel m u 0).
Proof.
  apply WT_light.
  - apply treq_task_cancel.
  - intros K. apply (KInv_kq m); [exact K|apply kq_kframe, kframe_task_cancel].
  - intros _. apply MP_task_cancel.
  - apply dq_view3, dq_task_cancel.
  - intros _ t org Hh. destruct (hm_task_cancel m u 0 t (S org) Hh) as [A|[E _]]; [exact A|discriminate].
  - intros _ t _. apply (hm_task_cancel_fwd m u 0 t 0). now right.
  - apply (kf_running _ _ (kframe_task_cancel m u 0)).
Qed.

Lemma WT_task_uncancel U m u : WT U m (task_uncancel m u).
Proof. apply WT_upd_task; intros k; reflexivity. Qed.

Lemma WT_iter_uncancel U n u : forall m, WT U m (iter n (fun a => task_uncancel a u) m).
Proof.
  induction n as [|n IH]; intros m; cbn [iter]; [apply W_refl|].
  apply (W_pre (task_uncancel m u)); [apply WT_task_uncancel|apply IH].
Qed.

Lemma WT_timer_cancel U m tm : WT U m (timer_cancel m tm).
Proof. apply WT_same; try reflexivity. apply treq_timer_cancel. Qed.

Lemma WT_cancel_timeout U m c : WT U m (cancel_timeout m c).
Proof.
  unfold cancel_timeout. destruct (s_timeout (scopes m c)) as [tm|]; [|apply W_refl].
  apply (W_pre (timer_cancel m tm)); [apply WT_timer_cancel|]. apply W_upd_scope; reflexivity.
Qed.

Lemma WT_call_at U m w x : WT U m (fst (call_at m w x)).
Proof. apply WT_same; try reflexivity. apply treq_call_at. Qed.

Lemma WT_tick U m dt : WT U m (tick m dt).
Proof. apply WT_same; try reflexivity. apply treq_tick. Qed.

Lemma WT_fold_fut_complete U v fs : (forall o, v <> FCanc (S o)) ->
  forall m, WT U m (fold_left (fun a f => fut_complete a f v) fs m).
Proof.
  intros Hv. induction fs as [|f fs IH]; intros m; cbn [fold_left]; [apply W_refl|].
  apply (W_pre (fut_complete m f v)); [now apply WT_fut_complete|apply IH].
Qed.

Lemma WT_upd_event U m e g : WT U m (upd_event m e g).
Proof. apply WT_same; try reflexivity. apply treq_upd_event. Qed.

Lemma WT_event_set U m e : WT U m (event_set m e).
Proof.
  unfold event_set. destruct (e_set (events m e)); [apply W_refl|].
  match goal with |- _ (fold_left _ _ ?m1) => apply (W_pre m1) end; [apply WT_upd_event|].
  apply WT_fold_fut_complete. discriminate.
Qed.

Lemma WT_event_unwait U m e fo : WT U m (event_unwait m e fo).
Proof. destruct fo; [apply WT_upd_event|apply W_refl]. Qed.

Lemma WT_event_wait U m u e : In u U -> WT U m (fst (event_wait m u e)).
Proof.
  intros Hin. unfold event_wait. destruct (e_set (events m e)); cbn [fst]; [apply WT_bare_yield|].
  unfold new_fut. cbn [fst].
  match goal with |- _ (suspend_on (upd_event ?m1 ?e ?g) u ?f) => apply (W_pre (upd_event m1 e g)) end.
  - match goal with |- _ (upd_event ?m1 ?e ?g) => apply (W_pre m1) end; [apply (WT_new_fut U m)|apply WT_upd_event].
  - apply WT_suspend_fresh; [exact Hin|cbn; unfold upd; now rewrite Nat.eqb_refl|cbn; lia].
Qed.

Lemma WT_new_scope U m d sh : WT U m (fst (new_scope m d sh)).
Proof.
  assert (Es : forall y, y <> nscope m -> scopes (fst (new_scope m d sh)) y = scopes m y).
  { intros y Hy. cbn. unfold upd. destruct (Nat.eqb_spec y (nscope m)); [contradiction|reflexivity]. }
  assert (En : scopes (fst (new_scope m d sh)) (nscope m) = sc_shield sh (sc_deadline d scope0)).
  { cbn. unfold upd. now rewrite Nat.eqb_refl. }
  apply W_frame; try reflexivity; try (apply le_S, le_n); try apply le_n.
  - intros [T C]. constructor; [constructor|].
    + intros p c Hc. destruct (Nat.eq_dec p (nscope m)) as [->|Hp]; [rewrite En in Hc; destruct Hc|].
      rewrite (Es p Hp) in Hc. pose proof (C p c Hc). rewrite Es by lia. now apply T.
    + intros t x Hx. destruct (Nat.eq_dec x (nscope m)) as [->|Hp]; [rewrite En in Hx; destruct Hx|].
      rewrite (Es x Hp) in Hx. now apply T.
    + intros y p Hy. cbn [nscope new_scope fst]. destruct (Nat.eq_dec y (nscope m)) as [->|Hp]; [rewrite En in Hy; discriminate|].
      rewrite (Es y Hp) in Hy. pose proof (to_pa _ T y p Hy). lia.
    + intros t x Hx. cbn [nscope new_scope fst]. pose proof (to_cu _ T t x Hx). lia.
    + intros t x Hx. apply (to_ct _ T t x Hx).
    + intros p c Hc. cbn [nscope new_scope fst]. destruct (Nat.eq_dec p (nscope m)) as [->|Hp]; [rewrite En in Hc; destruct Hc|].
      rewrite (Es p Hp) in Hc. pose proof (C p c Hc). lia.
  - intros _ u Hu. exact Hu.
  - intros t. now left.
  - intros _ y Hy. rewrite Es by lia. reflexivity.
Qed.

Lemma KInv_wl m : KInv m -> wait_link m.
Proof. intros K. apply K. Qed.

Lemma WQ_deliver_top U m c : s_cancelled (scopes m c) = true -> WQ U m (deliver_top m c).
Proof.
  intros Hc. pose proof (kframe_deliver_top m c) as K. constructor.
  - intros T. apply (TO_treq m); [exact T|apply treq_deliver_top].
  - intros Kk. apply (KInv_kq m); [exact Kk|now apply kq_kframe].
  - intros _. apply MP_deliver_top.
  - rewrite (kf_nscope _ _ K). apply le_n.
  - rewrite (kf_ntask _ _ K). apply le_n.
  - intros t _. apply (tq_cur _ _ (treq_deliver_top m c)).
  - intros _ y _. apply view3_core, (kf_scopes _ _ K).
  - intros T Kk t org _ Hh. destruct (held_deliver_top m c (to_w _ T) (KInv_wl m Kk) Hc t org Hh) as [H|H]; auto.
  - intros _ u Hu. now rewrite (kf_running _ _ K).
  - intros Kk u Hu org Hh. destruct (proj2 (dlog_deliver_top m c) (KInv_wl m Kk) u) as [_ D].
    destruct (D org Hh) as [H|[_ Hn]]; [exact H|]. rewrite (deliver_top_running m c u Hu) in Hn. lia.
  - intros _ t _. apply nheld_deliver_top.
Qed.

Lemma WQ_restart U m x : WQ U m (restart m x).
Proof. apply restart_closed; [apply W_refl|]. intros c Hc _. now apply WQ_deliver_top. Qed.

Lemma WC_scope_cancel U m c b : WC U m (scope_cancel m c b).
Proof.
  unfold scope_cancel. destruct (s_cancelled (scopes m c)) eqn:Ec; [apply W_refl|].
  set (m1 := cancel_timeout m c).
  set (m2 := upd_scope m1 c (fun x => sc_bydeadline b (sc_cancelled true x))).
  assert (H2 : WS U m m2).
  { apply (W_pre m1); [apply WT_cancel_timeout|]. apply W_upd_scope; [reflexivity|discriminate]. }
  assert (H3 : WQ U m2 match s_host (scopes m2 c) with Some _ => deliver_top m2 c | None => m2 end).
  { destruct (s_host (scopes m2 c)); [|apply W_refl]. apply WQ_deliver_top.
    unfold m2. cbn. unfold upd. now rewrite Nat.eqb_refl. }
  apply (W_trans m2 H2 H3); reflexivity.
Qed.

Lemma WC_scope_timeout U m c : WC U m (scope_timeout m c).
Proof.
  unfold scope_timeout. destruct (s_deadline (scopes m c)) as [d|]; [|apply W_refl].
  destruct (Z.leb d (now m)); [apply WC_scope_cancel|].
  apply WT_any. cbn [fst snd call_at].
  match goal with |- _ (upd_scope ?m1 c ?g) => apply (W_pre m1) end.
  - apply (WT_call_at U m d (TScope c)).
  - apply W_upd_scope; reflexivity.
Qed.

Lemma cancel_timeout_fields s c :
  tasks (cancel_timeout s c) = tasks s /\ futs (cancel_timeout s c) = futs s /\ nfut (cancel_timeout s c) = nfut s /\
  nscope (cancel_timeout s c) = nscope s /\ ntask (cancel_timeout s c) = ntask s /\
  running (cancel_timeout s c) = running s /\
  forall y, s_parent (scopes (cancel_timeout s c) y) = s_parent (scopes s y) /\
            s_children (scopes (cancel_timeout s c) y) = s_children (scopes s y) /\
            s_tasks (scopes (cancel_timeout s c) y) = s_tasks (scopes s y) /\
            view3 (scopes (cancel_timeout s c) y) = view3 (scopes s y).
Proof.
  unfold cancel_timeout. destruct (s_timeout (scopes s c)); repeat split; try reflexivity;
    cbn; unfold upd; destruct (Nat.eqb_spec y c); subst; reflexivity.
Qed.

Lemma xs_char m c u :
  let X := exit_links m c u in let par := s_parent (scopes m c) in
  (forall y, s_parent (scopes X y) = s_parent (scopes m y)) /\
  (forall y, s_children (scopes X y) =
             if opt_eqb par y then del c (s_children (scopes m y)) else s_children (scopes m y)) /\
  (forall y, s_tasks (scopes X y) =
             let l := if Nat.eqb y c then del u (s_tasks (scopes m c)) else s_tasks (scopes m y) in
             if opt_eqb par y then add u l else l) /\
  (forall y, view3 (scopes X y) = view3 (scopes m y)) /\
  (forall t, tasks X t = if Nat.eqb t u then tk_cur par (tasks m u) else tasks m t) /\
  futs X = futs m /\ nfut X = nfut m /\ nscope X = nscope m /\ ntask X = ntask m /\ running X = running m.
Proof.
  cbv zeta. unfold exit_links.
  set (m0 := upd_scope m c (sc_active false)).
  destruct (cancel_timeout_fields m0 c) as (Et & Ef & Enf & En & Ent & Er & Es).
  set (s1 := cancel_timeout m0 c) in *.
  assert (F1 : forall y, s_parent (scopes s1 y) = s_parent (scopes m y) /\
                         s_children (scopes s1 y) = s_children (scopes m y) /\
                         s_tasks (scopes s1 y) = s_tasks (scopes m y) /\
                         view3 (scopes s1 y) = view3 (scopes m y)).
  { intros y. destruct (Es y) as (A1 & A2 & A3 & A4). rewrite A1, A2, A3, A4. unfold m0. cbn. unfold upd.
    destruct (Nat.eqb_spec y c); subst; repeat split; reflexivity. }
  destruct (s_parent (scopes m c)) as [p|] eqn:Ep; cbn [opt_eqb].
  - repeat split; try assumption.
    + intros y. cbn. unfold upd. destruct (Nat.eqb_spec y p), (Nat.eqb_spec y c); subst; cbn; try apply F1.
      all: try (destruct (Nat.eqb_spec c c); [|congruence]; cbn; apply F1).
      destruct (Nat.eqb_spec p c); [congruence|]. apply F1.
    + intros y. cbn. unfold upd. rewrite (Nat.eqb_sym p y). destruct (Nat.eqb_spec y p); subst; cbn.
      * destruct (Nat.eqb_spec p c); subst; cbn; now rewrite (proj1 (proj2 (F1 _))).
      * destruct (Nat.eqb_spec y c); subst; cbn; apply F1.
    + intros y. cbn. unfold upd. rewrite (Nat.eqb_sym p y). destruct (Nat.eqb_spec y p); subst; cbn.
      * destruct (Nat.eqb_spec p c); subst; cbn; now rewrite (proj1 (proj2 (proj2 (F1 _)))).
      * destruct (Nat.eqb_spec y c); subst; cbn; [now rewrite (proj1 (proj2 (proj2 (F1 _))))|apply F1].
    + intros y. cbn. unfold upd. destruct (Nat.eqb_spec y p); subst; cbn.
      * destruct (Nat.eqb_spec p c); subst; cbn; apply F1.
      * destruct (Nat.eqb_spec y c); subst; cbn; apply F1.
    + intros t. cbn. unfold upd. rewrite Et. destruct (Nat.eqb_spec t u); reflexivity.
  - repeat split; try assumption.
    + intros y. cbn. unfold upd. destruct (Nat.eqb_spec y c); subst; cbn; apply F1.
    + intros y. cbn. unfold upd. destruct (Nat.eqb_spec y c); subst; cbn; apply F1.
    + intros y. cbn. unfold upd. destruct (Nat.eqb_spec y c); subst; cbn; [now rewrite (proj1 (proj2 (proj2 (F1 _))))|apply F1].
    + intros y. cbn. unfold upd. destruct (Nat.eqb_spec y c); subst; cbn; apply F1.
    + intros t. cbn. unfold upd. rewrite Et. destruct (Nat.eqb_spec t u); reflexivity.
Qed.

Lemma WT_exit_struct m c u : exit_ok m c u -> WT [u] m (exit_links m c u).
Proof.
  intros [Ha [Hh Hc]]. destruct (xs_char m c u) as (Xp & Xc & Xt & Xv & Xk & Xf & Xnf & Xn & Xnt & Xr).
  set (X := exit_links m c u) in *. set (par := s_parent (scopes m c)) in *.
  assert (Ecur : forall t, t <> u -> k_cur (tasks X t) = k_cur (tasks m t)).
  { intros t Ht. rewrite Xk. destruct (Nat.eqb_spec t u); [contradiction|reflexivity]. }
  assert (Eu : k_cur (tasks X u) = par) by (rewrite Xk, Nat.eqb_refl; reflexivity).
  apply W_frame; [|rewrite Xn; apply le_n|rewrite Xnt; apply le_n|exact Xnf|exact Xf|intros _ v Hv; now rewrite Xr| | |].
  - intros [T C]. constructor; [constructor|].
    + intros p k Hk. rewrite Xp. rewrite Xc in Hk. apply (to_cp _ T p k).
      destruct (opt_eqb par p); [apply in_del in Hk; apply Hk|exact Hk].
    + intros t x Hx. rewrite Xt in Hx. cbv zeta in Hx.
      assert (Hl : In t (if Nat.eqb x c then del u (s_tasks (scopes m c)) else s_tasks (scopes m x)) ->
                   t <> u /\ k_cur (tasks m t) = Some x).
      { destruct (Nat.eqb_spec x c) as [Exc|Hxc]; intros Hin.
        - rewrite Exc. apply in_del in Hin. destruct Hin as [Hin Hne]. split; [exact Hne|apply (to_tc _ T t c Hin)].
        - pose proof (to_tc _ T t x Hin) as E. split; [|exact E]. intros ->. congruence. }
      destruct (opt_eqb par x) eqn:Eo.
      * apply in_add in Hx. destruct Hx as [Hx| ->]; [|rewrite Eu; now apply opt_eqb_Some].
        destruct (Hl Hx) as [Hne E]. now rewrite Ecur.
      * destruct (Hl Hx) as [Hne E]. now rewrite Ecur.
    + intros y p. rewrite Xp, Xn. apply T.
    + intros t x. rewrite Xn. destruct (Nat.eq_dec t u) as [->|Hne].
      * rewrite Eu. intros E. apply (to_pa _ T c x E).
      * rewrite Ecur by exact Hne. apply T.
    + intros t x. rewrite Xnt. destruct (Nat.eq_dec t u) as [->|Hne].
      * intros _. apply (to_ct _ T u c Hc).
      * rewrite Ecur by exact Hne. apply T.
    + intros p k Hk. rewrite Xn. rewrite Xc in Hk. apply (C p k).
      destruct (opt_eqb par p); [apply in_del in Hk; apply Hk|exact Hk].
  - intros t. left. rewrite Xk. destruct (Nat.eqb_spec t u); [subst|]; reflexivity.
  - intros t Ht. apply Ecur. intros ->. apply Ht. now left.
  - intros _ y _. apply Xv.
Qed.

Lemma WQ_exit m c u exc : WQ [u] m (fst (scope_exit m c u exc)).
Proof.
  destruct (exit_ok_dec m c u) as [Hok|Hno]; [|rewrite (scope_exit_fail m c u exc Hno); apply W_refl].
  destruct (scope_exit_shape m c u exc Hok) as (s6 & x & Hx & ->). cbn [fst].
  set (s5 := restart (exit_links m c u) (s_parent (scopes m c))) in Hx.
  assert (K5 : WQ [u] m s5).
  { apply (W_pre (exit_links m c u)); [now apply WT_exit_struct|apply WQ_restart]. }
  clearbody s5. apply (W_post s6); [|apply W_upd_scope; reflexivity].
  destruct Hx as [x _|_ _|p _ _ _ _].
  - assert (KA : WQ [u] m sA).
    { apply (W_post (iter (s_pending (scopes s5 c)) (fun a => task_uncancel a u) s5)); [|apply W_upd_scope; reflexivity].
      apply (W_post s5 K5), WT_iter_uncancel. }
    destruct x; [|exact KA|]; apply (W_post sA KA), W_upd_scope; reflexivity.
  - exact K5.
  - apply (W_post (upd_scope s5 p (fun x => sc_pending (s_pending x + s_pending (scopes s5 c)) x)));
      [apply (W_post s5 K5)|]; apply W_upd_scope; reflexivity.
Qed.

Definition Enterable (m : st) (c : sid) (u : tid) : Prop :=
  (forall p, ~ In c (s_children (scopes m p))) /\ k_cur (tasks m u) <> Some c /\ c < nscope m /\ u < ntask m.

Lemma s3_char m c u : k_cur (tasks m u) <> Some c ->
  let X := enter_links m c u in let par := k_cur (tasks m u) in
  (forall y, s_parent (scopes X y) = if Nat.eqb y c then par else s_parent (scopes m y)) /\
  (forall y, s_children (scopes X y) =
             if opt_eqb par y then add c (s_children (scopes m y)) else s_children (scopes m y)) /\
  (forall y, s_tasks (scopes X y) =
             if Nat.eqb y c then add u (s_tasks (scopes m c))
             else if opt_eqb par y then del u (s_tasks (scopes m y)) else s_tasks (scopes m y)) /\
  (forall y, y <> c -> view3 (scopes X y) = view3 (scopes m y)) /\
  s_cancelled (scopes X c) = s_cancelled (scopes m c) /\
  futs X = futs m /\ nscope X = nscope m /\ ntask X = ntask m /\ running X = running m.
Proof.
  intros Hpc. cbv zeta. pose proof (fun y => enter_links_scopes m c u y Hpc) as E.
  assert (Hn : opt_eqb (k_cur (tasks m u)) c = false).
  { destruct (opt_eqb _ c) eqn:Eo; [|reflexivity]. now apply opt_eqb_Some in Eo. }
  repeat split; try (rewrite (enter_links_rest m c u); reflexivity).
  - intros y. rewrite E. destruct (Nat.eqb y c); [reflexivity|]. now destruct (opt_eqb _ y).
  - intros y. rewrite E. destruct (Nat.eqb_spec y c) as [->|_]; [now rewrite Hn|]. now destruct (opt_eqb _ y).
  - intros y. rewrite E. destruct (Nat.eqb y c); [reflexivity|]. now destruct (opt_eqb _ y).
  - intros y Hy. rewrite E. destruct (Nat.eqb_spec y c); [contradiction|]. now destruct (opt_eqb _ y).
  - now rewrite E, Nat.eqb_refl.
Qed.

Lemma WS_enter_s3 m c u : Enterable m c u -> WS [u] m (enter_links m c u).
Proof.
  intros (Hnc & Hpc & Hca & Hua).
  destruct (s3_char m c u Hpc) as (Xp & Xc & Xt & Xv & Xcc & Xf & Xn & Xnt & Xr).
  set (X := enter_links m c u) in *. set (par := k_cur (tasks m u)) in *.
  assert (Xk : forall t, tasks X t = if Nat.eqb t u then tk_cur (Some c) (tasks m u) else tasks m t)
    by (intros t; apply enter_links_tasks).
  assert (Ecur : forall t, t <> u -> k_cur (tasks X t) = k_cur (tasks m t)).
  { intros t Ht. rewrite Xk. destruct (Nat.eqb_spec t u); [contradiction|reflexivity]. }
  assert (Eu : k_cur (tasks X u) = Some c) by (rewrite Xk, Nat.eqb_refl; reflexivity).
  apply W_frame; [|rewrite Xn; apply le_n|rewrite Xnt; apply le_n| |exact Xf|intros _ v Hv; now rewrite Xr| | |discriminate].
  - intros [T C]. constructor; [constructor|].
    + intros p k Hk. rewrite Xp. rewrite Xc in Hk. destruct (opt_eqb par p) eqn:Eo.
      * apply in_add in Hk. destruct Hk as [Hk| ->].
        -- destruct (Nat.eqb_spec k c) as [->|_]; [now elim (Hnc p)|apply (to_cp _ T p k Hk)].
        -- rewrite Nat.eqb_refl. now apply opt_eqb_Some.
      * destruct (Nat.eqb_spec k c) as [->|_]; [now elim (Hnc p)|apply (to_cp _ T p k Hk)].
    + intros t x Hx. rewrite Xt in Hx. destruct (Nat.eqb_spec x c) as [Exc|Hxc].
      * rewrite Exc. apply in_add in Hx. destruct Hx as [Hx| ->]; [|exact Eu].
        pose proof (to_tc _ T t c Hx) as E. rewrite Ecur; [exact E|]. intros ->. contradiction.
      * destruct (opt_eqb par x) eqn:Eo.
        -- apply in_del in Hx. destruct Hx as [Hx Hne]. rewrite Ecur by exact Hne. apply (to_tc _ T t x Hx).
        -- pose proof (to_tc _ T t x Hx) as E. rewrite Ecur; [exact E|]. intros ->.
           assert (opt_eqb par x = true) by now apply opt_eqb_Some. congruence.
    + intros y p. rewrite Xp, Xn. destruct (Nat.eqb_spec y c); [intros E; apply (to_cu _ T u p E)|apply T].
    + intros t x. rewrite Xn. destruct (Nat.eq_dec t u) as [->|Hne].
      * rewrite Eu. intros E. injection E as <-. exact Hca.
      * rewrite Ecur by exact Hne. apply T.
    + intros t x. rewrite Xnt. destruct (Nat.eq_dec t u) as [->|Hne]; [intros _; exact Hua|].
      rewrite Ecur by exact Hne. apply T.
    + intros p k Hk. rewrite Xn. rewrite Xc in Hk. destruct (opt_eqb par p).
      * apply in_add in Hk. destruct Hk as [Hk| ->]; [apply (C p k Hk)|exact Hca].
      * apply (C p k Hk).
  - unfold X. rewrite (enter_links_rest m c u). reflexivity.
  - intros t. left. rewrite Xk. destruct (Nat.eqb_spec t u); [subst|]; reflexivity.
  - intros t Ht. apply Ecur. intros ->. apply Ht. now left.
Qed.

Lemma WC_enter m c u : (s_active (scopes m c) = false -> Enterable m c u) -> WC [u] m (fst (scope_enter m c u)).
Proof.
  intros He. rewrite scope_enter_eq. destruct (s_active (scopes m c)); [apply W_refl|].
  specialize (He eq_refl). cbv zeta. cbn [fst].
  set (s3 := enter_links m c u). set (s4 := scope_timeout s3 c). set (s5 := upd_scope s4 c (sc_active true)).
  assert (H5 : WC [u] m s5).
  { apply (W_post s4); [|apply W_upd_scope; reflexivity].
    apply (W_trans s3 (WS_enter_s3 m c u He) (WC_scope_timeout [u] s3 c)); reflexivity. }
  destruct (s_cancelled (scopes s5 c)) eqn:Ec; [|exact H5].
  apply (W_trans s5 H5 (WQ_deliver_top [u] s5 c Ec)); reflexivity.
Qed.

(* a freshly created scope, no deadline: nothing is delivered and no allocated scope changes its view *)
Lemma W_view v b f e U m m' :
  W v b f e U m m' -> (forall y, y < nscope m -> view3 (scopes m' y) = view3 (scopes m y)) -> W true b f e U m m'.
Proof.
  intros H V. constructor; try apply H. intros _. exact V.
Qed.

Lemma enterable_fresh m d sh u : TO m -> u < ntask m -> Enterable (fst (new_scope m d sh)) (nscope m) u.
Proof.
  intros [T C] Hu. repeat split.
  - intros p Hin. cbn in Hin. unfold upd in Hin. destruct (Nat.eqb_spec p (nscope m)); [destruct Hin|].
    pose proof (C p _ Hin). lia.
  - intros E. cbn in E. pose proof (to_cu _ T u _ E). lia.
  - cbn. lia.
  - exact Hu.
Qed.

Lemma WT_new_enter m sh u : TO m -> u < ntask m ->
  WT [u] m (fst (scope_enter (fst (new_scope m None sh)) (nscope m) u)).
Proof.
  intros T Hu. set (m1 := fst (new_scope m None sh)). set (c := nscope m).
  pose proof (enterable_fresh m None sh u T Hu) as He. fold m1 c in He.
  destruct He as (Hnc & Hpc & Hca & Hua).
  destruct (s3_char m1 c u Hpc) as (Xp & Xc & Xt & Xv & Xcc & Xf & Xn & Xnt & Xr).
  assert (Eb : scopes m1 c = sc_shield sh (sc_deadline None scope0)) by (unfold m1, c; cbn; unfold upd; now rewrite Nat.eqb_refl).
  rewrite scope_enter_eq, Eb. cbv zeta. cbn [fst s_active sc_shield sc_deadline scope0].
  set (s3 := enter_links m1 c u) in *.
  assert (Ed : s_deadline (scopes s3 c) = None).
  { unfold s3. rewrite (enter_links_scopes m1 c u c Hpc), Nat.eqb_refl, Eb. reflexivity. }
  assert (E4 : scope_timeout s3 c = s3) by (unfold scope_timeout; now rewrite Ed).
  rewrite E4. set (s5 := upd_scope s3 c (sc_active true)).
  assert (Ec : s_cancelled (scopes s5 c) = false).
  { unfold s5. cbn [scopes upd_scope set_scopes]. rewrite upd_same. cbn [s_cancelled sc_active]. now rewrite Xcc, Eb. }
  rewrite Ec.
  assert (H5 : WS [u] m s5).
  { apply (W_post s3); [|apply W_upd_scope; reflexivity].
    apply (W_pre m1); [apply WT_new_scope|apply WS_enter_s3; repeat split; assumption]. }
  apply (W_view _ _ _ _ _ _ _ H5). intros y Hy. unfold s5. cbn [scopes upd_scope set_scopes]. unfold upd.
  assert (Hyc : y <> c) by (unfold c; lia). destruct (Nat.eqb_spec y c); [contradiction|].
  fold s3. rewrite (Xv y Hyc). unfold m1. cbn. unfold upd. destruct (Nat.eqb_spec y (nscope m)); [contradiction|reflexivity].
Qed.

Lemma spawn_struct_other m g sf t : t <> ntask m -> tasks (spawn_struct m g sf) t = tasks m t.
Proof. intros Ht. unfold spawn_struct. cbn. now apply upd_other. Qed.

Lemma spawn_struct_new m g sf :
  k_cur (tasks (spawn_struct m g sf) (ntask m)) = Some (g_scope (groups m g)) /\
  k_must (tasks (spawn_struct m g sf) (ntask m)) = false /\ k_waiter (tasks (spawn_struct m g sf) (ntask m)) = None.
Proof. unfold spawn_struct. cbn. rewrite upd_same. now repeat split. Qed.

Lemma WT_spawn_struct U m g sf : In (ntask m) U -> g_scope (groups m g) < nscope m -> WT U m (spawn_struct m g sf).
Proof.
  intros Hin Hg. set (gs := g_scope (groups m g)) in *. set (ns := nscope m). set (nt := ntask m).
  set (X := spawn_struct m g sf).
  assert (Xn : nscope X = S ns) by reflexivity. assert (Xnt : ntask X = S nt) by reflexivity.
  assert (Xf : futs X = futs m) by reflexivity. assert (Xr : running X = running m) by reflexivity.
  assert (Xs : forall y, y <> ns -> y <> gs -> scopes X y = scopes m y).
  { intros y H1 H2. unfold X, spawn_struct. cbn. unfold upd. fold gs ns.
    destruct (Nat.eqb_spec y gs); [contradiction|]. destruct (Nat.eqb_spec y ns); [contradiction|reflexivity]. }
  assert (Xg : scopes X gs = sc_tasks (add nt (s_tasks (scopes m gs))) (scopes m gs)).
  { unfold X, spawn_struct. cbn. unfold upd. fold gs ns nt. rewrite Nat.eqb_refl.
    destruct (Nat.eqb_spec gs ns); [lia|reflexivity]. }
  assert (Xns : scopes X ns = sc_shield false (sc_deadline None scope0)).
  { unfold X, spawn_struct. cbn. unfold upd. fold gs ns nt. destruct (Nat.eqb_spec ns gs); [lia|]. now rewrite Nat.eqb_refl. }
  pose proof (spawn_struct_other m g sf) as Xk. pose proof (spawn_struct_new m g sf) as Xc. fold X nt gs in Xk, Xc.
  assert (Sp : forall y, s_parent (scopes X y) = if Nat.eqb y ns then None else s_parent (scopes m y)).
  { intros y. destruct (Nat.eqb_spec y ns) as [->|H1]; [now rewrite Xns|].
    destruct (Nat.eq_dec y gs) as [->|H2]; [now rewrite Xg|now rewrite Xs]. }
  assert (Sc : forall y, s_children (scopes X y) = if Nat.eqb y ns then [] else s_children (scopes m y)).
  { intros y. destruct (Nat.eqb_spec y ns) as [->|H1]; [now rewrite Xns|].
    destruct (Nat.eq_dec y gs) as [->|H2]; [now rewrite Xg|now rewrite Xs]. }
  apply W_frame; [|rewrite Xn; apply le_S, le_n|rewrite Xnt; apply le_S, le_n|reflexivity|exact Xf|intros _ v Hv; now rewrite Xr| | |].
  - intros [T C]. constructor; [constructor|].
    + intros p k Hk. rewrite Sc in Hk. destruct (Nat.eqb_spec p ns); [destruct Hk|].
      pose proof (C p k Hk). rewrite Sp. destruct (Nat.eqb_spec k ns); [unfold ns in *; lia|]. apply (to_cp _ T p k Hk).
    + intros t x Hx. destruct (Nat.eq_dec x ns) as [->|H1]; [rewrite Xns in Hx; destruct Hx|].
      destruct (Nat.eq_dec x gs) as [->|H2].
      * rewrite Xg in Hx. cbn in Hx. apply in_add in Hx. destruct Hx as [Hx| ->]; [|apply Xc].
        pose proof (to_tc _ T t gs Hx) as E. pose proof (to_ct _ T t gs E). rewrite Xk; [exact E|unfold nt; lia].
      * rewrite Xs in Hx by assumption. pose proof (to_tc _ T t x Hx) as E. pose proof (to_ct _ T t x E).
        rewrite Xk; [exact E|unfold nt; lia].
    + intros y p. rewrite Sp, Xn. destruct (Nat.eqb_spec y ns); [discriminate|]. intros E.
      pose proof (to_pa _ T y p E). unfold ns. lia.
    + intros t x. rewrite Xn. destruct (Nat.eq_dec t nt) as [->|Hne].
      * destruct Xc as (C1 & _). rewrite C1. intros E. injection E as <-. unfold ns. lia.
      * rewrite Xk by exact Hne. intros E. pose proof (to_cu _ T t x E). unfold ns. lia.
    + intros t x. rewrite Xnt. destruct (Nat.eq_dec t nt) as [->|Hne]; [lia|].
      rewrite Xk by exact Hne. intros E. pose proof (to_ct _ T t x E). unfold nt. lia.
    + intros p k Hk. rewrite Sc in Hk. rewrite Xn. destruct (Nat.eqb_spec p ns); [destruct Hk|].
      pose proof (C p k Hk). unfold ns. lia.
  - intros t. destruct (Nat.eq_dec t nt) as [->|Hne]; [right; split; [exact Hin|split; [apply Xc|intros E; destruct Xc as (_ & E2 & _); congruence]]|left; now rewrite Xk].
  - intros t Ht. rewrite Xk; [reflexivity|]. intros ->. exact (Ht Hin).
  - intros _ y Hy. fold ns in Hy. destruct (Nat.eq_dec y gs) as [->|H2]; [now rewrite Xg|].
    rewrite Xs; [reflexivity|lia|exact H2].
Qed.

Lemma WQ_spawn U m g sf : In (ntask m) U -> g_scope (groups m g) < nscope m -> WQ U m (fst (spawn_task m g sf)).
Proof.
  intros Hin Hg. rewrite spawn_task_eq. cbn [fst].
  apply (W_post (restart (spawn_struct m g sf) (Some (g_scope (groups m g))))); [|apply WT_call_soon].
  apply (W_pre (spawn_struct m g sf)); [now apply WT_spawn_struct|apply WQ_restart].
Qed.

Lemma WT_td_struct m ch g : WT [ch] m (done_struct m ch g).
Proof.
  set (X := done_struct m ch g).
  assert (Xn : nscope X = nscope m) by (unfold X, done_struct; destruct (k_cur (tasks m ch)); reflexivity).
  assert (Xnt : ntask X = ntask m) by (unfold X, done_struct; destruct (k_cur (tasks m ch)); reflexivity).
  assert (Xf : futs X = futs m) by (unfold X, done_struct; destruct (k_cur (tasks m ch)); reflexivity).
  assert (Xnf : nfut X = nfut m) by (unfold X, done_struct; destruct (k_cur (tasks m ch)); reflexivity).
  assert (Xr : running X = running m) by (unfold X, done_struct; destruct (k_cur (tasks m ch)); reflexivity).
  assert (Xk : forall t, tasks X t = if Nat.eqb t ch then tk_tdran true (tk_cur None (tasks m ch)) else tasks m t).
  { intros t. unfold X, done_struct. destruct (k_cur (tasks m ch)); cbn; unfold upd; destruct (Nat.eqb_spec t ch); subst; reflexivity. }
  assert (Xs : forall y, s_parent (scopes X y) = s_parent (scopes m y) /\ s_children (scopes X y) = s_children (scopes m y) /\
                         view3 (scopes X y) = view3 (scopes m y) /\
                         s_tasks (scopes X y) = if opt_eqb (k_cur (tasks m ch)) y then del ch (s_tasks (scopes m y))
                                                else s_tasks (scopes m y)).
  { intros y. unfold X, done_struct. destruct (k_cur (tasks m ch)) as [c|]; cbn [opt_eqb]; [|now repeat split].
    cbn. unfold upd. rewrite (Nat.eqb_sym c y). destruct (Nat.eqb_spec y c); subst; now repeat split. }
  assert (Ecur : forall t, t <> ch -> k_cur (tasks X t) = k_cur (tasks m t)).
  { intros t Ht. rewrite Xk. destruct (Nat.eqb_spec t ch); [contradiction|reflexivity]. }
  assert (Eu : k_cur (tasks X ch) = None) by (rewrite Xk, Nat.eqb_refl; reflexivity).
  apply W_frame; [|rewrite Xn; apply le_n|rewrite Xnt; apply le_n|exact Xnf|exact Xf|intros _ v Hv; now rewrite Xr| | |].
  - intros [T C]. constructor; [constructor|].
    + intros p k. rewrite (proj1 (proj2 (Xs p))), (proj1 (Xs k)). apply T.
    + intros t x Hx. rewrite (proj2 (proj2 (proj2 (Xs x)))) in Hx. destruct (opt_eqb (k_cur (tasks m ch)) x) eqn:Eo.
      * apply in_del in Hx. destruct Hx as [Hx Hne]. rewrite Ecur by exact Hne. apply (to_tc _ T t x Hx).
      * pose proof (to_tc _ T t x Hx) as E. rewrite Ecur; [exact E|]. intros ->.
        assert (opt_eqb (k_cur (tasks m ch)) x = true) by now apply opt_eqb_Some. congruence.
    + intros y p. rewrite (proj1 (Xs y)), Xn. apply T.
    + intros t x. rewrite Xn. destruct (Nat.eq_dec t ch) as [->|Hne]; [rewrite Eu; discriminate|].
      rewrite Ecur by exact Hne. apply T.
    + intros t x. rewrite Xnt. destruct (Nat.eq_dec t ch) as [->|Hne]; [rewrite Eu; discriminate|].
      rewrite Ecur by exact Hne. apply T.
    + intros p k. rewrite (proj1 (proj2 (Xs p))), Xn. apply C.
  - intros t. left. rewrite Xk. destruct (Nat.eqb_spec t ch); [subst|]; reflexivity.
  - intros t Ht. apply Ecur. intros ->. apply Ht. now left.
  - intros _ y _. apply Xs.
Qed.

Lemma WC_td_tail U m k g t : WC U m (done_tail m k g t).
Proof.
  destruct (td_tail_shape m k g t) as [Hw He].
  assert (H4 : WT U m (done_wake m g)) by (destruct Hw; [apply W_refl|apply WT_fut_complete; discriminate]).
  apply (W_pre _ H4). destruct He as [|f _ _|e _ _ _|e _ _].
  - apply W_refl.
  - apply WT_any, WT_fut_complete. discriminate.
  - apply WC_scope_cancel.
  - apply (W_pre (upd_group (done_wake m g) g (fun x => gr_excs (g_excs x ++ [(t, e)]) x)));
      [apply WT_upd_group; reflexivity|apply WC_scope_cancel].
Qed.

Lemma WC_run_task_done m ch : running m = None -> WC [ch] m (run_task_done m ch).
Proof.
  intros Hr. rewrite run_task_done_eq.
  assert (H0 : WT [ch] m (set_running m None)) by (rewrite <- Hr; apply WT_set_running_same).
  destruct (k_group (tasks m ch)) as [g|]; [|now apply WT_any].
  apply (W_pre (set_running m None) H0). apply (W_pre (done_struct (set_running m None) ch g)); [apply WT_td_struct|apply WC_td_tail].
Qed.

Lemma WQ_aexit_raise m u g e : WQ [u] m (fst (aexit_raise m u g e)).
Proof.
  unfold aexit_raise. pose proof (WQ_exit m (g_scope (groups m g)) u (Some e)) as K1.
  destruct (scope_exit m (g_scope (groups m g)) u (Some e)) as [s1 x]. cbn [fst] in K1.
  assert (K2 : WQ [u] m (upd_group s1 g (gr_left true))).
  { apply (W_post s1 K1), WT_upd_group. intros k; reflexivity. }
  destruct x; cbn [fst]; try exact K2.
  apply (W_post _ K2). apply WT_upd_task; intros k; reflexivity.
Qed.

Lemma WQ_aexit_finish m u g exc : WQ [u] m (fst (aexit_finish m u g exc)).
Proof.
  unfold aexit_finish. destruct (map snd (g_excs (groups m g))) as [|e0 l]; [|apply WQ_aexit_raise].
  destruct exc as [e|]; [apply WQ_aexit_raise|].
  pose proof (WQ_exit m (g_scope (groups m g)) u None) as K1.
  destruct (scope_exit m (g_scope (groups m g)) u None) as [s1 x]. cbn [fst] in K1.
  destruct x; cbn [fst]; (apply (W_post s1 K1), WT_upd_group; intros k; reflexivity).
Qed.

(* the two ways a task ends its running segment *)
Lemma W_block v b f U m m1 u c : W v b f false U m m1 -> W v b f true U m (fst (blocked (set_ctl m1 u c))).
Proof. intros H. apply (W_post (set_ctl m1 u c)); [apply (W_post m1 H), WT_set_ctl|apply WTE_set_running]. Qed.

Lemma W_ret_after v b f U m m1 u r : In u U -> W v b f false U m m1 -> W v b f true U m (fst (ret_to_puppet m1 u r)).
Proof. intros Hin H. apply (W_post m1 H), WTE_ret, Hin. Qed.

Lemma WQE_wof m u g ws exc : TO m -> u < ntask m -> WQE [u] m (fst (aexit_wait_or_finish m u g ws exc)).
Proof.
  intros T Hu. unfold aexit_wait_or_finish.
  destruct (g_tasks (groups m g)) as [|c0 cs].
  - destruct ws as [w|].
    + pose proof (WQ_exit m w u None) as K1. destruct (scope_exit m w u None) as [s1 x]. cbn [fst] in K1.
      destruct x.
      * pose proof (WQ_aexit_finish s1 u g exc) as K2. destruct (aexit_finish s1 u g exc) as [s2 r]. cbn [fst] in K2.
        apply W_ret_after; [now left|]. apply (W_trans s1 K1 K2); reflexivity.
      * pose proof (WQ_aexit_finish s1 u g exc) as K2. destruct (aexit_finish s1 u g exc) as [s2 r]. cbn [fst] in K2.
        apply W_ret_after; [now left|]. apply (W_trans s1 K1 K2); reflexivity.
      * pose proof (WQ_aexit_raise s1 u g e) as K2. destruct (aexit_raise s1 u g e) as [s2 r]. cbn [fst] in K2.
        apply W_ret_after; [now left|]. apply (W_trans s1 K1 K2); reflexivity.
    + pose proof (WQ_aexit_finish m u g exc) as K2. destruct (aexit_finish m u g exc) as [s2 r]. cbn [fst] in K2.
      apply W_ret_after; [now left|exact K2].
  - assert (Tail : forall a w, WQ [u] m a ->
              WQE [u] m (fst (let '(s1, f) := new_fut a in
                        blocked (set_ctl (suspend_on (upd_group s1 g (gr_fut (Some f))) u f) u (CAexitWait g w exc))))).
    { intros a w Ha. unfold new_fut. cbv zeta. apply W_block.
      match goal with |- _ (suspend_on ?b u ?f) => apply (W_post b) end.
      - match goal with |- _ (upd_group ?b g ?h) => apply (W_post b) end;
          [apply (W_post a Ha), WT_new_fut|apply WT_upd_group; intros k; reflexivity].
      - apply WT_suspend_fresh; [now left|cbn; unfold upd; now rewrite Nat.eqb_refl|cbn; lia]. }
    destruct ws as [w|].
    + apply Tail. apply W_refl.
    + cbn [fst]. unfold new_scope. cbv zeta. cbn [fst]. apply Tail. apply WT_any. now apply WT_new_enter.
Qed.

Lemma deliver_top_fut m c f : (forall t, k_waiter (tasks m t) <> Some f) -> futs (deliver_top m c) f = futs m f.
Proof.
  intros Hw.
  apply (deliver_top_inv (fun a => (forall t, k_waiter (tasks a t) <> Some f) /\ futs a f = futs m f) c); [| |now split].
  - intros a b Et Ef. now rewrite Et, Ef.
  - intros _ a t _ [Ha E]. split.
    + intros x. rewrite (tcore_waiter _ _ (kf_tasks _ _ (kframe_task_cancel a t (S c)) x)). apply Ha.
    + rewrite task_cancel_futs; [exact E|]. intros Hx. now elim (Ha t).
Qed.

Lemma restart_fut m x f : (forall t, k_waiter (tasks m t) <> Some f) -> futs (restart m x) f = futs m f.
Proof. intros Hw. apply (restart_closed (fun a b => futs b f = futs a f)); [reflexivity|]. intros c _ _. now apply deliver_top_fut. Qed.

Lemma spawn_fut m g sf f : (forall t, k_waiter (tasks m t) <> Some f) ->
  futs (fst (spawn_task m g sf)) f = futs m f.
Proof.
  intros Hw. rewrite spawn_task_eq. cbn [fst].
  (* stated for variables first: on the restarted state the conversion below would unfold the restart *)
  assert (Ec : forall a h, futs (call_soon a h) = futs a) by reflexivity.
  rewrite Ec, restart_fut; [reflexivity|]. intros t. destruct (Nat.eq_dec t (ntask m)) as [->|Ht].
  - destruct (spawn_struct_new m g sf) as (_ & _ & E). congruence.
  - rewrite spawn_struct_other by exact Ht. apply Hw.
Qed.

(* only parts of the state that neither the tree facts nor the requests look at *)
Lemma WT_other U m m' :
  scopes m' = scopes m -> tasks m' = tasks m -> futs m' = futs m -> nscope m' = nscope m -> ntask m' = ntask m ->
  nfut m' = nfut m -> running m' = running m -> WT U m m'.
Proof.
  intros Es Et Ef En Ent Enf Er. apply W_frame; auto.
  - apply TO_frame; auto; [intros y; now rewrite Es|intros t; now rewrite Et].
  - rewrite En. apply le_n.
  - rewrite Ent. apply le_n.
  - intros _ u Hu. now rewrite Er.
  - intros t. left. now rewrite Et.
  - intros t _. now rewrite Et.
  - intros _ y _. now rewrite Es.
Qed.

Definition uo (a : st) (o : op) : list tid :=
  match o with ASpawn _ g | AStart _ g => if group_active a g then [ntask a] else [] | _ => [] end.

Definition is_api (o : op) : bool :=
  match o with AFinish _ _ | ANewRoot | ANativeCancel _ | AExtCancel _ | ARun _ | ATick _ => false | _ => true end.

Lemma held_begin_act a u t org : Held (begin_act a u) t org -> Held a t org.
Proof.
  intros [[A B]|[f [A B]]]; cbn [begin_act tasks futs set_running upd_task set_tasks] in *; unfold upd in *;
    destruct (Nat.eqb_spec t u); subst; cbn in *.
  - left. now split.
  - left. now split.
  - discriminate.
  - right. now exists f.
Qed.

Lemma WFE_puppet_op a u o :
  TO a -> KInv a -> running a = None -> u < ntask a -> is_api o = true ->
  (forall g, g_scope (groups a g) < nscope a) ->
  (forall c, s_active (scopes a c) = false ->
             (forall p, ~ In c (s_children (scopes a p))) /\ (forall t, k_cur (tasks a t) <> Some c)) ->
  (forall t c, o = AEnter t c -> c < nscope a) ->
  WFE (u :: uo a o) a (fst (puppet_op a u o)) /\
  (forall org, Held (fst (puppet_op a u o)) u org -> Held a u org).
Proof.
  intros T Ka Hr Hu Hapi HG HI HE. unfold puppet_op.
  set (U := u :: uo a o).
  assert (K0 : WQ U a (begin_act a u)) by (apply WT_any, WT_begin_act; [now left|exact Hr]).
  set (s := begin_act a u) in *.
  assert (Ts : TO s) by (apply (w_to _ _ _ _ _ _ _ K0), T).
  assert (Ks : KInv s) by (apply (w_k _ _ _ _ _ _ _ K0), Ka).
  assert (Hus : u < ntask s) by exact Hu.
  assert (Rs : running s = Some u) by reflexivity.
  assert (Ecs : k_cur (tasks s u) = k_cur (tasks a u)) by (unfold s; cbn; unfold upd; now rewrite Nat.eqb_refl).
  match goal with |- WFE U a (fst ?X) /\ _ => assert (Body : WFE U s (fst X)) end;
    [|split; [apply (W_trans s K0 Body); reflexivity|
              intros org Hh; apply (held_begin_act a u u org); apply (w_own _ _ _ _ _ _ _ Body Ks u Rs org Hh)]].
  assert (Q : forall s1 r, WF U s s1 -> WFE U s (fst (ret_to_puppet s1 u r))).
  { intros s1 r H. apply W_ret_after; [now left|exact H]. }
  assert (B : forall s1 c, WF U s s1 -> WFE U s (fst (blocked (set_ctl s1 u c)))).
  { intros s1 c H. apply W_block, H. }
  assert (En : forall c, (s_active (scopes a c) = false -> c < nscope a) -> s_active (scopes s c) = false -> Enterable s c u).
  { intros c Hc Hi. destruct (HI c Hi) as [H1 H2]. repeat split; [exact H1| |now apply Hc|exact Hu].
    rewrite Ecs. apply H2. }
  destruct o; try discriminate Hapi; subst U; cbn [uo] in *.
  - (* ANewScope *) unfold new_scope. cbv zeta. apply Q. apply WT_any, (WT_new_scope _ s d sh).
  - (* AEnter *)
    pose proof (WC_enter s c u (En c (fun _ => HE t c eq_refl))) as H.
    destruct (scope_enter s c u) as [s1 e]. apply Q, (W_WF H).
  - (* AExit *)
    pose proof (WQ_exit s c u (k_held (tasks s u))) as H.
    destruct (scope_exit s c u (k_held (tasks s u))) as [s1 x]. cbn [fst] in H. destruct x.
    + assert (H2 : WQ [u] s (upd_task s1 u (tk_held None))).
      { apply (W_post s1 H). apply WT_upd_task; intros k; reflexivity. }
      destruct (_ && _); apply Q, (W_WF H2).
    + apply Q, (W_WF H).
    + apply Q, (W_WF H).
  - (* ACancel *) eapply Q, W_WF, WC_scope_cancel.
  - (* ASetShield *)
    destruct (Bool.eqb _ b); [apply Q, W_refl|]. apply Q.
    assert (H1 : WS [u] s (upd_scope s c (sc_shield b))) by (apply W_upd_scope; [reflexivity|discriminate]).
    destruct b; [exact (W_WF H1)|]. apply (W_trans _ H1 (WQ_restart [u] _ _)); reflexivity.
  - (* ASetDeadline *)
    apply Q. set (s1 := cancel_timeout _ c).
    assert (H : WT [u] s s1).
    { unfold s1. apply (W_pre (upd_scope s c (sc_deadline d))); [apply W_upd_scope; reflexivity|].
      apply WT_cancel_timeout. }
    destruct (_ && _); [|exact (WT_any H)]. apply (W_pre s1 H). eapply W_WF, WC_scope_timeout.
  - (* AGroupNew *)
    unfold new_scope. cbv zeta. apply Q. apply WT_any.
    match goal with |- _ s ?b => apply (W_pre (fst (new_scope s None false))) end; [apply WT_new_scope|].
    apply WT_other; reflexivity.
  - (* AGroupEnter *)
    destruct (g_entered (groups s g)); [apply Q, W_refl|].
    set (s1 := upd_group s g (gr_entered true)).
    assert (Eg : g_scope (groups s1 g) = g_scope (groups a g)) by (unfold s1; cbn; unfold upd; now rewrite Nat.eqb_refl).
    assert (H1 : WT [u] s s1) by (apply WT_upd_group; intros k; reflexivity).
    assert (He : s_active (scopes s1 (g_scope (groups s1 g))) = false -> Enterable s1 (g_scope (groups s1 g)) u).
    { rewrite Eg. intros Hi. apply (En (g_scope (groups a g)) (fun _ => HG g) Hi). }
    pose proof (WC_enter s1 (g_scope (groups s1 g)) u He) as H.
    destruct (scope_enter _ _ u) as [s2 e]. cbn [fst] in H. apply Q, (W_pre s1 H1), (W_WF H).
  - (* AGroupExit *)
    set (s1 := match k_held (tasks s u) with Some e => _ | None => s end).
    assert (H1 : WC [u] s s1).
    { unfold s1. destruct (k_held (tasks s u)) as [e|]; [|apply W_refl]. cbv zeta.
      assert (Hc : WC [u] s (scope_cancel s (g_scope (groups s g)) false)) by apply WC_scope_cancel.
      destruct (is_cancel e); [exact Hc|]. apply (W_post _ Hc), WT_upd_group. intros k; reflexivity. }
    assert (T1 : TO s1) by (apply (w_to _ _ _ _ _ _ _ H1), Ts).
    assert (N1 : u < ntask s1) by (pose proof (w_nt _ _ _ _ _ _ _ H1); lia).
    destruct (g_tasks (groups s1 g)) eqn:Eg.
    + unfold new_scope. cbv zeta. cbn [fst].
      match goal with |- _ (fst (blocked (set_ctl (bare_yield ?m u) u ?c))) =>
        apply B, (W_post m), WT_bare_yield end.
      apply (W_post s1 (W_WF H1)). now apply WT_new_enter.
    + apply (W_trans s1 H1 (WQE_wof s1 u g _ _ T1 N1)); reflexivity.
  - (* ASpawn *)
    change (group_active a g) with (group_active s g) in *.
    destruct (group_active s g) eqn:Ega; cbn [negb]; [|apply Q, W_refl].
    assert (Hgs : g_scope (groups s g) < nscope s) by apply (HG g).
    pose proof (WQ_spawn [u; ntask a] s g None (or_intror (or_introl eq_refl)) Hgs) as H. destruct (spawn_task s g None) as [s1 c]. cbn [fst] in H.
    apply Q, (W_WF H).
  - (* AStart *)
    change (group_active a g) with (group_active s g) in *.
    destruct (group_active s g) eqn:Ega; cbn [negb]; [|apply Q, W_refl].
    unfold new_fut. cbv zeta.
    set (m1 := mkSt (tasks s) (ntask s) (scopes s) (nscope s) (groups s) (ngroup s) (upd (futs s) (nfut s) fut0) (S (nfut s))
                    (events s) (nevent s) (ready s) (timers s) (ntimer s) (now s) (running s)).
    assert (Hm1 : WT [u; ntask a] s m1) by apply WT_new_fut.
    assert (Hgs : g_scope (groups m1 g) < nscope m1) by apply (HG g).
    match goal with |- context [spawn_task m1 g ?sf] =>
      pose proof (WQ_spawn [u; ntask a] m1 g sf (or_intror (or_introl eq_refl)) Hgs) as H;
      assert (Ef : futs (fst (spawn_task m1 g sf)) (nfut s) = fut0);
      [rewrite spawn_fut; [cbn; unfold upd; now rewrite Nat.eqb_refl|];
       intros x Hx; change (tasks m1 x) with (tasks s x) in Hx; pose proof (k_alloc _ Ks x _ Hx); lia|];
      assert (Hn : nfut s < nfut (fst (spawn_task m1 g sf))) by (rewrite spawn_nfut; cbn; lia);
      destruct (spawn_task m1 g sf) as [s2 c] end.
    cbn [fst] in *.
    apply B, (W_post s2); [|apply WT_suspend_fresh; [now left|exact Ef|exact Hn]].
    apply (W_pre m1 Hm1), (W_WF H).
  - (* AStarted *)
    destruct (k_startfut (tasks s u)) as [f|]; [|apply Q, W_refl].
    destruct (f_st (futs s f)); apply Q; try apply W_refl. apply WT_any, WT_fut_complete. discriminate.
  - (* AHandleCancel *)
    destruct (e_set _); apply Q; [apply W_refl|]. eapply W_WF, WC_scope_cancel.
  - (* AHandleWait *)
    pose proof (WT_event_wait [u] s u (k_hevent (tasks s h)) (or_introl eq_refl)) as H.
    destruct (event_wait s u (k_hevent (tasks s h))) as [s1 f]. cbn [fst] in H. apply B, (WT_any H).
  - apply B. apply WT_any, WT_bare_yield.
  - destruct (ckif_spins _ _ _); [apply B, WT_any, WT_bare_yield|apply Q, W_refl].
  - (* AShieldCk *)
    unfold new_scope. cbv zeta. cbn [fst].
    match goal with |- _ (fst (blocked (set_ctl (bare_yield ?m u) u ?c))) =>
      apply B, (W_post m), WT_bare_yield end.
    apply WT_any. now apply WT_new_enter.
  - (* ASleep *)
    unfold new_fut. cbv zeta. destruct d as [dt|].
    + unfold call_at. cbv zeta. cbn [fst].
      match goal with |- _ (fst (blocked (set_ctl (suspend_on ?m u ?f) u ?c0))) =>
        apply B; apply WT_any; apply (W_pre m) end.
      * match goal with |- _ s ?m => apply (W_pre (fst (new_fut s))) end; [apply WT_new_fut|].
        apply WT_other; reflexivity.
      * apply WT_suspend_fresh; [now left|cbn; unfold upd; now rewrite Nat.eqb_refl|cbn; lia].
    + cbn [fst].
      match goal with |- _ (fst (blocked (set_ctl (suspend_on ?m u ?f) u ?c0))) =>
        apply B; apply WT_any; apply (W_pre m) end.
      * apply (WT_new_fut [u] s).
      * apply WT_suspend_fresh; [now left|cbn; unfold upd; now rewrite Nat.eqb_refl|cbn; lia].
  - apply Q. apply WT_any, WT_upd_task; intros k; reflexivity.
  - apply Q. apply WT_any, WT_upd_task; intros k; reflexivity.
  - apply Q. apply WT_any, WT_upd_task; intros k; reflexivity.
  - apply Q. apply WT_any, WT_task_uncancel.
  - (* AEffDeadline *)
    cbn [fst]. apply (W_post (park s u)); [|apply WTE_set_running].
    apply WT_any, WT_park. now left.
  - (* AFailAt *)
    unfold new_scope. cbv zeta.
    set (m1 := mkSt (tasks s) (ntask s) (upd (scopes s) (nscope s) (sc_shield sh (sc_deadline d scope0))) (S (nscope s))
                    (groups s) (ngroup s) (futs s) (nfut s) (events s) (nevent s) (ready s) (timers s) (ntimer s)
                    (now s) (running s)).
    assert (Hm1 : WT [u] s m1) by apply (WT_new_scope _ s d sh).
    pose proof (WC_enter m1 (nscope s) u (fun _ => enterable_fresh s d sh u Ts Hus)) as H.
    destruct (scope_enter m1 (nscope s) u) as [s2 e]. cbn [fst] in H. apply Q, (W_pre m1 Hm1), (W_WF H).
Qed.

Lemma WQE_puppet_finish a u v : running a = None -> WQE [u] a (fst (puppet_finish a u v)).
Proof.
  intros Hr. unfold puppet_finish.
  assert (K0 : WQ [u] a (begin_act a u)) by (apply WT_any, WT_begin_act; [now left|exact Hr]).
  set (s := begin_act a u) in *.
  set (raw := match k_held (tasks s u) with Some e => OExc e | None => ORet v end).
  set (s1 := upd_task s u (tk_final (Some raw))).
  assert (H1 : WQ [u] a s1).
  { apply (W_post s K0). apply WT_upd_task; intros k; reflexivity. }
  destruct (k_group (tasks s u)) as [g|]; cbn [fst].
  - set (s2 := upd_task s1 u _).
    assert (H2 : WQ [u] a s2).
    { apply (W_post s1 H1). unfold s2. destruct raw; apply WT_upd_task; intros k; reflexivity. }
    set (s3 := event_set s2 (k_hevent (tasks s u))).
    assert (H3 : WQ [u] a s3) by apply (W_post s2 H2), WT_event_set.
    pose proof (WQ_exit s3 (k_hscope (tasks s u)) u (k_held (tasks s u))) as H4.
    destruct (scope_exit s3 (k_hscope (tasks s u)) u (k_held (tasks s u))) as [s4 x]. cbn [fst] in H4.
    assert (H5 : WQ [u] a s4) by (apply (W_trans s3 H3 H4); reflexivity).
    destruct x; cbn [fst]; apply (W_post s4 H5), WTE_finish_task; now left.
  - apply (W_post s1 H1), WTE_finish_task. now left.
Qed.

Lemma WFE_resume a u fo :
  TO a -> KInv a -> running a = None -> (k_ctl (tasks a u) <> CDone -> u < ntask a) ->
  (k_ctl (tasks a u) = CNew -> k_hscope (tasks a u) < nscope a) ->
  (forall c, s_active (scopes a c) = false ->
             (forall p, ~ In c (s_children (scopes a p))) /\ (forall t, k_cur (tasks a t) <> Some c)) ->
  WFE [u] a (fst (resume a u fo)) /\
  (k_ctl (tasks a u) <> CDone -> forall org, ~ Held (fst (resume a u fo)) u org).
Proof.
  intros T Ka Hr Hu Hh HI. unfold resume.
  pose proof (WT_incoming [u] a u fo (or_introl eq_refl) Hr) as K0.
  assert (Ec : k_ctl (tasks (fst (incoming a u fo)) u) = k_ctl (tasks a u)) by apply incoming_ctl.
  assert (Ecs : k_cur (tasks (fst (incoming a u fo)) u) = k_cur (tasks a u)).
  { cbn. unfold upd. now rewrite Nat.eqb_refl. }
  assert (Ehs : k_hscope (tasks (fst (incoming a u fo)) u) = k_hscope (tasks a u)).
  { cbn. unfold upd. now rewrite Nat.eqb_refl. }
  assert (Ess : scopes (fst (incoming a u fo)) = scopes a) by reflexivity.
  assert (Ent : ntask (fst (incoming a u fo)) = ntask a) by reflexivity.
  assert (Ens : nscope (fst (incoming a u fo)) = nscope a) by reflexivity.
  assert (Rsu : running (fst (incoming a u fo)) = Some u) by reflexivity.
  assert (Hs0 : forall org, ~ Held (fst (incoming a u fo)) u org).
  { intros org [[A _]|[f [A _]]]; cbn [incoming fst tasks set_running upd_task set_tasks] in A; unfold upd in A;
      rewrite Nat.eqb_refl in A; cbn in A; discriminate. }
  destruct (incoming a u fo) as [s inc]. cbn [fst] in *.
  assert (Ts : TO s) by (apply (w_to _ _ _ _ _ _ _ K0), T).
  assert (Ks : KInv s) by (apply (w_k _ _ _ _ _ _ _ K0), Ka).
  assert (Fin : forall X (P : Prop), WFE [u] s X -> WFE [u] a X /\ (P -> forall org, ~ Held X u org)).
  { intros X P Body. split; [apply (W_pre s K0 Body)|]. intros _ org Hx.
    pose proof (w_own _ _ _ _ _ _ _ Body Ks u Rsu org Hx) as H0. apply (Hs0 org H0). }
  assert (Q : forall s1 r, WF [u] s s1 -> WFE [u] s (fst (ret_to_puppet s1 u r))).
  { intros s1 r H. apply W_ret_after; [now left|exact H]. }
  assert (Wf : forall g s1 ws exc, WF [u] s s1 -> u < ntask a -> WFE [u] s (fst (aexit_wait_or_finish s1 u g ws exc))).
  { intros g s1 ws exc H Hua. rewrite <- Ent in Hua. apply (W_trans s1 H (WQE_wof s1 u g ws exc (w_to _ _ _ _ _ _ _ H Ts)
      (Nat.lt_le_trans _ _ _ Hua (w_nt _ _ _ _ _ _ _ H)))); reflexivity. }
  assert (Bk : forall s1 c, WF [u] s s1 -> WFE [u] s (fst (blocked (set_ctl s1 u c)))).
  { intros s1 c H. apply W_block, H. }
  destruct (k_ctl (tasks s u)) eqn:Ek0; symmetry in Ec; rename Ec into Ek;
    [apply Fin|apply Fin|apply Fin|apply Fin|apply Fin|apply Fin|apply Fin|apply Fin|apply Fin|].
  - (* CNew *)
    assert (Hua : u < ntask a) by (apply Hu; rewrite Ek; discriminate).
    set (s1 := upd_task s u (tk_started true)).
    assert (H1 : WT [u] s s1) by (apply WT_upd_task; intros k; reflexivity).
    destruct inc as [e|]; cbn [fst].
    + apply (W_post s1 (WT_any H1)), WTE_finish_task. now left.
    + set (s2 := match k_group (tasks s1 u) with Some _ => fst (scope_enter s1 (k_hscope (tasks s1 u)) u) | None => s1 end).
      assert (H2 : WC [u] s s2).
      { unfold s2. destruct (k_group (tasks s1 u)); [|now apply WT_any].
        apply (W_pre s1 H1). apply WC_enter. intros Hi.
        assert (Eh : k_hscope (tasks s1 u) = k_hscope (tasks a u)).
        { unfold s1. rewrite upd_task_eq. cbn. exact Ehs. }
        rewrite Eh in *. change (scopes s1) with (scopes s) in Hi. rewrite Ess in Hi.
        destruct (HI _ Hi) as [A1 A2]. repeat split.
        - intros p. change (scopes s1) with (scopes s). rewrite Ess. apply A1.
        - unfold s1. rewrite upd_task_eq. cbn. rewrite Ecs. apply A2.
        - change (nscope s1) with (nscope s). rewrite Ens. now apply Hh.
        - change (ntask s1) with (ntask s). now rewrite Ent. }
      apply (W_post (park s2 u)); [|apply WTE_set_running].
      apply (W_post s2 (W_WF H2)), WT_park. now left.
  - (* CIdle *)
    cbn [fst]. set (s1 := match inc with Some e => upd_task s u (tk_held (Some e)) | None => s end).
    assert (H1 : WT [u] s s1) by (unfold s1; destruct inc; [apply WT_upd_task; intros k; reflexivity|apply W_refl]).
    apply (W_post (park s1 u)); [|apply WTE_set_running].
    apply WT_any, (W_pre s1 H1), WT_park. now left.
  - (* CYield *)
    destruct k as [| |c].
    + apply Q, W_refl.
    + destruct inc; [apply Q, W_refl|]. destruct (ckif_spins _ _ _); [|apply Q, W_refl]. cbn [fst blocked].
      apply (W_post (bare_yield s u)); [|apply WTE_set_running].
      apply WT_any, WT_bare_yield.
    + pose proof (WQ_exit s c u inc) as H. destruct (scope_exit s c u inc) as [s1 x]. cbn [fst] in H.
      destruct x; apply Q, (W_WF H).
  - (* CSleep *) apply Q. apply WT_any, WT_timer_cancel.
  - (* CAexitWait *)
    assert (Hua : u < ntask a) by (apply Hu; rewrite Ek; discriminate).
    set (s1 := upd_group s g (gr_fut None)).
    assert (H1 : WT [u] s s1) by (apply WT_upd_group; intros k; reflexivity).
    destruct inc as [e0|]; [|apply Wf; [exact (WT_any H1)|exact Hua]].
    set (s2 := upd_scope s1 ws (sc_shield true)).
    assert (H2 : WS [u] s s2).
    { apply (W_pre s1 H1), W_upd_scope; [reflexivity|discriminate]. }
    apply Wf; [|exact Hua]. apply (W_trans s2 H2 (WC_scope_cancel [u] s2 _ _)); reflexivity.
  - (* CAexitCk *)
    assert (Hua : u < ntask a) by (apply Hu; rewrite Ek; discriminate).
    pose proof (WQ_exit s sc u inc) as H. destruct (scope_exit s sc u inc) as [s1 x]. cbn [fst] in H.
    assert (Rs : forall e0, WFE [u] s (fst (let '(s2, r) := aexit_raise s1 u g e0 in ret_to_puppet s2 u r))).
    { intros e0. pose proof (WQ_aexit_raise s1 u g e0) as K2. destruct (aexit_raise s1 u g e0) as [s2 r]. cbn [fst] in K2.
      apply Q. apply (W_trans s1 H K2); reflexivity. }
    destruct x.
    + destruct inc; (apply Wf; [exact (W_WF H)|exact Hua]).
    + destruct inc as [e0|]; [|apply Wf; [exact (W_WF H)|exact Hua]].
      destruct (is_cancel e0); [|apply Rs].
      apply Wf; [|exact Hua]. apply (W_trans s1 H (WC_scope_cancel [u] s1 _ _)); reflexivity.
    + destruct inc; apply Rs.
  - (* CStartWait *)
    assert (Hua : u < ntask a) by (apply Hu; rewrite Ek; discriminate).
    destruct inc as [e0|]; [|apply Q, W_refl].
    destruct (handle_pending s child).
    + set (s1 := scope_cancel s (k_hscope (tasks s child)) false).
      assert (H1 : WC [u] s s1) by apply WC_scope_cancel.
      assert (T1 : TO s1) by (apply (w_to _ _ _ _ _ _ _ H1), Ts).
      assert (N1 : u < ntask s1) by (pose proof (w_nt _ _ _ _ _ _ _ H1); lia).
      unfold new_scope. cbv zeta. cbn [fst].
      match goal with |- context [event_wait ?m u ?ev] =>
        assert (H3 : WC [u] s m) by (apply (W_post s1 H1); now apply WT_new_enter);
        pose proof (WT_event_wait [u] m u ev (or_introl eq_refl)) as H4; destruct (event_wait m u ev) as [s4 wf] end.
      cbn [fst] in H4. apply Bk, (W_post _ (W_WF H3) H4).
    + destruct (f_st (futs s f)); apply Q, W_refl.
  - (* CStartJoin *)
    set (s1 := event_unwait s (k_hevent (tasks s child)) f).
    assert (H1 : WT [u] s s1) by apply WT_event_unwait.
    pose proof (WQ_exit s1 sc u inc) as H. destruct (scope_exit s1 sc u inc) as [s2 x]. cbn [fst] in H.
    pose proof (W_WF (W_pre s1 H1 H)) as H2.
    destruct x; [|destruct inc|]; apply Q, H2.
  - (* CHandleWait *) apply Q. apply WT_any, WT_event_unwait.
  - (* CDone *) cbn [fst]. split; [apply W_refl|intros Hc; congruence].
Qed.

Lemma WT_root_struct m : WT [ntask m] m (root_struct m).
Proof.
  set (nt := ntask m). set (X := root_struct m).
  assert (Xk : forall t, t <> nt -> tasks X t = tasks m t).
  { intros t Ht. unfold X, root_struct. cbn. unfold upd. fold nt. destruct (Nat.eqb_spec t nt); [contradiction|reflexivity]. }
  assert (Xc : k_cur (tasks X nt) = None /\ k_must (tasks X nt) = false /\ k_waiter (tasks X nt) = None).
  { unfold X, root_struct. cbn. unfold upd. fold nt. rewrite Nat.eqb_refl. cbn. now repeat split. }
  apply W_frame; [|apply le_n|apply le_S, le_n|reflexivity|reflexivity|intros _ v Hv; exact Hv| | |reflexivity].
  - intros [T C]. constructor; [constructor|].
    + apply T.
    + intros t x Hx. change (scopes X) with (scopes m) in Hx. pose proof (to_tc _ T t x Hx) as E.
      pose proof (to_ct _ T t x E). rewrite Xk; [exact E|unfold nt; lia].
    + apply T.
    + intros t x. destruct (Nat.eq_dec t nt) as [->|Hne]; [destruct Xc as (C1 & _); rewrite C1; discriminate|].
      rewrite Xk by exact Hne. apply T.
    + intros t x. change (ntask X) with (S nt). destruct (Nat.eq_dec t nt) as [->|Hne]; [lia|].
      rewrite Xk by exact Hne. intros E. pose proof (to_ct _ T t x E). unfold nt. lia.
    + apply C.
  - intros t. destruct (Nat.eq_dec t nt) as [->|Hne]; [right; split; [now left|split; [apply Xc|intros E; destruct Xc as (_ & E2 & _); congruence]]|left; now rewrite Xk].
  - intros t Ht. rewrite Xk; [reflexivity|]. intros ->. apply Ht. now left.
Qed.

Definition aff (a : st) (o : op) : list tid :=
  match actor o with
  | Some u => u :: uo a o
  | None => match o with
            | ANewRoot => [ntask a]
            | ARun (HStep u) | ARun (HWake u _) | ARun (HTaskDone u) => [u]
            | _ => []
            end
  end.

Lemma reach_k s : reach_ok s -> KInv s.
Proof. intros [ops [_ ->]]. apply reach_kinv. Qed.

Lemma reach_gscope a : reach_ok a -> forall g, g_scope (groups a g) < nscope a.
Proof.
  intros R g. pose proof (reach_tree a R) as Tr. destruct (alloc_g_dec a g) as [A|A]; [apply (tr_gscope _ Tr g A)|].
  rewrite (tr_gblank _ Tr g A). apply Tr.
Qed.

Lemma reach_inactive a : reach_ok a -> forall c, s_active (scopes a c) = false ->
  (forall p, ~ In c (s_children (scopes a p))) /\ (forall t, k_cur (tasks a t) <> Some c).
Proof.
  intros R c Hi. pose proof (reach_tree a R) as Tr. split.
  - intros p Hin. destruct (proj1 (tr_child _ Tr p c) Hin) as [A _]. congruence.
  - intros t E. pose proof (tr_cur_act _ Tr t c E). congruence.
Qed.

Lemma reach_resume a u : reach_ok a ->
  (k_ctl (tasks a u) <> CDone -> u < ntask a) /\ (k_ctl (tasks a u) = CNew -> k_hscope (tasks a u) < nscope a).
Proof.
  intros R. pose proof (reach_tree a R) as Tr. pose proof (si_ctl _ (reach_sinv a R)) as C.
  destruct (alloc_t_dec a u) as [A|A].
  - split; [intros _; apply A|]. intros Hc. destruct (c_ok _ C u A) as [C1 _]. destruct (C1 Hc) as [_ [G _]].
    destruct (k_group (tasks a u)) as [g|] eqn:Eg; [|congruence]. apply (tr_kgroup _ Tr u g A Eg).
  - pose proof (c_unalloc _ C u A) as E. split; intros Hc; [now elim Hc|]. rewrite E in Hc. discriminate.
Qed.

Lemma puppet_op_reach a u o :
  reach_ok a -> running a = None -> idle a u = true -> op_ok a o = true -> is_api o = true ->
  WFE (u :: uo a o) a (fst (puppet_op a u o)) /\
  (forall org, Held (fst (puppet_op a u o)) u org -> Held a u org).
Proof.
  intros R Hr Hi Hok Hapi. destruct (idle_spec a u Hi) as [_ [_ Au]].
  apply WFE_puppet_op; auto using TO_reach, reach_k, reach_gscope, reach_inactive.
  intros t c ->. cbn [op_ok] in Hok. apply andb_true_iff in Hok. destruct Hok as [Hok _].
  apply andb_true_iff in Hok. destruct Hok as [_ Hok]. now apply Nat.ltb_lt in Hok.
Qed.

Theorem W_step a o :
  reach_ok a -> running a = None -> op_ok a o = true -> WFE (aff a o) a (fst (step a o)).
Proof.
  intros R Hr Hok. pose proof (TO_reach a R) as T. pose proof (reach_k a R) as Ka.
  unfold step, aff. destruct (actor o) as [u|] eqn:Ea.
  - destruct (idle a u) eqn:Ei; cbn [negb]; [|apply W_refl].
    destruct o; cbn [actor] in Ea; try discriminate; injection Ea as ->;
      try (now apply puppet_op_reach).
    cbn [uo]. apply (W_WFE (WQE_puppet_finish a u v Hr)).
  - destruct o; cbn [actor] in Ea; try discriminate; try apply W_refl.
    + (* ANewRoot *)
      unfold new_root. cbn [fst]. fold (root_struct a).
      apply (W_post (park (root_struct a) (ntask a))); [|apply WTE_set_running].
      apply WT_any, (W_pre (root_struct a)); [apply WT_root_struct|apply WT_park; now left].
    + (* ANativeCancel *) cbn [fst]. apply WT_any, WT_task_cancel_native.
    + (* AExtCancel *)
      cbn [fst]. apply (W_post (scope_cancel (set_running a None) c false)); [|apply WTE_set_running].
      apply (W_pre (set_running a None)); [rewrite <- Hr; apply WT_set_running_same|eapply W_WF, WC_scope_cancel].
    + (* ARun *)
      unfold run_handle. destruct (existsb (handle_eqb h) (ready a)) eqn:Eh; cbn [negb]; [|apply W_refl].
      apply existsb_handle in Eh.
      set (s := set_ready a (remove_first h (ready a))).
      assert (K0 : forall U, WT U a s) by (intros U; apply WT_other; reflexivity).
      assert (Ts : TO s) by (apply (w_to _ _ _ _ _ _ _ (K0 [])), T).
      assert (Ks : KInv s) by (apply (w_k _ _ _ _ _ _ _ (K0 [])), Ka).
      assert (Rs : forall u fo, WFE [u] a (fst (resume s u fo))).
      { intros u fo. apply (W_pre s (K0 [u])).
        apply WFE_resume; auto; [apply (reach_resume a u R)..|apply (reach_inactive a R)]. }
      destruct h as [u|u f|c|u|f tm|c tm].
      * apply Rs.
      * apply Rs.
      * cbn [fst]. apply (W_post (deliver_top (set_running s None) c)); [|apply WTE_set_running].
        apply (W_pre s (K0 [])), (W_pre (set_running s None)).
        -- change (running a) with (running s) in Hr. rewrite <- Hr. apply WT_set_running_same.
        -- eapply W_WF, WQ_deliver_top. apply (deliver_handle_cancelled a c R Eh).
      * cbn [fst]. apply (W_pre s (K0 [u])), (W_WFE (WC_run_task_done s u Hr)).
      * cbn [fst]. apply WT_any. apply (W_pre s); [apply K0|]. apply WT_fut_complete. discriminate.
      * cbn [fst]. apply (W_post (scope_timeout (set_running s None) c)); [|apply WTE_set_running].
        apply (W_pre s (K0 [])), (W_pre (set_running s None)); [|eapply W_WF, WC_scope_timeout].
        change (running a) with (running s) in Hr. rewrite <- Hr. apply WT_set_running_same.
    + (* ATick *) destruct (Z.ltb dt 0); [apply W_refl|]. cbn [fst]. apply WT_any, WT_tick.
Qed.

Definition Same (a b : st) : Prop :=
  tasks b = tasks a /\ scopes b = scopes a /\ futs b = futs a /\ nscope b = nscope a.

Lemma finish_not_held m u o org : ~ Held (finish_task m u o) u org.
Proof.
  unfold finish_task. set (m1 := upd_task m u _).
  assert (E : forall X, tasks X = tasks m1 -> ~ Held X u org).
  { intros X Et [[A _]|[f [A _]]]; rewrite Et in A; unfold m1 in A; rewrite upd_task_eq in A; cbn in A; discriminate. }
  destruct (k_group (tasks m u)); apply E; reflexivity.
Qed.

Lemma idle_not_held a u org : MP a -> idle a u = true -> ~ Held a u org.
Proof.
  intros M Hi. unfold idle in Hi. destruct (k_ctl (tasks a u)); try discriminate.
  destruct (k_waiter (tasks a u)) as [f|] eqn:Ew; [|discriminate].
  apply andb_true_iff in Hi. destruct Hi as [Hi _]. apply andb_true_iff in Hi. destruct Hi as [Hp _].
  unfold fut_pending in Hp. destruct (f_st (futs a f)) eqn:Ef; try discriminate.
  intros [[A _]|[g [A B]]]; [exact (M u f A Ew Ef)|]. rewrite Ew in A. injection A as <-. congruence.
Qed.

Theorem own_step a o u :
  reach_ok a -> running a = None -> op_ok a o = true -> MP a ->
  (actor o = Some u \/ o = ARun (HStep u) \/ exists f, o = ARun (HWake u f)) ->
  Same a (fst (step a o)) \/ forall org, ~ Held (fst (step a o)) u org.
Proof.
  intros R Hr Hok M Ho.
  assert (Sa : Same a a) by (repeat split; reflexivity).
  unfold step. destruct Ho as [Ea|Ho].
  - rewrite Ea. destruct (idle a u) eqn:Ei; cbn [negb]; [|now left].
    right. intros org Hh. apply (idle_not_held a u org M Ei).
    destruct o; cbn [actor] in Ea; try discriminate; injection Ea as ->;
      try (revert Hh; now apply puppet_op_reach).
    exfalso. revert Hh. unfold puppet_finish. destruct (k_group _); [|apply finish_not_held].
    destruct (scope_exit _ _ _ _) as [s4 x]. destruct x; apply finish_not_held.
  - assert (E : exists h fo, o = ARun h /\ fst (run_handle a h) =
                 (if negb (existsb (handle_eqb h) (ready a)) then a
                  else fst (resume (set_ready a (remove_first h (ready a))) u fo))).
    { destruct Ho as [->|[f ->]]; [exists (HStep u), None|exists (HWake u f), (Some f)]; (split; [reflexivity|]);
        unfold run_handle; destruct (negb _); reflexivity. }
    destruct E as (h & fo & -> & E). cbn [actor]. rewrite E. destruct (negb _); [now left|].
    set (s := set_ready a (remove_first h (ready a))).
    assert (K0 : WT [] a s) by (apply WT_other; reflexivity).
    assert (Hc : k_ctl (tasks a u) = CDone \/ k_ctl (tasks a u) <> CDone) by (destruct (k_ctl (tasks a u)); (now left) || (right; discriminate)).
    destruct Hc as [Hc|Hc].
    + left. unfold resume. destruct (incoming s u fo) as [s1 inc] eqn:Ei.
      assert (Ec : k_ctl (tasks s1 u) = CDone).
      { change s1 with (fst (s1, inc)). rewrite <- Ei, incoming_ctl. exact Hc. }
      rewrite Ec. repeat split; reflexivity.
    + right. apply WFE_resume; auto; [apply (w_to _ _ _ _ _ _ _ K0), TO_reach, R|apply (w_k _ _ _ _ _ _ _ K0), reach_k, R|
                                       apply (reach_resume a u R)..|apply (reach_inactive a R)].
Qed.

(* a task just created by spawn_struct holds nothing; what it holds after a quiet walk by its parent was placed
   by a delivery during that walk *)
Lemma child_from e m g sf u b :
  TO m -> KInv m -> ntask m <> u -> g_scope (groups m g) < nscope m ->
  W true true false e [u] (spawn_struct m g sf) b -> forall org, Held b (ntask m) org -> OC b (ntask m) org.
Proof.
  intros T K Hne Hg H org Hh. set (X := spawn_struct m g sf) in *.
  pose proof (WT_spawn_struct [ntask m] m g sf (or_introl eq_refl) Hg) as HX. fold X in HX.
  pose proof (w_to _ _ _ _ _ _ _ HX T) as TX.
  assert (Hn : ~ In (ntask m) [u]) by (intros [E|[]]; congruence).
  destruct (w_h _ _ _ _ _ _ _ H TX (w_k _ _ _ _ _ _ _ HX K) (ntask m) org Hn Hh) as [A|[[_ A]|[E _]]]; [| |discriminate].
  - exfalso. destruct (spawn_struct_new m g sf) as (_ & E1 & E2). fold X in E1, E2. destruct A as [[A _]|[f [A _]]]; congruence.
  - apply (OC_fwd X b); [apply TX|split; [apply H|apply (w_v _ _ _ _ _ _ _ H eq_refl)]|now apply H|exact A].
Qed.

Theorem child_step a u g o :
  reach_ok a -> running a = None -> idle a u = true -> (o = ASpawn u g \/ o = AStart u g) ->
  group_active a g = true ->
  forall org, Held (fst (step a o)) (ntask a) org -> OC (fst (step a o)) (ntask a) org.
Proof.
  intros R Hr Hi Ho Hga. destruct (idle_spec a u Hi) as [_ [_ Au]].
  assert (Es : fst (step a o) = fst (puppet_op a u o)).
  { unfold step. destruct Ho as [-> | ->]; cbn [actor]; now rewrite Hi. }
  rewrite Es. unfold puppet_op.
  pose proof (WT_begin_act [u] a u (or_introl eq_refl) Hr) as K0. set (s := begin_act a u) in *.
  pose proof (w_to _ _ _ _ _ _ _ K0 (TO_reach a R)) as Ts. pose proof (w_k _ _ _ _ _ _ _ K0 (reach_k a R)) as Ks.
  assert (Hne : ntask a <> u) by lia.
  assert (Ega : group_active s g = true) by exact Hga.
  destruct Ho as [-> | ->]; rewrite Ega; cbn [negb].
  - rewrite spawn_task_eq. apply (child_from true s g None u); auto; [apply (reach_gscope a R)|].
    apply W_ret_after; [now left|]. apply (W_post (restart (spawn_struct s g None) (Some (g_scope (groups s g))))); [apply WQ_restart|apply WT_call_soon].
  - unfold new_fut. cbv zeta.
    set (m1 := mkSt (tasks s) (ntask s) (scopes s) (nscope s) (groups s) (ngroup s) (upd (futs s) (nfut s) fut0) (S (nfut s))
                    (events s) (nevent s) (ready s) (timers s) (ntimer s) (now s) (running s)).
    assert (Hm1 : WT [u] s m1) by apply (WT_new_fut _ s).
    match goal with |- context [spawn_task m1 g ?sf] =>
      assert (Ef : futs (fst (spawn_task m1 g sf)) (nfut s) = fut0);
      [rewrite spawn_fut; [cbn; unfold upd; now rewrite Nat.eqb_refl|];
       intros x Hx; change (tasks m1 x) with (tasks s x) in Hx; pose proof (k_alloc _ Ks x _ Hx); lia|];
      assert (Hn : nfut s < nfut (fst (spawn_task m1 g sf))) by (rewrite spawn_nfut; cbn; lia);
      rewrite (spawn_task_eq m1 g sf) in * end.
    cbn [fst] in *.
    apply (child_from true m1 g (Some (nfut s)) u); [apply (w_to _ _ _ _ _ _ _ Hm1 Ts)|apply (w_k _ _ _ _ _ _ _ Hm1 Ks)|exact Hne|apply (reach_gscope a R)|].
    apply W_block.
    match goal with |- _ (suspend_on ?s2 u ?f) => apply (W_post s2) end.
    + match goal with |- _ (call_soon ?s2 _) => apply (W_post s2) end; [apply WQ_restart|apply WT_call_soon].
    + apply WT_suspend_fresh; [now left|exact Ef|exact Hn].
Qed.

Theorem root_step a org : ~ Held (fst (step a ANewRoot)) (ntask a) org.
Proof.
  cbn [step actor]. unfold new_root. cbn [fst]. fold (root_struct a).
  assert (Hm : k_must (tasks (root_struct a) (ntask a)) = false).
  { unfold root_struct. cbn. unfold upd. now rewrite Nat.eqb_refl. }
  destruct (park_fields (root_struct a) (ntask a) Hm) as [E1 E2].
  intros [[A _]|[f [A B]]]; cbn [tasks futs set_running] in *; rewrite E1 in A.
  - change (k_must (tasks (root_struct a) (ntask a)) = true) in A. rewrite Hm in A. discriminate.
  - change (Some (nfut (root_struct a)) = Some f) in A. injection A as <-. change (nfut (root_struct a)) with (nfut a) in E2. rewrite E2 in B. discriminate.
Qed.

(* the done-callback does not touch the outcome of its task *)
Lemma td_done m u : k_done (tasks (run_task_done m u) u) = k_done (tasks m u).
Proof.
  rewrite run_task_done_eq. destruct (k_group (tasks m u)) as [g|]; [|reflexivity].
  transitivity (k_done (tasks (done_struct (set_running m None) u g) u)).
  - apply (td_tail_closed (fun a b => k_done (tasks b u) = k_done (tasks a u))); try reflexivity.
    + intros a b c H1 H2. now rewrite H2.
    + intros a f v. now rewrite fut_complete_tasks.
    + intros a. generalize (g_scope (groups a g)) as c. intros c.
      unfold scope_cancel. destruct (s_cancelled (scopes a c)); [reflexivity|].
      set (a2 := upd_scope (cancel_timeout a c) c _).
      assert (E2 : tasks a2 = tasks a) by (unfold a2, cancel_timeout; destruct (s_timeout (scopes a c)); reflexivity).
      destruct (s_host (scopes a2 c)); [|now rewrite E2].
      rewrite (tcore_done _ _ (kf_tasks _ _ (kframe_deliver_top a2 c) u)). now rewrite E2.
  - unfold done_struct. destruct (k_cur (tasks (set_running m None) u)); cbn; unfold upd; now rewrite Nat.eqb_refl.
Qed.

(* C02 (pure part): BaseExceptionGroup.split(is_anyio_cancellation) as modelled by Machine.split_exn
   partitions the leaves of an exception tree, keeping their order.  The end of the file has the C07 facts about
   a second started(): they read one step off the definitions and need no invariant. *)
From AV Require Import Base Machine.
From Coq Require Import Permutation.

(* induction principle for the nested inductive exn *)
Lemma exn_ind_nested (P : exn -> Prop)
  (Hc : forall o, P (ECancel o)) (He : forall n, P (EErr n)) (Hr : P ERuntime) (Ht : P ETimeout)
  (Hg : forall l, Forall P l -> P (EGroup l)) : forall e, P e.
Proof.
  fix IH 1. intros e. destruct e as [o|n| | |l].
  - apply Hc.
  - apply He.
  - apply Hr.
  - apply Ht.
  - apply Hg. induction l as [|x r IHr]; constructor; [apply IH|exact IHr].
Qed.

Definition oleaves (o : option exn) : list exn :=
  match o with Some e => leaves e | None => [] end.

Definition not_anyio_cancel (e : exn) : bool := negb (is_anyio_cancel e).

Lemma flat_map_somes {A} (f : A -> list exn) (g : exn -> option A) l :
  flat_map f (somes (map g l)) = flat_map (fun e => match g e with Some x => f x | None => [] end) l.
Proof.
  induction l as [|x r IH]; cbn; [reflexivity|].
  destruct (g x); cbn; now rewrite IH.
Qed.

Lemma filter_flat_map {A B} (p : B -> bool) (f : A -> list B) l :
  filter p (flat_map f l) = flat_map (fun x => filter p (f x)) l.
Proof.
  induction l as [|x r IH]; cbn; [reflexivity|]. now rewrite filter_app, IH.
Qed.

Lemma flat_map_ext_Forall {A B} (f g : A -> list B) l :
  Forall (fun x => f x = g x) l -> flat_map f l = flat_map g l.
Proof. induction 1 as [|x r Hx _ IH]; cbn; [reflexivity|]. now rewrite Hx, IH. Qed.

Lemma oleaves_group (m : list exn) :
  oleaves (match m with [] => None | _ => Some (EGroup m) end) = flat_map leaves m.
Proof. destruct m; reflexivity. Qed.

Theorem split_exn_leaves (e : exn) :
  oleaves (fst (split_exn e)) = filter is_anyio_cancel (leaves e) /\
  oleaves (snd (split_exn e)) = filter not_anyio_cancel (leaves e).
Proof.
  induction e as [o|n| | |l IH] using exn_ind_nested.
  - destruct o; cbn; auto.
  - cbn; auto.
  - cbn; auto.
  - cbn; auto.
  - cbn [split_exn fst snd]. rewrite !oleaves_group. cbn [leaves].
    rewrite !map_map, !filter_flat_map.
    rewrite (flat_map_somes leaves (fun x => fst (split_exn x))).
    rewrite (flat_map_somes leaves (fun x => snd (split_exn x))).
    split; apply flat_map_ext_Forall; eapply Forall_impl; [| exact IH | | exact IH]; cbn.
    + intros a [H _]. exact H.
    + intros a [_ H]. exact H.
Qed.

Lemma filter_partition_perm {A} (p : A -> bool) l :
  Permutation l (filter p l ++ filter (fun x => negb (p x)) l).
Proof.
  induction l as [|x r IH]; cbn; [constructor|].
  destruct (p x); cbn.
  - now constructor.
  - now apply Permutation_cons_app.
Qed.

(* the C02 clause: matched ++ rest is a rearrangement of the leaves that keeps the relative order inside each
   part; every matched leaf is an AnyIO cancellation, no rest leaf is *)
Theorem split_exn_partitions_leaves (e : exn) :
  let m := oleaves (fst (split_exn e)) in
  let r := oleaves (snd (split_exn e)) in
  Permutation (leaves e) (m ++ r) /\
  m = filter is_anyio_cancel (leaves e) /\
  r = filter not_anyio_cancel (leaves e) /\
  (forall x, In x m -> is_anyio_cancel x = true) /\
  (forall x, In x r -> is_anyio_cancel x = false).
Proof.
  cbn zeta. destruct (split_exn_leaves e) as [Hm Hr]. rewrite Hm, Hr.
  refine (conj _ (conj eq_refl (conj eq_refl (conj _ _)))).
  - apply filter_partition_perm.
  - intros x Hx. apply filter_In in Hx. tauto.
  - intros x Hx. apply filter_In in Hx. destruct Hx as [_ Hx]. unfold not_anyio_cancel in Hx.
    now destruct (is_anyio_cancel x).
Qed.

Lemma leaves_group_free (e : exn) : forall x, In x (leaves e) -> forall l, x <> EGroup l.
Proof.
  induction e as [o|n| | |l IH] using exn_ind_nested; cbn.
  1-4: intros x [<-|[]] l'; discriminate.
  intros x Hx. apply in_flat_map in Hx. destruct Hx as [y [Hy Hx]].
  rewrite Forall_forall in IH. exact (IH y Hy x Hx).
Qed.

Example ex_split :
  split_exn (EGroup [ECancel 3; EErr 1; EGroup [ECancel 0; ECancel 2; EGroup []]; ETimeout]) =
  (Some (EGroup [ECancel 3; EGroup [ECancel 2]]), Some (EGroup [EErr 1; EGroup [ECancel 0]; ETimeout])).
Proof. vm_compute. reflexivity. Qed.

(* C07: a second started() (definition-level facts about one step; no invariant needed) *)

Lemma ret_to_puppet_snd s t r : snd (ret_to_puppet s t r) = r.
Proof. reflexivity. Qed.

Lemma begin_act_task s t x :
  tasks (begin_act s t) x = if Nat.eqb x t then tk_waiter None (tasks s t) else tasks s x.
Proof. unfold begin_act, upd_task, set_tasks, set_running, upd; cbn. reflexivity. Qed.

Lemma begin_act_futs s t : futs (begin_act s t) = futs s.
Proof. reflexivity. Qed.

(* started() on a task whose start future already holds a value or an exception raises RuntimeError; if the
   future was cancelled (the caller of start() was cancelled in the meantime) the call is a silent no-op; on a
   pending future it returns normally (and stores the value: see GroupThms6.started_sets_value) *)
Theorem second_started_result s t v f :
  idle s t = true -> k_startfut (tasks s t) = Some f ->
  snd (step s (AStarted t v)) =
  match f_st (futs s f) with
  | FPend => RRet 0
  | FRes _ | FExc _ => RExc ERuntime
  | FCanc _ => RRet 0
  end.
Proof.
  intros Hi Hf. cbn [step actor]. rewrite Hi. cbn [negb]. unfold puppet_op.
  rewrite begin_act_task, Nat.eqb_refl. cbn [k_startfut tk_waiter]. rewrite Hf.
  rewrite begin_act_futs.
  destruct (f_st (futs s f)) eqn:E; reflexivity.
Qed.

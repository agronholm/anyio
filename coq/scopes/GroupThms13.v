(* C07: the caller waiting in CStartJoin is not reached by any delivery of cancellation.
   Part 1: the join predicate JP, the relation jr and the primitive moves of the machine. *)
From AV Require Import Base Machine GroupInv GroupInv2 GroupInv3 GroupInv4 GroupInv5 GroupInv9 GroupWalk.

Section Join.
Variables (tj : tid) (fj : fid) (scj : sid) (ch : tid) (ej : exn).

(* what keeps the joining caller tj out of reach: it is a member of the private scope scj only; scj is shielded,
   not cancelled, active, hosted by tj and has no deadline; tj waits on fj and nobody else does, fj is nobody's
   start future; ids in use are below the counters; scj is nobody's handle scope and no group's scope *)
Record JP (X : st) : Prop := {
  jp_tasks : forall x, In tj (s_tasks (scopes X x)) -> x = scj;
  jp_shield : s_shield (scopes X scj) = true;
  jp_ncanc : s_cancelled (scopes X scj) = false;
  jp_act : s_active (scopes X scj) = true;
  jp_host : s_host (scopes X scj) = Some tj;
  jp_dl : s_deadline (scopes X scj) = None;
  jp_w : k_waiter (tasks X tj) = Some fj;
  jp_uniq : forall x, k_waiter (tasks X x) = Some fj -> x = tj;
  jp_fw : f_waiter (futs X fj) = Some tj;
  jp_ctl : k_ctl (tasks X tj) = CStartJoin ch scj ej (Some fj);
  jp_sf : forall x, k_startfut (tasks X x) <> Some fj;
  jp_t : tj < ntask X;
  jp_f : fj < nfut X;
  jp_sc : scj < nscope X;
  jp_pos : scj <> 0;
  jp_hs : forall x, k_hscope (tasks X x) <> scj;
  jp_gs : forall g, g_scope (groups X g) <> scj
}.

Definition jres (X Y : st) : Prop :=
  tasks Y tj = tasks X tj /\
  (f_st (futs Y fj) = f_st (futs X fj) \/ exists v, f_st (futs Y fj) = FRes v).

Definition jr (X Y : st) : Prop := JP X -> JP Y /\ jres X Y.

Lemma jr_refl X : jr X X.
Proof. intros J. split; [exact J|]. split; auto. Qed.

Lemma jr_trans A B C : jr A B -> jr B C -> jr A C.
Proof.
  intros H1 H2 J. destruct (H1 J) as [JB [T1 F1]]. destruct (H2 JB) as [JC [T2 F2]].
  split; [exact JC|]. split; [congruence|]. destruct F2 as [F2|F2]; [|right; exact F2].
  destruct F1 as [F1|[v F1]]; [left; congruence|right; exists v; congruence].
Qed.

Lemma jr_pre X Y : (JP X -> jr X Y) -> jr X Y.
Proof. intros H J. exact (H J J). Qed.

Definition scq (X Y : st) : Prop :=
  s_shield (scopes Y scj) = s_shield (scopes X scj) /\ s_cancelled (scopes Y scj) = s_cancelled (scopes X scj) /\
  s_active (scopes Y scj) = s_active (scopes X scj) /\ s_host (scopes Y scj) = s_host (scopes X scj) /\
  s_deadline (scopes Y scj) = s_deadline (scopes X scj).

Record jx (X Y : st) : Prop := {
  jx_mem : forall x, In tj (s_tasks (scopes Y x)) -> In tj (s_tasks (scopes X x));
  jx_scq : scq X Y;
  jx_tj : tasks Y tj = tasks X tj;
  jx_w : forall x, k_waiter (tasks Y x) = Some fj -> k_waiter (tasks X x) = Some fj;
  jx_fw : f_waiter (futs Y fj) = f_waiter (futs X fj);
  jx_fs : f_st (futs Y fj) = f_st (futs X fj) \/ exists v, f_st (futs Y fj) = FRes v;
  jx_sf : forall x, k_startfut (tasks Y x) = Some fj -> k_startfut (tasks X x) = Some fj;
  jx_nt : ntask X <= ntask Y;
  jx_nf : nfut X <= nfut Y;
  jx_ns : nscope X <= nscope Y;
  jx_hs : forall x, k_hscope (tasks Y x) = k_hscope (tasks X x) \/ k_hscope (tasks Y x) <> scj;
  jx_gs : forall g, g_scope (groups Y g) = g_scope (groups X g) \/ g_scope (groups Y g) <> scj
}.

Lemma jr_ext X Y : (JP X -> jx X Y) -> jr X Y.
Proof.
  intros H J. destruct (H J) as [E1 [S1 [S2 [S3 [S4 S5]]]] E3 E4 E5 E6 E6b N1 N2 N3 E7 E8].
  split; [|split; assumption]. constructor.
  - intros x Hx. apply (jp_tasks X J), E1, Hx.
  - rewrite S1. apply J.
  - rewrite S2. apply J.
  - rewrite S3. apply J.
  - rewrite S4. apply J.
  - rewrite S5. apply J.
  - rewrite E3. apply J.
  - intros x Hx. apply (jp_uniq X J), E4, Hx.
  - rewrite E5. apply J.
  - rewrite E3. apply J.
  - intros x Hx. apply (jp_sf X J x), E6b, Hx.
  - pose proof (jp_t X J). lia.
  - pose proof (jp_f X J). lia.
  - pose proof (jp_sc X J). lia.
  - apply J.
  - intros x. destruct (E7 x) as [E|E]; [rewrite E; apply J|exact E].
  - intros g. destruct (E8 g) as [E|E]; [rewrite E; apply J|exact E].
Qed.

Lemma scq_refl X : scq X X.
Proof. unfold scq. tauto. Qed.

Lemma scq_scopes X Y : scopes Y = scopes X -> scq X Y.
Proof. intros E. unfold scq. rewrite E. tauto. Qed.

(* states that agree on everything JP looks at *)
Lemma jr_eqg X Y : scopes Y = scopes X -> tasks Y = tasks X -> futs Y = futs X ->
  ntask Y = ntask X -> nfut Y = nfut X -> nscope Y = nscope X ->
  (forall g, g_scope (groups Y g) = g_scope (groups X g)) -> jr X Y.
Proof.
  intros E1 E2 E3 E5 E6 E7 E4. apply jr_ext. intros _.
  constructor; rewrite ?E1, ?E2, ?E3, ?E5, ?E6, ?E7; auto using scq_scopes.
Qed.

Lemma jr_eq X Y : scopes Y = scopes X -> tasks Y = tasks X -> futs Y = futs X -> groups Y = groups X ->
  ntask Y = ntask X -> nfut Y = nfut X -> nscope Y = nscope X -> jr X Y.
Proof. intros E1 E2 E3 E4 E5 E6 E7. apply jr_eqg; auto. intros g. now rewrite E4. Qed.

Lemma jr_upd_group X g h : (forall y, g_scope (h y) = g_scope y) -> jr X (upd_group X g h).
Proof.
  intros H. apply jr_eqg; try reflexivity. intros g0. cbn [upd_group set_groups groups]. unfold upd.
  destruct (Nat.eqb g0 g) eqn:E; [apply Nat.eqb_eq in E; subst; apply H|reflexivity].
Qed.

Definition jkeeps (g : task -> task) : Prop :=
  forall k, k_hscope (g k) = k_hscope k /\ (k_waiter (g k) = k_waiter k \/ k_waiter (g k) <> Some fj) /\
            k_startfut (g k) = k_startfut k.

Lemma jr_upd_task X x g : x <> tj -> jkeeps g -> jr X (upd_task X x g).
Proof.
  intros Hx Hg. apply jr_ext. intros J.
  assert (V : forall y, tasks (upd_task X x g) y = if Nat.eqb y x then g (tasks X x) else tasks X y) by (intros y; reflexivity).
  constructor; try (cbn; auto; fail).
  - apply scq_scopes. reflexivity.
  - rewrite V. destruct (Nat.eqb_spec tj x); [congruence|reflexivity].
  - intros y. rewrite V. destruct (Nat.eqb_spec y x) as [->|Hy]; [|auto].
    destruct (Hg (tasks X x)) as [_ [[E|E] _]]; [rewrite E; auto|intros E2; contradiction].
  - intros y. rewrite V. destruct (Nat.eqb_spec y x) as [->|Hy]; [|auto].
    destruct (Hg (tasks X x)) as [_ [_ E]]. rewrite E. auto.
  - intros y. rewrite V. destruct (Nat.eqb_spec y x) as [->|Hy]; [|auto]. left. apply Hg.
Qed.

Lemma jkeeps_ctl c : jkeeps (tk_ctl c). Proof. intros k. cbn. auto. Qed.
Lemma jkeeps_waiter_none : jkeeps (tk_waiter None). Proof. intros k. cbn. split; [auto|split; [right; discriminate|auto]]. Qed.
Lemma jkeeps_waiter f : f <> fj -> jkeeps (tk_waiter (Some f)).
Proof. intros H k. cbn. split; [auto|split; [right; congruence|auto]]. Qed.
Lemma jkeeps_must b m : jkeeps (tk_must b m). Proof. intros k. cbn. auto. Qed.
Lemma jkeeps_held h : jkeeps (tk_held h). Proof. intros k. cbn. auto. Qed.
Lemma jkeeps_started b : jkeeps (tk_started b). Proof. intros k. cbn. auto. Qed.
Lemma jkeeps_cur c : jkeeps (tk_cur c). Proof. intros k. cbn. auto. Qed.
Lemma jkeeps_final o : jkeeps (tk_final o). Proof. intros k. cbn. auto. Qed.
Lemma jkeeps_ncancel n : jkeeps (tk_ncancel n). Proof. intros k. cbn. auto. Qed.
Lemma jkeeps_irrel g : tk_irrel g -> jkeeps g.
Proof. intros H k. pose proof (H k) as V. intuition. Qed.

Lemma jr_upd_scope X c g :
  (c = scj -> forall y, s_shield (g y) = s_shield y /\ s_cancelled (g y) = s_cancelled y /\
                        s_active (g y) = s_active y /\ s_host (g y) = s_host y /\ s_deadline (g y) = s_deadline y) ->
  (forall y, In tj (s_tasks (g y)) -> In tj (s_tasks y)) -> jr X (upd_scope X c g).
Proof.
  intros Hc Ht. apply jr_ext. intros J.
  assert (V : forall y, scopes (upd_scope X c g) y = if Nat.eqb y c then g (scopes X c) else scopes X y) by (intros y; reflexivity).
  constructor; try (cbn; auto; fail).
  - intros y. rewrite V. destruct (Nat.eqb_spec y c) as [->|Hy]; [apply Ht|auto].
  - unfold scq. rewrite V. destruct (Nat.eqb_spec scj c) as [E|E]; [|tauto].
    rewrite <- E. destruct (Hc (eq_sym E) (scopes X scj)) as [H1 [H2 [H3 [H4 H5]]]]. auto.
Qed.

Lemma jr_upd_scope_ne X c g : c <> scj -> (forall y, In tj (s_tasks (g y)) -> In tj (s_tasks y)) -> jr X (upd_scope X c g).
Proof. intros Hc. apply jr_upd_scope. intros E. contradiction. Qed.

Lemma in_tj_add t l : t <> tj -> In tj (add t l) -> In tj l.
Proof. intros Hne H. apply add_in in H. destruct H as [H|H]; [exact H|congruence]. Qed.
Lemma in_tj_del t l : In tj (del t l) -> In tj l.
Proof. intros H. apply del_in in H. tauto. Qed.

Lemma jr_nf X : jr X (nf X).
Proof.
  apply jr_ext. intros J. pose proof (jp_f X J) as Hf.
  assert (V : futs (nf X) fj = futs X fj).
  { unfold nf, new_fut. cbn [fst futs]. unfold upd. destruct (Nat.eqb_spec fj (nfut X)); [lia|reflexivity]. }
  constructor; try (cbn; auto; fail).
  - apply scq_scopes. reflexivity.
  - now rewrite V.
  - left. now rewrite V.
Qed.

Lemma jr_ns X d sh : jr X (ns X d sh).
Proof.
  apply jr_ext. intros J. pose proof (jp_sc X J) as Hs.
  assert (V : forall y, scopes (ns X d sh) y = if Nat.eqb y (nscope X) then sc_shield sh (sc_deadline d scope0) else scopes X y)
    by (intros y; reflexivity).
  constructor; try (cbn; auto; fail).
  - intros y. rewrite V. destruct (Nat.eqb_spec y (nscope X)); [cbn; tauto|auto].
  - unfold scq. rewrite V. destruct (Nat.eqb_spec scj (nscope X)); [lia|tauto].
Qed.

Lemma jr_talloc X k ev : k_hscope k <> scj -> k_waiter k <> Some fj -> k_startfut k <> Some fj -> jr X (talloc X k ev).
Proof.
  intros H1 H2 H3. apply jr_ext. intros J. pose proof (jp_t X J) as Ht.
  assert (V : forall y, tasks (talloc X k ev) y = if Nat.eqb y (ntask X) then k else tasks X y) by (intros y; reflexivity).
  constructor; try (cbn; auto; fail).
  - apply scq_scopes. reflexivity.
  - rewrite V. destruct (Nat.eqb_spec tj (ntask X)); [lia|reflexivity].
  - intros y. rewrite V. destruct (Nat.eqb_spec y (ntask X)); [intros E; contradiction|auto].
  - intros y. rewrite V. destruct (Nat.eqb_spec y (ntask X)); [intros E; contradiction|auto].
  - intros y. rewrite V. destruct (Nat.eqb_spec y (ntask X)); [right; exact H1|auto].
Qed.

Lemma jr_fc X f v : (f <> fj \/ exists n, v = FRes n) -> jr X (fut_complete X f v).
Proof.
  intros Hf. destruct (fc_spec X f v) as [[_ ->]|[Hp [Ef _]]]; [apply jr_refl|].
  apply jr_ext. intros J.
  constructor; rewrite ?fc_tasks, ?fc_scopes, ?fc_groups, ?fc_ntask, ?fc_nfut, ?fc_nscope; auto.
  - apply scq_scopes. apply fc_scopes.
  - rewrite Ef. unfold upd. destruct (Nat.eqb_spec fj f); [subst; reflexivity|reflexivity].
  - rewrite Ef. unfold upd. destruct (Nat.eqb_spec fj f) as [E|E]; [|auto]. cbn.
    destruct Hf as [Hf|[n ->]]; [congruence|eauto].
Qed.

Lemma jr_upd_fut X f g : f <> fj -> jr X (upd_fut X f g).
Proof.
  intros Hf. apply jr_ext. intros J.
  assert (V : futs (upd_fut X f g) fj = futs X fj).
  { cbn [upd_fut set_futs futs]. unfold upd. destruct (Nat.eqb_spec fj f); [congruence|reflexivity]. }
  constructor; try (cbn; auto; fail).
  - apply scq_scopes. reflexivity.
  - now rewrite V.
  - left. now rewrite V.
Qed.

Lemma jr_task_cancel X x o : x <> tj -> jr X (task_cancel X x o).
Proof.
  intros Hx. unfold task_cancel. destruct (k_done (tasks X x)); [apply jr_refl|].
  set (s1 := upd_task X x (tk_ncancel (S (k_ncancel (tasks X x))))).
  assert (T1 : jr X s1) by (apply jr_upd_task; [exact Hx|apply jkeeps_ncancel]).
  destruct (k_waiter (tasks X x)) as [f|] eqn:Ew.
  - destruct (fut_pending s1 f).
    + eapply jr_trans; [exact T1|]. apply jr_pre. intros J. apply jr_fc. left. intros ->.
      apply Hx, (jp_uniq s1 J). unfold s1. tcase x x; [cbn; exact Ew|contradiction].
    + eapply jr_trans; [exact T1|]. apply jr_upd_task; [exact Hx|apply jkeeps_must].
  - eapply jr_trans; [exact T1|]. apply jr_upd_task; [exact Hx|apply jkeeps_must].
Qed.

Lemma jr_timer_cancel X tm : jr X (timer_cancel X tm).
Proof. apply jr_eq; reflexivity. Qed.

Lemma jr_cancel_timeout X c : jr X (cancel_timeout X c).
Proof.
  unfold cancel_timeout. destruct (s_timeout (scopes X c)); [|apply jr_refl].
  eapply jr_trans; [apply jr_timer_cancel|]. apply jr_upd_scope; [intros _ y; cbn; tauto|intros y; cbn; auto].
Qed.

Lemma jr_deliver_task self origin a r t : t <> tj -> jr a (fst (deliver_task self origin (a, r) t)).
Proof.
  intros Ht. unfold deliver_task.
  destruct (k_done (tasks a t)); [apply jr_refl|].
  destruct (k_must (tasks a t)); [apply jr_refl|].
  destruct (negb (opt_eqb (running a) t) && _); [|apply jr_refl].
  destruct (match k_waiter (tasks a t) with Some f => fut_pending a f | None => true end); [|apply jr_refl].
  cbn [fst].
  destruct (opt_eqb (s_host (scopes (task_cancel a t (S origin)) origin)) t).
  - eapply jr_trans; [apply jr_task_cancel, Ht|]. apply jr_upd_scope; [intros _ y; cbn; tauto|intros y; cbn; auto].
  - apply jr_task_cancel, Ht.
Qed.

Lemma jr_fold {A} (f : st * bool -> A -> st * bool) (P : A -> Prop) :
  (forall a r x, P x -> jr a (fst (f (a, r) x))) ->
  forall l a r, (forall x, In x l -> P x) -> jr a (fst (fold_left f l (a, r))).
Proof.
  intros Hf l. induction l as [|x l IH]; intros a r Hl; cbn [fold_left]; [apply jr_refl|].
  destruct (f (a, r) x) as [a' r'] eqn:E.
  eapply jr_trans; [|apply IH; intros y Hy; apply Hl; now right].
  specialize (Hf a r x (Hl x (or_introl eq_refl))). now rewrite E in Hf.
Qed.

Lemma jr_deliver fuel : forall X self origin, self <> scj -> jr X (fst (deliver fuel X self origin)).
Proof.
  induction fuel as [|fu IH]; intros X self origin Hs; cbn [deliver]; [apply jr_refl|].
  apply jr_pre. intros J.
  destruct (fold_left (deliver_task self origin) (s_tasks (scopes X self)) (X, false)) as [s1 r1] eqn:E1.
  assert (K1 : jr X s1).
  { pose proof (jr_fold (deliver_task self origin) (fun t => t <> tj) (jr_deliver_task self origin)
                  (s_tasks (scopes X self)) X false) as H. rewrite E1 in H. apply H.
    intros x Hx ->. apply Hs, (jp_tasks X J), Hx. }
  match goal with |- context [fold_left ?f ?l (s1, r1)] =>
    destruct (fold_left f l (s1, r1)) as [s2 r2] eqn:E2;
    assert (K2 : jr s1 s2);
    [ pose proof (jr_fold f (fun _ => True)) as H; specialize (fun Hf => H Hf l s1 r1); rewrite E2 in H; apply H; [|auto] | ]
  end.
  { intros a r c _. destruct (negb (s_shield (scopes a c))) eqn:Esh; cbn [andb]; [|apply jr_refl].
    destruct (negb (s_cancelled (scopes a c))); [|apply jr_refl].
    apply jr_pre. intros Ja.
    assert (Hc : c <> scj) by (intros ->; rewrite (jp_shield a Ja) in Esh; discriminate).
    specialize (IH a c origin Hc). destruct (deliver fu a c origin) as [a' r']. exact IH. }
  assert (Hh : forall b, jr s2 (upd_scope s2 self (sc_chandle b)))
    by (intros b; apply jr_upd_scope; [intros _ y; cbn; tauto|intros y; cbn; auto]).
  destruct (Nat.eqb origin self).
  - destruct r2; cbn [fst].
    + eapply jr_trans; [exact K1|]. eapply jr_trans; [exact K2|]. eapply jr_trans; [apply Hh|apply jr_eq; reflexivity].
    + eapply jr_trans; [exact K1|]. eapply jr_trans; [exact K2|apply Hh].
  - cbn [fst]. eapply jr_trans; eassumption.
Qed.

Lemma jr_deliver_top X c : c <> scj -> jr X (deliver_top X c).
Proof. apply jr_deliver. Qed.

Lemma jr_restart_from fuel : forall X x, jr X (restart_from fuel X x).
Proof.
  induction fuel as [|fu IH]; intros X x; cbn [restart_from]; [apply jr_refl|].
  destruct x as [c|]; [|apply jr_refl]. apply jr_pre. intros J.
  destruct (s_cancelled (scopes X c)) eqn:Ec.
  - destruct (s_chandle (scopes X c)); [apply jr_refl|]. apply jr_deliver_top. intros ->.
    rewrite (jp_ncanc X J) in Ec. discriminate.
  - destruct (s_shield (scopes X c)); [apply jr_refl|apply IH].
Qed.

Lemma jr_restart X x : jr X (restart X x).
Proof. apply jr_restart_from. Qed.

Lemma jr_scope_cancel X c b : (JP X -> c <> scj) -> jr X (scope_cancel X c b).
Proof.
  intros Hc. apply jr_pre. intros J. specialize (Hc J). unfold scope_cancel.
  destruct (s_cancelled (scopes X c)); [apply jr_refl|].
  set (s2 := upd_scope (cancel_timeout X c) c (fun x => sc_bydeadline b (sc_cancelled true x))).
  assert (T : jr X s2).
  { eapply jr_trans; [apply jr_cancel_timeout|]. apply jr_upd_scope_ne; [exact Hc|intros y; cbn; auto]. }
  destruct (s_host (scopes s2 c)); [|exact T]. eapply jr_trans; [exact T|apply jr_deliver_top, Hc].
Qed.

Lemma jr_scope_timeout X c : jr X (scope_timeout X c).
Proof.
  apply jr_pre. intros J. unfold scope_timeout. destruct (s_deadline (scopes X c)) as [d|] eqn:Ed; [|apply jr_refl].
  assert (Hc : c <> scj) by (intros ->; rewrite (jp_dl X J) in Ed; discriminate).
  destruct (Z.leb d (now X)); [apply jr_scope_cancel; auto|].
  destruct (call_at X d (TScope c)) as [s1 tm] eqn:E.
  assert (T : jr X s1) by (injection E as <- _; apply jr_eq; reflexivity).
  eapply jr_trans; [exact T|]. apply jr_upd_scope_ne; [exact Hc|intros y; cbn; auto].
Qed.

Lemma jr_iter_uncancel n t : t <> tj -> forall X, jr X (iter n (fun a => task_uncancel a t) X).
Proof.
  intros Ht. induction n as [|n IH]; intros X; cbn [iter]; [apply jr_refl|].
  eapply jr_trans; [|apply IH]. apply jr_upd_task; [exact Ht|]. intros k. cbn. auto.
Qed.

Lemma jr_scope_enter X c t : t <> tj -> jr X (fst (scope_enter X c t)).
Proof.
  intros Ht. apply jr_pre. intros J. unfold scope_enter. destruct (s_active (scopes X c)) eqn:Ea; [apply jr_refl|].
  assert (Hc : c <> scj) by (intros ->; rewrite (jp_act X J) in Ea; discriminate).
  cbn zeta.
  set (s1 := upd_scope X c (fun x => sc_parent (k_cur (tasks X t)) (sc_tasks (add t (s_tasks x)) (sc_host (Some t) x)))).
  set (s2 := upd_task s1 t (tk_cur (Some c))).
  set (s3 := match k_cur (tasks X t) with Some p => _ | None => s2 end).
  assert (T1 : jr X s1) by (apply jr_upd_scope_ne; [exact Hc|intros y; cbn; apply in_tj_add, Ht]).
  assert (T2 : jr s1 s2) by (apply jr_upd_task; [exact Ht|apply jkeeps_cur]).
  assert (T3 : jr s2 s3).
  { unfold s3. destruct (k_cur (tasks X t)); [|apply jr_refl].
    apply jr_upd_scope; [intros _ y; cbn; tauto|intros y; cbn; apply in_tj_del]. }
  set (s5 := upd_scope (scope_timeout s3 c) c (sc_active true)).
  assert (T5 : jr s3 s5).
  { eapply jr_trans; [apply jr_scope_timeout|]. apply jr_upd_scope_ne; [exact Hc|intros y; cbn; auto]. }
  assert (T : jr X s5) by (eapply jr_trans; [exact T1|]; eapply jr_trans; [exact T2|]; eapply jr_trans; [exact T3|exact T5]).
  destruct (s_cancelled (scopes s5 c)); cbn [fst]; [|exact T].
  eapply jr_trans; [exact T|apply jr_deliver_top, Hc].
Qed.

Lemma jr_scope_exit X c t e : t <> tj -> jr X (fst (scope_exit X c t e)).
Proof.
  intros Ht. apply jr_pre. intros J. unfold scope_exit.
  destruct (negb (s_active (scopes X c))); [apply jr_refl|].
  destruct (negb (opt_eqb (s_host (scopes X c)) t)) eqn:Eh; [apply jr_refl|].
  destruct (negb (opt_eqb (k_cur (tasks X t)) c)); [apply jr_refl|].
  assert (Hc : c <> scj).
  { intros ->. rewrite (jp_host X J) in Eh. cbn in Eh. destruct (Nat.eqb_spec tj t); [congruence|discriminate]. }
  cbn zeta.
  set (s2 := upd_scope (cancel_timeout (upd_scope X c (sc_active false)) c) c (fun x => sc_tasks (del t (s_tasks x)) x)).
  assert (T2 : jr X s2).
  { eapply jr_trans; [|apply jr_upd_scope_ne; [exact Hc|intros y; cbn; apply in_tj_del]].
    eapply jr_trans; [|apply jr_cancel_timeout]. apply jr_upd_scope_ne; [exact Hc|intros y; cbn; auto]. }
  set (s3 := match s_parent (scopes X c) with Some p => _ | None => s2 end).
  assert (T3 : jr s2 s3).
  { unfold s3. destruct (s_parent (scopes X c)); [|apply jr_refl].
    apply jr_upd_scope; [intros _ y; cbn; tauto|intros y; cbn; apply in_tj_add, Ht]. }
  set (s5 := restart (upd_task s3 t (tk_cur (s_parent (scopes X c)))) (s_parent (scopes X c))).
  assert (T5 : jr X s5).
  { eapply jr_trans; [exact T2|]. eapply jr_trans; [exact T3|]. eapply jr_trans; [|apply jr_restart].
    apply jr_upd_task; [exact Ht|apply jkeeps_cur]. }
  assert (Hu : forall a g, (forall y, s_tasks (g y) = s_tasks y) -> jr a (upd_scope a c g)).
  { intros a g Hg. apply jr_upd_scope_ne; [exact Hc|]. intros y. now rewrite Hg. }
  assert (Hfin : forall a, jr a (upd_scope a c (sc_host None))) by (intros a; apply Hu; reflexivity).
  assert (Hit : forall a n, jr a (upd_scope (iter n (fun a => task_uncancel a t) a) c (sc_pending 0))).
  { intros a n. eapply jr_trans; [apply jr_iter_uncancel, Ht|]. apply Hu. reflexivity. }
  assert (Hcaught : forall a, jr a (upd_scope a c (sc_caught true))) by (intros a; apply Hu; reflexivity).
  eapply jr_trans; [exact T5|].
  destruct (s_cancelled (scopes s5 c) && negb (parent_visible s5 c)).
  - set (s6 := upd_scope (iter (s_pending (scopes s5 c)) (fun a => task_uncancel a t) s5) c (sc_pending 0)).
    assert (T6 : jr s5 s6) by apply Hit.
    assert (R1 : jr s5 (upd_scope s6 c (sc_host None))) by (eapply jr_trans; [exact T6|apply Hfin]).
    assert (R2 : jr s5 (upd_scope (upd_scope s6 c (sc_caught true)) c (sc_host None))).
    { eapply jr_trans; [exact T6|]. eapply jr_trans; [apply Hcaught|apply Hfin]. }
    destruct e as [e|]; [|exact R1].
    destruct e; try exact R1; try (destruct (is_anyio_cancel _); [exact R2|exact R1]).
    destruct (split_exn (EGroup l)) as [[a|] [b|]]; cbn [fst]; first [exact R1|exact R2].
  - cbn [fst]. eapply jr_trans; [|apply Hfin].
    destruct (Nat.eqb (s_pending (scopes s5 c)) 0); [apply jr_refl|].
    destruct (s_parent (scopes X c)) as [p|]; [|apply Hit].
    destruct (opt_eqb (s_host (scopes s5 p)) t); [|apply Hit].
    eapply jr_trans; [|apply Hu; reflexivity].
    apply jr_upd_scope; [intros _ y; cbn; tauto|intros y; cbn; auto].
Qed.

(* the operations that are excluded while the join lasts *)
Definition jok (o : op) : Prop :=
  match o with
  | ACancel _ c | AExtCancel c | ASetDeadline _ c _ => c <> scj
  | ASetShield _ c b => b = false -> c <> scj
  | ANativeCancel t => t <> tj
  | ARun (HWake t _) => t <> tj
  | ARun (HDeliver c) => c <> scj
  | _ => True
  end.

Lemma jr_shield_true X c : jr X (upd_scope X c (sc_shield true)).
Proof.
  apply jr_ext. intros J.
  assert (V : forall y, scopes (upd_scope X c (sc_shield true)) y = if Nat.eqb y c then sc_shield true (scopes X c) else scopes X y)
    by (intros y; reflexivity).
  constructor; try (cbn; auto; fail).
  - intros y. rewrite V. destruct (Nat.eqb_spec y c) as [->|Hy]; [cbn; auto|auto].
  - unfold scq. rewrite V. destruct (Nat.eqb_spec scj c) as [E|E]; [|tauto].
    rewrite <- E. cbn. rewrite (jp_shield X J). tauto.
Qed.

Lemma jr_galloc X c : c <> scj -> jr X (galloc X c).
Proof.
  intros Hc. apply jr_ext. intros J. constructor; try (cbn; auto; fail).
  - apply scq_scopes. reflexivity.
  - intros g0. cbn [galloc groups]. unfold upd. destruct (Nat.eqb g0 (ngroup X)); [right; cbn; exact Hc|auto].
Qed.

(* while tj joins, the ids handed out by the step are not its own: they are at or above the counters of s0 *)
Lemma jr_moves s0 o a : JP s0 -> a <> tj -> jok o -> moves s0 o a jr.
Proof.
  intros J0 Ha Hok.
  assert (Nf : nfut s0 <> fj) by (pose proof (jp_f s0 J0); lia).
  assert (Ns : nscope s0 <> scj) by (pose proof (jp_sc s0 J0); lia).
  assert (Nt : ntask s0 <> tj) by (pose proof (jp_t s0 J0); lia).
  assert (Keep : forall X c g, (forall y, s_tasks (g y) = s_tasks y) -> c <> scj -> jr X (upd_scope X c g)).
  { intros X c g Hg Hc. apply jr_upd_scope_ne; [exact Hc|]. intros y. now rewrite Hg. }
  constructor.
  - apply jr_refl.
  - apply jr_trans.
  - intros X g H. apply jr_upd_task; [exact Ha|].
    destruct H as [c| | |m|h| | | |raw _|raw|d _|].
    + apply jkeeps_ctl.
    + apply jkeeps_waiter_none.
    + apply jkeeps_waiter, Nf.
    + apply jkeeps_must.
    + apply jkeeps_held.
    + apply jkeeps_started.
    + apply jkeeps_irrel, irrel_uncancel.
    + intros k. cbn. split; [auto|split; [right; discriminate|auto]].
    + apply jkeeps_final.
    + intros k. destruct raw; cbn; auto.
    + intros k. cbn. split; [auto|split; [right; discriminate|auto]].
    + intros k. cbn. auto.
  - intros X f v H. apply jr_fc. destruct H as [| | | |t e _ Hf|m ->]; eauto.
    left. intros ->. exact (jp_sf s0 J0 t Hf).
  - intros X k ev H. destruct H as [_|gs g e sf Hsf]; apply jr_talloc; cbn; try discriminate.
    + intros E. apply (jp_pos s0 J0). auto.
    + exact Ns.
    + destruct Hsf as [->| ->]; congruence.
  - intros X Y [| |d sh|t _|g h _ Hg|e h|l|r|w f|dt]; try (apply jr_eq; reflexivity).
    + apply jr_upd_fut, Nf.
    + apply jr_nf.
    + apply jr_ns.
    + apply jr_galloc, Ns.
    + apply jr_upd_group, Hg.
  - intros X Y [c _|d sh|c exc|c Hc|z|c b Hb|t c d E|c|c|c E|t E|tm|c t|c].
    + apply jr_scope_enter, Ha.
    + eapply jr_trans; [apply jr_ns|apply jr_scope_enter, Ha].
    + apply jr_scope_exit, Ha.
    + apply jr_scope_cancel. intros J. destruct Hc as [[[t E]|E]|g ->|x ->]; try (rewrite E in Hok; exact Hok).
      * apply (jp_gs X J).
      * apply (jp_hs X J).
    + apply jr_restart.
    + destruct b; [apply jr_shield_true|]. destruct (Hb eq_refl) as [t E]. rewrite E in Hok.
      apply Keep; [reflexivity|now apply Hok].
    + rewrite E in Hok. apply Keep; [reflexivity|exact Hok].
    + apply jr_cancel_timeout.
    + apply jr_scope_timeout.
    + rewrite E in Hok. apply jr_deliver_top, Hok.
    + rewrite E in Hok. apply jr_task_cancel, Hok.
    + apply jr_timer_cancel.
    + apply jr_upd_scope; [intros _ y; cbn; tauto|intros y; cbn; apply in_tj_del].
    + apply jr_upd_scope; [intros _ y; cbn; tauto|intros y; cbn; apply in_tj_add, Nt].
Qed.

(* one step of the machine that is not one of the excluded operations keeps the joining caller untouched *)
Theorem step_jr s o : reach s -> jok o -> jr s (fst (step s o)).
Proof.
  intros R Hok. apply jr_pre. intros J. destruct (reachable s R) as [[K Ci G Jv] Hrun].
  (* the acting task is not tj, unless the operation is refused *)
  assert (Ha : fst (step s o) = s \/ exists a, acts s o a /\ a <> tj).
  { assert (Any : exists a, True /\ a <> tj) by (exists (S tj); split; [exact I|lia]).
    destruct (actor o) as [t|] eqn:Ea.
    - destruct (idle s t) eqn:Ei; [right|left; now apply (step_not_idle s o t)]. exists t. split.
      + destruct o; try discriminate Ea; cbn in Ea |- *; congruence.
      + intros ->. unfold idle in Ei. rewrite (jp_ctl s J) in Ei. discriminate.
    - destruct o; try discriminate Ea; try (right; exact Any).
      + right. exists (ntask s). split; [reflexivity|]. pose proof (jp_t s J). lia.
      + destruct (in_dec_handle h (ready s)) as [Hin|Hn]; [right|left; now rewrite step_run_notin].
        destruct h as [t|t f|c|t|f tm|c tm]; try exact Any; exists t; (split; [reflexivity|]).
        * intros ->. destruct (k_step s K tj Hin) as [Hw _]. rewrite (jp_w s J) in Hw. discriminate.
        * exact Hok.
        * intros ->. destruct (k_td s K tj Hin) as [Hd _].
          pose proof (c_done1 s Ci tj Hd) as E. rewrite (jp_ctl s J) in E. discriminate. }
  destruct Ha as [->|[a [Ha Hne]]]; [apply jr_refl|]. exact (walk_step s o a jr (jr_moves s o a J Hne Hok) Ha).
Qed.
End Join.

(* C02, finding F23: a task group in which a child or the body failed has its OWN scope cancelled, and stays so. *)
From AV Require Import Base Machine GroupInv GroupInv3 GroupInv4 GroupInv9 GroupWalk GroupThms3 GroupThms6.
From AV Require ChainMono.

(* C02: __aexit__ entered with an exception of the body (a cancellation or an error) calls cancel() on the
   group's own scope: at the end of the step the scope has cancel_called, whatever the enclosing scopes *)
Theorem body_failure_cancels_group s t g e : reach s -> idle s t = true -> k_held (tasks s t) = Some e ->
  let s' := fst (step s (AGroupExit t g)) in
  s_cancelled (scopes s' (g_scope (groups s' g))) = true /\
  (is_cancel e = false -> g_excs (groups s' g) = g_excs (groups s g) ++ [(0, e)]).
Proof.
  intros R Hi Hh. cbn zeta. destruct (reachable s R) as [[K Ci G J] Hrun].
  pose proof (b_gscope s G g) as Hb.
  cbn [step actor]. rewrite Hi. cbn [negb].
  pose proof (op_group_exit_grel s t g) as Hrel. apply grel_grec in Hrel.
  destruct Hrel as [_ [_ [Hsc [Hex _]]]].
  assert (Esc : g_scope (groups (fst (puppet_op s t (AGroupExit t g))) g) = g_scope (groups s g)).
  { rewrite Hsc. unfold after_body_exc. rewrite Hh. destruct (is_cancel e); [reflexivity|].
    cbn [upd_group set_groups groups]. rewrite upd_same. reflexivity. }
  split.
  - rewrite Esc. unfold puppet_op. set (s0 := begin_act s t). cbn zeta.
    assert (Eh : k_held (tasks s0 t) = Some e) by (unfold s0, begin_act; tcase t t; [exact Hh|contradiction]).
    rewrite Eh. change (g_scope (groups s0 g)) with (g_scope (groups s g)).
    set (gs := g_scope (groups s g)) in *.
    destruct (cancelled_after_scope_cancel s0 gs false) as [Hc [Hn _]].
    set (s1 := if is_cancel e then scope_cancel s0 gs false else _).
    assert (H1 : gs < nscope s1 /\ s_cancelled (scopes s1 gs) = true).
    { unfold s1. destruct (is_cancel e); cbn [upd_group set_groups nscope scopes]; rewrite Hn; auto. }
    destruct H1 as [H1 H2].
    (* cancel_called of an allocated scope survives the blocks of __aexit__ *)
    match goal with |- s_cancelled (scopes (fst ?p) gs) = true => assert (M : ChainMono.SREL s1 (fst p)) end.
    { pose proof ChainMono.srel_walk as Wk. pose proof (ChainMono.srel_refl s1) as H0.
      destruct (g_tasks (groups s1 g)); [|exact (ChainWalk.R_aexit_wait Wk s1 s1 t g None _ H0)].
      destruct (new_scope s1 None true) as [s2 c] eqn:E.
      apply (ChainWalk.Rf_blocked Wk), (ChainWalk.Rf_set_ctl Wk); [exact I|]. apply (ChainWalk.Rf_bare_yield Wk).
      exact (ChainWalk.Rp_new_enter Wk _ _ _ _ t _ _ (ChainWalk.wh_ok_none _ _ Wk) E H0). }
    apply (ChainMono.sr_canc _ _ _ (ChainMono.sr_scopes _ _ M gs H1) H2).
  - intros Hnc. rewrite Hex. unfold after_body_exc. rewrite Hh, Hnc.
    cbn [upd_group set_groups groups]. rewrite upd_same. reflexivity.
Qed.

Definition FInv (s : st) : Prop :=
  forall g, g_excs (groups s g) <> [] -> s_cancelled (scopes s (g_scope (groups s g))) = true.

Lemma step_gscope_or_fresh s o g : reach s ->
  g_scope (groups (fst (step s o)) g) = g_scope (groups s g) \/ g_excs (groups (fst (step s o)) g) = [].
Proof.
  intros R. destruct (step_group_cases s o g R) as [E|[H|[H|[H|[H|[H|H]]]]]].
  - left. now rewrite E.
  - right. destruct H as [t [_ [_ [_ E]]]]. now rewrite E.
  - left. destruct H as [t [_ E]]. now rewrite E.
  - left. destruct H as [t [_ [_ [_ E]]]]. now rewrite E.
  - left. destruct H as [t [e [_ [_ [_ [_ E]]]]]]. destruct E as [_ [_ [E _]]]. rewrite E. reflexivity.
  - left. destruct H as [E _]. destruct E as [_ [_ [E _]]]. exact E.
  - left. destruct H as [t [_ [_ [_ [E|[e [_ E]]]]]]]; now rewrite E.
Qed.

Lemma app_one_ne {A} (l : list A) x : l ++ [x] <> l.
Proof. intros E. apply (f_equal (@length A)) in E. rewrite app_length in E. cbn in E. lia. Qed.

Lemma FInv_step s o : reach s -> FInv s -> FInv (fst (step s o)).
Proof.
  intros R F g Hne. destruct (reachable s R) as [[K Ci G J] Hrun].
  assert (Same : g_excs (groups (fst (step s o)) g) = g_excs (groups s g) ->
                 s_cancelled (scopes (fst (step s o)) (g_scope (groups (fst (step s o)) g))) = true).
  { intros Eq. rewrite Eq in Hne. specialize (F g Hne).
    destruct (step_gscope_or_fresh s o g R) as [E|E]; [|rewrite Eq in E; contradiction].
    rewrite E. destruct (ChainMono.caught_cancelled_monotone s o (g_scope (groups s g)) (b_gscope s G g)) as [_ [M _]]. apply M, F. }
  destruct (step_group_cases s o g R) as [E|[H|[H|[H|[H|[H|H]]]]]].
  - apply Same. now rewrite E.
  - exfalso. destruct H as [t [_ [_ [_ E]]]]. apply Hne. now rewrite E.
  - apply Same. destruct H as [t [_ E]]. now rewrite E.
  - apply Same. destruct H as [t [_ [_ [_ E]]]]. now rewrite E.
  - destruct H as [t [e [-> [Hi [Hh _]]]]]. apply (body_failure_cancels_group s t g e R Hi Hh).
  - apply Same. destruct H as [E _]. destruct E as [_ [_ [_ [E _]]]]. exact E.
  - destruct H as [t [-> [Hin [Hg [E|[e [_ E]]]]]]].
    + apply Same. now rewrite E.
    + apply (first_failure_cancels_group s t g R Hin Hg). cbn zeta. rewrite E. apply app_one_ne.
Qed.

(* C02 (F23): in every state of every run, a task group whose error list is not empty (a child or the body
   failed) has cancel_called on its OWN scope, and is therefore effectively cancelled - no operation, in particular
   no change of a shield, can hide an enclosing cancellation from it and let it run on *)
Theorem failed_group_stays_cancelled ops g :
  let s := final step init ops in
  g_excs (groups s g) <> [] ->
  s_cancelled (scopes s (g_scope (groups s g))) = true /\ eff_cancelled s (g_scope (groups s g)) = true.
Proof.
  cbn zeta. intros Hne. assert (R : reach (final step init ops)) by now exists ops.
  assert (F : FInv (final step init ops)).
  { apply reach_ind; [intros g0 H; now elim H|intros s o Rs Fs; now apply FInv_step|exact R]. }
  split; [apply F, Hne|].
  destruct (reachable _ R) as [[K Ci G J] _]. apply eff_cancelled_self; [apply (c_n _ Ci)|apply F, Hne].
Qed.

(* the monotone form: once the error list of an allocated group g is not empty it is never empty again, the group
   keeps its scope, and the scope keeps cancel_called through every later operation (no op resets _cancel_called) *)
Theorem failed_group_persists s o g : reach s -> g < ngroup s -> g_excs (groups s g) <> [] ->
  g_excs (groups (fst (step s o)) g) <> [] /\
  g_scope (groups (fst (step s o)) g) = g_scope (groups s g) /\
  s_cancelled (scopes (fst (step s o)) (g_scope (groups s g))) = true.
Proof.
  intros R Hal Hne. destruct (reachable s R) as [[K Ci G J] Hrun].
  assert (Hc : s_cancelled (scopes s (g_scope (groups s g))) = true).
  { destruct R as [ops ->]. apply (failed_group_stays_cancelled ops g Hne). }
  assert (Hx : g_excs (groups (fst (step s o)) g) <> []).
  { destruct (step_group_cases s o g R) as [E|[H|[H|[H|[H|[H|H]]]]]].
    - now rewrite E.
    - exfalso. destruct H as [t [_ [_ [E _]]]]. lia.
    - destruct H as [t [_ E]]. now rewrite E.
    - destruct H as [t [_ [_ [_ E]]]]. now rewrite E.
    - destruct H as [t [e [_ [_ [_ [_ E]]]]]]. destruct E as [_ [_ [_ [E _]]]]. rewrite E. cbn. intros E0. now apply app_eq_nil in E0.
    - destruct H as [E _]. destruct E as [_ [_ [_ [E _]]]]. now rewrite E.
    - destruct H as [t [_ [_ [_ [E|[e [_ E]]]]]]]; rewrite E; [exact Hne|]. cbn. intros E0. apply app_eq_nil in E0. destruct E0 as [_ E0]. discriminate. }
  split; [exact Hx|]. destruct (step_gscope_or_fresh s o g R) as [E|E]; [|contradiction].
  split; [exact E|]. destruct (ChainMono.caught_cancelled_monotone s o (g_scope (groups s g)) (b_gscope s G g)) as [_ [M _]]. apply M, Hc.
Qed.

(* a literal copy of run_task_done before the fix: a child's failure cancelled the group's scope only when the
   scope was not EFFECTIVELY cancelled, i.e. not when just an enclosing scope was cancelled *)
Definition run_task_done_old (s0 : st) (t : tid) : st :=
  let s := set_running s0 None in
  let k := tasks s t in
  match k_group k with
  | None => s
  | Some g =>
      let s1 := match k_cur k with
                | Some c => upd_scope s c (fun x => sc_tasks (del t (s_tasks x)) x)
                | None => s
                end in
      let s2 := upd_group s1 g (fun x => gr_tasks (del t (g_tasks x)) x) in
      let s3 := upd_task s2 t (fun x => tk_tdran true (tk_cur None x)) in
      let s4 := match g_fut (groups s3 g), g_tasks (groups s3 g) with
                | Some f, [] => fut_complete s3 f (FRes 0)
                | _, _ => s3
                end in
      let exc := match k_done k with
                 | Some (OExc e) => Some e
                 | Some (OCanc e) => Some e
                 | _ => None
                 end in
      let sf := k_startfut k in
      let sf_state := match sf with Some f => Some (f_st (futs s4 f)) | None => None end in
      match exc with
      | Some e =>
          match sf_state with
          | Some (FCanc _) =>
              if is_cancel e then s4 else
              let s5 := upd_group s4 g (fun x => gr_excs (g_excs x ++ [(t, e)]) x) in
              if eff_cancelled s5 (g_scope (groups s5 g)) then s5 else scope_cancel s5 (g_scope (groups s5 g)) false
          | Some FPend =>
              match sf with Some f => fut_complete s4 f (FExc e) | None => s4 end
          | _ =>
              let s5 := if is_cancel e then s4 else upd_group s4 g (fun x => gr_excs (g_excs x ++ [(t, e)]) x) in
              if eff_cancelled s5 (g_scope (groups s5 g)) then s5 else scope_cancel s5 (g_scope (groups s5 g)) false
          end
      | None =>
          match sf, sf_state with
          | Some f, Some FPend => fut_complete s4 f (FExc ERuntime)
          | _, _ => s4
          end
      end
  end.

Definition step_old23 (s : st) (o : op) : st * res :=
  match o with
  | ARun (HTaskDone t) =>
      if negb (existsb (handle_eqb (HTaskDone t)) (ready s)) then (s, RRejected)
      else (run_task_done_old (set_ready s (remove_first (HTaskDone t) (ready s))) t, RNone)
  | _ => step s o
  end.

(* F23 before the fix: the outer scope 1 around the group (scope 2) is cancelled; child B (task 3) fails with
   EErr 7 and its task_done callback runs: the group's scope is effectively cancelled through scope 1, so cancel() is
   not called on it; the host then shields the group's scope: the group with a failed child is active, not cancelled
   and not effectively cancelled any more - child A (task 2) and the body run on.  On the fixed machine the group's
   own scope is cancelled by the callback (the host is woken by that cancellation, so its set-shield op is refused
   until it has run). *)
Example failed_group_escapes_before_fix_refuted :
  exists ops,
    let s := final step_old23 init ops in
    g_excs (groups s 1) = [(3, EErr 7)] /\ g_scope (groups s 1) = 2 /\ s_active (scopes s 2) = true /\
    s_cancelled (scopes s 2) = false /\ eff_cancelled s 2 = false /\
    k_done (tasks s 2) = None /\ k_must (tasks s 2) = false /\
    (* the same run on the fixed machine *)
    s_cancelled (scopes (final step init ops) 2) = true /\ eff_cancelled (final step init ops) 2 = true.
Proof.
  exists [ANewRoot; ANewScope 1 None false; AEnter 1 1; AGroupNew 1; AGroupEnter 1 1; ASpawn 1 1; ASpawn 1 1;
          ARun (HStep 2); ANewScope 2 None true; AEnter 2 5; ASleep 2 None; ARun (HStep 3); ACancel 1 1;
          ARun (HWake 3 12); AHold 3 7; AFinish 3 0; ARun (HTaskDone 3); ASetShield 1 2 true].
  vm_compute. repeat split; reflexivity.
Qed.

(* non-vacuity of the theorems above on the fixed machine *)
Example ex_failed_group_stays_cancelled :
  let ops := [ANewRoot; ANewScope 1 None false; AEnter 1 1; AGroupNew 1; AGroupEnter 1 1; ASpawn 1 1; ASpawn 1 1;
              ARun (HStep 2); ANewScope 2 None true; AEnter 2 5; ASleep 2 None; ARun (HStep 3); ACancel 1 1;
              ARun (HWake 3 12); AHold 3 7; AFinish 3 0; ARun (HTaskDone 3); ARun (HWake 1 13);
              ASetShield 1 2 true] in
  let s := final step init ops in
  g_excs (groups s 1) = [(3, EErr 7)] /\ s_shield (scopes s 2) = true /\ s_active (scopes s 2) = true /\
  s_cancelled (scopes s 2) = true /\ eff_cancelled s 2 = true.
Proof. vm_compute. repeat split; reflexivity. Qed.

Example ex_body_failure_cancels_group :
  let s := final step init [ANewRoot; AGroupNew 1; AGroupEnter 1 1; ASpawn 1 1; AHold 1 9] in
  idle s 1 = true /\ k_held (tasks s 1) = Some (EErr 9) /\
  s_cancelled (scopes s 1) = false /\ s_cancelled (scopes (fst (step s (AGroupExit 1 1))) 1) = true.
Proof. vm_compute. repeat split; reflexivity. Qed.

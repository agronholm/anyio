(* Puppet operations, the end of a coroutine and the resumption of a suspended task preserve Inv. *)
From AV Require Import Base Machine GroupInv GroupInv2 GroupInv3 GroupInv4 GroupInv5 GroupInv6.

Lemma puppet_op_inv s0 t o : Inv s0 -> idle s0 t = true -> Inv (fst (puppet_op s0 t o)).
Proof.
  intros I0 Hi. pose proof (Run_begin s0 t I0 Hi) as R. unfold puppet_op.
  set (s := begin_act s0 t) in *. clearbody s.
  destruct o; try exact I0.
  - (* ANewScope *)
    rewrite new_scope_eq. apply Inv_ret, Run_new_scope, R.
  - (* AEnter *)
    pose proof (Run_scope_enter t s c R) as R1. destruct (scope_enter s c t) as [s1 e]. apply Inv_ret, R1.
  - (* AExit *)
    cbn zeta. pose proof (Run_scope_exit t s c (k_held (tasks s t)) R) as R1.
    destruct (scope_exit s c t (k_held (tasks s t))) as [s1 x]. cbn [fst] in R1.
    destruct x; try (apply Inv_ret, R1).
    match goal with |- context [if ?b then _ else _] => destruct b end;
      apply Inv_ret, Run_upd_task_irrel; auto using irrel_held.
  - (* ACancel *)
    apply Inv_ret, Run_scope_cancel, R.
  - (* ASetShield *)
    destruct (Bool.eqb (s_shield (scopes s c)) b); [apply Inv_ret, R|]. cbn zeta.
    pose proof (Run_keeps t s c _ (keeps_shield b) R) as R1.
    apply Inv_ret. destruct b; [exact R1|]. apply (Run_kstar_none t _ _ (ks_restart _ _ _ _)), R1.
  - (* ASetDeadline *)
    cbn zeta. apply Inv_ret.
    pose proof (Run_keeps t s c _ (keeps_deadline d) R) as R1.
    pose proof (Run_kstar_none t _ _ (ks_cancel_timeout _ _ _ c) R1) as R2.
    match goal with |- context [if ?b then _ else _] => destruct b end; [|exact R2].
    apply (Run_kstar_none t _ _ (ks_scope_timeout _ _ _ c)), R2.
  - (* AGroupNew *)
    rewrite new_scope_eq. cbn zeta. apply Inv_ret.
    destruct (Run_new_scope t s None false R) as [M [Hr Hf]].
    change (Run t (galloc (ns s None false) (nscope s))).
    refine (conj (M_galloc _ _ M _) (conj Hr Hf)). unfold ns, new_scope. cbn. lia.
  - (* AGroupEnter *)
    destruct (g_entered (groups s g)); [apply Inv_ret, R|]. cbn zeta.
    pose proof (Run_scope_enter t _ (g_scope (groups (upd_group s g (gr_entered true)) g)) (Run_gr_entered t s g true R)) as R1.
    destruct (scope_enter _ _ t) as [s2 e]. apply Inv_ret, R1.
  - (* AGroupExit *)
    cbn zeta.
    match goal with |- context [match g_tasks (groups ?x g) with _ => _ end] => set (s1 := x) end.
    assert (R1 : Run t s1).
    { unfold s1. destruct (k_held (tasks s t)) as [e|]; [|exact R].
      pose proof (Run_scope_cancel t s (g_scope (groups s g)) false R) as Rc.
      destruct (is_cancel e) eqn:Ec; [exact Rc|]. apply (Run_add_exc_body t _ g e Rc Ec). }
    destruct (g_tasks (groups s1 g)) as [|a l].
    + rewrite new_scope_eq. cbn zeta. destruct (Run_fresh_scope t s1 None true R1) as [R2 O].
      apply Inv_block_yield; auto; [reflexivity|].
      apply ctl_ok_simple; [reflexivity|intros x E; injection E as <-; exact O].
    + apply Inv_aexit_wof; auto. intros w E. discriminate.
  - (* ASpawn *)
    destruct (negb (group_active s g)); [apply Inv_ret, R|].
    rewrite spawn_task_eq. apply Inv_ret. apply (Run_spawn t s g None R I).
  - (* AStart *)
    destruct (negb (group_active s g)); [apply Inv_ret, R|].
    rewrite new_fut_eq. destruct (Run_new_fut t s R) as [R1 F]. rewrite spawn_task_eq.
    destruct (Run_spawn t (nf s) g (Some (nfut s)) R1 F) as [R2 [H1 [H2 [H3 [H4 H5]]]]].
    apply Inv_block_on; auto; [reflexivity|discriminate|].
    refine (conj _ (conj _ (conj _ _))); try discriminate.
    intros g0 ch f0 E. injection E as <- <- <-. auto.
  - (* AStarted *)
    destruct (k_startfut (tasks s t)) as [f|] eqn:Ef; [|apply Inv_ret, R].
    destruct (f_st (futs s f)); try (apply Inv_ret, R).
    apply Inv_ret, Run_fut_complete; auto; [discriminate| |].
    + right; right; left. eauto.
    + intros r e _ Hin. exfalso. destruct R as [M _]. exact (kk_es s (m_j s M) f e t Hin Ef).
  - (* AHandleCancel *)
    destruct (e_set _); apply Inv_ret; [exact R|apply Run_scope_cancel, R].
  - (* AHandleWait *)
    apply (Inv_event_wait s t _ (CHandleWait h)); auto; try reflexivity; try discriminate; (apply ctl_ok_simple; [reflexivity|discriminate]).
  - (* AYield *)
    apply Inv_block_yield; auto; [reflexivity|apply ctl_ok_simple; [reflexivity|discriminate]].
  - (* ACkIf *)
    destruct (ckif_spins _ _ _); [|apply Inv_ret, R].
    apply Inv_block_yield; auto; [reflexivity|apply ctl_ok_simple; [reflexivity|discriminate]].
  - (* AShieldCk *)
    rewrite new_scope_eq. cbn zeta. destruct (Run_fresh_scope t s None true R) as [R2 O].
    apply Inv_block_yield; auto; [reflexivity|].
    apply ctl_ok_simple; [reflexivity|intros x E; injection E as <-; exact O].
  - (* ASleep *)
    rewrite new_fut_eq. destruct (Run_new_fut t s R) as [R1 F]. destruct d as [dt|].
    + rewrite call_at_eq.
      apply Inv_block_on; [apply Run_casl; auto|exact (fresh_unwaited _ _ F)|reflexivity|discriminate|apply ctl_ok_simple; [reflexivity|discriminate]].
    + apply Inv_block_on; [exact R1|exact (fresh_unwaited _ _ F)|reflexivity|discriminate|apply ctl_ok_simple; [reflexivity|discriminate]].
  - (* AHold *) apply Inv_ret, Run_upd_task_irrel; [apply irrel_held|exact R].
  - (* ADrop *) apply Inv_ret, Run_upd_task_irrel; [apply irrel_held|exact R].
  - (* AWrap *) apply Inv_ret, Run_upd_task_irrel; [apply irrel_held|exact R].
  - (* AUncancel *) apply Inv_ret, Run_upd_task_irrel; [apply irrel_uncancel|exact R].
  - (* AEffDeadline *) cbn [fst]. apply Inv_park, R.
  - (* AFailAt *)
    rewrite new_scope_eq. pose proof (Run_scope_enter t _ (nscope s) (Run_new_scope t s d sh R)) as R1.
    destruct (scope_enter (ns s d sh) (nscope s) t) as [s2 e]. apply Inv_ret, R1.
Qed.

Lemma MR_scope_exit t s c exc : MInv s -> running s = Some t ->
  let s' := fst (scope_exit s c t exc) in
  MInv s' /\ running s' = Some t /\ forall x, tview (tasks s' x) = tview (tasks s x).
Proof.
  intros M Hr. cbn zeta. destruct (scope_exit_cases s c t exc) as [E|[Ha [Hh Hc]]].
  - rewrite E. auto.
  - pose proof (ks_scope_exit s c t exc) as KS. pose proof (kframe_kstar _ _ _ _ KS) as F.
    refine (conj _ (conj _ (fr_tv _ _ _ _ F))).
    + apply (M_kstar _ _ _ _ KS); [|exact M]. apply ksafe_exit; auto. apply M.
    + now rewrite (fr_running _ _ _ _ F).
Qed.

Lemma Inv_finish_task s t o : MInv s -> running s = Some t -> (forall e, o <> OCanc e) ->
  k_final (tasks s t) <> None -> Inv (finish_task s t o).
Proof.
  intros M Hr Ho Hf. split.
  - apply M_finish_task; auto. intros H. contradiction.
  - reflexivity.
Qed.

Lemma puppet_finish_inv s0 t v : Inv s0 -> idle s0 t = true -> Inv (fst (puppet_finish s0 t v)).
Proof.
  intros I0 Hi. destruct (Run_begin s0 t I0 Hi) as [M [Hr Hf]]. unfold puppet_finish.
  set (s := begin_act s0 t) in *. clearbody s.
  set (raw := match k_held (tasks s t) with Some e => OExc e | None => ORet v end).
  assert (Hraw : forall e, raw <> OCanc e) by (intros e; unfold raw; destruct (k_held (tasks s t)); discriminate).
  destruct (k_group (tasks s t)) as [g|] eqn:Eg.
  - change (upd_task (upd_task s t (tk_final (Some raw))) t _) with (rec_task s t raw).
    assert (Hg : k_group (tasks s t) <> None) by congruence.
    destruct (M_event_fire _ _ (M_record s t raw M Hr Hf Hg Hraw) (not_set_before_finish s t M Hf Hg))
      as [M3 [T3 [_ [_ [R3 _]]]]].
    set (s3 := event_set _ _) in *. clearbody s3.
    assert (Hr3 : running s3 = Some t) by (rewrite R3; exact Hr).
    assert (Hf3 : k_final (tasks s3 t) <> None).
    { rewrite T3, rec_task_same. destruct raw; cbn; discriminate. }
    destruct (MR_scope_exit t s3 (k_hscope (tasks s t)) (k_held (tasks s t)) M3 Hr3) as [M4 [Hr4 V4]].
    destruct (scope_exit s3 (k_hscope (tasks s t)) t (k_held (tasks s t))) as [s4 x]. cbn [fst] in *.
    assert (Hf4 : k_final (tasks s4 t) <> None).
    { pose proof (tview_inv _ _ (V4 t)) as V. destruct V as [_ [_ [_ [_ [_ [_ [_ [_ [_ [V _]]]]]]]]]]. now rewrite V. }
    destruct x; apply Inv_finish_task; auto; try discriminate.
    destruct (k_held (tasks s t)); discriminate.
  - cbn [fst]. apply Inv_finish_task; auto.
    + apply M_set_final_root; auto.
    + tcase t t; [cbn; discriminate|contradiction].
Qed.

Definition inc_rec (x : task) : task := tk_must false (k_msg x) (tk_waiter None x).

Definition incs (s0 : st) (t : tid) : st := set_running (upd_task s0 t inc_rec) (Some t).

Lemma incoming_fst s0 t fo : fst (incoming s0 t fo) = incs s0 t.
Proof. reflexivity. Qed.

Lemma incs_task_other s0 t x : x <> t -> tasks (incs s0 t) x = tasks s0 x.
Proof. intros Hx. unfold incs. tcase x t; [contradiction|reflexivity]. Qed.

Lemma incs_task_same s0 t : tasks (incs s0 t) t = inc_rec (tasks s0 t).
Proof. unfold incs. tcase t t; [reflexivity|contradiction]. Qed.

Lemma incs_cview s0 t x : cview (tasks (incs s0 t) x) = cview (tasks s0 x) /\
  k_cur (tasks (incs s0 t) x) = k_cur (tasks s0 x).
Proof.
  destruct (Nat.eq_dec x t) as [->|Hx]; [rewrite incs_task_same; auto|rewrite incs_task_other; auto].
Qed.

Record wake_ok (s0 : st) (t : tid) (fo : option fid) : Prop := {
  w_m : MInv s0; w_run : running s0 = None; w_nt : ~ In t (thtasks (ready s0));
  w_done : k_done (tasks s0 t) = None; w_al : alloc s0 t;
  w_fo : match fo with
         | None => k_waiter (tasks s0 t) = None
         | Some f => k_waiter (tasks s0 t) = Some f /\ f_st (futs s0 f) <> FPend /\ f_waiter (futs s0 f) = Some t
         end
}.

Lemma Run_incs s0 t fo : wake_ok s0 t fo -> Run t (incs s0 t).
Proof.
  intros [M Hr Hnt Hd Hal Hfo]. refine (conj _ (conj eq_refl _)).
  - apply M_start_running; auto.
    + repeat split.
    + intros f Hf. right. destruct fo as [f0|]; [|congruence]. destruct Hfo as [H1 [H2 _]].
      rewrite H1 in Hf. injection Hf as <-. exact H2.
  - destruct (incs_cview s0 t t) as [V _]. pose proof (cview_inv _ _ V) as V'.
    destruct V' as [_ [_ [_ [_ [_ [_ [_ [_ [-> _]]]]]]]]].
    destruct (k_final (tasks s0 t)) eqn:E; [|reflexivity]. exfalso.
    apply (h_fd s0 (m_c s0 M) t); [rewrite Hr; discriminate|congruence|exact Hd].
Qed.

Lemma owns_incs s0 t c : owns s0 t c -> owns (incs s0 t) t c.
Proof.
  intros [H1 [H2 [H3 H4]]]. unfold owns. destruct (incs_cview s0 t t) as [_ ->]. auto.
Qed.

Lemma Run_evdel t s e f : Run t s -> f_waiter (futs s f) = Some t -> Run t (evdel s e f).
Proof. intros [M [Hr Hf]] Hw. exact (conj (M_evdel s e f t M Hr Hw) (conj Hr Hf)). Qed.

Lemma Run_event_unwait t s e fo : Run t s -> (forall f, fo = Some f -> f_waiter (futs s f) = Some t) ->
  Run t (event_unwait s e fo).
Proof.
  intros R H. rewrite event_unwait_eq. destruct fo as [f|]; [|exact R]. apply Run_evdel; auto.
Qed.

(* the wait-future of the resumed task still points at it *)
Lemma wake_fwaiter s0 t fo f : wake_ok s0 t fo -> k_waiter (tasks s0 t) = Some f ->
  f_waiter (futs (incs s0 t) f) = Some t.
Proof.
  intros W Hw. change (futs (incs s0 t)) with (futs s0).
  apply (k_w1 s0 (m_k s0 (w_m _ _ _ W)) t f Hw).
Qed.

Lemma start_join_block s t child c e : Run t s -> owns s t c -> alloc s child -> k_group (tasks s child) <> None ->
  child <> t ->
  Inv (fst (let '(s4, wf) := event_wait s t (k_hevent (tasks s child)) in
            blocked (set_ctl s4 t (CStartJoin child c e wf)))).
Proof.
  intros R O Hal Hg Hne.
  assert (Ok : forall s' wf, owns s' t c -> alloc s' child -> k_group (tasks s' child) <> None ->
            (forall f, wf = Some f -> In f (e_waiters (events s' (k_hevent (tasks s' child))))) ->
            ctl_ok s' t (CStartJoin child c e wf)).
  { intros s' wf O' A' G' W'. refine (conj _ (conj _ (conj _ _))); try discriminate.
    - intros x E. injection E as <-. exact O'.
    - intros ch x e0 wf0 E. injection E as <- <- <- <-. exact (conj A' (conj G' (conj Hne W'))). }
  apply (Inv_event_wait s t _ (CStartJoin child c e)); auto; try reflexivity; try discriminate.
  - apply Ok; [exact O|exact Hal|exact Hg|discriminate].
  - apply Ok; [exact O|exact Hal|exact Hg|]. intros f E. injection E as <-. apply evadd_waiters. right. auto.
Qed.

Lemma incoming_none_cancel s0 t e : snd (incoming s0 t None) = Some e -> is_cancel e = true.
Proof.
  unfold incoming. cbn [snd]. destruct (k_must (tasks s0 t)); [|discriminate]. intros H. injection H as <-. reflexivity.
Qed.

Lemma Run_timer_cancel t s tm : Run t s -> Run t (timer_cancel s tm).
Proof. apply Run_kstar_none, ks_one, kp_tcancel. Qed.

Lemma resume_inv s0 t fo : wake_ok s0 t fo -> Inv (fst (resume s0 t fo)).
Proof.
  intros W. pose proof (Run_incs s0 t fo W) as R.
  assert (I0 : Inv s0) by (split; [apply W|apply W]).
  pose proof (w_m _ _ _ W) as M0.
  assert (Hnr : running s0 <> Some t) by (rewrite (w_run _ _ _ W); discriminate).
  pose proof (c_w s0 (m_c s0 M0) t Hnr) as Hcw.
  pose proof (fun c => c_top s0 (m_c s0 M0) t c Hnr) as Htop.
  pose proof (fun g ch f => c_sw s0 (m_c s0 M0) t g ch f Hnr) as Hsw.
  pose proof (fun ch c e wf => c_sj s0 (m_c s0 M0) t ch c e wf Hnr) as Hsj.
  unfold resume. destruct (incoming s0 t fo) as [s inc] eqn:Ei.
  assert (Es : s = incs s0 t) by (rewrite <- (incoming_fst s0 t fo), Ei; reflexivity).
  assert (Einc : inc = snd (incoming s0 t fo)) by (rewrite Ei; reflexivity).
  subst s.
  assert (Ec : k_ctl (tasks (incs s0 t) t) = k_ctl (tasks s0 t)).
  { destruct (incs_cview s0 t t) as [V _]. pose proof (cview_inv _ _ V). tauto. }
  rewrite Ec. destruct (k_ctl (tasks s0 t)) as [| |k|f tm|g ws exc|g c exc|g child f|child c e wf|h wf|] eqn:Ectl.
  - (* CNew *)
    destruct inc as [e|].
    + cbn [fst]. split; [|reflexivity]. apply M_finish_task.
      * apply M_upd_task_irrel; [apply irrel_started|apply R].
      * apply R.
      * discriminate.
      * intros _. exists e. split; [reflexivity|]. cbn in Hcw.
        destruct fo as [f|]; [destruct (w_fo _ _ _ W) as [H _]; congruence|].
        apply (incoming_none_cancel s0 t). now rewrite <- Einc.
    + cbn [fst]. apply Inv_park.
      pose proof (Run_upd_task_irrel t _ t _ (irrel_started true) R) as R1.
      destruct (k_group (tasks (upd_task (incs s0 t) t (tk_started true)) t)); [|exact R1].
      apply Run_scope_enter, R1.
  - (* CIdle *)
    cbn [fst]. apply Inv_park. destruct inc as [e|]; [|exact R]. apply Run_upd_task_irrel; [apply irrel_held|exact R].
  - (* CYield *)
    destruct k as [| |c].
    + apply Inv_ret, R.
    + destruct inc as [e|]; [apply Inv_ret, R|]. destruct (ckif_spins _ _ _); [|apply Inv_ret, R].
      destruct R as [M [Hr Hf]]. split; [|reflexivity].
      apply M_block_yield_same; auto; rewrite Ec; [reflexivity|apply ctl_ok_simple; [reflexivity|discriminate]].
    + pose proof (Run_scope_exit t _ c inc R) as R1.
      destruct (scope_exit (incs s0 t) c t inc) as [s1 x]. destruct x; apply Inv_ret, R1.
  - (* CSleep *)
    apply Inv_ret, Run_timer_cancel, R.
  - (* CAexitWait *)
    destruct (Htop ws eq_refl) as [O1 [O2 [O3 O4]]].
    assert (O : owns (incs s0 t) t ws) by (apply owns_incs; unfold owns; auto).
    pose proof (Run_gr_fut_none t _ g R) as R1.
    destruct inc as [e|].
    + cbn zeta. apply Inv_aexit_wof.
      * apply Run_scope_cancel, Run_keeps; [apply keeps_shield|exact R1].
      * intros w Ew. injection Ew as <-.
        apply (owns_kstar_none _ _ _ _ (ks_scope_cancel _ _ _ _ false)).
        apply (owns_kstar_none _ _ _ _ (ks_one _ _ _ _ (kp_scope_keeps _ _ _ ws _ (keeps_shield true)))). exact O.
    + apply Inv_aexit_wof; [exact R1|]. intros w Ew. injection Ew as <-. exact O.
  - (* CAexitCk *)
    pose proof (Run_scope_exit t _ c inc R) as R1.
    destruct (scope_exit (incs s0 t) c t inc) as [s1 x]. cbn [fst] in R1.
    assert (Hn : forall w, @None sid = Some w -> owns s1 t w) by (intros w Ew; discriminate).
    destruct x.
    + apply Inv_aexit_wof; auto.
    + destruct inc as [e|]; [|apply Inv_aexit_wof; auto].
      destruct (is_cancel e); [|apply Inv_ret_pair, Run_aexit_raise, R1].
      apply Inv_aexit_wof; [|intros w Ew; discriminate].
      apply Run_scope_cancel, R1.
    + apply Inv_ret_pair, Run_aexit_raise, R1.
  - (* CStartWait *)
    destruct inc as [e|]; [|apply Inv_ret, R].
    destruct (handle_pending (incs s0 t) child); [|destruct (f_st (futs (incs s0 t) _)); apply Inv_ret, R].
    destruct (Hsw g child f eq_refl) as [Hal [Hsf [Hg Hne]]].
    set (s1 := scope_cancel (incs s0 t) (k_hscope (tasks (incs s0 t) child)) false).
    assert (R1 : Run t s1) by (apply Run_scope_cancel, R).
    rewrite new_scope_eq. cbn zeta. destruct (Run_fresh_scope t s1 None true R1) as [R3 O3].
    set (s3 := fst (scope_enter (ns s1 None true) (nscope s1) t)) in *.
    assert (V3 : tview (tasks s3 child) = tview (tasks s0 child) /\ ntask s3 = ntask s0).
    { pose proof (kframe_kstar _ _ _ _ (ks_scope_enter (ns s1 None true) (nscope s1) t)) as F3. fold s3 in F3.
      pose proof (kframe_kstar _ _ _ _ (ks_scope_cancel none_s none_t (incs s0 t) (k_hscope (tasks (incs s0 t) child)) false)) as F1.
      fold s1 in F1. rewrite (fr_tv _ _ _ _ F3), (fr_ntask _ _ _ _ F3).
      change (tasks (ns s1 None true)) with (tasks s1). change (ntask (ns s1 None true)) with (ntask s1).
      rewrite (fr_tv _ _ _ _ F1), (fr_ntask _ _ _ _ F1), incs_task_other; auto. }
    destruct V3 as [V Hn]. apply start_join_block; auto.
    + unfold alloc. rewrite Hn. exact Hal.
    + pose proof (tview_inv _ _ V) as V'. destruct V' as [_ [_ [_ [-> _]]]]. congruence.
  - (* CStartJoin *)
    set (s1 := event_unwait (incs s0 t) (k_hevent (tasks (incs s0 t) child)) wf).
    assert (R1 : Run t s1).
    { apply Run_event_unwait; [exact R|]. intros f ->. cbn in Hcw. apply (wake_fwaiter s0 t fo f W Hcw). }
    pose proof (Run_scope_exit t s1 c inc R1) as R2.
    destruct (scope_exit s1 c t inc) as [s2 x]. cbn [fst] in R2.
    destruct x; [apply Inv_ret, R2|destruct inc; apply Inv_ret, R2|apply Inv_ret, R2].
  - (* CHandleWait *)
    apply Inv_ret. apply Run_event_unwait; [exact R|]. intros f ->. cbn in Hcw. apply (wake_fwaiter s0 t fo f W Hcw).
  - (* CDone *)
    exact I0.
Qed.

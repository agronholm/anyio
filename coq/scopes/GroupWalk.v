(* The walk through `Machine.step` that the Group files use, stated once for every preorder on states.
   The step of operation o from state s0 is a chain of primitive moves: a record update of the acting task, the
   completion of a future, an allocation, one of the cancel-scope procedures, ...  `moves R` asks that R relates
   the two ends of each primitive move, given the reason the machine has for making it; `walk_step` then gives
   R s0 (fst (step s0 o)).  Reasons speak of s0 and o, so that a relation may depend on them. *)
From AV Require Import Base Machine MachineFacts GroupInv GroupInv2 GroupInv3 GroupInv4 GroupInv5 GroupInv6 GroupInv7 GroupInv8
  GroupInv9.

Lemma reach_ind (P : st -> Prop) :
  P init -> (forall s o, reach s -> P s -> P (fst (step s o))) -> forall s, reach s -> P s.
Proof.
  intros P0 Ps s [ops ->]. induction ops as [|o ops IH] using rev_ind; [exact P0|].
  rewrite final_app. apply (Ps _ o); [now exists ops|exact IH].
Qed.

Lemma wake_ok_step s t : Inv s -> In (HStep t) (ready s) -> wake_ok (dequeue s (HStep t)) t None.
Proof.
  intros [M Hr] Hin. destruct (M_pop s (HStep t) M Hin) as [M1 [Hnt _]].
  destruct (k_step s (m_k s M) t Hin) as [H1 [H2 [H3 H4]]].
  constructor; auto. apply Hnt. cbn. auto.
Qed.

Lemma wake_ok_wake s t f : Inv s -> In (HWake t f) (ready s) -> wake_ok (dequeue s (HWake t f)) t (Some f).
Proof.
  intros [M Hr] Hin. destruct (M_pop s (HWake t f) M Hin) as [M1 [Hnt _]].
  destruct (k_wake s (m_k s M) t f Hin) as [H1 H2]. destruct (k_w1 s (m_k s M) t f H1) as [H3 [H4 [H5 [H6 H7]]]].
  constructor; auto. apply Hnt. cbn. auto.
Qed.

Lemma incs_ctl s0 t : k_ctl (tasks (incs s0 t) t) = k_ctl (tasks s0 t).
Proof. rewrite incs_task_same. reflexivity. Qed.

(* what an interrupted start() re-raises when it does not join the child: the exception the child handed to the
   start future, if any, takes precedence over the interruption (F20) *)
Definition start_exc (s : st) (f : fid) (e : exn) : exn :=
  match f_st (futs s f) with FExc e' => e' | _ => e end.

Lemma resume_unfold s0 t fo :
  resume s0 t fo =
  let s := incs s0 t in let inc := snd (incoming s0 t fo) in
  match k_ctl (tasks s0 t) with
  | CNew =>
      let s1 := upd_task s t (tk_started true) in
      match inc with
      | Some e => (finish_task s1 t (OExc e), RNone)
      | None =>
          let s2 := match k_group (tasks s1 t) with
                    | Some _ => fst (scope_enter s1 (k_hscope (tasks s1 t)) t)
                    | None => s1
                    end in
          (set_running (park s2 t) None, RNone)
      end
  | CIdle =>
      let s1 := match inc with Some e => upd_task s t (tk_held (Some e)) | None => s end in
      (set_running (park s1 t) None, res_of_inc inc)
  | CYield YCheckpoint => ret_to_puppet s t (res_of_inc inc)
  | CYield YCkIf =>
      match inc with
      | Some e => ret_to_puppet s t (RExc e)
      | None => if ckif_spins (nscope s) s (k_cur (tasks s t)) then blocked (bare_yield s t)
                else ret_to_puppet s t (RRet 0)
      end
  | CYield (YShield c) =>
      let '(s1, x) := scope_exit s c t inc in
      match x with
      | XRaise e => ret_to_puppet s1 t (RExc e)
      | XTrue => ret_to_puppet s1 t (RRet 0)
      | XFalse => ret_to_puppet s1 t (res_of_inc inc)
      end
  | CSleep f tm => ret_to_puppet (timer_cancel s tm) t (res_of_inc inc)
  | CAexitWait g ws exc =>
      let s1 := upd_group s g (gr_fut None) in
      match inc with
      | None => aexit_wait_or_finish s1 t g (Some ws) exc
      | Some e =>
          let s2 := upd_scope s1 ws (sc_shield true) in
          let s3 := scope_cancel s2 (g_scope (groups s2 g)) false in
          let exc' := match exc with
                      | None => Some e
                      | Some old => if is_cancel old && negb (is_anyio_cancel e) then Some e else Some old
                      end in
          aexit_wait_or_finish s3 t g (Some ws) exc'
      end
  | CAexitCk g c exc =>
      let '(s1, x) := scope_exit s c t inc in
      match x, inc with
      | XRaise e, _ => let '(s2, r) := aexit_raise s1 t g e in ret_to_puppet s2 t r
      | XTrue, _ => aexit_wait_or_finish s1 t g None exc
      | XFalse, Some e =>
          if is_cancel e then
            let s2 := scope_cancel s1 (g_scope (groups s1 g)) false in
            let exc' := match exc with
                        | None => Some e
                        | Some old => if is_cancel old && negb (is_anyio_cancel e) then Some e else Some old
                        end in
            aexit_wait_or_finish s2 t g None exc'
          else let '(s2, r) := aexit_raise s1 t g e in ret_to_puppet s2 t r
      | XFalse, None => aexit_wait_or_finish s1 t g None exc
      end
  | CStartWait g child f =>
      match inc with
      | None => ret_to_puppet s t (RRet (fut_value s f))
      | Some e =>
          if handle_pending s child then
            let s1 := scope_cancel s (k_hscope (tasks s child)) false in
            let '(s2, c) := new_scope s1 None true in
            let s3 := fst (scope_enter s2 c t) in
            let '(s4, wf) := event_wait s3 t (k_hevent (tasks s3 child)) in
            blocked (set_ctl s4 t (CStartJoin child c e wf))
          else ret_to_puppet s t (RExc (start_exc s f e))
      end
  | CStartJoin child c e wf =>
      let s1 := event_unwait s (k_hevent (tasks s child)) wf in
      let '(s2, x) := scope_exit s1 c t inc in
      match x, inc with
      | XRaise e', _ => ret_to_puppet s2 t (RExc e')
      | XTrue, _ => ret_to_puppet s2 t (RExc e)
      | XFalse, Some e2 => ret_to_puppet s2 t (RExc e2)
      | XFalse, None => ret_to_puppet s2 t (RExc e)
      end
  | CHandleWait h wf =>
      ret_to_puppet (event_unwait s (k_hevent (tasks s h)) wf) t (res_of_inc inc)
  | CDone => (s0, RRejected)
  end.
Proof.
  unfold resume. destruct (incoming s0 t fo) as [s inc] eqn:Ei.
  assert (Es : s = incs s0 t) by (rewrite <- (incoming_fst s0 t fo), Ei; reflexivity).
  cbn [snd]. subst s. cbn zeta. rewrite incs_ctl.
  destruct (k_ctl (tasks s0 t)) as [| |k|f tm|g ws exc|g c exc|g child f|child c e wf|h wf|]; try reflexivity.
  destruct inc as [e|]; [|reflexivity].
  destruct (handle_pending (incs s0 t) child); [reflexivity|].
  unfold start_exc. destruct (f_st (futs (incs s0 t) f)); reflexivity.
Qed.

Lemma step_not_idle s o t : actor o = Some t -> idle s t = false -> fst (step s o) = s.
Proof. intros Ha Hi. now rewrite (step_busy s o t Ha Hi). Qed.

Lemma step_run_in s h : In h (ready s) -> step s (ARun h) =
  match h with
  | HStep t => resume (dequeue s h) t None
  | HWake t f => resume (dequeue s h) t (Some f)
  | HDeliver c => (set_running (deliver_top (set_running (dequeue s h) None) c) None, RNone)
  | HTaskDone t => (run_task_done (dequeue s h) t, RNone)
  | HSleepDone f _ => (fut_complete (dequeue s h) f (FRes 0), RNone)
  | HTimeout c _ => (set_running (scope_timeout (set_running (dequeue s h) None) c) None, RNone)
  end.
Proof. exact (run_handle_in s h). Qed.

Lemma step_run_notin s h : ~ In h (ready s) -> step s (ARun h) = (s, RRejected).
Proof. exact (run_handle_out s h). Qed.

Lemma in_dec_handle (h : handle) l : In h l \/ ~ In h l.
Proof.
  destruct (existsb (handle_eqb h) l) eqn:E; [left; apply existsb_handle, E|right].
  intros H. apply existsb_handle in H. congruence.
Qed.

Lemma step_resumes s h t : reach s -> In h (ready s) -> (h = HStep t \/ exists f, h = HWake t f) ->
  exists fo, wake_ok (dequeue s h) t fo /\ step s (ARun h) = resume (dequeue s h) t fo.
Proof.
  intros R Hin Hh. pose proof (reachable s R) as I0.
  destruct Hh as [->|[f ->]]; [exists None|exists (Some f)]; (split; [|apply (step_run_in s _ Hin)]);
    [now apply wake_ok_step|now apply wake_ok_wake].
Qed.

Definition group_op (o : op) : bool :=
  match o with
  | AGroupNew _ | AGroupEnter _ _ | AGroupExit _ _ | ASpawn _ _ | AStart _ _ => true
  | _ => false
  end.

Definition aexit_ctl (c : ctl) : bool :=
  match c with CAexitWait _ _ _ | CAexitCk _ _ _ => true | _ => false end.

(* every operation except the group operations, task_done callbacks and the resumption of a task inside
   __aexit__ leaves the group table alone *)
Definition touches_groups (s : st) (o : op) : bool :=
  match o with
  | ARun (HTaskDone _) => true
  | ARun (HStep t) | ARun (HWake t _) => aexit_ctl (k_ctl (tasks s t))
  | _ => group_op o
  end.

(* the scopes that operation o, issued in s, enters by name (fresh scopes are entered besides) *)
Definition entered (s : st) (o : op) : sid -> Prop :=
  match o with
  | AEnter _ c => eq c
  | AGroupEnter _ g => eq (g_scope (groups s g))
  | ARun (HStep t) | ARun (HWake t _) =>
      match k_ctl (tasks s t), k_group (tasks s t) with
      | CNew, Some _ => eq (k_hscope (tasks s t))
      | _, _ => none_s
      end
  | _ => none_s
  end.

(* a is the task whose record the step writes: the caller of a puppet operation, the task a resumption or a
   task_done callback is about, the task a new root becomes *)
Definition acts (s : st) (o : op) (a : tid) : Prop :=
  match o with
  | ANewRoot => a = ntask s
  | ARun (HStep t) | ARun (HWake t _) | ARun (HTaskDone t) => a = t
  | _ => match actor o with Some t => a = t | None => True end
  end.

Section Walk.
Variables (s0 : st) (o : op) (a : tid).

(* only __aexit__ puts its caller into one of its own control states *)
Definition ax_op : Prop := (exists t g, o = AGroupExit t g) \/ aexit_ctl (k_ctl (tasks s0 a)) = true.

(* updates of the acting task's record; at most one future is allocated in a step, so the future a task
   suspends on is nfut s0 *)
Inductive tk_why (s : st) : (task -> task) -> Prop :=
| tw_ctl c : (aexit_ctl c = true -> ax_op) -> tk_why s (tk_ctl c)
| tw_unwait : tk_why s (tk_waiter None)
| tw_wait : tk_why s (tk_waiter (Some (nfut s0)))
| tw_must m : tk_why s (tk_must false m)
| tw_held h : tk_why s (tk_held h)
| tw_started : tk_why s (tk_started true)
| tw_uncancel : tk_why s (fun k => tk_ncancel (pred (k_ncancel k)) k)
| tw_inc : tk_why s inc_rec
| tw_final raw : (Inv s0 -> k_final (tasks s a) = None) -> tk_why s (tk_final (Some raw))
| tw_hres raw : tk_why s (hres_of raw)
| tw_fin d : (Inv s0 -> k_done (tasks s a) = None) -> tk_why s (fin_rec d)
| tw_td : tk_why s td_rec.

Inductive fc_why (f : fid) : fstate -> Prop :=
| fw_started t v : o = AStarted t v -> k_startfut (tasks s0 t) = Some f -> fc_why f (FRes v)
| fw_finished t v : o = AFinish t v -> In f (e_waiters (events s0 (k_hevent (tasks s0 t)))) -> fc_why f (FRes 1)
| fw_slept tm : o = ARun (HSleepDone f tm) -> fc_why f (FRes 0)
| fw_joined t g : o = ARun (HTaskDone t) -> k_group (tasks s0 t) = Some g -> g_fut (groups s0 g) = Some f ->
                  fc_why f (FRes 0)
| fw_start_failed t e : o = ARun (HTaskDone t) -> k_startfut (tasks s0 t) = Some f -> fc_why f (FExc e)
| fw_must m : f = nfut s0 -> fc_why f (FCanc m).

Inductive new_why : task -> bool -> Prop :=
| nw_root : o = ANewRoot -> new_why root_rec false
| nw_child gs g e sf : (sf = None \/ sf = Some (nfut s0)) -> new_why (child_rec gs g (nscope s0) e sf) true.

Inductive cancel_why (s : st) (c : sid) : Prop :=
| cw_op : (exists t, o = ACancel t c) \/ o = AExtCancel c -> cancel_why s c
| cw_group g : c = g_scope (groups s g) -> cancel_why s c
| cw_handle x : c = k_hscope (tasks s x) -> cancel_why s c.

(* allocations and the tables the cancel-scope machinery does not read *)
Inductive book (s : st) : st -> Prop :=
| bk_wait : book s (upd_fut s (nfut s0) (fun x => mkFut (f_st x) (Some a)))
| bk_nf : book s (nf s)
| bk_ns d sh : book s (ns s d sh)
| bk_galloc t : o = AGroupNew t -> book s (galloc s (nscope s0))
| bk_group g h : touches_groups s0 o = true -> (forall y, g_scope (h y) = g_scope y) -> book s (upd_group s g h)
| bk_event e h : book s (upd_event s e h)
| bk_ready l : book s (set_ready s l)
| bk_running r : book s (set_running s r)
| bk_casl w f : book s (casl s w f)
| bk_tick dt : book s (tick s dt).

(* the cancel-scope procedures, and the scope records they work on *)
Inductive scoped (s : st) : st -> Prop :=
| sm_enter c : entered s0 o c -> scoped s (fst (scope_enter s c a))
| sm_fresh_enter d sh : scoped s (fst (scope_enter (ns s d sh) (nscope s) a))
| sm_exit c exc : scoped s (fst (scope_exit s c a exc))
| sm_cancel c : cancel_why s c -> scoped s (scope_cancel s c false)
| sm_restart x : scoped s (restart s x)
| sm_shield c b : (b = false -> exists t, o = ASetShield t c false) -> scoped s (upd_scope s c (sc_shield b))
| sm_deadline t c d : o = ASetDeadline t c d -> scoped s (upd_scope s c (sc_deadline d))
| sm_cancel_timeout c : scoped s (cancel_timeout s c)
| sm_scope_timeout c : scoped s (scope_timeout s c)
| sm_deliver c : o = ARun (HDeliver c) -> scoped s (deliver_top s c)
| sm_task_cancel t : o = ANativeCancel t -> scoped s (task_cancel s t 0)
| sm_timer_cancel tm : scoped s (timer_cancel s tm)
| sm_del c t : scoped s (upd_scope s c (fun x => sc_tasks (del t (s_tasks x)) x))
| sm_add c : scoped s (upd_scope s c (fun x => sc_tasks (add (ntask s0) (s_tasks x)) x)).

Lemma scoped_nfut s s' : scoped s s' -> nfut s' = nfut s.
Proof.
  assert (K : forall C T x y, kstar C T x y -> nfut y = nfut x).
  { intros C T x y H. apply (fr_nfut _ _ _ _ (kframe_kstar _ _ _ _ H)). }
  intros []; try reflexivity.
  - apply (K _ _ _ _ (ks_scope_enter s c a)).
  - apply (K _ _ _ _ (ks_scope_enter (ns s d sh) (nscope s) a)).
  - apply (K _ _ _ _ (ks_scope_exit s c a exc)).
  - apply (K _ _ _ _ (ks_scope_cancel none_s none_t s c false)).
  - apply (K _ _ _ _ (ks_restart none_s none_t s x)).
  - apply (K _ _ _ _ (ks_cancel_timeout none_s none_t s c)).
  - apply (K _ _ _ _ (ks_scope_timeout none_s none_t s c)).
  - apply (K _ _ _ _ (ks_deliver_top none_s none_t s c)).
  - apply (K _ _ _ _ (ks_one _ _ _ _ (kp_cancel none_s none_t s t 0))).
Qed.

Set Implicit Arguments.
Record moves (R : st -> st -> Prop) : Prop := {
  m_refl : forall s, R s s;
  m_trans : forall s1 s2 s3, R s1 s2 -> R s2 s3 -> R s1 s3;
  m_task : forall s g, tk_why s g -> R s (upd_task s a g);
  m_fc : forall s f x, fc_why f x -> R s (fut_complete s f x);
  m_talloc : forall s k ev, new_why k ev -> R s (talloc s k ev);
  m_book : forall s s', book s s' -> R s s';
  m_scoped : forall s s', scoped s s' -> R s s'
}.
Unset Implicit Arguments.

(* a relation that contains every chain of primitive cancel-scope moves needs no reason for them *)
Lemma moves_kstar (R : st -> st -> Prop) :
  (forall s, R s s) -> (forall s1 s2 s3, R s1 s2 -> R s2 s3 -> R s1 s3) ->
  (forall C T s s', kstar C T s s' -> R s s') ->
  (forall s g, tk_why s g -> R s (upd_task s a g)) ->
  (forall s f x, fc_why f x -> R s (fut_complete s f x)) ->
  (forall s k ev, new_why k ev -> R s (talloc s k ev)) ->
  (forall s s', book s s' -> R s s') -> moves R.
Proof.
  intros Rr Rt Rk Rtk Rfc Rn Rb. constructor; auto. intros s s' [].
  - apply (Rk _ _ _ _ (ks_scope_enter s c a)).
  - eapply Rt; [apply Rb, (bk_ns s d sh)|apply (Rk _ _ _ _ (ks_scope_enter (ns s d sh) (nscope s) a))].
  - apply (Rk _ _ _ _ (ks_scope_exit s c a exc)).
  - apply (Rk _ _ _ _ (ks_scope_cancel none_s none_t s c false)).
  - apply (Rk _ _ _ _ (ks_restart none_s none_t s x)).
  - apply (Rk none_s none_t), ks_one, kp_scope_keeps, keeps_shield.
  - apply (Rk none_s none_t), ks_one, kp_scope_keeps, keeps_deadline.
  - apply (Rk _ _ _ _ (ks_cancel_timeout none_s none_t s c)).
  - apply (Rk _ _ _ _ (ks_scope_timeout none_s none_t s c)).
  - apply (Rk _ _ _ _ (ks_deliver_top none_s none_t s c)).
  - apply (Rk _ _ _ _ (ks_one _ _ _ _ (kp_cancel none_s none_t s t 0))).
  - apply (Rk _ _ _ _ (ks_one _ _ _ _ (kp_tcancel none_s none_t s tm))).
  - apply (Rk none_s none_t), ks_one, kp_scope_keeps, (keeps_tasks (fun x => del t (s_tasks x))).
  - apply (Rk none_s none_t), ks_one, kp_scope_keeps, (keeps_tasks (fun x => add (ntask s0) (s_tasks x))).
Qed.
End Walk.

Lemma tasks_event_set s e : tasks (event_set s e) = tasks s.
Proof.
  rewrite event_set_eq. destruct (e_set (events s e)); [reflexivity|].
  assert (H : forall l x, tasks (fold_left (fun x f => fut_complete x f (FRes 1)) l x) = tasks x).
  { induction l as [|f l IH]; intros x; cbn [fold_left]; [reflexivity|]. now rewrite IH, fc_tasks. }
  now rewrite H.
Qed.

Section Steps.
Variables (s0 : st) (o : op) (a : tid) (R : st -> st -> Prop).
Hypothesis M : moves s0 o a R.

(* s is reached from s0, and n is its future counter: nfut s0 until the one allocation of the step *)
Definition Reached (n : nat) (s : st) : Prop := R s0 s /\ nfut s = n.

Lemma W_step n s s' : R s s' -> nfut s' = nfut s -> Reached n s -> Reached n s'.
Proof. intros H E [H0 En]. split; [exact (m_trans M _ _ _ H0 H)|now rewrite E]. Qed.

Lemma W_R n s : Reached n s -> R s0 s.
Proof. intros [H _]. exact H. Qed.

Lemma W_start : Reached (nfut s0) s0.
Proof. split; [apply (m_refl M)|reflexivity]. Qed.

Lemma W_task n s g : tk_why s0 o a s g -> Reached n s -> Reached n (upd_task s a g).
Proof. intros Hg. apply W_step; [exact (m_task M Hg)|reflexivity]. Qed.

Lemma W_fc n s f x : fc_why s0 o f x -> Reached n s -> Reached n (fut_complete s f x).
Proof. intros Hf. apply W_step; [exact (m_fc M s Hf)|apply fc_nfut]. Qed.

Lemma W_book n s s' : book s0 o a s s' -> nfut s' = nfut s -> Reached n s -> Reached n s'.
Proof. intros H. apply W_step, (m_book M), H. Qed.

Lemma W_scoped n s s' : scoped s0 o a s s' -> Reached n s -> Reached n s'.
Proof. intros H. apply W_step; [exact (m_scoped M H)|exact (scoped_nfut _ _ _ _ _ H)]. Qed.

Lemma W_ns n s d sh : Reached n s -> Reached n (ns s d sh).
Proof. apply W_book; [apply bk_ns|reflexivity]. Qed.

Lemma W_group n s g h : touches_groups s0 o = true -> (forall y, g_scope (h y) = g_scope y) -> Reached n s -> Reached n (upd_group s g h).
Proof. intros Ht Hh. apply W_book; [now apply bk_group|reflexivity]. Qed.

Lemma W_event n s e h : Reached n s -> Reached n (upd_event s e h).
Proof. apply W_book; [apply bk_event|reflexivity]. Qed.

Lemma W_ready n s l : Reached n s -> Reached n (set_ready s l).
Proof. apply W_book; [apply bk_ready|reflexivity]. Qed.

Lemma W_running n s r : Reached n s -> Reached n (set_running s r).
Proof. apply W_book; [apply bk_running|reflexivity]. Qed.

Lemma W_enter n s c : entered s0 o c -> Reached n s -> Reached n (fst (scope_enter s c a)).
Proof. intros Hc. apply W_scoped, sm_enter, Hc. Qed.

Lemma W_fresh_enter n s d sh : Reached n s -> Reached n (fst (scope_enter (ns s d sh) (nscope s) a)).
Proof. apply W_scoped, sm_fresh_enter. Qed.

Lemma W_exit n s c exc : Reached n s -> Reached n (fst (scope_exit s c a exc)).
Proof. apply W_scoped, sm_exit. Qed.

Lemma W_cancel n s c : cancel_why o s c -> Reached n s -> Reached n (scope_cancel s c false).
Proof. intros Hc. apply W_scoped, sm_cancel, Hc. Qed.

Lemma W_restart n s x : Reached n s -> Reached n (restart s x).
Proof. apply W_scoped, sm_restart. Qed.

Lemma W_suspend n s : Reached n s -> Reached n (suspend_on s a (nfut s0)).
Proof.
  intros H. unfold suspend_on.
  assert (A : Reached n (upd_task (upd_fut s (nfut s0) (fun x => mkFut (f_st x) (Some a))) a (tk_waiter (Some (nfut s0))))).
  { apply W_task; [apply tw_wait|]. revert H. apply W_book; [apply bk_wait|reflexivity]. }
  destruct (f_st (futs s (nfut s0))); [|apply W_ready, A..].
  destruct (k_must (tasks s a)); [|exact A]. apply W_task; [apply tw_must|]. apply W_fc; [now apply fw_must|exact A].
Qed.

Lemma W_nf s : Reached (nfut s0) s -> Reached (S (nfut s0)) (nf s) /\ nfut s = nfut s0.
Proof. intros [H E]. split; [split; [exact (m_trans M _ _ _ H (m_book M (bk_nf _ _ _ s)))|cbn; now rewrite E]|exact E]. Qed.

Lemma W_park s : Reached (nfut s0) s -> Reached (S (nfut s0)) (park s a).
Proof.
  intros H. destruct (W_nf s H) as [H1 E]. unfold park. rewrite new_fut_eq, E.
  apply W_task; [apply tw_ctl; discriminate|]. apply W_suspend, H1.
Qed.

Lemma R_parked s r : Reached (nfut s0) s -> R s0 (set_running (park s a) r).
Proof. intros H. apply (W_R (S (nfut s0))), W_running, W_park, H. Qed.

Lemma R_ret s r : Reached (nfut s0) s -> R s0 (fst (ret_to_puppet s a r)).
Proof.
  intros H. unfold ret_to_puppet. cbn [fst]. apply R_parked. destruct r; try exact H. apply W_task; [apply tw_held|exact H].
Qed.

Lemma R_ret_pair (p : st * res) : Reached (nfut s0) (fst p) -> R s0 (fst (let '(s2, r) := p in ret_to_puppet s2 a r)).
Proof. destruct p as [s2 r]. apply R_ret. Qed.

Lemma R_block_ax n s c : (aexit_ctl c = true -> ax_op s0 o a) -> Reached n s -> R s0 (fst (blocked (set_ctl s a c))).
Proof. intros Hc H. apply (W_R n), W_running, W_task; [now apply tw_ctl|exact H]. Qed.

Lemma R_block n s c : aexit_ctl c = false -> Reached n s -> R s0 (fst (blocked (set_ctl s a c))).
Proof. intros Hc. apply R_block_ax. congruence. Qed.

Lemma W_yield n s : Reached n s -> Reached n (bare_yield s a).
Proof. apply W_ready. Qed.

Section Aexit.
Hypothesis TG : touches_groups s0 o = true.
Hypothesis AX : ax_op s0 o a.

Lemma W_aexit_raise n s g e : Reached n s -> Reached n (fst (aexit_raise s a g e)).
Proof.
  intros H. unfold aexit_raise. pose proof (W_exit n s (g_scope (groups s g)) (Some e) H) as H1.
  destruct (scope_exit s (g_scope (groups s g)) a (Some e)) as [s1 x]. cbn [fst] in H1.
  assert (H2 : Reached n (upd_group s1 g (gr_left true))) by (apply W_group; auto).
  destruct x; cbn [fst]; [|exact H2..]. apply W_task; [apply tw_held|exact H2].
Qed.

Lemma W_aexit_finish n s g exc : Reached n s -> Reached n (fst (aexit_finish s a g exc)).
Proof.
  intros H. unfold aexit_finish. destruct (map snd (g_excs (groups s g))); [|now apply W_aexit_raise].
  destruct exc; [now apply W_aexit_raise|].
  pose proof (W_exit n s (g_scope (groups s g)) None H) as H1.
  destruct (scope_exit s (g_scope (groups s g)) a None) as [s1 x]. cbn [fst] in H1.
  destruct x; cbn [fst]; apply W_group; auto.
Qed.

Lemma R_wof s g ws exc : Reached (nfut s0) s -> R s0 (fst (aexit_wait_or_finish s a g ws exc)).
Proof.
  intros H. unfold aexit_wait_or_finish. destruct (g_tasks (groups s g)).
  - destruct ws as [w|]; [|now apply R_ret_pair, W_aexit_finish].
    pose proof (W_exit _ s w None H) as H1. destruct (scope_exit s w a None) as [s1 x]. cbn [fst] in H1.
    destruct x; apply R_ret_pair; now first [apply W_aexit_finish|apply W_aexit_raise].
  - assert (Hb : forall s1 w, Reached (nfut s0) s1 ->
      R s0 (fst (let '(s2, f) := new_fut s1 in
                 blocked (set_ctl (suspend_on (upd_group s2 g (gr_fut (Some f))) a f) a (CAexitWait g w exc))))).
    { intros s1 w H1. destruct (W_nf s1 H1) as [H2 E]. rewrite new_fut_eq, E.
      apply (R_block_ax (S (nfut s0))); [auto|]. apply W_suspend, W_group; auto. }
    destruct ws as [w|]; [now apply Hb|]. rewrite new_scope_eq. cbn [fst]. now apply Hb, W_fresh_enter.
Qed.
End Aexit.
Lemma W_begin : Reached (nfut s0) (begin_act s0 a).
Proof. unfold begin_act. apply W_running, W_task; [apply tw_unwait|apply W_start]. Qed.

Lemma W_spawned n s g sf : group_op o = true -> ntask s = ntask s0 -> nscope s = nscope s0 ->
  sf = None \/ sf = Some (nfut s0) -> Reached n s -> Reached n (spawned s g sf).
Proof.
  intros Ho Et Ec Hsf H. assert (TG : touches_groups s0 o = true) by (destruct o; try discriminate Ho; reflexivity).
  rewrite spawned_eq. cbn zeta. rewrite Et, Ec. apply W_ready, W_restart, W_group; [exact TG|reflexivity|].
  generalize (g_scope (groups s g)) as gs. intros gs.
  assert (H2 : Reached n (talloc (ns s None false) (child_rec gs g (nscope s0) (nevent s) sf) true)).
  { generalize (W_ns n s None false H). apply W_step; [|reflexivity]. apply (m_talloc M). now apply nw_child. }
  revert H2. apply W_scoped, sm_add.
Qed.

Lemma startfut_begin s t : k_startfut (tasks (begin_act s t) t) = k_startfut (tasks s t).
Proof. unfold begin_act. tcase t t; [reflexivity|contradiction]. Qed.

Lemma R_puppet_op o' : o = o' -> actor o' = Some a -> R s0 (fst (puppet_op s0 a o')).
Proof.
  intros Eo Ha. unfold puppet_op. pose proof W_begin as B. pose proof (startfut_begin s0 a) as Esf.
  set (s := begin_act s0 a) in *. set (N := nfut s0) in *.
  destruct o'; try (cbn [fst]; apply (m_refl M)); cbn [actor] in Ha; injection Ha as ->.
  - rewrite new_scope_eq. apply R_ret, W_ns, B.
  - assert (He : entered s0 o c) by (rewrite Eo; reflexivity).
    pose proof (W_enter N s c He B) as H. destruct (scope_enter s c a) as [s1 e]. apply R_ret, H.
  - pose proof (W_exit N s c (k_held (tasks s a)) B) as H.
    destruct (scope_exit s c a (k_held (tasks s a))) as [s1 x]. cbn [fst] in H.
    destruct x; [|apply R_ret, H..].
    assert (H2 : Reached N (upd_task s1 a (tk_held None))) by (apply W_task; [apply tw_held|exact H]).
    destruct (_ && _); apply R_ret, H2.
  - apply R_ret, W_cancel; [apply cw_op; left; now exists a|exact B].
  - destruct (Bool.eqb (s_shield (scopes s c)) b); [apply R_ret, B|]. cbn zeta. apply R_ret.
    assert (H1 : Reached N (upd_scope s c (sc_shield b))).
    { revert B. apply W_scoped, sm_shield. intros ->. now exists a. }
    destruct b; [exact H1|apply W_restart, H1].
  - cbn zeta. apply R_ret.
    assert (H1 : Reached N (cancel_timeout (upd_scope s c (sc_deadline d)) c)).
    { apply (W_scoped _ _ _ (sm_cancel_timeout _ _ _ _ c)). revert B. apply W_scoped, (sm_deadline _ _ _ _ _ _ _ Eo). }
    destruct (_ && _); [|exact H1]. revert H1. apply W_scoped, sm_scope_timeout.
  - rewrite new_scope_eq. cbn zeta. change (nscope s) with (nscope s0). apply R_ret. generalize (W_ns N s None false B).
    apply W_book; [apply (bk_galloc _ _ _ _ a Eo)|reflexivity].
  - destruct (g_entered (groups s g)); [apply R_ret, B|]. cbn zeta.
    assert (H1 : Reached N (upd_group s g (gr_entered true))) by (apply W_group; [rewrite Eo|..]; auto).
    match goal with |- context [scope_enter ?x ?c a] => pose proof (W_enter N x c) as H; destruct (scope_enter x c a) as [s2 e] end.
    apply R_ret, H; [|exact H1]. rewrite Eo. cbn [entered upd_group set_groups groups]. now rewrite upd_same.
  - assert (TG : touches_groups s0 o = true) by (rewrite Eo; reflexivity).
    assert (AX : ax_op s0 o a) by (left; now exists a, g).
    cbn zeta. match goal with |- context [match g_tasks (groups ?x g) with _ => _ end] => set (s1 := x) end.
    assert (H1 : Reached N s1).
    { unfold s1. destruct (k_held (tasks s a)) as [e|]; [|exact B].
      assert (Hc : Reached N (scope_cancel s (g_scope (groups s g)) false)) by (apply W_cancel; [now apply (cw_group _ _ _ g)|exact B]).
      destruct (is_cancel e); [exact Hc|]. apply W_group; auto. }
    destruct (g_tasks (groups s1 g)); [|now apply R_wof].
    rewrite new_scope_eq. cbn zeta. apply (R_block_ax N); [intros _; exact AX|]. apply W_yield, W_fresh_enter, H1.
  - destruct (negb (group_active s g)); [apply R_ret, B|]. rewrite spawn_task_eq. apply R_ret, W_spawned; auto. now rewrite Eo.
  - destruct (negb (group_active s g)); [apply R_ret, B|]. rewrite new_fut_eq. cbv beta iota.
    rewrite spawn_task_eq. cbv beta iota. destruct (W_nf s B) as [H1 E]. rewrite E.
    apply (R_block (S N)); [reflexivity|]; apply W_suspend, W_spawned; auto. now rewrite Eo.
  - destruct (k_startfut (tasks s a)) as [f|]; [|apply R_ret, B].
    destruct (f_st (futs s f)); try apply R_ret, B. apply R_ret, W_fc; [now apply (fw_started _ _ _ a v)|exact B].
  - destruct (e_set _); [apply R_ret, B|]. apply R_ret, W_cancel; [now apply (cw_handle _ _ _ h)|exact B].
  - unfold event_wait. destruct (e_set (events s (k_hevent (tasks s h)))); [apply (R_block N); [reflexivity|]; apply W_yield, B|].
    rewrite new_fut_eq. destruct (W_nf s B) as [H1 E]. rewrite E. apply (R_block (S N)); [reflexivity|]; apply W_suspend, W_event, H1.
  - apply (R_block N); [reflexivity|]; apply W_yield, B.
  - destruct (ckif_spins _ _ _); [apply (R_block N); [reflexivity|]; apply W_yield, B|apply R_ret, B].
  - rewrite new_scope_eq. cbn zeta. apply (R_block N); [reflexivity|]; apply W_yield, W_fresh_enter, B.
  - rewrite new_fut_eq. destruct (W_nf s B) as [H1 E]. rewrite E. destruct d as [dt|].
    + rewrite call_at_eq. apply (R_block (S N)); [reflexivity|]. apply W_suspend. revert H1. apply W_book; [apply bk_casl|reflexivity].
    + apply (R_block (S N)); [reflexivity|]; apply W_suspend, H1.
  - apply R_ret, W_task; [apply tw_held|exact B].
  - apply R_ret, W_task; [apply tw_held|exact B].
  - apply R_ret, W_task; [apply tw_held|exact B].
  - apply R_ret, W_task; [apply tw_uncancel|exact B].
  - cbn [fst]. apply R_parked, B.
  - rewrite new_scope_eq. pose proof (W_fresh_enter N s d sh B) as H.
    destruct (scope_enter (ns s d sh) (nscope s) a) as [s2 e]. apply R_ret, H.
Qed.
Lemma R_finish n s o' : (Inv s0 -> k_done (tasks s a) = None) -> Reached n s -> R s0 (finish_task s a o').
Proof.
  intros Hd H. rewrite finish_task_eq. cbn zeta. apply (W_R n), W_running.
  assert (H1 : Reached n (upd_task s a (fin_rec (fin_outcome (tasks s a) o')))) by (apply W_task; [now apply tw_fin|exact H]).
  destruct (k_group (tasks s a)); [apply W_ready, H1|exact H1].
Qed.

Lemma W_event_set n s e : (forall f, In f (e_waiters (events s e)) -> fc_why s0 o f (FRes 1)) -> Reached n s -> Reached n (event_set s e).
Proof.
  intros Hw H. rewrite event_set_eq. destruct (e_set (events s e)); [exact H|].
  assert (F : forall l x, (forall f, In f l -> fc_why s0 o f (FRes 1)) -> Reached n x ->
                          Reached n (fold_left (fun x f => fut_complete x f (FRes 1)) l x)).
  { induction l as [|f l IH]; intros x Hl Hx; cbn [fold_left]; [exact Hx|].
    apply IH; [intros y Hy; apply Hl; now right|]. apply W_fc; [apply Hl; now left|exact Hx]. }
  apply F; [exact Hw|]. apply W_event, H.
Qed.

Lemma R_puppet_finish v : o = AFinish a v -> idle s0 a = true -> R s0 (fst (puppet_finish s0 a v)).
Proof.
  intros Eo Hi. unfold puppet_finish. pose proof W_begin as B.
  assert (Hrun : Inv s0 -> k_final (tasks (begin_act s0 a) a) = None /\ k_done (tasks (begin_act s0 a) a) = None).
  { intros I0. destruct (Run_begin s0 a I0 Hi) as [M0 [Hr Hf]]. split; [exact Hf|apply (k_run _ (m_k _ M0) a Hr)]. }
  set (s := begin_act s0 a) in *. set (N := nfut s0) in *.
  set (raw := match k_held (tasks s a) with Some e => OExc e | None => ORet v end).
  assert (T1 : Reached N (upd_task s a (tk_final (Some raw)))).
  { apply W_task; [|exact B]. apply tw_final. intros I0. apply (Hrun I0). }
  assert (Hd1 : Inv s0 -> k_done (tasks (upd_task s a (tk_final (Some raw))) a) = None).
  { intros I0. tcase a a; [cbn; apply (Hrun I0)|contradiction]. }
  destruct (k_group (tasks s a)); [|cbn [fst]; now apply (R_finish N)].
  change (upd_task (upd_task s a (tk_final (Some raw))) a
            match raw with
            | ORet r => tk_hres None (Some r)
            | OExc e => tk_hres (Some e) None
            | OCanc e' => tk_hres (Some e') None
            end) with (rec_task s a raw).
  assert (T2 : Reached N (rec_task s a raw)) by (apply W_task; [apply tw_hres|exact T1]).
  assert (Hd2 : Inv s0 -> k_done (tasks (rec_task s a raw) a) = None).
  { intros I0. rewrite rec_task_same. destruct raw; cbn; apply (Hrun I0). }
  set (s3 := event_set (rec_task s a raw) (k_hevent (tasks s a))).
  assert (T3 : Reached N s3).
  { apply W_event_set; [|exact T2]. intros f Hf. apply (fw_finished _ _ _ a v Eo). revert Hf. unfold s, begin_act.
    cbn [rec_task upd_task set_tasks set_running events tasks]. rewrite !upd_same. cbn. auto. }
  pose proof (W_exit N s3 (k_hscope (tasks s a)) (k_held (tasks s a)) T3) as T4.
  assert (Hd4 : Inv s0 -> k_done (tasks (fst (scope_exit s3 (k_hscope (tasks s a)) a (k_held (tasks s a)))) a) = None).
  { intros I0. pose proof (kframe_kstar _ _ _ _ (ks_scope_exit s3 (k_hscope (tasks s a)) a (k_held (tasks s a)))) as F.
    destruct (tview_inv _ _ (fr_tv _ _ _ _ F a)) as [_ [V _]]. rewrite V. unfold s3. rewrite tasks_event_set. now apply Hd2. }
  destruct (scope_exit s3 (k_hscope (tasks s a)) a (k_held (tasks s a))) as [s4 x]. cbn [fst] in T4, Hd4.
  destruct x; cbn [fst]; now apply (R_finish N).
Qed.

Lemma W_event_unwait n s e fo : Reached n s -> Reached n (event_unwait s e fo).
Proof. destruct fo; [apply W_event|auto]. Qed.

Lemma R_resume h fo : o = ARun h -> th_task h = [a] -> (Inv s0 -> wake_ok (dequeue s0 h) a fo) ->
  R s0 (fst (resume (dequeue s0 h) a fo)).
Proof.
  intros Eo Hh Hw. rewrite resume_unfold. cbn zeta. set (N := nfut s0).
  assert (B : Reached N (incs (dequeue s0 h) a)).
  { unfold incs. apply W_running, W_task; [apply tw_inc|]. apply W_ready, W_start. }
  assert (Hd : Inv s0 -> k_done (tasks (incs (dequeue s0 h) a) a) = None).
  { intros I0. destruct (Run_incs _ a fo (Hw I0)) as [M0 [Hr _]]. apply (k_run _ (m_k _ M0) a Hr). }
  set (s := incs (dequeue s0 h) a) in *. set (inc := snd (incoming (dequeue s0 h) a fo)).
  change (tasks (dequeue s0 h)) with (tasks s0).
  assert (TG : aexit_ctl (k_ctl (tasks s0 a)) = true -> touches_groups s0 o = true).
  { rewrite Eo. destruct h; try discriminate Hh; injection Hh as ->; auto. }
  assert (AX : aexit_ctl (k_ctl (tasks s0 a)) = true -> ax_op s0 o a) by (intros H; now right).
  assert (En : forall g, k_ctl (tasks s0 a) = CNew -> k_group (tasks s0 a) = Some g -> entered s0 o (k_hscope (tasks s0 a))).
  { intros g E1 E2. rewrite Eo. destruct h; try discriminate Hh; injection Hh as ->; cbn [entered]; now rewrite E1, E2. }
  destruct (k_ctl (tasks s0 a)) as [| |k|f tm|g ws exc|g c exc|g child f|child c e wf|h' wf|].
  - assert (H1 : Reached N (upd_task s a (tk_started true))) by (apply W_task; [apply tw_started|exact B]).
    destruct inc as [e|]; cbn [fst].
    + apply (R_finish N); [|exact H1]. intros I0. tcase a a; [cbn; now apply Hd|contradiction].
    + apply R_parked.
      assert (Eg : k_group (tasks (upd_task s a (tk_started true)) a) = k_group (tasks s0 a) /\
                   k_hscope (tasks (upd_task s a (tk_started true)) a) = k_hscope (tasks s0 a)).
      { tcase a a; [|contradiction]. cbn. now rewrite upd_same. }
      destruct Eg as [-> ->]. destruct (k_group (tasks s0 a)) as [g|] eqn:Eg; [|exact H1].
      apply W_enter; [now apply (En g)|exact H1].
  - cbn [fst]. apply R_parked. destruct inc; [apply W_task; [apply tw_held|exact B]|exact B].
  - destruct k as [| |c].
    + apply R_ret, B.
    + destruct inc; [apply R_ret, B|]. destruct (ckif_spins _ _ _); [|apply R_ret, B].
      cbn [blocked fst]. apply (W_R N), W_running, W_yield, B.
    + pose proof (W_exit N s c inc B) as H. destruct (scope_exit s c a inc) as [s1 x]. destruct x; apply R_ret, H.
  - apply R_ret. revert B. apply W_scoped, sm_timer_cancel.
  - specialize (TG eq_refl). specialize (AX eq_refl).
    assert (H1 : Reached N (upd_group s g (gr_fut None))) by (apply W_group; auto).
    destruct inc as [e|]; [|now apply R_wof]. apply R_wof; [exact TG|exact AX|].
    apply W_cancel; [now apply (cw_group _ _ _ g)|]. revert H1. apply W_scoped, sm_shield. discriminate.
  - specialize (TG eq_refl). specialize (AX eq_refl). pose proof (W_exit N s c inc B) as H. destruct (scope_exit s c a inc) as [s1 x]. cbn [fst] in H.
    destruct x; [now apply R_wof| |now apply R_ret_pair, W_aexit_raise].
    destruct inc as [e|]; [|now apply R_wof]. destruct (is_cancel e); [|now apply R_ret_pair, W_aexit_raise].
    apply R_wof; [exact TG|exact AX|]. apply W_cancel; [now apply (cw_group _ _ _ g)|exact H].
  - destruct inc as [e|]; [|apply R_ret, B]. destruct (handle_pending s child); [|apply R_ret, B].
    rewrite new_scope_eq. cbn zeta.
    match goal with |- context [event_wait ?x a ?y] => generalize y as ev; intros ev; assert (H3 : Reached N x) end.
    { apply W_fresh_enter, W_cancel; [now apply (cw_handle _ _ _ child)|exact B]. }
    unfold event_wait. destruct (e_set (events _ ev)); [apply (R_block N); [reflexivity|]; apply W_yield, H3|].
    rewrite new_fut_eq. destruct (W_nf _ H3) as [H4 E]. rewrite E. apply (R_block (S N)); [reflexivity|]; apply W_suspend, W_event, H4.
  - match goal with |- context [scope_exit ?x c a inc] => pose proof (W_exit N x c inc) as H; destruct (scope_exit x c a inc) as [s2 y] end.
    cbn [fst] in H. specialize (H (W_event_unwait N _ _ _ B)). destruct y; [|destruct inc|]; apply R_ret, H.
  - apply R_ret, W_event_unwait, B.
  - cbn [fst]. apply (W_R N), W_ready, W_start.
Qed.

Lemma R_run_task_done : o = ARun (HTaskDone a) -> R s0 (run_task_done (dequeue s0 (HTaskDone a)) a).
Proof.
  intros Eo. assert (TG : touches_groups s0 o = true) by (rewrite Eo; reflexivity).
  rewrite run_task_done_eq. change (tasks (dequeue s0 (HTaskDone a))) with (tasks s0). set (N := nfut s0).
  assert (B : Reached N (set_running (dequeue s0 (HTaskDone a)) None)) by apply W_running, W_ready, W_start.
  destruct (k_group (tasks s0 a)) as [g|] eqn:Eg; [|apply (W_R N), B].
  set (s3 := done_struct (set_running (dequeue s0 (HTaskDone a)) None) a g).
  assert (Ef : g_fut (groups s3 g) = g_fut (groups s0 g) /\ forall x, g_scope (groups s3 x) = g_scope (groups s0 x)).
  { unfold s3, done_struct. change (tasks (set_running (dequeue s0 (HTaskDone a)) None)) with (tasks s0).
    cbn [upd_task set_tasks upd_group set_groups groups]. unfold upd.
    split; [rewrite Nat.eqb_refl|intros x; destruct (Nat.eqb x g) eqn:E; [apply Nat.eqb_eq in E; subst x|]];
      destruct (k_cur (tasks s0 a)); reflexivity. }
  assert (T3 : Reached N s3).
  { unfold s3, done_struct. change (tasks (set_running (dequeue s0 (HTaskDone a)) None)) with (tasks s0).
    apply (W_task _ _ _ (tw_td s0 o a _)), W_group; [exact TG|reflexivity|].
    destruct (k_cur (tasks s0 a)); [|exact B]. revert B. apply W_scoped, sm_del. }
  unfold done_tail.
  assert (T4 : Reached N (done_wake s3 g)).
  { destruct (td_wake_shape s3 g) as [|f Hf Ht]; [exact T3|]. apply W_fc; [|exact T3].
    apply (fw_joined _ _ _ a g Eo Eg). destruct Ef as [<- _]. exact Hf. }
  revert T4. generalize (done_wake s3 g) as s4. intros s4 T4.
  destruct (td_end_shape s4 (tasks s0 a) g a) as [|f Hf Hp|e He Hc Hn|e He Hc]; apply (W_R N).
  - exact T4.
  - apply W_fc; [now apply (fw_start_failed _ _ _ a)|exact T4].
  - apply W_cancel; [now apply (cw_group _ _ _ g)|exact T4].
  - apply W_cancel; [|apply W_group; [exact TG|reflexivity|exact T4]].
    apply (cw_group _ _ _ g). cbn [upd_group set_groups groups]. now rewrite upd_same.
Qed.

Lemma R_new_root : o = ANewRoot -> a = ntask s0 -> R s0 (fst (new_root s0)).
Proof.
  intros Eo Ea. unfold new_root. cbn [fst].
  change (R s0 (set_running (park (talloc s0 root_rec false) (ntask s0)) None)). rewrite <- Ea.
  apply R_parked. generalize W_start. apply W_step; [|reflexivity]. apply (m_talloc M). now apply nw_root.
Qed.

Theorem walk_step : acts s0 o a -> R s0 (fst (step s0 o)).
Proof.
  intros Ha. set (N := nfut s0). unfold step. remember o as o' eqn:Eo in Ha |- *. symmetry in Eo.
  destruct (actor o') as [t|] eqn:Et.
  - destruct (idle s0 t) eqn:Ei; cbn [negb]; [|apply (m_refl M)].
    assert (E : a = t) by (destruct o'; try discriminate Et; cbn [acts actor] in Ha, Et; congruence). subst t.
    destruct o'; try (now apply R_puppet_op). cbn [actor] in Et. injection Et as ->. now apply R_puppet_finish.
  - destruct o'; try discriminate Et; try apply (m_refl M).
    + now apply R_new_root.
    + cbn [fst]. now apply (m_scoped M), sm_task_cancel.
    + cbn [fst]. apply (W_R N), W_running, W_cancel; [apply cw_op; now right|apply W_running, W_start].
    + unfold run_handle. destruct (existsb (handle_eqb h) (ready s0)) eqn:Eh; cbn [negb]; [|apply (m_refl M)].
      apply existsb_handle in Eh. fold (dequeue s0 h). cbn [acts] in Ha.
      assert (P : Reached N (dequeue s0 h)) by apply W_ready, W_start.
      destruct h as [t|t f|c|t|f tm|c tm]; try subst t.
      * apply R_resume; [exact Eo|reflexivity|]. intros I0. now apply wake_ok_step.
      * apply R_resume; [exact Eo|reflexivity|]. intros I0. now apply wake_ok_wake.
      * cbn [fst]. apply (W_R N), W_running. generalize (W_running N _ None P). now apply W_scoped, sm_deliver.
      * cbn [fst]. now apply R_run_task_done.
      * cbn [fst]. apply (W_R N), W_fc; [now apply (fw_slept _ _ _ tm)|exact P].
      * cbn [fst]. apply (W_R N), W_running. generalize (W_running N _ None P). apply W_scoped, sm_scope_timeout.
    + destruct (Z.ltb dt 0); [apply (m_refl M)|apply (m_book M), bk_tick].
Qed.
End Steps.

Lemma acts_ex s o : exists a, acts s o a.
Proof.
  destruct o; try destruct h; cbn [acts actor]; first [now eexists|exists 0; exact I].
Qed.

(* for a relation that does not care which task acts *)
Corollary walk s0 o (R : st -> st -> Prop) : (forall a, moves s0 o a R) -> R s0 (fst (step s0 o)).
Proof. intros M. destruct (acts_ex s0 o) as [a Ha]. exact (walk_step s0 o a R (M a) Ha). Qed.

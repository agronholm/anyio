(* The op discipline ("async with"-style use of task groups) and the state-form of C01 under it; at the end, that
   a task's control state and scope pointer change only in the steps in which it acts. *)
From AV Require Import Base Machine MachineFacts GroupInv GroupInv2 GroupInv3 GroupInv4 GroupInv5 GroupInv6
  GroupInv7 GroupInv9 GroupWalk GroupThms GroupThms2 GroupThms3 GroupThms4 GroupThms5 GroupThms5b GroupThms8
  GroupThms9.

Definition real_b (s : st) (g : gid) : bool := negb (Nat.eqb (g_scope (groups s g)) 0).

Definition is_group_scope (s : st) (c : sid) : bool :=
  existsb (fun g => Nat.eqb (g_scope (groups s g)) c) (List.seq 0 (ngroup s)).

(* okop s o: operation o, issued in state s, respects the `async with create_task_group()` usage:
   - AEnter t c      : `with scope:` is used on a scope object that is not some task group's cancel_scope
                       (tg.cancel_scope is entered by TaskGroup.__aenter__ only);
   - AGroupEnter t g : __aenter__ is called on an existing TaskGroup object;
   - AGroupExit t g  : __aexit__ is called on an existing TaskGroup object by the task that entered it, at the
                       matching nesting level: the group's cancel scope is active, hosted by t and on top of
                       t's scope stack (what `async with` guarantees);
   every other operation is unrestricted (spawning from any task, cancelling anything, any schedule). *)
Definition okop (s : st) (o : op) : bool :=
  match o with
  | AEnter _ c => negb (is_group_scope s c)
  | AGroupEnter _ g => real_b s g
  | AGroupExit t g =>
      let gs := g_scope (groups s g) in
      real_b s g && s_active (scopes s gs) && opt_eqb (s_host (scopes s gs)) t && opt_eqb (k_cur (tasks s t)) gs
  | _ => true
  end.

Fixpoint disc (s : st) (ops : list op) : bool :=
  match ops with
  | [] => true
  | o :: r => okop s o && disc (fst (step s o)) r
  end.

Definition disciplined (ops : list op) : bool := disc init ops.

Definition dreach (s : st) : Prop := exists ops, disciplined ops = true /\ s = final step init ops.

Lemma disc_app s ops1 ops2 : disc s (ops1 ++ ops2) = disc s ops1 && disc (final step s ops1) ops2.
Proof.
  revert s. induction ops1 as [|o r IH]; intros s; cbn [app disc]; [reflexivity|].
  rewrite IH. cbn [final fold_left]. now rewrite andb_assoc.
Qed.

Lemma dreach_reach s : dreach s -> reach s.
Proof. intros [ops [_ ->]]. exists ops. reflexivity. Qed.

Lemma dreach_step s o : dreach s -> okop s o = true -> dreach (fst (step s o)).
Proof.
  intros [ops [Hd ->]] Ho. exists (ops ++ [o]). split.
  - unfold disciplined in *. rewrite disc_app, Hd. cbn [disc andb]. now rewrite Ho.
  - rewrite final_app. reflexivity.
Qed.

Lemma dreach_ind (P : st -> Prop) : P init ->
  (forall s o, dreach s -> P s -> okop s o = true -> P (fst (step s o))) -> forall s, dreach s -> P s.
Proof.
  intros H0 Hs s [ops [Hd ->]].
  assert (G : forall ops s0, dreach s0 -> P s0 -> disc s0 ops = true -> P (final step s0 ops)).
  { induction ops0 as [|o r IH]; intros s0 D0 P0 Hd0; [exact P0|].
    cbn [disc] in Hd0. apply andb_prop in Hd0. destruct Hd0 as [Ho Hr]. cbn [final fold_left].
    apply IH; [apply dreach_step; assumption|apply Hs; assumption|exact Hr]. }
  apply G; [exists []; split; reflexivity|exact H0|exact Hd].
Qed.

Lemma ngroup_ret s t r : ngroup (fst (ret_to_puppet s t r)) = ngroup s.
Proof. apply (kx_ngroup _ _ _ _ (ret_to_puppet_fix s t r)). Qed.

Lemma ngroup_group_new s t : idle s t = true -> ngroup (fst (step s (AGroupNew t))) = S (ngroup s).
Proof.
  intros Hi. cbn [step actor]. rewrite Hi. cbn [negb]. unfold puppet_op. rewrite new_scope_eq. cbn zeta.
  rewrite ngroup_ret. reflexivity.
Qed.

Lemma scopes_group_enter_entered s t g : g_entered (groups s g) = true ->
  scopes (fst (step s (AGroupEnter t g))) = scopes s.
Proof.
  intros He. cbn [step actor]. destruct (idle s t); cbn [negb]; [|reflexivity]. unfold puppet_op.
  change (g_entered (groups (begin_act s t) g)) with (g_entered (groups s g)). rewrite He. now rewrite scopes_ret.
Qed.

Definition real (s : st) (g : gid) : Prop := g_scope (groups s g) <> 0.

Definition in_aexit (s : st) (t : tid) (g : gid) (w : sid) : Prop :=
  exists exc, k_ctl (tasks s t) = CAexitWait g w exc \/ k_ctl (tasks s t) = CAexitCk g w exc.

(* d_f1, d_f2: group scopes are pairwise distinct, and a handle scope is never a group scope; entered_group_scope
   turns on these two *)
Record DInv (s : st) : Prop := {
  n_one : 1 <= ngroup s;
  n_un : forall g, g = 0 \/ ngroup s <= g ->
      g_scope (groups s g) = 0 /\ g_entered (groups s g) = false /\ g_left (groups s g) = false;
  d_f1 : forall g g', real s g -> real s g' -> g_scope (groups s g) = g_scope (groups s g') -> g = g';
  d_f2 : forall t g, k_group (tasks s t) <> None -> real s g -> k_hscope (tasks s t) <> g_scope (groups s g);
  d_entr : forall g, g_entered (groups s g) = true -> real s g;
  d_ent : forall g, real s g -> s_active (scopes s (g_scope (groups s g))) = true -> g_entered (groups s g) = true;
  d_left : forall g, g_left (groups s g) = true ->
      real s g /\ g_entered (groups s g) = true /\ s_active (scopes s (g_scope (groups s g))) = false /\
      g_tasks (groups s g) = [];
  d_ax : forall t g w, in_aexit s t g w ->
      real s g /\ g_left (groups s g) = false /\ g_entered (groups s g) = true /\
      s_active (scopes s (g_scope (groups s g))) = true /\ s_host (scopes s (g_scope (groups s g))) = Some t /\
      s_parent (scopes s w) = Some (g_scope (groups s g)) /\ w <> g_scope (groups s g)
}.

Lemma real_galloc s g : DInv s -> real s g -> 0 < g < ngroup s.
Proof.
  intros D Hr. destruct (Nat.eq_dec g 0) as [->|H0].
  - exfalso. apply Hr. apply (n_un s D 0 (or_introl eq_refl)).
  - destruct (Nat.lt_ge_cases g (ngroup s)) as [Hl|Hg]; [lia|].
    exfalso. apply Hr. apply (n_un s D g (or_intror Hg)).
Qed.

Lemma not_group_scope s c : DInv s -> is_group_scope s c = false -> forall g, real s g -> g_scope (groups s g) <> c.
Proof.
  intros D Hn g Hr E. destruct (real_galloc s g D Hr) as [H0 Hl].
  assert (H : is_group_scope s c = true).
  { unfold is_group_scope. apply existsb_exists. exists g. split; [apply in_seq; lia|apply Nat.eqb_eq, E]. }
  congruence.
Qed.

(* normal form of step_group_cases *)
Definition flip_prov (s : st) (o : op) (g : gid) : Prop :=
  (exists t, o = AGroupExit t g /\ idle s t = true) \/
  (exists t h w, o = ARun h /\ In h (ready s) /\ (h = HStep t \/ exists f, h = HWake t f) /\ in_aexit s t g w).

Lemma gc_norm s o g : reach s -> let s' := fst (step s o) in
  (g = ngroup s /\ (exists t, o = AGroupNew t /\ idle s t = true) /\
   groups s' g = mkGroup (nscope s) false [] [] None [] false) \/
  (g_scope (groups s' g) = g_scope (groups s g) /\
   (g_entered (groups s g) = true -> g_entered (groups s' g) = true) /\
   (g_entered (groups s' g) = true -> g_entered (groups s g) = true \/ exists t, o = AGroupEnter t g) /\
   (g_left (groups s g) = true -> g_left (groups s' g) = true) /\
   (g_left (groups s' g) = true -> g_left (groups s g) = true \/ flip_prov s o g) /\
   (g_tasks (groups s' g) <> [] -> g_tasks (groups s g) <> [] \/ group_active s g = true)).
Proof.
  intros R. cbn zeta.
  destruct (step_group_cases s o g R) as [E|[[t [E1 [E0 [E2 E]]]]|[[t [E1 E]]|[[t [E1 [E2 [E3 E]]]]|[[t [e [E1 [E2 [E3 [E4 E]]]]]]|[[E P]|[t [E1 [E2 [E3 E]]]]]]]]]].
  - right. rewrite E. tauto.
  - left. eauto.
  - right. rewrite E. cbn. refine (conj eq_refl (conj (fun _ => eq_refl) (conj _ (conj (fun H => H) (conj _ _))))); eauto.
  - right. rewrite E. cbn. refine (conj eq_refl (conj (fun H => H) (conj _ (conj (fun H => H) (conj _ _))))); auto.
  - right. destruct E as [G1 [G2 [G3 [G4 [G5 G6]]]]]. cbn in *. rewrite G3, G5, G2.
    refine (conj eq_refl (conj (fun H => H) (conj _ (conj _ (conj _ _))))); auto.
    + destruct G6 as [->|[-> _]]; auto.
    + intros H. destruct G6 as [G6|[_ _]]; [left; congruence|]. right. left. exists t. auto.
  - right. destruct E as [G1 [G2 [G3 [G4 [G5 G6]]]]]. rewrite G3, G5, G2.
    refine (conj eq_refl (conj (fun H => H) (conj _ (conj _ (conj _ _))))); auto.
    + destruct G6 as [->|[-> _]]; auto.
    + intros H. destruct G6 as [G6|[_ _]]; [left; congruence|]. right.
      destruct P as [P|[t [h [w [exc [P1 [P2 [P3 P4]]]]]]]]; [left; exact P|right].
      exists t, h, w. refine (conj P1 (conj P2 (conj P3 _))). exists exc. exact P4.
  - right. destruct E as [E|[e [_ E]]]; rewrite E; cbn;
      (refine (conj eq_refl (conj (fun H => H) (conj _ (conj (fun H => H) (conj _ _))))); auto;
       intros H; left; intros H0; rewrite H0 in H; cbn in H; contradiction).
Qed.

Definition ax_facts (s : st) (t : tid) (g : gid) (w : sid) : Prop :=
  let gs := g_scope (groups s g) in
  s_active (scopes s gs) = true /\ s_host (scopes s gs) = Some t /\ s_parent (scopes s w) = Some gs /\ w <> gs /\
  gs < nscope s /\ owns s t w.

Definition ax_blocked (s0 s' : st) (t : tid) (g : gid) : Prop :=
  let gs := g_scope (groups s0 g) in
  g_left (groups s' g) = g_left (groups s0 g) /\
  exists w', in_aexit s' t g w' /\ s_active (scopes s' gs) = true /\
     s_host (scopes s' gs) = Some t /\ s_parent (scopes s' w') = Some gs /\ w' <> gs.

Definition ax_result (s0 s' : st) (t : tid) (g : gid) : Prop :=
  (s_active (scopes s' (g_scope (groups s0 g))) = false /\ k_ctl (tasks s' t) = CIdle /\ g_left (groups s' g) = true) \/
  ax_blocked s0 s' t g.

Lemma wof_result s t g ws exc : aexit_pre s t g ws ->
  ax_result s (fst (aexit_wait_or_finish s t g ws exc)) t g.
Proof.
  intros P. destruct (g_tasks (groups s g)) as [|a l] eqn:Et.
  - left. refine (conj _ (conj _ _)); [apply wof_finishes; auto|apply wof_finishes_ctl; auto|apply wof_finishes_left; auto].
  - right. destruct (wof_blocks s t g ws exc P) as [w' [H1 [H2 [H3 [H4 [H5 H6]]]]]]; [rewrite Et; discriminate|].
    split; [exact H6|]. exists w'. split; [exists exc; left; exact H1|auto].
Qed.

Lemma ax_result_pre s0 s1 s' t g : groups s1 = groups s0 -> ax_result s1 s' t g -> ax_result s0 s' t g.
Proof. intros E. unfold ax_result, ax_blocked. now rewrite E. Qed.

(* what aexit_pre / ax_facts look at *)
Definition psame (s s' : st) : Prop :=
  (forall x, sc_same (scopes s x) (scopes s' x)) /\ (forall t, k_cur (tasks s' t) = k_cur (tasks s t)) /\
  nscope s <= nscope s' /\ (forall g, g_scope (groups s' g) = g_scope (groups s g)).

Lemma psame_refl s : psame s s.
Proof. refine (conj _ (conj _ (conj _ _))); auto. intros x. apply sc_same_refl. Qed.

Lemma psame_trans a b c : psame a b -> psame b c -> psame a c.
Proof.
  intros [A1 [A2 [A3 A4]]] [B1 [B2 [B3 B4]]]. refine (conj _ (conj _ (conj _ _))).
  - intros x. destruct (A1 x) as [E1 [E2 E3]]. destruct (B1 x) as [F1 [F2 F3]]. unfold sc_same. rewrite F1, F2, F3. auto.
  - intros t. now rewrite B2, A2.
  - lia.
  - intros g. now rewrite B4, A4.
Qed.

Lemma psame_kstar s s' : kstar none_s none_t s s' -> psame s s'.
Proof.
  intros KS. refine (conj _ (conj _ (conj _ _))).
  - intros x. apply (kstar_none_same s s' x KS).
  - intros t. apply (kstar_none_cur s s' t KS).
  - rewrite (fr_nscope _ _ _ _ (kframe_kstar _ _ _ _ KS)). lia.
  - intros g. now rewrite (groups_kstar _ _ _ _ KS).
Qed.

Lemma psame_eq s s' : scopes s' = scopes s -> (forall t, k_cur (tasks s' t) = k_cur (tasks s t)) ->
  nscope s' = nscope s -> (forall g, g_scope (groups s' g) = g_scope (groups s g)) -> psame s s'.
Proof.
  intros E1 E2 E3 E4. refine (conj _ (conj E2 (conj _ E4))); [|lia]. intros x. rewrite E1. apply sc_same_refl.
Qed.

Lemma psame_gr_fut s g x : psame s (upd_group s g (gr_fut x)).
Proof.
  apply psame_eq; try reflexivity. intros g'. cbn [upd_group set_groups groups]. unfold upd.
  destruct (Nat.eqb_spec g' g); [subst; reflexivity|reflexivity].
Qed.

Lemma psame_incs s0 t : psame s0 (incs s0 t).
Proof. apply psame_eq; try reflexivity. intros x. apply (incs_cview s0 t x). Qed.

Lemma aexit_pre_psame s s' t g ws : psame s s' -> aexit_pre s t g ws -> aexit_pre s' t g ws.
Proof.
  intros [P1 [P2 [P3 P4]]]. unfold aexit_pre, owns. rewrite P4. destruct ws as [w|].
  - intros [[O1 [O2 [O3 O4]]] [Hp [Hne [Ha [Hh Hlt]]]]].
    destruct (P1 w) as [E1 [E2 E3]]. destruct (P1 (g_scope (groups s g))) as [F1 [F2 _]].
    rewrite E1, E2, E3, F1, F2, P2. repeat split; auto; lia.
  - intros [O1 [O2 [O3 O4]]]. destruct (P1 (g_scope (groups s g))) as [F1 [F2 _]].
    rewrite F1, F2, P2. repeat split; auto; lia.
Qed.

Lemma ax_result_psame s0 s1 s' t g : (forall x, g_scope (groups s1 x) = g_scope (groups s0 x)) ->
  g_left (groups s1 g) = g_left (groups s0 g) -> ax_result s1 s' t g -> ax_result s0 s' t g.
Proof. intros E1 E2. unfold ax_result, ax_blocked. now rewrite E1, E2. Qed.

Lemma resume_aexit_result s0 t fo g w : wake_ok s0 t fo -> in_aexit s0 t g w -> ax_facts s0 t g w ->
  ax_result s0 (fst (resume s0 t fo)) t g.
Proof.
  intros W [exc Hc] [Ha [Hh [Hp [Hne [Hlt O]]]]].
  pose proof (w_m _ _ _ W) as M0.
  assert (Hnr : running s0 <> Some t) by (rewrite (w_run _ _ _ W); discriminate).
  assert (Pre0 : aexit_pre s0 t g (Some w)) by (unfold aexit_pre; auto 10).
  rewrite resume_unfold. cbn zeta. set (s := incs s0 t) in *. set (inc := snd (incoming s0 t fo)).
  assert (PS : psame s0 s) by apply psame_incs.
  destruct Hc as [Hc|Hc]; rewrite Hc.
  - (* CAexitWait *)
    set (s1 := upd_group s g (gr_fut None)).
    assert (PS1 : psame s0 s1) by (eapply psame_trans; [exact PS|apply psame_gr_fut]).
    assert (GL1 : g_left (groups s1 g) = g_left (groups s0 g)).
    { unfold s1. cbn [upd_group set_groups groups]. rewrite upd_same. reflexivity. }
    destruct inc as [e|].
    + match goal with |- ax_result _ (fst (aexit_wait_or_finish ?x _ _ _ ?e')) _ _ => set (s3 := x); set (exc' := e') end.
      assert (PS3 : psame s0 s3).
      { eapply psame_trans; [exact PS1|]. unfold s3. eapply psame_trans; [|apply psame_kstar, ks_scope_cancel].
        apply psame_kstar, ks_one, kp_scope_keeps, keeps_shield. }
      assert (GL3 : g_left (groups s3 g) = g_left (groups s0 g)).
      { unfold s3. rewrite groups_scope_cancel. exact GL1. }
      apply (ax_result_psame s0 s3); [apply PS3|exact GL3|]. apply wof_result. apply (aexit_pre_psame s0 s3); auto.
    + apply (ax_result_psame s0 s1); [apply PS1|exact GL1|]. apply wof_result. apply (aexit_pre_psame s0 s1); auto.
  - (* CAexitCk: the handle was a HStep, inc is None or a cancellation *)
    assert (Hfo : fo = None).
    { pose proof (c_w s0 (m_c s0 M0) t Hnr) as Hw. rewrite Hc in Hw. cbn in Hw.
      destruct fo as [f|]; [|reflexivity]. destruct (w_fo _ _ _ W) as [H _]. congruence. }
    subst fo. pose proof (incoming_none_shape s0 t) as Hinc. fold inc in Hinc.
    assert (Pre : aexit_pre s t g (Some w)) by (apply (aexit_pre_psame s0 s); auto).
    destruct Pre as [Ow [Hp' [Hne' [Ha' [Hh' Hlt']]]]].
    pose proof (scope_exit_no_raise s w t inc Ow Hinc) as Hx.
    destruct (scope_exit_success s w t inc Ow) as [_ Hcur].
    destruct (scope_exit_other s w t inc (g_scope (groups s g)) (fun E => Hne' (eq_sym E))) as [E1 [E2 _]].
    pose proof (groups_scope_exit s w t inc) as Hg.
    pose proof (fr_nscope _ _ _ _ (kframe_kstar _ _ _ _ (ks_scope_exit s w t inc))) as Hn.
    destruct (scope_exit s w t inc) as [s1 x]. cbn [fst snd] in *.
    assert (Pre1 : aexit_pre s1 t g None).
    { unfold aexit_pre, owns. rewrite Hg, E1, E2, Hcur, Hp', Hn. auto. }
    assert (GS1 : forall x0, g_scope (groups s1 x0) = g_scope (groups s0 x0)) by (intros x0; now rewrite Hg).
    assert (GL1 : g_left (groups s1 g) = g_left (groups s0 g)) by (now rewrite Hg).
    destruct Hx as [-> | ->].
    + apply (ax_result_psame s0 s1); auto. apply wof_result, Pre1.
    + destruct Hinc as [->|[mm ->]]; [apply (ax_result_psame s0 s1); auto; apply wof_result, Pre1|].
      cbn [is_cancel].
      match goal with |- ax_result _ (fst (aexit_wait_or_finish ?x _ _ _ _)) _ _ => set (s2 := x) end.
      assert (PS2 : psame s1 s2) by (apply psame_kstar, ks_scope_cancel).
      apply (ax_result_psame s0 s2).
      * intros x0. destruct PS2 as [_ [_ [_ P4]]]. now rewrite P4.
      * unfold s2. now rewrite groups_scope_cancel.
      * apply wof_result. apply (aexit_pre_psame s1 s2); auto.
Qed.

(* AGroupExit by the owner of the group's scope: it never leaves in the same step; the task is inside __aexit__ *)
Lemma group_exit_result s0 t g : let gs := g_scope (groups s0 g) in
  s_active (scopes s0 gs) = true -> s_host (scopes s0 gs) = Some t -> k_cur (tasks s0 t) = Some gs -> gs < nscope s0 ->
  ax_blocked s0 (fst (puppet_op s0 t (AGroupExit t g))) t g.
Proof.
  cbn zeta. intros Ha Hh Hc Hlt.
  assert (Pre0 : aexit_pre s0 t g None) by (unfold aexit_pre, owns; auto).
  unfold puppet_op. set (s := begin_act s0 t). cbn zeta.
  assert (PS : psame s0 s).
  { apply psame_eq; try reflexivity. intros x. unfold s, begin_act. tcase x t; [subst; reflexivity|reflexivity]. }
  match goal with |- context [match g_tasks (groups ?x g) with _ => _ end] => set (s1 := x) end.
  assert (PS1 : psame s0 s1 /\ g_left (groups s1 g) = g_left (groups s0 g)).
  { unfold s1. destruct (k_held (tasks s t)) as [e|]; [|split; [exact PS|reflexivity]].
    assert (PSc : psame s0 (scope_cancel s (g_scope (groups s g)) false)).
    { eapply psame_trans; [exact PS|apply psame_kstar, ks_scope_cancel]. }
    destruct (is_cancel e).
    - split; [exact PSc|]. now rewrite groups_scope_cancel.
    - split.
      + eapply psame_trans; [exact PSc|]. apply psame_eq; try reflexivity. intros g'.
        cbn [upd_group set_groups groups]. unfold upd. destruct (Nat.eqb_spec g' g); [subst; reflexivity|reflexivity].
      + cbn [upd_group set_groups groups]. rewrite upd_same. cbn. now rewrite groups_scope_cancel. }
  destruct PS1 as [PS1 GL1].
  assert (Pre1 : aexit_pre s1 t g None) by (apply (aexit_pre_psame s0 s1); auto).
  assert (GS1 : g_scope (groups s1 g) = g_scope (groups s0 g)) by apply PS1.
  unfold ax_blocked. rewrite <- GS1, <- GL1.
  destruct (g_tasks (groups s1 g)) as [|a l] eqn:Et.
  - rewrite new_scope_eq. cbn zeta.
    set (s3 := fst (scope_enter (ns s1 None true) (nscope s1) t)).
    destruct Pre1 as [A1 [H1 [C1 L1]]].
    assert (Hne : g_scope (groups s1 g) <> nscope s1) by lia.
    destruct (scope_enter_other (ns s1 None true) (nscope s1) t (g_scope (groups s1 g)) Hne) as [E1 [E2 _]].
    split.
    + cbn [blocked fst set_running set_ctl upd_task set_tasks bare_yield call_soon set_ready groups].
      unfold s3. now rewrite groups_scope_enter.
    + exists (nscope s1). refine (conj _ (conj _ (conj _ (conj _ _)))).
      * exists (k_held (tasks s t)). right. cbn [blocked fst]. tcase t t; [reflexivity|contradiction].
      * cbn [blocked fst set_running set_ctl upd_task set_tasks bare_yield call_soon set_ready scopes].
        unfold s3. rewrite E1, ns_scope_old; auto.
      * cbn [blocked fst set_running set_ctl upd_task set_tasks bare_yield call_soon set_ready scopes].
        unfold s3. rewrite E2, ns_scope_old; auto.
      * cbn [blocked fst set_running set_ctl upd_task set_tasks bare_yield call_soon set_ready scopes].
        unfold s3. rewrite scope_enter_parent; [|apply ns_inactive]. exact C1.
      * lia.
  - destruct (wof_blocks s1 t g None (k_held (tasks s t)) Pre1) as [w' [H1 [H2 [H3 [H4 [H5 H6]]]]]]; [rewrite Et; discriminate|].
    unfold aexit_wait_or_finish in *. rewrite Et in *.
    split; [exact H6|]. exists w'. split; [exists (k_held (tasks s t)); left; exact H1|auto].
Qed.

Definition naex (c : ctl) : Prop := forall g w exc, c <> CAexitWait g w exc /\ c <> CAexitCk g w exc.

Lemma naex_idle : naex CIdle. Proof. intros g w exc. split; discriminate. Qed.

Lemma naex_of c : aexit_ctl c = false -> naex c.
Proof. intros H g w exc. split; intros ->; discriminate H. Qed.

(* outside __aexit__ the acting task is not put into one of its control states *)
Lemma step_ctl_naex s o a : acts s o a -> (forall t g, o <> AGroupExit t g) -> naex (k_ctl (tasks s a)) ->
  naex (k_ctl (tasks (fst (step s o)) a)).
Proof.
  intros Ha Ho N0.
  assert (Nax : ~ ax_op s o a).
  { intros [[t [g E]]|E]; [exact (Ho t g E)|]. destruct (k_ctl (tasks s a)) as [| | | |g w exc|g w exc| | | |]; try discriminate E.
    - now destruct (N0 g w exc) as [N _].
    - now destruct (N0 g w exc) as [_ N]. }
  apply (walk_step s o a (fun x y => naex (k_ctl (tasks x a)) -> naex (k_ctl (tasks y a)))); [|exact Ha|exact N0].
  apply moves_kstar; auto.
  - intros C T x y K. destruct (tview_inv _ _ (fr_tv _ _ _ _ (kframe_kstar _ _ _ _ K) a)) as [-> _]. auto.
  - intros x g H. cbn [upd_task set_tasks tasks]. rewrite upd_same.
    destruct H as [c Hc| | | | | | | | | | |]; try (cbn; auto; fail).
    + intros _. cbn. apply naex_of. destruct (aexit_ctl c); [now elim Nax; apply Hc|reflexivity].
    + destruct raw; cbn; auto.
    + intros _. cbn. now apply naex_of.
  - intros x f v _. now rewrite fc_tasks.
  - intros x k ev H. unfold talloc. cbn [tasks]. unfold upd. destruct (Nat.eqb a (ntask x)); [|auto].
    intros _. apply naex_of. now destruct H.
  - intros x y []; auto.
Qed.

Lemma in_aexit_naex s t g w : in_aexit s t g w -> naex (k_ctl (tasks s t)) -> False.
Proof. intros [exc [H|H]] N; destruct (N g w exc) as [N1 N2]; congruence. Qed.

Lemma not_in_aexit_naex s t : (forall g w, ~ in_aexit s t g w) -> naex (k_ctl (tasks s t)).
Proof.
  intros H g w exc. split; intros E; apply (H g w); exists exc; auto.
Qed.

Lemma step_group_exit s t g : idle s t = true -> fst (step s (AGroupExit t g)) = fst (puppet_op s t (AGroupExit t g)).
Proof. intros Hi. cbn [step actor]. now rewrite Hi. Qed.

Lemma ntask_ret s t r : ntask (fst (ret_to_puppet s t r)) = ntask s.
Proof. apply (kx_ntask _ _ _ _ (ret_to_puppet_fix s t r)). Qed.

Lemma group_new_facts s t : idle s t = true ->
  let s' := fst (step s (AGroupNew t)) in
  ntask s' = ntask s /\ s_active (scopes s' (nscope s)) = false.
Proof.
  intros Hi. cbn zeta. cbn [step actor]. rewrite Hi. cbn [negb]. unfold puppet_op. rewrite new_scope_eq. cbn zeta.
  rewrite ntask_ret, scopes_ret. split; [reflexivity|]. cbn [scopes]. change (scopes (ns (begin_act s t) None false) (nscope s))
    with (scopes (ns (begin_act s t) None false) (nscope (begin_act s t))). rewrite ns_scope_new. reflexivity.
Qed.

Lemma real_keep s o g : reach s -> DInv s -> real s g ->
  g_scope (groups (fst (step s o)) g) = g_scope (groups s g).
Proof.
  intros R D Hr. destruct (gc_norm s o g R) as [[E _]|[E _]]; [|exact E].
  destruct (real_galloc s g D Hr) as [_ H]. lia.
Qed.

Lemma real_back s o g : reach s -> real (fst (step s o)) g ->
  (real s g /\ g_scope (groups (fst (step s o)) g) = g_scope (groups s g)) \/
  (g = ngroup s /\ (exists t, o = AGroupNew t /\ idle s t = true) /\
   groups (fst (step s o)) g = mkGroup (nscope s) false [] [] None [] false).
Proof.
  intros R Hr. destruct (gc_norm s o g R) as [[E1 [E2 E3]]|[E _]]; [right; auto|].
  left. split; [|exact E]. unfold real in *. now rewrite <- E.
Qed.

Lemma okop_enter s t c : okop s (AEnter t c) = true -> is_group_scope s c = false.
Proof. cbn. intros H. now destruct (is_group_scope s c). Qed.

Lemma okop_genter s t g : okop s (AGroupEnter t g) = true -> real s g.
Proof. cbn. unfold real_b, real. intros H E. rewrite E in H. discriminate. Qed.

Lemma okop_gexit s t g : okop s (AGroupExit t g) = true ->
  real s g /\ s_active (scopes s (g_scope (groups s g))) = true /\
  s_host (scopes s (g_scope (groups s g))) = Some t /\ k_cur (tasks s t) = Some (g_scope (groups s g)).
Proof.
  cbn. intros H. apply andb_prop in H. destruct H as [H H4]. apply andb_prop in H. destruct H as [H H3].
  apply andb_prop in H. destruct H as [H1 H2].
  refine (conj _ (conj H2 (conj _ _))).
  - unfold real_b, real in *. intros E. rewrite E in H1. discriminate.
  - destruct (s_host (scopes s (g_scope (groups s g)))) as [h|]; [|discriminate]. cbn in H3. apply Nat.eqb_eq in H3. now subst.
  - destruct (k_cur (tasks s t)) as [c|]; [|discriminate]. cbn in H4. apply Nat.eqb_eq in H4. now subst.
Qed.

(* entered s o c is decidable *)
Lemma classic_entered s o c : entered s o c \/ ~ entered s o c.
Proof.
  assert (N : none_s c \/ ~ none_s c) by (right; intros H; exact H).
  destruct o; cbn [entered]; try exact N.
  - destruct (Nat.eq_dec c0 c) as [E|E]; [left; exact E|right; exact E].
  - destruct (Nat.eq_dec (g_scope (groups s g)) c) as [E|E]; [left; exact E|right; exact E].
  - destruct h as [t|t f| | | |]; try exact N.
    + destruct (k_ctl (tasks s t)); try exact N. destruct (k_group (tasks s t)); [|exact N].
      destruct (Nat.eq_dec (k_hscope (tasks s t)) c) as [E|E]; [left; exact E|right; exact E].
    + destruct (k_ctl (tasks s t)); try exact N. destruct (k_group (tasks s t)); [|exact N].
      destruct (Nat.eq_dec (k_hscope (tasks s t)) c) as [E|E]; [left; exact E|right; exact E].
Qed.

(* a group's scope can be (re)activated only by AGroupEnter of that group *)
Lemma entered_group_scope s o g : reach s -> DInv s -> okop s o = true -> real s g ->
  entered s o (g_scope (groups s g)) -> exists t, o = AGroupEnter t g.
Proof.
  intros R D Ho Hr He. destruct o; cbn [entered] in He; try contradiction.
  - exfalso. apply (not_group_scope s c D (okop_enter s t c Ho) g Hr). now rewrite He.
  - exists t. f_equal. apply (d_f1 s D g0 g); [apply (okop_genter s t g0 Ho)|exact Hr|exact He].
  - destruct h as [t|t f| | | |]; try contradiction.
    + destruct (k_ctl (tasks s t)); try contradiction. destruct (k_group (tasks s t)) eqn:Eg; [|contradiction].
      exfalso. apply (d_f2 s D t g); [congruence|exact Hr|exact He].
    + destruct (k_ctl (tasks s t)); try contradiction. destruct (k_group (tasks s t)) eqn:Eg; [|contradiction].
      exfalso. apply (d_f2 s D t g); [congruence|exact Hr|exact He].
Qed.

Lemma inactive_group_scope_stays s o g : reach s -> DInv s -> okop s o = true -> real s g ->
  g_entered (groups s g) = true -> s_active (scopes s (g_scope (groups s g))) = false ->
  s_active (scopes (fst (step s o)) (g_scope (groups s g))) = false.
Proof.
  intros R D Ho Hr Hent Hin. destruct (reachable s R) as [M _].
  pose proof (b_gscope s (m_g s M) g) as Hlt.
  destruct (step_scope_frame s o) as [_ [_ [SF _]]]. destruct (SF _ Hlt) as [SFi _].
  destruct (classic_entered s o (g_scope (groups s g))) as [He|He].
  - destruct (entered_group_scope s o g R D Ho Hr He) as [t ->].
    rewrite scopes_group_enter_entered; auto.
  - destruct (SFi Hin He) as [E _]. now rewrite E.
Qed.

Lemma ax_facts_of s t g w : reach s -> DInv s -> in_aexit s t g w -> ax_facts s t g w.
Proof.
  intros R D Hin. destruct (reachable s R) as [M Hrun].
  destruct (d_ax s D t g w Hin) as [Hr [Hl [He [Ha [Hh [Hp Hne]]]]]].
  assert (Hnr : running s <> Some t) by (rewrite Hrun; discriminate).
  assert (Ht : top_scope (k_ctl (tasks s t)) = Some w) by (destruct Hin as [exc [H|H]]; rewrite H; reflexivity).
  destruct (c_top s (m_c s M) t w Hnr Ht) as [O1 [O2 [O3 O4]]].
  unfold ax_facts, owns. pose proof (b_gscope s (m_g s M) g). auto 10.
Qed.

Lemma alloc_of_in_aexit s t g w : reach s -> in_aexit s t g w -> alloc s t.
Proof.
  intros R [exc H]. destruct (reachable s R) as [M _].
  destruct (Nat.eq_dec t 0) as [->|H0]; [|destruct (Nat.lt_ge_cases t (ntask s)) as [Hl|Hg]; [split; lia|]].
  - exfalso. assert (Hn : ~ alloc s 0) by (unfold alloc; lia).
    destruct (c_unalloc s (m_c s M) 0 Hn) as [E _]. destruct H as [H|H]; congruence.
  - exfalso. assert (Hn : ~ alloc s t) by (unfold alloc; lia).
    destruct (c_unalloc s (m_c s M) t Hn) as [E _]. destruct H as [H|H]; congruence.
Qed.

Lemma in_aexit_dec s t : (exists g w, in_aexit s t g w) \/ naex (k_ctl (tasks s t)).
Proof.
  destruct (k_ctl (tasks s t)) as [| |k|f tm|g ws exc|g c exc|g child f|child c e wf|h wf|] eqn:Ec;
    try (right; intros g0 w0 exc0; split; discriminate).
  - left. exists g, ws, exc. left. exact Ec.
  - left. exists g, c, exc. right. exact Ec.
Qed.

(* the task t resumed by this step is (still) inside __aexit__ afterwards *)
Lemma resumed_ax s h t g w : reach s -> DInv s -> In h (ready s) -> (h = HStep t \/ exists f, h = HWake t f) ->
  let s' := fst (step s (ARun h)) in let gs := g_scope (groups s g) in
  in_aexit s' t g w ->
  (exists w0, in_aexit s t g w0) /\ g_left (groups s' g) = false /\ s_active (scopes s' gs) = true /\
  s_host (scopes s' gs) = Some t /\ s_parent (scopes s' w) = Some gs /\ w <> gs.
Proof.
  intros R D Hin Hh. cbn zeta. intros Hax'.
  destruct (in_aexit_dec s t) as [[g0 [w0 Hax]]|N].
  - destruct (step_resumes s h t R Hin Hh) as [fo [W E]]. rewrite E in *.
    destruct (resume_aexit_result (dequeue s h) t fo g0 w0 W Hax (ax_facts_of s t g0 w0 R D Hax))
      as [[_ [Hc _]]|[GL [w' [Hax2 [A2 [H2 [P2 N2]]]]]]].
    + exfalso. destruct Hax' as [exc [H|H]]; congruence.
    + assert (Egw : g = g0 /\ w = w').
      { destruct Hax' as [e1 [H1|H1]]; destruct Hax2 as [e2 [H3|H3]]; rewrite H1 in H3; first [discriminate|injection H3; auto]. }
      destruct Egw as [-> ->]. change (groups (dequeue s h)) with (groups s) in *. destruct (d_ax s D t g0 w0 Hax) as [_ [Hl _]].
      refine (conj (ex_intro _ w0 Hax) (conj _ (conj A2 (conj H2 (conj P2 N2))))). congruence.
  - exfalso. apply (in_aexit_naex _ t g w Hax'), step_ctl_naex; [|intros ? ? E; discriminate E|exact N].
    destruct Hh as [->|[f ->]]; reflexivity.
Qed.

Lemma dinv_step s o : reach s -> DInv s -> okop s o = true -> DInv (fst (step s o)).
Proof.
  intros R D Ho. set (s' := fst (step s o)).
  pose proof (reachable s R) as [M Hrun]. pose proof (reachable s' (reach_step s o R)) as [M' Hrun'].
  pose proof (task_facts_stable s o R) as TS. fold s' in TS.
  pose proof (step_scope_frame s o) as [_ [_ [SFs SFt]]]. fold s' in SFs, SFt.
  pose proof (new_task_qh (nscope s, nfut s) s o R eq_refl) as NQ. fold s' in NQ.
  assert (Hng : ngroup s <= ngroup s') by (apply tstab_ngroup, TS).
  assert (RK : forall g, real s g -> g_scope (groups s' g) = g_scope (groups s g)) by (intros g; apply real_keep; auto).
  assert (RS : forall g, real s g -> real s' g) by (intros g Hr; unfold real; rewrite RK; auto).
  assert (RB := fun g => real_back s o g R). fold s' in RB.
  assert (GN := fun g => gc_norm s o g R). cbn zeta in GN. fold s' in GN.
  assert (Bg := b_gscope s (m_g s M)).
  constructor.
  - (* n_one *) pose proof (n_one s D). lia.
  - (* n_un *)
    intros g Hg. assert (Hu : g = 0 \/ ngroup s <= g) by (destruct Hg; [auto|right; lia]).
    destruct (n_un s D g Hu) as [U1 [U2 U3]].
    assert (Hnr : ~ real s g) by (intros H; apply H; exact U1).
    destruct (step_group_cases s o g R) as [E|[[t [E1 [E0 [E2 E]]]]|[[t [E1 E]]|[[t [E1 [E2 [E3 E]]]]|[[t [e [E1 [E2 [E3 [E4 E]]]]]]|[[E P]|[t [E1 [E2 [E3 E]]]]]]]]]];
      fold s' in E.
    + rewrite E. auto.
    + exfalso. subst o. pose proof (ngroup_group_new s t E0) as Hn. fold s' in Hn. pose proof (n_one s D). destruct Hg; lia.
    + exfalso. subst o. apply Hnr, (okop_genter s t g Ho).
    + exfalso. unfold group_active in E3. rewrite U2 in E3. discriminate.
    + exfalso. subst o. apply Hnr, (okop_gexit s t g Ho).
    + exfalso. destruct P as [[t [-> _]]|[t [h [w [exc [_ [_ [_ P]]]]]]]].
      * apply Hnr, (okop_gexit s t g Ho).
      * apply Hnr. apply (d_ax s D t g w). exists exc. exact P.
    + destruct E as [E|[e [_ E]]]; rewrite E; cbn; auto.
  - (* d_f1 *)
    intros g g' Hr Hr' Es.
    destruct (RB g Hr) as [[H1 H2]|[H1 [H2 H3]]]; destruct (RB g' Hr') as [[H1' H2']|[H1' [H2' H3']]].
    + apply (d_f1 s D g g' H1 H1'). congruence.
    + exfalso. rewrite H2, H3' in Es. cbn in Es. pose proof (Bg g). lia.
    + exfalso. rewrite H2', H3 in Es. cbn in Es. pose proof (Bg g'). lia.
    + congruence.
  - (* d_f2 *)
    intros t g Hgr Hr. destruct TS as [_ TS2].
    destruct (Nat.lt_ge_cases t (ntask s)) as [Hlt|Hge].
    + destruct (TS2 t Hlt) as [T1 [T2 _]]. rewrite T1 in Hgr. rewrite T2.
      destruct (RB g Hr) as [[H1 H2]|[H1 [H2 H3]]].
      * rewrite H2. apply (d_f2 s D t g Hgr H1).
      * rewrite H3. cbn. pose proof (c_bsc s (m_c s M) t). lia.
    + assert (Hna : ~ alloc s t) by (unfold alloc; lia).
      destruct (c_unalloc s (m_c s M) t Hna) as [_ [_ [Hg0 [_ [_ [Hs0 _]]]]]].
      destruct (NQ t (or_introl (conj Hg0 Hs0))) as [[Q _]|[Q _]]; [contradiction|]. rewrite Q. cbn [fst].
      destruct (RB g Hr) as [[H1 H2]|[H1 [[t0 [-> Hi]] H3]]].
      * rewrite H2. pose proof (Bg g). lia.
      * exfalso. destruct (group_new_facts s t0 Hi) as [Hnt _]. fold s' in Hnt.
        assert (Hna' : ~ alloc s' t) by (unfold alloc; lia).
        destruct (c_unalloc s' (m_c s' M') t Hna') as [_ [_ [Hg0' _]]]. contradiction.
  - (* d_entr *)
    intros g He. destruct (GN g) as [[_ [_ E]]|[_ [_ [E _]]]].
    + rewrite E in He. discriminate.
    + destruct (E He) as [H|[t ->]]; [apply RS, (d_entr s D g H)|apply RS, (okop_genter s t g Ho)].
  - (* d_ent *)
    intros g Hr Ha.
    destruct (RB g Hr) as [[H1 H2]|[H1 [[t0 [-> Hi]] H3]]].
    + rewrite H2 in Ha. destruct (GN g) as [[E _]|[_ [Em _]]]; [destruct (real_galloc s g D H1); lia|].
      destruct (s_active (scopes s (g_scope (groups s g)))) eqn:Ea0; [apply Em, (d_ent s D g H1 Ea0)|].
      destruct (SFs _ (Bg g)) as [SFi _].
      destruct (classic_entered s o (g_scope (groups s g))) as [He|He].
      * destruct (entered_group_scope s o g R D Ho H1 He) as [t ->].
        destruct (idle s t) eqn:Ei.
        -- unfold s'. cbn [step actor]. rewrite Ei. cbn [negb]. rewrite groups_op_group_enter.
           destruct (g_entered (groups s g)) eqn:Ee; [exact Ee|]. rewrite upd_same. reflexivity.
        -- exfalso. unfold s' in Ha. cbn [step actor] in Ha. rewrite Ei in Ha. cbn [negb fst] in Ha. congruence.
      * destruct (SFi Ea0 He) as [E _]. congruence.
    + exfalso. rewrite H3 in Ha. cbn in Ha. destruct (group_new_facts s t0 Hi) as [_ Hin]. fold s' in Hin. congruence.
  - (* d_left *)
    intros g Hl. destruct (GN g) as [[_ [_ E]]|[Es [Em [_ [_ [Ef Et]]]]]]; [rewrite E in Hl; discriminate|].
    destruct (g_left (groups s g)) eqn:Hl0.
    { destruct (d_left s D g Hl0) as [Hr [He [Hi Ht]]].
      refine (conj (RS g Hr) (conj (Em He) (conj _ _))).
      * rewrite Es. apply inactive_group_scope_stays; auto.
      * destruct (g_tasks (groups s' g)) eqn:Et'; [reflexivity|]. exfalso.
        destruct Et as [H|H]; [discriminate|congruence|]. unfold group_active in H. rewrite Hi, andb_false_r in H. discriminate. }
    destruct (Ef Hl) as [Hl1|Hflip]; [discriminate Hl1|].
    destruct (group_exit_joins_all_step s o g R Hl0 Hl) as [Htasks _]. fold s' in Htasks.
    destruct Hflip as [[t [-> Hi]]|[t [h [w [-> [Hin [Hh Hax]]]]]]].
    + exfalso. destruct (okop_gexit s t g Ho) as [Hr [Ha [Hh Hc]]].
      pose proof (group_exit_result s t g Ha Hh Hc (Bg g)) as [GL _].
      unfold s' in Hl. rewrite (step_group_exit s t g Hi) in Hl. congruence.
    + destruct (d_ax s D t g w Hax) as [Hr [_ [He _]]].
      destruct (step_resumes s h t R Hin Hh) as [fo [W Es']].
      pose proof (resume_aexit_result (dequeue s h) t fo g w W Hax (ax_facts_of s t g w R D Hax)) as Res.
      rewrite <- Es' in Res. fold s' in Res.
      destruct Res as [[Hina _]|[GL _]]; [|exfalso; change (groups (dequeue s h) g) with (groups s g) in GL; congruence].
      refine (conj (RS g Hr) (conj (Em He) (conj _ Htasks))). rewrite Es. exact Hina.
  - (* d_ax *)
    intros t g w Hax'.
    assert (Hal' : alloc s' t) by (apply (alloc_of_in_aexit s' t g w (reach_step s o R) Hax')).
    (* transport for a task that does not act in this step *)
    assert (Keep : t <> acting o -> in_aexit s t g w /\
              real s' g /\ g_left (groups s' g) = false /\ g_entered (groups s' g) = true /\
              s_active (scopes s' (g_scope (groups s' g))) = true /\ s_host (scopes s' (g_scope (groups s' g))) = Some t /\
              s_parent (scopes s' w) = Some (g_scope (groups s' g)) /\ w <> g_scope (groups s' g)).
    { intros Hna. destruct (SFt t Hna) as [Sl Sg].
      destruct (Nat.lt_ge_cases t (ntask s)) as [Hlt|Hge].
      - destruct (Sl Hlt) as [_ Ec]. assert (Hax : in_aexit s t g w) by (destruct Hax' as [exc H]; exists exc; now rewrite <- Ec).
        split; [exact Hax|].
        destruct (d_ax s D t g w Hax) as [Hr [Hl [He [Ha [Hh [Hp Hne]]]]]].
        destruct (ax_facts_of s t g w R D Hax) as [_ [_ [_ [_ [Hlt' [O1 [O2 [O3 O4]]]]]]]].
        destruct (GN g) as [[E _]|[Es [Em [_ [_ [Ef _]]]]]]; [destruct (real_galloc s g D Hr); lia|].
        rewrite Es.
        destruct (SFs _ Hlt') as [_ SFa]. destruct (SFa Ha) as [G1 [G2 _]]; [rewrite Hh; congruence|].
        destruct (SFs _ O4) as [_ SFw]. destruct (SFw O1) as [_ [_ W3]]; [rewrite O2; congruence|].
        rewrite G1, G2, W3. refine (conj (RS g Hr) (conj _ (conj (Em He) (conj Ha (conj Hh (conj Hp Hne)))))).
        destruct (g_left (groups s' g)) eqn:Hl'; [|reflexivity]. exfalso.
        destruct (Ef eq_refl) as [H|[[t' [-> Hi]]|[t' [h [w' [-> [Hin [Hh' Hax2]]]]]]]]; [congruence| |].
        + destruct (okop_gexit s t' g Ho) as [_ [_ [Hh2 _]]]. assert (t' = t) by congruence. subst t'.
          unfold idle in Hi. destruct Hax as [exc [H|H]]; rewrite H in Hi; discriminate.
        + destruct (d_ax s D t' g w' Hax2) as [_ [_ [_ [_ [Hh2 _]]]]]. assert (t' = t) by congruence. subst t'.
          apply Hna. destruct Hh' as [->|[f ->]]; reflexivity.
      - exfalso. assert (Hna0 : ~ alloc s t) by (unfold alloc; lia).
        destruct (c_unalloc s (m_c s M) t Hna0) as [Ec _].
        assert (N : newctl (k_ctl (tasks s' t))) by (apply Sg; [exact Hge|left; exact Ec]).
        destruct Hax' as [exc [H|H]]; rewrite H in N; destruct N as [N|[N|N]]; discriminate. }
    destruct (Nat.eq_dec t (acting o)) as [Hact|Hna]; [|apply Keep, Hna].
    (* the acting task *)
    assert (Ht0 : t <> 0) by (destruct Hal'; lia).
    destruct (acting_cases o t Hact Ht0) as [Ea|[h [-> Hh]]].
    + destruct (idle s t) eqn:Ei.
      2:{ assert (Es' : s' = s) by (unfold s'; now apply (step_not_idle s o t)). rewrite Es' in *. apply (d_ax s D t g w Hax'). }
      assert (Hidle : naex (k_ctl (tasks s t))).
      { unfold idle in Ei. destruct (k_ctl (tasks s t)); try discriminate. apply naex_idle. }
      destruct o; try (exfalso; apply (in_aexit_naex s' t g w Hax'), step_ctl_naex;
        [cbn in Ea |- *; congruence|intros ? ? E; discriminate E|exact Hidle]).
      (* AGroupExit *) cbn in Ea. injection Ea as ->.
      destruct (okop_gexit s t g0 Ho) as [Hr [Ha [Hh Hc]]].
      pose proof (group_exit_result s t g0 Ha Hh Hc (Bg g0)) as [GL [w' [Hax2 [A2 [H2 [P2 N2]]]]]].
      rewrite <- (step_group_exit s t g0 Ei) in GL, Hax2, A2, H2, P2. fold s' in GL, Hax2, A2, H2, P2.
      assert (Egw : g = g0 /\ w = w').
      { destruct Hax' as [e1 [H1|H1]]; destruct Hax2 as [e2 [H3|H3]]; rewrite H1 in H3; first [discriminate|injection H3; auto]. }
      destruct Egw as [-> ->].
      assert (Hl0 : g_left (groups s g0) = false).
      { destruct (g_left (groups s g0)) eqn:E; [|reflexivity]. destruct (d_left s D g0 E) as [_ [_ [Hi _]]]. congruence. }
      rewrite (RK g0 Hr).
      destruct (GN g0) as [[E _]|[_ [Em _]]]; [destruct (real_galloc s g0 D Hr); lia|].
      refine (conj (RS g0 Hr) (conj _ (conj (Em (d_ent s D g0 Hr Ha)) (conj A2 (conj H2 (conj P2 N2)))))). congruence.
    + destruct (in_dec_handle h (ready s)) as [Hin|Hnin].
      2:{ assert (Es' : s' = s) by (unfold s'; now rewrite (step_run_notin s _ Hnin)). rewrite Es' in *. apply (d_ax s D t g w Hax'). }
      destruct Hh as [Hh| ->].
      * destruct (resumed_ax s h t g w R D Hin Hh Hax') as [[w0 Hax] [L2 [A2 [H2 [P2 N2]]]]]. fold s' in L2, A2, H2, P2.
        destruct (d_ax s D t g w0 Hax) as [Hr [_ [He _]]]. rewrite (RK g Hr).
        destruct (GN g) as [[E _]|[_ [Em _]]]; [destruct (real_galloc s g D Hr); lia|].
        exact (conj (RS g Hr) (conj L2 (conj (Em He) (conj A2 (conj H2 (conj P2 N2)))))).
      * (* HTaskDone t: a done task *)
        exfalso. destruct (k_td s (m_k s M) t Hin) as [Hd [_ [_ Hal]]].
        destruct TS as [_ TS2]. destruct (TS2 t (proj2 Hal)) as [_ [_ [_ [_ [Td _]]]]].
        destruct (k_done (tasks s t)) as [d|] eqn:Ed; [|contradiction].
        assert (Hd' : k_done (tasks s' t) <> None) by (rewrite (Td d eq_refl); discriminate).
        pose proof (c_done1 s' (m_c s' M') t Hd') as Hc1.
        destruct Hax' as [exc [H|H]]; congruence.
Qed.

Lemma dinv_init : DInv init.
Proof.
  constructor; cbn [init ngroup groups tasks scopes].
  - lia.
  - intros g _. cbn. auto.
  - intros g g' H. exfalso. apply H. reflexivity.
  - intros t g _ H. exfalso. apply H. reflexivity.
  - intros g H. discriminate.
  - intros g H. exfalso. apply H. reflexivity.
  - intros g H. discriminate.
  - intros t g w [exc [H|H]]; discriminate.
Qed.

Theorem dreach_dinv s : dreach s -> DInv s.
Proof.
  apply (dreach_ind DInv); [exact dinv_init|].
  intros s0 o D0 I0 Ho. apply dinv_step; auto. apply dreach_reach, D0.
Qed.

(* C01, state form, for disciplined op sequences *)
Theorem group_exit_joins_all s g : dreach s -> g_left (groups s g) = true ->
  g_tasks (groups s g) = [] /\
  forall t, In t (g_ever (groups s g)) -> k_done (tasks s t) <> None /\ k_tdran (tasks s t) = true.
Proof.
  intros D Hl. destruct (d_left s (dreach_dinv s D) g Hl) as [_ [_ [_ Ht]]].
  split; [exact Ht|]. apply empty_group_all_joined; [apply dreach_reach, D|exact Ht].
Qed.

Theorem left_group_is_inactive s g : dreach s -> g_left (groups s g) = true -> group_active s g = false.
Proof.
  intros D Hl. destruct (d_left s (dreach_dinv s D) g Hl) as [_ [_ [Hi _]]].
  unfold group_active. rewrite Hi. apply andb_false_r.
Qed.

Theorem no_spawn_after_left s o g : dreach s -> g_left (groups s g) = true -> okop s o = true ->
  g_ever (groups (fst (step s o)) g) = g_ever (groups s g) /\ g_left (groups (fst (step s o)) g) = true.
Proof.
  intros D Hl Ho. pose proof (dreach_reach s D) as R. pose proof (dreach_dinv s D) as DI. split.
  - destruct (list_eq_dec Nat.eq_dec (g_ever (groups (fst (step s o)) g)) (g_ever (groups s g))) as [E|Hne]; [exact E|].
    exfalso. destruct (group_members_grow_only_by_spawn s o g R Hne) as [[t [_ [_ [Ha _]]]]|[t [_ Hg]]].
    + rewrite (left_group_is_inactive s g D Hl) in Ha. discriminate.
    + destruct (d_left s DI g Hl) as [Hr _]. destruct (real_galloc s g DI Hr). lia.
  - destruct (gc_norm s o g R) as [[Hg _]|[_ [_ [_ [Hm _]]]]]; [|apply Hm, Hl].
    destruct (d_left s DI g Hl) as [Hr _]. destruct (real_galloc s g DI Hr). lia.
Qed.

(* roots 1 and 2; 1 opens group 1 and spawns child 3; child 3 opens the nested group 2 and start()s child 4, which
   calls started(9); the outsider 2 spawns child 5 into group 1 and then cancels group 1's scope; everything
   unwinds: 4 and 5 finish cancelled, 3 leaves group 2 and finishes, 1 leaves group 1 *)
Definition ops_rich : list op :=
  [ANewRoot; ANewRoot; AGroupNew 1; AGroupEnter 1 1; ASpawn 1 1; ARun (HStep 3); AGroupNew 3; AGroupEnter 3 2;
   AStart 3 2; ARun (HStep 4); AStarted 4 9; ARun (HWake 3 9); ASpawn 2 1; ARun (HStep 5); ACancel 2 1;
   ARun (HWake 4 11); AFinish 4 0; ARun (HTaskDone 4); ARun (HWake 5 14); AFinish 5 0; ARun (HTaskDone 5);
   ARun (HWake 3 12); AGroupExit 3 2; ARun (HStep 3); AFinish 3 0; ARun (HTaskDone 3);
   ARun (HWake 1 5); AGroupExit 1 1; ARun (HStep 1)].

Example ex_rich_disciplined :
  disciplined ops_rich = true /\
  let s := final step init ops_rich in
  g_left (groups s 1) = true /\ g_left (groups s 2) = true /\
  g_ever (groups s 1) = [3; 5] /\ g_ever (groups s 2) = [4] /\
  nth 11 (snd (run_ops step init ops_rich)) RNone = RRet 9.
Proof. vm_compute. repeat split; reflexivity. Qed.

Lemma dreach_final ops : disciplined ops = true -> dreach (final step init ops).
Proof. intros H. exists ops. auto. Qed.

Example ex_no_spawn_after_left_hyp :
  let s := final step init ops_rich in
  g_left (groups s 1) = true /\ okop s (ASpawn 2 1) = true /\ snd (step s (ASpawn 2 1)) = RExc ERuntime.
Proof. vm_compute. auto. Qed.

(* the misuse sequences of GroupThms7 are not disciplined *)
Example ex_reenter_not_disciplined :
  disciplined [ANewRoot; AGroupNew 1; AGroupEnter 1 1; AGroupExit 1 1; ARun (HStep 1); AEnter 1 1; ASpawn 1 1] = false.
Proof. vm_compute. reflexivity. Qed.

Example ex_foreign_exit_not_disciplined :
  disciplined [ANewRoot; ANewRoot; AGroupNew 1; AGroupEnter 1 1; AGroupExit 2 1; ARun (HStep 2); ASpawn 1 1] = false.
Proof. vm_compute. reflexivity. Qed.

Example ex_double_exit_not_disciplined :
  disciplined [ANewRoot; AGroupNew 1; AGroupEnter 1 1; AHold 1 7; AGroupExit 1 1; ARun (HStep 1);
               AGroupExit 1 1; ARun (HStep 1)] = false.
Proof. vm_compute. reflexivity. Qed.

(* the same three theorems stated on op lists *)
Theorem group_exit_joins_all_ops ops g : disciplined ops = true ->
  g_left (groups (final step init ops) g) = true ->
  g_tasks (groups (final step init ops) g) = [] /\
  forall t, In t (g_ever (groups (final step init ops) g)) ->
    k_done (tasks (final step init ops) t) <> None /\ k_tdran (tasks (final step init ops) t) = true.
Proof. intros H. apply group_exit_joins_all, dreach_final, H. Qed.

Theorem no_spawn_after_left_ops ops o g : disciplined ops = true ->
  g_left (groups (final step init ops) g) = true -> okop (final step init ops) o = true ->
  g_ever (groups (fst (step (final step init ops) o)) g) = g_ever (groups (final step init ops) g) /\
  g_left (groups (fst (step (final step init ops) o)) g) = true.
Proof. intros H. apply no_spawn_after_left, dreach_final, H. Qed.

Theorem left_group_is_inactive_ops ops g : disciplined ops = true ->
  g_left (groups (final step init ops) g) = true -> group_active (final step init ops) g = false.
Proof. intros H. apply left_group_is_inactive, dreach_final, H. Qed.

(* a task's control state and current scope change only in steps in which that task acts (its own puppet op, the
   resumption by one of its handles, or its task_done callback); in particular a caller of start() leaves
   CStartJoin only by being resumed *)
Theorem ctl_changes_only_when_acting s o t : t < ntask s -> t <> acting o ->
  k_ctl (tasks (fst (step s o)) t) = k_ctl (tasks s t) /\ k_cur (tasks (fst (step s o)) t) = k_cur (tasks s t).
Proof.
  intros Ht Hne. destruct (step_scope_frame s o) as [_ [_ [_ SFt]]]. destruct (SFt t Hne) as [Sl _].
  destruct (Sl Ht) as [E1 E2]. auto.
Qed.

Example ex_ctl_frame :
  let s := final step init [ANewRoot; AGroupNew 1; AGroupEnter 1 1; AStart 1 1; ANativeCancel 1; ARun (HWake 1 4)] in
  (exists sc e wf, k_ctl (tasks s 1) = CStartJoin 2 sc e wf) /\ 1 < ntask s /\ 1 <> acting (ARun (HStep 2)).
Proof. vm_compute. split; [eauto|split; [lia|discriminate]]. Qed.

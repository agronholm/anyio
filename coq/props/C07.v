(* C07 — TaskGroup.start(): readiness handshake is exact and loses nothing.
   This file contains only statements closed by `exact` and their Print Assumptions. *)
From AV Require Import Base Machine GroupInv GroupThmsPure GroupThms GroupThms6 GroupThms10 GroupThms11 GroupThms13
  GroupThms14 GroupThms15.
From AV Require TreeStep.

Theorem C07_start_returns_started_value : forall s t g c f h v, reach s -> k_ctl (tasks s t) = CStartWait g c f ->
  (h = HStep t \/ exists f', h = HWake t f') -> snd (step s (ARun h)) = RRet v ->
  f_st (futs s f) = FRes v /\ h = HWake t f.
Proof. exact start_returns_started_value. Qed.
Print Assumptions C07_start_returns_started_value.

Theorem C07_started_sets_value : forall s t v f, reach s -> idle s t = true -> k_startfut (tasks s t) = Some f ->
  f_st (futs s f) = FPend -> f_st (futs (fst (step s (AStarted t v))) f) = FRes v.
Proof. exact started_sets_value. Qed.
Print Assumptions C07_started_sets_value.

(* nothing else can complete a start future: it is not an event waiter, not an on_completed future, not a sleep
   future, and belongs to exactly one child *)
Theorem C07_start_future_exclusive : forall s c f, reach s -> k_startfut (tasks s c) = Some f ->
  (forall e, ~ In f (e_waiters (events s e))) /\ (forall g, g_fut (groups s g) <> Some f) /\
  ~ ((exists tm, In (HSleepDone f tm) (ready s)) \/ (exists x, In x (timers s) /\ tm_what x = TSleep f)) /\
  (forall c', k_startfut (tasks s c') = Some f -> c' = c) /\ f < nfut s.
Proof. exact start_future_exclusive. Qed.
Print Assumptions C07_start_future_exclusive.

Theorem C07_start_pre_started_failure_routed : forall s t g f, reach s -> In (HTaskDone t) (ready s) ->
  k_group (tasks s t) = Some g -> k_startfut (tasks s t) = Some f -> f_st (futs s f) = FPend ->
  f_st (futs (fst (step s (ARun (HTaskDone t)))) f) =
    FExc (match k_done (tasks s t) with Some (OExc e) => e | Some (OCanc e) => e | _ => ERuntime end) /\
  g_excs (groups (fst (step s (ARun (HTaskDone t)))) g) = g_excs (groups s g) /\
  (forall c, s_cancelled (scopes (fst (step s (ARun (HTaskDone t)))) c) = s_cancelled (scopes s c)).
Proof. exact start_pre_started_failure_routed. Qed.
Print Assumptions C07_start_pre_started_failure_routed.

Theorem C07_start_cancel_joins_child : forall s t g c f h, reach s -> k_ctl (tasks s t) = CStartWait g c f ->
  In h (ready s) -> (h = HStep t \/ exists f', h = HWake t f') ->
  snd (step s (ARun h)) = RBlocked ->
  (exists sc e wf, k_ctl (tasks (fst (step s (ARun h))) t) = CStartJoin c sc e wf) /\
  s_cancelled (scopes (fst (step s (ARun h))) (k_hscope (tasks s c))) = true.
Proof. exact start_cancel_joins_child. Qed.
Print Assumptions C07_start_cancel_joins_child.

Theorem C07_start_join_wakeup_means_child_finished : forall s t ch c e f v, reach s ->
  k_ctl (tasks s t) = CStartJoin ch c e (Some f) -> f_st (futs s f) = FRes v ->
  e_set (events s (k_hevent (tasks s ch))) = true /\ k_final (tasks s ch) <> None.
Proof. exact start_join_wakeup_means_child_finished. Qed.
Print Assumptions C07_start_join_wakeup_means_child_finished.

Theorem C07_start_no_error_lost : forall s g t e, reach s -> In t (g_ever (groups s g)) ->
  k_tdran (tasks s t) = true -> k_done (tasks s t) = Some (OExc e) ->
  In e (map snd (g_excs (groups s g))) \/
  exists f, k_startfut (tasks s t) = Some f /\ f_st (futs s f) = FExc e.
Proof. exact start_no_error_lost. Qed.
Print Assumptions C07_start_no_error_lost.

Theorem C07_second_started_result : forall s t v f,
  idle s t = true -> k_startfut (tasks s t) = Some f ->
  snd (step s (AStarted t v)) =
  match f_st (futs s f) with
  | FPend => RRet 0
  | FRes _ | FExc _ => RExc ERuntime
  | FCanc _ => RRet 0
  end.
Proof. exact second_started_result. Qed.
Print Assumptions C07_second_started_result.

Theorem C07_second_started_keeps_future : forall s t v f, reach s -> idle s t = true ->
  k_startfut (tasks s t) = Some f -> f_st (futs s f) <> FPend ->
  f_st (futs (fst (step s (AStarted t v))) f) = f_st (futs s f).
Proof. exact second_started_keeps_future. Qed.
Print Assumptions C07_second_started_keeps_future.

(* the caller waiting in CStartJoin (or any suspended task) keeps its control state until one of its own handles
   is run: acting o is the actor of a puppet op, resp. the task of the handle being run *)
Theorem C07_ctl_changes_only_when_acting : forall s o t, t < ntask s ->
  t <> (match actor o with
        | Some a => a
        | None => match o with ARun (HStep x) | ARun (HWake x _) | ARun (HTaskDone x) => x | _ => 0 end
        end) ->
  k_ctl (tasks (fst (step s o)) t) = k_ctl (tasks s t) /\ k_cur (tasks (fst (step s o)) t) = k_cur (tasks s t).
Proof. exact ctl_changes_only_when_acting. Qed.
Print Assumptions C07_ctl_changes_only_when_acting.

(* a start future (owned by child c) changes to FRes v only in the step `AStarted c v`, performed by c while idle *)
Theorem C07_start_value_origin : forall s o c f v, reach s -> k_startfut (tasks s c) = Some f ->
  f_st (futs s f) <> FRes v -> f_st (futs (fst (step s o)) f) = FRes v ->
  o = AStarted c v /\ idle s c = true /\ f_st (futs s f) = FPend.
Proof. exact start_value_origin. Qed.
Print Assumptions C07_start_value_origin.

(* end to end, over a run: start() returns v only if an earlier op of the run is started(v) by the child, issued
   while the child was idle (not finished) and its start future still pending *)
Theorem C07_start_returns_only_after_started : forall ops t g c f h v,
  k_ctl (tasks (final step init ops) t) = CStartWait g c f ->
  (h = HStep t \/ exists f', h = HWake t f') -> snd (step (final step init ops) (ARun h)) = RRet v ->
  exists pre post, ops = pre ++ AStarted c v :: post /\
    idle (final step init pre) c = true /\ k_done (tasks (final step init pre) c) = None /\
    k_startfut (tasks (final step init pre) c) = Some f /\ f_st (futs (final step init pre) f) = FPend.
Proof. exact start_returns_only_after_started. Qed.
Print Assumptions C07_start_returns_only_after_started.

(* the join future of a caller in CStartJoin gets a value only in the step in which the child's coroutine ends *)
Theorem C07_start_join_event_wakeup : forall s o t ch sc e f v, reach s ->
  k_ctl (tasks s t) = CStartJoin ch sc e (Some f) -> f_st (futs s f) <> FRes v ->
  f_st (futs (fst (step s o)) f) = FRes v ->
  exists x, o = AFinish ch x /\ idle s ch = true /\ v = 1.
Proof. exact start_join_event_wakeup. Qed.
Print Assumptions C07_start_join_event_wakeup.

(* "start() re-raises only after the child's coroutine ended" (AnyIO cancellation).  A caller t of start() that is
   interrupted while waiting for started() begins to join the child ch in the fresh, shielded, private scope
   sc = nscope s.  The prefix of the run lies in the op_ok domain of the C03/C05 development (TreeStep.reach_ok:
   scope ids allocated, no exit of a foreign scope, ...); the continuation ops is arbitrary except for the
   operations excluded by the boolean predicate quietb t sc (native Task.cancel() on the caller; cancel,
   un-shielding or deadline of sc itself; the delivery callback of sc itself; the resumption of the caller, which
   ends the join).  Then no cancellation reaches the caller (its task record is unchanged), its join future is
   pending or holds the value set by the child's finished event, and the only handle that resumes the caller is
   that wake-up: the caller is resumed, and start() re-raises, only after the child's coroutine ended. *)
Theorem C07_start_join_resumed_only_by_finished_event : forall s t g ch f h ops,
  TreeStep.reach_ok s -> TreeStep.op_ok s (ARun h) = true ->
  k_ctl (tasks s t) = CStartWait g ch f -> In h (ready s) -> (h = HStep t \/ exists f', h = HWake t f') ->
  snd (step s (ARun h)) = RBlocked ->
  let s0 := fst (step s (ARun h)) in
  let sc := nscope s in
  exists e wf, k_ctl (tasks s0 t) = CStartJoin ch sc e wf /\
    (wf = None -> k_final (tasks s0 ch) <> None) /\
    forall fj, wf = Some fj -> forallb (quietb t sc) ops = true ->
      let s1 := final step s0 ops in
      tasks s1 t = tasks s0 t /\
      (f_st (futs s1 fj) = FPend \/ exists v, f_st (futs s1 fj) = FRes v) /\
      (forall v, f_st (futs s1 fj) = FRes v ->
         e_set (events s1 (k_hevent (tasks s1 ch))) = true /\ k_final (tasks s1 ch) <> None) /\
      (forall h', In h' (ready s1) -> (h' = HStep t \/ exists f', h' = HWake t f') ->
         h' = HWake t fj /\ (exists v, f_st (futs s1 fj) = FRes v) /\ k_final (tasks s1 ch) <> None).
Proof. exact start_join_resumed_only_by_finished_event. Qed.
Print Assumptions C07_start_join_resumed_only_by_finished_event.

(* the one-step form, for EVERY op sequence: while the join predicate JP holds (the caller tj is a member of its
   private scope scj only; scj is shielded, active, not cancelled, without deadline, hosted by tj; tj waits on fj
   alone; scj is no handle scope and no group scope), a step other than the excluded ones keeps JP and the
   caller's task record, and changes the join future at most by giving it a value *)
Theorem C07_start_join_step : forall tj fj scj ch ej s o, reach s -> jok tj scj o -> JP tj fj scj ch ej s ->
  JP tj fj scj ch ej (fst (step s o)) /\
  (tasks (fst (step s o)) tj = tasks s tj /\
   (f_st (futs (fst (step s o)) fj) = f_st (futs s fj) \/ exists v, f_st (futs (fst (step s o)) fj) = FRes v)).
Proof. exact step_jr. Qed.
Print Assumptions C07_start_join_step.

(* F20. The starter t waits for started() of child c; the child's handle is no longer pending and the start future
   holds the exception e' the child handed over.  Then the step that resumes the starter returns RExc e' - whether or
   not a native cancellation of the starter is pending (k_must): start() raises the child's error. *)
Theorem C07_start_raises_routed_exception : forall s t g c f e' h, reach s ->
  k_ctl (tasks s t) = CStartWait g c f -> handle_pending s c = false -> f_st (futs s f) = FExc e' ->
  In h (ready s) -> (h = HStep t \/ exists f', h = HWake t f') ->
  h = HWake t f /\ snd (step s (ARun h)) = RExc e'.
Proof. exact start_raises_routed_exception. Qed.
Print Assumptions C07_start_raises_routed_exception.

(* F20 before the fix (step_old = the step with the old CStartWait branch, GroupThms15.v): a run in which the child's
   error EErr 7 is in no result, in no group's collected errors, held by no live task and in no future a live task
   waits on; on the fixed machine the same run makes start() and then the task group raise it *)
Theorem C07_start_error_lost_before_fix_refuted :
  exists ops,
    let '(s, outs) := run_ops step_old init ops in
    k_done (tasks s 2) = Some (OExc (EErr 7)) /\ k_tdran (tasks s 2) = true /\
    f_st (futs s 4) = FExc (EErr 7) /\ k_startfut (tasks s 2) = Some 4 /\
    forallb (fun r => negb (res_has_err 7 r)) outs = true /\ err_visible 7 s = false /\
    err_visible 7 (final step_old init (firstn 10 ops)) = false /\
    k_ctl (tasks s 1) = CDone /\ k_ctl (tasks s 2) = CDone /\
    nth 9 (snd (run_ops step init ops)) RNone = RExc (EErr 7) /\
    nth 11 (snd (run_ops step init ops)) RNone = RExc (EGroup [EErr 7]).
Proof. exact start_error_lost_before_fix_refuted. Qed.
Print Assumptions C07_start_error_lost_before_fix_refuted.

(* the pre-fix step differs from the step only where a starter is resumed while its start future holds an exception *)
Theorem C07_step_old_eq : forall s o,
  (forall t g c f e, k_ctl (tasks s t) = CStartWait g c f -> f_st (futs s f) <> FExc e) ->
  step_old s o = step s o.
Proof. exact step_old_eq. Qed.
Print Assumptions C07_step_old_eq.

(* F20. The error e of a finished member t (task_done has run) is among the errors collected by its group, or it
   sits in t's start future - and then every starter still waiting on that future raises exactly e in the step that
   resumes it, whether or not it has been natively cancelled in between *)
Theorem C07_start_no_error_lost_raised : forall s g t e, reach s -> In t (g_ever (groups s g)) ->
  k_tdran (tasks s t) = true -> k_done (tasks s t) = Some (OExc e) ->
  In e (map snd (g_excs (groups s g))) \/
  exists f, k_startfut (tasks s t) = Some f /\ f_st (futs s f) = FExc e /\
    forall t' g' c h, k_ctl (tasks s t') = CStartWait g' c f -> In h (ready s) ->
      (h = HStep t' \/ exists f', h = HWake t' f') ->
      c = t /\ h = HWake t' f /\ snd (step s (ARun h)) = RExc e.
Proof. exact start_no_error_lost_raised. Qed.
Print Assumptions C07_start_no_error_lost_raised.

(* C17 — TLS streams: faithful transport over any fragmentation, truncation detected (proof, partial).
   Only statements closed by `exact`, each followed by Print Assumptions.
   Theorems 1-6, 12, 15 and 16 are about the pump loop for EVERY SSL-object oracle `ocall` (any stateful function, in
   particular any script), every transport script (fragmentation, cut point, failures) and every operation sequence.
   Exact hypotheses that are easy to overlook:
     * 1 (conservation) has two guards, both sticky ghost flags of the model:
         sendfail s = false  - no transport.send() has raised so far.  A raising send() was handed bytes that the
                               pump had already taken out of the outgoing BIO; they are lost, so after such a failure
                               only the frame conditions remain (the stream is broken anyway);
         late s = false      - the transport has not delivered data AFTER reporting its own EndOfStream (then
                               MemoryBIO.write() refuses the data; no transport obeying the ByteReceiveStream contract
                               does this).
       The third clause (fed = consumed ++ incoming BIO) is unconditional.  Both guards are false on ordinary runs
       (Examples ex_conserved_and_flushed, ex_conservation_guards_false_duplex in TlsPumpProofs.v); what they exclude
       is exhibited by ex_sendfail_excluded / ex_late_excluded.
     * 6 (receive <= max_bytes) is NOT for every oracle: it has the premise that the oracle's read(n) returns at most
       n bytes (a clause of the SSL contract H_ssl; the toy layer satisfies it, 7; the harness observes it on OpenSSL).
       Without that premise only "receive returns exactly what read() returned, and never an empty result" holds (5).
   Theorems 7-11 and 13-14 are about the toy record layer `toy_call`, a concrete SSL object that satisfies the
   record-layer contract H_ssl; OpenSSL itself is not modelled (the harness observes it). *)
From AV Require Import Base TlsPump TlsPumpProofs.

(* 1. ciphertext conservation: while no transport.send() has failed, what the SSL object appended to the outgoing
      BIO is exactly what was sent, in order, plus what is still pending; while the transport delivered no data
      after its own end of stream, what it delivered is exactly what was written to the incoming BIO, in order;
      the incoming BIO holds exactly the fed bytes the SSL object has not consumed yet *)
Theorem C17_pump_ciphertext_conserved :
  forall (O : Type) (ocall : O -> func -> list nat -> bool -> option (O * sslev))
         fuel o0 sc rx tail tx ops,
    let s := snd (fst (run O ocall fuel (o0, init_pst sc rx tail tx) ops)) in
    (sendfail s = false -> produced s = sent_of (trace s) ++ bout s) /\
    (late s = false -> rcvd_of (trace s) = fed s) /\
    fed s = consumed s ++ bin s.
Proof. exact pump_ciphertext_conserved. Qed.
Print Assumptions C17_pump_ciphertext_conserved.

(* 2. a call that returns normally leaves nothing unsent in the outgoing BIO *)
Theorem C17_pump_ok_leaves_nothing_unsent :
  forall (O : Type) (ocall : O -> func -> list nat -> bool -> option (O * sslev)) fuel o f s o' s' v,
    pump O ocall fuel o f s = (o', s', RVal v) -> bout s' = [].
Proof. exact pump_ok_leaves_nothing_unsent. Qed.
Print Assumptions C17_pump_ok_leaves_nothing_unsent.

(* 3. transport.receive() is never awaited while produced ciphertext is still unsent *)
Theorem C17_pump_flushes_before_wait :
  forall (O : Type) (ocall : O -> func -> list nat -> bool -> option (O * sslev))
         fuel o0 sc rx tail tx ops,
    let s := snd (fst (run O ocall fuel (o0, init_pst sc rx tail tx) ops)) in
    forall p r, In (CRecv p r) (trace s) -> p = 0.
Proof. exact pump_flushes_before_wait. Qed.
Print Assumptions C17_pump_flushes_before_wait.

(* 4. standard_compatible: the transport's end of stream reaches the SSL object (write_eof() on the incoming BIO),
      which judges whether the end was legitimate.  (Not standard_compatible: see 12.) *)
Theorem C17_pump_transport_eof_reaches_bio :
  forall (O : Type) (ocall : O -> func -> list nat -> bool -> option (O * sslev))
         fuel o0 rx tail tx ops,
    let s := snd (fst (run O ocall fuel (o0, init_pst true rx tail tx) ops)) in
    forall p, In (CRecv p RxEof) (trace s) -> bin_eof s = true.
Proof. exact pump_transport_eof_reaches_bio. Qed.
Print Assumptions C17_pump_transport_eof_reaches_bio.

(* 5. outcome of receive(n) as a function of the SSL object's LAST answer e to read(n):
      unexpected EOF |-> BrokenResourceError if standard_compatible, EndOfStream otherwise;
      EndOfStream is reported only for an empty read (close_notify, by the contract) or, when not
      standard_compatible, for an unexpected EOF reported by the SSL object or for the transport's own end while the
      SSL object wants to read; hence never for a truncated stream when standard_compatible;
      a value is returned only if read() returned that (non-empty) value *)
Theorem C17_pump_eof_mapping :
  forall (O : Type) (ocall : O -> func -> list nat -> bool -> option (O * sslev))
         fuel o s n o' s' r,
    step O ocall fuel (o, s) (OReceive n) = ((o', s'), r) -> r <> RStuck -> r <> RValueError ->
    exists pre e, olog s' = pre ++ [(FRead n, e)] /\ answered O ocall (FRead n) e /\
      (unexpected_eof e -> r = if std s then RBroken else REndOfStream) /\
      (r = REndOfStream -> (ek e = KOk /\ eval e = []) \/ (std s = false /\ (unexpected_eof e \/ ek e = KWantRead))) /\
      (std s = true -> r = REndOfStream -> ek e = KOk /\ eval e = []) /\
      (forall v, r = RVal v -> ek e = KOk /\ eval e = v /\ v <> []).
Proof. exact pump_eof_mapping. Qed.
Print Assumptions C17_pump_eof_mapping.

(* 6. receive never returns more than max_bytes (nor an empty result) - for every oracle THAT satisfies the contract
      clause "read(n) returns at most n bytes" (first premise) *)
Theorem C17_pump_receive_le_max_bytes :
  forall (O : Type) (ocall : O -> func -> list nat -> bool -> option (O * sslev)),
    (forall o n b be o1 e, ocall o (FRead n) b be = Some (o1, e) -> ek e = KOk -> length (eval e) <= n) ->
    forall fuel o s n o' s' v,
      step O ocall fuel (o, s) (OReceive n) = ((o', s'), RVal v) -> 1 <= length v <= n.
Proof. exact pump_receive_le_max_bytes. Qed.
Print Assumptions C17_pump_receive_le_max_bytes.

(* 7. the toy record layer satisfies that clause of the contract *)
Theorem C17_toy_read_le :
  forall o n b be o1 e, toy_call o (FRead n) b be = Some (o1, e) -> ek e = KOk -> length (eval e) <= n.
Proof. exact toy_read_le. Qed.
Print Assumptions C17_toy_read_le.

Theorem C17_toy_receive_le_max_bytes :
  forall fuel o s n o' s' v, tstep fuel (o, s) (OReceive n) = ((o', s'), RVal v) -> 1 <= length v <= n.
Proof. exact toy_receive_le_max_bytes. Qed.
Print Assumptions C17_toy_receive_le_max_bytes.

(* 8. end-to-end transparency of one endpoint (toy SSL object + pump).  The transport delivers, in ANY chunking
      `chunks`, all but the last D bytes of what the peer put on the wire (handshake, records of the items
      `pitems` of any sizes, close_notify) and then ends; the endpoint handshakes and performs ANY sequence of
      send and receive operations (any receive sizes).  Then: no call blocks; the received plaintext is a prefix
      of the peer's plaintext; an EndOfStream under standard_compatible (or with complete delivery) means
      complete delivery AND all plaintext received; BrokenResourceError only for a truncated stream under
      standard_compatible; the endpoint's own wire output is handshake + records of the accepted items;
      an EndOfStream with at most the close_notify (2 bytes) missing means all plaintext received; when not
      standard_compatible (or with complete delivery) and the peer's hello arrived, EVERY send is accepted -
      also after a ragged end was reported - and nothing is left unsent. *)
Theorem C17_tls_transparent_under_ssl_contract :
  forall m sc pitems chunks D ops fuel,
    forallb sendrecv ops = true ->
    (exists tl, wire m pitems true = concat chunks ++ tl /\ length tl = D) ->
    length chunks + 3 <= fuel ->
    let out := trun fuel (init_tobj m, ep0 sc chunks) (OHandshake :: ops) in
    let rs := snd out in
    let s' := snd (fst out) in
    ~ In RStuck rs /\
    (exists rest, concat pitems = received (OHandshake :: ops) rs ++ rest) /\
    (In REndOfStream rs -> sc = true \/ D = 0 -> D = 0 /\ received (OHandshake :: ops) rs = concat pitems) /\
    (In RBroken rs -> 0 < D /\ sc = true) /\
    produced s' = hello_rec ++ concat (map (records m) (accepted (OHandshake :: ops) rs)) /\
    sent_of (trace s') ++ bout s' = produced s' /\
    (In REndOfStream rs -> D <= 2 -> received (OHandshake :: ops) rs = concat pitems) /\
    (sc = false \/ D = 0 -> 2 <= length (concat chunks) ->
     accepted (OHandshake :: ops) rs = sends_of ops /\ bout s' = []).
Proof. exact tls_endpoint_transparent. Qed.
Print Assumptions C17_tls_transparent_under_ssl_contract.

(* 9. reading to the end: with more receive calls than plaintext bytes the end is reached and reported as
      EndOfStream with everything delivered (complete stream), BrokenResourceError and never EndOfStream
      (truncated, standard_compatible), EndOfStream (truncated, not standard_compatible) *)
Theorem C17_tls_receive_all :
  forall m sc pitems chunks D n k fuel,
    (exists tl, wire m pitems true = concat chunks ++ tl /\ length tl = D) ->
    length chunks + 3 <= fuel -> length (concat pitems) < k ->
    let ops := OHandshake :: repeat (OReceive (S n)) k in
    let rs := snd (trun fuel (init_tobj m, ep0 sc chunks) ops) in
    (D = 0 -> received ops rs = concat pitems /\ In REndOfStream rs /\ ~ In RBroken rs) /\
    (0 < D -> sc = true -> In RBroken rs /\ ~ In REndOfStream rs) /\
    (0 < D -> sc = false -> In REndOfStream rs /\ ~ In RBroken rs) /\
    (D <= 2 -> sc = false -> received ops rs = concat pitems).
Proof. exact tls_receive_all. Qed.
Print Assumptions C17_tls_receive_all.

(* 10. what an endpoint puts on the wire does not depend on what it receives *)
Theorem C17_toy_sender_wire :
  forall m sc rx tail ops fuel,
    forallb sendrecv ops = true -> 1 <= fuel ->
    let out := trun fuel (init_tobj m, init_pst sc rx tail []) (OHandshake :: ops) in
    produced (snd (fst out)) = hello_rec ++ concat (map (records m) (accepted (OHandshake :: ops) (snd out))) /\
    sent_of (trace (snd (fst out))) ++ bout (snd (fst out)) = produced (snd (fst out)).
Proof. exact toy_sender_wire. Qed.
Print Assumptions C17_toy_sender_wire.

(* 11. both directions at once: two endpoints, each fed (in any chunking) a prefix of what the other sent:
       what each receives is a prefix of the plaintext the other one's send() calls accepted *)
Theorem C17_tls_pair_transparent :
  forall m scA scB opsA opsB chunksA chunksB fuel,
    forallb sendrecv opsA = true -> forallb sendrecv opsB = true ->
    length chunksA + 3 <= fuel -> length chunksB + 3 <= fuel ->
    let outA := trun fuel (init_tobj m, ep0 scA chunksA) (OHandshake :: opsA) in
    let outB := trun fuel (init_tobj m, ep0 scB chunksB) (OHandshake :: opsB) in
    prefix (concat chunksA) (sent_of (trace (snd (fst outB)))) ->
    prefix (concat chunksB) (sent_of (trace (snd (fst outA)))) ->
    prefix (received (OHandshake :: opsA) (snd outA)) (concat (accepted (OHandshake :: opsB) (snd outB))) /\
    prefix (received (OHandshake :: opsB) (snd outB)) (concat (accepted (OHandshake :: opsA) (snd outA))).
Proof. exact tls_pair_transparent. Qed.
Print Assumptions C17_tls_pair_transparent.

(* 12. fix c5df3e8, for EVERY SSL-object oracle and transport script: after a receive() that ended with the
       transport's EndOfStream under standard_compatible=False (the SSL object's last answer was "want read"),
       neither BIO is at EOF, nothing is pending, the transport call that ended it was the receive, and a following
       send() IS the SSL object's write on the untouched BIOs, its ciphertext flushed to the transport *)
Theorem C17_pump_ragged_eof_keeps_send_alive :
  forall (O : Type) (ocall : O -> func -> list nat -> bool -> option (O * sslev))
         fuel o s n o1 s1 pre e,
    std s = false ->
    step O ocall fuel (o, s) (OReceive n) = ((o1, s1), REndOfStream) ->
    olog s1 = pre ++ [(FRead n, e)] -> ek e = KWantRead ->
    bin_eof s1 = bin_eof s /\ bout_eof s1 = bout_eof s /\ bout s1 = [] /\
    (exists p tr, trace s1 = tr ++ [CRecv p RxEof]) /\
    forall item o2 e2 fuel2,
      ocall o1 (FWrite item) (bin s1) (bin_eof s) = Some (o2, e2) -> ek e2 = KOk ->
      hd TxOk (txs s1) = TxOk ->
      exists s2, step O ocall (S fuel2) (o1, s1) (OSend item) = ((o2, s2), RVal []) /\
        sent_of (trace s2) = sent_of (trace s1) ++ eemit e2 /\ bout s2 = [] /\
        produced s2 = produced s1 ++ eemit e2 /\
        bin s2 = skipn (econs e2) (bin s1) /\ bin_eof s2 = bin_eof s /\ bout_eof s2 = bout_eof s.
Proof. exact pump_ragged_eof_keeps_send_alive. Qed.
Print Assumptions C17_pump_ragged_eof_keeps_send_alive.

(* 13. closed end-to-end statement (toy record layer, not standard_compatible): the client sends `req` and half-closes
       its transport without close_notify; the server reads to the end (EndOfStream, never BrokenResourceError), THEN
       sends `replies`: all accepted, all on the wire, and the client - fed any chunking of them - receives them
       byte for byte *)
Theorem C17_tls_half_close_reply_delivered :
  forall m req replies chunksS chunksC n k kc fuel,
    concat chunksS = wire m req false ->
    length (concat req) < k -> length (concat replies) < kc ->
    length chunksS + 3 <= fuel -> length chunksC + 3 <= fuel ->
    let opsS := OHandshake :: repeat (OReceive (S n)) k ++ map OSend replies in
    let outS := trun fuel (init_tobj m, ep0 false chunksS) opsS in
    received opsS (snd outS) = concat req /\ In REndOfStream (snd outS) /\ ~ In RBroken (snd outS) /\
    accepted opsS (snd outS) = replies /\
    sent_of (trace (snd (fst outS))) = wire m replies false /\
    (concat chunksC = sent_of (trace (snd (fst outS))) ->
     let opsC := OHandshake :: repeat (OReceive (S n)) kc in
     received opsC (snd (trun fuel (init_tobj m, ep0 false chunksC) opsC)) = concat replies).
Proof. exact tls_half_close_reply_delivered. Qed.
Print Assumptions C17_tls_half_close_reply_delivered.

(* 14. regression witnesses for the tree before c5df3e8 (pump_pinned hands the transport's end to the SSL object also
       when not standard_compatible): 13 is false of it - same toy object, same transport, same operations: the
       reply is refused and never reaches the wire *)
Theorem C17_tls_half_close_reply_delivered_refuted_pinned :
  exists m req replies chunksS n k fuel,
    concat chunksS = wire m req false /\ length (concat req) < k /\ length chunksS + 3 <= fuel /\
    let opsS := OHandshake :: repeat (OReceive (S n)) k ++ map OSend replies in
    let outS := trun_pinned fuel (init_tobj m, ep0 false chunksS) opsS in
    received opsS (snd outS) = concat req /\ In REndOfStream (snd outS) /\
    accepted opsS (snd outS) = [] /\ replies <> [] /\
    sent_of (trace (snd (fst outS))) = wire m [] false /\
    accepted opsS (snd (trun fuel (init_tobj m, ep0 false chunksS) opsS)) = replies /\
    sent_of (trace (snd (fst (trun fuel (init_tobj m, ep0 false chunksS) opsS)))) = wire m replies false.
Proof. exact tls_half_close_reply_delivered_refuted_pinned. Qed.
Print Assumptions C17_tls_half_close_reply_delivered_refuted_pinned.

(* 15. the same statement for both pumps (step_v pinned = step_pinned / step).  ragged_eof_spec pinned says: not
       standard_compatible, receive() ended with EndOfStream and the SSL object's last answer e was NOT its own
       unexpected-EOF verdict (so e is "want read" - the end was the transport's - or an empty read): then both BIOs are
       as before, nothing is pending, and a following send() is the SSL object's write on those BIOs, flushed.
       It is unfolded here: proved for the fixed pump ... *)
Theorem C17_pump_ragged_eof_spec_head :
  forall (O : Type) (ocall : O -> func -> list nat -> bool -> option (O * sslev)) fuel o s n o1 s1 pre e,
    std s = false ->
    step_v false O ocall fuel (o, s) (OReceive n) = ((o1, s1), REndOfStream) ->
    olog s1 = pre ++ [(FRead n, e)] -> ~ unexpected_eof e ->
    bin_eof s1 = bin_eof s /\ bout_eof s1 = bout_eof s /\ bout s1 = [] /\
    forall item o2 e2 fuel2,
      ocall o1 (FWrite item) (bin s1) (bin_eof s) = Some (o2, e2) -> ek e2 = KOk ->
      hd TxOk (txs s1) = TxOk ->
      exists s2, step_v false O ocall (S fuel2) (o1, s1) (OSend item) = ((o2, s2), RVal []) /\
        sent_of (trace s2) = sent_of (trace s1) ++ eemit e2 /\ bout s2 = [] /\
        produced s2 = produced s1 ++ eemit e2 /\
        bin s2 = skipn (econs e2) (bin s1) /\ bin_eof s2 = bin_eof s /\ bout_eof s2 = bout_eof s.
Proof. exact pump_ragged_eof_spec_head. Qed.
Print Assumptions C17_pump_ragged_eof_spec_head.

(* ... and refuted, word for word, for the pinned pump (witness: the transport ends, the pinned pump tells the SSL
   object, which answers with an empty read: EndOfStream is reported with the incoming BIO at EOF) *)
Theorem C17_pump_ragged_eof_spec_refuted_pinned :
  ~ (forall (O : Type) (ocall : O -> func -> list nat -> bool -> option (O * sslev)) fuel o s n o1 s1 pre e,
      std s = false ->
      step_v true O ocall fuel (o, s) (OReceive n) = ((o1, s1), REndOfStream) ->
      olog s1 = pre ++ [(FRead n, e)] -> ~ unexpected_eof e ->
      bin_eof s1 = bin_eof s /\ bout_eof s1 = bout_eof s /\ bout s1 = [] /\
      forall item o2 e2 fuel2,
        ocall o1 (FWrite item) (bin s1) (bin_eof s) = Some (o2, e2) -> ek e2 = KOk ->
        hd TxOk (txs s1) = TxOk ->
        exists s2, step_v true O ocall (S fuel2) (o1, s1) (OSend item) = ((o2, s2), RVal []) /\
          sent_of (trace s2) = sent_of (trace s1) ++ eemit e2 /\ bout s2 = [] /\
          produced s2 = produced s1 ++ eemit e2 /\
          bin s2 = skipn (econs e2) (bin s1) /\ bin_eof s2 = bin_eof s /\ bout_eof s2 = bout_eof s).
Proof. exact pump_ragged_eof_spec_refuted_pinned. Qed.
Print Assumptions C17_pump_ragged_eof_spec_refuted_pinned.

(* 16. behavioural contrast (NOT a refutation of a statement; two scripts chosen to mimic the poisoned and the healthy
       SSL object): with an object that, like OpenSSL 3, keeps reporting the unexpected EOF once it has seen it, the
       pinned pump makes send() raise EndOfStream and write nothing, both BIOs at EOF; the fixed pump never tells the
       object, which performs the write *)
Theorem C17_pump_ragged_eof_pinned_contrast :
  exists (poisoned healthy : list sslev),
    let out := srun_pinned 5 (poisoned, init_pst false [] (Some RxEof) []) [OReceive 10; OSend [1; 2]] in
    snd out = [REndOfStream; REndOfStream] /\ sent_of (trace (snd (fst out))) = [] /\
    bin_eof (snd (fst out)) = true /\ bout_eof (snd (fst out)) = true /\
    let out' := srun 5 (healthy, init_pst false [] (Some RxEof) []) [OReceive 10; OSend [1; 2]] in
    snd out' = [REndOfStream; RVal []] /\ sent_of (trace (snd (fst out'))) = [23; 3; 3; 0; 2; 2; 3] /\
    bin_eof (snd (fst out')) = false /\ bout_eof (snd (fst out')) = false.
Proof. exact pump_ragged_eof_pinned_contrast. Qed.
Print Assumptions C17_pump_ragged_eof_pinned_contrast.

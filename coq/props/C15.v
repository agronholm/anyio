(* C15 — BlockingPortal: every cross-thread call is run once, answered and joined (proof, partial: boundary).
   Model: boundary/Portal.v (loop side of from_thread.BlockingPortal + the join of its TaskGroup; foreign threads
   and the callables are environment ops).  `reach f4 fc s`: s is reachable by SOME op list from `init f4 fc fn`
   for SOME fn; the code under test is `init true true true` (repairs 08c4569 = F4, 2158065 = F11 and 56e7f66 = F39
   present); statements with `f4`/`fc` universally quantified (and no `fn_fixed s = true` hypothesis) hold for the
   pinned variants as well.  F40 is a known finding: see section 7.
   Monitor-only clause (no theorem here, on purpose): "the callable runs in the PORTAL's event-loop thread, whatever
   kind of thread issued the call" (plain thread, AnyIO worker of the portal's loop, AnyIO worker of another loop).
   The model has exactly one loop: `ThreadLand k` IS "the marshalled start_soon runs in the portal's loop".  Which loop
   a hand-over is routed to is decided in the caller's thread (from_thread._token_or_error / run_sync's token), i.e. on
   the other side of the boundary, before any op of this LTS; a caller-kind index with a ghost `ran_on_portal_loop`
   would be true by construction and prove nothing about that routing.  It is part of the oracle contract and is
   validated for every caller kind by the end-to-end monitor harness/c15.py e2e_caller_kinds (seeded change C15_f).
   This file contains only statements closed by `exact`, the definition C15_no_call_left_hanging they speak of, and their
   Print Assumptions. *)
From AV Require Import Base Portal PortalProofs.

(* the invariant behind everything: holds in every reachable state *)
Theorem C15_reachable_inv : forall f4 fc fn ops, Inv (final step (init f4 fc fn) ops).
Proof. exact reachable_inv. Qed.
Print Assumptions C15_reachable_inv.

(* 1. each landed call runs its callable at most once; exactly once when the context has been left *)
Theorem C15_portal_call_once : forall f4 fc s k, reach f4 fc s ->
  c_execs (calls s k) <= 1 /\
  (c_execs (calls s k) = 1 <-> enteredp (c_phase (calls s k)) = true) /\
  (f4 = true -> host s = HLeft -> landedp (c_phase (calls s k)) = true -> c_execs (calls s k) = 1).
Proof. exact portal_call_once. Qed.
Print Assumptions C15_portal_call_once.

Theorem C15_portal_exec_only_in_first_step : forall f4 fc s o k, reach f4 fc s ->
  c_execs (calls (fst (step s o)) k) <> c_execs (calls s k) ->
  c_phase (calls s k) = PLanded /\ (exists sv f, o = TaskStep k WNormal sv f) /\
  c_execs (calls (fst (step s o)) k) = S (c_execs (calls s k)).
Proof. exact portal_exec_only_in_first_step. Qed.
Print Assumptions C15_portal_exec_only_in_first_step.

(* 2. the per-call future is a single-assignment cell carrying exactly the callable's outcome *)
Theorem C15_portal_future_single_assignment : forall f4 fc s k, reach f4 fc s ->
  let c := calls s k in
  c_assigns c <= 1 /\ c_invalid c = false /\
  (forall v, c_fut c = CResult v -> c_outcome c = Some (ORet v)) /\
  (forall e, c_fut c = CExc e -> c_outcome c = Some (ORaise e)) /\
  (c_fut c = CCancelled -> c_fcancel c = true \/ c_outcome c = Some OCancelledOut) /\
  (forall v, c_outcome c = Some (ORet v) -> c_fcancel c = false -> c_fut c = CResult v) /\
  (forall e, c_outcome c = Some (ORaise e) -> c_fcancel c = false -> c_fut c = CExc e) /\
  (c_outcome c = Some OCancelledOut -> c_fut c = CCancelled) /\
  (forall v, c_status c = CResult v <-> c_started c = Some v) /\
  (donep (c_phase c) = true -> c_fut c <> CPending /\ (c_kind c = KStart -> c_status c <> CPending)).
Proof. exact portal_future_single_assignment. Qed.
Print Assumptions C15_portal_future_single_assignment.

Theorem C15_portal_outcome_recorded : forall s k w sv f s', step s (TaskStep k w sv f) = (s', RStepped) ->
  let c' := calls s' k in
  match f with
  | FBlock => c_phase c' = PRunning
  | FReturn v => c_phase c' = PFinished /\ c_outcome c' = Some (ORet v)
  | FRaise e => c_phase c' = PFinished /\ c_outcome c' = Some (ORaise e)
  | FReraise => c_phase c' = PFinished /\ c_outcome c' = Some OCancelledOut /\ w = WInterrupt
  | FCancelOwn => c_phase c' = PFinished /\ c_outcome c' = Some OCancelledOut
  end /\
  (forall v, sv = Some v -> c_started c' = Some v /\ c_status c' = CResult v /\ c_kind c' = KStart).
Proof. exact portal_outcome_recorded. Qed.
Print Assumptions C15_portal_outcome_recorded.

Theorem C15_portal_cell_stable : forall f4 fc s o k, reach f4 fc s ->
  (c_fut (calls s k) <> CPending -> c_fut (calls (fst (step s o)) k) = c_fut (calls s k)) /\
  (c_status (calls s k) <> CPending -> c_status (calls (fst (step s o)) k) = c_status (calls s k)).
Proof. exact portal_cell_stable. Qed.
Print Assumptions C15_portal_cell_stable.

(* 3. cancelling a returned future cancels precisely that task *)
Theorem C15_portal_future_cancel_cancels_that_task_only : forall f4 fc s, reach f4 fc s ->
  (forall k o, o = FutureCancel k \/ o = CancelLand k \/ o = FutureCancelLoop k ->
     (forall j, j <> k -> calls (fst (step s o)) j = calls s j) /\
     group_cancelled (fst (step s o)) = group_cancelled s) /\
  (forall k, c_scope_cancelled (calls s k) = true -> c_fut (calls s k) = CCancelled) /\
  (forall k sv f, snd (step s (TaskStep k WInterrupt sv f)) <> RRejected ->
     c_phase (calls s k) = PRunning /\ (c_scope_cancelled (calls s k) = true \/ group_cancelled s = true)).
Proof. exact portal_future_cancel_cancels_that_task_only. Qed.
Print Assumptions C15_portal_future_cancel_cancels_that_task_only.

Theorem C15_portal_future_cancel_frame : forall s k o, o = FutureCancel k \/ o = CancelLand k \/ o = FutureCancelLoop k ->
  let s' := fst (step s o) in
  (forall j, j <> k -> calls s' j = calls s j) /\ group_cancelled s' = group_cancelled s /\
  members s' = members s /\ host s' = host s /\ woken s' = woken s /\ running s' = running s.
Proof. exact portal_future_cancel_frame. Qed.
Print Assumptions C15_portal_future_cancel_frame.

Theorem C15_portal_future_cancel_reaches_task : forall f4 s k, reach f4 true s ->
  c_phase (calls s k) = PRunning -> c_kind (calls s k) <> KSync -> c_fut (calls s k) = CPending ->
  handed_out (calls s k) = true ->
  let s1 := fst (step s (FutureCancel k)) in
  snd (step s (FutureCancel k)) = RCancelTrue /\ c_fut (calls s1 k) = CCancelled /\
  c_inflight (calls s1 k) = true /\ c_phase (calls s1 k) = PRunning.
Proof. exact portal_future_cancel_reaches_task. Qed.
Print Assumptions C15_portal_future_cancel_reaches_task.

Theorem C15_portal_cancel_inflight_lands : forall f4 fc s k, reach f4 fc s -> c_inflight (calls s k) = true ->
  (forall o, o <> CancelLand k -> c_inflight (calls (fst (step s o)) k) = true) /\
  (loop_ended s = false ->
   let s2 := fst (step s (CancelLand k)) in
   c_scope_cancelled (calls s2 k) = true /\ c_inflight (calls s2 k) = false /\ c_phase (calls s2 k) = c_phase (calls s k) /\
   (c_phase (calls s2 k) = PRunning -> snd (step s2 (TaskStep k WInterrupt None FReraise)) = RStepped)) /\
  (loop_ended s = true -> snd (step s (CancelLand k)) = RLost /\ In k (lost_cancels (fst (step s (CancelLand k))))).
Proof. exact portal_cancel_inflight_lands. Qed.
Print Assumptions C15_portal_cancel_inflight_lands.

(* pinned variant, tree before 2158065 (finding F11): the cancellation of the future is ignored by a call whose
   wrapper started after stop() *)
Theorem C15_portal_future_cancel_after_stop_ignored_pinned :
  let s := final step (init true false true)
             [ThreadIssue 0 KCoro; ThreadLand 0; Stop false; TaskStep 0 WNormal None FBlock; FutureCancel 0] in
  c_phase (calls s 0) = PRunning /\ c_fut (calls s 0) = CCancelled /\ c_fcancel (calls s 0) = true /\
  c_inflight (calls s 0) = false /\ c_scope_cancelled (calls s 0) = false /\
  snd (step s (TaskStep 0 WInterrupt None FReraise)) = RRejected /\ snd (step s (CancelLand 0)) = RRejected.
Proof. exact portal_future_cancel_after_stop_ignored_pinned. Qed.
Print Assumptions C15_portal_future_cancel_after_stop_ignored_pinned.

(* 3b. a call whose OWN outcome is a cancellation not requested through the portal affects only itself *)
Theorem C15_portal_task_step_frame : forall s k w sv f,
  let s' := fst (step s (TaskStep k w sv f)) in
  (forall j, j <> k -> calls s' j = calls s j) /\ group_cancelled s' = group_cancelled s /\
  running s' = running s /\ stop_event s' = stop_event s /\ members s' = members s /\ host s' = host s /\
  woken s' = woken s.
Proof. exact portal_task_step_frame. Qed.
Print Assumptions C15_portal_task_step_frame.

Theorem C15_portal_own_cancellation_is_local : forall f4 fc s k w sv s', reach f4 fc s ->
  step s (TaskStep k w sv FCancelOwn) = (s', RStepped) ->
  (forall j, j <> k -> calls s' j = calls s j) /\ group_cancelled s' = group_cancelled s /\
  running s' = running s /\ members s' = members s /\ host s' = host s /\
  c_phase (calls s' k) = PFinished /\ c_fut (calls s' k) = CCancelled /\
  c_outcome (calls s' k) = Some OCancelledOut /\ c_base_fail (calls s' k) = false /\ c_invalid (calls s' k) = false /\
  (let s'' := fst (step s' (TaskReap k)) in
   snd (step s' (TaskReap k)) = RNone /\ group_cancelled s'' = group_cancelled s /\ running s'' = running s /\
   (forall j, j <> k -> calls s'' j = calls s j) /\ c_phase (calls s'' k) = PReaped /\
   c_fut (calls s'' k) = CCancelled).
Proof. exact portal_own_cancellation_is_local. Qed.
Print Assumptions C15_portal_own_cancellation_is_local.

(* 4. after stop new calls are refused with RuntimeError *)
Theorem C15_portal_stop_clears_running : forall s cr,
  running (fst (step s (Stop cr))) = false /\ stop_event (fst (step s (Stop cr))) = true /\
  group_cancelled (fst (step s (Stop cr))) = orb (group_cancelled s) cr /\
  calls (fst (step s (Stop cr))) = calls s /\ members (fst (step s (Stop cr))) = members s.
Proof. exact portal_stop_clears_running. Qed.
Print Assumptions C15_portal_stop_clears_running.

Theorem C15_portal_host_exit_stops : forall s exc, host s = HBody ->
  snd (step s (HostExit exc)) = RHostBlocked /\ running (fst (step s (HostExit exc))) = false /\
  host (fst (step s (HostExit exc))) <> HBody /\ host (fst (step s (HostExit exc))) <> HLeft.
Proof. exact portal_host_exit_stops. Qed.
Print Assumptions C15_portal_host_exit_stops.

Theorem C15_portal_running_false_forever : forall s ops, running s = false -> running (final step s ops) = false.
Proof. exact portal_running_false_forever. Qed.
Print Assumptions C15_portal_running_false_forever.

Theorem C15_portal_refuses_after_stop : forall s k kd, running s = false -> c_phase (calls s k) = PNone ->
  let s' := fst (step s (ThreadIssue k kd)) in
  snd (step s (ThreadIssue k kd)) = RRefused /\ c_phase (calls s' k) = PRefused /\ c_execs (calls s' k) = 0 /\
  members s' = members s /\ host s' = host s /\ (forall j, j <> k -> calls s' j = calls s j).
Proof. exact portal_refuses_after_stop. Qed.
Print Assumptions C15_portal_refuses_after_stop.

Theorem C15_portal_accepts_while_running : forall s k kd, running s = true -> c_phase (calls s k) = PNone ->
  snd (step s (ThreadIssue k kd)) = RIssued /\ c_phase (calls (fst (step s (ThreadIssue k kd))) k) = PIssued.
Proof. exact portal_accepts_while_running. Qed.
Print Assumptions C15_portal_accepts_while_running.

Theorem C15_portal_land_refused_after_exit : forall s k, host s = HLeft -> loop_ended s = false ->
  c_phase (calls s k) = PIssued ->
  let s' := fst (step s (ThreadLand k)) in
  snd (step s (ThreadLand k)) = RLandRefused /\ c_phase (calls s' k) = PLandRefused /\ members s' = members s /\
  c_execs (calls s' k) = c_execs (calls s k) /\ c_fut (calls s' k) = c_fut (calls s k).
Proof. exact portal_land_refused_after_exit. Qed.
Print Assumptions C15_portal_land_refused_after_exit.

Theorem C15_portal_land_accepted_while_active : forall s k, host s <> HLeft -> c_phase (calls s k) = PIssued ->
  let s' := fst (step s (ThreadLand k)) in
  snd (step s (ThreadLand k)) = RLanded /\ c_phase (calls s' k) = PLanded /\ members s' = members s ++ [k].
Proof. exact portal_land_accepted_while_active. Qed.
Print Assumptions C15_portal_land_accepted_while_active.

Theorem C15_portal_refusal_is_final : forall f4 fc s o k, reach f4 fc s ->
  c_phase (calls s k) = PRefused \/ c_phase (calls s k) = PLandRefused \/ c_phase (calls s k) = PLost ->
  calls (fst (step s o)) k = calls s k /\ c_execs (calls s k) = 0 /\ ~ In k (members s) /\
  c_fut (calls s k) = CPending.
Proof. exact portal_refusal_is_final. Qed.
Print Assumptions C15_portal_refusal_is_final.

Theorem C15_portal_left_forever : forall s ops, host s = HLeft -> host (final step s ops) = HLeft.
Proof. exact portal_left_forever. Qed.
Print Assumptions C15_portal_left_forever.

(* 5. leaving the portal's context joins every task started through it *)
Theorem C15_portal_exit_joins : forall fc s, reach true fc s -> host s = HLeft ->
  members s = [] /\
  forall k, landedp (c_phase (calls s k)) = true ->
    c_phase (calls s k) = PReaped /\ c_execs (calls s k) = 1 /\ c_fut (calls s k) <> CPending /\
    (c_kind (calls s k) = KStart -> c_status (calls s k) <> CPending).
Proof. exact portal_exit_joins. Qed.
Print Assumptions C15_portal_exit_joins.

Theorem C15_portal_no_step_after_exit : forall fc s k w sv f, reach true fc s -> host s = HLeft ->
  snd (step s (TaskStep k w sv f)) = RRejected.
Proof. exact portal_no_step_after_exit. Qed.
Print Assumptions C15_portal_no_step_after_exit.

Theorem C15_portal_left_only_when_empty : forall fc s, reach true fc s -> host s <> HLeft ->
  host (fst (step s ResumeHost)) = HLeft -> members s = [].
Proof. exact portal_left_only_when_empty. Qed.
Print Assumptions C15_portal_left_only_when_empty.

Theorem C15_portal_exit_wakes : forall f4 fc s, reach f4 fc s -> host s = HExitWaiting -> members s = [] ->
  woken s = true /\ snd (step s ResumeHost) = RHostLeft /\ host (fst (step s ResumeHost)) = HLeft.
Proof. exact portal_exit_wakes. Qed.
Print Assumptions C15_portal_exit_wakes.

(* pinned variant, tree before 08c4569 (finding F4): a call landing during the empty-group exit checkpoint is
   orphaned -- the context is left while the call has not even started *)
Theorem C15_portal_exit_joins_refuted_pinned :
  let s := final step (init false true true) [ThreadIssue 0 KCoro; HostExit false; ThreadLand 0; ResumeHost] in
  host s = HLeft /\ c_phase (calls s 0) = PLanded /\ c_execs (calls s 0) = 0 /\ c_fut (calls s 0) = CPending /\
  members s = [0] /\ snd (step s (TaskStep 0 WNormal None FBlock)) = RStepped.
Proof. exact portal_exit_joins_refuted_pinned. Qed.
Print Assumptions C15_portal_exit_joins_refuted_pinned.

(* 6. F39 (repair 56e7f66, switch fn_fixed): a cancelled portal future is reported to wait()/as_completed() *)
Theorem C15_portal_cancelled_future_notified : forall f4 fc s k, reach f4 fc s -> fn_fixed s = true ->
  donep (c_phase (calls s k)) = true -> c_fut (calls s k) = CCancelled ->
  c_notified (calls s k) = true /\ fut_state (calls s k) = SCancelledNotified /\ reported_done (calls s k) = true.
Proof. exact portal_cancelled_future_notified. Qed.
Print Assumptions C15_portal_cancelled_future_notified.

Theorem C15_portal_done_future_reported : forall f4 fc s k, reach f4 fc s -> fn_fixed s = true ->
  donep (c_phase (calls s k)) = true -> reported_done (calls s k) = true.
Proof. exact portal_done_future_reported. Qed.
Print Assumptions C15_portal_done_future_reported.

Theorem C15_portal_notification_sound : forall f4 fc s k, reach f4 fc s ->
  (c_notified (calls s k) = true -> c_fut (calls s k) = CCancelled /\ donep (c_phase (calls s k)) = true) /\
  c_invalid (calls s k) = false /\ fut_state (calls s k) <> SRunning.
Proof. exact portal_notification_sound. Qed.
Print Assumptions C15_portal_notification_sound.

(* pinned variant, tree before 56e7f66: cancelled by the caller => reaped but never notified (coroutine call
   interrupted through its own scope; sync callable cancelled before it ran) *)
Theorem C15_portal_cancelled_future_notified_refuted_pinned :
  (let s := final step (init true true false)
              [ThreadIssue 0 KCoro; ThreadLand 0; TaskStep 0 WNormal None FBlock; FutureCancel 0; CancelLand 0;
               TaskStep 0 WInterrupt None FReraise; TaskReap 0] in
   c_phase (calls s 0) = PReaped /\ c_fut (calls s 0) = CCancelled /\ c_fcancel (calls s 0) = true /\
   c_notified (calls s 0) = false /\ reported_done (calls s 0) = false) /\
  (let s := final step (init true true false)
              [ThreadIssue 0 KSync; ThreadLand 0; FutureCancel 0; TaskStep 0 WNormal None (FReturn 9%Z); TaskReap 0] in
   c_phase (calls s 0) = PReaped /\ c_fut (calls s 0) = CCancelled /\ c_execs (calls s 0) = 1 /\
   c_notified (calls s 0) = false /\ reported_done (calls s 0) = false).
Proof. exact portal_cancelled_future_notified_refuted_pinned. Qed.
Print Assumptions C15_portal_cancelled_future_notified_refuted_pinned.

(* 7. F40 (known finding, predicate landed_after_loop_end): the strong clause, its proof under the
        hypothesis that no hand-over comes after the loop's last iteration, and the refutation without it *)
Definition C15_no_call_left_hanging (ops : list op) : Prop :=
  let s := final step (init true true true) ops in
  lost_cancels s = [] /\
  forall k,
    match c_phase (calls s k) with
    | PLost => False
    | PLanded | PRunning | PFinished | PReaped =>
        host s = HLeft ->
        c_phase (calls s k) = PReaped /\ c_execs (calls s k) = 1 /\ c_fut (calls s k) <> CPending /\
        reported_done (calls s k) = true
    | _ => True
    end.

(* the hypothesis is a predicate on the op list alone (Portal.no_land_after: no ThreadLand k / CancelLand k occurs after
   a LoopEnd in ops); it implies the state-level predicate of the known finding to be false *)
Theorem C15_portal_no_land_after_loop_end_sound : forall ops,
  no_land_after_loop_end ops = true -> landed_after_loop_end ops = false.
Proof. exact portal_no_land_after_loop_end_sound. Qed.
Print Assumptions C15_portal_no_land_after_loop_end_sound.

Theorem C15_portal_no_call_left_hanging : forall ops,
  no_land_after false ops = true -> C15_no_call_left_hanging ops.
Proof. exact portal_no_call_left_hanging. Qed.
Print Assumptions C15_portal_no_call_left_hanging.

Theorem C15_portal_landed_after_loop_end_refuted :
  exists ops, no_land_after_loop_end ops = false /\ landed_after_loop_end ops = true /\ ~ C15_no_call_left_hanging ops /\
    let s := final step (init true true true) ops in
    c_phase (calls s 0) = PLost /\ c_execs (calls s 0) = 0 /\ c_fut (calls s 0) = CPending /\
    forall ops', calls (final step s ops') 0 = calls s 0.
Proof. exact portal_landed_after_loop_end_refuted. Qed.
Print Assumptions C15_portal_landed_after_loop_end_refuted.

(* 8. F47 (repair dbf6f53): the exception delivered does not depend on the exception's truth value.  Exceptions
        are integer codes here (e_falsy = 4 is the distinguished one): C15_portal_future_single_assignment already holds for
        every code; for start_task, a failure before started() reaches start_task's caller as the task's own exception.
        The unwrapping in the caller's thread (Future.result() vs future_outcome()) is outside the model: harness monitors
        "call returned None although the callable raised" / "start_task raised RuntimeError instead of the task's exception" *)
Theorem C15_portal_start_task_failure_propagated : forall f4 fc s k, reach f4 fc s ->
  c_kind (calls s k) = KStart -> donep (c_phase (calls s k)) = true -> c_started (calls s k) = None ->
  c_status (calls s k) = match c_fut (calls s k) with
                         | CExc e => CExc e | CCancelled => CCancelled | _ => CExc e_nostart end /\
  (forall e, c_outcome (calls s k) = Some (ORaise e) -> c_fcancel (calls s k) = false ->
     c_fut (calls s k) = CExc e /\ c_status (calls s k) = CExc e).
Proof. exact portal_start_task_failure_propagated. Qed.
Print Assumptions C15_portal_start_task_failure_propagated.

(* 9. a cancelled future always reaches its task, whichever thread cancelled it (seeded change C15_g) *)
Theorem C15_portal_cancelled_future_reaches_scope : forall f4 s k, reach f4 true s ->
  c_phase (calls s k) = PRunning -> c_kind (calls s k) <> KSync -> c_fut (calls s k) = CCancelled ->
  c_scope_cancelled (calls s k) = true \/ c_inflight (calls s k) = true.
Proof. exact portal_cancelled_future_reaches_scope. Qed.
Print Assumptions C15_portal_cancelled_future_reaches_scope.

Theorem C15_portal_loop_thread_cancel_cancels_scope : forall f4 s k, reach f4 true s ->
  c_phase (calls s k) = PRunning -> c_kind (calls s k) <> KSync -> c_fut (calls s k) = CPending ->
  handed_out (calls s k) = true -> loop_ended s = false ->
  let s1 := fst (step s (FutureCancelLoop k)) in
  snd (step s (FutureCancelLoop k)) = RCancelTrue /\ c_fut (calls s1 k) = CCancelled /\
  c_scope_cancelled (calls s1 k) = true /\ c_inflight (calls s1 k) = c_inflight (calls s k) /\
  c_phase (calls s1 k) = PRunning /\
  snd (step s1 (TaskStep k WInterrupt None FReraise)) = RStepped /\
  (forall j, j <> k -> calls s1 j = calls s j) /\ group_cancelled s1 = group_cancelled s.
Proof. exact portal_loop_thread_cancel_cancels_scope. Qed.
Print Assumptions C15_portal_loop_thread_cancel_cancels_scope.

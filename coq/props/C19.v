(* C19 — anyio.itertools / functools.reduce agree with the standard library.
   This file contains only statements closed by `exact` and their Print Assumptions.
   outcome t = (the values yielded by trace t, the error class that ends it); sources are (kind, elements) with
   kind = synchronous or asynchronous iterable; callbacks are arbitrary functions. *)
From AV Require Import Base Itertools ItertoolsProofs ItertoolsTee ItertoolsAlias.

(* callbacks of accumulate / reduce may raise: `f a b = None` is a TypeError (e.g. arithmetic on None) *)
Theorem C19_accumulate_agrees : forall (f : Z -> Z -> option Z) (initial : option Z) (s : src),
  outcome (accumulate_model f initial s) = accumulate_spec f initial (snd s).
Proof. exact accumulate_agrees. Qed.
Print Assumptions C19_accumulate_agrees.

Theorem C19_batched_agrees : forall (n : Z) (strict : bool) (s : src),
  outcome (batched_model n strict s) = batched_spec n strict (snd s).
Proof. exact batched_agrees. Qed.
Print Assumptions C19_batched_agrees.

Theorem C19_chain_agrees : forall (outer : kind) (ss : list src),
  outcome (chain_model outer ss) = chain_spec (map snd ss).
Proof. exact chain_agrees. Qed.
Print Assumptions C19_chain_agrees.

Theorem C19_combinations_agrees : forall (r : Z) (s : src),
  outcome (combinations_model r s) = combinations_spec r (snd s).
Proof. exact combinations_agrees. Qed.
Print Assumptions C19_combinations_agrees.

Theorem C19_combinations_with_replacement_agrees : forall (r : Z) (s : src),
  outcome (cwr_model r s) = cwr_spec r (snd s).
Proof. exact combinations_with_replacement_agrees. Qed.
Print Assumptions C19_combinations_with_replacement_agrees.

Theorem C19_compress_agrees : forall (d s : src),
  outcome (compress_model d s) = compress_spec (snd d) (snd s).
Proof. exact compress_agrees. Qed.
Print Assumptions C19_compress_agrees.

Theorem C19_count_agrees : forall (start step : Z) (k : nat),
  outcome (count_model start step k) = count_spec start step k.
Proof. exact count_agrees. Qed.
Print Assumptions C19_count_agrees.

Theorem C19_cycle_agrees : forall (s : src) (k : nat),
  outcome (cycle_model s k) = cycle_spec (snd s) k.
Proof. exact cycle_agrees. Qed.
Print Assumptions C19_cycle_agrees.

Theorem C19_dropwhile_agrees : forall (p : Z -> bool) (s : src),
  outcome (dropwhile_model p s) = dropwhile_spec p (snd s).
Proof. exact dropwhile_agrees. Qed.
Print Assumptions C19_dropwhile_agrees.

Theorem C19_filterfalse_agrees : forall (p : Z -> bool) (s : src),
  outcome (filterfalse_model p s) = filterfalse_spec p (snd s).
Proof. exact filterfalse_agrees. Qed.
Print Assumptions C19_filterfalse_agrees.

(* `same` is the test applied to consecutive keys (identity-or-equality in Python): an arbitrary relation *)
Theorem C19_groupby_agrees : forall (same : Z -> Z -> bool) (key : Z -> Z) (s : src),
  outcome (groupby_model same key s) = groupby_spec same key (snd s).
Proof. exact groupby_agrees. Qed.
Print Assumptions C19_groupby_agrees.

Theorem C19_groupby_pre_F35_refuted_pinned :
  exists key s, outcome (groupby_model eq_only key s) <> groupby_spec same_obj key (snd s).
Proof. exact groupby_pre_F35_refuted_pinned. Qed.
Print Assumptions C19_groupby_pre_F35_refuted_pinned.

Theorem C19_islice_agrees : forall (args : list (option Z)) (s : src),
  outcome (islice_model args s) = islice_spec args (snd s).
Proof. exact islice_agrees. Qed.
Print Assumptions C19_islice_agrees.

(* consumption of the source by islice (Nx events), for all start, stop, step: min(len + 1, max(start, stop)) polls,
   i.e. exactly min(len, max(start, stop)) elements (islice_consumed) *)
Theorem C19_islice_consumption : forall (a b c : option Z) (s : src),
  snd (islice_model [a; b; c] s) = None ->
  count_next (fst (islice_model [a; b; c] s)) =
    match b with
    | None => S (length (snd s))
    | Some st => Nat.min (S (length (snd s))) (Z.to_nat (Z.max (dflt 0 a) st))
    end /\
  Nat.min (count_next (fst (islice_model [a; b; c] s))) (length (snd s)) = islice_consumed [a; b; c] (snd s).
Proof. exact islice_consumption. Qed.
Print Assumptions C19_islice_consumption.

Theorem C19_islice_then_rest_agrees : forall (outer : kind) (args : list (option Z)) (s : src),
  outcome (islice_then_rest_model outer args s) = islice_then_rest_spec args (snd s).
Proof. exact islice_then_rest_agrees. Qed.
Print Assumptions C19_islice_then_rest_agrees.

Theorem C19_islice_pre_F36_refuted_pinned :
  exists args s, snd (islice_model_pre_F36 args s) = None /\
                 Nat.min (count_next (fst (islice_model_pre_F36 args s))) (length (snd s)) <> islice_consumed args (snd s).
Proof. exact islice_pre_F36_refuted_pinned. Qed.
Print Assumptions C19_islice_pre_F36_refuted_pinned.

Theorem C19_pairwise_agrees : forall (s : src),
  outcome (pairwise_model s) = pairwise_spec (snd s).
Proof. exact pairwise_agrees. Qed.
Print Assumptions C19_pairwise_agrees.

Theorem C19_permutations_agrees : forall (r : option Z) (s : src),
  outcome (permutations_model r s) = permutations_spec r (snd s).
Proof. exact permutations_agrees. Qed.
Print Assumptions C19_permutations_agrees.

Theorem C19_product_agrees : forall (rep : Z) (ss : list src),
  outcome (product_model rep ss) = product_spec rep (map snd ss).
Proof. exact product_agrees. Qed.
Print Assumptions C19_product_agrees.

Theorem C19_repeat_agrees : forall (x : Z) (times : option Z) (k : nat),
  outcome (repeat_model x times k) = repeat_spec x times k.
Proof. exact repeat_agrees. Qed.
Print Assumptions C19_repeat_agrees.

Theorem C19_starmap_agrees : forall (f : list Z -> Z) (outer : kind) (ss : list src),
  outcome (starmap_model f outer ss) = starmap_spec f (map snd ss).
Proof. exact starmap_agrees. Qed.
Print Assumptions C19_starmap_agrees.

Theorem C19_takewhile_agrees : forall (p : Z -> bool) (s : src),
  outcome (takewhile_model p s) = takewhile_spec p (snd s).
Proof. exact takewhile_agrees. Qed.
Print Assumptions C19_takewhile_agrees.

Theorem C19_zip_longest_agrees : forall (fill : Z) (ss : list src),
  outcome (zip_longest_model fill ss) = zip_longest_spec fill (map snd ss).
Proof. exact zip_longest_agrees. Qed.
Print Assumptions C19_zip_longest_agrees.

Theorem C19_zip_longest_fuel_ok : forall (fill : Z) (ss : list src), zip_longest_run fill ss <> None.
Proof. exact zip_longest_fuel_ok. Qed.
Print Assumptions C19_zip_longest_fuel_ok.

Theorem C19_reduce_agrees : forall (f : Z -> Z -> option Z) (initial : option Z) (s : src),
  outcome (reduce_model f initial s false) = reduce_spec f initial (snd s).
Proof. exact reduce_agrees. Qed.
Print Assumptions C19_reduce_agrees.

Theorem C19_tee_consumers_see_all : forall (mode : nat) (source : list Z) (n : nat) (ops : list top) (c : nat),
  let s := trun mode source n ops in
  tseen s c = firstn (length (tseen s c)) (skipn (tstart s c) source) /\
  (tstopped s c = true -> tseen s c = skipn (tstart s c) source).
Proof. exact tee_consumers_see_all. Qed.
Print Assumptions C19_tee_consumers_see_all.

Theorem C19_tee_originals_start : forall (mode : nat) (source : list Z) (n : nat) (ops : list top) (c : nat),
  c < n -> tstart (trun mode source n ops) c = 0.
Proof. exact tee_originals_start. Qed.
Print Assumptions C19_tee_originals_start.

Theorem C19_tee_copy_spec : forall (s : tst) (c k : nat) (s' : tst) (r : tres) (ev : list (event Z)),
  tstep s (TCopy c k) = (s', r, ev) -> c < tn s ->
  r = TCopied (tn s) /\ ev = [] /\ tn s' = tn s + k /\
  (forall j, tn s <= j < tn s + k ->
     tstart s' j = tlink s c /\ tlink s' j = tlink s c /\ tseen s' j = [] /\ tstopped s' j = false /\
     tyielded s' j = false /\ tcks s' j = 0 /\ tlocks s' j = 0) /\
  (forall j, j < tn s ->
     tstart s' j = tstart s j /\ tlink s' j = tlink s j /\ tseen s' j = tseen s j /\ tstopped s' j = tstopped s j /\
     tyielded s' j = tyielded s j /\ tphase s' j = tphase s j).
Proof. exact tee_copy_spec. Qed.
Print Assumptions C19_tee_copy_spec.

Theorem C19_tee_source_once : forall (mode : nat) (source : list Z) (n : nat) (ops : list top),
  let s := trun mode source n ops in
  tpolled s = firstn (length (tpolled s)) (map CVal source ++ [CEnd]) /\
  tsrc s = skipn (length (tpolled s)) source.
Proof. exact tee_source_once. Qed.
Print Assumptions C19_tee_source_once.

Theorem C19_tee_outputs_logged : forall (s : tst) (o : top) (s' : tst) (r : tres) (ev : list (event Z)),
  tstep s o = (s', r, ev) ->
  match r with
  | TRet v => exists c, (o = TNext c \/ o = TResume c) /\ tseen s' c = tseen s c ++ [v]
  | TStop => exists c, (o = TNext c \/ o = TResume c) /\ tstopped s' c = true
  | _ => True
  end.
Proof. exact tee_outputs_logged. Qed.
Print Assumptions C19_tee_outputs_logged.

Theorem C19_tee_no_deadlock : forall (mode : nat) (source : list Z) (n : nat) (ops : list top) (c : nat),
  let s := trun mode source n ops in
  tphase s c <> TIdle -> exists c', snd (fst (tstep s (TResume c'))) <> TRejected.
Proof. exact tee_no_deadlock. Qed.
Print Assumptions C19_tee_no_deadlock.

(* aliasing: the same iterator object at several argument positions (store of underlying iterators + a
   position -> index list; distinct sources = no index twice).  Not covered by a theorem, only by the stdlib
   differential in harness/c19.py: tee iterators passed onward into these functions (composition of the tee LTS
   with the aliased models). *)
Theorem C19_zip_longest_alias_agrees : forall (fill : Z) (kd : ikinds) (st : istore) (ps : list nat),
  exists rows, zip_longest_alias_spec fill st ps = Some rows /\
               zip_longest_alias_run fill kd st ps <> None /\
               outcome (zip_longest_alias_model fill kd st ps) = (rows, None).
Proof. exact zip_longest_alias_agrees. Qed.
Print Assumptions C19_zip_longest_alias_agrees.

Theorem C19_zip_longest_alias_spec_distinct : forall (fill : Z) (st : istore) (ps : list nat), NoDup ps ->
  zip_longest_alias_spec fill st ps = Some (fst (zip_longest_spec fill (map st ps))).
Proof. exact zip_longest_alias_spec_distinct. Qed.
Print Assumptions C19_zip_longest_alias_spec_distinct.

Theorem C19_chain_alias_agrees : forall (outer : kind) (kd : ikinds) (st : istore) (ps : list nat),
  outcome (chain_alias_model outer kd st ps) = chain_alias_spec st ps.
Proof. exact chain_alias_agrees. Qed.
Print Assumptions C19_chain_alias_agrees.

Theorem C19_product_alias_agrees : forall (rep : Z) (kd : ikinds) (st : istore) (ps : list nat),
  outcome (product_alias_model rep kd st ps) = product_alias_spec rep st ps.
Proof. exact product_alias_agrees. Qed.
Print Assumptions C19_product_alias_agrees.

Theorem C19_starmap_alias_agrees : forall (f : list Z -> Z) (outer : kind) (kd : ikinds) (st : istore) (ps : list nat),
  outcome (starmap_alias_model f outer kd st ps) = starmap_alias_spec f st ps.
Proof. exact starmap_alias_agrees. Qed.
Print Assumptions C19_starmap_alias_agrees.

Theorem C19_compress_self_agrees : forall (s : src),
  outcome (compress_self_model s) = compress_self_spec (snd s).
Proof. exact compress_self_agrees. Qed.
Print Assumptions C19_compress_self_agrees.

Theorem C19_chain_alias_spec_distinct : forall (st : istore) (ps : list nat), NoDup ps ->
  chain_alias_spec st ps = chain_spec (map st ps).
Proof. exact chain_alias_spec_distinct. Qed.
Print Assumptions C19_chain_alias_spec_distinct.

Theorem C19_product_alias_spec_distinct : forall (rep : Z) (st : istore) (ps : list nat), NoDup ps ->
  product_alias_spec rep st ps = product_spec rep (map st ps).
Proof. exact product_alias_spec_distinct. Qed.
Print Assumptions C19_product_alias_spec_distinct.

Theorem C19_starmap_alias_spec_distinct : forall (f : list Z -> Z) (st : istore) (ps : list nat), NoDup ps ->
  starmap_alias_spec f st ps = starmap_spec f (map st ps).
Proof. exact starmap_alias_spec_distinct. Qed.
Print Assumptions C19_starmap_alias_spec_distinct.

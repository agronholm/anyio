(* C09 — Lock: mutual exclusion, FIFO hand-off, cancel-safe waiters.
   This file contains only statements closed by `exact` and their Print Assumptions. *)
From AV Require Import Base Lock LockProofs LockThms LockImp LockGen LockGenEq LockThms2.

Theorem C09_mutex : forall fa s, reach fa s ->
  (forall t, In t (held s) -> owner s = Some t) /\ length (held s) <= 1.
Proof. exact lock_mutex. Qed.
Print Assumptions C09_mutex.

Theorem C09_acquire_returns_to_owner : forall fa s o t s',
  reach fa s -> acquire_op o t -> step s o = (s', RDone) ->
  owner s' = Some t /\ In t (held s') /\ (forall x, In x (held s') -> x = t).
Proof. exact lock_acquire_returns_to_owner. Qed.
Print Assumptions C09_acquire_returns_to_owner.

Theorem C09_no_barging : forall s t o s' r,
  (o = AcqBegin t \/ o = AcqNowait t) -> step s o = (s', r) ->
  owner s <> Some t -> owner s' = Some t -> owner s = None /\ waiters s = [].
Proof. exact lock_no_barging. Qed.
Print Assumptions C09_no_barging.

Theorem C09_queue_in_arrival_order : forall fa s, reach fa s -> subseq (waiters s) (enq s).
Proof. exact lock_queue_in_arrival_order. Qed.
Print Assumptions C09_queue_in_arrival_order.

Theorem C09_arrival_log_append_only : forall s o, exists l, enq (fst (step s o)) = enq s ++ l.
Proof. exact lock_arrival_log_append_only. Qed.
Print Assumptions C09_arrival_log_append_only.

Theorem C09_handoff_first_live : forall s t,
  match owner (do_release s t) with
  | Some w => exists pre f, waiters s = pre ++ (w, f) :: waiters (do_release s t) /\
                            futs s f <> FCancelled /\
                            (forall t' f', In (t', f') pre -> futs s f' = FCancelled)
  | None => waiters (do_release s t) = [] /\ forall t' f', In (t', f') (waiters s) -> futs s f' = FCancelled
  end.
Proof. exact lock_handoff_first_live. Qed.
Print Assumptions C09_handoff_first_live.

Theorem C09_owner_only_release : forall s t,
  phase_of s t = Idle -> owner s <> Some t -> step s (Release t) = (s, RRuntime).
Proof. exact lock_owner_only_release. Qed.
Print Assumptions C09_owner_only_release.

Theorem C09_reacquire_is_error : forall s t,
  phase_of s t = Idle -> owner s = Some t ->
  step s (AcqBegin t) = (s, RRuntime) /\ step s (AcqNowait t) = (s, RRuntime).
Proof. exact lock_reacquire_is_error. Qed.
Print Assumptions C09_reacquire_is_error.

Theorem C09_cancelled_waiter_never_holds : forall fa s t f,
  reach fa s -> phase_of s t = Waiting f -> futs s f = FCancelled ->
  let s' := fst (step s (Resume t)) in
  snd (step s (Resume t)) = RCancelled /\ ~ In t (held s') /\ owner s' <> Some t /\
  ~ In t (map fst (waiters s')) /\ phase_of s' t = Idle.
Proof. exact lock_cancelled_waiter_never_holds. Qed.
Print Assumptions C09_cancelled_waiter_never_holds.

Theorem C09_handoff_cancel_race : forall fa s t f,
  reach fa s -> phase_of s t = Waiting f -> futs s f = FSet -> mustc s t = true ->
  let s' := fst (step s (Resume t)) in
  snd (step s (Resume t)) = RCancelled /\ ~ In t (held s') /\ owner s' <> Some t /\ Inv s'.
Proof. exact lock_handoff_cancel_race. Qed.
Print Assumptions C09_handoff_cancel_race.

Theorem C09_no_free_with_waiters : forall fa s, reach fa s -> owner s = None -> waiters s = [].
Proof. exact lock_no_free_with_waiters. Qed.
Print Assumptions C09_no_free_with_waiters.

Theorem C09_quiescent : forall fa s,
  reach fa s -> (forall t, phase_of s t = Idle) -> held s = [] -> owner s = None /\ waiters s = [].
Proof. exact lock_quiescent. Qed.
Print Assumptions C09_quiescent.

(* tie T: the segments of Lock.acquire / acquire_nowait / release / locked regenerated from /repo's source by
   tools/translate_lock.py (LockGen.v), interpreted by LockImp.exec, ARE the model's step.  For every state s and
   task t (no reachability hypothesis).  core = the fields the code reads and writes (fast, owner, waiters, futs,
   nfut).  The remaining fields are not state of the Lock object: phase_of / mustc are the asyncio Task's state
   (suspension point, Task._must_cancel), held / enq are history variables of the observer; each is determined by
   the events of the segment (outcome o, e_rel = a nested release() completed, e_enq = items appended). *)
Theorem C09_tie_acquire_entry : forall s t, phase_of s t = Idle ->
  forall e k o, exec acquire_entry t env_entry (core s) = (e, k, o) ->
  let s' := fst (step s (AcqBegin t)) in
  core s' = k /\ Some (snd (step s (AcqBegin t))) = res_of o /\
  phase_of s' = phase_upd (phase_of s) t e o /\ mustc s' = mustc s /\
  held s' = ghost_held (held s) t (e_rel e) (returned o) /\ enq s' = enq s ++ e_enq e.
Proof. exact tie_acquire_entry_spec. Qed.
Print Assumptions C09_tie_acquire_entry.

Theorem C09_tie_acquire_nowait : forall s t, phase_of s t = Idle ->
  forall e k o, exec acquire_nowait_entry t env_entry (core s) = (e, k, o) ->
  let s' := fst (step s (AcqNowait t)) in
  core s' = k /\ Some (snd (step s (AcqNowait t))) = res_of o /\
  phase_of s' = phase_upd (phase_of s) t e o /\ mustc s' = mustc s /\
  held s' = ghost_held (held s) t (e_rel e) (returned o) /\ enq s' = enq s ++ e_enq e.
Proof. exact tie_acquire_nowait_spec. Qed.
Print Assumptions C09_tie_acquire_nowait.

Theorem C09_tie_release : forall s t, phase_of s t = Idle ->
  forall e k o, exec release_entry t env_entry (core s) = (e, k, o) ->
  let s' := fst (step s (Release t)) in
  core s' = k /\ Some (snd (step s (Release t))) = res_of o /\
  phase_of s' = phase_upd (phase_of s) t e o /\ mustc s' = mustc s /\
  held s' = ghost_held (held s) t (orb (e_rel e) (returned o)) false /\ enq s' = enq s ++ e_enq e.
Proof. exact tie_release_spec. Qed.
Print Assumptions C09_tie_release.

Theorem C09_tie_acquire_yield_resumed : forall s t, phase_of s t = FastYield -> mustc s t = false ->
  forall e k o, exec acquire_yield_resumed t (env_resume t None) (core s) = (e, k, o) ->
  let s' := fst (step s (Resume t)) in
  core s' = k /\ Some (snd (step s (Resume t))) = res_of o /\
  phase_of s' = phase_upd (upd (phase_of s) t Idle) t e o /\ mustc s' = upd (mustc s) t false /\
  held s' = ghost_held (held s) t (e_rel e) (returned o) /\ enq s' = enq s ++ e_enq e.
Proof. exact tie_acquire_yield_resumed_spec. Qed.
Print Assumptions C09_tie_acquire_yield_resumed.

Theorem C09_tie_acquire_yield_cancelled : forall s t, phase_of s t = FastYield -> mustc s t = true ->
  forall e k o, exec acquire_yield_cancelled t (env_resume t None) (core s) = (e, k, o) ->
  let s' := fst (step s (Resume t)) in
  core s' = k /\ Some (snd (step s (Resume t))) = res_of o /\
  phase_of s' = phase_upd (upd (phase_of s) t Idle) t e o /\ mustc s' = upd (mustc s) t false /\
  held s' = ghost_held (held s) t (e_rel e) (returned o) /\ enq s' = enq s ++ e_enq e.
Proof. exact tie_acquire_yield_cancelled_spec. Qed.
Print Assumptions C09_tie_acquire_yield_cancelled.

Theorem C09_tie_acquire_wait_resumed : forall s t f,
  phase_of s t = Waiting f -> futs s f = FSet -> mustc s t = false ->
  forall e k o, exec acquire_wait_resumed t (env_resume t (Some f)) (core s) = (e, k, o) ->
  let s' := fst (step s (Resume t)) in
  core s' = k /\ Some (snd (step s (Resume t))) = res_of o /\
  phase_of s' = phase_upd (upd (phase_of s) t Idle) t e o /\ mustc s' = upd (mustc s) t false /\
  held s' = ghost_held (held s) t (e_rel e) (returned o) /\ enq s' = enq s ++ e_enq e.
Proof. exact tie_acquire_wait_resumed_spec. Qed.
Print Assumptions C09_tie_acquire_wait_resumed.

Theorem C09_tie_acquire_wait_cancelled : forall s t f,
  phase_of s t = Waiting f -> futs s f = FCancelled \/ (futs s f = FSet /\ mustc s t = true) ->
  forall e k o, exec acquire_wait_cancelled t (env_resume t (Some f)) (core s) = (e, k, o) ->
  let s' := fst (step s (Resume t)) in
  core s' = k /\ Some (snd (step s (Resume t))) = res_of o /\
  phase_of s' = phase_upd (upd (phase_of s) t Idle) t e o /\ mustc s' = upd (mustc s) t false /\
  held s' = ghost_held (held s) t (e_rel e) (returned o) /\ enq s' = enq s ++ e_enq e.
Proof. exact tie_acquire_wait_cancelled_spec. Qed.
Print Assumptions C09_tie_acquire_wait_cancelled.

Theorem C09_tie_locked : forall s,
  eval_cond locked_cond 0 env_entry (core s) = Some (match owner s with Some _ => true | None => false end).
Proof. exact tie_locked. Qed.
Print Assumptions C09_tie_locked.

(* the machine that runs the generated segments (LockImp.gstep: entry segment on a call, continuation segment chosen
   by the await the task is suspended at and by whether CancelledError is raised there; ghost fields by LockImp.lift)
   is the model, op by op; hence every theorem above holds of runs of the generated code *)
Theorem C09_tie_machine : forall s o, gstep lock_prog s o = step s o.
Proof. exact gstep_eq_step. Qed.
Print Assumptions C09_tie_machine.

Theorem C09_tie_gen_mutex : forall fa ops,
  let s := final (gstep lock_prog) (init fa) ops in
  (forall t, In t (held s) -> owner s = Some t) /\ length (held s) <= 1.
Proof. exact gen_mutex_run. Qed.
Print Assumptions C09_tie_gen_mutex.

Theorem C09_tie_gen_acquire_returns_to_owner : forall fa ops o t s',
  let s := final (gstep lock_prog) (init fa) ops in
  acquire_op o t -> gstep lock_prog s o = (s', RDone) ->
  owner s' = Some t /\ In t (held s') /\ (forall x, In x (held s') -> x = t).
Proof. exact gen_acquire_returns_to_owner_run. Qed.
Print Assumptions C09_tie_gen_acquire_returns_to_owner.

Theorem C09_tie_gen_handoff_first_live : forall s t, phase_of s t = Idle -> owner s = Some t ->
  let s' := fst (gstep lock_prog s (Release t)) in
  snd (gstep lock_prog s (Release t)) = RDone /\
  match owner s' with
  | Some w => exists pre f, waiters s = pre ++ (w, f) :: waiters s' /\ futs s f <> FCancelled /\
                            (forall t' f', In (t', f') pre -> futs s f' = FCancelled)
  | None => waiters s' = [] /\ forall t' f', In (t', f') (waiters s) -> futs s f' = FCancelled
  end.
Proof. exact gen_handoff_first_live. Qed.
Print Assumptions C09_tie_gen_handoff_first_live.

Theorem C09_tie_gen_errors : forall s t, phase_of s t = Idle ->
  (owner s <> Some t -> gstep lock_prog s (Release t) = (s, RRuntime)) /\
  (owner s = Some t ->
   gstep lock_prog s (AcqBegin t) = (s, RRuntime) /\ gstep lock_prog s (AcqNowait t) = (s, RRuntime)).
Proof. exact gen_errors. Qed.
Print Assumptions C09_tie_gen_errors.

Theorem C09_tie_gen_cancelled_waiter_never_holds : forall fa ops t f,
  let s := final (gstep lock_prog) (init fa) ops in
  phase_of s t = Waiting f -> futs s f = FCancelled ->
  let s' := fst (gstep lock_prog s (Resume t)) in
  snd (gstep lock_prog s (Resume t)) = RCancelled /\ ~ In t (held s') /\ owner s' <> Some t /\
  ~ In t (map fst (waiters s')) /\ phase_of s' t = Idle.
Proof. exact gen_cancelled_waiter_never_holds_run. Qed.
Print Assumptions C09_tie_gen_cancelled_waiter_never_holds.

Theorem C09_tie_gen_no_free_with_waiters : forall fa ops,
  let s := final (gstep lock_prog) (init fa) ops in owner s = None -> waiters s = [].
Proof. exact gen_no_free_with_waiters_run. Qed.
Print Assumptions C09_tie_gen_no_free_with_waiters.

(* trace-level FIFO: grants follow the arrival order ----
   When the owner releases, the new owner w is an entry of the arrival log enq, its wait was not cancelled, its
   wake-up is now set, and EVERY task that started waiting before w is no longer waiting afterwards; those of them
   that were still queued had a cancelled wait (they are skipped, not overtaken).  If nobody is granted, every
   queued wait was cancelled. *)
Theorem C09_grant_in_arrival_order : forall fa s t, reach fa s -> owner s = Some t -> phase_of s t = Idle ->
  let s' := do_release s t in
  match owner s' with
  | Some w =>
      exists f pre post, enq s = pre ++ (w, f) :: post /\ futs s f <> FCancelled /\ futs s' f = FSet /\
        (forall x, In x pre -> ~ In x (waiters s')) /\
        (forall t' f', In (t', f') pre -> In (t', f') (waiters s) -> futs s f' = FCancelled)
  | None => forall t' f', In (t', f') (waiters s) -> futs s f' = FCancelled
  end.
Proof. exact lock_grant_in_arrival_order. Qed.
Print Assumptions C09_grant_in_arrival_order.

(* the arrival log is duplicate-free: an entry identifies one wait *)
Theorem C09_arrival_log_unique : forall fa s, reach fa s -> NoDup (map snd (enq s)).
Proof. exact lock_arrival_log_unique. Qed.
Print Assumptions C09_arrival_log_unique.

(* no lost hand-off: the recorded owner holds the lock or has its wake-up coming *)
Theorem C09_owner_is_live : forall fa s t, reach fa s -> owner s = Some t ->
  In t (held s) \/ phase_of s t = FastYield \/ exists f, phase_of s t = Waiting f /\ futs s f = FSet.
Proof. exact lock_owner_is_live. Qed.
Print Assumptions C09_owner_is_live.

(* F53: the cancellation check of acquire() comes first.  LockEntry.estep extends the machine with acquire() calls
   made from an already effectively cancelled scope: the call sits in checkpoint_if_cancelled() (spin) until the
   cancellation is delivered (SpinCancel) or the check returns after its yield because the cancelled scope stopped being
   visible (SpinReturn, F46); other tasks act in between.  pinned = false is HEAD, pinned = true the order before the
   fix (test, check, take).  `ereach fa s` = s is reachable by LockEntry.estep false. *)
From AV Require Import LockEntry LockEntryThms.

Theorem C09_entry_mutex : forall fa s,
  ereach fa s ->
  (forall t, In t (held (lock s)) -> owner (lock s) = Some t) /\ length (held (lock s)) <= 1.
Proof. exact entry_mutex. Qed.
Print Assumptions C09_entry_mutex.

Theorem C09_entry_cancelled_refused : forall s t,
  spin s t = false -> phase_of (lock s) t = Idle ->
  let s1 := fst (estep false s (EnterCancelled t)) in
  snd (estep false s (EnterCancelled t)) = RBlocked /\ lock s1 = lock s /\ spin s1 t = true /\
  estep false s1 (SpinCancel t) = (unspin s1 (lock s) t, RCancelled).
Proof. exact entry_cancelled_refused. Qed.
Print Assumptions C09_entry_cancelled_refused.

Theorem C09_no_step_between_test_and_take : forall fa s t,
  ereach fa s -> spin s t = true -> ckmust s t = false ->
  estep false s (SpinReturn t) =
  (unspin s (fst (Lock.step (lock s) (AcqBegin t))) t, snd (Lock.step (lock s) (AcqBegin t))).
Proof. exact no_step_between_test_and_take. Qed.
Print Assumptions C09_no_step_between_test_and_take.

Theorem C09_check_then_take_across_yield_refuted_pinned : let s := final (estep true) (einit true) f53_ops in
  held (lock s) = [1; 2] /\ owner (lock s) = Some 1 /\
  snd (estep true (final (estep true) (einit true) [EnterCancelled 1]) (L (AcqNowait 2))) = RDone /\
  snd (estep true (final (estep true) (einit true) [EnterCancelled 1; L (AcqNowait 2)]) (SpinReturn 1)) = RDone /\
  ~ length (held (lock s)) <= 1.
Proof. exact check_then_take_across_yield_refuted_pinned. Qed.
Print Assumptions C09_check_then_take_across_yield_refuted_pinned.

(* C09_entry_mutex does not stand alone: the extended machine projects to Lock, so every `reach` theorem of
   this file (FIFO hand-over, no barging, cancelled waiters, arrival order, quiescence) holds of its lock component *)
Theorem C09_entry_projects_to_lock : forall fa s, ereach fa s -> reach fa (lock s).
Proof. exact entry_projects_to_lock. Qed.
Print Assumptions C09_entry_projects_to_lock.

Theorem C09_entry_no_free_lock_with_waiters : forall fa s, ereach fa s ->
  (owner (lock s) = None -> waiters (lock s) = []) /\ subseq (waiters (lock s)) (enq (lock s)).
Proof. exact entry_no_free_lock_with_waiters. Qed.
Print Assumptions C09_entry_no_free_lock_with_waiters.

(* on the regenerated code: apart from binding `task`, the check is the first statement of the entry segment and
   occurs nowhere else (LockImp.ckif_first), so the segment that tests and takes is entered only after the one
   possible yield; run from a cancelled scope it ends at the check, for every state *)
Theorem C09_tie_acquire_entry_check_first : ckif_first acquire_entry = true.
Proof. exact acquire_entry_check_first. Qed.
Print Assumptions C09_tie_acquire_entry_check_first.

Theorem C09_tie_cancelled_entry_noeffect : forall s t,
  exists e, exec acquire_entry t env_entry_cancelled (core s) = (e, core s, OCancelled) /\
            e_enq e = [] /\ e_rel e = false.
Proof. exact cancelled_entry_noeffect. Qed.
Print Assumptions C09_tie_cancelled_entry_noeffect.


(* native Task.cancel() of a task that sits in the entry check of acquire():
   whatever is done TO the spinning task, the lock does not move; its step raises only after a native cancel; with a
   native cancel pending the check cannot return normally (`_must_cancel` raises at the sleep(0)) *)
Theorem C09_spinner_steps_noeffect : forall s t o,
  spin s t = true -> op_tid o = t ->
  lock (fst (estep false s (L o))) = lock s /\
  (snd (estep false s (L o)) = RCancelled -> ckmust s t = true /\ o = Resume t).
Proof. exact spinner_steps_noeffect. Qed.
Print Assumptions C09_spinner_steps_noeffect.

Theorem C09_entry_native_cancel_nonvacuous :
  let s := final (estep false) (einit false) [L (AcqNowait 2); EnterCancelled 1; L (Cancel 1)] in
  spin s 1 = true /\ ckmust s 1 = true /\ owner (lock s) = Some 2 /\ ereach false s /\
  snd (estep false s (L (Resume 1))) = RCancelled /\ lock (fst (estep false s (L (Resume 1)))) = lock s /\
  snd (estep false s (SpinReturn 1)) = RCancelled.
Proof. exact ex_entry_native_cancel. Qed.
Print Assumptions C09_entry_native_cancel_nonvacuous.

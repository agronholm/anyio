(* C14 — to_thread.run_sync: faithful results, bounded threads, cancellation handled (PARTIAL: the OS thread
   is an oracle — ops ThreadStart / ThreadFinish w payload / ThreadReturn w / ThreadCheckCancelled / ThreadRunAsync, and SpawnFail /
   NativeCancel on the caller's side, are chosen by the environment).
   This file contains only statements closed by `exact` and their Print Assumptions.

   Hypotheses to read with the one-line summaries (they are part of the statements below):
   * "token held while running" is about functions with `live s c = true`, i.e. whose call future is not cancelled
     (not abandoned, caller not natively cancelled);
   * "running <= total" holds WHENEVER borrowed <= total at that moment (the total may
     have been lowered and raised any number of times: C14_no_grant_while_full, C14_running_le_total_after_drain);
   * "a result is dropped only if abandoned and cancelled" carries the disjunct `\/ ncr = true`: or the caller was
     natively cancelled (asyncio Task.cancel()) inside the call scope;
   * "cancellation is deferred when not abandoned" is about AnyIO cancellation and has the hypothesis `ncr = false`
     (no native cancellation of the caller inside the call scope); the whole `ncr = false` /
     `no_native_cancel_while_running` family is the documented scope "AnyIO shields do not stop Task.cancel()", with
     C14_native_cancel_defeats_non_abandon as the refutation without it;
   * "calls back into the loop return the right values": whether an awaiting from_thread.run() is cancelled is a
     theorem (C14_from_thread_run_spec) under `ended s = false` - the loop has not yet run its last iteration; without
     it the call-back hangs for ever: KNOWN FINDING F51, C14_from_thread_landed_after_loop_end_refuted.  The VALUES
     and exceptions carried by the round trips (incl. exceptions with a false truth value, F47) are not in the model;
     they are checked by harness monitors on real threads;
   * "an abandoned thread's from_thread.run() coroutine never spins" is NOT a theorem: the model only says it is not
     cancelled (C14_from_thread_run_spec); not spinning is observed by the harness on real threads (F42 regression).
   Non-vacuity Examples with content are in boundary/ThreadsProofs.v (ex_nonabandon_bound_tight: a non-abandon function
   executing at the end with borrowed = total; ex_no_grant_while_overfull: lowered total, a release, the waiter is not
   let in until the excess has drained). *)
From AV Require Import Base Threads ThreadsProofs.

(* a function that is executing and whose call future is not cancelled (`live s c = true`: not abandoned, caller not
   natively cancelled) runs under a limiter token held by its (still waiting) caller *)
Theorem C14_token_held_while_running : forall tot pr s c,
  reach tot pr s -> In c (exec s) -> live s c = true ->
  In c (lb s) /\ exists w, wk s w = WExec c /\ ph (calls s c) = PAwait w.
Proof. exact rs_token_held_while_running. Qed.
Print Assumptions C14_token_held_while_running.

(* bounded threads: #(executing functions whose caller still waits) <= #borrowed tokens, and <= total whenever
   borrowed <= total at that moment (the limiter is not over-full); see C14_no_grant_while_full for why it can only be
   over-full transiently after total_tokens was lowered below the number of borrowers *)
Theorem C14_running_le_total : forall tot pr s,
  reach tot pr s ->
  length (running_live s) <= length (lb s) /\
  (length (lb s) <= total s -> length (running_live s) <= total s).
Proof. exact rs_running_le_total. Qed.
Print Assumptions C14_running_le_total.

(* the second conjunct of the above, on its own *)
Theorem C14_running_le_total_after_drain : forall tot pr s, reach tot pr s ->
  length (lb s) <= total s -> length (running_live s) <= total s.
Proof. exact rs_running_le_total_after_drain. Qed.
Print Assumptions C14_running_le_total_after_drain.

(* while the limiter is full no step increases the number of borrowers (a release may hand its token over:
   ex_handover_at_full shows that `incl` does NOT hold at exactly full); while it is OVER-full - total lowered below the
   number of borrowers - no new borrower appears at all, the excess only drains *)
Theorem C14_no_grant_while_full : forall tot pr s o, reach tot pr s ->
  (total (fst (step s o)) <= length (lb s) -> length (lb (fst (step s o))) <= length (lb s)) /\
  (total (fst (step s o)) < length (lb s) -> incl (lb (fst (step s o))) (lb s)).
Proof. exact rs_no_grant_while_full. Qed.
Print Assumptions C14_no_grant_while_full.

(* a token is granted only while one is free: no step (of any state) raises the number of borrowers above
   max(previous number, current total) *)
Theorem C14_grant_only_if_free : forall s o,
  length (lb (fst (step s o))) <= Nat.max (length (lb s)) (total (fst (step s o))).
Proof. exact step_lb_bound. Qed.
Print Assumptions C14_grant_only_if_free.

(* the token is given back on every exit path: borrowers = exactly the calls between acquire and release; a call that
   is over (returned, raised incl. BaseException and the function's own CancelledError, cancelled at the entry checkpoint
   or in the wait queue with/without a grant, natively cancelled in the limiter's shielded checkpoint / in the queue /
   while awaiting the result, abandoned, thread start failed) holds none; when every call is over the limiter is pristine *)
Theorem C14_token_released_all_paths : forall tot pr s,
  reach tot pr s ->
  NoDup (lb s) /\ (forall c, In c (lb s) <-> holds (calls s c) = true) /\
  (forall c, (exists r, ph (calls s c) = PDone r) \/ (exists o, ph (calls s c) = PPostCk o) ->
             ~ In c (lb s) /\ ~ In c (lq s)) /\
  ((forall c, ph (calls s c) = PNone \/ exists r, ph (calls s c) = PDone r) -> lb s = [] /\ lq s = []).
Proof. exact rs_token_released_all_paths. Qed.
Print Assumptions C14_token_released_all_paths.

(* whichever step takes a call out of a token-holding phase (any op, incl. NativeCancel+Resume, SpawnFail) removes it
   from the borrowers in that very step *)
Theorem C14_exit_steps_release : forall tot pr s o c,
  reach tot pr s -> holds (calls s c) = true -> holds (calls (fst (step s o)) c) = false ->
  In c (lb s) /\ ~ In c (lb (fst (step s o))).
Proof. exact rs_exit_steps_release. Qed.
Print Assumptions C14_exit_steps_release.

(* faithful results: what run_sync returns/raises is the payload of the thread's report (StopIteration wrapped in
   RuntimeError - PEP 479, a deliberate deviation from "exactly the exception") or, when no thread could be started,
   the RuntimeError of Thread.start() with nothing run; a finished function's result is dropped only if abandon_on_cancel
   was set and the caller's scope was cancelled, or the caller was cancelled NATIVELY inside the call scope; a report for
   a caller that is neither always resolves the future *)
Theorem C14_result_faithful : forall tot pr s c,
  reach tot pr s ->
  (forall o, (ph (calls s c) = PPostCk o \/ exists b, ph (calls s c) = PDone (DRet o b)) ->
             (exists p, fin (calls s c) = Some p /\ o = wrap p) \/ (o = OSpawn /\ fin (calls s c) = None)) /\
  (forall s' o, step s (Resume c) = (s', RRet o) ->
             (exists p, fin (calls s c) = Some p /\ o = wrap p) /\
             ph (calls s' c) = (match o with OCancelled => PDone (DRet OCancelled false) | _ => PPostCk o end)) /\
  (forall p, ph (calls s c) = PDone DCancelled -> fin (calls s c) = Some p ->
             (abandon (calls s c) = true /\ walk (chain (calls s c)) = true) \/ ncr (calls s c) = true) /\
  (forall w p, wk s w = WExec c -> abandon (calls s c) = false \/ walk (chain (calls s c)) = false ->
             ncr (calls s c) = false ->
             fut (calls (fst (step s (ThreadFinish w p))) c) = FRes (wrap p)).
Proof. exact rs_result_faithful. Qed.
Print Assumptions C14_result_faithful.

(* the recorded payload of a call is written by the ThreadFinish of the worker executing that call, by nothing else *)
Theorem C14_result_written_by_thread_only : forall s o c p,
  fin (calls (fst (step s o)) c) = Some p ->
  fin (calls s c) = Some p \/ exists w, o = ThreadFinish w p /\ wk s w = WExec c.
Proof. exact fin_written_by_finish. Qed.
Print Assumptions C14_result_written_by_thread_only.

(* without abandon_on_cancel and without a native cancellation of the caller inside the call scope (ncr = false; the
   hypothesis is necessary, see C14_native_cancel_defeats_non_abandon): between entering the call scope and the report
   nothing is delivered to the caller, whatever AnyIO scope is cancelled; it then receives the reported result; the
   cancellation is still pending and is raised by its next checkpoint *)
Theorem C14_cancel_deferred : forall tot pr s c w,
  reach tot pr s -> ph (calls s c) = PAwait w -> abandon (calls s c) = false -> ncr (calls s c) = false ->
  fut (calls s c) <> FCancelled /\
  (fut (calls s c) = FPending -> step s (Resume c) = (s, RRejected)) /\
  (forall o, o <> Resume c ->
     ph (calls (fst (step s o)) c) = PAwait w /\ abandon (calls (fst (step s o)) c) = false /\
     (o <> NativeCancel c -> ncr (calls (fst (step s o)) c) = false)) /\
  (forall o, fut (calls s c) = FRes o ->
     let s' := fst (step s (Resume c)) in
     snd (step s (Resume c)) = RRet o /\ (exists p, fin (calls s c) = Some p /\ o = wrap p) /\
     chain (calls s' c) = chain (calls s c) /\
     (o = OCancelled -> ph (calls s' c) = PDone (DRet OCancelled false)) /\
     (o <> OCancelled -> ph (calls s' c) = PPostCk o /\
        snd (step s' (Resume c)) = (if walk (chain (calls s c)) then RCancelled else RDone))).
Proof. exact rs_cancel_deferred. Qed.
Print Assumptions C14_cancel_deferred.

(* the ghost ncr is set by a native cancellation that hits the caller inside the call scope, by nothing else *)
Theorem C14_ncr_set_by_native_only : forall s o c,
  ncr (calls (fst (step s o)) c) = true ->
  ncr (calls s c) = true \/ (o = NativeCancel c /\ inside (calls s c) = true).
Proof. exact ncr_set_by_native. Qed.
Print Assumptions C14_ncr_set_by_native_only.

(* DOCUMENTED SCOPE (DESIGN 11.4: AnyIO shields do not stop native Task.cancel()).  The STRONG bound - functions
   executing on behalf of abandon_on_cancel=False calls, whatever happened to their callers, all hold a token, hence
   are <= total when the limiter is not over-full - holds for every op sequence in which no native cancellation hits a
   caller inside the call scope ... *)
Theorem C14_nonabandon_running_le_total : forall tot pr ops,
  no_native_cancel_while_running (init tot pr) ops = true ->
  let s := final step (init tot pr) ops in
  (forall c, In c (exec s) -> abandon (calls s c) = false -> In c (lb s) /\ exists w, ph (calls s c) = PAwait w) /\
  length (running_nonabandon s) <= length (lb s) /\
  (length (lb s) <= total s -> length (running_nonabandon s) <= total s).
Proof. exact rs_nonabandon_running_le_total. Qed.
Print Assumptions C14_nonabandon_running_le_total.

(* ... and is refuted without that hypothesis: one native cancel of a running NON-abandoned call releases its token while
   its function still executes; a second function starts under total = 1; the first function's result is dropped *)
Theorem C14_native_cancel_defeats_non_abandon :
  exists ops, let s := final step (init 1 false) ops in
    no_native_cancel_while_running (init 1 false) ops = false /\
    total s = 1 /\ lb s = [1] /\ exec s = [1; 0] /\ running_nonabandon s = [1; 0] /\
    abandon (calls s 0) = false /\ ph (calls s 0) = PDone DCancelled /\ ncr (calls s 0) = true /\
    fut (calls (fst (step s (ThreadFinish 0 (PVal 7)))) 0) = FCancelled.
Proof. exact rs_native_cancel_defeats_non_abandon. Qed.
Print Assumptions C14_native_cancel_defeats_non_abandon.

(* check_cancelled() in the thread answers exactly "the caller's enclosing scopes are effectively cancelled",
   for abandon on and off; without abandon the worker is handed the ENCLOSING scope of the shielded call scope *)
Theorem C14_check_cancelled_spec : forall s w c,
  wk s w = WExec c ->
  step s (ThreadCheckCancelled w) = (s, RCC (walk (chain (calls s c)))) /\
  (abandon (calls s c) = false -> chain (calls s c) <> [] -> handed (calls s c) = chain (calls s c)).
Proof. exact check_cancelled_spec. Qed.
Print Assumptions C14_check_cancelled_spec.

(* the walk: true iff some scope has cancel_called and every scope nearer to the task is neither cancelled nor
   shielded (the cancelled scope lies at or before the nearest shield) *)
Theorem C14_walk_spec : forall l,
  walk l = true <->
  exists pre sh post, l = pre ++ (true, sh) :: post /\ forall x, In x pre -> x = (false, false).
Proof. exact walk_spec. Qed.
Print Assumptions C14_walk_spec.

(* had the worker been handed the shielded call scope itself, check_cancelled could never report anything *)
Theorem C14_call_scope_itself_is_blind : forall l, walk ((false, true) :: l) = false.
Proof. exact walk_call_scope_shielded. Qed.
Print Assumptions C14_call_scope_itself_is_blind.

(* (clause 1 is the definition of the op read back; the content is in clauses 2-4 and in the correspondence of
   RunAsyncCall with real threads.  "Never spins" is harness-observed only.)
   from_thread.run(coro) with a coroutine that really waits, called from the thread: its task is cancelled iff the scope
   handed to the worker or one of its VISIBLE ancestors is cancelled.  Caller inside the call scope: same answer as
   check_cancelled (so under a cancelled uninterruptible caller the round trip raises CancelledError instead of
   returning the value).  Abandoned thread whose caller has left (F42 / 1940035): never cancelled, although
   check_cancelled still raises.  Caller torn away natively: only the handed scope's own flag counts. *)
Theorem C14_from_thread_run_spec : forall s w c,
  wk s w = WExec c -> ended s = false ->
  step s (ThreadRunAsync w) = (s, RRT (walk (handed_visible (calls s c)))) /\
  (inside (calls s c) = true -> walk (handed_visible (calls s c)) = walk (chain (calls s c))) /\
  (abandon (calls s c) = true -> inside (calls s c) = false -> walk (handed_visible (calls s c)) = false) /\
  (abandon (calls s c) = false -> inside (calls s c) = false ->
     walk (handed_visible (calls s c)) = match chain (calls s c) with (cc, _) :: _ => cc | [] => false end).
Proof. exact from_thread_run_spec. Qed.
Print Assumptions C14_from_thread_run_spec.

(* KNOWN FINDING F51 (known_findings.json: property C14, predicate from_thread_landed_after_loop_end), the C14 sibling of
   C15's F40.  The hypothesis `ended s = false` of C14_from_thread_run_spec is necessary: after the loop's last iteration
   (op LoopEnd; loop.close() not yet called, is_closed() still False) a thread abandoned by its caller is still executing;
   its from_thread.run()/run_sync() is handed to a loop that never runs it - the thread waits for ever (RHang: no value,
   no RunFinishedError).  The model's ThreadRunAsync stands for both from_thread.run and from_thread.run_sync here (same
   call_soon_threadsafe hand-over). *)
Theorem C14_from_thread_landed_after_loop_end_refuted :
  exists ops, let s := final step (init 1 false) ops in
    no_land_after_loop_end false (ops ++ [ThreadRunAsync 0]) = false /\
    ended s = true /\ wk s 0 = WExec 0 /\ exec s = [0] /\
    abandon (calls s 0) = true /\ ph (calls s 0) = PDone DCancelled /\ lb s = [] /\
    step s (ThreadRunAsync 0) = (s, RHang) /\
    snd (step (final step (init 1 false) ex_abandon) (ThreadRunAsync 0)) = RRT false.
Proof. exact rs_from_thread_landed_after_loop_end_refuted. Qed.
Print Assumptions C14_from_thread_landed_after_loop_end_refuted.

(* ... and under the boolean restriction no_land_after_loop_end (no from_thread call-back is issued after LoopEnd) EVERY
   call-back of the run, at whatever position, is served: it is issued while `ended = false`, its result is not RHang,
   and for an executing function it is the answer of C14_from_thread_run_spec.  The ops after LoopEnd other than
   ThreadRunAsync are not restricted by the model (an over-approximation: the loop-side segments cannot really run any
   more; the safety theorems above hold for all op sequences anyway). *)
Theorem C14_from_thread_run_served : forall pre w post s,
  no_land_after_loop_end (ended s) (pre ++ ThreadRunAsync w :: post) = true ->
  let s' := final step s pre in
  ended s' = false /\
  snd (step s' (ThreadRunAsync w)) <> RHang /\
  (forall c, wk s' w = WExec c ->
     step s' (ThreadRunAsync w) = (s', RRT (walk (handed_visible (calls s' c))))).
Proof. exact rs_from_thread_run_served. Qed.
Print Assumptions C14_from_thread_run_served.

(* worker pool: LIFO reuse, a new worker only when none is idle, a worker is handed a call only when free and only
   by that call's own segment, a call sits on at most one worker *)
Theorem C14_worker_reuse : forall tot pr s,
  reach tot pr s ->
  (forall c, wcanc (calls s c) = false ->
             ph (calls s c) = PLimYield \/ (ph (calls s c) = PWaitLim /\ evset (calls s c) = true) ->
     let s' := fst (step s (Resume c)) in
     let w := hd (nwork s) (idle s) in
     ph (calls s' c) = PAwait w /\ wk s' w = WQueued c /\ wk s w = WFree /\ ~ In w (idle s') /\
     (idle s = [] -> nwork s' = S (nwork s)) /\ (idle s <> [] -> nwork s' = nwork s)) /\
  (forall o w c, wk (fst (step s o)) w = WQueued c -> wk s w <> WQueued c ->
     o = Resume c /\ wk s w = WFree /\ w = hd (nwork s) (idle s)) /\
  (forall w w' c, (wk s w = WQueued c \/ wk s w = WExec c) -> (wk s w' = WQueued c \/ wk s w' = WExec c) -> w = w') /\
  (forall w, In w (idle s) -> wk s w = WFree) /\ NoDup (idle s).
Proof. exact rs_worker_reuse. Qed.
Print Assumptions C14_worker_reuse.

(* HEAD (after fix 952e60b): no worker is ever lost.  Every worker ever created is idle (free AND in the idle deque),
   has an item queued, executes a function, has the payload-less report of a skipped item in flight, or was pruned;
   and each busy state leads back to the idle deque through the thread's own next ops (ThreadStart, then ThreadFinish
   or ThreadReturn), the future of a skipped item staying cancelled *)
Theorem C14_no_worker_lost : forall tot pr s,
  reach tot pr s ->
  (forall w, w < nwork s ->
     (wk s w = WFree /\ In w (idle s)) \/ (exists c, wk s w = WQueued c) \/ (exists c, wk s w = WExec c) \/
     wk s w = WSkip \/ wk s w = WStopped) /\
  (forall w, wk s w <> WLost) /\
  (forall w c, wk s w = WQueued c ->
     wk (fst (step s (ThreadStart w))) w = WExec c \/ wk (fst (step s (ThreadStart w))) w = WSkip) /\
  (forall w c p, wk s w = WExec c ->
     let s' := fst (step s (ThreadFinish w p)) in wk s' w = WFree /\ In w (idle s')) /\
  (forall w, wk s w = WSkip ->
     let s' := fst (step s (ThreadReturn w)) in wk s' w = WFree /\ In w (idle s') /\ calls s' = calls s).
Proof. exact rs_no_worker_lost. Qed.
Print Assumptions C14_no_worker_lost.

(* FINDING F8 (fixed: 952e60b), about the PINNED transition system `step_pinned` (a skipped item is not reported):
   there a worker that dequeues an item whose future was cancelled first is lost for good - neither idle, nor
   executing, nor ever reusable *)
Theorem C14_no_worker_leak_refuted_pinned :
  exists ops, let s := final step_pinned (init 1 false) ops in
    ph (calls s 0) = PDone DCancelled /\ lb s = [] /\ exec s = [] /\
    nwork s = 1 /\ wk s 0 = WLost /\ idle s = [] /\
    forall more, wk (final step_pinned s more) 0 = WLost.
Proof. exact rs_no_worker_leak_refuted_pinned. Qed.
Print Assumptions C14_no_worker_leak_refuted_pinned.

(* the states the codec visits (scripted op followed by `settle`) are reachable states of the LTS, so every theorem
   above applies to every state compared with the implementation *)
Theorem C14_codec_states_reachable : forall tot pr fuel n s code a b c,
  reach tot pr s -> reach tot pr (settle fuel n (fst (do_op s code a b c))).
Proof. exact codec_states_reachable. Qed.
Print Assumptions C14_codec_states_reachable.

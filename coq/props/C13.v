(* C13 — Memory object streams: closing wakes everyone and errors tell the truth.
   This file contains only statements closed by `exact` and their Print Assumptions.
   Model: prims/MemStream.v (shared with C12). *)
From AV Require Import Base MemStream MemStreamProofs MemStreamThms.

(* EndOfStream *)
Theorem C13_eos_iff : forall s o h, recv_attempt s o h -> hclosed s h = false ->
  (snd (step s o) = REndOfStream <-> (open_send s = 0 /\ buffer s = [] /\ senders s = [])).
Proof. exact ms_eos_iff. Qed.
Print Assumptions C13_eos_iff.

Theorem C13_eos_only_if : forall m s o, reach m s -> snd (step s o) = REndOfStream ->
  open_send s = 0 /\ buffer s = [] /\ senders s = [].
Proof. exact ms_eos_only_if. Qed.
Print Assumptions C13_eos_only_if.

Theorem C13_eos_woken : forall m s t e, reach m s ->
  phase_of s t = RecvWait e -> fut s e = FSet -> mustc s t = false ->
  (snd (step s (Resume t)) = REndOfStream <-> slot s e = None) /\
  (slot s e = None -> open_send s = 0 /\ buffer s = [] /\ senders s = []) /\
  (forall x, slot s e = Some x -> snd (step s (Resume t)) = RItem x).
Proof. exact ms_eos_woken. Qed.
Print Assumptions C13_eos_woken.

(* BrokenResourceError *)
Theorem C13_broken_iff : forall s o h, send_attempt s o h -> hclosed s h = false ->
  (snd (step s o) = RBroken <-> open_recv s = 0).
Proof. exact ms_broken_iff. Qed.
Print Assumptions C13_broken_iff.

Theorem C13_broken_only_if : forall m s o, reach m s -> snd (step s o) = RBroken -> open_recv s = 0.
Proof. exact ms_broken_only_if. Qed.
Print Assumptions C13_broken_only_if.

Theorem C13_broken_woken : forall m s t e x, reach m s ->
  phase_of s t = SendWait e x -> fut s e = FSet -> mustc s t = false ->
  (snd (step s (Resume t)) = RBroken <-> has_key e (senders s) = true) /\
  (has_key e (senders s) = true -> open_recv s = 0) /\
  (has_key e (senders s) = false -> snd (step s (Resume t)) = RDone).
Proof. exact ms_broken_woken. Qed.
Print Assumptions C13_broken_woken.

(* ClosedResourceError *)
Theorem C13_closed_iff : forall s o h, uses_handle s o h ->
  (snd (step s o) = RClosed <-> hclosed s h = true).
Proof. exact ms_closed_iff. Qed.
Print Assumptions C13_closed_iff.

Theorem C13_closed_only_if : forall s o,
  snd (step s o) = RClosed -> exists h, uses_handle s o h /\ hclosed s h = true.
Proof. exact ms_closed_only_if. Qed.
Print Assumptions C13_closed_only_if.

(* closing the last clone of a side wakes every task blocked on the other side *)
Theorem C13_close_wakes_all : forall m s, reach m s ->
  (open_send s = 0 -> forall t e, phase_of s t = RecvWait e ->
     fut s e <> FPending /\ snd (step s (Resume t)) <> RRejected /\ snd (step s (Resume t)) <> RBlocked) /\
  (open_recv s = 0 -> forall t e x, phase_of s t = SendWait e x ->
     fut s e <> FPending /\ snd (step s (Resume t)) <> RRejected /\ snd (step s (Resume t)) <> RBlocked) /\
  (receivers s <> [] -> buffer s = [] /\ senders s = []).
Proof. exact ms_close_wakes_all. Qed.
Print Assumptions C13_close_wakes_all.

Theorem C13_last_send_close : forall s h,
  h < nh s -> hclosed s h = false -> hside s h = SSend -> open_send s = 1 ->
  let s' := fst (step s (Close h)) in
  open_send s' = 0 /\ receivers s' = [] /\
  (forall e t, In (e, t) (receivers s) -> fut s' e = ev_set (fut s e)) /\
  buffer s' = buffer s /\ senders s' = senders s.
Proof. exact ms_last_send_close. Qed.
Print Assumptions C13_last_send_close.

Theorem C13_last_recv_close : forall s h,
  h < nh s -> hclosed s h = false -> hside s h = SRecv -> open_recv s = 1 ->
  let s' := fst (step s (Close h)) in
  open_recv s' = 0 /\ senders s' = senders s /\ buffer s' = buffer s /\
  (forall e x, In (e, x) (senders s) -> fut s' e = ev_set (fut s e)).
Proof. exact ms_last_recv_close. Qed.
Print Assumptions C13_last_recv_close.

(* statistics() *)
Theorem C13_counts_true : forall m s, reach m s ->
  open_send s = count_open SSend (hside s) (hclosed s) (nh s) /\
  open_recv s = count_open SRecv (hside s) (hclosed s) (nh s) /\
  NoDup (map fst (senders s)) /\
  (forall e x, In (e, x) (senders s) -> exists t, phase_of s t = SendWait e x) /\
  (forall t e x, phase_of s t = SendWait e x -> fut s e = FPending -> In (e, x) (senders s)) /\
  NoDup (map fst (receivers s)) /\ NoDup (map snd (receivers s)) /\
  (forall e t, In (e, t) (receivers s) -> phase_of s t = RecvWait e) /\
  (forall t e, phase_of s t = RecvWait e -> fut s e = FPending -> In (e, t) (receivers s)) /\
  (forall t1 t2 e, wait_ev (phase_of s t1) = Some e -> wait_ev (phase_of s t2) = Some e -> t1 = t2) /\
  length (entered s) =
    length (returned s) + length (inflight s) + length (lost s) + length (buffer s) + length (senders s) +
    length (withdrawn s).
Proof. exact ms_counts_true. Qed.
Print Assumptions C13_counts_true.


(* recorded decision (observation O-own-close): a task blocked on a handle that someone else closes is not woken while
   the PEER side is open - every send is refused, and only the close of the send side releases it (EndOfStream) *)
Theorem C13_blocked_on_own_closed_side : exists m ops t e,
  let s := final step (init m) ops in
  open_recv s = 0 /\ phase_of s t = RecvWait e /\ fut s e = FPending /\ open_send s > 0 /\
  In (e, t) (receivers s) /\
  snd (step s (SendNowait 2 0 1)) = RBroken /\ snd (step s (Resume t)) = RRejected /\
  snd (step (fst (step s (Close 0))) (Resume t)) = REndOfStream.
Proof. exact ms_blocked_on_own_closed_side. Qed.
Print Assumptions C13_blocked_on_own_closed_side.

Theorem C13_sender_blocked_on_own_closed_side : exists m ops t e x,
  let s := final step (init m) ops in
  open_send s = 0 /\ phase_of s t = SendWait e x /\ fut s e = FPending /\ open_recv s > 0 /\
  snd (step s (RecvNowait 2 1)) = RItem x /\
  snd (step (fst (step s (RecvNowait 2 1))) (Resume t)) = RDone.
Proof. exact ms_sender_blocked_on_own_closed_side. Qed.
Print Assumptions C13_sender_blocked_on_own_closed_side.

(* exact characterisation of when a receive / a send WAITS (blocks, resp. WouldBlock for the nowait call) *)
Theorem C13_recv_blocks_iff : forall s o h, recv_attempt s o h -> hclosed s h = false ->
  ((snd (step s o) = RBlocked \/ snd (step s o) = RWouldBlock) <->
   (open_send s > 0 /\ buffer s = [] /\ senders s = [])) /\
  (snd (step s o) = RBlocked -> exists t, o = Resume t) /\
  (snd (step s o) = RWouldBlock -> exists t, o = RecvNowait t h).
Proof. exact ms_recv_blocks_iff. Qed.
Print Assumptions C13_recv_blocks_iff.

Theorem C13_send_blocks_iff : forall m s o h, reach m s -> send_attempt s o h -> hclosed s h = false ->
  ((snd (step s o) = RBlocked \/ snd (step s o) = RWouldBlock) <->
   (open_recv s > 0 /\ (forall e t, In (e, t) (receivers s) -> has_pending s t = true) /\
    xlt (length (buffer s)) (maxb s) = false)) /\
  (snd (step s o) = RBlocked -> exists t, o = Resume t) /\
  (snd (step s o) = RWouldBlock -> exists t x, o = SendNowait t h x).
Proof. exact ms_send_blocks_iff. Qed.
Print Assumptions C13_send_blocks_iff.

(* trace level: once the last clone of a side is closed, resuming every blocked peer (once each, any order, any
   superset) leaves nobody in a wait phase on the other side *)
Theorem C13_last_send_close_drains_receivers : forall m s ts, reach m s -> open_send s = 0 ->
  (forall t e, phase_of s t = RecvWait e -> In t ts) ->
  let s' := final step s (map Resume ts) in
  open_send s' = 0 /\ forall t e, phase_of s' t <> RecvWait e.
Proof. exact ms_last_send_close_drains_receivers. Qed.
Print Assumptions C13_last_send_close_drains_receivers.

Theorem C13_last_recv_close_drains_senders : forall m s ts, reach m s -> open_recv s = 0 ->
  (forall t e x, phase_of s t = SendWait e x -> In t ts) ->
  let s' := final step s (map Resume ts) in
  open_recv s' = 0 /\ forall t e x, phase_of s' t <> SendWait e x.
Proof. exact ms_last_recv_close_drains_senders. Qed.
Print Assumptions C13_last_recv_close_drains_senders.

(* tie T (see props/C12.v): clone(), close() with its wake-ups, and the two places where the errors of this
   property are decided in the regenerated code: BrokenResourceError after send_event.wait() returned with the entry
   still queued, EndOfStream when receiver.item was never set (C12_tie_recv_event_resumed). *)
From AV Require Import MemImp MemGen MemGenEq.

Theorem C13_tie_clone : forall s h t,
  Nat.ltb h (nh s) = true -> phase_of s t = Idle ->
  runs s (fst (step s (Clone h))) (snd (step s (Clone h))) h t KPlain
       (match hside s h with SSend => snd_clone_entry | SRecv => rcv_clone_entry end) (loc0 None).
Proof. exact tie_clone. Qed.
Print Assumptions C13_tie_clone.

Theorem C13_tie_close : forall s h t,
  Nat.ltb h (nh s) = true -> phase_of s t = Idle ->
  runs s (fst (step s (Close h))) (snd (step s (Close h))) h t KPlain
       (match hside s h with SSend => snd_close_entry | SRecv => rcv_close_entry end) (loc0 None).
Proof. exact tie_close. Qed.
Print Assumptions C13_tie_close.

Theorem C13_tie_send_event_resumed : forall s t e x,
  phase_of s t = SendWait e x -> fut s e = FSet -> mustc s t = false ->
  forall h, runs (finish s t) (fst (step s (Resume t))) (snd (step s (Resume t))) h t (KSend h x)
       snd_send_event_resumed (loc_resume (Some x) (Some e) false None).
Proof. exact tie_send_event_resumed. Qed.
Print Assumptions C13_tie_send_event_resumed.

Theorem C13_tie_gen_close_wakes_all : forall m s,
  grun mem_prog m s ->
  (open_send s = 0 -> forall t e, phase_of s t = RecvWait e ->
     fut s e <> FPending /\ snd (step s (Resume t)) <> RRejected /\ snd (step s (Resume t)) <> RBlocked) /\
  (open_recv s = 0 -> forall t e x, phase_of s t = SendWait e x ->
     fut s e <> FPending /\ snd (step s (Resume t)) <> RRejected /\ snd (step s (Resume t)) <> RBlocked) /\
  (receivers s <> [] -> buffer s = [] /\ senders s = []).
Proof. exact gen_close_wakes_all. Qed.
Print Assumptions C13_tie_gen_close_wakes_all.


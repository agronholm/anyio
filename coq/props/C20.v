(* C20 — async lru_cache: right value, single flight, bounded retention.
   This file contains only statements closed by `exact` (one is transported by a rewrite) and their Print Assumptions.
   `run cf ops` is the state of the Lru machine after the op list `ops` under configuration cf = (maxsize, ttl,
   always_checkpoint, typed, number of callers); `dict s` = entries of the running loop, `dicts s g` = the dict of
   generation g (a dict discarded by cache_clear() lives on for the calls that hold it).

   Since /repo c2fb7fb (fix of F53) Lock.acquire() awaits checkpoint_if_cancelled() before it looks at the lock,
   so a call issued inside an already cancelled scope (op CallX) suspends at the lock entry and is then cancelled
   WHATEVER the state of the lock; it does not become a queued waiter of a busy lock (before the fix: queued, then cancelled
   by the scope's delivery).  A caller in an already cancelled scope therefore never counts as a waiter for
   evicts_waited (the F8 window shrinks to waiters that really queued); all witnesses and corpus histories of
   F3 / F8 / F30 / F31 / F32 / F41 still reproduce.

   Boolean predicates on the op list (sticky ghost flags of the machine) and what they exclude:
     no_inflight_eviction  = evicts_inflight = false        (F3)  no miss ever pops a placeholder whose lock some caller
                                                                   holds or waits for
     no_waited_eviction    = evicts_waited = false          (F8)  no completed entry is popped / expired while a caller of
                                                                   its key (same dict) is suspended in lock.acquire()
     no_other_loop         = stale_count_other_loop = false (F30) no new loop while currsize <> 0 and NO cache_clear() while
                                                                   any call is in progress
     no_uncounted_eviction = uncounted_placeholder = false  (F31) no call is aborted at the lock entry while its key's
                                                                   placeholder is uncounted (i.e. practically: no miss issued
                                                                   inside a cancelled scope, no native cancel in the
                                                                   always_checkpoint entry checkpoint), and no miss pops an
                                                                   uncounted placeholder
     no_dead_placeholder   = dead_placeholder_counted = false (F41) no execution of the wrapped function through the cache
                                                                   ever fails or is cancelled while its placeholder is
                                                                   still in the dict
     maxsize0_no_single_flight                              (F32) maxsize = 0 and two calls of one key in progress at once
   Hence "cache_clear() at any time / consecutive loops / cancelled scopes" is covered by the UNCONDITIONAL theorems only.

   Hypotheses carried by each theorem:
     none:  C20_key_construction, C20_keys_identify_equal_calls, C20_value_faithful, C20_produced_only_by_wrapped,
            C20_raises_own, C20_reuse_first_result (needs the entry to be a value at that moment),
            C20_distinct_keys_independent, C20_no_lock_error, C20_paths_exclusive, C20_order,
            C20_evicts_oldest_use / C20_stamp_is_last_use (for steps other than Clear / NewLoop), C20_use_refreshes,
            C20_expired_recomputed, C20_reread_serves_fresh, C20_invariant
     no_inflight_eviction, no_waited_eviction:                      C20_no_internal_error, C20_running_is_counted
     no_inflight_eviction, no_waited_eviction, no_other_loop:       C20_single_flight (cached path; maxsize = 0 has no
                                                                    single flight at all: C20_refuted_maxsize0_double_flight)
     no_inflight_eviction, no_waited_eviction, no_uncounted_eviction: C20_bounded
     all five (without maxsize0_...):                               C20_count_exact, C20_evicts_only_when_full

   Witnesses.  Each finding pattern is exhibited by a vm_compute witness on which ONLY its own predicate is true (the
   whole flag set is stated) and which violates one of the conditional clauses:
     F3  C20_refuted_keyerror (no_internal_error), C20_refuted_exceeds (bounded; count_exact: two results, currsize = 1),
         C20_refuted_double_flight (single_flight)
     F8  C20_refuted_keyerror_waited (no_internal_error), C20_refuted_double_flight_waited / _ttl (single_flight)
     F30 C20_refuted_clear_double_flight (single_flight), C20_refuted_other_loop_count (count_exact)
     F31 C20_refuted_uncounted_exceeds (bounded; count_exact: two results, currsize = 1)
     F32 C20_refuted_maxsize0_double_flight
     F41 C20_refuted_dead_placeholder (count_exact, evicts_only_when_full)
   NOT every hypothesis of every theorem has a necessity witness: none is given for no_waited_eviction in C20_bounded /
   C20_count_exact / C20_evicts_only_when_full (it is what the proof of the store step uses; no history is known that
   breaks the bound with evicts_waited alone), for the two hypotheses of C20_running_is_counted, and for
   no_inflight / no_uncounted / no_other_loop in C20_evicts_only_when_full.  C20_refuted_other_loop and
   C20_refuted_clear_in_flight show the CONSEQUENCES of F30 (own placeholder popped, second flight); those histories also
   contain the F3 pattern. *)
From AV Require Import Base Lru LruKey LruDict LruInv LruCount LruStep LruThms LruWitness.
From AV Require Lock.
From Coq Require Import Sorting.Sorted.

(* "equal arguments": the key tuple built from (args, kwargs, typed) is the same for two calls iff they have the
        same positional values, the same keyword names and values in the same order and - if typed - the same types of
        positional AND keyword values; the numeric key of the machine (`Call c a` looks up key_of cf a, where a is the
        code of the call in the catalogue call_of) identifies exactly these classes *)
Theorem C20_key_construction : forall ty c1 c2,
  make_key ty c1 = make_key ty c2 <->
  (map av (cpos c1) = map av (cpos c2) /\
   map (fun na => (fst na, av (snd na))) (ckws c1) = map (fun na => (fst na, av (snd na))) (ckws c2) /\
   (ty = true ->
    map aty_of (cpos c1) = map aty_of (cpos c2) /\
    map (fun na => aty_of (snd na)) (ckws c1) = map (fun na => aty_of (snd na)) (ckws c2))).
Proof. exact make_key_spec. Qed.
Print Assumptions C20_key_construction.

Theorem C20_keys_identify_equal_calls : forall cf a b,
  key_of cf a = key_of cf b <-> make_key (typed cf) (call_of a) = make_key (typed cf) (call_of b).
Proof. intros cf a b. rewrite make_key_spec. exact (key_of_spec cf a b). Qed.
Print Assumptions C20_keys_identify_equal_calls.

(* right value (unconditional) *)
Theorem C20_value_faithful : forall cf ops o s' v,
  step cf (run cf ops) o = (s', RRet v) ->
  exists k, call_key cf (run cf ops) o = Some k /\ In (k, v) (produced s').
Proof. exact lru_value_faithful. Qed.
Print Assumptions C20_value_faithful.

Theorem C20_produced_only_by_wrapped : forall cf ops o,
  let s := run cf ops in
  produced (fst (step cf s o)) = produced s \/
  exists c k v, o = Resume c /\ produced (fst (step cf s o)) = (k, v) :: produced s /\
    ((exists l g, phase s c = CInWrapped k l (Some (WRet v)) false g) \/ phase s c = CBypass k (Some (WRet v)) false).
Proof. exact lru_produced_only_by_wrapped. Qed.
Print Assumptions C20_produced_only_by_wrapped.

Theorem C20_raises_own : forall cf ops o e,
  let s := run cf ops in
  snd (step cf s o) = RExc e ->
  exists c k, o = Resume c /\
    ((exists l g, phase s c = CInWrapped k l (Some (WExc e)) false g) \/ phase s c = CBypass k (Some (WExc e)) false).
Proof. exact lru_raises_own. Qed.
Print Assumptions C20_raises_own.

(* single flight: any two callers executing the wrapped function for the same key through the cache (in whatever
        dict) are the same caller; the cached path and the lock-free maxsize = 0 path exclude each other *)
Theorem C20_single_flight : forall cf ops c1 c2 k l1 p1 b1 g1 l2 p2 b2 g2,
  no_inflight_eviction cf ops -> no_waited_eviction cf ops -> no_other_loop cf ops ->
  phase (run cf ops) c1 = CInWrapped k l1 p1 b1 g1 -> phase (run cf ops) c2 = CInWrapped k l2 p2 b2 g2 -> c1 = c2.
Proof. exact lru_single_flight. Qed.
Print Assumptions C20_single_flight.

Theorem C20_paths_exclusive : forall cf ops c,
  (forall k p b, phase (run cf ops) c = CBypass k p b -> is_zero_max cf = true) /\
  (forall k l p b g, phase (run cf ops) c = CInWrapped k l p b g -> is_zero_max cf = false) /\
  (forall k l t0 g, phase (run cf ops) c = CLockWait k l t0 g -> is_zero_max cf = false).
Proof. exact lru_paths_exclusive. Qed.
Print Assumptions C20_paths_exclusive.

Theorem C20_reuse_first_result : forall cf ops c k l t0 g v e,
  phase (run cf ops) c = CLockWait k l t0 g ->
  dget k (dicts (run cf ops) g) = Some (EVal v e) ->
  let r := snd (step cf (run cf ops) (Resume c)) in
  r = RRet v \/ r = RCancelled \/ r = RRejected.
Proof. exact lru_reuse_first_result. Qed.
Print Assumptions C20_reuse_first_result.

(* different keys do not block one another (unconditional) *)
Theorem C20_distinct_keys_independent : forall cf ops c k l t0 g,
  phase (run cf ops) c = CLockWait k l t0 g ->
  lkey (run cf ops) l = k /\
  (forall c', Lock.phase_of (locks (run cf ops) l) c' <> Lock.Idle \/ In c' (Lock.held (locks (run cf ops) l)) ->
     (exists t g', phase (run cf ops) c' = CLockWait k l t g') \/
     (exists p b g', phase (run cf ops) c' = CInWrapped k l p b g')) /\
  (forall c', Lock.owner (locks (run cf ops) l) = Some c' ->
     (exists t g', phase (run cf ops) c' = CLockWait k l t g') \/
     (exists p b g', phase (run cf ops) c' = CInWrapped k l p b g')).
Proof. exact lru_distinct_keys_independent. Qed.
Print Assumptions C20_distinct_keys_independent.

(* no internal error *)
Theorem C20_no_internal_error : forall cf ops o,
  no_inflight_eviction cf (ops ++ [o]) -> no_waited_eviction cf (ops ++ [o]) ->
  snd (step cf (run cf ops) o) <> RKeyError /\ snd (step cf (run cf ops) o) <> RLockErr.
Proof. exact lru_no_internal_error. Qed.
Print Assumptions C20_no_internal_error.

Theorem C20_no_lock_error : forall cf ops o, snd (step cf (run cf ops) o) <> RLockErr.
Proof. exact lru_no_lock_error. Qed.
Print Assumptions C20_no_lock_error.

(* bounded retention: results + counted placeholders of the running loop's dict never exceed maxsize;
        every running computation owns a counted placeholder; without any finding pattern the count is exact and
        an entry is evicted only when the number of counted live entries has reached maxsize *)
Theorem C20_bounded : forall cf ops m,
  no_inflight_eviction cf ops -> no_waited_eviction cf ops -> no_uncounted_eviction cf ops ->
  maxsize cf = Some m ->
  length (filter (fun x => negb (is_place (se x))) (dict (run cf ops))) +
  length (filter (fun x => match se x with EPlace _ true => true | _ => false end) (dict (run cf ops))) <= m.
Proof. exact lru_bounded. Qed.
Print Assumptions C20_bounded.

Theorem C20_running_is_counted : forall cf ops c k l p b g,
  no_inflight_eviction cf ops -> no_waited_eviction cf ops ->
  phase (run cf ops) c = CInWrapped k l p b g -> dget k (dicts (run cf ops) g) = Some (EPlace l true).
Proof. exact lru_running_is_counted. Qed.
Print Assumptions C20_running_is_counted.

Theorem C20_count_exact : forall cf ops,
  no_inflight_eviction cf ops -> no_waited_eviction cf ops -> no_uncounted_eviction cf ops ->
  no_dead_placeholder cf ops -> no_other_loop cf ops ->
  currsize (run cf ops) =
  Z.of_nat (length (filter (fun x => negb (is_place (se x))) (dict (run cf ops))) +
            length (filter (fun x => match se x with EPlace _ true => true | _ => false end) (dict (run cf ops)))).
Proof. exact lru_count_exact. Qed.
Print Assumptions C20_count_exact.

Theorem C20_evicts_only_when_full : forall cf ops o key,
  no_inflight_eviction cf (ops ++ [o]) -> no_waited_eviction cf (ops ++ [o]) ->
  no_uncounted_eviction cf (ops ++ [o]) -> no_dead_placeholder cf (ops ++ [o]) -> no_other_loop cf (ops ++ [o]) ->
  o <> Clear -> o <> NewLoop ->
  In key (map sk (dict (run cf ops))) -> ~ In key (map sk (dict (run cf (ops ++ [o])))) ->
  exists m, maxsize cf = Some m /\
    length (filter (fun x => negb (is_place (se x))) (dict (run cf (ops ++ [o])))) +
    length (filter (fun x => match se x with EPlace _ true => true | _ => false end) (dict (run cf (ops ++ [o])))) = m.
Proof. exact lru_evicts_only_when_full. Qed.
Print Assumptions C20_evicts_only_when_full.

(* least recently used first, ttl included (unconditional).  ss = ghost stamp = logical time of the entry's
        last use (install, hit, reuse after a wait, recomputation after expiry); clk = the logical clock *)
Theorem C20_order : forall cf ops g,
  NoDup (map sk (dicts (run cf ops) g)) /\
  StronglySorted (fun a b => ss a < ss b) (dicts (run cf ops) g) /\
  (forall x, In x (dicts (run cf ops) g) -> ss x < clk (run cf ops)).
Proof. exact lru_order. Qed.
Print Assumptions C20_order.

Theorem C20_evicts_oldest_use : forall cf ops o g x,
  o <> Clear -> o <> NewLoop -> In x (dicts (run cf ops) g) ->
  (forall y, In y (dicts (fst (step cf (run cf ops) o)) g) -> sk y <> sk x) ->
  forall y', In y' (dicts (fst (step cf (run cf ops) o)) g) -> ss x < ss y'.
Proof. exact lru_evicts_oldest_use. Qed.
Print Assumptions C20_evicts_oldest_use.

Theorem C20_stamp_is_last_use : forall cf ops o g y',
  o <> Clear -> o <> NewLoop -> In y' (dicts (fst (step cf (run cf ops) o)) g) ->
  (exists y, In y (dicts (run cf ops) g) /\ sk y = sk y' /\ ss y = ss y') \/
  (call_key cf (run cf ops) o = Some (sk y') /\ clk (run cf ops) <= ss y').
Proof. exact lru_stamp_is_last_use. Qed.
Print Assumptions C20_stamp_is_last_use.

Theorem C20_use_refreshes : forall cf ops o k g,
  ((exists c a, (o = Call c a \/ o = CallX c a) /\ key_of cf a = k /\ g = cur (run cf ops) /\
      snd (step cf (run cf ops) o) <> RRejected /\
      is_zero_max cf = false /\ (forall l b, dget k (dict (run cf ops)) <> Some (EPlace l b))) \/
   (exists c l t0 v, o = Resume c /\ phase (run cf ops) c = CLockWait k l t0 g /\
      snd (step cf (run cf ops) o) = RRet v)) ->
  forall y, In y (dicts (fst (step cf (run cf ops) o)) g) -> sk y = k -> clk (run cf ops) <= ss y.
Proof. exact lru_use_refreshes. Qed.
Print Assumptions C20_use_refreshes.

(* an expired entry is recomputed, not served (unconditional) *)
Theorem C20_expired_recomputed : forall cf ops c a x v,
  let s := run cf ops in
  snd (enter cf s c a x) <> RRejected ->
  (snd (enter cf s c a x) = RRet v \/
   exists b, phase (fst (enter cf s c a x)) c = CHitCk (key_of cf a) v b) ->
  exists y exp, dfind (key_of cf a) (dict s) = Some y /\ se y = EVal v exp /\ expired exp (now s) = false.
Proof. exact lru_expired_recomputed. Qed.
Print Assumptions C20_expired_recomputed.

Theorem C20_reread_serves_fresh : forall cf ops c k l t0 g v,
  phase (run cf ops) c = CLockWait k l t0 g ->
  snd (step cf (run cf ops) (Resume c)) = RRet v ->
  exists exp, dget k (dicts (run cf ops) g) = Some (EVal v exp) /\
              forall e dl, exp = Some e -> ttl cf = Some dl -> t0 + dl <= e.
Proof. exact lru_reread_serves_fresh. Qed.
Print Assumptions C20_reread_serves_fresh.

(* the invariant behind the above, for every op sequence *)
Theorem C20_invariant : forall cf ops, Inv1 cf (run cf ops) /\ Inv2 cf (run cf ops).
Proof. exact reachable_inv. Qed.
Print Assumptions C20_invariant.

(* witnesses.  only_X = the flag set in which X is the only true flag *)
(* F3 *)
Theorem C20_refuted_keyerror :
  exists cf ops o, fl (run cf (ops ++ [o])) = mkfl true false false false false false /\
    snd (step cf (run cf ops) o) = RKeyError.
Proof. exact lru_refuted_keyerror. Qed.
Print Assumptions C20_refuted_keyerror.

Theorem C20_refuted_exceeds :
  exists cf ops m, maxsize cf = Some m /\ fl (run cf ops) = mkfl true false false false false false /\
    m < length (filter (fun x => negb (is_place (se x))) (dict (run cf ops))) /\ currsize (run cf ops) = 1%Z.
Proof. exact lru_refuted_exceeds. Qed.
Print Assumptions C20_refuted_exceeds.

Theorem C20_refuted_double_flight :
  exists cf ops c1 c2 k l1 l2 g, fl (run cf ops) = mkfl true false false false false false /\ c1 <> c2 /\
    phase (run cf ops) c1 = CInWrapped k l1 None false g /\ phase (run cf ops) c2 = CInWrapped k l2 None false g.
Proof. exact lru_refuted_double_flight. Qed.
Print Assumptions C20_refuted_double_flight.

(* F8 *)
Theorem C20_refuted_keyerror_waited :
  exists cf ops o, fl (run cf (ops ++ [o])) = mkfl false true false false false false /\
    snd (step cf (run cf ops) o) = RKeyError.
Proof. exact lru_refuted_keyerror_waited. Qed.
Print Assumptions C20_refuted_keyerror_waited.

Theorem C20_refuted_double_flight_waited :
  exists cf ops c1 c2 k l1 l2 g, fl (run cf ops) = mkfl false true false false false false /\ c1 <> c2 /\
    phase (run cf ops) c1 = CInWrapped k l1 None false g /\ phase (run cf ops) c2 = CInWrapped k l2 None false g.
Proof. exact lru_refuted_double_flight_waited. Qed.
Print Assumptions C20_refuted_double_flight_waited.

Theorem C20_refuted_double_flight_ttl :
  exists cf ops c1 c2 k l1 l2 g, maxsize cf = None /\ fl (run cf ops) = mkfl false true false false false false /\
    c1 <> c2 /\
    phase (run cf ops) c1 = CInWrapped k l1 None false g /\ phase (run cf ops) c2 = CInWrapped k l2 None false g.
Proof. exact lru_refuted_double_flight_ttl. Qed.
Print Assumptions C20_refuted_double_flight_ttl.

(* F30 *)
Theorem C20_refuted_clear_double_flight :
  exists cf ops c1 c2 k l1 l2 g1 g2, fl (run cf ops) = mkfl false false false false true false /\ c1 <> c2 /\
    phase (run cf ops) c1 = CInWrapped k l1 None false g1 /\ phase (run cf ops) c2 = CInWrapped k l2 None false g2.
Proof. exact lru_refuted_clear_double_flight. Qed.
Print Assumptions C20_refuted_clear_double_flight.

Theorem C20_refuted_other_loop_count :
  exists cf ops, fl (run cf ops) = mkfl false false false false true false /\
    dict (run cf ops) = [] /\ currsize (run cf ops) = 1%Z.
Proof. exact lru_refuted_other_loop_count. Qed.
Print Assumptions C20_refuted_other_loop_count.

Theorem C20_refuted_other_loop :
  exists cf ops c1 c2 k, stale_count_other_loop cf ops = true /\ evicts_waited cf ops = false /\
    dead_placeholder_counted cf ops = false /\ uncounted_placeholder cf ops = false /\ c1 <> c2 /\
    executing (run cf ops) c1 k /\ executing (run cf ops) c2 k /\
    fl (run cf (firstn 4 ops)) = mkfl false false false false true false /\
    dict (run cf (firstn 4 ops)) = [] /\ currsize (run cf (firstn 4 ops)) = 1%Z.
Proof. exact lru_refuted_other_loop. Qed.
Print Assumptions C20_refuted_other_loop.

Theorem C20_refuted_clear_in_flight :
  exists cf ops c1 c2 k, stale_count_other_loop cf ops = true /\ evicts_waited cf ops = false /\
    c1 <> c2 /\ executing (run cf ops) c1 k /\ executing (run cf ops) c2 k /\
    dict (run cf (firstn 8 ops)) = [] /\ currsize (run cf (firstn 8 ops)) = 1%Z.
Proof. exact lru_refuted_clear_in_flight. Qed.
Print Assumptions C20_refuted_clear_in_flight.

(* F31 *)
Theorem C20_refuted_uncounted_exceeds :
  exists cf ops m, maxsize cf = Some m /\ fl (run cf ops) = mkfl false false true false false false /\
    m < length (filter (fun x => negb (is_place (se x))) (dict (run cf ops))) /\ currsize (run cf ops) = 1%Z.
Proof. exact lru_refuted_uncounted_exceeds. Qed.
Print Assumptions C20_refuted_uncounted_exceeds.

(* F32 *)
Theorem C20_refuted_maxsize0_double_flight :
  exists cf ops c1 c2 k, is_zero_max cf = true /\ fl (run cf ops) = mkfl false false false false false true /\
    c1 <> c2 /\
    phase (run cf ops) c1 = CBypass k None false /\ phase (run cf ops) c2 = CBypass k None false.
Proof. exact lru_refuted_maxsize0_double_flight. Qed.
Print Assumptions C20_refuted_maxsize0_double_flight.

(* F41 *)
Theorem C20_refuted_dead_placeholder :
  exists cf ops o key m, maxsize cf = Some m /\ fl (run cf (ops ++ [o])) = mkfl false false false true false false /\
    o <> Clear /\ o <> NewLoop /\
    In key (map sk (dict (run cf ops))) /\ ~ In key (map sk (dict (run cf (ops ++ [o])))) /\
    length (filter (fun x => negb (is_place (se x))) (dict (run cf (ops ++ [o])))) +
    length (filter (fun x => match se x with EPlace _ true => true | _ => false end) (dict (run cf (ops ++ [o])))) < m /\
    currsize (run cf (ops ++ [o])) = Z.of_nat m.
Proof. exact lru_refuted_dead_placeholder. Qed.
Print Assumptions C20_refuted_dead_placeholder.

(* F15 (fixed by /repo 21d8dda): the variant of `step` that keeps the position of an expired entry when it is
        recomputed violates C20_evicts_oldest_use on a history without any finding pattern *)
Theorem C20_refuted_old_expiry_order :
  exists cf ops o x y',
    fl (run_old cf (ops ++ [o])) = mkfl false false false false false false /\
    o <> Clear /\ o <> NewLoop /\ In x (dict (run_old cf ops)) /\
    (forall y, In y (dict (fst (old_expiry_step cf (run_old cf ops) o))) -> sk y <> sk x) /\
    In y' (dict (fst (old_expiry_step cf (run_old cf ops) o))) /\ ss y' < ss x.
Proof. exact lru_refuted_old_expiry_order. Qed.
Print Assumptions C20_refuted_old_expiry_order.

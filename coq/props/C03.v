(* C03 — level-triggered cancellation: nothing stays blocked in a cancelled scope.
   This file contains only statements closed by `exact` and their Print Assumptions.
   reach_ok s = s is reached from init by an op list of the generated domain (TreeStep.op_ok: AEnter only on
   allocated scopes that are neither a task group's own scope nor a task handle's scope, AExit on such scopes
   or when it is rejected by its guards anyway, AGroupEnter on allocated groups, AFinish only at the task's
   base scope, ARun (HWake t f) only for f = the task's waiter). *)
From AV Require Import Base Machine ScopeFrames DeliverInv TreeInv DeliverAlive TreeStep KernelInv DeliverThms
  CycleThms ActThms CycleMore AuditWitness CheckpointFacts CkifPinned.

(* I4: a cancelled, hosted scope that some live task still reaches (walk from the task's current scope up the
   parent links through scopes that are neither shielded nor cancelled) has its delivery callback scheduled *)
Theorem C03_delivery_alive : forall s c,
  reach_ok s -> s_cancelled (scopes s c) = true -> s_host (scopes s c) <> None ->
  (exists t, reaches s t c) ->
  s_chandle (scopes s c) = true /\ In (HDeliver c) (ready s).
Proof. exact delivery_alive. Qed.
Print Assumptions C03_delivery_alive.

(* the structural invariant behind it (I1 tree, I2 stack) holds in every reachable state of the domain *)
Theorem C03_tree_invariant : forall s, reach_ok s -> Tree s.
Proof. exact reach_tree. Qed.
Print Assumptions C03_tree_invariant.

(* running the scheduled callback in a reachable state: every reached task that can take a request gets one
   carrying the scope as origin, and the callback is re-scheduled iff somebody is still reached *)
Theorem C03_deliver_cancels_reach : forall s c,
  reach_ok s -> In (HDeliver c) (ready s) ->
  let s' := fst (step s (ARun (HDeliver c))) in
  (forall t, reaches s t c -> takes_request s t -> requested s' t (S c)) /\
  ((exists t, reaches s t c) -> s_chandle (scopes s' c) = true /\ In (HDeliver c) (ready s')) /\
  (~ (exists t, reaches s t c) -> s_chandle (scopes s' c) = false) /\
  (forall c', c' <> c -> scopes s' c' = scopes s c').
Proof. exact deliver_cancels_reach. Qed.
Print Assumptions C03_deliver_cancels_reach.

(* the same on the recursion itself (any state): walk = dreach on the children/tasks lists *)
Theorem C03_deliver_top_spec : forall s c, wait_link s ->
  let s' := deliver_top s c in
  kframe s s' /\
  (forall c', c' <> c -> scopes s' c' = scopes s c') /\
  (forall x t, dreach s (S (nscope s)) c x t -> elig s t x -> requested s' t (S c)) /\
  ((exists x t, dreach s (S (nscope s)) c x t /\ k_done (tasks s t) = None) ->
     s_chandle (scopes s' c) = true /\ In (HDeliver c) (ready s')) /\
  (~ (exists x t, dreach s (S (nscope s)) c x t /\ k_done (tasks s t) = None) ->
     s_chandle (scopes s' c) = false).
Proof. exact deliver_top_spec. Qed.
Print Assumptions C03_deliver_top_spec.

(* K: the link between a waiting task and its future holds after EVERY op sequence (no domain restriction) *)
Theorem C03_wait_link : forall ops, wait_link (final step init ops).
Proof. exact reach_wait_link. Qed.
Print Assumptions C03_wait_link.

(* K: the request is what the task receives at its next step ... *)
Theorem C03_cancelled_request_is_delivered : forall s t o,
  requested s t o -> snd (incoming s t (k_waiter (tasks s t))) = Some (ECancel o).
Proof. exact cancelled_request_is_delivered. Qed.
Print Assumptions C03_cancelled_request_is_delivered.

(* ... and a plain wait (checkpoint, checkpoint_if_cancelled spin, sleep, handle.wait) raises it *)
Theorem C03_cancelled_wait_raises : forall s t o,
  requested s t o ->
  match k_ctl (tasks s t) with
  | CYield YCheckpoint | CYield YCkIf | CSleep _ _ | CHandleWait _ _ => True
  | _ => False
  end ->
  snd (resume s t (k_waiter (tasks s t))) = RExc (ECancel o).
Proof. exact cancelled_wait_raises. Qed.
Print Assumptions C03_cancelled_wait_raises.

(* corner cases of one delivery step: the task is skipped and the delivery asks to be re-run *)
Theorem C03_corner_running : forall self o a r t,
  running a = Some t -> k_done (tasks a t) = None -> deliver_task self o (a, r) t = (a, true).
Proof. exact corner_running. Qed.
Print Assumptions C03_corner_running.

Theorem C03_corner_not_started : forall self o a r t,
  k_started (tasks a t) = false -> s_host (scopes a self) <> Some t -> k_done (tasks a t) = None ->
  deliver_task self o (a, r) t = (a, true).
Proof. exact corner_not_started. Qed.
Print Assumptions C03_corner_not_started.

Theorem C03_corner_about_to_resume : forall self o a r t f,
  k_waiter (tasks a t) = Some f -> f_st (futs a f) <> FPend -> k_done (tasks a t) = None ->
  deliver_task self o (a, r) t = (a, true).
Proof. exact corner_about_to_resume. Qed.
Print Assumptions C03_corner_about_to_resume.

Theorem C03_cancelled_before_entry_delivers : forall s c t,
  s_active (scopes s c) = false -> s_cancelled (scopes s c) = true -> k_cur (tasks s t) <> Some c ->
  fst (scope_enter s c t) = deliver_top (enter_s5 s c t) c.
Proof. exact cancelled_before_entry_delivers. Qed.
Print Assumptions C03_cancelled_before_entry_delivers.

Theorem C03_exit_restarts_parent : forall s c t exc,
  s_active (scopes s c) = true -> s_host (scopes s c) = Some t -> k_cur (tasks s t) = Some c ->
  exists s6, kframe (restart (exit_struct s c t) (s_parent (scopes s c))) s6 /\
             fst (scope_exit s c t exc) = upd_scope s6 c (sc_host None).
Proof. exact exit_restarts_parent. Qed.
Print Assumptions C03_exit_restarts_parent.

(* one-cycle pieces with the exact origin: the delivery callback is in the ready queue; running it cancels the
   task's wait and schedules its wake-up; running the wake-up raises the cancellation with the scope as origin *)
Theorem C03_delivery_then_wake_raises : forall s t c f,
  reach_ok s -> s_cancelled (scopes s c) = true -> s_host (scopes s c) <> None -> reaches s t c ->
  k_must (tasks s t) = false -> k_started (tasks s t) = true ->
  k_waiter (tasks s t) = Some f -> f_st (futs s f) = FPend ->
  match k_ctl (tasks s t) with
  | CYield YCheckpoint | CYield YCkIf | CSleep _ _ | CHandleWait _ _ => True
  | _ => False
  end ->
  let s1 := fst (step s (ARun (HDeliver c))) in
  In (HDeliver c) (ready s) /\
  In (HWake t f) (ready s1) /\
  snd (step s1 (ARun (HWake t f))) = RExc (ECancel (S c)).
Proof. exact cancel_latency_le_2_cycles_partial. Qed.
Print Assumptions C03_delivery_then_wake_raises.

Theorem C03_delivery_then_step_raises : forall s t c,
  reach_ok s -> s_cancelled (scopes s c) = true -> s_host (scopes s c) <> None -> reaches s t c ->
  k_must (tasks s t) = false -> k_started (tasks s t) = true -> k_waiter (tasks s t) = None ->
  In (HStep t) (ready s) ->
  match k_ctl (tasks s t) with CYield YCheckpoint | CYield YCkIf => True | _ => False end ->
  let s1 := fst (step s (ARun (HDeliver c))) in
  In (HDeliver c) (ready s) /\
  In (HStep t) (ready s1) /\
  snd (step s1 (ARun (HStep t))) = RExc (ECancel (S c)).
Proof. exact ckif_spin_terminates_partial. Qed.
Print Assumptions C03_delivery_then_step_raises.

(* bounded response under the FIFO event loop:
   run_head s   = run the head of the ready queue (step s (ARun h)); identity on an empty queue
   fifo_cycle s = iter (length (ready s)) run_head s   (snapshot the queue length, run that many heads)
   heads n s    = the n (state, handle) pairs (s_i, h_i) of the next n head runs
   wait_ctl     = the task is the puppet at its decision point, in a checkpoint, in checkpoint_if_cancelled,
                  in sleep, or in a handle wait
   cycle_ok t f n s = each of the next n head runs is either t's own wake-up HWake t f at a moment where f is
                  no longer pending, or a callback of a covered kind that is not HWake t f:
                  HDeliver, HTaskDone, HSleepDone, HTimeout of anything, and HStep/HWake of another task whose
                  frame is simple_ctl (decision point, checkpoint, checkpoint_if_cancelled, sleep, handle wait,
                  done), all inside the op domain.
   The two cycles consist of head-of-queue runs ONLY: no task makes any API call, no time passes (no tick), there
   is no native or external cancel and no new root task inside them.
   Excluded in addition: resumptions of other tasks' library frames that run scope exits or group logic (task
   start CNew, CYield (YShield _), CAexitWait, CAexitCk, CStartWait, CStartJoin), any HStep of t, and a wake-up
   of t while f is still pending.
   Statement: t suspended on the pending future f with no request recorded, reaching the cancelled hosted
   scope c at a cycle boundary.  Then among the head runs of this cycle and the next there is t's wake-up, and
   it raises a cancellation (origin: c or a nearer scope cancelled in between) unless f was completed with a
   result or an exception first (the wait finished normally before the delivery). *)
Theorem C03_cancel_latency_le_2_cycles : forall t f c s,
  reach_ok s -> running s <> Some t ->
  s_cancelled (scopes s c) = true -> s_host (scopes s c) <> None -> reaches s t c ->
  k_must (tasks s t) = false -> k_started (tasks s t) = true ->
  k_waiter (tasks s t) = Some f -> f_st (futs s f) = FPend -> wait_ctl (k_ctl (tasks s t)) = true ->
  cycle_ok t f (length (ready s)) s -> cycle_ok t f (length (ready (fifo_cycle s))) (fifo_cycle s) ->
  exists si,
    In (si, HWake t f) (heads (length (ready s)) s ++ heads (length (ready (fifo_cycle s))) (fifo_cycle s)) /\
    ((exists o, snd (step si (ARun (HWake t f))) = RExc (ECancel o)) \/
     (exists v, f_st (futs si f) = FRes v) \/ (exists e, f_st (futs si f) = FExc e)).
Proof. exact cancel_latency_le_2_cycles. Qed.
Print Assumptions C03_cancel_latency_le_2_cycles.

(* the premises are satisfiable (task 1 cancels its own scope while running, then sleeps forever); the two
   cycles observed are [HDeliver 1] and [HWake 1 5; HDeliver 1] *)
Theorem C03_cancel_latency_nonvacuous :
  let s := final step init [ANewRoot; ANewScope 1 None false; AEnter 1 1; ACancel 1 1; ASleep 1 None] in
  running s <> Some 1 /\ s_cancelled (scopes s 1) = true /\ s_host (scopes s 1) <> None /\ reaches s 1 1 /\
  k_must (tasks s 1) = false /\ k_started (tasks s 1) = true /\ k_waiter (tasks s 1) = Some 5 /\
  f_st (futs s 5) = FPend /\ wait_ctl (k_ctl (tasks s 1)) = true /\
  cycle_ok 1 5 (length (ready s)) s /\ cycle_ok 1 5 (length (ready (fifo_cycle s))) (fifo_cycle s) /\
  map snd (heads (length (ready s)) s ++ heads (length (ready (fifo_cycle s))) (fifo_cycle s))
  = [HDeliver 1; HWake 1 5; HDeliver 1].
Proof. exact lat_premises. Qed.
Print Assumptions C03_cancel_latency_nonvacuous.

(* checkpoint_if_cancelled spin: t is suspended in the bare yield of the spin (its HStep is scheduled) and
   reaches the cancelled hosted scope c.  cycle_oky t n s = each of the next n head runs is t's own HStep, or a
   covered callback as above (with "HStep/HWake of another task" meaning a task other than t).  Then among the
   head runs of this cycle and the next there is a step of t that raises a cancellation: the spin makes at
   most one more round. *)
Theorem C03_ckif_spin_terminates : forall t c s,
  reach_ok s -> running s <> Some t ->
  s_cancelled (scopes s c) = true -> s_host (scopes s c) <> None -> reaches s t c ->
  k_started (tasks s t) = true -> k_waiter (tasks s t) = None ->
  k_ctl (tasks s t) = CYield YCkIf -> In (HStep t) (ready s) ->
  cycle_oky t (length (ready s)) s -> cycle_oky t (length (ready (fifo_cycle s))) (fifo_cycle s) ->
  exists si,
    In (si, HStep t) (heads (length (ready s)) s ++ heads (length (ready (fifo_cycle s))) (fifo_cycle s)) /\
    exists o, snd (step si (ARun (HStep t))) = RExc (ECancel o).
Proof. exact ckif_spin_terminates. Qed.
Print Assumptions C03_ckif_spin_terminates.

Theorem C03_ckif_spin_nonvacuous :
  let s := final step init [ANewRoot; ANewScope 1 None false; AEnter 1 1; ACancel 1 1; ACkIf 1] in
  running s <> Some 1 /\ s_cancelled (scopes s 1) = true /\ s_host (scopes s 1) <> None /\ reaches s 1 1 /\
  k_started (tasks s 1) = true /\ k_waiter (tasks s 1) = None /\ k_ctl (tasks s 1) = CYield YCkIf /\
  In (HStep 1) (ready s) /\
  cycle_oky 1 (length (ready s)) s /\ cycle_oky 1 (length (ready (fifo_cycle s))) (fifo_cycle s) /\
  map snd (heads (length (ready s)) s ++ heads (length (ready (fifo_cycle s))) (fifo_cycle s))
  = [HDeliver 1; HStep 1; HDeliver 1].
Proof. exact spin_premises. Qed.
Print Assumptions C03_ckif_spin_nonvacuous.

(* F46.  The complement of C03_ckif_spin_terminates: when NO cancelled scope is visible any more from the current scope of
   a spinning task (e.g. a shield was raised between the cancellation and the delivery), its next step returns normally
   from checkpoint_if_cancelled -- the spin never goes on with nothing left to deliver.  Any state. *)
Theorem C03_ckif_spin_released_when_nothing_visible : forall s t,
  In (HStep t) (ready s) -> k_ctl (tasks s t) = CYield YCkIf -> k_must (tasks s t) = false ->
  eff_cancelled_from (nscope s) s (k_cur (tasks s t)) = false ->
  snd (step s (ARun (HStep t))) = RRet 0.
Proof. exact ckif_spin_released_when_nothing_visible. Qed.
Print Assumptions C03_ckif_spin_released_when_nothing_visible.

(* Before F46 (CkifPinned.step_pinned: the spinning task yields again unconditionally) the run f46_ops, the same on both
   machines op by op, ends with task 1 spinning alone in the ready queue, no cancelled scope visible from its scope 2,
   no delivery callback for the cancelled scope 1 and no timer; from there EVERY later run of its callback suspends it
   again and leaves the queue [HStep 1]: a busy loop that no delivery will ever end. *)
Theorem C03_ckif_spin_for_ever_refuted_pinned :
  snd (run_ops step_pinned init f46_ops) = snd (run_ops step init f46_ops) /\
  spinning f46_state_pinned 1 /\ k_cur (tasks f46_state_pinned 1) = Some 2 /\
  eff_cancelled f46_state_pinned 2 = false /\
  s_chandle (scopes f46_state_pinned 1) = false /\ timers f46_state_pinned = [] /\
  snd (step f46_state_pinned (ARun (HStep 1))) = RRet 0 /\
  forall n, snd (step_pinned (pinned_rounds n f46_state_pinned 1) (ARun (HStep 1))) = RBlocked /\
            ready (pinned_rounds n f46_state_pinned 1) = [HStep 1].
Proof. exact ckif_pinned_run_witness_full. Qed.
Print Assumptions C03_ckif_spin_for_ever_refuted_pinned.

(* the same under the conventional name: in f46_state_pinned the premises of C03_ckif_spin_released_when_nothing_visible hold
   for task 1 (spinning: its step queued, frame CYield YCkIf, no request; current scope 2, not effectively cancelled);
   today's step returns RRet 0, the pinned step returns RBlocked, for ever *)
Theorem C03_ckif_spin_released_when_nothing_visible_refuted_pinned :
  snd (run_ops step_pinned init f46_ops) = snd (run_ops step init f46_ops) /\
  spinning f46_state_pinned 1 /\ k_cur (tasks f46_state_pinned 1) = Some 2 /\
  eff_cancelled f46_state_pinned 2 = false /\
  s_chandle (scopes f46_state_pinned 1) = false /\ timers f46_state_pinned = [] /\
  snd (step f46_state_pinned (ARun (HStep 1))) = RRet 0 /\
  forall n, snd (step_pinned (pinned_rounds n f46_state_pinned 1) (ARun (HStep 1))) = RBlocked /\
            ready (pinned_rounds n f46_state_pinned 1) = [HStep 1].
Proof. exact ckif_pinned_run_witness_full. Qed.
Print Assumptions C03_ckif_spin_released_when_nothing_visible_refuted_pinned.

(* bounded response under concurrent activity of the other tasks, within the op_ok domain:
   wcyc n s ops s' = one event-loop iteration from s to s': exactly n callbacks are run, each one the head of the
                     ready queue at that moment (or the queue runs dry), with any number of other ops in between
   wop t f s o     = o is an act of somebody else (other_act: any API call of a task other than t - enter, exit,
                     cancel, shield, deadline, task-group and start() calls, sleeps, checkpoints, finishing ... -
                     scope.cancel() from a callback, time passing, a new root task, a native cancel of another
                     task) with op_ok, or the run of the callback at the head of the queue unless it resumes t;
                     every frame of a resumed task is allowed (task start, shielded checkpoint, TaskGroup.__aexit__
                     wait loop and final checkpoint, start() wait and join, ...)
   wok0 t f s ops  = every op is a wop until t's wake-up ARun (HWake t f) is run with its future done
   trace / states  = the (state, op) pairs / the states of the run
   Statement: t is suspended on the pending future f with no request recorded, has started and reaches the
   cancelled hosted scope c at the boundary between two iterations.  Then within this iteration and the next
   t's wake-up is run and raises a cancellation - unless f was completed with a result or an exception first -
   or at some state of the window t is not effectively cancelled any more (somebody shielded it).
   Every window op must satisfy op_ok (the well-used domain of TreeStep.ops_ok).  Not covered as window ops: acts
   of t itself (it is suspended), a native Task.cancel() of t, running a callback that is not at the head of the
   queue.  Hypotheses on t at the start: no request recorded (k_must = false) and started (k_started = true). *)
Theorem C03_cancel_latency_any_activity : forall t f c s ops1 ops2 s1 s2,
  reach_ok s -> running s <> Some t ->
  s_cancelled (scopes s c) = true -> s_host (scopes s c) <> None -> reaches s t c ->
  k_must (tasks s t) = false -> k_started (tasks s t) = true ->
  k_waiter (tasks s t) = Some f -> f_st (futs s f) = FPend -> wait_ctl (k_ctl (tasks s t)) = true ->
  wcyc (length (ready s)) s ops1 s1 -> wcyc (length (ready s1)) s1 ops2 s2 -> wok0 t f s (ops1 ++ ops2) ->
  (exists si, In (si, ARun (HWake t f)) (trace s (ops1 ++ ops2)) /\
     ((exists o, snd (step si (ARun (HWake t f))) = RExc (ECancel o)) \/
      (exists v, f_st (futs si f) = FRes v) \/ (exists e, f_st (futs si f) = FExc e))) \/
  (exists si, In si (states s (ops1 ++ ops2)) /\ eff_cancelled_from (nscope si) si (k_cur (tasks si t)) = false).
Proof. exact cancel_latency_any_activity_full. Qed.
Print Assumptions C03_cancel_latency_any_activity.

(* non-vacuity with a task group: host 1 waits in TaskGroup.__aexit__, children 2 and 3 sleep; child 3 cancelled
   the group scope itself before going to sleep (it is t; the delivery that hit child 2 and the host skipped it).
   grp_ops1 = [ARun (HWake 2 8); AFinish 2 0; ARun (HWake 1 9); ARun (HDeliver 1)]   (child 2 gets the cancellation
   and finishes - an API-level act of another task; the host is resumed inside __aexit__ with the cancellation;
   the delivery callback cancels child 3's sleep), grp_ops2 = [ARun (HTaskDone 2); ARun (HWake 3 11); ARun (HDeliver 1)].
   cycle_ok of C03_cancel_latency_le_2_cycles is false here (C03_cancel_latency_any_activity_beyond_cycle_ok below). *)
Theorem C03_cancel_latency_any_activity_nonvacuous :
  let s := final step init grp_pre in
  reach_ok s /\ running s <> Some 3 /\ s_cancelled (scopes s 1) = true /\ s_host (scopes s 1) <> None /\
  reaches s 3 1 /\ k_must (tasks s 3) = false /\ k_started (tasks s 3) = true /\ k_waiter (tasks s 3) = Some 11 /\
  f_st (futs s 11) = FPend /\ wait_ctl (k_ctl (tasks s 3)) = true /\
  k_ctl (tasks s 1) = CAexitWait 1 4 None /\ k_ctl (tasks s 2) = CSleep 8 0 /\
  ready s = [HWake 2 8; HWake 1 9; HDeliver 1] /\
  wok 3 11 s (grp_ops1 ++ grp_ops2) /\
  exists s1 s2, wcyc (length (ready s)) s grp_ops1 s1 /\ wcyc (length (ready s1)) s1 grp_ops2 s2 /\
                ready s1 = [HTaskDone 2; HWake 3 11; HDeliver 1].
Proof. exact grp_premises. Qed.
Print Assumptions C03_cancel_latency_any_activity_nonvacuous.

Theorem C03_cancel_latency_any_activity_nonvacuous_window :
  wok0 3 11 (final step init grp_pre) (grp_ops1 ++ grp_ops2).
Proof. exact grp_wok0. Qed.
Print Assumptions C03_cancel_latency_any_activity_nonvacuous_window.

(* that witness lies outside the FIFO theorem: the second head run resumes the host inside TaskGroup.__aexit__
   (frame CAexitWait, not simple_ctl), and AFinish 2 0 is an API call *)
Theorem C03_cancel_latency_any_activity_beyond_cycle_ok :
  ~ cycle_ok 3 11 (length (ready (final step init grp_pre))) (final step init grp_pre).
Proof. exact grp_cycle_ok_fails. Qed.
Print Assumptions C03_cancel_latency_any_activity_beyond_cycle_ok.

(* a plain checkpoint() under the FIFO loop:
   cycle_okc t n s = each of the next n head runs up to t's own step is a covered callback of somebody else
   (bystander_y: HDeliver/HTaskDone/HSleepDone/HTimeout, HStep/HWake of another task with a simple_ctl frame);
   pure FIFO head runs: no API call by anybody, no tick, no native/external cancel in between.  Without this
   hypothesis the statement is false (a task resumed in between may raise a shield).
   The task sits in the bare yield of checkpoint() (no waiter, its step queued) and reaches the cancelled hosted
   scope c; no step of t is queued in front of position |pre| and the delivery callback of c is queued in front
   of it (or a request is already recorded).  Then the first step of t in this iteration raises the cancellation.
   (If the step is queued in front of the delivery callback, checkpoint() returns normally - the task is not
   blocked, and its next wait is covered by the latency theorems.) *)
Theorem C03_checkpoint_raises_fifo : forall t c s pre post,
  reach_ok s -> running s <> Some t ->
  s_cancelled (scopes s c) = true -> s_host (scopes s c) <> None -> reaches s t c ->
  k_started (tasks s t) = true -> k_waiter (tasks s t) = None -> k_ctl (tasks s t) = CYield YCheckpoint ->
  ready s = pre ++ HStep t :: post -> ~ In (HStep t) pre ->
  (k_must (tasks s t) = true \/ In (HDeliver c) pre) ->
  cycle_okc t (length (ready s)) s ->
  exists si, In (si, HStep t) (heads (length (ready s)) s) /\
             exists o, snd (step si (ARun (HStep t))) = RExc (ECancel o).
Proof. exact checkpoint_raises_fifo. Qed.
Print Assumptions C03_checkpoint_raises_fifo.

Theorem C03_checkpoint_raises_fifo_nonvacuous :
  let s := final step init [ANewRoot; ANewScope 1 None false; AEnter 1 1; ACancel 1 1; AYield 1] in
  reach_ok s /\ running s <> Some 1 /\ s_cancelled (scopes s 1) = true /\ s_host (scopes s 1) <> None /\
  reaches s 1 1 /\ k_started (tasks s 1) = true /\ k_waiter (tasks s 1) = None /\
  k_ctl (tasks s 1) = CYield YCheckpoint /\ ready s = [HDeliver 1] ++ HStep 1 :: [] /\
  ~ In (HStep 1) [HDeliver 1] /\ In (HDeliver 1) [HDeliver 1] /\ cycle_okc 1 (length (ready s)) s.
Proof. exact ck_premises. Qed.
Print Assumptions C03_checkpoint_raises_fifo_nonvacuous.

(* the bystander branch of cycle_okc: ckb_ops = [ANewRoot; ANewScope 1 None false; AEnter 1 1; ANewRoot; AYield 2;
   ACancel 1 1; AYield 1]; the step of ANOTHER task (task 2, in a checkpoint) is queued in front of the delivery callback
   and of task 1's step *)
Theorem C03_checkpoint_raises_fifo_nonvacuous_bystander :
  let s := final step init ckb_ops in
  reach_ok s /\ running s <> Some 1 /\ s_cancelled (scopes s 1) = true /\ s_host (scopes s 1) <> None /\
  reaches s 1 1 /\ k_started (tasks s 1) = true /\ k_waiter (tasks s 1) = None /\
  k_ctl (tasks s 1) = CYield YCheckpoint /\ ready s = [HStep 2; HDeliver 1] ++ HStep 1 :: [] /\
  ~ In (HStep 1) [HStep 2; HDeliver 1] /\ In (HDeliver 1) [HStep 2; HDeliver 1] /\
  k_ctl (tasks s 2) = CYield YCheckpoint /\
  cycle_okc 1 (length (ready s)) s.
Proof. exact ckb_premises. Qed.
Print Assumptions C03_checkpoint_raises_fifo_nonvacuous_bystander.

(* a task that has not started yet:
   wok2 t s ops = before t's first step ARun (HStep t): every op is an act of somebody else (as in wop) or the run of
                  the head-of-queue callback unless it resumes t; after that step, with fp the future t is parked
                  on: wok0 t fp (the window of C03_cancel_latency_any_activity)
   GoalN t s ops = a resumption of t in the run raised a cancellation (or the future it was parked on was completed
                  with a result or an exception first), or at some state t has an outcome (k_done <> None: the
                  statement does not say which), or at some state t is not effectively cancelled
   A freshly spawned task (frame CNew, first step queued) reaches the cancelled hosted scope c at an iteration
   boundary.  Within three iterations of activity of the others (window ops as in wop: op_ok each, no native cancel
   of t itself, callbacks only from the head of the queue) GoalN holds: AnyIO deliveries skip a task
   that has not started, its first step runs in iteration 1 (a request recorded before ends it without running),
   entering its handle scope keeps it under a cancelled scope (the group scope's, or its own handle scope's if
   that was cancelled) unless a shield is raised, and the latency theorem covers iterations 2 and 3. *)
Theorem C03_new_task_cancelled : forall t c s ops1 ops2 ops3 s1 s2 s3,
  reach_ok s -> running s <> Some t -> k_ctl (tasks s t) = CNew -> k_started (tasks s t) = false ->
  k_waiter (tasks s t) = None -> k_done (tasks s t) = None -> In (HStep t) (ready s) ->
  s_cancelled (scopes s c) = true -> s_host (scopes s c) <> None -> reaches s t c ->
  wcyc (length (ready s)) s ops1 s1 -> wcyc (length (ready s1)) s1 ops2 s2 -> wcyc (length (ready s2)) s2 ops3 s3 ->
  wok2 t s (ops1 ++ ops2 ++ ops3) ->
  (exists si h, In (si, ARun h) (trace s (ops1 ++ ops2 ++ ops3)) /\ (h = HStep t \/ exists g, h = HWake t g) /\
     ((exists o, snd (step si (ARun h)) = RExc (ECancel o)) \/
      (exists g, h = HWake t g /\ ((exists v, f_st (futs si g) = FRes v) \/ (exists e, f_st (futs si g) = FExc e))))) \/
  (exists si, In si (states s (ops1 ++ ops2 ++ ops3)) /\ k_done (tasks si t) <> None) \/
  (exists si, In si (states s (ops1 ++ ops2 ++ ops3)) /\
              eff_cancelled_from (nscope si) si (k_cur (tasks si t)) = false).
Proof. exact new_task_cancelled. Qed.
Print Assumptions C03_new_task_cancelled.

(* non-vacuity: a child spawned into a task group whose scope is already cancelled.
   nt_ops1 = [ARun (HDeliver 1); ARun (HStep 2)], nt_ops2 = [ARun (HWake 1 5); ARun (HDeliver 1)],
   nt_ops3 = [ARun (HWake 1 7); ARun (HWake 2 6); ARun (HDeliver 1)] *)
Theorem C03_new_task_cancelled_nonvacuous :
  let s := final step init [ANewRoot; AGroupNew 1; AGroupEnter 1 1; ACancel 1 1; ASpawn 1 1] in
  s_host (scopes s 1) <> None /\
  (reach_ok s /\ running s <> Some 2 /\ k_ctl (tasks s 2) = CNew /\ k_started (tasks s 2) = false /\
   k_waiter (tasks s 2) = None /\ k_done (tasks s 2) = None /\ In (HStep 2) (ready s) /\ 2 < ntask s /\
   s_cancelled (scopes s 1) = true /\ reaches s 2 1 /\ k_must (tasks s 2) = false /\
   wokn 2 s nt_ops /\ exists s', wcyc (length (ready s)) s nt_ops s').
Proof. exact nt_premises_host. Qed.
Print Assumptions C03_new_task_cancelled_nonvacuous.

Theorem C03_new_task_cancelled_nonvacuous_window :
  let s := final step init nt_pre in
  wok2 2 s (nt_ops1 ++ nt_ops2 ++ nt_ops3) /\
  exists s1 s2 s3, wcyc (length (ready s)) s nt_ops1 s1 /\ wcyc (length (ready s1)) s1 nt_ops2 s2 /\
                   wcyc (length (ready s2)) s2 nt_ops3 s3.
Proof. exact nt3_premises. Qed.
Print Assumptions C03_new_task_cancelled_nonvacuous_window.

(* C18 — socket streams deliver the byte stream intact, with back-pressure and EOF (proof, partial).
   The AnyIO side (StreamProtocol + SocketStream, the UNIXSocketStream loops, the resource guards) is proved for
   every sequence of API, scheduler and transport ops; the asyncio transport and the kernel are the environment
   (arbitrary op sequences / arbitrary oracle scripts; contracts appear as explicit hypotheses).
   This file contains only statements closed by `exact` and their Print Assumptions.

   OBSERVATIONS (outside the clause texts of C18, recorded by the end-to-end harness in evidence `observations`, no theorem):
   - uvloop reports a connection reset by the peer that arrives after partial data, while no receive() is waiting, as a clean
     EndOfStream (libuv short-circuits POLLHUP to EOF); the stock loop reports BrokenResourceError;
   - UNIXSocketStream.send(b"") on a locally closed stream returns normally (the `while view:` loop never touches the socket);
   - UNIXSocketStream.receive(2**40) raises MemoryError (the kernel contract recv(n) allocates n bytes);
   - send_eof() on a locally closed stream raises OSError (UNIX) resp. RuntimeError / nothing (TCP) instead of ClosedResourceError.
   ENVIRONMENT NOTE (no theorem): SockProto never FORCES the transport to answer an abort - ConnectionLost is an environment
   op like any other, so "after transport.abort() the transport calls connection_lost()" is a contract, not a consequence:
   C18_sock_cancelled_close_still_aborts gives `aborted`, C18_sock_connection_lost_wakes_everyone / ..._woken_calls_on_closed_stream
   say what that callback then does.  The contract itself is checked on the real transports only (end-to-end scenarios
   close_both_parked, forceful_close, send_lost: the parked calls must end within 5 s on stock asyncio and uvloop); the fake-transport
   harness delivers ConnectionLost as one of its random env ops and its quiescence step cancels whatever is still parked.
   KNOWN FINDING F48 (no theorem: kernel TCP behaviour is outside the model): closing a TCP stream while inbound data is unread
   makes the kernel reset the connection and destroy data already sent; the directed real-socket scenario reports it as
   KNOWN-FINDING. *)
From AV Require Import Base SockProto SockProtoProofs SockProtoThms SockProtoLive SockProtoFlow UnixLoop UnixLoopProofs UnixLoopCloseProofs.

(* stepv p: p = false is HEAD, p = true the pinned tree before commits ab750b3, d2d2221,
   a778493 and 58a3fa8 (see SockProto.stepv); r0 = initial reading flag *)

Theorem C18_sock_receive_prefix : forall p r0 ops,
  let '(s, outs) := run_ops (stepv p) (init r0) ops in
  flat_map payload ops = flat_map data_of outs ++ concat (rq s).
Proof. exact sock_receive_prefix. Qed.
Print Assumptions C18_sock_receive_prefix.

Theorem C18_sock_receive_complete_at_eof : forall p r0 ops o,
  let '(s, outs) := run_ops (stepv p) (init r0) ops in
  snd (stepv p s o) = REndOfStream ->
  flat_map payload (ops ++ [o]) = flat_map data_of outs.
Proof. exact sock_receive_complete_at_eof. Qed.
Print Assumptions C18_sock_receive_complete_at_eof.

Theorem C18_sock_chunk_bounds : forall p r0 s o s' c,
  reachv p r0 s -> stepv p s o = (s', RData c) ->
  exists t pw mx hd r,
    o = Resume t pw /\
    (phase_of s t = RecvYield mx \/ phase_of s t = RecvWait mx FSet) /\
    rq s = hd :: r /\ 1 <= length c <= mx /\
    ((length hd <= mx /\ c = hd /\ rq s' = r) \/
     (mx < length hd /\ c = firstn mx hd /\ rq s' = skipn mx hd :: r)).
Proof. exact sock_chunk_bounds. Qed.
Print Assumptions C18_sock_chunk_bounds.

Theorem C18_sock_eof_only_after_eof : forall p r0 s o s',
  reachv p r0 s -> stepv p s o = (s', REndOfStream) ->
  rq s = [] /\ closed s = false /\ exc s = None /\ (eof s = true \/ g_lostclean s = true).
Proof. exact sock_eof_only_after_eof. Qed.
Print Assumptions C18_sock_eof_only_after_eof.

Theorem C18_sock_flags_meaning : forall p r0 ops,
  let s := final (stepv p) (init r0) ops in
  (eof s = true -> In EofReceived ops) /\
  (g_lostclean s = true -> In (ConnectionLost None) ops) /\
  (closed s = true -> exists t, In (Close t) ops).
Proof. exact sock_flags_meaning. Qed.
Print Assumptions C18_sock_flags_meaning.

Theorem C18_sock_closed_is_stable : forall p s o,
  closed s = true -> closed (fst (stepv p s o)) = true.
Proof. exact sock_closed_is_stable. Qed.
Print Assumptions C18_sock_closed_is_stable.

Theorem C18_sock_close_sets_closed : forall p s t,
  phase_of s t = Idle -> closed (fst (stepv p s (Close t))) = true.
Proof. exact sock_close_sets_closed. Qed.
Print Assumptions C18_sock_close_sets_closed.

Theorem C18_sock_send_after_close : forall p r0 s t item,
  reachv p r0 s -> closed s = true -> phase_of s t = Idle -> sguard s = None ->
  let s1 := fst (stepv p s (Send t item)) in
  snd (stepv p s (Send t item)) = RBlocked /\ phase_of s1 t = SendYield item /\
  forall s2 pw, phase_of s2 t = SendYield item -> closed s2 = true -> mustc s2 t = false ->
    snd (stepv p s2 (Resume t pw)) = RClosed /\
    g_written (fst (stepv p s2 (Resume t pw))) = g_written s2.
Proof. exact sock_send_after_close. Qed.
Print Assumptions C18_sock_send_after_close.

Theorem C18_sock_receive_after_close : forall p r0 s t mx,
  reachv p r0 s -> closed s = true -> phase_of s t = Idle -> rguard s = None -> 1 <= mx ->
  let s1 := fst (stepv p s (Receive t mx)) in
  snd (stepv p s (Receive t mx)) = RBlocked /\ phase_of s1 t = RecvYield mx /\
  forall s2 pw, phase_of s2 t = RecvYield mx -> closed s2 = true -> mustc s2 t = false ->
    snd (stepv p s2 (Resume t pw)) =
      match rq s2 with [] => RClosed | hd :: _ => RData (firstn mx hd) end.
Proof. exact sock_receive_after_close. Qed.
Print Assumptions C18_sock_receive_after_close.

Theorem C18_guard_rejects_concurrent : forall p r0 s t t',
  reachv p r0 s -> phase_of s t = Idle ->
  (forall mx, 1 <= mx -> is_recv (phase_of s t') = true -> stepv p s (Receive t mx) = (s, RBusy)) /\
  (forall item, is_send (phase_of s t') = true -> stepv p s (Send t item) = (s, RBusy)).
Proof. exact guard_rejects_concurrent. Qed.
Print Assumptions C18_guard_rejects_concurrent.

Theorem C18_guard_held_iff_in_call : forall p r0 s,
  reachv p r0 s ->
  (forall t, rguard s = Some t <-> is_recv (phase_of s t) = true) /\
  (forall t, sguard s = Some t <-> is_send (phase_of s t) = true).
Proof. exact guard_held_iff_in_call. Qed.
Print Assumptions C18_guard_held_iff_in_call.

Theorem C18_guard_free_when_idle : forall p r0 s,
  reachv p r0 s -> (forall t, phase_of s t = Idle) -> rguard s = None /\ sguard s = None.
Proof. exact guard_free_when_idle. Qed.
Print Assumptions C18_guard_free_when_idle.

Theorem C18_guard_exclusive : forall p r0 s t t',
  reachv p r0 s ->
  (is_recv (phase_of s t) = true -> is_recv (phase_of s t') = true -> t = t') /\
  (is_send (phase_of s t) = true -> is_send (phase_of s t') = true -> t = t').
Proof. exact guard_exclusive. Qed.
Print Assumptions C18_guard_exclusive.

Theorem C18_send_waits_for_write_gate : forall p r0 s t pw s',
  reachv p r0 s ->
  (forall item, phase_of s t = SendYield item ->
     (stepv p s (Resume t pw) = (s', RDone) ->
        wval s' (wev s') = true /\ g_written s' = g_written s ++ item) /\
     (stepv p s (Resume t pw) = (s', RBlocked) ->
        phase_of s' t = SendWait (wev s') FPending /\ wval s' (wev s') = false /\
        (g_written s' = g_written s ++ item \/
         (p = false /\ g_written s' = g_written s /\ prew s' t = Some item)))) /\
  (forall ev f, phase_of s t = SendWait ev f ->
     stepv p s (Resume t pw) = (s', RDone) ->
     f = FSet /\ wval s ev = true /\
     (forall item, prew s t = Some item -> wval s' (wev s') = true /\ g_written s' = g_written s ++ item) /\
     (prew s t = None -> g_written s' = g_written s)).
Proof. exact send_waits_for_write_gate. Qed.
Print Assumptions C18_send_waits_for_write_gate.

Theorem C18_send_gate_opened_only_by_transport : forall p s o ev,
  ev <= wev s -> wval s ev = false -> wval (fst (stepv p s o)) ev = true ->
  o = ResumeWriting \/ exists e, o = ConnectionLost e.
Proof. exact send_gate_opened_only_by_transport. Qed.
Print Assumptions C18_send_gate_opened_only_by_transport.

(* no deadlock of AnyIO's making: whoever is still suspended has nothing to be woken for *)
Theorem C18_sock_no_lost_wakeup : forall p r0 s t,
  reachv p r0 s ->
  (forall mx, phase_of s t = RecvWait mx FPending ->
     rq s = [] /\ rev s = false /\ eof s = false /\ exc s = None /\ g_lostclean s = false) /\
  (forall ev, phase_of s t = SendWait ev FPending -> wval s ev = false).
Proof. exact sock_no_lost_wakeup. Qed.
Print Assumptions C18_sock_no_lost_wakeup.

Theorem C18_sock_queue_implies_event : forall p r0 s,
  reachv p r0 s -> rq s <> [] -> rev s = true.
Proof. exact sock_queue_implies_event. Qed.
Print Assumptions C18_sock_queue_implies_event.

(* HEAD (commit ab750b3): receive-side flow control *)
Theorem C18_sock_reading_paused_unless_waiting : forall s,
  reachv false false s -> reading s = true -> exists t mx f, phase_of s t = RecvWait mx f.
Proof. exact sock_reading_paused_unless_waiting. Qed.
Print Assumptions C18_sock_reading_paused_unless_waiting.

(* the pinned tree violated it (finding F9, fixed): witnesses evaluated by vm_compute *)
Theorem C18_sock_reading_not_paused_refuted_pinned :
  (exists ops, let s := final (stepv true) (init true) ops in
     reading s = true /\ rguard s = None /\ tclosing s = false /\ rq s <> [] /\
     forall t, t < 3 -> phase_of s t = Idle) /\
  (exists ops, let s := final (stepv true) (init false) ops in
     reading s = true /\ rguard s = None /\ tclosing s = false /\
     forall t, t < 3 -> phase_of s t = Idle).
Proof. exact sock_reading_not_paused_refuted_pinned. Qed.
Print Assumptions C18_sock_reading_not_paused_refuted_pinned.

(* UNIX raw-socket loops over a kernel oracle script *)
Theorem C18_unix_send_loop_complete : forall cancel0 busy closing0 item script,
  let o := unix_send cancel0 busy closing0 item script in
  (exists rest, item = u_handed o ++ rest) /\ (u_res o = UDone -> u_handed o = item).
Proof. exact unix_send_loop_complete. Qed.
Print Assumptions C18_unix_send_loop_complete.

Theorem C18_unix_send_terminates_under_contract : forall closing0 item script,
  (forall a, In a script -> exists n, a = SOk n /\ 1 <= n) -> length item <= length script ->
  u_res (unix_send false false closing0 item script) = UDone /\
  u_handed (unix_send false false closing0 item script) = item.
Proof. exact unix_send_terminates_under_contract. Qed.
Print Assumptions C18_unix_send_terminates_under_contract.

Theorem C18_unix_recv_bounds : forall cancel0 busy closing0 mx script,
  let o := unix_recv cancel0 busy closing0 mx script in
  (forall d, u_res o = UData d ->
     1 <= mx /\ 1 <= length d /\ In (KData d) script /\
     ((forall d', In (KData d') script -> length d' <= mx) -> length d <= mx)) /\
  (u_res o = UEof -> In (KData []) script) /\
  u_handed o = [].
Proof. exact unix_recv_bounds. Qed.
Print Assumptions C18_unix_recv_bounds.

Theorem C18_unix_guard_rejects_concurrent : forall closing0 item mx script rscript,
  1 <= mx ->
  let o := unix_send false true closing0 item script in
  let o' := unix_recv false true closing0 mx rscript in
  (u_res o = UBusy /\ u_handed o = [] /\ u_calls o = 0 /\ u_guard o = true) /\
  (u_res o' = UBusy /\ u_calls o' = 0 /\ u_guard o' = true).
Proof. exact unix_guard_rejects_concurrent. Qed.
Print Assumptions C18_unix_guard_rejects_concurrent.

Theorem C18_unix_guard_released : forall cancel0 closing0 item mx script rscript,
  u_guard (unix_send cancel0 false closing0 item script) = false /\
  u_guard (unix_recv cancel0 false closing0 mx rscript) = false.
Proof. exact unix_guard_released. Qed.
Print Assumptions C18_unix_guard_released.

Theorem C18_unix_closed_errors : forall cancel0 busy closing0 item mx script rscript,
  let o := unix_send cancel0 busy closing0 item script in
  let o' := unix_recv cancel0 busy closing0 mx rscript in
  (u_res o = UClosed -> u_closing o = true) /\ (u_res o = UBroken -> u_closing o = false) /\
  (u_res o' = UClosed -> u_closing o' = true) /\ (u_res o' = UBroken -> u_closing o' = false).
Proof. exact unix_closed_errors. Qed.
Print Assumptions C18_unix_closed_errors.

(* same-direction entry points of other tasks while a call is in progress: send(), send_fds() and send_eof() share
   the send guard, receive() and receive_fds() the receive guard; each is refused and changes no state *)
Theorem C18_unix_entry_points_refused :
  (forall rg shut e, e = ESend \/ e = ESendFds \/ e = ESendEof -> intrude true true rg shut e = (UBusy, shut)) /\
  (forall sg shut e, e = EReceive \/ e = EReceiveFds -> intrude true sg true shut e = (UBusy, shut)).
Proof. exact unix_entry_points_refused. Qed.
Print Assumptions C18_unix_entry_points_refused.

Theorem C18_unix_parked_send_untouched : forall cancel0 busy closing0 item script,
  (forall es w e, In (SBlock es w) script -> In e es -> uses_send_guard true e = true) ->
  let o := unix_send cancel0 busy closing0 item script in
  let o' := unix_send cancel0 busy closing0 item (map strip_s script) in
  u_res o = u_res o' /\ u_handed o = u_handed o' /\ u_calls o = u_calls o' /\ u_waits o = u_waits o' /\
  u_closing o = u_closing o' /\ u_guard o = u_guard o' /\ u_shut o = false /\
  Forall (fun r => r = UBusy) (u_intr o).
Proof. exact unix_parked_send_untouched. Qed.
Print Assumptions C18_unix_parked_send_untouched.

Theorem C18_unix_parked_recv_untouched : forall cancel0 busy closing0 mx script,
  (forall es w e, In (KBlock es w) script -> In e es -> uses_recv_guard e = true) ->
  let o := unix_recv cancel0 busy closing0 mx script in
  let o' := unix_recv cancel0 busy closing0 mx (map strip_r script) in
  u_res o = u_res o' /\ u_calls o = u_calls o' /\ u_waits o = u_waits o' /\
  u_closing o = u_closing o' /\ u_guard o = u_guard o' /\ u_shut o = false /\
  Forall (fun r => r = UBusy) (u_intr o).
Proof. exact unix_parked_recv_untouched. Qed.
Print Assumptions C18_unix_parked_recv_untouched.

(* the variant without the guard around send_eof() (seeded change C18/d) is refuted by a vm_compute witness *)
Theorem C18_unix_send_eof_unguarded_refuted :
  exists item script,
    let o := unix_sendv false false false false item script in
    u_intr o = [UAccepted] /\ u_shut o = true /\ u_handed o <> item /\ u_res o = UBroken /\
    let o' := unix_send false false false item script in
    u_intr o' = [UBusy] /\ u_shut o' = false.
Proof. exact unix_send_eof_unguarded_refuted. Qed.
Print Assumptions C18_unix_send_eof_unguarded_refuted.

(* finding F34 (fixed, commit d2d2221): a send() that returns normally was never released by connection_lost *)
Theorem C18_send_returns_ok_only_if_not_lost : forall r0 s t pw s',
  reachv false r0 s -> is_send (phase_of s t) = true -> stepv false s (Resume t pw) = (s', RDone) ->
  closed s = false /\ exc s = None /\
  (forall ev f, phase_of s t = SendWait ev f -> f = FSet /\ wval s ev = true).
Proof. exact send_returns_ok_only_if_not_lost. Qed.
Print Assumptions C18_send_returns_ok_only_if_not_lost.

Theorem C18_send_ok_never_released_by_connection_lost : forall r0 ops t pw,
  let s := final step (init r0) ops in
  is_send (phase_of s t) = true -> snd (step s (Resume t pw)) = RDone ->
  (g_lostclean s = true -> closed s = true) ->
  forall e, ~ In (ConnectionLost e) ops.
Proof. exact send_ok_never_released_by_connection_lost. Qed.
Print Assumptions C18_send_ok_never_released_by_connection_lost.

Theorem C18_send_returns_ok_only_if_not_lost_refuted_pinned :
  (exists ops t, let s := final (stepv true) (init false) ops in
     snd (stepv true s (Resume t false)) = RDone /\ exc s <> None /\
     snd (stepv false (final step (init false) ops) (Resume t false)) = RBroken) /\
  (exists ops t, let s := final (stepv true) (init false) ops in
     snd (stepv true s (Resume t false)) = RDone /\ closed s = true /\
     snd (stepv false (final step (init false) ops) (Resume t false)) = RClosed).
Proof. exact send_returns_ok_only_if_not_lost_refuted_pinned. Qed.
Print Assumptions C18_send_returns_ok_only_if_not_lost_refuted_pinned.

(* finding F33 (fixed, commit e49bd95): aclose() of a UNIX stream while calls are parked; cstep false = HEAD order
   (unregister, then close), defer = uvloop-like deferred close / selector loop *)
Theorem C18_unix_closed_socket_not_registered : forall defer s,
  creach defer s ->
  (c_sclosed s = true -> c_regr s = false /\ c_regw s = false /\ c_fdopen s = false /\ c_nclose s = 1) /\
  c_nclose s <= 1 /\ c_cwr s = false /\ c_errs s = 0 /\ c_closing s = c_sclosed s.
Proof. exact unix_closed_socket_not_registered. Qed.
Print Assumptions C18_unix_closed_socket_not_registered.

Theorem C18_unix_close_ends_parked_calls : forall defer s d a,
  creach defer s -> c_closing s = true ->
  ph s d <> CParked /\
  (ph s d = CRun false -> cb s d = false ->
     snd (cstep false defer s (CStep d a)) = CEnd UClosed /\
     ph (fst (cstep false defer s (CStep d a))) d = CIdle).
Proof. exact unix_close_ends_parked_calls. Qed.
Print Assumptions C18_unix_close_ends_parked_calls.

Theorem C18_unix_close_ends_parked_calls_nonvacuous : forall defer,
  let s := final (cstep false defer) cinit
             [CBegin DR; CStep DR ABlock; CBegin DS; CStep DS ABlock; CClose; CCallback DR; CCallback DS] in
  creach defer s /\ c_closing s = true /\
  ph s DR = CRun false /\ cb s DR = false /\ ph s DS = CRun false /\ cb s DS = false /\
  snd (cstep false defer s (CStep DR ABlock)) = CEnd UClosed /\
  snd (cstep false defer s (CStep DS AOk)) = CEnd UClosed.
Proof. exact unix_close_ends_parked_calls_nonvacuous. Qed.
Print Assumptions C18_unix_close_ends_parked_calls_nonvacuous.

Theorem C18_unix_close_with_both_parked : forall defer s a b,
  creach defer s -> c_phr s = CParked -> c_phs s = CParked ->
  let s1 := final (cstep false defer) s [CClose; CCallback DR; CCallback DS] in
  snd (cstep false defer s1 (CStep DR a)) = CEnd UClosed /\
  snd (cstep false defer (fst (cstep false defer s1 (CStep DR a))) (CStep DS b)) = CEnd UClosed /\
  snd (cstep false defer s1 (CStep DS b)) = CEnd UClosed /\
  c_nclose s1 = 1 /\ c_fdopen s1 = false /\ c_regr s1 = false /\ c_regw s1 = false /\ c_errs s1 = 0.
Proof. exact unix_close_with_both_parked. Qed.
Print Assumptions C18_unix_close_with_both_parked.

Theorem C18_unix_close_while_registered_refuted_pinned :
  (let s := final (cstep true true) cinit
              [CBegin DR; CStep DR ABlock; CBegin DS; CStep DS ABlock; CClose;
               CCallback DR; CStep DR ABlock; CCallback DS; CStep DS ABlock] in
   c_closing s = true /\ c_phr s = CParked /\ c_phs s = CParked /\ c_fdopen s = true /\
   c_cbr s = false /\ c_cbw s = false /\ c_cwr s = true) /\
  (let s := final (cstep true false) cinit
              [CBegin DR; CStep DR ABlock; CBegin DS; CStep DS ABlock; CClose; CCallback DR; CCallback DS] in
   c_cwr s = true /\ c_errs s = 2 /\ c_regr s = true /\ c_regw s = true /\ c_sclosed s = true) /\
  (let s := final (cstep false true) cinit
              [CBegin DR; CStep DR ABlock; CBegin DS; CStep DS ABlock; CClose;
               CCallback DR; CStep DR ABlock; CCallback DS; CStep DS ABlock] in
   c_phr s = CIdle /\ c_phs s = CIdle /\ c_fdopen s = false /\ c_cwr s = false /\ c_errs s = 0).
Proof. exact unix_close_while_registered_refuted_pinned. Qed.
Print Assumptions C18_unix_close_while_registered_refuted_pinned.

(* finding F45 (fixed, commit 58a3fa8): no unbounded buffering after a cancelled send() *)
Theorem C18_send_buffer_holds_at_most_one_send : forall r0 s,
  reachv false r0 s -> g_pending s <= 1.
Proof. exact send_buffer_holds_at_most_one_send. Qed.
Print Assumptions C18_send_buffer_holds_at_most_one_send.

Theorem C18_send_prewait_released_means_drained : forall r0 s t ev,
  reachv false r0 s -> phase_of s t = SendWait ev FSet -> prew s t <> None -> g_pending s = 0.
Proof. exact send_prewait_released_means_drained. Qed.
Print Assumptions C18_send_prewait_released_means_drained.

Theorem C18_send_buffer_holds_at_most_one_send_refuted_pinned :
  let ops := [Send 1 [1]%Z; Resume 1 true; Cancel 1; Resume 1 false;
              Send 1 [2]%Z; Resume 1 false; Cancel 1; Resume 1 false;
              Send 1 [3]%Z; Resume 1 false; Cancel 1; Resume 1 false;
              Send 1 [4]%Z; Resume 1 false] in
  let s := final (stepv true) (init false) ops in
  g_pending s = 4 /\ g_written s = [1; 2; 3; 4]%Z /\ wval s (wev s) = false /\
  (let s' := final (stepv false) (init false) ops in g_pending s' = 1 /\ g_written s' = [1]%Z).
Proof. exact send_buffer_holds_at_most_one_send_refuted_pinned. Qed.
Print Assumptions C18_send_buffer_holds_at_most_one_send_refuted_pinned.

(* finding F44 (fixed, commit a778493): a cancelled aclose() still aborts; the connection_lost owed by the transport wakes
   every parked call, which ends with ClosedResourceError *)
Theorem C18_sock_cancelled_close_still_aborts : forall s t pw,
  phase_of s t = CloseYield ->
  let s' := fst (stepv false s (Resume t pw)) in
  aborted s' = true /\ phase_of s' t = Idle /\ closed s' = closed s /\
  snd (stepv false s (Resume t pw)) = (if mustc s t then RCancelled else RDone).
Proof. exact sock_cancelled_close_still_aborts. Qed.
Print Assumptions C18_sock_cancelled_close_still_aborts.

Theorem C18_sock_connection_lost_wakes_everyone : forall p r0 s e,
  reachv p r0 s ->
  let s' := fst (stepv p s (ConnectionLost e)) in
  (forall t mx, phase_of s' t <> RecvWait mx FPending) /\
  (forall t ev, phase_of s' t = SendWait ev FPending -> ev <> wev s').
Proof. exact sock_connection_lost_wakes_everyone. Qed.
Print Assumptions C18_sock_connection_lost_wakes_everyone.

Theorem C18_sock_woken_calls_on_closed_stream : forall s t pw,
  closed s = true -> mustc s t = false ->
  (forall ev, phase_of s t = SendWait ev FSet -> snd (stepv false s (Resume t pw)) = RClosed) /\
  (forall mx, phase_of s t = RecvWait mx FSet ->
     snd (stepv false s (Resume t pw)) = match rq s with [] => RClosed | hd :: _ => RData (firstn mx hd) end).
Proof. exact sock_woken_calls_on_closed_stream. Qed.
Print Assumptions C18_sock_woken_calls_on_closed_stream.

Theorem C18_sock_cancelled_close_still_aborts_refuted_pinned :
  let ops := [Send 1 [7]%Z; Resume 1 true; Receive 2 4; Close 3; Cancel 3; Resume 3 false] in
  let s := final (stepv true) (init false) ops in
  closed s = true /\ aborted s = false /\ phase_of s 3 = Idle /\
  phase_of s 1 = SendWait 1 FPending /\ phase_of s 2 = RecvWait 4 FPending /\
  (let s' := final (stepv false) (init false) ops in aborted s' = true).
Proof. exact sock_cancelled_close_still_aborts_refuted_pinned. Qed.
Print Assumptions C18_sock_cancelled_close_still_aborts_refuted_pinned.

(* C16 - Buffered and text stream wrappers are transparent to chunking.
   This file contains only statements closed by `exact`, or by a few lines from the lemmas of the files it
   requires, and their Print Assumptions.
   Part 1: pure/Buffered.v (BufferedByteReceiveStream, HEAD = pinned tree + fixes F27 F28 F29 F43);
   part 2: pure/Text.v (TextReceiveStream / TextSendStream).
   `step_log s o = (s', r, lg)`: one call; lg = the bytes that entered the wrapper during it, in order.
   `Until d m fs`: receive_until(d, m) during whose waits other tasks call feed_data(fs_1), feed_data(fs_2), ... *)
From AV Require Import Base Buffered BufferedProofs.

(* 1. conservation: for every state (any buffer, any chunk list incl. empty items, either kind of wrapped stream),
        every op sequence and every feed_data made between OR DURING calls: the bytes handed out plus the delimiters
        consumed, followed by the buffer, are exactly the bytes that arrived, in arrival order *)
Theorem C16_buf_conservation : forall (ops : list op) (s : st),
  buf s ++ arrived_run s ops = consumed_run s ops ++ buf (final step s ops).
Proof. exact buf_conservation. Qed.
Print Assumptions C16_buf_conservation.

Theorem C16_buf_source_order : forall (ops : list op) (s : st),
  exists pulled, pulled ++ concat (src (final step s ops)) = concat (src s).
Proof. exact buf_source_order. Qed.
Print Assumptions C16_buf_source_order.

Theorem C16_buf_conservation_total : forall (ops : list op) (s : st),
  forallb no_feed ops = true ->
  consumed_run s ops ++ buf (final step s ops) ++ concat (src (final step s ops)) = buf s ++ concat (src s).
Proof. exact buf_conservation_total. Qed.
Print Assumptions C16_buf_conservation_total.

(* one call: result (and delimiter) come off the front, everything that arrived goes behind the buffer; the arrival log
   is pinned to the environment: fed data, what left the wrapped stream, or - for receive_until - the interleaving of
   the feeds and chunks of the k fetches it made; the loops of the model never run out of fuel *)
Theorem C16_buf_step_conservation : forall (s : st) (o : op) (s' : st) (r : res) (lg : list Z),
  step_log s o = (s', r, lg) ->
  knd s' = knd s /\ r <> RFuel /\
  (chunks_nonempty (src s) -> chunks_nonempty (src s')) /\
  buf s ++ lg = consumed_of o r ++ buf s' /\
  (exists pulled, concat (src s) = pulled ++ concat (src s')) /\
  match o with
  | Feed d => lg = d /\ src s' = src s
  | Until d m fs | CUntil _ d m fs =>
      exists k, src s' = fetch_rest k (knd s) (src s) /\ lg = fetch_arrivals k (knd s) (src s) fs
  | Receive n fs | CReceive _ n fs =>
      exists item j, lg = item ++ concat (firstn j fs) /\ concat (src s) = item ++ concat (src s')
  | Exactly n fs | CExactly _ n fs =>
      exists pulled, concat (src s) = pulled ++ concat (src s') /\ weave fs pulled lg
  end.
Proof. exact step_conservation. Qed.
Print Assumptions C16_buf_step_conservation.

Theorem C16_buf_never_out_of_fuel : forall (s : st) (o : op), snd (step s o) <> RFuel.
Proof. exact step_never_out_of_fuel. Qed.
Print Assumptions C16_buf_never_out_of_fuel.

(* a byte stream whose next piece fits the requested max_bytes hands it out whole (so chunk lists cover every
   contract-honouring byte stream), and never more than max_bytes *)
Theorem C16_buf_byte_stream_model : forall (n : nat) (c : list Z) (r : list (list Z)),
  (length c <= n -> pull KByte n (c :: r) = Some (c, r)) /\
  (forall p r', pull KByte n (c :: r) = Some (p, r') -> length p <= n).
Proof. exact (fun n c r => conj (pull_byte_fits n c r) (fun p r' => pull_byte_bound n (c :: r) p r')). Qed.
Print Assumptions C16_buf_byte_stream_model.

(* 2. receive(n) with feeds fs during its waits: ValueError for n < 1; otherwise 1..n bytes (from the buffer alone
        when it is not empty) for EVERY chunking of an object stream, empty items included (a byte stream must honour
        its contract of never returning b""); EndOfStream only when nothing was buffered and no byte is left (what
        was fed during the wait is then in the buffer) *)
Theorem C16_buf_receive_spec : forall (s : st) (n : Z) (fs : list (list Z)) (s' : st) (r : res) (lg : list Z),
  step_log s (Receive n fs) = (s', r, lg) ->
  ((n < 1)%Z -> r = RValueError /\ s' = s) /\
  ((1 <= n)%Z -> (knd s = KByte -> chunks_nonempty (src s)) ->
     (exists x, r = RBytes x /\ (1 <= length x <= Z.to_nat n)%nat /\
                (buf s <> [] -> x = firstn (Z.to_nat n) (buf s) /\ src s' = src s /\ lg = [])) \/
     (r = REnd /\ buf s = [] /\ concat (src s) = [] /\ src s' = [] /\ buf s' = lg)).
Proof. exact buf_receive_spec. Qed.
Print Assumptions C16_buf_receive_spec.

(* an item received from the wrapped stream is handed out contiguously: a receive() that was parked on an empty
   buffer returns the head of ONE item, keeps the rest of that item at the FRONT of the buffer, and whatever
   feed_data put into the buffer while it waited follows the complete item.  This is the order in which a parked
   receive() commits the bytes (its arrival log lg = item ++ fed data): the item was requested before the feed. *)
Theorem C16_buf_receive_item_contiguous :
  forall (s : st) (n : Z) (fs : list (list Z)) (s' : st) (x lg : list Z),
  step_log s (Receive n fs) = (s', RBytes x, lg) -> buf s = [] ->
  exists item j,
    concat (src s) = item ++ concat (src s') /\
    x = firstn (Z.to_nat n) item /\
    buf s' = skipn (Z.to_nat n) item ++ concat (firstn j fs) /\
    x ++ buf s' = item ++ concat (firstn j fs) /\
    lg = item ++ concat (firstn j fs).
Proof. exact buf_receive_item_contiguous. Qed.
Print Assumptions C16_buf_receive_item_contiguous.

Theorem C16_buf_chunks_nonempty_invariant : forall (ops : list op) (s : st),
  chunks_nonempty (src s) -> chunks_nonempty (src (final step s ops)).
Proof. exact chunks_nonempty_invariant. Qed.
Print Assumptions C16_buf_chunks_nonempty_invariant.

(* 3. receive_exactly(n): ValueError and nothing touched for n < 0; otherwise exactly n bytes off the front of the
        stream, or IncompleteRead, which happens iff the stream ends first; then everything read is in the buffer *)
Theorem C16_buf_exactly_spec : forall (s : st) (n : Z) (s' : st) (r : res), step s (Exactly n []) = (s', r) ->
  ((n < 0)%Z -> r = RValueError /\ s' = s) /\
  ((0 <= n)%Z ->
   ((exists x, r = RBytes x /\ length x = Z.to_nat n /\
               x ++ buf s' ++ concat (src s') = buf s ++ concat (src s)) \/
    (r = RIncomplete /\ src s' = [] /\ buf s' = buf s ++ concat (src s))) /\
   (r = RIncomplete <-> (Z.of_nat (length (buf s ++ concat (src s))) < n)%Z)).
Proof. exact buf_exactly_spec. Qed.
Print Assumptions C16_buf_exactly_spec.

(* 3b. receive_exactly(n) with feed_data() by other tasks during its waits (fs: one entry per fetch).  `weave fs
        pulled lg`: the arrival log lg is, fetch by fetch, the data fed during the wait followed by the chunk pulled
        (nothing pulled by a fetch that meets the end of the stream).  The call hands out exactly the first n bytes in
        arrival order and leaves the rest of what arrived in the buffer, in order - whatever is fed, however the wrapped
        stream chunks; IncompleteRead only at the end of the wrapped stream, with everything that arrived buffered *)
Theorem C16_buf_exactly_fed_spec : forall (s : st) (n : Z) (fs : list (list Z)) (s' : st) (r : res) (lg : list Z),
  (0 <= n)%Z -> step_log s (Exactly n fs) = (s', r, lg) ->
  (exists pulled, concat (src s) = pulled ++ concat (src s') /\ weave fs pulled lg) /\
  ((exists x, r = RBytes x /\ length x = Z.to_nat n /\ x ++ buf s' = buf s ++ lg) \/
   (r = RIncomplete /\ src s' = [] /\ buf s' = buf s ++ lg /\ (Z.of_nat (length (buf s)) < n)%Z)).
Proof. exact buf_exactly_fed_spec. Qed.
Print Assumptions C16_buf_exactly_fed_spec.

(* non-vacuity: receive_exactly(4) on a byte stream, 1 byte buffered, "XY" fed during the first wait: the fetch asked
   for 3 bytes (computed before the wait) and got "bcd"; the call returns a X Y b and keeps "cd" - 4 bytes, in arrival
   order.  Second conjunct: the feed arrives during a wait that ends in EndOfStream: IncompleteRead although 4 bytes are
   now buffered (the wrapped stream IS at its end); nothing is lost, the next call gets them *)
Theorem C16_buf_exactly_fed_nonvacuous : (
  step_log (mk KByte [97] [[98; 99; 100]]) (Exactly 4 [[88; 89]])
    = (mk KByte [99; 100] [], RBytes [97; 88; 89; 98], [88; 89; 98; 99; 100]) /\
  step_log (mk KByte [97] []) (Exactly 4 [[88; 89; 90]]) = (mk KByte [97; 88; 89; 90] [], RIncomplete, [88; 89; 90]) /\
  step (mk KByte [97; 88; 89; 90] []) (Exactly 4 []) = (mk KByte [] [], RBytes [97; 88; 89; 90]))%Z.
Proof. vm_compute. auto. Qed.
Print Assumptions C16_buf_exactly_fed_nonvacuous.

(* 4. receive_until(d, m) with feeds fs during its waits.  The call makes k fetches; a fetch happens only while
        what has arrived so far holds no delimiter and fewer than m bytes; the call ends with the first buffer that
        contains the delimiter (result = everything before its FIRST occurrence, delimiter removed, rest kept), or has
        >= m bytes (DelimiterNotFound), or when a fetch meets the end of the stream (IncompleteRead; what was fed during
        that last wait stays buffered unsearched) *)
Theorem C16_buf_until_spec : forall (s : st) (d : list Z) (m : Z) (fs : list (list Z)) (s' : st) (r : res) (lg : list Z),
  step_log s (Until d m fs) = (s', r, lg) ->
  exists k,
    src s' = fetch_rest k (knd s) (src s) /\ lg = fetch_arrivals k (knd s) (src s) fs /\
    (forall j, (j < k)%nat ->
       ~ occurs d (buf s ++ fetch_arrivals j (knd s) (src s) fs) /\
       (Z.of_nat (length (buf s ++ fetch_arrivals j (knd s) (src s) fs)) < m)%Z) /\
    (chunks_nonempty (src s) -> chunks_nonempty (src s')) /\
    match r with
    | RBytes x => buf s ++ lg = x ++ d ++ buf s' /\
                  (forall j, (j < length x)%nat -> ~ occurs_at d (buf s ++ lg) j)
    | RNotFound => buf s' = buf s ++ lg /\ ~ occurs d (buf s') /\ (m <= Z.of_nat (length (buf s')))%Z
    | RIncomplete => buf s' = buf s ++ lg /\ src s' = [] /\
                     exists k0, k = S k0 /\
                       lg = fetch_arrivals k0 (knd s) (src s) fs ++ hd [] (skipn k0 fs)
    | RCancelled => buf s' = buf s ++ lg      (* excluded for an uncancelled call by C16_buf_uncancelled_never_cancelled *)
    | _ => False
    end.
Proof. exact buf_until_spec. Qed.
Print Assumptions C16_buf_until_spec.

(* receive_until never includes the delimiter - for ALL feeds interleaved with the call *)
Theorem C16_buf_until_result : forall (s : st) (d : list Z) (m : Z) (fs : list (list Z)) (s' : st) (x lg : list Z),
  step_log s (Until d m fs) = (s', RBytes x, lg) ->
  buf s ++ lg = x ++ d ++ buf s' /\
  (forall j, (j < length x)%nat -> ~ occurs_at d (buf s ++ lg) j) /\
  (d <> [] -> ~ occurs d x).
Proof. exact buf_until_result. Qed.
Print Assumptions C16_buf_until_result.

Theorem C16_buf_until_result_stream : forall (s : st) (d : list Z) (m : Z) (s' : st) (x lg : list Z),
  step_log s (Until d m []) = (s', RBytes x, lg) ->
  buf s ++ concat (src s) = x ++ d ++ buf s' ++ concat (src s') /\
  (forall j, (j < length x)%nat -> ~ occurs_at d (buf s ++ concat (src s)) j).
Proof. exact buf_until_result_stream. Qed.
Print Assumptions C16_buf_until_result_stream.

(* DelimiterNotFound only if no occurrence of the delimiter lies within the first m bytes of the stream *)
Theorem C16_buf_until_notfound : forall (s : st) (d : list Z) (m : Z) (s' : st) (lg : list Z),
  step_log s (Until d m []) = (s', RNotFound, lg) ->
  forall i, occurs_at d (buf s ++ concat (src s)) i -> (m < Z.of_nat (i + length d))%Z.
Proof. exact buf_until_notfound. Qed.
Print Assumptions C16_buf_until_notfound.

Theorem C16_buf_until_notfound_fed : forall (s : st) (d : list Z) (m : Z) (fs : list (list Z)) (s' : st) (lg : list Z),
  step_log s (Until d m fs) = (s', RNotFound, lg) ->
  buf s' = buf s ++ lg /\ ~ occurs d (buf s') /\ (m <= Z.of_nat (length (buf s')))%Z.
Proof. exact buf_until_notfound_fed. Qed.
Print Assumptions C16_buf_until_notfound_fed.

Theorem C16_buf_until_incomplete : forall (s : st) (d : list Z) (m : Z) (s' : st) (lg : list Z),
  step_log s (Until d m []) = (s', RIncomplete, lg) ->
  ~ occurs d (buf s ++ concat (src s)) /\ (Z.of_nat (length (buf s ++ concat (src s))) < m)%Z.
Proof. exact buf_until_incomplete. Qed.
Print Assumptions C16_buf_until_incomplete.

(* the search-offset lemma, and its use: receive_until equals the loop that searches the whole buffer every time,
   whatever is fed while it waits (the offset is taken from the size searched BEFORE the wait) *)
Theorem C16_buf_search_offset : forall (d old data : list Z) (k : nat),
  (forall j, ~ occurs_at d old j) -> (k < length old + 1 - length d)%nat -> ~ occurs_at d (old ++ data) k.
Proof. exact search_offset_complete. Qed.
Print Assumptions C16_buf_search_offset.

Theorem C16_buf_until_offset_sound : forall (s : st) (d : list Z) (m : Z) (fs : list (list Z)),
  step_log s (Until d m fs) = until_naive (fuel_of s) 0 s d m fs.
Proof. exact until_offset_sound. Qed.
Print Assumptions C16_buf_until_offset_sound.

(* 5. a call that fails (EndOfStream, IncompleteRead, DelimiterNotFound, ValueError - also for a negative count or
        a non-positive max_bytes - or CANCELLATION: `failed` includes RCancelled) hands out nothing; what arrived during it is in the buffer, in order; without feeds
        during the call buffer ++ wrapped stream is unchanged *)
Theorem C16_buf_fail_consumes_nothing : forall (s : st) (o : op) (s' : st) (r : res) (lg : list Z),
  step_log s o = (s', r, lg) -> failed r ->
  consumed_of o r = [] /\
  buf s' = buf s ++ lg /\
  (exists pulled, concat (src s) = pulled ++ concat (src s')) /\
  (no_feed o = true -> buf s' ++ concat (src s') = buf s ++ concat (src s)).
Proof. exact buf_fail_consumes_nothing. Qed.
Print Assumptions C16_buf_fail_consumes_nothing.

(* 5b. cancellation.  CReceive/CExactly/CUntil k ...: the call runs in a cancel scope; k = 0: cancelled at entry,
        k >= 1: its k-th fetch from the wrapped stream (the only place where HEAD waits) raises the cancellation.
        For every state reachable by any op sequence: a cancelled call hands out nothing, the chunks it had already
        fetched are in the buffer in order, buffer ++ not-yet-fetched stream is unchanged *)
Theorem C16_buf_cancelled_consumes_nothing : forall (ops : list op) (s0 : st) (o : op) (s' : st) (lg : list Z),
  step_log (final step s0 ops) o = (s', RCancelled, lg) ->
  consumed_of o RCancelled = [] /\
  buf s' = buf (final step s0 ops) ++ lg /\
  (exists pulled, concat (src (final step s0 ops)) = pulled ++ concat (src s')) /\
  (no_feed o = true ->
   buf s' ++ concat (src s') = buf (final step s0 ops) ++ concat (src (final step s0 ops))).
Proof. exact buf_cancelled_consumes_nothing. Qed.
Print Assumptions C16_buf_cancelled_consumes_nothing.

Theorem C16_buf_entry_cancel : forall (s : st) (n : Z) (d : list Z) (m : Z) (fs : list (list Z)),
  step_log s (CReceive 0 n fs) = (s, RCancelled, []) /\
  step_log s (CExactly 0 n fs) = (s, RCancelled, []) /\
  step_log s (CUntil 0 d m fs) = (s, RCancelled, []).
Proof. exact buf_entry_cancel. Qed.
Print Assumptions C16_buf_entry_cancel.

Theorem C16_buf_uncancelled_never_cancelled : forall (s : st) (o : op),
  match o with CReceive _ _ _ | CExactly _ _ _ | CUntil _ _ _ _ => True | _ => snd (step s o) <> RCancelled end.
Proof. exact buf_uncancelled_never_cancelled. Qed.
Print Assumptions C16_buf_uncancelled_never_cancelled.

(* the tree before the fixes violated these clauses (F27, F28, F29, F43: fixed in /repo) *)
Theorem C16_buf_until_feed_refuted_pinned : exists s d m fs s' x lg,
  step_pinned s (Until d m fs) = (s', RBytes x, lg) /\ d <> [] /\ occurs d x.
Proof. exact until_feed_refuted_pinned. Qed.
Print Assumptions C16_buf_until_feed_refuted_pinned.

Theorem C16_buf_receive_empty_refuted_pinned : exists s n s' lg,
  knd s = KObject /\ (1 <= n)%Z /\ step_pinned s (Receive n []) = (s', RBytes [], lg) /\ concat (src s) <> [].
Proof. exact receive_empty_refuted_pinned. Qed.
Print Assumptions C16_buf_receive_empty_refuted_pinned.

Theorem C16_buf_receive_item_split_refuted_pinned : exists s n fs s' x lg item,
  src s = [item] /\ buf s = [] /\ step_pinned s (Receive n fs) = (s', RBytes x, lg) /\
  x ++ buf s' <> item ++ concat fs /\ x ++ buf s' <> concat fs ++ item.
Proof. exact receive_item_split_refuted_pinned. Qed.
Print Assumptions C16_buf_receive_item_split_refuted_pinned.

Theorem C16_buf_exactly_negative_refuted_pinned : exists c1 c2 n x1 x2 s1 s2 l1 l2,
  concat c1 = concat c2 /\ (n < 0)%Z /\
  step_pinned (fst (fst (step_pinned (init KObject c1) (Receive 1%Z [])))) (Exactly n []) = (s1, RBytes x1, l1) /\
  step_pinned (fst (fst (step_pinned (init KObject c2) (Receive 1%Z [])))) (Exactly n []) = (s2, RBytes x2, l2) /\
  x1 <> x2.
Proof. exact exactly_negative_refuted_pinned. Qed.
Print Assumptions C16_buf_exactly_negative_refuted_pinned.

From AV Require Import Text TextProofs.

(* 6. text: decoding chunk by chunk, for ANY split w of the bytes (also inside a character), succeeds iff decoding
        the concatenation in one piece succeeds, with the same output and the same final decoder state; all eight
        encodings *)
Theorem C16_text_chunking_invariant : forall (e : enc) (d : dst) (w : list (list Z)) (d' : dst) (o : list Z),
  dmode d <> 3%nat ->
  (decode_seq e d w = DOk d' o <-> decode_chunk e d (concat w) = DOk d' o).
Proof. exact text_chunking_invariant. Qed.
Print Assumptions C16_text_chunking_invariant.

Theorem C16_text_receive_nonempty : forall (s s' : tst) (x : list Z), tstep s TRecv = (s', TStr x) -> x <> [].
Proof. exact text_receive_nonempty. Qed.
Print Assumptions C16_text_receive_nonempty.

Theorem C16_text_receive_drains : forall (s : tst) (k : nat) (s' : tst) (outs : list tres),
  run_ops tstep s (repeat TRecv k) = (s', outs) ->
  (forall c, ~ In (TDecErr c) outs) ->
  exists used, wire s = used ++ wire s' /\ tenc s' = tenc s /\
               decode_seq (tenc s) (dec s) used = DOk (dec s') (strs outs) /\
               (In TEnd outs -> wire s' = []).
Proof. exact text_receive_drains. Qed.
Print Assumptions C16_text_receive_drains.

(* TextReceiveStream drained to EndOfStream without a decoding error: the concatenation of the strings it returned is
   the decoding of the whole input *)
Theorem C16_text_stream_transparent : forall (e : enc) (w : list (list Z)) (k : nat) (s' : tst) (outs : list tres),
  run_ops tstep (tinit e w) (repeat TRecv k) = (s', outs) ->
  (forall c, ~ In (TDecErr c) outs) -> In TEnd outs ->
  decode_chunk e (dinit e) (concat w) = DOk (dec s') (strs outs).
Proof. exact text_stream_transparent. Qed.
Print Assumptions C16_text_stream_transparent.

(* 7. round trip.  The utf-8 automaton is the exact inverse of the utf-8 encoder *)
Theorem C16_utf8_roundtrip_bytes : forall (s : list Z), forallb valid_scalar s = true ->
  run_bytes Utf8 (dinit Utf8) (concat (map u8_enc1 s)) = DOk (dinit Utf8) s.
Proof. exact utf8_roundtrip_bytes. Qed.
Print Assumptions C16_utf8_roundtrip_bytes.

Theorem C16_utf8_decode_sound : forall (bs s : list Z), run_bytes Utf8 (dinit Utf8) bs = DOk (dinit Utf8) s ->
  forallb valid_scalar s = true /\ concat (map u8_enc1 s) = bs.
Proof. exact utf8_decode_sound. Qed.
Print Assumptions C16_utf8_decode_sound.

(* strings sent one by one through one TextSendStream, the bytes re-chunked in any way, then decoded: identity *)
Theorem C16_text_roundtrip : forall (e : enc) (ss bs w : list (list Z)), (e = Utf8 \/ e = Latin1) ->
  send_all e false ss = Some bs -> concat w = concat bs ->
  decode_seq e (dinit e) w = DOk (dinit e) (concat ss).
Proof. exact text_roundtrip. Qed.
Print Assumptions C16_text_roundtrip.

(* the same for every encoding of the model (utf-16/utf-32 with BOM, -le, -be), on HEAD where the BOM is written once *)
Theorem C16_text_roundtrip_all : forall (e : enc) (ss bs w : list (list Z)),
  send_all e false ss = Some bs -> concat w = concat bs ->
  exists d', decode_seq e (dinit e) w = DOk d' (concat ss) /\ pend d' = [].
Proof. exact text_roundtrip_all. Qed.
Print Assumptions C16_text_roundtrip_all.

(* through the stream model: TextSendStream.send for every string, then receive() until EndOfStream *)
Theorem C16_text_roundtrip_stream : forall (e : enc) (ss : list (list Z)) (k : nat) (s' : tst) (outs : list tres),
  (forall s, In s ss -> encode_body e s <> None) ->
  run_ops tstep (tinit e []) (map TSend ss ++ repeat TRecv k) = (s', outs) ->
  In TEnd outs -> (forall c, ~ In (TDecErr c) outs) /\ strs outs = concat ss.
Proof. exact text_roundtrip_stream_all. Qed.
Print Assumptions C16_text_roundtrip_stream.

(* F10 (fixed in /repo): with the stateless encoder of the pinned tree (a BOM per send) the round trip fails *)
Theorem C16_text_roundtrip_utf16_refuted_pinned : exists ss bs d' o,
  Forall2 (fun s b => encode_pinned Utf16 s = Some b) ss bs /\
  decode_seq Utf16 (dinit Utf16) bs = DOk d' o /\ o <> concat ss.
Proof. exact text_roundtrip_utf16_refuted_pinned. Qed.
Print Assumptions C16_text_roundtrip_utf16_refuted_pinned.

Theorem C16_text_roundtrip_utf32_refuted_pinned : exists ss bs d' o,
  Forall2 (fun s b => encode_pinned Utf32 s = Some b) ss bs /\
  decode_seq Utf32 (dinit Utf32) bs = DOk d' o /\ o <> concat ss.
Proof. exact text_roundtrip_utf32_refuted_pinned. Qed.
Print Assumptions C16_text_roundtrip_utf32_refuted_pinned.

(* tie T: the three receive methods as tools/translate_buffered.py regenerates them from
        src/anyio/streams/buffered.py on every run (pure/BufGen.v, language and interpreter pure/BufImp.v), interpreted,
        ARE the model: same state, same result, for every state, argument, cancellation point and feed list; hence the
        machine that runs the regenerated code equals Buffered.step op by op, and the conservation clause holds for
        runs of the regenerated code.  (The arrival log is a history variable of the model and is not part of this tie.)
        Trusted here: the translator's tables (Python construct -> BufImp atom, tools/translate_buffered.py), the
        reading of an await of the wrapped stream's receive() as BufImp.fetch (cancellation, data fed by other tasks
        during the wait, Buffered.pull), `self._closed` read as False (aclose() is outside the C16 model). *)
From AV Require Import BufImp BufGen BufGenEq.

Theorem C16_tie_receive : forall (s : st) (n : Z) (c : nat) (f : list (list Z)),
  result (exec (fuel_of s) gen_receive (env0 n [] c f) s) = Some (fst (do_receive false c s n f)).
Proof. exact tie_receive. Qed.
Print Assumptions C16_tie_receive.

Theorem C16_tie_exactly : forall (s : st) (n : Z) (c : nat) (f : list (list Z)),
  result (exec (fuel_of s) gen_exactly (env0 n [] c f) s) = Some (fst (do_exactly false c s n f)).
Proof. exact tie_exactly. Qed.
Print Assumptions C16_tie_exactly.

Theorem C16_tie_until : forall (s : st) (d : list Z) (m : Z) (c : nat) (f : list (list Z)),
  result (exec (fuel_of s) gen_until (env0 m d c f) s) = Some (fst (until_loop false (fuel_of s) c s d m 0 f)).
Proof. exact tie_until. Qed.
Print Assumptions C16_tie_until.

Theorem C16_tie_machine : forall (s : st) (o : op), gstep gen_progs s o = step s o.
Proof. exact gstep_eq_step. Qed.
Print Assumptions C16_tie_machine.

Theorem C16_tie_gen_conservation : forall (ops : list op) (s : st),
  let s' := final (gstep gen_progs) s ops in
  buf s ++ arrived_run s ops = consumed_run s ops ++ buf s'.
Proof. intros ops s. cbv zeta. rewrite grun_eq_run. apply buf_conservation. Qed.
Print Assumptions C16_tie_gen_conservation.

(* the loops of the regenerated code terminate within the model's own bound (one unit of fuel per iteration, fuel =
   1 + number of chunks + number of bytes the wrapped stream still holds): no call of the machine that runs the
   regenerated programs ends with the out-of-fuel result, and none of the three methods falls off its end (result is
   never None: every path returns or raises) *)
Theorem C16_tie_gen_terminates : forall (s : st) (o : op), snd (gstep gen_progs s o) <> RFuel.
Proof. intros s o. rewrite gstep_eq_step. apply step_never_out_of_fuel. Qed.
Print Assumptions C16_tie_gen_terminates.

Theorem C16_tie_gen_methods_return : forall (s : st) (n : Z) (d : list Z) (c : nat) (f : list (list Z)),
  result (exec (fuel_of s) gen_receive (env0 n [] c f) s) <> None /\
  result (exec (fuel_of s) gen_exactly (env0 n [] c f) s) <> None /\
  result (exec (fuel_of s) gen_until (env0 n d c f) s) <> None.
Proof. intros s n d c f. rewrite tie_receive, tie_exactly, tie_until. repeat split; discriminate. Qed.
Print Assumptions C16_tie_gen_methods_return.

(* tie T, text half: TextReceiveStream.receive and TextSendStream.send as tools/translate_text.py regenerates them
        from src/anyio/streams/text.py (pure/TextGen.v; language pure/TextImp.v), interpreted, ARE Text.tstep: same decoder /
        encoder state, same chunks left in the transport, same result - for every encoding, decoder state, chunk list and
        item.  The constructors (ONE incremental decoder / encoder object per stream: F10) and the delegating methods are
        checked literally by the translator.  Trusted: the translator's tables; `codecs` as modelled in Text.v. *)
From AV Require Import TextImp TextGen TextGenEq.

Theorem C16_tie_text_receive : forall (s : tst), g_receive gen_text_receive s = Some (tstep s TRecv).
Proof. exact tie_text_receive. Qed.
Print Assumptions C16_tie_text_receive.

Theorem C16_tie_text_send : forall (s : tst) (x : list Z), g_send gen_text_send s x = Some (tstep s (TSend x)).
Proof. exact tie_text_send. Qed.
Print Assumptions C16_tie_text_send.

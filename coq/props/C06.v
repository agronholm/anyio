(* C06 — Deadlines fire exactly when due; timeout helpers report them faithfully.
   This file contains only statements closed by `exact` and their Print Assumptions.
   Model: scopes/Machine.v (S machine).  "for every op sequence" = for every s with
   `exists ops, wf_run init ops /\ s = final step init ops`; wf_run only demands that AEnter names an allocated
   scope id (C06_invariant_needs_wf shows that the totalised model violates the invariant otherwise).
   live s tm = number of loop entries (timer heap + ready queue) carrying timer id tm. *)
From AV Require Import Base Machine ChainSpec ChainGen ChainEq ChainThms ChainMono TimerInv TimerThms TimerOrder.
From AV Require Import TreeStep ChainReach TimerRun TimerOwn TimerWitness.
From Coq Require Import Sorted.

(* I3: one live timer, never missed, no stray timers *)
Theorem C06_one_live_timer : forall (s : st) (c : sid) (tm : tmid),
  (exists ops, wf_run init ops /\ s = final step init ops) ->
  s_timeout (scopes s c) = Some tm -> s_cancelled (scopes s c) = false ->
  s_active (scopes s c) = true /\ live s tm = 1 /\
  ((exists d, In (mkTimer tm d (TScope c)) (timers s) /\ s_deadline (scopes s c) = Some d) \/
   (In (HTimeout c tm) (ready s) /\ exists d, s_deadline (scopes s c) = Some d /\ (d <= now s)%Z)).
Proof. exact one_live_timer. Qed.
Print Assumptions C06_one_live_timer.

Theorem C06_never_missed : forall (s : st) (c : sid) (d : Z),
  (exists ops, wf_run init ops /\ s = final step init ops) ->
  s_active (scopes s c) = true -> s_cancelled (scopes s c) = false -> s_deadline (scopes s c) = Some d ->
  exists tm, s_timeout (scopes s c) = Some tm /\ live s tm = 1 /\
             (In (mkTimer tm d (TScope c)) (timers s) \/ (In (HTimeout c tm) (ready s) /\ (d <= now s)%Z)).
Proof. exact never_missed. Qed.
Print Assumptions C06_never_missed.

Theorem C06_no_stray_timers : forall s : st,
  (exists ops, wf_run init ops /\ s = final step init ops) ->
  (forall x c, In x (timers s) -> tm_what x = TScope c ->
               s_timeout (scopes s c) = Some (tm_id x) /\ s_deadline (scopes s c) = Some (tm_when x)) /\
  (forall c tm, In (HTimeout c tm) (ready s) ->
                s_timeout (scopes s c) = Some tm /\ exists d, s_deadline (scopes s c) = Some d /\ (d <= now s)%Z).
Proof. exact no_stray_timers. Qed.
Print Assumptions C06_no_stray_timers.

Theorem C06_no_timer_after_exit : forall (s : st) (c : sid),
  (exists ops, wf_run init ops /\ s = final step init ops) -> s_active (scopes s c) = false ->
  s_timeout (scopes s c) = None /\ (forall x, In x (timers s) -> tm_what x <> TScope c) /\
  (forall tm, ~ In (HTimeout c tm) (ready s)).
Proof. exact no_timer_after_exit. Qed.
Print Assumptions C06_no_timer_after_exit.

Theorem C06_exit_deactivates : forall (s : st) (c : sid) (t : tid) (exc : option exn),
  (s_active (scopes s c) && opt_eqb (s_host (scopes s c)) t && opt_eqb (k_cur (tasks s t)) c) = true ->
  s_active (scopes (fst (scope_exit s c t exc)) c) = false.
Proof. exact exit_deactivates. Qed.
Print Assumptions C06_exit_deactivates.

Theorem C06_timer_ids_unique : forall (s : st) (tm : tmid),
  (exists ops, wf_run init ops /\ s = final step init ops) ->
  live s tm <= 1 /\ (ntimer s <= tm -> live s tm = 0).
Proof. exact timer_ids_unique. Qed.
Print Assumptions C06_timer_ids_unique.

(* never missed, strong form: a due deadline has its callback in the ready queue; running it cancels the scope *)
Theorem C06_due_timeout_is_ready : forall (s : st) (c : sid) (d : Z),
  (exists ops, wf_run init ops /\ s = final step init ops) ->
  s_active (scopes s c) = true -> s_cancelled (scopes s c) = false ->
  s_deadline (scopes s c) = Some d -> (d <= now s)%Z ->
  exists tm, s_timeout (scopes s c) = Some tm /\ In (HTimeout c tm) (ready s) /\ live s tm = 1.
Proof. exact due_timeout_is_ready. Qed.
Print Assumptions C06_due_timeout_is_ready.

Theorem C06_timeout_run_cancels : forall (s : st) (c : sid) (tm : tmid),
  (exists ops, wf_run init ops /\ s = final step init ops) -> In (HTimeout c tm) (ready s) ->
  let s' := fst (step s (ARun (HTimeout c tm))) in
  s_cancelled (scopes s' c) = true /\
  (s_cancelled (scopes s c) = false -> s_bydeadline (scopes s' c) = true) /\
  ~ In (HTimeout c tm) (ready s') /\ now s' = now s.
Proof. exact timeout_run_cancels. Qed.
Print Assumptions C06_timeout_run_cancels.

(* deadline timers still in the heap are strictly in the future -- every op sequence, no side condition *)
Theorem C06_heap_timers_in_future : forall (ops : list op) (x : timer) (c : sid),
  In x (timers (final step init ops)) -> tm_what x = TScope c -> (now (final step init ops) < tm_when x)%Z.
Proof. exact reach_heap_future. Qed.
Print Assumptions C06_heap_timers_in_future.

(* model observation: the machine accepts AEnter on a never-allocated scope id; then a stray timer appears *)
Theorem C06_invariant_needs_wf :
  let ops := [ANewRoot; ASetDeadline 1 2 (Some 100%Z); AEnter 1 2; ANewScope 1 None false; ANewScope 1 None false] in
  let s := final step init ops in
  In (mkTimer 1 100%Z (TScope 2)) (timers s) /\ s_timeout (scopes s 2) = None /\ s_active (scopes s 2) = false /\
  ~ wf_run init ops.
Proof. exact tinv_needs_wf. Qed.
Print Assumptions C06_invariant_needs_wf.

(* s_bydeadline is the ghost "cancelled with reason deadline"; for EVERY state and EVERY op, for allocated scopes
   (c < nscope s: an unallocated slot is overwritten by the next new scope) *)
Theorem C06_deadline_cancel_only_when_due : forall (s : st) (o : op) (c : sid),
  c < nscope s ->
  s_bydeadline (scopes s c) = false -> s_bydeadline (scopes (fst (step s o)) c) = true ->
  s_cancelled (scopes s c) = false /\ s_cancelled (scopes (fst (step s o)) c) = true /\
  exists d, s_deadline (scopes (fst (step s o)) c) = Some d /\ (d <= now (fst (step s o)))%Z.
Proof. exact deadline_cancel_only_when_due. Qed.
Print Assumptions C06_deadline_cancel_only_when_due.

(* ... and only via CancelScope._timeout: if the op neither enters a scope with a finite deadline (AEnter, fail_at,
   task group entry, first step of a child whose handle scope was given one), nor assigns a finite deadline, nor
   runs a fired timeout callback, then no scope becomes cancelled-by-deadline in that step *)
Theorem C06_bydeadline_only_by_timeout_ops : forall (s : st) (o : op) (c : sid),
  c < nscope s ->
  match o with
  | AEnter _ x => s_deadline (scopes s x) = None
  | ASetDeadline _ _ d => d = None
  | AFailAt _ d _ => d = None
  | AGroupEnter _ g => s_deadline (scopes s (g_scope (groups s g))) = None
  | ARun (HStep t) | ARun (HWake t _) => s_deadline (scopes s (k_hscope (tasks s t))) = None
  | ARun (HTimeout _ _) => False
  | _ => True
  end ->
  s_bydeadline (scopes s c) = false -> s_bydeadline (scopes (fst (step s o)) c) = false.
Proof. exact bydeadline_only_by_timeout_ops. Qed.
Print Assumptions C06_bydeadline_only_by_timeout_ops.

Theorem C06_timeout_only_when_due : forall (s : st) (c x : sid),
  s_bydeadline (scopes (scope_timeout s c) x) = true -> s_bydeadline (scopes s x) = false ->
  x = c /\ exists d, s_deadline (scopes s c) = Some d /\ (d <= now s)%Z.
Proof. exact scope_timeout_only_when_due. Qed.
Print Assumptions C06_timeout_only_when_due.

Theorem C06_tick_moves_due_timers : forall (s : st) (dt : Z),
  (0 <= dt)%Z ->
  let s' := fst (step s (ATick dt)) in
  now s' = (now s + dt)%Z /\
  (forall x, In x (timers s') <-> In x (timers s) /\ (now s' < tm_when x)%Z) /\
  exists moved, ready s' = ready s ++ map handle_of_timer moved /\
                (forall x, In x moved <-> In x (timers s) /\ (tm_when x <= now s')%Z) /\
                length moved = length (filter (fun x => Z.leb (tm_when x) (now s')) (timers s)) /\
                StronglySorted (fun a b => (tm_when a <= tm_when b)%Z) moved.
Proof. exact tick_moves_due_timers. Qed.
Print Assumptions C06_tick_moves_due_timers.

(* ... and they are appended in (when, id) order -- for EVERY op sequence, no side condition *)
Theorem C06_tick_order : forall (ops : list op) (dt : Z),
  (0 <= dt)%Z ->
  let s := final step init ops in
  let s' := fst (step s (ATick dt)) in
  exists moved, ready s' = ready s ++ map handle_of_timer moved /\
                (forall x, In x moved <-> In x (timers s) /\ (tm_when x <= now s')%Z) /\
                StronglySorted (fun a b => (tm_when a < tm_when b)%Z \/ (tm_when a = tm_when b /\ tm_id a < tm_id b)) moved.
Proof. exact tick_order. Qed.
Print Assumptions C06_tick_order.

Theorem C06_past_deadline_cancels_on_enter : forall (s : st) (c : sid) (t : tid) (d : Z),
  s_active (scopes s c) = false -> s_deadline (scopes s c) = Some d -> (d <= now s)%Z ->
  let s' := fst (scope_enter s c t) in
  s_cancelled (scopes s' c) = true /\ s_active (scopes s' c) = true /\
  (s_cancelled (scopes s c) = false -> s_bydeadline (scopes s' c) = true).
Proof. exact past_deadline_cancels_on_enter. Qed.
Print Assumptions C06_past_deadline_cancels_on_enter.

Theorem C06_deadline_assignment_rearms : forall (s : st) (t : tid) (c : sid) (d : option Z),
  (exists ops, wf_run init ops /\ s = final step init ops) -> idle s t = true ->
  let s' := fst (step s (ASetDeadline t c d)) in
  (exists ops, wf_run init ops /\ s' = final step init ops) /\ s_deadline (scopes s' c) = d /\
  (s_active (scopes s' c) = true -> s_cancelled (scopes s' c) = false ->
   match d with
   | Some z => exists tm, s_timeout (scopes s' c) = Some tm /\ In (mkTimer tm z (TScope c)) (timers s') /\ (now s' < z)%Z
   | None => s_timeout (scopes s' c) = None
   end).
Proof. exact deadline_assignment_rearms. Qed.
Print Assumptions C06_deadline_assignment_rearms.

Theorem C06_fail_at_timeout_iff : forall (s : st) (t : tid) (c : sid),
  idle s t = true ->
  let s0 := begin_act s t in
  let exc := k_held (tasks s0 t) in
  (snd (step s (AExit t c true)) = RExc ETimeout <->
   snd (scope_exit s0 c t exc) = XTrue /\ s_caught (scopes (fst (scope_exit s0 c t exc)) c) = true /\
   exists d, s_deadline (scopes s c) = Some d /\ (d <= now s)%Z).
Proof. exact fail_at_timeout_iff. Qed.
Print Assumptions C06_fail_at_timeout_iff.

Theorem C06_fail_at_timeout_iff_caller_state : forall (s : st) (t : tid) (c : sid),
  idle s t = true ->
  let s0 := begin_act s t in
  (snd (step s (AExit t c true)) = RExc ETimeout <->
   (s_active (scopes s0 c) && opt_eqb (s_host (scopes s0 c)) t && opt_eqb (k_cur (tasks s0 t)) c) = true /\
   s_cancelled (scopes s c) = true /\ parent_visible s c = false /\
   ((exists e, k_held (tasks s t) = Some e /\ is_anyio_cancel e = true) \/
    (exists l m, k_held (tasks s t) = Some (EGroup l) /\ split_exn (EGroup l) = (Some m, None))) /\
   exists d, s_deadline (scopes s c) = Some d /\ (d <= now s)%Z).
Proof. exact fail_at_timeout_iff'. Qed.
Print Assumptions C06_fail_at_timeout_iff_caller_state.

(* generated = spec holds for all chains; machine = generated holds on chains of entered scopes, hence (reach_ok, see
   the header of props/C04.v) for the walk from any task's current scope in every reachable state of the generated
   domain *)
Theorem C06_effective_deadline_gen_eq : forall l : list scope_rec, gen_eff_deadline l = eff_deadline_spec l.
Proof. exact effective_deadline_gen_eq. Qed.
Print Assumptions C06_effective_deadline_gen_eq.

Theorem C06_effective_deadline_neginf_iff_cancelled : forall l : list scope_rec,
  eff_deadline_spec l = XNegInf <-> eff_cancelled_spec l = true.
Proof. exact eff_deadline_spec_neginf. Qed.
Print Assumptions C06_effective_deadline_neginf_iff_cancelled.

(* visible l = the chain up to and including the nearest shielded or exited (F42) scope; xof d = the deadline as an
   extended time *)
Theorem C06_effective_deadline_is_min : forall l : list scope_rec,
  eff_cancelled_spec l = false ->
  (forall r, In r (visible l) -> xle (eff_deadline_spec l) (xof (r_deadline r))) /\
  (eff_deadline_spec l = XInf \/ exists r, In r (visible l) /\ eff_deadline_spec l = xof (r_deadline r)).
Proof. exact eff_deadline_spec_min. Qed.
Print Assumptions C06_effective_deadline_is_min.

(* the machine's walk = the generated one on chains of entered scopes, hence for every task of every reachable state
   of the generated domain (see C04_reach_walks_see_entered_scopes) *)
Theorem C06_machine_eff_deadline_is_generated : forall (fuel : nat) (s : st) (x : option sid),
  Forall (fun r => r_hosted r = true) (chain_of fuel s x) ->
  eff_deadline_from fuel s x XInf = gen_eff_deadline (chain_of fuel s x).
Proof. exact machine_eff_deadline_gen. Qed.
Print Assumptions C06_machine_eff_deadline_is_generated.

Theorem C06_reach_eff_deadline_is_generated : forall (s : st) (fuel : nat) (t : tid),
  reach_ok s ->
  eff_deadline_from fuel s (k_cur (tasks s t)) XInf = gen_eff_deadline (chain_of fuel s (k_cur (tasks s t))).
Proof. exact reach_eff_deadline_is_generated. Qed.
Print Assumptions C06_reach_eff_deadline_is_generated.

(* whatever the program and the loop do after the deadline of an active, uncancelled scope has become due: the scope
   is cancelled, or it was disarmed (left, or its deadline changed), or its timeout callback is still pending *)
Theorem C06_due_deadline_cancels_unless_disarmed : forall (s : st) (c : sid) (d : Z) (ops : list op),
  (exists ops0, wf_run init ops0 /\ s = final step init ops0) ->
  s_active (scopes s c) = true -> s_cancelled (scopes s c) = false ->
  s_deadline (scopes s c) = Some d -> (d <= now s)%Z ->
  let s' := final step s ops in wf_run s ops ->
  s_cancelled (scopes s' c) = true \/ s_active (scopes s' c) = false \/ s_deadline (scopes s' c) <> Some d \/
  (exists tm, In (HTimeout c tm) (ready s')).
Proof. exact due_deadline_cancels_unless_disarmed. Qed.
Print Assumptions C06_due_deadline_cancels_unless_disarmed.

(* one loop cycle: if ops runs every handle that was ready in s and the scope is neither left nor given another
   deadline meanwhile (at every prefix of ops it is still active with deadline d), the scope is cancelled afterwards *)
Theorem C06_due_deadline_cancelled_after_cycle : forall (s : st) (c : sid) (d : Z) (ops : list op),
  (exists ops0, wf_run init ops0 /\ s = final step init ops0) ->
  s_active (scopes s c) = true -> s_cancelled (scopes s c) = false ->
  s_deadline (scopes s c) = Some d -> (d <= now s)%Z ->
  wf_run s ops ->
  (forall pre post, ops = pre ++ post ->
     s_active (scopes (final step s pre) c) = true /\ s_deadline (scopes (final step s pre) c) = Some d) ->
  (forall h, In h (ready s) -> In (ARun h) ops) ->
  s_cancelled (scopes (final step s ops) c) = true.
Proof. exact due_deadline_cancelled_after_cycle. Qed.
Print Assumptions C06_due_deadline_cancelled_after_cycle.

(* the semantic "left alone" hypothesis cannot be replaced by "ops contains no AExit _ c _ / ASetDeadline _ c _": a
   task group's own scope is left by AGroupExit.  Group scope 1 has deadline 5, the clock is at 5, the callback is
   ready; the host leaves the group first; the scope is never cancelled. *)
Theorem C06_cycle_needs_left_alone :
  let s := final step init [ANewRoot; AGroupNew 1; AGroupEnter 1 1; ASetDeadline 1 1 (Some 5%Z); ATick 5] in
  let cycle := [AGroupExit 1 1; ARun (HStep 1); ARun (HTimeout 1 1)] in
  (exists ops0, wf_run init ops0 /\ s = final step init ops0) /\
  s_active (scopes s 1) = true /\ s_cancelled (scopes s 1) = false /\
  s_deadline (scopes s 1) = Some 5%Z /\ now s = 5%Z /\ ready s = [HTimeout 1 1] /\ wf_run s cycle /\
  (forall h, In h (ready s) -> In (ARun h) cycle) /\
  forallb (fun o => match o with AExit _ 1 _ | ASetDeadline _ 1 _ => false | _ => true end) cycle = true /\
  s_cancelled (scopes (final step s cycle) 1) = false /\ s_active (scopes (final step s cycle) 1) = false.
Proof. exact stays_needed. Qed.
Print Assumptions C06_cycle_needs_left_alone.

(* fired timer callbacks enter the ready queue only through an accepted ATick (every state, every op) *)
Theorem C06_fired_callbacks_only_by_tick : forall (s : st) (o : op) (h : handle),
  (forall dt, o <> ATick dt) ->
  match h with HSleepDone _ _ | HTimeout _ _ => true | _ => false end = true ->
  In h (ready (fst (step s o))) -> In h (ready s).
Proof. exact fired_callbacks_only_by_tick. Qed.
Print Assumptions C06_fired_callbacks_only_by_tick.

(* c = the scope created and entered by the op `AFailAt t0 d0 sh` (fail_at, fail_after, move_on_at, move_on_after)
   after the history `pre`; `mid` is everything that happens until the block is left.
   no_explicit_cancel c mid : mid contains no ACancel _ c / AExtCancel c            ("not also cancelled explicitly")
   no_redeadline c s2 mid   : no ASetDeadline _ c _ at a point where c is cancelled ("deadline not reassigned after it
                              has fired"), evaluated along the run.
   Hypotheses of both theorems: the whole run is wf_run, the AFailAt op was accepted (idle s1 t0), the two provisos,
   and the exiting task is at a decision point (idle s t).
   C06_timeout_iff_own_deadline: TimeoutError IFF the three exit guards pass /\ cancelled by its OWN deadline /\ no
   enclosing cancellation visible at the exit /\ the block ended with AnyIO cancellations only.
   C06_move_on_caught_iff: cancelled_caught is true after the exit IFF it was ALREADY true before the exit, or (guards
   /\ own deadline /\ no enclosing cancellation visible /\ at least one AnyIO cancellation, alone or in a group whose
   remainder is re-raised).
   The extra conjuncts are real (C06_t1_..., C06_t2_... below) and so are the provisos
   (C06_explicit_cancel_proviso_needed, C06_redeadline_proviso_needed); both sides true: C06_own_deadline_witness. *)
Theorem C06_timeout_iff_own_deadline : forall (pre : list op) (t0 : tid) (d0 : option Z) (sh : bool) (mid : list op),
  let s1 := final step init pre in
  let c := nscope s1 in
  let s2 := fst (step s1 (AFailAt t0 d0 sh)) in
  let s := final step s2 mid in
  wf_run init (pre ++ AFailAt t0 d0 sh :: mid) -> idle s1 t0 = true ->
  no_explicit_cancel c mid = true -> no_redeadline c s2 mid = true ->
  forall t, idle s t = true ->
  (snd (step s (AExit t c true)) = RExc ETimeout <->
   (s_active (scopes (begin_act s t) c) && opt_eqb (s_host (scopes (begin_act s t) c)) t &&
    opt_eqb (k_cur (tasks (begin_act s t) t)) c) = true /\
   s_bydeadline (scopes s c) = true /\ parent_visible s c = false /\
   ((exists e, k_held (tasks s t) = Some e /\ is_anyio_cancel e = true) \/
    (exists l m, k_held (tasks s t) = Some (EGroup l) /\ split_exn (EGroup l) = (Some m, None)))).
Proof. exact timeout_iff_own_deadline. Qed.
Print Assumptions C06_timeout_iff_own_deadline.

Theorem C06_move_on_caught_iff : forall (pre : list op) (t0 : tid) (d0 : option Z) (sh : bool) (mid : list op),
  let s1 := final step init pre in
  let c := nscope s1 in
  let s2 := fst (step s1 (AFailAt t0 d0 sh)) in
  let s := final step s2 mid in
  wf_run init (pre ++ AFailAt t0 d0 sh :: mid) -> idle s1 t0 = true ->
  no_explicit_cancel c mid = true -> no_redeadline c s2 mid = true ->
  forall t fa, idle s t = true ->
  (s_caught (scopes (fst (step s (AExit t c fa))) c) = true <->
   s_caught (scopes s c) = true \/
   ((s_active (scopes (begin_act s t) c) && opt_eqb (s_host (scopes (begin_act s t) c)) t &&
     opt_eqb (k_cur (tasks (begin_act s t) t)) c) = true /\
    s_bydeadline (scopes s c) = true /\ parent_visible s c = false /\
    (((exists e, k_held (tasks s t) = Some e /\ is_anyio_cancel e = true) \/
      (exists l m, k_held (tasks s t) = Some (EGroup l) /\ split_exn (EGroup l) = (Some m, None))) \/
     exists r l m, k_held (tasks s t) = Some (EGroup l) /\ split_exn (EGroup l) = (Some m, Some r)))).
Proof. exact move_on_caught_iff. Qed.
Print Assumptions C06_move_on_caught_iff.

(* under the provisos: cancel_called <-> cancelled by the own deadline, and then the deadline has passed *)
Theorem C06_own_deadline_facts : forall (pre : list op) (t0 : tid) (d0 : option Z) (sh : bool) (mid : list op),
  let s1 := final step init pre in
  let c := nscope s1 in
  let s2 := fst (step s1 (AFailAt t0 d0 sh)) in
  let s := final step s2 mid in
  wf_run init (pre ++ AFailAt t0 d0 sh :: mid) -> idle s1 t0 = true ->
  no_explicit_cancel c mid = true -> no_redeadline c s2 mid = true ->
  (s_cancelled (scopes s c) = true <-> s_bydeadline (scopes s c) = true) /\
  (s_bydeadline (scopes s c) = true -> exists d, s_deadline (scopes s c) = Some d /\ (d <= now s)%Z).
Proof. exact own_deadline_facts. Qed.
Print Assumptions C06_own_deadline_facts.

(* T1: own deadline fired and interrupted the block, all provisos hold, but the enclosing scope 1 is cancelled
   before the block is left: no TimeoutError, cancelled_caught of the fail_at scope stays false, the OUTER scope
   absorbs the cancellation carrying the inner scope's tag *)
Theorem C06_t1_enclosing_cancellation_hides_timeout :
  let pre := [ANewRoot; ANewScope 1 None false; AEnter 1 1] in
  let mid := [ASleep 1 None; ATick 5; ARun (HTimeout 2 1); AExtCancel 1] in
  let s := final step init (pre ++ AFailAt 1 (Some 5%Z) false :: mid) in
  let c := nscope (final step init pre) in
  let f := match k_waiter (tasks s 1) with Some f => f | None => 0 end in
  let sa := fst (step s (ARun (HWake 1 f))) in
  c = 2 /\ wf_run init (pre ++ AFailAt 1 (Some 5%Z) false :: mid) /\
  no_explicit_cancel c (mid ++ [ARun (HWake 1 f)]) = true /\
  no_redeadline c (fst (step (final step init pre) (AFailAt 1 (Some 5%Z) false))) (mid ++ [ARun (HWake 1 f)]) = true /\
  snd (step s (ARun (HWake 1 f))) = RExc (ECancel 3) /\
  s_bydeadline (scopes sa 2) = true /\ parent_visible sa 2 = true /\
  snd (step sa (AExit 1 2 true)) = RRet 0 /\
  let sb := fst (step sa (AExit 1 2 true)) in
  s_caught (scopes sb 2) = false /\ k_held (tasks sb 1) = Some (ECancel 3) /\
  snd (step sb (AExit 1 1 false)) = RRet 1 /\
  s_caught (scopes (fst (step sb (AExit 1 1 false))) 1) = true.
Proof. exact t1_enclosing_cancellation_hides_timeout. Qed.
Print Assumptions C06_t1_enclosing_cancellation_hides_timeout.

(* T2: the block ends with a group holding the deadline cancellation and another error: cancelled_caught = True
   but the remainder is re-raised instead of TimeoutError *)
Theorem C06_t2_group_remainder_instead_of_timeout :
  (* t2_state = final step init ([ANewRoot] ++ AFailAt 1 (Some 5) false :: [ASleep 1 None; ATick 5; ARun (HTimeout 1 1)]) *)
  let f := match k_waiter (tasks t2_state 1) with Some f => f | None => 0 end in
  let sa := final step t2_state [ARun (HWake 1 f); AWrap 1 7] in
  nscope (final step init [ANewRoot]) = 1 /\
  k_held (tasks sa 1) = Some (EGroup [ECancel 2; EErr 7]) /\ s_bydeadline (scopes sa 1) = true /\
  parent_visible sa 1 = false /\
  snd (step sa (AExit 1 1 true)) = RExc (EGroup [EErr 7]) /\
  s_caught (scopes (fst (step sa (AExit 1 1 true))) 1) = true.
Proof. exact t2_group_remainder_instead_of_timeout. Qed.
Print Assumptions C06_t2_group_remainder_instead_of_timeout.

(* non-vacuity witnesses (vm_compute; the op lists are the Definitions named in the comments) *)
(* both sides of C06_timeout_iff_own_deadline true, all hypotheses met:
   t2_mid = [ASleep 1 None; ATick 5; ARun (HTimeout 1 1)], t2_state = final step init ([ANewRoot] ++ AFailAt 1 (Some 5) false :: t2_mid) *)
Theorem C06_own_deadline_witness :
  let f := match k_waiter (tasks t2_state 1) with Some f => f | None => 0 end in
  let mid := t2_mid ++ [ARun (HWake 1 f)] in
  wf_run init ([ANewRoot] ++ AFailAt 1 (Some 5%Z) false :: mid) /\
  idle (final step init [ANewRoot]) 1 = true /\
  no_explicit_cancel 1 mid = true /\
  no_redeadline 1 (fst (step (final step init [ANewRoot]) (AFailAt 1 (Some 5%Z) false))) mid = true /\
  let s := final step (fst (step (final step init [ANewRoot]) (AFailAt 1 (Some 5%Z) false))) mid in
  idle s 1 = true /\ snd (step s (AExit 1 1 true)) = RExc ETimeout.
Proof. exact own_deadline_provisos_witness. Qed.
Print Assumptions C06_own_deadline_witness.

(* the proviso "not also cancelled explicitly" is needed: expl_mid = [ASleep 1 None; ANewRoot; ACancel 2 1; ATick 5],
   expl_state = final step init ([ANewRoot] ++ AFailAt 1 (Some 5) false :: expl_mid).  cancel() at time 0 removed the
   timer, the deadline never fires, the block is left at time 5: TimeoutError although s_bydeadline = false *)
Theorem C06_explicit_cancel_proviso_needed :
  let f := match k_waiter (tasks expl_state 1) with Some f => f | None => 0 end in
  let mid := expl_mid ++ [ARun (HWake 1 f)] in
  let s2 := fst (step (final step init [ANewRoot]) (AFailAt 1 (Some 5%Z) false)) in
  let s := final step s2 mid in
  wf_run init ([ANewRoot] ++ AFailAt 1 (Some 5%Z) false :: mid) /\ idle (final step init [ANewRoot]) 1 = true /\
  no_explicit_cancel 1 mid = false /\ no_redeadline 1 s2 mid = true /\ idle s 1 = true /\
  timers s = [] /\ s_bydeadline (scopes s 1) = false /\ s_cancelled (scopes s 1) = true /\
  snd (step s (AExit 1 1 true)) = RExc ETimeout /\
  s_caught (scopes (fst (step s (AExit 1 1 true))) 1) = true.
Proof. exact explicit_cancel_proviso_needed. Qed.
Print Assumptions C06_explicit_cancel_proviso_needed.

(* the proviso "deadline not reassigned after it has fired" is needed: redl_mid = [ASleep 1 None; ATick 5;
   ARun (HTimeout 1 1); ANewRoot; ASetDeadline 2 1 (Some 50)], redl_state likewise.  Own deadline fired, no enclosing
   cancellation, block ended with that cancellation only -- the right-hand side holds -- but no TimeoutError *)
Theorem C06_redeadline_proviso_needed :
  let f := match k_waiter (tasks redl_state 1) with Some f => f | None => 0 end in
  let mid := redl_mid ++ [ARun (HWake 1 f)] in
  let s2 := fst (step (final step init [ANewRoot]) (AFailAt 1 (Some 5%Z) false)) in
  let s := final step s2 mid in
  wf_run init ([ANewRoot] ++ AFailAt 1 (Some 5%Z) false :: mid) /\ idle (final step init [ANewRoot]) 1 = true /\
  no_explicit_cancel 1 mid = true /\ no_redeadline 1 s2 mid = false /\ idle s 1 = true /\
  exit_guards (begin_act s 1) 1 1 = true /\ s_bydeadline (scopes s 1) = true /\ parent_visible s 1 = false /\
  k_held (tasks s 1) = Some (ECancel 2) /\
  snd (step s (AExit 1 1 true)) = RRet 1 /\
  s_caught (scopes (fst (step s (AExit 1 1 true))) 1) = true.
Proof. exact redeadline_proviso_needed. Qed.
Print Assumptions C06_redeadline_proviso_needed.

(* the cycle theorem on a cycle with two ready callbacks, the scope's own one run last:
   cyc2_state = final step init [ANewRoot; AFailAt 1 (Some 5) false; ASleep 1 None; ANewRoot; ASleep 2 (Some 5); ATick 5],
   cyc2_cycle = map ARun (rev (ready cyc2_state)) = [ARun (HSleepDone 5 2); ARun (HTimeout 1 1)] *)
Theorem C06_cycle_witness :
  (exists ops0, wf_run init ops0 /\ cyc2_state = final step init ops0) /\
  length (ready cyc2_state) = 2 /\ In (HTimeout 1 1) (ready cyc2_state) /\
  cyc2_cycle <> [] /\ hd (ATick 0) cyc2_cycle <> ARun (HTimeout 1 1) /\
  s_active (scopes cyc2_state 1) = true /\ s_cancelled (scopes cyc2_state 1) = false /\
  s_deadline (scopes cyc2_state 1) = Some 5%Z /\ (5 <= now cyc2_state)%Z /\
  wf_run cyc2_state cyc2_cycle /\
  (forall pre post, cyc2_cycle = pre ++ post ->
     s_active (scopes (final step cyc2_state pre) 1) = true /\
     s_deadline (scopes (final step cyc2_state pre) 1) = Some 5%Z) /\
  (forall h, In h (ready cyc2_state) -> In (ARun h) cyc2_cycle) /\
  s_cancelled (scopes (final step cyc2_state cyc2_cycle) 1) = true.
Proof. exact cycle_witness2. Qed.
Print Assumptions C06_cycle_witness.

(* each of the four outcomes of C06_due_deadline_cancels_unless_disarmed occurs, from one start state:
   dis_state = final step init [ANewRoot; AFailAt 1 (Some 5) false; ANewRoot; ATick 5] (callback pending, host idle) *)
Theorem C06_disarm_outcomes_witness :
  (exists ops0, wf_run init ops0 /\ dis_state = final step init ops0) /\
  s_active (scopes dis_state 1) = true /\ s_cancelled (scopes dis_state 1) = false /\
  s_deadline (scopes dis_state 1) = Some 5%Z /\ (5 <= now dis_state)%Z /\
  (wf_run dis_state [ARun (HTimeout 1 1)] /\
   s_cancelled (scopes (final step dis_state [ARun (HTimeout 1 1)]) 1) = true) /\
  (wf_run dis_state [AExit 1 1 true] /\
   s_cancelled (scopes (final step dis_state [AExit 1 1 true]) 1) = false /\
   s_active (scopes (final step dis_state [AExit 1 1 true]) 1) = false /\
   snd (step dis_state (AExit 1 1 true)) = RRet 0) /\
  (wf_run dis_state [ASetDeadline 2 1 (Some 9%Z)] /\
   s_cancelled (scopes (final step dis_state [ASetDeadline 2 1 (Some 9%Z)]) 1) = false /\
   s_active (scopes (final step dis_state [ASetDeadline 2 1 (Some 9%Z)]) 1) = true /\
   s_deadline (scopes (final step dis_state [ASetDeadline 2 1 (Some 9%Z)]) 1) = Some 9%Z /\
   ready (final step dis_state [ASetDeadline 2 1 (Some 9%Z)]) = []) /\
  (wf_run dis_state [AYield 2] /\
   s_cancelled (scopes (final step dis_state [AYield 2]) 1) = false /\
   s_active (scopes (final step dis_state [AYield 2]) 1) = true /\
   s_deadline (scopes (final step dis_state [AYield 2]) 1) = Some 5%Z /\
   In (HTimeout 1 1) (ready (final step dis_state [AYield 2]))).
Proof. exact disarm_outcomes_witness. Qed.
Print Assumptions C06_disarm_outcomes_witness.

(* ---- tie T for the timeout helpers: fail_at, fail_after, move_on_at, move_on_after of src/anyio/_core/_tasks.py are
        regenerated on every run by tools/translate_timeouts.py as shapes (scopes/TimeoutGen.v: which deadline the scope
        gets, whether `shield` reaches it, what follows the block; language scopes/TimeoutSpec.v) and proved equal to what
        the S machine assumes of them: AFailAt t d sh creates `new_scope s d sh`, AExit t c true raises TimeoutError iff the
        scope swallowed its cancellation and its deadline has passed, the move_on helpers add nothing after the block.
        Trusted: the translator's grammar (tools/translate_timeouts.py), @contextmanager's protocol. ---- *)
From AV Require Import TimeoutSpec TimeoutGen TimeoutEq.

Theorem C06_tie_timeout_helpers : forall (i : nat) (now : Z) (arg : option Z) (sh : bool), i <= 3 ->
  shape_of gen_table (gen_table i) now arg sh = spec_shape i now arg sh.
Proof. exact tie_timeout_helpers. Qed.
Print Assumptions C06_tie_timeout_helpers.

Theorem C06_tie_fail_after_is_AFailAt : forall (s : st) (now : Z) (delay : option Z) (sh : bool),
  let '(d, sh', p) := shape_of gen_table gen_fail_after now delay sh in
  new_scope s d sh' = new_scope s (option_map (Z.add now) delay) sh /\ p = PTimeoutIfCaughtAndDue.
Proof. exact fail_after_is_AFailAt. Qed.
Print Assumptions C06_tie_fail_after_is_AFailAt.

Theorem C06_tie_fail_at_post_is_machine_condition : forall (sc : scope) (now : Z),
  let '(_, _, p) := shape_of gen_table gen_fail_at now None false in
  post_raises p sc now = (s_caught sc && match s_deadline sc with Some d => Z.leb d now | None => false end).
Proof. exact fail_at_post_is_machine_condition. Qed.
Print Assumptions C06_tie_fail_at_post_is_machine_condition.

Theorem C06_tie_move_on_has_no_post : forall (now : Z) (arg : option Z) (sh : bool) (sc : scope) (t : Z),
  post_raises (snd (shape_of gen_table gen_move_on_at now arg sh)) sc t = false /\
  post_raises (snd (shape_of gen_table gen_move_on_after now arg sh)) sc t = false.
Proof. exact move_on_has_no_post. Qed.
Print Assumptions C06_tie_move_on_has_no_post.

(* C12 — Memory object streams: exactly-once, ordered, bounded delivery.
   This file contains only statements closed by `exact` and their Print Assumptions.
   Model: prims/MemStream.v.  Ghost lists of the model: entered (items that entered the stream state, in arrival
   order), handed (items that left it towards a receiver), returned (items returned by receive calls), inflight
   (items in the slot of a receiver that has not resumed yet), lost (items in the slot of a receive that raised),
   withdrawn (items of blocked sends that raised while still queued), acked (items whose send returned normally).

   Outside the model - recorded observation `skip_prediction_averted` (hunt/C12/borderline_shield_toggle.py):
   send_nowait pops and forgets a waiting receiver whose has_pending_cancellation() is true.  In the model that is
   never a mere prediction: op ScopeCancel (cancel() of the scope entered around the blocked call) delivers
   Task.cancel() at once, so for every queued receiver "has_pending" implies that the waiter future is ALREADY
   cancelled (C12_skip_means_future_cancelled) and a popped receiver always ends with CancelledError
   (C12_skipped_receiver_is_cancelled).  In the real code has_pending_cancellation() can also be true through
   CancelScope._effectively_cancelled alone, before any Task.cancel(): a receiver blocked inside a SHIELDED scope inside
   an already cancelled scope whose _deliver_cancellation retry callback is pending; a third party sets shield=False
   (delivery deferred to the pending retry), calls send_nowait (receiver popped, item buffered) and sets shield=True
   again, all inside one loop cycle: the retry skips the receiver, which is then neither cancelled nor ever served.
   No op sequence of this model produces that state: it needs cancel-scope state (nested scopes, the shield flag, the
   retry handle) which the P machine does not have - its only scope op is ScopeCancel, and `disciplined` plays no
   role (it restricts native Cancel ops only).  The scenario is therefore executed on the real code by the harness
   (memstream_common.observe_skip_prediction_averted) and recorded in evidence/C12.json under
   coverage.observations.skip_prediction_averted; it is not counted as a violation (the property quantifies over
   cancellation, not over a third party toggling another task's shield inside one cycle).
   The contract of has_pending_cancellation() - what is proved and what is checked.  In the model `has_pending` is not a
   free oracle: it is the transcription `mustc || waiter-future-cancelled || scopec`, where `scopec` abstracts
   CancelScope._effectively_cancelled for the ONE scope the model knows (entered directly around the call and cancelled
   by op ScopeCancel, which delivers Task.cancel() at once).  On that abstraction the contract "true only for a task
   whose wait is going to end with a cancellation" is a theorem (C12_skip_means_future_cancelled,
   C12_skipped_receiver_is_cancelled).  The real predicate reads the task's whole cancel-scope chain (shields,
   cancelled / expired parent scopes); the P machine has no scope-chain abstraction (it would change
   the state, the ops and every invariant lemma), so for real scope structures the contract is CHECKED, on every run,
   by the combined scope+stream family of the harness (memstream_common.SHAPES: calls made inside a shield, inside a
   shield under a cancelled / expired-deadline / live outer scope, nested two deep, plain inside plain; the virtual
   clock is moved past deadlines with the timer callback run or not; outer scopes are cancelled while the task waits):
   after every step has_pending_cancellation() of every task inside a blocking call must equal "a cancellation was
   requested on the task, or its scope is effectively cancelled" as computed by the harness from the structure it built
   (a shield between the task and a cancelled / expired scope means NOT cancelled), and a receiver for which this is
   false is LIVE: it must be served in FIFO order and must never be popped from the queue without an item.  For the
   stream model such structures are plain Send / Recv (codec codes 20..39) and the clock / timer / outer-cancel
   activities are no-ops (codes 10, 11, 14): that they are invisible to the stream is part of the correspondence. *)
From AV Require Import Base MemStream MemStreamProofs MemStreamThms.
From Coq Require Import Permutation.

(* the ghost lists mean what their names say: they are determined by the results of the steps *)
Theorem C12_returned_tracks_results : forall s o,
  returned (fst (step s o)) =
  match snd (step s o) with RItem x => returned s ++ [x] | _ => returned s end.
Proof. exact returned_tracks_results. Qed.
Print Assumptions C12_returned_tracks_results.

Theorem C12_acked_tracks_results : forall s o,
  acked (fst (step s o)) =
  match snd (step s o), send_item s o with RDone, Some x => acked s ++ [x] | _, _ => acked s end.
Proof. exact acked_tracks_results. Qed.
Print Assumptions C12_acked_tracks_results.

Theorem C12_lost_tracks_results : forall s o,
  lost (fst (step s o)) = lost s \/
  exists t e x, o = Resume t /\ phase_of s t = RecvWait e /\ slot s e = Some x /\
                snd (step s o) = RCancelled /\ lost (fst (step s o)) = lost s ++ [x].
Proof. exact lost_tracks_results. Qed.
Print Assumptions C12_lost_tracks_results.

(* conservation: every item that entered the stream is in exactly one place *)
Theorem C12_conservation : forall m s, reach m s ->
  Permutation (entered s)
    (returned s ++ map snd (inflight s) ++ lost s ++ buffer s ++ map snd (senders s) ++ withdrawn s) /\
  NoDup (entered s) /\
  (forall e x, In (e, x) (inflight s) <-> (slot s e = Some x /\ exists t, phase_of s t = RecvWait e)).
Proof. exact ms_conservation. Qed.
Print Assumptions C12_conservation.

Theorem C12_no_dup_no_invention : forall m s, reach m s ->
  NoDup (returned s) /\ (forall x, In x (returned s) -> In x (entered s)).
Proof. exact ms_no_dup_no_invention. Qed.
Print Assumptions C12_no_dup_no_invention.

Theorem C12_acked_accounted : forall m s x, reach m s -> In x (acked s) ->
  In x (returned s ++ map snd (inflight s) ++ lost s ++ buffer s) /\
  ~ In x (map snd (senders s)) /\ ~ In x (withdrawn s).
Proof. exact ms_acked_accounted. Qed.
Print Assumptions C12_acked_accounted.

(* FIFO *)
Theorem C12_fifo : forall m s, reach m s ->
  subseq (handed s ++ buffer s ++ map snd (senders s)) (entered s).
Proof. exact ms_fifo. Qed.
Print Assumptions C12_fifo.

Theorem C12_fifo_pairs : forall m s x y, reach m s ->
  before x y (entered s) -> In x (handed s) -> In y (handed s) -> before x y (handed s).
Proof. exact ms_fifo_pairs. Qed.
Print Assumptions C12_fifo_pairs.

(* waiters are served in the order they started waiting *)
Theorem C12_waiters_served_fifo : forall m s, reach m s ->
  subseq (map fst (senders s)) (senq s) /\ subseq (map fst (receivers s)) (renq s).
Proof. exact ms_waiters_served_fifo. Qed.
Print Assumptions C12_waiters_served_fifo.

Theorem C12_arrival_logs_append_only : forall s o,
  (exists l, senq (fst (step s o)) = senq s ++ l) /\ (exists l, renq (fst (step s o)) = renq s ++ l).
Proof. exact ms_arrival_logs_append_only. Qed.
Print Assumptions C12_arrival_logs_append_only.

Theorem C12_sender_served_is_head : forall s e y r,
  senders s = (e, y) :: r ->
  senders (rn_move s) = r /\ buffer (rn_move s) = buffer s ++ [y] /\ fut (rn_move s) e = ev_set (fut s e).
Proof. exact ms_sender_served_is_head. Qed.
Print Assumptions C12_sender_served_is_head.

Theorem C12_receiver_served_first_live : forall s,
  match pop_live s (receivers s) with
  | (Some (e, t), rest) =>
      exists pre, receivers s = pre ++ (e, t) :: rest /\ has_pending s t = false /\
                  (forall e' t', In (e', t') pre -> has_pending s t' = true)
  | (None, rest) => rest = [] /\ (forall e' t', In (e', t') (receivers s) -> has_pending s t' = true)
  end.
Proof. exact ms_receiver_served_first_live. Qed.
Print Assumptions C12_receiver_served_first_live.

(* buffer bound, at every reachable state; and the exact truth about the inside of receive_nowait *)
Theorem C12_buffer_bound : forall m s, reach m s -> xle (length (buffer s)) m.
Proof. exact ms_buffer_bound. Qed.
Print Assumptions C12_buffer_bound.

Theorem C12_buffer_transient : forall m s, reach m s ->
  xle (length (buffer (rn_move s))) (xsucc m) /\
  (forall h, xle (length (buffer (fst (recv_nowait s h)))) m).
Proof. exact ms_buffer_transient. Qed.
Print Assumptions C12_buffer_transient.

(* cancelling a blocked receive loses nothing, for every op sequence without a NATIVE Task.cancel() on a receiver
   whose slot has been filled (the AnyIO discipline, an explicit premise) *)
Theorem C12_cancel_receive_loses_nothing : forall m ops,
  disciplined (init m) ops ->
  let s := final step (init m) ops in
  lost s = [] /\
  (forall x, In x (acked s) -> In x (returned s ++ map snd (inflight s) ++ buffer s)) /\
  (forall t e, phase_of s t = RecvWait e -> snd (step s (Resume t)) = RCancelled ->
     slot s e = None /\
     let s' := fst (step s (Resume t)) in
     buffer s' = buffer s /\ senders s' = senders s /\ entered s' = entered s /\ handed s' = handed s /\
     returned s' = returned s /\ lost s' = [] /\ acked s' = acked s).
Proof. exact ms_cancel_receive_loses_nothing. Qed.
Print Assumptions C12_cancel_receive_loses_nothing.

Theorem C12_cancelled_receive_removes_nothing : forall s t e,
  phase_of s t = RecvWait e -> slot s e = None -> snd (step s (Resume t)) = RCancelled ->
  let s' := fst (step s (Resume t)) in
  buffer s' = buffer s /\ senders s' = senders s /\ entered s' = entered s /\ handed s' = handed s /\
  returned s' = returned s /\ lost s' = lost s.
Proof. exact ms_cancelled_receive_removes_nothing. Qed.
Print Assumptions C12_cancelled_receive_removes_nothing.

(* definitional (late_native_cancel only matches the native Cancel op): it documents the premise; the content
   is that the model's scope_cancel never touches a task whose waiter is done - a modelling fact about
   _deliver_cancellation validated by the correspondence runs with Send/scoped, Recv/scoped ops, not a clause *)
Theorem C12_scope_cancel_is_disciplined : forall s t, ~ late_native_cancel s (ScopeCancel t).
Proof. exact ms_scope_cancel_is_disciplined. Qed.
Print Assumptions C12_scope_cancel_is_disciplined.

(* documented scope (not a finding): a native Task.cancel() in the hand-over cycle does lose the item *)
Theorem C12_native_cancel_in_handover_cycle_loses_item :
  let s := final step (init (Fin 0)) ex_native in
  ~ disciplined (init (Fin 0)) ex_native /\
  acked s = [7] /\ lost s = [7] /\ returned s = [] /\ buffer s = [] /\ inflight s = [] /\
  snd (step (final step (init (Fin 0)) [Recv 1 1; Resume 1; SendNowait 2 0 7; Cancel 1]) (Resume 1)) = RCancelled.
Proof. exact ex_native_cancel_in_handover_cycle_loses_item. Qed.
Print Assumptions C12_native_cancel_in_handover_cycle_loses_item.

(* an interrupted send is delivered at most once *)
Theorem C12_interrupted_send_at_most_once : forall m s, reach m s ->
  NoDup (returned s) /\
  (forall x, In x (withdrawn s) ->
     ~ In x (returned s) /\ ~ In x (map snd (inflight s)) /\ ~ In x (buffer s) /\ ~ In x (map snd (senders s))).
Proof. exact ms_interrupted_send_at_most_once. Qed.
Print Assumptions C12_interrupted_send_at_most_once.

Theorem C12_interrupted_send_cases : forall m s t e x, reach m s -> phase_of s t = SendWait e x ->
  In (e, x) (senders s) \/ In x (handed s ++ buffer s).
Proof. exact ms_interrupted_send_cases. Qed.
Print Assumptions C12_interrupted_send_cases.


(* the skip rule of send_nowait is safe: a skipped receiver is (already) cancelled, never a silent hang *)
Theorem C12_skip_means_future_cancelled : forall m s e t, reach m s ->
  In (e, t) (receivers s) -> has_pending s t = true ->
  fut s e = FCancelled /\ snd (step s (Resume t)) = RCancelled.
Proof. exact ms_skip_means_future_cancelled. Qed.
Print Assumptions C12_skip_means_future_cancelled.

Theorem C12_skipped_receiver_is_cancelled : forall m s t e, reach m s ->
  phase_of s t = RecvWait e -> ~ In (e, t) (receivers s) -> slot s e = None -> open_send s > 0 ->
  (fut s e = FCancelled \/ mustc s t = true) /\ fut s e <> FPending /\
  snd (step s (Resume t)) = RCancelled.
Proof. exact ms_skipped_receiver_is_cancelled. Qed.
Print Assumptions C12_skipped_receiver_is_cancelled.

(* trace-level FIFO of the waiting queues, for every op sequence: an entry is served only when every entry that
   started waiting earlier has been served or withdrawn (senders), resp. is gone or is a cancelled entry dropped by
   the same send (receivers); and entries leave the queues in no other way *)
Theorem C12_sender_fifo_trace : forall m s e y r, reach m s ->
  senders s = (e, y) :: r ->
  forall pre post, senq s = pre ++ e :: post ->
  (forall e', In e' pre -> ~ In e' (map fst (senders s))) /\ subseq (map fst r) post.
Proof. exact ms_sender_fifo_trace. Qed.
Print Assumptions C12_sender_fifo_trace.

Theorem C12_sender_entries_leave : forall s o,
  let s' := fst (step s o) in
  senders s' = senders s \/
  (exists e x, senders s' = senders s ++ [(e, x)]) \/
  (exists e y, senders s = (e, y) :: senders s' /\
               ((exists t h, o = RecvNowait t h) \/ (exists t h, o = Resume t /\ phase_of s t = RecvCk h))) \/
  (exists t e x, o = Resume t /\ phase_of s t = SendWait e x /\ senders s' = del_key e (senders s)).
Proof. exact ms_sender_entries_leave. Qed.
Print Assumptions C12_sender_entries_leave.

Theorem C12_receiver_fifo_trace : forall m s e t rest, reach m s ->
  pop_live s (receivers s) = (Some (e, t), rest) ->
  forall pre post, renq s = pre ++ e :: post ->
  subseq (map fst rest) post /\
  forall e', In e' pre ->
    ~ In e' (map fst rest) /\
    (In e' (map fst (receivers s)) ->
       exists t', In (e', t') (receivers s) /\ has_pending s t' = true /\ fut s e' = FCancelled).
Proof. exact ms_receiver_fifo_trace. Qed.
Print Assumptions C12_receiver_fifo_trace.

Theorem C12_receiver_entries_leave : forall m s o, reach m s ->
  let s' := fst (step s o) in
  receivers s' = receivers s \/
  (exists e t, receivers s' = receivers s ++ [(e, t)]) \/
  (((exists t h x, o = SendNowait t h x) \/ (exists t h x, o = Resume t /\ phase_of s t = SendCk h x)) /\
   receivers s' = snd (pop_live s (receivers s))) \/
  (exists t e, o = Resume t /\ phase_of s t = RecvWait e /\ receivers s' = del_key e (receivers s)) \/
  (exists h, o = Close h /\ receivers s' = [] /\ open_send s' = 0).
Proof. exact ms_receiver_entries_leave. Qed.
Print Assumptions C12_receiver_entries_leave.

(* tie T: the methods of MemoryObjectSendStream / MemoryObjectReceiveStream regenerated from /repo's source by
   tools/translate_mem.py (MemGen.v) and interpreted by MemImp.exec ARE what the model does.  `runs s0 s' r h t kd p l0`
   (written out by C12_tie_runs_spec) = interpreting segment p for task t on stream object h from what s0 shows (buffer,
   open-channel counters, the two wait queues, receiver item slots, the waiter futures of the events, this object's
   _closed flag, has_pending_cancellation() as an oracle) yields exactly what s' shows, result r and t's phase; no other
   stream object and no other task's phase is touched.  Function-valued fields are compared pointwise.  send() and
   receive() are cut at `await checkpoint()` (entry) and at `await <event>.wait()`; `finish` is the kernel's side of a
   wake-up.  All other fields of st (nitem, entered, handed, returned, inflight, withdrawn, lost, acked, senq, renq) are
   history variables of the observer and are never read by the interpretation.  The clone/close/Broken/EndOfStream
   segments are exported in props/C13.v. *)
From AV Require Import MemImp MemGen MemGenEq.

Theorem C12_tie_send_nowait : forall s t h x,
  phase_of s t = Idle -> valid_h s h SSend = true -> Nat.ltb x (nitem s) = false ->
  runs s (fst (step s (SendNowait t h x))) (snd (step s (SendNowait t h x))) h t KPlain
       snd_send_nowait_entry (loc0 (Some x)).
Proof. exact tie_send_nowait. Qed.
Print Assumptions C12_tie_send_nowait.

Theorem C12_tie_recv_nowait : forall s t h,
  phase_of s t = Idle -> valid_h s h SRecv = true ->
  runs s (fst (step s (RecvNowait t h))) (snd (step s (RecvNowait t h))) h t KPlain
       rcv_receive_nowait_entry (loc0 None).
Proof. exact tie_recv_nowait. Qed.
Print Assumptions C12_tie_recv_nowait.

Theorem C12_tie_send_entry : forall s t h x,
  phase_of s t = Idle -> valid_h s h SSend = true -> Nat.ltb x (nitem s) = false ->
  runs s (fst (step s (Send t h x))) (snd (step s (Send t h x))) h t (KSend h x) snd_send_entry (loc0 (Some x)).
Proof. exact tie_send_entry. Qed.
Print Assumptions C12_tie_send_entry.

Theorem C12_tie_send_ck_cancelled : forall s t h x,
  phase_of s t = SendCk h x -> mustc s t = true ->
  runs (finish s t) (fst (step s (Resume t))) (snd (step s (Resume t))) h t (KSend h x)
       snd_send_ck_cancelled (loc_resume (Some x) None false (Some ECancelled)).
Proof. exact tie_send_ck_cancelled. Qed.
Print Assumptions C12_tie_send_ck_cancelled.

Theorem C12_tie_send_ck_resumed : forall s t h x,
  phase_of s t = SendCk h x -> mustc s t = false ->
  runs (finish s t) (fst (step s (Resume t))) (snd (step s (Resume t))) h t (KSend h x)
       snd_send_ck_resumed (loc_resume (Some x) None false None).
Proof. exact tie_send_ck_resumed. Qed.
Print Assumptions C12_tie_send_ck_resumed.

Theorem C12_tie_send_event_cancelled : forall s t e x,
  phase_of s t = SendWait e x ->
  fut s e = FCancelled \/ (fut s e = FSet /\ mustc s t = true) ->
  forall h, runs (finish s t) (fst (step s (Resume t))) (snd (step s (Resume t))) h t (KSend h x)
       snd_send_event_cancelled (loc_resume (Some x) (Some e) false (Some ECancelled)).
Proof. exact tie_send_event_cancelled. Qed.
Print Assumptions C12_tie_send_event_cancelled.

Theorem C12_tie_recv_entry : forall s t h,
  phase_of s t = Idle -> valid_h s h SRecv = true ->
  runs s (fst (step s (Recv t h))) (snd (step s (Recv t h))) h t (KRecv h) rcv_receive_entry (loc0 None).
Proof. exact tie_recv_entry. Qed.
Print Assumptions C12_tie_recv_entry.

Theorem C12_tie_recv_ck_cancelled : forall s t h,
  phase_of s t = RecvCk h -> mustc s t = true ->
  runs (finish s t) (fst (step s (Resume t))) (snd (step s (Resume t))) h t (KRecv h)
       rcv_receive_ck_cancelled (loc_resume None None false (Some ECancelled)).
Proof. exact tie_recv_ck_cancelled. Qed.
Print Assumptions C12_tie_recv_ck_cancelled.

Theorem C12_tie_recv_ck_resumed : forall s t h,
  phase_of s t = RecvCk h -> mustc s t = false ->
  runs (finish s t) (fst (step s (Resume t))) (snd (step s (Resume t))) h t (KRecv h)
       rcv_receive_ck_resumed (loc_resume None None false None).
Proof. exact tie_recv_ck_resumed. Qed.
Print Assumptions C12_tie_recv_ck_resumed.

Theorem C12_tie_recv_event_cancelled : forall s t e,
  phase_of s t = RecvWait e ->
  fut s e = FCancelled \/ (fut s e = FSet /\ mustc s t = true) ->
  forall h, runs (finish s t) (fst (step s (Resume t))) (snd (step s (Resume t))) h t (KRecv h)
       rcv_receive_event_cancelled (loc_resume None (Some e) true (Some ECancelled)).
Proof. exact tie_recv_event_cancelled. Qed.
Print Assumptions C12_tie_recv_event_cancelled.

Theorem C12_tie_recv_event_resumed : forall s t e,
  phase_of s t = RecvWait e -> fut s e = FSet -> mustc s t = false ->
  forall h, runs (finish s t) (fst (step s (Resume t))) (snd (step s (Resume t))) h t (KRecv h)
       rcv_receive_event_resumed (loc_resume None (Some e) true None).
Proof. exact tie_recv_event_resumed. Qed.
Print Assumptions C12_tie_recv_event_resumed.

Theorem C12_tie_runs_spec : forall s0 s' r h t kd p l0,
  runs s0 s' r h t kd p l0 <->
  (let '(l, k, o) := exec p t l0 (vis s0 h) in
   (maxb s' = m_maxb k /\ buffer s' = m_buffer k /\ open_send s' = m_osend k /\ open_recv s' = m_orecv k /\
    receivers s' = m_recvs k /\ senders s' = m_sends k /\ (forall e, slot s' e = m_slot k e) /\
    (forall e, fut s' e = m_fut k e) /\ nev s' = m_nev k /\ hclosed s' h = m_closed k /\
    (forall h', h' <> h -> h' <> nh s0 -> hclosed s' h' = hclosed s0 h') /\
    (forall h', h' <> nh s0 -> hside s' h' = hside s0 h')) /\
   res_of s0 o = Some r /\ phase_after kd l o = Some (phase_of s' t) /\
   (forall t', t' <> t -> phase_of s' t' = phase_of s0 t')).
Proof. exact runs_spec. Qed.
Print Assumptions C12_tie_runs_spec.

Theorem C12_tie_step_runs_generated : forall s o s0 h ot kd p l0,
  dispatch mem_prog s o = Some (s0, h, ot, kd, p, l0) ->
  runs_opt s0 (fst (step s o)) (snd (step s o)) h ot kd p l0.
Proof. exact step_runs_generated. Qed.
Print Assumptions C12_tie_step_runs_generated.

Theorem C12_tie_grun_iff_reach : forall m s,
  grun mem_prog m s <-> reach m s.
Proof. exact grun_iff_reach. Qed.
Print Assumptions C12_tie_grun_iff_reach.

Theorem C12_tie_gen_conservation : forall m s,
  grun mem_prog m s ->
  Permutation (entered s)
    (returned s ++ map snd (inflight s) ++ lost s ++ buffer s ++ map snd (senders s) ++ withdrawn s) /\
  NoDup (entered s) /\ NoDup (returned s) /\ (forall x, In x (returned s) -> In x (entered s)).
Proof. exact gen_conservation. Qed.
Print Assumptions C12_tie_gen_conservation.

Theorem C12_tie_gen_fifo : forall m s,
  grun mem_prog m s ->
  subseq (handed s ++ buffer s ++ map snd (senders s)) (entered s) /\ xle (length (buffer s)) m.
Proof. exact gen_fifo. Qed.
Print Assumptions C12_tie_gen_fifo.

Theorem C12_tie_gen_invariant : forall m s,
  grun mem_prog m s -> Inv s.
Proof. exact gen_invariant. Qed.
Print Assumptions C12_tie_gen_invariant.


(* non-vacuity of C12_sender_fifo_trace with a non-empty `pre`: two blocked senders, a receive in
   between; the instance of the theorem's conclusion is stated explicitly *)
Theorem C12_sender_fifo_trace_nonvacuous :
  let s := final step (init (Fin 0)) [Send 1 0 1; Resume 1; Send 2 0 2; Resume 2; RecvNowait 3 1] in
  reach (Fin 0) s /\ senders s = [(1, 2)] /\ senq s = [0] ++ 1 :: [] /\ returned s = [1] /\
  (forall e', In e' [0] -> ~ In e' (map fst (senders s))) /\ subseq (map fst (@nil (eid * item))) (@nil eid).
Proof. exact ex_sender_fifo_trace_nonempty_pre. Qed.
Print Assumptions C12_sender_fifo_trace_nonvacuous.

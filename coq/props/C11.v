(* C11 - Event and Condition: no early, spurious or lost wake-ups.
   This file contains statements closed by `exact`, their Print Assumptions, and the two definitions that state the F18
   clause.  Vocabulary (prims/EventCond.v, prims/EventCondThms.v):
   `ereach s` / `creach fa s` = s is reached from the initial state by SOME op sequence.  For conditions the
   alphabet is: acquire / acquire_nowait / release / notify n / notify_all / wait on ANY condition `c` built on the
   one shared lock, lock.acquire / acquire_nowait / release directly on that lock, resumptions, native
   Task.cancel() and AnyIO scope cancellation of blocked tasks - all tasks, all interleavings of atomic segments.
   `In t (held (lk s))` = an acquire (any route) returned to t and t has not released (any route) since.
   `creach_clean fa s` = additionally no NATIVE Task.cancel() landed inside wait()'s shielded re-acquire
   (documented scope: AnyIO cancellation cannot do that).
   `no_late_handover s0 ops` = no step of `ops` hands a notification over to a waiter that began to wait after the
   notify call that issued it (known finding F18, refuted without the hypothesis below).
   Quantification: one event loop.  Observation (not a C11 clause): an Event whose wait() was started in one event
   loop cannot be waited on in a second `anyio.run` (the backend asyncio.Event is bound to the first loop). *)
From AV Require Import Base Lock LockProofs EventCond EventCondProofs EventCondThms.

Theorem C11_event_wait_after_set : forall s o t s',
  ereach s -> (o = EvWait t \/ o = EvResume t) -> estep s o = (s', RDone) ->
  o = EvResume t /\ ephase_of s t <> EIdle /\ eflag s = true /\ 0 < esets s.
Proof. exact event_wait_after_set. Qed.
Print Assumptions C11_event_wait_after_set.

Theorem C11_event_set_releases_all_present : forall s u s',
  ereach s -> estep s (EvSet u) = (s', RDone) ->
  eflag s' = true /\
  forall t, ephase_of s t <> EIdle ->
    ephase_of s' t = ephase_of s t /\ emustc s' t = emustc s t /\
    snd (estep s' (EvResume t)) <> RRejected /\
    (emustc s t = false -> (forall f, ephase_of s t = EWaiting f -> efuts s f <> FCancelled) ->
     snd (estep s' (EvResume t)) = RDone).
Proof. exact event_set_releases_all_present. Qed.
Print Assumptions C11_event_set_releases_all_present.

Theorem C11_event_no_waiter_left_behind : forall s t,
  ereach s -> eflag s = true -> ephase_of s t <> EIdle ->
  snd (estep s (EvResume t)) <> RRejected /\
  (emustc s t = false -> (forall f, ephase_of s t = EWaiting f -> efuts s f <> FCancelled) ->
   snd (estep s (EvResume t)) = RDone).
Proof. exact event_no_waiter_left_behind. Qed.
Print Assumptions C11_event_no_waiter_left_behind.

Theorem C11_event_stays_set : forall s ops, eflag s = true -> eflag (final estep s ops) = true.
Proof. exact event_stays_set_forever. Qed.
Print Assumptions C11_event_stays_set.

Theorem C11_event_no_spurious_wakeup : forall s t,
  ereach s -> eflag s = false -> ephase_of s t <> EIdle ->
  snd (estep s (EvResume t)) = RRejected \/ snd (estep s (EvResume t)) = RCancelled.
Proof. exact event_no_spurious_wakeup. Qed.
Print Assumptions C11_event_no_spurious_wakeup.

(* Conditions on a shared lock *)
Theorem C11_cond_wait_returns_notified_and_holding : forall fa s t s',
  creach fa s -> (exists c e, cphase_of s t = PWait c e \/ exists x, cphase_of s t = PReacq c e x) ->
  cstep s (CResume t) = (s', RDone) ->
  (exists c e, (cphase_of s t = PWait c e \/ cphase_of s t = PReacq c e false) /\
               eset s e = true /\ In e (setlog s) /\ In e (inflight s)) /\
  In t (held (lk s')) /\ owner (lk s') = Some t /\ cphase_of s' t = PIdle /\
  consumed s' = S (consumed s).
Proof. exact cond_wait_returns_notified_and_holding. Qed.
Print Assumptions C11_cond_wait_returns_notified_and_holding.

Theorem C11_cond_wait_ends_holding_clean : forall fa s t s' res,
  creach_clean fa s -> (exists c e, cphase_of s t = PWait c e \/ exists x, cphase_of s t = PReacq c e x) ->
  cstep s (CResume t) = (s', res) -> res <> RRejected -> res <> RBlocked ->
  (res = RDone \/ res = RCancelled) /\
  In t (held (lk s')) /\ owner (lk s') = Some t /\ cphase_of s' t = PIdle /\
  lost s' = lost s.
Proof. exact cond_wait_ends_holding_clean. Qed.
Print Assumptions C11_cond_wait_ends_holding_clean.

Theorem C11_cond_notify_at_most_n_fifo : forall fa s c t n s',
  creach fa s -> cstep s (CNotify c t n) = (s', RDone) ->
  let k := Nat.min n (length (cwaiters s c)) in
  let woken := firstn k (cwaiters s c) in
  length woken = k /\ k <= n /\
  cwaiters s c = woken ++ cwaiters s' c /\ subseq (cwaiters s c) (cenq s) /\
  (forall c', c' <> c -> cwaiters s' c' = cwaiters s c') /\
  setlog s' = setlog s ++ woken /\
  (forall e, eset s' e = true <-> eset s e = true \/ In e woken) /\
  (forall e, In e woken -> efut s' e = resolved (efut s e)) /\
  (forall e, ~ In e woken -> efut s' e = efut s e) /\
  issued s' = issued s + k /\
  lk s' = lk s /\ cphase_of s' = cphase_of s.
Proof. exact cond_notify_at_most_n_fifo. Qed.
Print Assumptions C11_cond_notify_at_most_n_fifo.

Theorem C11_cond_notify_all_wakes_everyone : forall fa s c t s',
  creach fa s -> cstep s (CNotifyAll c t) = (s', RDone) ->
  cwaiters s' c = [] /\ (forall c', c' <> c -> cwaiters s' c' = cwaiters s c') /\
  setlog s' = setlog s ++ cwaiters s c /\
  (forall e, eset s' e = true <-> eset s e = true \/ In e (cwaiters s c)) /\
  (forall e, In e (cwaiters s c) -> efut s' e = resolved (efut s e)) /\
  (forall e, ~ In e (cwaiters s c) -> efut s' e = efut s e) /\
  issued s' = issued s + length (cwaiters s c) /\ lk s' = lk s /\ cphase_of s' = cphase_of s.
Proof. exact cond_notify_all_wakes_everyone. Qed.
Print Assumptions C11_cond_notify_all_wakes_everyone.

Theorem C11_cond_notification_passed_on : forall fa s t c e h q s' res,
  creach fa s -> cphase_of s t = PWait c e -> eset s e = true ->
  (efut s e = FCancelled \/ mustc (lk s) t = true) ->
  cwaiters s c = h :: q ->
  cstep s (CResume t) = (s', res) ->
  res <> RDone /\
  cwaiters s' c = q /\ (forall c', c' <> c -> cwaiters s' c' = cwaiters s c') /\
  eset s' h = true /\ efut s' h = resolved (efut s h) /\ setlog s' = setlog s ++ [h] /\
  horizon s' h = horizon s e /\
  (exists th, th <> t /\ cphase_of s th = PWait c h /\ cphase_of s' th = PWait c h) /\
  In h (inflight s') /\ ~ In e (inflight s') /\ length (inflight s') = length (inflight s) /\
  issued s' = issued s /\ consumed s' = consumed s /\ dropped s' = dropped s /\ lost s' = lost s.
Proof. exact cond_notification_passed_on. Qed.
Print Assumptions C11_cond_notification_passed_on.

Theorem C11_cond_notification_passed_on_to_nobody : forall fa s t c e s' res,
  creach fa s -> cphase_of s t = PWait c e -> eset s e = true ->
  (efut s e = FCancelled \/ mustc (lk s) t = true) -> cwaiters s c = [] ->
  cstep s (CResume t) = (s', res) ->
  res <> RDone /\ cwaiters s' = cwaiters s /\ dropped s' = S (dropped s) /\
  S (length (inflight s')) = length (inflight s) /\
  issued s' = issued s /\ consumed s' = consumed s /\ lost s' = lost s.
Proof. exact cond_notification_passed_on_to_nobody. Qed.
Print Assumptions C11_cond_notification_passed_on_to_nobody.

Theorem C11_cond_notifications_conserved : forall fa s,
  creach fa s -> issued s = consumed s + length (inflight s) + dropped s + lost s.
Proof. exact cond_notifications_conserved. Qed.
Print Assumptions C11_cond_notifications_conserved.

Theorem C11_cond_inflight_characterised : forall fa s e,
  creach fa s ->
  (In e (inflight s) <->
   eset s e = true /\ exists t c, cphase_of s t = PWait c e \/ cphase_of s t = PReacq c e false).
Proof. exact cond_inflight_characterised. Qed.
Print Assumptions C11_cond_inflight_characterised.

Theorem C11_cond_nothing_lost_clean : forall fa s,
  creach_clean fa s -> lost s = 0 /\ issued s = consumed s + length (inflight s) + dropped s.
Proof. exact cond_nothing_lost_clean. Qed.
Print Assumptions C11_cond_nothing_lost_clean.

Theorem C11_cond_queue_has_live_waiters : forall fa s c e,
  creach fa s -> In e (cwaiters s c) ->
  eset s e = false /\ efut s e <> FSet /\ exists t, cphase_of s t = PWait c e.
Proof. exact cond_queue_has_live_waiters. Qed.
Print Assumptions C11_cond_queue_has_live_waiters.

Theorem C11_cond_waiter_runnable_iff_notified_or_cancelled : forall fa s t c e,
  creach fa s -> cphase_of s t = PWait c e ->
  (eset s e = true -> efut s e <> FPending /\ snd (cstep s (CResume t)) <> RRejected) /\
  (eset s e = false -> In e (cwaiters s c) /\
     (efut s e = FPending /\ snd (cstep s (CResume t)) = RRejected \/
      efut s e = FCancelled /\ snd (cstep s (CResume t)) <> RDone)).
Proof. exact cond_waiter_runnable_iff_notified_or_cancelled. Qed.
Print Assumptions C11_cond_waiter_runnable_iff_notified_or_cancelled.

(* holder test: both directions, every condition of the lock, every way of taking / giving up the lock *)
Theorem C11_cond_requires_holder : forall fa s c t,
  creach fa s -> cphase_of s t = PIdle -> ~ In t (held (lk s)) ->
  cstep s (CWait c t) = (s, RRuntime) /\ (forall n, cstep s (CNotify c t n) = (s, RRuntime)) /\
  cstep s (CNotifyAll c t) = (s, RRuntime).
Proof. exact cond_requires_holder. Qed.
Print Assumptions C11_cond_requires_holder.

Theorem C11_cond_holder_accepted : forall fa s c t n,
  creach fa s -> In t (held (lk s)) ->
  snd (cstep s (CNotify c t n)) = RDone /\ snd (cstep s (CNotifyAll c t)) = RDone /\
  snd (cstep s (CWait c t)) = RBlocked /\
  cwaiters (fst (cstep s (CWait c t))) c = cwaiters s c ++ [nev s] /\
  cphase_of (fst (cstep s (CWait c t))) t = PWait c (nev s) /\
  ~ In t (held (lk (fst (cstep s (CWait c t))))).
Proof. exact cond_holder_accepted. Qed.
Print Assumptions C11_cond_holder_accepted.

Theorem C11_cond_refused_iff_not_holder : forall fa s c t n,
  creach fa s -> cphase_of s t = PIdle ->
  (snd (cstep s (CWait c t)) = RRuntime <-> ~ In t (held (lk s))) /\
  (snd (cstep s (CNotify c t n)) = RRuntime <-> ~ In t (held (lk s))) /\
  (snd (cstep s (CNotifyAll c t)) = RRuntime <-> ~ In t (held (lk s))).
Proof. exact cond_refused_iff_not_holder. Qed.
Print Assumptions C11_cond_refused_iff_not_holder.

Theorem C11_cond_holder_is_lock_owner : forall fa s t,
  creach fa s -> cphase_of s t = PIdle -> (In t (held (lk s)) <-> owner (lk s) = Some t).
Proof. exact cond_holder_is_lock_owner. Qed.
Print Assumptions C11_cond_holder_is_lock_owner.

(* the combined invariant (the shared lock's C09 invariant, its agreement with the task phases, the event side) holds in
   every reachable state of the extended alphabet *)
Theorem C11_cond_invariant : forall fa ops, CInv (final cstep (cinit fa 0) ops).
Proof. exact creachable_inv. Qed.
Print Assumptions C11_cond_invariant.

(* F17 / F7 on the old trees (private owner copy): clause `requires_holder` fails both ways *)
Theorem C11_cond_holder_refused_refuted_pinned :
  exists fa ops t,
    let s := final cstep (cinit fa 1) ops in
    cphase_of s t = PIdle /\ In t (held (lk s)) /\ owner (lk s) = Some t /\
    cstep s (CNotify 0 t 1) = (s, RRuntime) /\ cstep s (CNotifyAll 0 t) = (s, RRuntime) /\
    cstep s (CWait 0 t) = (s, RRuntime) /\
    exists ops', let s1 := final cstep (cinit fa 1) ops' in
      In t (held (lk s1)) /\ snd (cstep s1 (CNotify 1 t 1)) = RDone /\ snd (cstep s1 (CNotify 0 t 1)) = RRuntime.
Proof. exact cond_holder_refused_refuted_pinned. Qed.
Print Assumptions C11_cond_holder_refused_refuted_pinned.

Theorem C11_cond_requires_holder_refuted_pinned :
  (let s := final cstep (cinit false 1) [CAcquire 0 1; CResume 1; LRelease 1] in
   cphase_of s 1 = PIdle /\ ~ In 1 (held (lk s)) /\ owner (lk s) = None /\
   snd (cstep s (CNotify 0 1 1)) = RDone /\ snd (cstep s (CNotifyAll 0 1)) = RDone /\
   snd (cstep s (CWait 0 1)) = RRuntime /\ cwaiters (fst (cstep s (CWait 0 1))) 0 = [0] /\
   let s2 := final cstep (fst (cstep s (CWait 0 1)))
               [CAcquire 0 2; CResume 2; CWait 0 2; CAcquire 0 3; CResume 3; CNotify 0 3 1] in
   cphase_of s2 2 = PWait 0 1 /\ issued s2 = 1 /\ consumed s2 = 0 /\
   setlog s2 = [0] /\ cphase_of s2 1 = PIdle /\
   eset s2 1 = false /\ efut s2 1 = FPending /\ cwaiters s2 0 = [1] /\
   snd (cstep s2 (CResume 2)) = RRejected) /\
  (let s := final cstep (cinit false 2) [CAcquire 0 1; CResume 1; CRelease 0 1] in
   cphase_of s 1 = PIdle /\ ~ In 1 (held (lk s)) /\ owner (lk s) = None /\
   snd (cstep s (CNotify 0 1 1)) = RDone /\ snd (cstep s (CNotifyAll 0 1)) = RDone /\
   snd (cstep s (CWait 0 1)) = RRuntime /\ cwaiters (fst (cstep s (CWait 0 1))) 0 = [0] /\
   let s2 := final cstep (fst (cstep s (CWait 0 1)))
               [CAcquire 0 2; CResume 2; CWait 0 2; CAcquire 0 3; CResume 3; CNotify 0 3 1] in
   cphase_of s2 2 = PWait 0 1 /\ issued s2 = 1 /\ consumed s2 = 0 /\
   setlog s2 = [0] /\ cphase_of s2 1 = PIdle /\
   eset s2 1 = false /\ efut s2 1 = FPending /\ cwaiters s2 0 = [1] /\
   snd (cstep s2 (CResume 2)) = RRejected).
Proof. exact cond_requires_holder_refuted_pinned. Qed.
Print Assumptions C11_cond_requires_holder_refuted_pinned.

(* known finding F18: "wait() returns only if a notify issued at or after its start selected it" *)
(* the strong clause, for one op sequence and for all *)
Definition C11_notified_only_for (fa : bool) (ops : list cop) : Prop :=
  forall t s',
    let s := final cstep (cinit fa 0) ops in
    (exists c e, cphase_of s t = PWait c e \/ exists x, cphase_of s t = PReacq c e x) ->
    cstep s (CResume t) = (s', RDone) ->
    exists c e, (cphase_of s t = PWait c e \/ cphase_of s t = PReacq c e false) /\
                eset s e = true /\ e < horizon s e /\ In (horizon s e) (nlog s).

Definition C11_notified_only_full : Prop := forall fa ops, C11_notified_only_for fa ops.

Theorem C11_notified_only_no_late_handover : forall fa ops,
  no_late_handover (cinit fa 0) ops = true -> C11_notified_only_for fa ops.
Proof. exact cond_notified_only_no_late_handover. Qed.
Print Assumptions C11_notified_only_no_late_handover.

Theorem C11_late_handover_refuted :
  exists fa ops t s',
    let s := final cstep (cinit fa 0) ops in
    no_late_handover (cinit fa 0) ops = false /\ clean_run (cinit fa 0) ops = true /\
    cphase_of s t = PReacq 0 1 false /\ cstep s (CResume t) = (s', RDone) /\
    nlog s = [1] /\ horizon s 1 = 1 /\ In t (held (lk s')) /\ consumed s' = 1.
Proof. exact cond_late_handover_refuted. Qed.
Print Assumptions C11_late_handover_refuted.

Theorem C11_notified_only_full_refuted : ~ C11_notified_only_full.
Proof. exact cond_notified_only_full_refuted. Qed.
Print Assumptions C11_notified_only_full_refuted.

(* tie T: the segments of class Event (asyncio backend) and class Condition regenerated from /repo's source by
   tools/translate_cond.py (CondGen.v) and interpreted by CondImp.eexec / CondImp.exec ARE what the models do.
   Event: exact equality with estep (the inner asyncio.Event is the stdlib model; `ewoken` is asyncio's side of a
   wake-up).  Condition (variant 0 = HEAD): `runs s0 s' r c t p l0` (written out by C11_tie_runs_spec) = interpreting
   segment p for task t as condition c from what s0 shows (the shared Lock machine, this condition's queue, the flags
   and futures of the one-shot events) yields exactly what s' shows, result r and t's phase; other conditions' queues
   and other tasks' phases untouched.  Function-valued fields are compared pointwise.  All other fields of cst
   (cenq, setlog, inflight, horizon, nlog, issued, consumed, dropped, lost, owner_rec) are history variables of the
   observer, not state of the objects, and are never read by the interpretation.  Calls into the shared lock go through
   Lock.step, whose code is tied by C09_tie_*. *)
From AV Require Import CondImp CondGen CondGenEq.

Theorem C11_tie_event_set : forall s t,
  ephase_of s t = EIdle ->
  estep s (EvSet t) = (fst (eexec ev_set_entry t None s), eres (snd (eexec ev_set_entry t None s))).
Proof. exact tie_event_set. Qed.
Print Assumptions C11_tie_event_set.

Theorem C11_tie_event_wait_entry : forall s t,
  ephase_of s t = EIdle ->
  estep s (EvWait t) = (fst (eexec ev_wait_entry t None s), eres (snd (eexec ev_wait_entry t None s))).
Proof. exact tie_event_wait_entry. Qed.
Print Assumptions C11_tie_event_wait_entry.

Theorem C11_tie_event_wait_checkpoint : forall s t,
  ephase_of s t = EYield ->
  estep s (EvResume t) =
  (if emustc s t
   then (fst (eexec ev_wait_checkpoint_cancelled t (Some ECancelled) (ewoken s t)),
         eres (snd (eexec ev_wait_checkpoint_cancelled t (Some ECancelled) (ewoken s t))))
   else (fst (eexec ev_wait_checkpoint_resumed t None (ewoken s t)),
         eres (snd (eexec ev_wait_checkpoint_resumed t None (ewoken s t))))).
Proof. exact tie_event_wait_checkpoint. Qed.
Print Assumptions C11_tie_event_wait_checkpoint.

Theorem C11_tie_event_wait_inner : forall s t f,
  ephase_of s t = EWaiting f -> efuts s f <> FPending ->
  estep s (EvResume t) =
  (if match efuts s f with FSet => emustc s t | _ => true end
   then (fst (eexec ev_wait_inner_cancelled t (Some ECancelled) (ewoken s t)),
         eres (snd (eexec ev_wait_inner_cancelled t (Some ECancelled) (ewoken s t))))
   else (fst (eexec ev_wait_inner_resumed t None (ewoken s t)),
         eres (snd (eexec ev_wait_inner_resumed t None (ewoken s t))))).
Proof. exact tie_event_wait_inner. Qed.
Print Assumptions C11_tie_event_wait_inner.

Theorem C11_tie_event_is_set : forall s,
  eeval ev_is_set_cond s = Some (eflag s).
Proof. exact tie_event_is_set. Qed.
Print Assumptions C11_tie_event_is_set.

Theorem C11_tie_egstep_eq_estep : forall s o,
  egstep event_prog s o = estep s o.
Proof. exact egstep_eq_estep. Qed.
Print Assumptions C11_tie_egstep_eq_estep.

Theorem C11_tie_cond_acquire_entry : forall s c t,
  cphase_of s t = PIdle -> phase_of (lk s) t = Idle ->
  runs s (fst (cstep s (CAcquire c t))) (snd (cstep s (CAcquire c t))) c t cond_acquire_entry (loc_entry 0).
Proof. exact tie_cond_acquire_entry. Qed.
Print Assumptions C11_tie_cond_acquire_entry.

Theorem C11_tie_cond_acquire_resume : forall s c t,
  cphase_of s t = PAcq (Some c) ->
  let r := snd (Lock.step (lk s) (Resume t)) in
  let s0 := with_lk s (fst (Lock.step (lk s) (Resume t))) in
  r <> RRejected ->
  runs s0 (fst (cstep s (CResume t))) (snd (cstep s (CResume t))) c t
       (if match r with RDone => true | _ => false end then cond_acquire_lock_resumed else cond_acquire_lock_cancelled)
       (loc_resume None (exn_of r)).
Proof. exact tie_cond_acquire_resume. Qed.
Print Assumptions C11_tie_cond_acquire_resume.

Theorem C11_tie_cond_acquire_nowait : forall s c t,
  cphase_of s t = PIdle -> phase_of (lk s) t = Idle ->
  runs s (fst (cstep s (CAcqNowait c t))) (snd (cstep s (CAcqNowait c t))) c t cond_acquire_nowait_entry (loc_entry 0).
Proof. exact tie_cond_acquire_nowait. Qed.
Print Assumptions C11_tie_cond_acquire_nowait.

Theorem C11_tie_cond_release : forall s c t,
  cphase_of s t = PIdle -> phase_of (lk s) t = Idle ->
  runs s (fst (cstep s (CRelease c t))) (snd (cstep s (CRelease c t))) c t cond_release_entry (loc_entry 0).
Proof. exact tie_cond_release. Qed.
Print Assumptions C11_tie_cond_release.

Theorem C11_tie_cond_notify : forall s c t n,
  variant s = 0 -> cphase_of s t = PIdle ->
  runs s (fst (cstep s (CNotify c t n))) (snd (cstep s (CNotify c t n))) c t cond_notify_entry (loc_entry n).
Proof. exact tie_cond_notify. Qed.
Print Assumptions C11_tie_cond_notify.

Theorem C11_tie_cond_notify_all : forall s c t,
  variant s = 0 -> cphase_of s t = PIdle ->
  runs s (fst (cstep s (CNotifyAll c t))) (snd (cstep s (CNotifyAll c t))) c t cond_notify_all_entry (loc_entry 0).
Proof. exact tie_cond_notify_all. Qed.
Print Assumptions C11_tie_cond_notify_all.

Theorem C11_tie_cond_wait_entry : forall s c t,
  variant s = 0 -> cphase_of s t = PIdle -> phase_of (lk s) t = Idle ->
  runs s (fst (cstep s (CWait c t))) (snd (cstep s (CWait c t))) c t cond_wait_entry (loc_entry 0).
Proof. exact tie_cond_wait_entry. Qed.
Print Assumptions C11_tie_cond_wait_entry.

Theorem C11_tie_cond_wait_event_resumed : forall s c e t,
  cphase_of s t = PWait c e -> phase_of (lk s) t = Idle ->
  efut s e = FSet -> mustc (lk s) t = false ->
  let s0 := with_lk s (set_mustc (lk s) t false) in
  runs s0 (fst (cstep s (CResume t))) (snd (cstep s (CResume t))) c t cond_wait_event_resumed
       (loc_resume (Some e) None).
Proof. exact tie_cond_wait_event_resumed. Qed.
Print Assumptions C11_tie_cond_wait_event_resumed.

Theorem C11_tie_cond_wait_event_cancelled : forall s c e t,
  cphase_of s t = PWait c e -> phase_of (lk s) t = Idle ->
  efut s e = FCancelled \/ (efut s e = FSet /\ mustc (lk s) t = true) ->
  let s0 := with_lk s (set_mustc (lk s) t false) in
  runs s0 (fst (cstep s (CResume t))) (snd (cstep s (CResume t))) c t cond_wait_event_cancelled
       (loc_resume (Some e) (Some ECancelled)).
Proof. exact tie_cond_wait_event_cancelled. Qed.
Print Assumptions C11_tie_cond_wait_event_cancelled.

Theorem C11_tie_cond_wait_reacq_resume : forall s c e exc t,
  cphase_of s t = PReacq c e exc ->
  let r := snd (Lock.step (lk s) (Resume t)) in
  let s0 := with_lk s (fst (Lock.step (lk s) (Resume t))) in
  r <> RRejected ->
  runs s0 (fst (cstep s (CResume t))) (snd (cstep s (CResume t))) c t
       (match exc, r with
        | false, RDone => cond_wait_reacq_resumed
        | false, _ => cond_wait_reacq_cancelled
        | true, RDone => cond_wait_reacq_exc_resumed
        | true, _ => cond_wait_reacq_exc_cancelled
        end)
       (loc_resume (Some e) (exn_of r)).
Proof. exact tie_cond_wait_reacq_resume. Qed.
Print Assumptions C11_tie_cond_wait_reacq_resume.

Theorem C11_tie_cond_locked : forall s c t,
  eval_cond cond_locked_cond t (loc_entry 0) (vis s c) =
  Some (match owner (lk s) with Some _ => true | None => false end).
Proof. exact tie_cond_locked. Qed.
Print Assumptions C11_tie_cond_locked.

Theorem C11_tie_cond_wait_cancelled_entry_noeffect : forall s c t,
  exists l, exec cond_wait_entry t loc_entry_cancelled (vis s c) = (l, vis s c, OCancelled).
Proof. exact cond_wait_cancelled_entry_noeffect. Qed.
Print Assumptions C11_tie_cond_wait_cancelled_entry_noeffect.

Theorem C11_tie_runs_spec : forall s0 s' r c t p l0,
  runs s0 s' r c t p l0 <->
  (let '(l, k, o) := exec p t l0 (vis s0 c) in
   (lk s' = k_lk k /\ cwaiters s' c = k_cw k /\ (forall e, eset s' e = k_eset k e) /\
    (forall e, efut s' e = k_efut k e) /\ nev s' = k_nev k /\
    (forall c', c' <> c -> cwaiters s' c' = cwaiters s0 c') /\ variant s' = variant s0) /\
   res_of o = Some r /\ phase_after c l o = Some (cphase_of s' t) /\
   (forall t', t' <> t -> cphase_of s' t' = cphase_of s0 t')).
Proof. exact runs_spec. Qed.
Print Assumptions C11_tie_runs_spec.

Theorem C11_tie_cstep_runs_generated : forall s o s0 c t p l0,
  variant s = 0 ->
  (forall t, cphase_of s t = PIdle \/ (exists c e, cphase_of s t = PWait c e) -> phase_of (lk s) t = Idle) ->
  dispatch cond_prog s o = Some (s0, c, t, p, l0) -> snd (cstep s o) <> RRejected ->
  runs s0 (fst (cstep s o)) (snd (cstep s o)) c t p l0.
Proof. exact cstep_runs_generated. Qed.
Print Assumptions C11_tie_cstep_runs_generated.

Theorem C11_tie_grun_iff_creach : forall fa s,
  grun cond_prog fa s <-> creach fa s.
Proof. exact grun_iff_creach. Qed.
Print Assumptions C11_tie_grun_iff_creach.

Theorem C11_tie_gen_notifications_conserved : forall fa s,
  grun cond_prog fa s ->
  issued s = consumed s + length (inflight s) + dropped s + lost s.
Proof. exact gen_notifications_conserved. Qed.
Print Assumptions C11_tie_gen_notifications_conserved.

Theorem C11_tie_gen_queue_has_live_waiters : forall fa s c e,
  grun cond_prog fa s -> In e (cwaiters s c) ->
  eset s e = false /\ efut s e <> FSet /\ exists t, cphase_of s t = PWait c e.
Proof. exact gen_queue_has_live_waiters. Qed.
Print Assumptions C11_tie_gen_queue_has_live_waiters.

Theorem C11_tie_gen_refused_iff_not_holder : forall fa s c t n,
  grun cond_prog fa s -> cphase_of s t = PIdle ->
  (snd (cstep s (CWait c t)) = RRuntime <-> ~ In t (held (lk s))) /\
  (snd (cstep s (CNotify c t n)) = RRuntime <-> ~ In t (held (lk s))) /\
  (snd (cstep s (CNotifyAll c t)) = RRuntime <-> ~ In t (held (lk s))).
Proof. exact gen_refused_iff_not_holder. Qed.
Print Assumptions C11_tie_gen_refused_iff_not_holder.

Theorem C11_tie_gen_waiter_runnable_iff_notified_or_cancelled : forall fa s t c e,
  grun cond_prog fa s -> cphase_of s t = PWait c e ->
  (eset s e = true -> efut s e <> FPending /\ snd (cstep s (CResume t)) <> RRejected) /\
  (eset s e = false -> In e (cwaiters s c) /\
     (efut s e = FPending /\ snd (cstep s (CResume t)) = RRejected \/
      efut s e = FCancelled /\ snd (cstep s (CResume t)) <> RDone)).
Proof. exact gen_waiter_runnable_iff_notified_or_cancelled. Qed.
Print Assumptions C11_tie_gen_waiter_runnable_iff_notified_or_cancelled.

Theorem C11_tie_gen_invariant : forall fa s,
  grun cond_prog fa s -> CInv s.
Proof. exact gen_invariant. Qed.
Print Assumptions C11_tie_gen_invariant.


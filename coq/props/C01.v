(* C01 — Task group join: no child outlives its task group block.
   This file contains only statements closed by `exact` and their Print Assumptions.
   `reach s` = s is the state after some op list run from `init` (every program, every schedule). *)
From AV Require Import Base Machine GroupInv GroupThms GroupThms4 GroupThms5 GroupThms10 NativeAbsorbed.

(* the step at which __aexit__ of group g returns/raises (ghost flag g_left flips): every task ever spawned into g
   is done and its task_done callback has run — for EVERY op sequence *)
Theorem C01_group_exit_joins_all_step : forall s o g, reach s ->
  g_left (groups s g) = false -> g_left (groups (fst (step s o)) g) = true ->
  g_tasks (groups (fst (step s o)) g) = [] /\
  forall t, In t (g_ever (groups (fst (step s o)) g)) ->
    k_done (tasks (fst (step s o)) t) <> None /\ k_tdran (tasks (fst (step s o)) t) = true.
Proof. exact group_exit_joins_all_step. Qed.
Print Assumptions C01_group_exit_joins_all_step.

Theorem C01_empty_group_all_joined : forall s g, reach s -> g_tasks (groups s g) = [] ->
  forall t, In t (g_ever (groups s g)) -> k_done (tasks s t) <> None /\ k_tdran (tasks s t) = true.
Proof. exact empty_group_all_joined. Qed.
Print Assumptions C01_empty_group_all_joined.

Theorem C01_group_tasks_are_pending_members : forall s g t, reach s ->
  (In t (g_tasks (groups s g)) <-> In t (g_ever (groups s g)) /\ k_tdran (tasks s t) = false).
Proof. exact group_tasks_are_pending_members. Qed.
Print Assumptions C01_group_tasks_are_pending_members.

(* members are added only by an accepted spawn, i.e. while the group is entered and its cancel scope active *)
Theorem C01_group_members_grow_only_by_spawn : forall s o g, reach s ->
  g_ever (groups (fst (step s o)) g) <> g_ever (groups s g) ->
  (exists t, (o = ASpawn t g \/ o = AStart t g) /\ idle s t = true /\ group_active s g = true /\
             g_ever (groups (fst (step s o)) g) = g_ever (groups s g) ++ [ntask s]) \/
  (exists t, o = AGroupNew t /\ g = ngroup s).
Proof. exact group_members_grow_only_by_spawn. Qed.
Print Assumptions C01_group_members_grow_only_by_spawn.

Theorem C01_no_step_after_done : forall s t, reach s -> k_done (tasks s t) <> None ->
  k_ctl (tasks s t) = CDone /\ running s <> Some t /\ idle s t = false /\
  (forall h, In h (ready s) -> h <> HStep t /\ forall f, h <> HWake t f) /\
  (forall o, actor o = Some t -> step s o = (s, RRejected)).
Proof. exact no_step_after_done. Qed.
Print Assumptions C01_no_step_after_done.

(* done / task_done-ran / coroutine outcome are never retracted; group, handle scope, event, start future are fixed *)
Theorem C01_task_facts_stable : forall s o, reach s ->
  (ntask s <= ntask (fst (step s o)) /\ ngroup s <= ngroup (fst (step s o))) /\
  forall t, t < ntask s ->
    k_group (tasks (fst (step s o)) t) = k_group (tasks s t) /\
    k_hscope (tasks (fst (step s o)) t) = k_hscope (tasks s t) /\
    k_hevent (tasks (fst (step s o)) t) = k_hevent (tasks s t) /\
    k_startfut (tasks (fst (step s o)) t) = k_startfut (tasks s t) /\
    (forall x, k_done (tasks s t) = Some x -> k_done (tasks (fst (step s o)) t) = Some x) /\
    (k_tdran (tasks s t) = true -> k_tdran (tasks (fst (step s o)) t) = true) /\
    (forall x, k_final (tasks s t) = Some x -> k_final (tasks (fst (step s o)) t) = Some x).
Proof. exact task_facts_stable. Qed.
Print Assumptions C01_task_facts_stable.

Theorem C01_handle_outcome_faithful : forall s t o, reach s -> k_group (tasks s t) <> None ->
  k_final (tasks s t) = Some o ->
  e_set (events s (k_hevent (tasks s t))) = true /\
  match o with
  | ORet v => k_hret (tasks s t) = Some v /\ k_hexc (tasks s t) = None
  | OExc e => k_hexc (tasks s t) = Some e /\ k_hret (tasks s t) = None
  | OCanc _ => False
  end /\
  handle_status s (tasks s t) =
    match o with ORet _ => 3%Z | OExc e => if is_cancel e then 5%Z else 4%Z | OCanc _ => 5%Z end.
Proof. exact handle_outcome_faithful. Qed.
Print Assumptions C01_handle_outcome_faithful.

(* a done child has its finished event set, except when it was cancelled before its first step *)
Theorem C01_done_child_finished_or_never_started : forall s t, reach s -> k_group (tasks s t) <> None ->
  k_done (tasks s t) <> None ->
  (exists o, k_final (tasks s t) = Some o /\ e_set (events s (k_hevent (tasks s t))) = true) \/
  (k_final (tasks s t) = None /\ exists e, k_done (tasks s t) = Some (OCanc e)).
Proof. exact done_child_finished_or_never_started. Qed.
Print Assumptions C01_done_child_finished_or_never_started.

(* ---- state form, for op sequences that respect the `async with create_task_group()` discipline ----
   disciplined ops = every op satisfies GroupThms10.okop in the state in which it is issued:
   AEnter only on scopes that are not a task group's cancel_scope; AGroupEnter only on existing groups;
   AGroupExit t g only by the host of the group's active scope with that scope on top of t's scope stack.
   Every other op (spawn from anywhere, cancel anything, any schedule, native cancellation) is unrestricted.
   Without the discipline the statement is false: GroupThms7.group_exit_joins_all_refuted_*. *)
Theorem C01_group_exit_joins_all : forall ops g, disciplined ops = true ->
  g_left (groups (final step init ops) g) = true ->
  g_tasks (groups (final step init ops) g) = [] /\
  forall t, In t (g_ever (groups (final step init ops) g)) ->
    k_done (tasks (final step init ops) t) <> None /\ k_tdran (tasks (final step init ops) t) = true.
Proof. exact group_exit_joins_all_ops. Qed.
Print Assumptions C01_group_exit_joins_all.

Theorem C01_no_spawn_after_left : forall ops o g, disciplined ops = true ->
  g_left (groups (final step init ops) g) = true -> okop (final step init ops) o = true ->
  g_ever (groups (fst (step (final step init ops) o)) g) = g_ever (groups (final step init ops) g) /\
  g_left (groups (fst (step (final step init ops) o)) g) = true.
Proof. exact no_spawn_after_left_ops. Qed.
Print Assumptions C01_no_spawn_after_left.

Theorem C01_left_group_is_inactive : forall ops g, disciplined ops = true ->
  g_left (groups (final step init ops) g) = true -> group_active (final step init ops) g = false.
Proof. exact left_group_is_inactive_ops. Qed.
Print Assumptions C01_left_group_is_inactive.

(* ---- known finding F24: "every task handle reports a final status" is refuted for a child that never ran ----
   The join theorems above carry the explicit exception of a child natively cancelled (Task.cancel() by a third
   party) before its first step.  For that child the clause is false of the faithful model and of the code
   (corpus/C01/f24_*.json, replayed against the implementation on every run): TaskHandle._run_coro never starts, so
   after the block has been left the handle's finished event is still unset and no outcome is recorded. *)
Theorem C01_never_ran_handle_pending_refuted :
  let s := final step init f24_ops in
  g_left (groups s 1%nat) = true /\ k_ctl (tasks s 2%nat) = CDone /\
  e_set (events s (k_hevent (tasks s 2%nat))) = false /\ k_hexc (tasks s 2%nat) = None /\ k_hret (tasks s 2%nat) = None.
Proof. exact never_ran_handle_pending_witness. Qed.
Print Assumptions C01_never_ran_handle_pending_refuted.

(* C05 — leaving a cancel scope leaves no residue in the task or the loop.
   This file contains only statements closed by `exact` and their Print Assumptions.
   reach_ok2 s = s is reached from init by an op list of the generated domain (TreeStep.op_ok, see props/C03.v)
   in which explicit uncancel() is only used while the counter exceeds the debts of the task's own scopes
   (PotentialThms.unc_ok: the floor-free case).  phi s t = ncancel t - sum of _pending_uncancellations of the
   scopes hosted by t. *)
From Coq Require Import ZArith.
From AV Require Import Base Machine ScopeFrames TreeInv PotentialInv TreeStep PotentialThms CycleThms NativeAbsorbed
  DebtThms.
From AV Require Import ReceiptWalk NativeHonoured AuditWitness.

(* the three RuntimeError guards of __exit__: otherwise nothing changes *)
Theorem C05_scope_exit_guarded : forall s c t exc,
  ~ (s_active (scopes s c) = true /\ s_host (scopes s c) = Some t /\ k_cur (tasks s t) = Some c) ->
  scope_exit s c t exc = (s, XRaise ERuntime).
Proof. exact scope_exit_guarded. Qed.
Print Assumptions C05_scope_exit_guarded.

(* scope_ptr_restored + no_residual_timer: pointer, parent links, host, flags, timer of the scope *)
Theorem C05_scope_ptr_restored : forall s c t exc,
  s_active (scopes s c) = true -> s_host (scopes s c) = Some t -> k_cur (tasks s t) = Some c ->
  let s' := fst (scope_exit s c t exc) in
  k_cur (tasks s' t) = s_parent (scopes s c) /\
  s_host (scopes s' c) = None /\ s_active (scopes s' c) = false /\ s_timeout (scopes s' c) = None /\
  (forall p, s_parent (scopes s c) = Some p ->
     ~ In c (s_children (scopes s' p)) /\ In t (s_tasks (scopes s' p))) /\
  (s_parent (scopes s c) <> Some c -> ~ In t (s_tasks (scopes s' c))) /\
  (forall tm, s_timeout (scopes s c) = Some tm ->
     (forall x, In x (timers s') -> tm_id x <> tm) /\
     (forall h, In h (ready s') -> is_timer_handle tm h = false)).
Proof. exact scope_ptr_restored. Qed.
Print Assumptions C05_scope_ptr_restored.

(* I5, first half: the counter never falls below the task's own debts; an unhosted scope owes nothing *)
Theorem C05_potential_nonneg : forall s, reach_ok2 s ->
  (forall t, pending_of s t <= k_ncancel (tasks s t)) /\
  (forall c, s_host (scopes s c) = None -> s_pending (scopes s c) = 0).
Proof. exact potential_nonneg. Qed.
Print Assumptions C05_potential_nonneg.

(* I5: own cancellations are compensated.  One op changes phi t only as follows: a native cancel of a live
   task adds 1, an explicit uncancel subtracts 1, every other op can only add requests coming from scopes hosted
   by other tasks (never for a task that is not a group child) *)
Theorem C05_own_cancels_compensated : forall s o t,
  reach_ok2 s -> op_ok s o = true -> unc_ok s o = true -> alloc_t s t ->
  let s' := fst (step s o) in
  match o with
  | ANativeCancel t0 =>
      phi s' t = (if Nat.eqb t t0 then (if k_done (tasks s t0) then phi s t else phi s t + 1) else phi s t)%Z
  | AUncancel t0 =>
      phi s' t = (if Nat.eqb t t0 && idle s t0 then phi s t - 1 else phi s t)%Z
  | _ => (phi s t <= phi s' t)%Z /\ (k_group (tasks s t) = None -> phi s' t = phi s t)
  end.
Proof. exact own_cancels_compensated. Qed.
Print Assumptions C05_own_cancels_compensated.

(* cancelling_restored: along any run, for a task that is not a group child, phi moves only by native cancels
   and explicit uncancels, whatever scopes were entered, cancelled, re-delivered and left in between *)
Theorem C05_cancelling_restored : forall ops s t,
  reach_ok2 s -> ops_ok2 s ops = true -> alloc_t s t -> k_group (tasks s t) = None ->
  phi (final step s ops) t = (phi s t + ext_count s ops t)%Z.
Proof. exact cancelling_restored. Qed.
Print Assumptions C05_cancelling_restored.

Theorem C05_cancelling_restored_counter : forall ops s t,
  reach_ok2 s -> ops_ok2 s ops = true -> alloc_t s t -> k_group (tasks s t) = None ->
  pending_of s t = 0 -> pending_of (final step s ops) t = 0 ->
  Z.of_nat (k_ncancel (tasks (final step s ops) t)) = (Z.of_nat (k_ncancel (tasks s t)) + ext_count s ops t)%Z.
Proof. exact cancelling_restored_counter. Qed.
Print Assumptions C05_cancelling_restored_counter.

(* what __exit__ does with the debt: pending_handover (same-task parent), payment, no_foreign_handover (F6) *)
Theorem C05_exit_debt_settled : forall s c t exc,
  s_active (scopes s c) = true -> s_host (scopes s c) = Some t -> k_cur (tasks s t) = Some c ->
  s_parent (scopes s c) <> Some c ->
  let s5 := restart (exit_struct s c t) (s_parent (scopes s c)) in
  let n := s_pending (scopes s5 c) in
  let sf := fst (scope_exit s c t exc) in
  s_pending (scopes sf c) = 0 /\ s_host (scopes sf c) = None /\
  ((exists p, s_parent (scopes s c) = Some p /\ s_host (scopes s5 p) = Some t /\
              s_pending (scopes sf p) = s_pending (scopes s5 p) + n /\
              k_ncancel (tasks sf t) = k_ncancel (tasks s5 t)) \/
   (k_ncancel (tasks sf t) = k_ncancel (tasks s5 t) - n /\
    forall x, x <> c -> s_pending (scopes sf x) = s_pending (scopes s5 x))) /\
  (forall x, x <> c -> s_host (scopes s5 x) <> Some t -> s_pending (scopes sf x) = s_pending (scopes s5 x)) /\
  (forall t', t' <> t -> k_ncancel (tasks sf t') = k_ncancel (tasks s5 t')).
Proof. exact exit_debt_settled. Qed.
Print Assumptions C05_exit_debt_settled.

(* a delivery callback left in the ready queue after its scope was exited runs once and is gone *)
Theorem C05_leftover_deliver_runs_once : forall s c,
  reach_ok s -> s_active (scopes s c) = false -> In (HDeliver c) (ready s) ->
  let s' := fst (step s (ARun (HDeliver c))) in
  s_chandle (scopes s' c) = false /\ ready s' = remove_first (HDeliver c) (ready s) /\
  tasks s' = tasks s /\ timers s' = timers s /\
  (forall x, x <> c -> scopes s' x = scopes s x).
Proof. exact leftover_deliver_runs_once. Qed.
Print Assumptions C05_leftover_deliver_runs_once.

(* when all tasks are done a delivery callback that runs does not keep itself alive *)
Theorem C05_done_delivery_not_rescheduled : forall s c,
  reach_ok s -> (forall t, k_done (tasks s t) <> None) -> In (HDeliver c) (ready s) ->
  s_chandle (scopes (fst (step s (ARun (HDeliver c)))) c) = false.
Proof. exact loop_goes_idle_partial. Qed.
Print Assumptions C05_done_delivery_not_rescheduled.

(* loop_goes_idle.  run_head s = run the head of the ready queue (step s (ARun h)); identity on an empty queue.
   all_done s = every task record is in control state CDone and every allocated task has its outcome set.
   Once every task is done, running heads empties the ready queue within 3 * length (ready s) runs: a delivery
   callback never re-schedules itself and is dropped, no deadline callback is in the queue (every scope is
   inactive, and an inactive scope has neither a deadline timer nor a fired deadline callback), a task-done callback may schedule up to two wake-ups (the group's exit waiter and the
   handle's waiter; these resume done tasks, which is a no-op), a sleep-timer callback one.  No timer is added
   meanwhile, and every timer left is a sleep timer: no deadline timer of any scope remains.  (That no sleep
   timer of a finished task remains is not claimed: the model has no ownership link from timers to tasks.) *)
Theorem C05_loop_goes_idle : forall s,
  reach_ok s -> all_done s ->
  exists k, k <= 3 * length (ready s) /\
            ready (iter k run_head s) = [] /\
            incl (timers (iter k run_head s)) (timers s) /\
            (forall x, In x (timers (iter k run_head s)) -> exists f, tm_what x = TSleep f).
Proof. exact loop_goes_idle. Qed.
Print Assumptions C05_loop_goes_idle.

(* the premises are satisfiable with a leftover callback: the root task cancels and leaves its deadline scope
   and finishes; the delivery callback of the scope is still scheduled and one head run removes it *)
Theorem C05_loop_goes_idle_nonvacuous :
  let s := final step init
             [ANewRoot; ANewScope 1 (Some 5%Z) false; AEnter 1 1; ACancel 1 1; AExit 1 1 false; AFinish 1 0] in
  reach_ok s /\ all_done s /\ ready s = [HDeliver 1] /\ ready (run_head s) = [] /\ timers (run_head s) = [].
Proof. exact idle2_premises. Qed.
Print Assumptions C05_loop_goes_idle_nonvacuous.

(* known finding F19: the interop clause at full strength is refuted:
   "Native asyncio constructs used around AnyIO scopes behave as if the scope had never been cancelled" would
   require every native cancellation request to be raised in the task eventually (or to stay pending).  Witness
   (also replayed against the real code from corpus/C05 on every run): a native Task.cancel() that arrives after
   the scope's delivery has cancelled the task's wait is counted (cancelling() = 1) but never raised: the only
   CancelledError that surfaces is the scope's own, which the scope absorbs; afterwards nothing is pending. *)
Theorem C05_native_request_absorbed_refuted :
  let s := final step init f19_ops in
  existsb requests_native f19_ops = true /\
  existsb is_native_result (results init f19_ops) = false /\
  k_ncancel (tasks s 1%nat) = 1%nat /\ k_must (tasks s 1%nat) = false /\ k_held (tasks s 1%nat) = None /\
  k_ctl (tasks s 1%nat) = CIdle /\
  s_caught (scopes s 1%nat) = true /\ s_active (scopes s 1%nat) = false /\ s_pending (scopes s 1%nat) = 0%nat.
Proof. exact native_request_absorbed_witness. Qed.
Print Assumptions C05_native_request_absorbed_refuted.

(* entry-relative restoration of cancelling():
   anc s y x   = y is x or an ancestor of x along the parent links (shields are ignored)
   clean s t   = no scope on the parent chain of t's current scope is cancelled; it implies that t is not
                 effectively cancelled (C05_clean_not_effectively_cancelled), not conversely (a shield can hide a
                 cancelled ancestor: see the refuted witness below)
   ext_count   = (# native Task.cancel() on t while it is alive) - (# effective explicit uncancel() by t) in the run *)

(* a delivery callback in the ready queue always belongs to a cancelled scope (no stale callback can create a
   debt for a scope that was never cancelled) *)
Theorem C05_delivery_callback_scope_cancelled : forall s c,
  reach_ok s -> In (HDeliver c) (ready s) -> s_cancelled (scopes s c) = true.
Proof. exact deliver_handle_cancelled. Qed.
Print Assumptions C05_delivery_callback_scope_cancelled.

(* where debts can sit, in every reachable state: on hosted scopes only, and only on a scope that is cancelled or
   has a cancelled ancestor (deliveries create debts on their cancelled origin; __exit__ hands a debt to the
   parent only if the scope was not cancelled itself - then the cancelled scope lies further up - or if the
   parent's chain shows a cancelled scope) *)
Theorem C05_debts_only_under_cancelled : forall s,
  reach_ok s ->
  (forall x, s_host (scopes s x) = None -> s_pending (scopes s x) = 0) /\
  (forall x, 0 < s_pending (scopes s x) -> exists y, anc s y x /\ s_cancelled (scopes s y) = true).
Proof. exact debts_only_under_cancelled. Qed.
Print Assumptions C05_debts_only_under_cancelled.

(* hence a task that has no cancelled scope around it owes nothing: every scope it hosts is its current scope or
   an ancestor of it (structural invariant) *)
Theorem C05_no_debt_outside_cancelled : forall s t,
  reach_ok2 s -> alloc_t s t -> clean s t -> pending_of s t = 0.
Proof. exact clean_no_debt. Qed.
Print Assumptions C05_no_debt_outside_cancelled.

Theorem C05_clean_not_effectively_cancelled : forall s t fuel,
  clean s t -> eff_cancelled_from fuel s (k_cur (tasks s t)) = false.
Proof. exact clean_not_effectively_cancelled. Qed.
Print Assumptions C05_clean_not_effectively_cancelled.

(* root tasks (not spawned into a task group), any run of the domain from s: if no scope around the task is
   cancelled at the start and at the end, cancelling() has moved exactly by the native cancels and explicit
   uncancels in between.  Every delivery the task received in between came from a scope it hosts itself and has
   been compensated by the time that scope and its cancelled ancestors have been left - whatever was entered,
   cancelled, shielded, handed over and left meanwhile. *)
Theorem C05_cancelling_back_at_entry : forall ops s t,
  reach_ok2 s -> ops_ok2 s ops = true -> alloc_t s t -> k_group (tasks s t) = None ->
  clean s t -> clean (final step s ops) t ->
  Z.of_nat (k_ncancel (tasks (final step s ops) t)) = (Z.of_nat (k_ncancel (tasks s t)) + ext_count s ops t)%Z.
Proof. exact cancelling_back_at_entry. Qed.
Print Assumptions C05_cancelling_back_at_entry.

(* the instance the property text talks about: from before `with scope:` to after it *)
Theorem C05_cancelling_back_at_entry_scope : forall s t c mid fa,
  reach_ok2 s -> alloc_t s t -> k_group (tasks s t) = None ->
  let ops := AEnter t c :: mid ++ [AExit t c fa] in
  ops_ok2 s ops = true -> clean s t -> clean (final step s ops) t ->
  Z.of_nat (k_ncancel (tasks (final step s ops) t)) = (Z.of_nat (k_ncancel (tasks s t)) + ext_count s ops t)%Z.
Proof. exact cancelling_back_at_entry_scope. Qed.
Print Assumptions C05_cancelling_back_at_entry_scope.

(* every task, group children included: the count is at least that.  A surplus can come from deliveries whose
   origin is hosted by another task (the group scope or a scope above it): _deliver_cancellation raises the
   task's counter but records the debt only `if task is origin._host_task`, so nobody compensates them (by
   design; C05_child_foreign_delivery_refuted shows one such delivery; no theorem counts the surplus).  For root
   tasks the surplus is zero (previous theorem). *)
Theorem C05_cancelling_back_at_entry_lower : forall ops s t,
  reach_ok2 s -> ops_ok2 s ops = true -> alloc_t s t ->
  clean s t -> clean (final step s ops) t ->
  (Z.of_nat (k_ncancel (tasks s t)) + ext_count s ops t <= Z.of_nat (k_ncancel (tasks (final step s ops) t)))%Z.
Proof. exact cancelling_back_at_entry_lower. Qed.
Print Assumptions C05_cancelling_back_at_entry_lower.

(* non-vacuity: task 1 enters scopes 1 > 2 > 3, scopes 1 and 3 are cancelled, the delivery of 3 hits the
   sleeping task, scope 3 hands its debt to scope 2, the task leaves 3, 2 and 1: clean at both ends (no scope
   around), the count is back at its value *)
Theorem C05_cancelling_back_at_entry_nonvacuous :
  let s0 := final step init [ANewRoot] in
  let ops := tl handover_pre ++ handover_mid ++ handover_post in
  ops_ok2 init (ANewRoot :: ops) = true /\
  k_cur (tasks s0 1) = None /\ k_cur (tasks (final step s0 ops) 1) = None /\
  k_group (tasks s0 1) = None /\ ext_count s0 ops 1 = 0%Z /\
  k_ncancel (tasks (final step s0 ops) 1) = k_ncancel (tasks s0 1).
Proof. exact back_at_entry_premises. Qed.
Print Assumptions C05_cancelling_back_at_entry_nonvacuous.

(* With "no enclosing scope is EFFECTIVELY cancelled" in place of `clean` the restoration
   clause is refuted: handover_mid = [AEnter 1 3; ACancel 1 1; ACancel 1 3; ASleep 1 None; ARun (HDeliver 1);
   ARun (HDeliver 3); ARun (HWake 1 10); AExit 1 3 false; ASetShield 1 2 true].  After it the task's current
   scope 2 is shielded and not effectively cancelled, cancelling() is 1 (0 when scope 3 was entered, no native
   event), and the debt handed over by scope 3 sits on scope 2.  The debt is paid when the cancelled ancestor is
   left (last line: after leaving 2 and 1 the count is 0), which is what C05_cancelling_back_at_entry states in
   general. *)
Theorem C05_count_elevated_behind_shield_refuted :
  let s0 := final step init handover_pre in
  let s1 := final step s0 handover_mid in
  let s2 := final step s1 handover_post in
  ops_ok2 init (handover_pre ++ handover_mid ++ handover_post) = true /\
  k_ncancel (tasks s0 1) = 0 /\ k_cur (tasks s0 1) = Some 2 /\
  k_ncancel (tasks s1 1) = 1 /\ k_cur (tasks s1 1) = Some 2 /\ idle s1 1 = true /\
  eff_cancelled_from (nscope s1) s1 (k_cur (tasks s1 1)) = false /\
  s_pending (scopes s1 2) = 1 /\ s_shield (scopes s1 2) = true /\ s_cancelled (scopes s1 2) = false /\
  ext_count s0 handover_mid 1 = 0%Z /\
  k_ncancel (tasks s2 1) = 0 /\ k_cur (tasks s2 1) = None.
Proof. exact count_elevated_behind_shield_witness. Qed.
Print Assumptions C05_count_elevated_behind_shield_refuted.

(* A group child.  child_mid = [AEnter 2 3; ASleep 2 None; ACancel 1 1; ARun (HWake 2 8);
   AExit 2 3 false; ASetShield 2 2 true]: the host cancels the group scope 1 while child 2 sleeps in its own
   scope 3; the delivery raises the child's counter to 1 and records no debt anywhere (pending_of = 0: the
   origin is hosted by task 1); after leaving scope 3 the count is 1, not the 0 of entry, and it stays 1 even when
   the child is no longer effectively cancelled (it shields its own handle scope).  The end state is NOT `clean` (the
   cancelled group scope is on the child's chain), so this is not a strict-gap instance of
   C05_cancelling_back_at_entry_lower; what it refutes is C05_cancelling_restored_counter without its hypothesis
   k_group = None: for a group child the counter is not restored by the time nothing is pending and the child is no
   longer effectively cancelled. *)
Theorem C05_child_foreign_delivery_refuted :
  let s0 := final step init child_pre in
  let s1 := final step s0 child_mid in
  ops_ok2 init (child_pre ++ child_mid) = true /\
  k_group (tasks s0 2) = Some 1 /\ k_ncancel (tasks s0 2) = 0 /\ k_cur (tasks s0 2) = Some 2 /\
  k_ncancel (tasks s1 2) = 1 /\ k_cur (tasks s1 2) = Some 2 /\ pending_of s1 2 = 0 /\ idle s1 2 = true /\
  eff_cancelled_from (nscope s1) s1 (k_cur (tasks s1 2)) = false /\
  s_host (scopes s1 1) = Some 1 /\ s_cancelled (scopes s1 1) = true /\
  ext_count s0 child_mid 2 = 0%Z.
Proof. exact child_foreign_delivery_witness. Qed.
Print Assumptions C05_child_foreign_delivery_refuted.

(* Notions: NHeld s t -- t holds a NATIVE request that its next step will receive (Task._must_cancel with the empty
   message, or the future it waits on was cancelled natively);  aff a o -- the tasks op o affects directly (actor or
   resumed task, created task, task whose done-callback runs);  unaffected t s ops -- t is in aff of no op of the
   list;  receives_native s h t -- running ready handle h makes t receive a native CancelledError;
   wait_cancelled_by_scope s t -- the future t waits on already carries a scope-tagged cancellation. *)

(* Task.cancel() on an unfinished task records the request *)
Theorem C05_native_request_placed : forall (a : st) (t : tid),
  k_done (tasks a t) = None -> NHeld (fst (step a (ANativeCancel t))) t.
Proof. exact native_request_placed. Qed.
Print Assumptions C05_native_request_placed.

(* it stays recorded across every op_ok op of every reachable state that neither resumes the task nor is performed by
   it nor creates / retires it (~ In t (aff a o)): no delivery, no API call of another task, no callback erases or
   overwrites it *)
Theorem C05_native_request_stays_pending : forall (a : st) (o : op) (t : tid),
  reach_ok a -> op_ok a o = true -> ~ In t (aff a o) -> NHeld a t -> NHeld (fst (step a o)) t.
Proof. exact native_request_stays_pending. Qed.
Print Assumptions C05_native_request_stays_pending.

(* when the task is resumed with the request recorded it receives a native CancelledError, the ONLY exception being
   that the wait it is resumed from already carries a scope-tagged cancellation (F19: asyncio keeps that one) *)
Theorem C05_native_request_received : forall (s : st) (h : handle) (t : tid),
  reach_ok s -> In h (ready s) -> (h = HStep t \/ exists f, h = HWake t f) -> NHeld s t ->
  receives_native s h t \/ (k_must (tasks s t) = true /\ wait_cancelled_by_scope s t = true).
Proof. exact native_request_received. Qed.
Print Assumptions C05_native_request_received.

(* together: a native request made on an unfinished task whose wait has not already been cancelled by a scope's
   delivery (boolean hypothesis on the state at the request) is, after any further op_ok ops none of which affects the
   task (unaffected: the task neither acts nor is resumed), still pending, and whichever ready handle resumes the task
   then raises a native CancelledError in it *)
Theorem C05_native_request_honoured : forall (a : st) (t : tid) (ops : list op),
  reach_ok a -> k_done (tasks a t) = None -> t < ntask a -> wait_cancelled_by_scope a t = false ->
  let a1 := fst (step a (ANativeCancel t)) in
  ops_ok a1 ops = true -> unaffected t a1 ops ->
  let s := final step a1 ops in
  NHeld s t /\
  forall h, In h (ready s) -> (h = HStep t \/ exists f, h = HWake t f) -> receives_native s h t.
Proof. exact native_request_honoured. Qed.
Print Assumptions C05_native_request_honoured.

(* non-vacuity: a root task sleeps, Task.cancel() from outside, its wake-up raises the native CancelledError *)
Theorem C05_native_request_honoured_nonvacuous :
  let a := final step init [ANewRoot; ASleep 1 None] in
  ops_ok init [ANewRoot; ASleep 1 None] = true /\ k_done (tasks a 1) = None /\ 1 < ntask a /\
  wait_cancelled_by_scope a 1 = false /\
  let s := fst (step a (ANativeCancel 1)) in
  In (HWake 1 2) (ready s) /\ snd (step s (ARun (HWake 1 2))) = RExc (ECancel 0).
Proof. exact native_request_honoured_premises. Qed.
Print Assumptions C05_native_request_honoured_nonvacuous.

Theorem C05_native_request_honoured_nonvacuous_instance :
  let a := final step init [ANewRoot; ASleep 1 None] in
  let s := fst (step a (ANativeCancel 1)) in
  NHeld s 1 /\ receives_native s (HWake 1 2) 1.
Proof. exact native_request_honoured_instance. Qed.
Print Assumptions C05_native_request_honoured_nonvacuous_instance.

(* the hypothesis is needed (known finding F19, the history of C05_native_request_absorbed_refuted): in f19_ops the request
   (op 6) is made after the scope's delivery has cancelled the task's wait; no step of the run raises a native
   cancellation *)
Theorem C05_native_request_hypothesis_needed :
  let a := final step init (firstn 6 f19_ops) in
  nth 6 f19_ops ANewRoot = ANativeCancel 1 /\ ops_ok init f19_ops = true /\
  k_done (tasks a 1) = None /\ wait_cancelled_by_scope a 1 = true /\
  existsb is_native_result (results init f19_ops) = false.
Proof. exact native_request_hypothesis_needed. Qed.
Print Assumptions C05_native_request_hypothesis_needed.

(* the same with other tasks acting between the request and the receipt: nat_pre = [ANewRoot;
   ASleep 1 None], then ANativeCancel 1, then nat_ops = [ANewRoot; ANewScope 2 None false; AEnter 2 1; ACancel 2 1;
   ARun (HDeliver 1); ATick 3]: a second root task appears, enters scope 1 and cancels it, the scope's delivery callback
   runs (it cancels task 2's own wait), time passes; task 1's wake-up then raises the native CancelledError *)
Theorem C05_native_request_honoured_nonvacuous_run :
  let a := final step init nat_pre in
  let a1 := fst (step a (ANativeCancel 1)) in
  let s := final step a1 nat_ops in
  ops_ok init nat_pre = true /\ k_done (tasks a 1) = None /\ 1 < ntask a /\ wait_cancelled_by_scope a 1 = false /\
  ops_ok a1 nat_ops = true /\ unaffected 1 a1 nat_ops /\
  ready s = [HWake 1 2; HWake 2 6; HDeliver 1] /\ s_cancelled (scopes s 1) = true /\
  snd (step s (ARun (HWake 1 2))) = RExc (ECancel 0).
Proof. exact native_request_run_premises. Qed.
Print Assumptions C05_native_request_honoured_nonvacuous_run.

Theorem C05_native_request_honoured_nonvacuous_run_instance :
  let a := final step init nat_pre in
  let a1 := fst (step a (ANativeCancel 1)) in
  let s := final step a1 nat_ops in
  NHeld s 1 /\ receives_native s (HWake 1 2) 1.
Proof. exact native_request_run_instance. Qed.
Print Assumptions C05_native_request_honoured_nonvacuous_run_instance.

(* one op of that run for C05_native_request_stays_pending: the delivery callback of scope 1 runs (it cancels the wait
   of task 2 with the scope's message) while task 1 holds the native request in its cancelled wait *)
Theorem C05_native_request_stays_pending_nonvacuous :
  let a := final step (fst (step (final step init nat_pre) (ANativeCancel 1))) (firstn 4 nat_ops) in
  ops_ok init (nat_pre ++ ANativeCancel 1 :: firstn 4 nat_ops) = true /\
  op_ok a (ARun (HDeliver 1)) = true /\ In (HDeliver 1) (ready a) /\ ~ In 1 (aff a (ARun (HDeliver 1))) /\
  k_waiter (tasks a 1) = Some 2 /\ f_st (futs a 2) = FCanc 0 /\
  f_st (futs (fst (step a (ARun (HDeliver 1)))) 2) = FCanc 0 /\
  k_waiter (tasks (fst (step a (ARun (HDeliver 1)))) 2) = Some 6 /\
  f_st (futs (fst (step a (ARun (HDeliver 1)))) 6) = FCanc 2.
Proof. exact native_request_stays_pending_witness. Qed.
Print Assumptions C05_native_request_stays_pending_nonvacuous.

(* root task (C05_cancelling_back_at_entry): root_ops = tl handover_pre ++ handover_mid ++ handover_post from the state
   after [ANewRoot]: task 1 enters 1 > 2 > 3, scopes 1 and 3 are cancelled, the delivery of 3 hits the sleeping task,
   scope 3 hands its debt to 2, the task leaves 3, 2 and 1; the count is 1 in between and 0 at both ends *)
Theorem C05_cancelling_back_at_entry_nonvacuous_root :
  let s0 := final step init [ANewRoot] in
  reach_ok2 s0 /\ ops_ok2 s0 root_ops = true /\ alloc_t s0 1 /\ k_group (tasks s0 1) = None /\
  clean s0 1 /\ clean (final step s0 root_ops) 1 /\
  ext_count s0 root_ops 1 = 0%Z /\ k_ncancel (tasks s0 1) = 0 /\ k_ncancel (tasks (final step s0 root_ops) 1) = 0 /\
  k_ncancel (tasks (final step s0 (tl handover_pre ++ handover_mid)) 1) = 1.
Proof. exact back_at_entry_root_instance. Qed.
Print Assumptions C05_cancelling_back_at_entry_nonvacuous_root.

(* a task-group child (C05_cancelling_back_at_entry_lower, the theorem for every task; C05_cancelling_back_at_entry
   itself is about root tasks only): child_pre = [ANewRoot; AGroupNew 1; AGroupEnter 1 1; ASpawn 1 1; ARun (HStep 2);
   ANewScope 2 None false], child_own = [AEnter 2 3; ACancel 2 3; ASleep 2 None; ARun (HDeliver 3); ARun (HWake 2 9);
   AExit 2 3 false]: child 2 cancels its own scope 3, the delivery raises its counter to 1, the scope absorbs the
   cancellation at exit and takes the uncancel back; no scope on the child's chain (handle scope 2, group scope 1) is
   cancelled at either end; the bound is attained *)
Theorem C05_cancelling_back_at_entry_lower_nonvacuous_child :
  let s0 := final step init child_pre in
  let s1 := final step s0 child_own in
  reach_ok2 s0 /\ ops_ok2 s0 child_own = true /\ alloc_t s0 2 /\ k_group (tasks s0 2) = Some 1 /\
  clean s0 2 /\ clean s1 2 /\
  ext_count s0 child_own 2 = 0%Z /\ k_ncancel (tasks s0 2) = 0 /\ k_ncancel (tasks s1 2) = 0 /\
  k_ncancel (tasks (final step s0 (firstn 4 child_own)) 2) = 1.
Proof. exact back_at_entry_child_instance. Qed.
Print Assumptions C05_cancelling_back_at_entry_lower_nonvacuous_child.

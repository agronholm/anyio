(* C10 — Semaphore and CapacityLimiter: permits are conserved and never over-granted.
   This file contains only statements closed by `exact` and their Print Assumptions.
   Part 1 speaks about the Semaphore machine (prims/Sem.v); after the second Require Import the short names
   (st, step, reach, ...) denote the CapacityLimiter machine (prims/Limiter.v).
   HYPOTHESES that appear in the statements (nothing else is assumed):
   * part 1, every theorem about reachable states: `max_ok iv mx`, i.e. initial_value <= max_value when a
     max_value is given - the check the constructor anyio.Semaphore.__init__ performs itself (ValueError
     otherwise; compared by the harness' constructor checks);
   * part 2, where written: `tainted s = false`, see below;
   * part 1, cancellation at the entry of acquire(): op AcqBeginC = the call is made while a cancelled scope is
     visible to the caller (the check yields), op CkPass = the check returns normally after the yield (the scope was
     cut off meanwhile); what decides between Cancel / spin / CkPass is the scope machine (C03), not this model;
   * C10_lim_never_over_granted: the run never assigns total_tokens a value below the number of tokens
     borrowed at that moment (`never_lowered_below_borrowed`); without it over-capacity states are reachable
     and, by C10_lim_grant_only_if_free / C10_lim_no_borrower_added_when_full, only shrink.
   In part 2 `tainted s = false` excludes exactly the histories in which release_on_behalf_of(b) was called
   before b's acquire call returned (O2); duplicate borrowers among concurrent acquire_on_behalf_of calls are
   inside every statement (F16: the second caller is refused, C10_lim_waiting_borrower_rejected). *)
From AV Require Import Base C10Defs C10Lib Sem SemProofs SemThms PrimImp SemImp SemGen SemGenEq.


Theorem C10_sem_conservation : forall fa iv mx s, max_ok iv mx -> reach fa iv mx s ->
  value s + length (held s) + length (infl s) + dropped s = iv + extra s /\
  length (held s) + length (infl s) <= iv + extra s /\
  dropped s <= extra s /\ (mx = None -> dropped s = 0) /\ (forall m, mx = Some m -> value s <= m).
Proof. exact sem_conservation. Qed.
Print Assumptions C10_sem_conservation.

Theorem C10_sem_reserved_meaning : forall fa iv mx s t, max_ok iv mx -> reach fa iv mx s ->
  NoDup (infl s) /\
  (In t (infl s) <-> phase_of s t = FastYield \/ exists f, phase_of s t = Waiting f /\ futs s f = FSet).
Proof. exact sem_reserved_meaning. Qed.
Print Assumptions C10_sem_reserved_meaning.

Theorem C10_sem_held_tracks_returns : forall s o s' r, step s o = (s', r) ->
  match r with
  | RDone =>
      (exists t, (o = AcqBegin t \/ o = AcqNowait t \/ o = Resume t \/ o = CkPass t) /\
                 held s' = t :: held s /\ extra s' = extra s) \/
      (exists t, o = Release t /\
         ((In t (held s) /\ held s' = remove_one t (held s) /\ extra s' = extra s) \/
          (~ In t (held s) /\ held s' = held s /\ extra s' = S (extra s))))
  | _ => held s' = held s /\ extra s' = extra s
  end.
Proof. exact sem_held_tracks_returns. Qed.
Print Assumptions C10_sem_held_tracks_returns.

Theorem C10_sem_value_pos_no_waiters : forall fa iv mx s, max_ok iv mx -> reach fa iv mx s ->
  value s > 0 -> waiters s = [].
Proof. exact sem_value_pos_no_waiters. Qed.
Print Assumptions C10_sem_value_pos_no_waiters.

Theorem C10_sem_fifo_queue_in_arrival_order : forall fa iv mx s, max_ok iv mx -> reach fa iv mx s ->
  subseq (waiters s) (enq s).
Proof. exact sem_queue_in_arrival_order. Qed.
Print Assumptions C10_sem_fifo_queue_in_arrival_order.

Theorem C10_sem_fifo_arrival_log_append_only : forall s o, exists l, enq (fst (step s o)) = enq s ++ l.
Proof. exact sem_arrival_log_append_only. Qed.
Print Assumptions C10_sem_fifo_arrival_log_append_only.

Theorem C10_sem_fifo_handoff_first_live : forall s,
  (exists w pre f, waiters s = pre ++ (w, f) :: waiters (rel_core s) /\ futs s f <> FCancelled /\
      (forall t' f', In (t', f') pre -> futs s f' = FCancelled) /\
      infl (rel_core s) = w :: infl s /\ value (rel_core s) = value s /\ futs (rel_core s) f = FSet) \/
  (waiters (rel_core s) = [] /\ (forall t' f', In (t', f') (waiters s) -> futs s f' = FCancelled) /\
      infl (rel_core s) = infl s /\ value (rel_core s) = S (value s)).
Proof. exact sem_handoff_first_live. Qed.
Print Assumptions C10_sem_fifo_handoff_first_live.

Theorem C10_sem_grant_only_if_free : forall fa iv mx s t o, max_ok iv mx -> reach fa iv mx s ->
  o = AcqBegin t \/ o = AcqNowait t \/ o = CkPass t ->
  length (held (fst (step s o))) + length (infl (fst (step s o))) > length (held s) + length (infl s) ->
  value s = S (value (fst (step s o))) /\ waiters s = [].
Proof. exact sem_grant_only_if_free. Qed.
Print Assumptions C10_sem_grant_only_if_free.

Theorem C10_sem_cancel_no_leak_waiter : forall fa iv mx s t f, max_ok iv mx -> reach fa iv mx s ->
  phase_of s t = Waiting f -> futs s f = FCancelled ->
  let s' := fst (step s (Resume t)) in
  snd (step s (Resume t)) = RCancelled /\ value s' = value s /\ held s' = held s /\ infl s' = infl s /\
  extra s' = extra s /\ dropped s' = dropped s /\
  ~ In t (map fst (waiters s')) /\ phase_of s' t = Idle.
Proof. exact sem_cancelled_waiter_no_leak. Qed.
Print Assumptions C10_sem_cancel_no_leak_waiter.

Theorem C10_sem_cancel_no_leak_grantee : forall fa iv mx s t, max_ok iv mx -> reach fa iv mx s ->
  (phase_of s t = FastYield \/ exists f, phase_of s t = Waiting f /\ futs s f = FSet) ->
  mustc s t = true ->
  let s' := fst (step s (Resume t)) in
  let r := snd (step s (Resume t)) in
  phase_of s' t = Idle /\ held s' = held s /\ extra s' = extra s /\ ~ In t (infl s') /\ Inv s' /\
  ((r = RCancelled /\ maxv s <> Some (value s) /\ dropped s' = dropped s /\
      value s' + length (infl s') = value s + length (infl s)) \/
   (r = RValue /\ maxv s = Some (value s) /\ dropped s' = S (dropped s) /\
      value s' = value s /\ S (length (infl s')) = length (infl s))).
Proof. exact sem_cancelled_grantee_no_leak. Qed.
Print Assumptions C10_sem_cancel_no_leak_grantee.

(* the cancellation check at the start of acquire() (F53, fixed in /repo by c2fb7fb): AcqBeginC = acquire()
   called while a cancelled scope is visible; CkPass = the check returns normally after having yielded *)
Theorem C10_sem_check_yield_noeffect : forall s t, phase_of s t = Idle ->
  step s (AcqBeginC t) = (set_phase s t CkYield, RBlocked) /\
  value (set_phase s t CkYield) = value s /\ waiters (set_phase s t CkYield) = waiters s /\
  futs (set_phase s t CkYield) = futs s /\ held (set_phase s t CkYield) = held s /\
  infl (set_phase s t CkYield) = infl s /\ enq (set_phase s t CkYield) = enq s.
Proof. exact sem_check_yield_noeffect. Qed.
Print Assumptions C10_sem_check_yield_noeffect.

Theorem C10_sem_check_cancelled_noeffect : forall s t, phase_of s t = CkYield -> mustc s t = true ->
  step s (Resume t) = (leave s t, RCancelled) /\ step s (CkPass t) = (leave s t, RCancelled) /\
  value (leave s t) = value s /\ waiters (leave s t) = waiters s /\ futs (leave s t) = futs s /\
  held (leave s t) = held s /\ enq (leave s t) = enq s /\ phase_of (leave s t) t = Idle.
Proof. exact sem_check_cancelled_noeffect. Qed.
Print Assumptions C10_sem_check_cancelled_noeffect.

Theorem C10_sem_check_spin : forall s t,
  phase_of s t = CkYield -> mustc s t = false -> step s (Resume t) = (s, RBlocked).
Proof. exact sem_check_spin. Qed.
Print Assumptions C10_sem_check_spin.

Theorem C10_sem_check_pass_is_fresh_acquire : forall s t, phase_of s t = CkYield -> mustc s t = false ->
  step s (CkPass t) = step (leave s t) (AcqBegin t) /\
  value (leave s t) = value s /\ waiters (leave s t) = waiters s /\ held (leave s t) = held s.
Proof. exact sem_check_pass_is_fresh_acquire. Qed.
Print Assumptions C10_sem_check_pass_is_fresh_acquire.

Theorem C10_sem_check_order_refuted_pinned :
  exists ops, let s := final step_f53_pinned (init false 1 None) ops in
    held s = [1; 2] /\ infl s = [] /\ extra s = 0 /\ dropped s = 0 /\ value s = 0 /\
    length (held s) > 1 + extra s /\
    value s + length (held s) + length (infl s) + dropped s <> 1 + extra s /\
    (forall t, t < 3 -> phase_of s t = Idle).
Proof. exact sem_check_order_refuted_pinned. Qed.
Print Assumptions C10_sem_check_order_refuted_pinned.

Theorem C10_sem_release_beyond_max_rejected : forall s t,
  phase_of s t = Idle -> maxv s = Some (value s) -> step s (Release t) = (s, RValue).
Proof. exact sem_release_beyond_max_rejected. Qed.
Print Assumptions C10_sem_release_beyond_max_rejected.

Theorem C10_sem_release_below_max_accepted : forall s t,
  phase_of s t = Idle -> maxv s <> Some (value s) -> snd (step s (Release t)) = RDone.
Proof. exact sem_release_below_max_accepted. Qed.
Print Assumptions C10_sem_release_below_max_accepted.

Theorem C10_sem_quiescent_initial : forall fa iv mx s, max_ok iv mx -> reach fa iv mx s ->
  (forall t, phase_of s t = Idle) -> held s = [] ->
  waiters s = [] /\ infl s = [] /\ value s + dropped s = iv + extra s /\ (extra s = 0 -> value s = iv).
Proof. exact sem_quiescent_initial. Qed.
Print Assumptions C10_sem_quiescent_initial.

(* tie T (Semaphore): the segments of acquire (cut at its awaits) / acquire_nowait / release / the getters,
   regenerated from /repo's source by tools/translate_prims.py (SemGen.v) and interpreted by PrimImp.exec, ARE the
   model's step, for every state and task.  `lift` (SemImp.v) rebuilds a Sem.st from the interpretation result: the
   fields the code touches come from the heap, the ghost fields from the events of the segment;
   C10_tie_sem_lift_spec spells every field out.  phase_of / mustc are the asyncio Task's state; held / infl / extra /
   dropped / enq are history variables of the observer, not state of the Semaphore object. *)
Theorem C10_tie_sem_acquire_entry : forall s t,
  phase_of s t = Idle ->
  step s (AcqBegin t) = lift s t KAcquire (exec sem_acquire_entry t (loc_entry None None) log0 (core s)).
Proof. exact tie_acquire_entry. Qed.
Print Assumptions C10_tie_sem_acquire_entry.

Theorem C10_tie_sem_acq_body : forall s t,
  acq_body s t = lift s t KAcquire (exec sem_acquire_entry t (loc_entry None None) log0 (core s)).
Proof. exact tie_acq_body. Qed.
Print Assumptions C10_tie_sem_acq_body.

Theorem C10_tie_sem_acquire_check_first :
  exists body, sem_acquire_entry = SSeq SCkIf body /\
    forall t l g k, l_fresh l = true -> l_canc l = false ->
      exec sem_acquire_entry t l g k = exec body t l g k.
Proof. exact tie_acquire_check_first. Qed.
Print Assumptions C10_tie_sem_acquire_check_first.

Theorem C10_tie_sem_acquire_entry_cancelled : forall s t, phase_of s t = Idle ->
  step s (AcqBeginC t) = lift_ck s t (exec sem_acquire_entry t (loc_entry_cancelled None) log0 (core s)).
Proof. exact tie_acquire_entry_cancelled. Qed.
Print Assumptions C10_tie_sem_acquire_entry_cancelled.

Theorem C10_tie_sem_acquire_check_pass : forall s t, phase_of s t = CkYield -> mustc s t = false ->
  step s (CkPass t) =
  lift (leave s t) t KAcquire (exec sem_acquire_entry t (loc_entry None None) log0 (core (leave s t))).
Proof. exact tie_acquire_check_pass. Qed.
Print Assumptions C10_tie_sem_acquire_check_pass.

Theorem C10_tie_sem_acquire_yield_resumed : forall s t,
  phase_of s t = FastYield -> mustc s t = false ->
  step s (Resume t) =
  lift (leave s t) t KAcquire
    (exec sem_acquire_yield_resumed t (loc_resume None None None) log0 (core (leave s t))).
Proof. exact tie_acquire_yield_resumed. Qed.
Print Assumptions C10_tie_sem_acquire_yield_resumed.

Theorem C10_tie_sem_acquire_yield_cancelled : forall s t,
  phase_of s t = FastYield -> mustc s t = true ->
  step s (Resume t) =
  lift (leave s t) t KAcquireC
    (exec sem_acquire_yield_cancelled t (loc_resume None None None) log0 (core (leave s t))).
Proof. exact tie_acquire_yield_cancelled. Qed.
Print Assumptions C10_tie_sem_acquire_yield_cancelled.

Theorem C10_tie_sem_acquire_wait_resumed : forall s t f,
  phase_of s t = Waiting f -> futs s f = FSet -> mustc s t = false ->
  step s (Resume t) =
  lift (leave s t) t KAcquire
    (exec sem_acquire_wait_resumed t (loc_resume (Some f) None None) log0 (core (leave s t))).
Proof. exact tie_acquire_wait_resumed. Qed.
Print Assumptions C10_tie_sem_acquire_wait_resumed.

Theorem C10_tie_sem_acquire_wait_cancelled : forall s t f,
  phase_of s t = Waiting f ->
  futs s f = FCancelled \/ (futs s f = FSet /\ mustc s t = true) ->
  step s (Resume t) =
  lift (leave s t) t KAcquireC
    (exec sem_acquire_wait_cancelled t (loc_resume (Some f) None None) log0 (core (leave s t))).
Proof. exact tie_acquire_wait_cancelled. Qed.
Print Assumptions C10_tie_sem_acquire_wait_cancelled.

Theorem C10_tie_sem_acquire_nowait : forall s t,
  phase_of s t = Idle ->
  step s (AcqNowait t) = lift s t KAcquire (exec sem_acquire_nowait_entry t (loc_entry None None) log0 (core s)).
Proof. exact tie_acquire_nowait. Qed.
Print Assumptions C10_tie_sem_acquire_nowait.

Theorem C10_tie_sem_release : forall s t,
  phase_of s t = Idle ->
  step s (Release t) = lift s t KRelease (exec sem_release_entry t (loc_entry None None) log0 (core s)).
Proof. exact tie_release. Qed.
Print Assumptions C10_tie_sem_release.

Theorem C10_tie_sem_getters : forall s,
  eval_expr sem_value_getter (core s) = VNat (value s) /\
  eval_expr sem_max_value_getter (core s) = match maxv s with Some m => VNat m | None => VNone end /\
  map (fun x => eval_expr x (core s)) sem_statistics_args = [VNat (length (waiters s))].
Proof. exact tie_getters. Qed.
Print Assumptions C10_tie_sem_getters.

Theorem C10_tie_sem_lift_spec : forall s t kd l g k o,
  let s' := fst (lift s t kd (l, g, k, o)) in
  core s' = mkh (h_fast k) (h_maxv k) (h_value k) (h_waiters k) (h_futs k) (h_nfut k) None [] [] (fun _ => false) 0 /\
  snd (lift s t kd (l, g, k, o)) = match res_of o with Some x => x | None => RRejected end /\
  phase_of s' = match o with
                | OSuspend AwYield => upd (phase_of s) t FastYield
                | OSuspend AwFut => match l_fut l with Some f => upd (phase_of s) t (Waiting f) | None => phase_of s end
                | _ => phase_of s
                end /\
  mustc s' = mustc s /\ init0 s' = init0 s /\
  held s' = match kd with
            | KAcquire => if returned o then t :: held s else held s
            | KAcquireC => held s
            | KRelease => if returned o && mem t (held s) then remove_one t (held s) else held s
            end /\
  infl s' = g_woke g ++ match o with OSuspend AwYield => t :: infl s | _ => infl s end /\
  extra s' = match kd with
             | KRelease => if returned o && negb (mem t (held s)) then S (extra s) else extra s
             | _ => extra s
             end /\
  dropped s' = match kd, o with KAcquireC, ORaise EValue => S (dropped s) | _, _ => dropped s end /\
  enq s' = enq s ++ g_enq g.
Proof. exact lift_spec. Qed.
Print Assumptions C10_tie_sem_lift_spec.

Theorem C10_tie_sem_gstep_eq_step : forall s o,
  gstep sem_prog s o = step s o.
Proof. exact gstep_eq_step. Qed.
Print Assumptions C10_tie_sem_gstep_eq_step.

Theorem C10_tie_sem_gen_conservation : forall fa iv mx ops, max_ok iv mx ->
  let s := final (gstep sem_prog) (init fa iv mx) ops in
  value s + length (held s) + length (infl s) + dropped s = iv + extra s /\
  length (held s) + length (infl s) <= iv + extra s /\
  dropped s <= extra s /\ (mx = None -> dropped s = 0) /\ (forall m, mx = Some m -> value s <= m).
Proof. exact gen_conservation. Qed.
Print Assumptions C10_tie_sem_gen_conservation.

Theorem C10_tie_sem_gen_grant_only_if_free : forall fa iv mx ops t o, max_ok iv mx ->
  let s := final (gstep sem_prog) (init fa iv mx) ops in
  o = AcqBegin t \/ o = AcqNowait t \/ o = CkPass t ->
  length (held (fst (gstep sem_prog s o))) + length (infl (fst (gstep sem_prog s o))) >
    length (held s) + length (infl s) ->
  value s = S (value (fst (gstep sem_prog s o))) /\ waiters s = [].
Proof. exact gen_grant_only_if_free. Qed.
Print Assumptions C10_tie_sem_gen_grant_only_if_free.

Theorem C10_tie_sem_gen_fifo : forall fa iv mx ops, max_ok iv mx ->
  let s := final (gstep sem_prog) (init fa iv mx) ops in
  subseq (waiters s) (enq s) /\ (value s > 0 -> waiters s = []).
Proof. exact gen_fifo. Qed.
Print Assumptions C10_tie_sem_gen_fifo.

Theorem C10_tie_sem_gen_release_hands_to_first_live : forall s t, phase_of s t = Idle -> at_max s = false ->
  let s' := fst (gstep sem_prog s (Release t)) in
  snd (gstep sem_prog s (Release t)) = RDone /\
  ((exists w pre f, waiters s = pre ++ (w, f) :: waiters s' /\ futs s f <> FCancelled /\
      (forall t' f', In (t', f') pre -> futs s f' = FCancelled) /\
      infl s' = w :: infl s /\ value s' = value s /\ futs s' f = FSet) \/
   (waiters s' = [] /\ (forall t' f', In (t', f') (waiters s) -> futs s f' = FCancelled) /\
      infl s' = infl s /\ value s' = S (value s))).
Proof. exact gen_release_hands_to_first_live. Qed.
Print Assumptions C10_tie_sem_gen_release_hands_to_first_live.

Theorem C10_tie_sem_gen_release_beyond_max_rejected : forall s t,
  phase_of s t = Idle -> maxv s = Some (value s) -> gstep sem_prog s (Release t) = (s, RValue).
Proof. exact gen_release_beyond_max_rejected. Qed.
Print Assumptions C10_tie_sem_gen_release_beyond_max_rejected.

From AV Require Import Limiter LimiterProofs LimiterThms LimiterImp LimiterGen LimiterGenEq.

Theorem C10_lim_grant_only_if_free : forall s o,
  let s' := fst (step s o) in
  (forall b, In b (borrowers s') -> In b (borrowers s)) \/ xle (length (borrowers s')) (total s').
Proof. exact lim_grant_only_if_free. Qed.
Print Assumptions C10_lim_grant_only_if_free.

Theorem C10_lim_direct_grant_needs_free : forall s t b o,
  o = AcqOn t b \/ o = AcqOnNowait t b ->
  In b (borrowers (fst (step s o))) -> ~ In b (borrowers s) ->
  free (borrowers s) (total s) = true /\ queue s = [].
Proof. exact lim_direct_grant_needs_free. Qed.
Print Assumptions C10_lim_direct_grant_needs_free.

Theorem C10_lim_no_borrower_added_when_full : forall v s o, reach v s ->
  total (fst (step s o)) = total s ->
  (forall b, In b (borrowers s) -> In b (borrowers (fst (step s o)))) ->
  (exists b, In b (borrowers (fst (step s o))) /\ ~ In b (borrowers s)) ->
  free (borrowers s) (total s) = true.
Proof. exact lim_no_borrower_added_when_full. Qed.
Print Assumptions C10_lim_no_borrower_added_when_full.

Theorem C10_lim_within_total_preserved : forall v s o, reach v s ->
  xle (length (borrowers s)) (total s) ->
  (forall t x, o = SetTotal t x -> xle (length (borrowers s)) x) ->
  xle (length (borrowers (fst (step s o)))) (total (fst (step s o))).
Proof. exact lim_within_total_preserved. Qed.
Print Assumptions C10_lim_within_total_preserved.

Theorem C10_lim_never_over_granted : forall v ops,
  (fix never_lowered (s : st) (ops : list op) : Prop :=
     match ops with
     | [] => True
     | o :: r => (forall t x, o = SetTotal t x -> xle (length (borrowers s)) x) /\ never_lowered (fst (step s o)) r
     end) (init v) ops ->
  xle (length (borrowers (final step (init v) ops))) (total (final step (init v) ops)).
Proof. exact lim_never_over_granted. Qed.
Print Assumptions C10_lim_never_over_granted.

Theorem C10_lim_grant_only_if_free_refuted_pinned :
  exists ops, let s := final step_pinned (init (Some 2)) ops in
    length (borrowers s) = 4 /\ total s = Some 2 /\ tainted s = false /\
    ~ ((forall b, In b (borrowers s) -> In b (borrowers (final step_pinned (init (Some 2)) (removelast ops)))) \/
       xle (length (borrowers s)) (total s)).
Proof. exact lim_grant_only_if_free_refuted_pinned. Qed.
Print Assumptions C10_lim_grant_only_if_free_refuted_pinned.

Theorem C10_lim_counts_true : forall v s, reach v s -> tainted s = false ->
  NoDup (borrowers s) /\
  (forall b, In b (borrowers s) <-> In b (held s) \/ In b (resv s)) /\
  (forall b, In b (held s) -> ~ In b (resv s)) /\
  length (borrowers s) = length (held s) + length (resv s) /\
  (forall b, In b (resv s) <->
     exists t, phase_of s t = FastYield b \/ exists e, phase_of s t = Waiting b e /\ evset s e = true) /\
  (forall b e, In (b, e) (queue s) <-> (exists t, phase_of s t = Waiting b e) /\ evset s e = false) /\
  NoDup (keys (queue s)) /\
  (forall r, nth 1 (observe s r) 0%Z = nz (length (held s) + length (resv s))) /\
  avail_code s = match total s with
                 | None => inf_code
                 | Some n => (nz n - nz (length (held s) + length (resv s)))%Z
                 end.
Proof. exact lim_counts_true. Qed.
Print Assumptions C10_lim_counts_true.

Theorem C10_lim_held_tracks_returns : forall s o s' r, step s o = (s', r) ->
  match r with
  | RDone =>
      (exists t b, (o = AcqOnNowait t b \/ (o = Resume t /\ inprog s t b)) /\ held s' = b :: held s) \/
      (exists t b, o = RelOn t b /\ In b (borrowers s) /\ held s' = remove_one b (held s)) \/
      (exists t x, o = SetTotal t x /\ held s' = held s)
  | _ => held s' = held s
  end.
Proof. exact lim_held_tracks_returns. Qed.
Print Assumptions C10_lim_held_tracks_returns.

Theorem C10_lim_fifo_queue_in_arrival_order : forall v s, reach v s -> subseq (queue s) (arrivals s).
Proof. exact lim_queue_in_arrival_order. Qed.
Print Assumptions C10_lim_fifo_queue_in_arrival_order.

Theorem C10_lim_fifo_arrival_log_append_only : forall s o, exists l, arrivals (fst (step s o)) = arrivals s ++ l.
Proof. exact lim_arrival_log_append_only. Qed.
Print Assumptions C10_lim_fifo_arrival_log_append_only.

Theorem C10_lim_fifo_notify_serves_head : forall s,
  notify_next s = s \/
  exists b e, queue s = (b, e) :: queue (notify_next s) /\ free (borrowers s) (total s) = true /\
              borrowers (notify_next s) = set_add b (borrowers s) /\
              evset (notify_next s) = upd (evset s) e true /\ resv (notify_next s) = b :: resv s.
Proof. exact lim_notify_serves_head. Qed.
Print Assumptions C10_lim_fifo_notify_serves_head.

Theorem C10_lim_fifo_set_total_serves_prefix : forall s x,
  exists pre, queue s = pre ++ queue (set_total s x) /\ total (set_total s x) = x /\
    (forall b, In b (borrowers (set_total s x)) <-> In b (borrowers s) \/ In b (keys pre)) /\
    (queue (set_total s x) <> [] -> free (borrowers (set_total s x)) x = false).
Proof. exact lim_set_total_serves_prefix. Qed.
Print Assumptions C10_lim_fifo_set_total_serves_prefix.

Theorem C10_lim_no_free_token_with_waiters : forall v s, reach v s ->
  queue s <> [] -> free (borrowers s) (total s) = false.
Proof. exact lim_no_free_token_with_waiters. Qed.
Print Assumptions C10_lim_no_free_token_with_waiters.

Theorem C10_lim_wait_queue_keys_distinct : forall v s, reach v s ->
  NoDup (keys (queue s)) /\
  (forall b, In b (keys (queue s)) -> ~ In b (borrowers s)) /\
  (tainted s = false -> forall t1 t2 b, inprog s t1 b -> inprog s t2 b -> t1 = t2).
Proof. exact lim_wait_queue_keys_distinct. Qed.
Print Assumptions C10_lim_wait_queue_keys_distinct.

Theorem C10_lim_waiting_borrower_rejected : forall s t b,
  phase_of s t = Idle -> In b (keys (queue s)) -> ~ In b (borrowers s) ->
  step s (AcqOn t b) = (s, RRuntime) /\ step s (AcqOnNowait t b) = (s, RWouldBlock).
Proof. exact lim_waiting_borrower_rejected. Qed.
Print Assumptions C10_lim_waiting_borrower_rejected.

Theorem C10_lim_second_waiter_rejected : forall v s t u b e, reach v s -> tainted s = false ->
  phase_of s u = Waiting b e -> evset s e = false -> phase_of s t = Idle ->
  step s (AcqOn t b) = (s, RRuntime).
Proof. exact lim_second_waiter_rejected. Qed.
Print Assumptions C10_lim_second_waiter_rejected.

Theorem C10_lim_no_lost_waiter : forall v s t b e, reach v s -> tainted s = false ->
  phase_of s t = Waiting b e -> evset s e = false ->
  In (b, e) (queue s) /\ free (borrowers s) (total s) = false.
Proof. exact lim_no_lost_waiter. Qed.
Print Assumptions C10_lim_no_lost_waiter.

Theorem C10_lim_duplicate_waiter_refuted_pinned :
  (exists ops, let s := final step_f16_pinned (init (Some 1)) ops in
     tainted s = false /\
     phase_of s 2 = Waiting 11 1 /\ evset s 1 = false /\ fcanc s 2 = false /\ mustc s 2 = false /\
     ~ In (11, 1) (queue s) /\ free (borrowers s) (total s) = true /\
     queue s = [] /\ borrowers s = [] /\ phase_of s 1 = Idle) /\
  (exists ops, let s := final step_f16_pinned (init (Some 1)) ops in
     tainted s = false /\
     inprog s 1 11 /\ inprog s 2 11 /\
     phase_of s 1 = Waiting 11 0 /\ evset s 0 = false /\ fcanc s 1 = false /\ ~ In (11, 0) (queue s) /\
     phase_of s 2 = Waiting 11 1 /\ evset s 1 = true /\
     arrivals s = [(11, 0); (11, 1)] /\ queue s = [] /\ borrowers s = [11]).
Proof. exact lim_duplicate_waiter_refuted_pinned. Qed.
Print Assumptions C10_lim_duplicate_waiter_refuted_pinned.

Theorem C10_lim_cancel_conserves_before_grant : forall v s t b e, reach v s -> tainted s = false ->
  phase_of s t = Waiting b e -> evset s e = false -> fcanc s t = true ->
  let s' := fst (step s (Resume t)) in
  snd (step s (Resume t)) = RCancelled /\ borrowers s' = borrowers s /\ held s' = held s /\
  resv s' = resv s /\ total s' = total s /\ ~ In b (keys (queue s')) /\ subseq (queue s') (queue s) /\
  phase_of s' t = Idle /\ tainted s' = false.
Proof. exact lim_cancel_before_grant. Qed.
Print Assumptions C10_lim_cancel_conserves_before_grant.

Theorem C10_lim_cancel_conserves_after_grant : forall v s t b, reach v s -> tainted s = false ->
  ((exists e, phase_of s t = Waiting b e /\ evset s e = true /\ (fcanc s t = true \/ mustc s t = true)) \/
   (phase_of s t = FastYield b /\ mustc s t = true)) ->
  let s' := fst (step s (Resume t)) in
  snd (step s (Resume t)) = RCancelled /\ ~ In b (borrowers s') /\ ~ In b (held s') /\ ~ In b (resv s') /\
  held s' = held s /\ phase_of s' t = Idle /\ tainted s' = false /\ Inv0 s' /\
  (borrowers s' = remove_one b (borrowers s) \/
   exists b' e', queue s = (b', e') :: queue s' /\ free (remove_one b (borrowers s)) (total s) = true /\
                 borrowers s' = b' :: remove_one b (borrowers s)).
Proof. exact lim_cancel_after_grant. Qed.
Print Assumptions C10_lim_cancel_conserves_after_grant.

Theorem C10_lim_cancel_foreign_fastyield_refuted_pinned :
  exists ops, let s := final step_d1_pinned (init (Some 1)) ops in
    tainted s = false /\ phase_of s 1 = FastYield 11 /\ mustc s 1 = true /\
    snd (step_d1_pinned s (Resume 1)) = RRuntime /\
    let s' := fst (step_d1_pinned s (Resume 1)) in
    phase_of s' 1 = Idle /\ held s' = [] /\ borrowers s' = [11] /\ resv s' = [] /\
    snd (step_d1_pinned s' (AcqOnNowait 2 2)) = RWouldBlock.
Proof. exact lim_cancel_foreign_fastyield_refuted_pinned. Qed.
Print Assumptions C10_lim_cancel_foreign_fastyield_refuted_pinned.

Theorem C10_lim_no_double_borrow : forall s t b,
  phase_of s t = Idle -> In b (borrowers s) ->
  step s (AcqOn t b) = (s, RRuntime) /\ step s (AcqOnNowait t b) = (s, RRuntime).
Proof. exact lim_no_double_borrow. Qed.
Print Assumptions C10_lim_no_double_borrow.

Theorem C10_lim_borrowers_nodup : forall v s, reach v s -> NoDup (borrowers s).
Proof. exact lim_borrowers_nodup. Qed.
Print Assumptions C10_lim_borrowers_nodup.

Theorem C10_lim_release_by_non_borrower_rejected : forall s t b,
  phase_of s t = Idle -> ~ In b (borrowers s) -> step s (RelOn t b) = (s, RRuntime).
Proof. exact lim_release_by_non_borrower_rejected. Qed.
Print Assumptions C10_lim_release_by_non_borrower_rejected.

Theorem C10_lim_bad_total_rejected : forall s t k,
  phase_of s t = Idle ->
  step s (SetTotalBad t k) = (s, match k with 1 | 2 => RValue | _ => RType end).
Proof. exact lim_bad_total_rejected. Qed.
Print Assumptions C10_lim_bad_total_rejected.

Theorem C10_lim_quiescent_initial : forall v s, reach v s -> tainted s = false ->
  (forall t, phase_of s t = Idle) -> held s = [] ->
  borrowers s = [] /\ queue s = [] /\ resv s = [] /\
  avail_code s = match total s with None => inf_code | Some n => nz n end.
Proof. exact lim_quiescent_initial. Qed.
Print Assumptions C10_lim_quiescent_initial.

(* tie T (CapacityLimiter): the segments of acquire_on_behalf_of (cut at its awaits) /
   acquire_on_behalf_of_nowait / release_on_behalf_of / the total_tokens setter / the wrappers / the getters,
   regenerated from /repo's source (LimiterGen.v), ARE the model's step, for every state, task and borrower.
   `lift` (LimiterImp.v) as above; C10_tie_lim_lift_spec spells every field out.  phase_of / fcanc / mustc are
   asyncio's state; held / resv / arrivals / tainted are history variables of the observer. *)
Theorem C10_tie_lim_acquire_entry : forall s t b,
  phase_of s t = Idle ->
  step s (AcqOn t b) =
  lift s t (KAcquire b) (exec lim_acquire_on_behalf_of_entry t (loc_entry (Some b) None) log0 (core s)).
Proof. exact tie_acquire_entry. Qed.
Print Assumptions C10_tie_lim_acquire_entry.

Theorem C10_tie_lim_acquire_yield_resumed : forall s t b,
  phase_of s t = FastYield b -> mustc s t = false ->
  step s (Resume t) =
  lift (woken s t) t (KAcquire b)
    (exec lim_acquire_on_behalf_of_yield_resumed t (loc_resume None (Some b) None) log0 (core (woken s t))).
Proof. exact tie_acquire_yield_resumed. Qed.
Print Assumptions C10_tie_lim_acquire_yield_resumed.

Theorem C10_tie_lim_acquire_yield_cancelled : forall s t b,
  phase_of s t = FastYield b -> mustc s t = true ->
  step s (Resume t) =
  lift (woken s t) t (KAcquire b)
    (exec lim_acquire_on_behalf_of_yield_cancelled t (loc_resume None (Some b) None) log0 (core (woken s t))).
Proof. exact tie_acquire_yield_cancelled. Qed.
Print Assumptions C10_tie_lim_acquire_yield_cancelled.

Theorem C10_tie_lim_acquire_event_resumed : forall s t b e,
  phase_of s t = Waiting b e ->
  evset s e = true -> fcanc s t = false -> mustc s t = false ->
  step s (Resume t) =
  lift (woken s t) t (KAcquire b)
    (exec lim_acquire_on_behalf_of_event_resumed t (loc_resume None (Some b) (Some e)) log0 (core (woken s t))).
Proof. exact tie_acquire_event_resumed. Qed.
Print Assumptions C10_tie_lim_acquire_event_resumed.

Theorem C10_tie_lim_acquire_event_cancelled : forall s t b e,
  phase_of s t = Waiting b e ->
  (evset s e = true \/ fcanc s t = true) -> fcanc s t || mustc s t = true ->
  step s (Resume t) =
  lift (woken s t) t (KAcquire b)
    (exec lim_acquire_on_behalf_of_event_cancelled t (loc_resume None (Some b) (Some e)) log0 (core (woken s t))).
Proof. exact tie_acquire_event_cancelled. Qed.
Print Assumptions C10_tie_lim_acquire_event_cancelled.

Theorem C10_tie_lim_acquire_nowait : forall s t b,
  phase_of s t = Idle ->
  step s (AcqOnNowait t b) =
  lift s t (KAcquire b) (exec lim_acquire_on_behalf_of_nowait_entry t (loc_entry (Some b) None) log0 (core s)).
Proof. exact tie_acquire_nowait. Qed.
Print Assumptions C10_tie_lim_acquire_nowait.

Theorem C10_tie_lim_release : forall s t b,
  phase_of s t = Idle ->
  step s (RelOn t b) =
  lift s t (KRelease b) (exec lim_release_on_behalf_of_entry t (loc_entry (Some b) None) log0 (core s)).
Proof. exact tie_release. Qed.
Print Assumptions C10_tie_lim_release.

Theorem C10_tie_lim_set_total : forall s t v,
  phase_of s t = Idle ->
  step s (SetTotal t v) =
  lift s t KSetter (exec lim_total_tokens_entry t (loc_entry None (Some (tok_of v))) log0 (core s)).
Proof. exact tie_set_total. Qed.
Print Assumptions C10_tie_lim_set_total.

Theorem C10_tie_lim_set_total_bad : forall s t k,
  phase_of s t = Idle ->
  step s (SetTotalBad t k) =
  lift s t KSetter (exec lim_total_tokens_entry t (loc_entry None (Some (bad_tok k))) log0 (core s)).
Proof. exact tie_set_total_bad. Qed.
Print Assumptions C10_tie_lim_set_total_bad.

Theorem C10_tie_lim_wrappers : forall s t,
  phase_of s t = Idle ->
  step s (AcqOnNowait t t) = lift s t (KAcquire t) (exec lim_acquire_nowait_entry t (loc_entry None None) log0 (core s)) /\
  step s (RelOn t t) = lift s t (KRelease t) (exec lim_release_entry t (loc_entry None None) log0 (core s)).
Proof. exact tie_wrappers. Qed.
Print Assumptions C10_tie_lim_wrappers.

Theorem C10_tie_lim_getters : forall s,
  eval_expr lim_total_tokens_getter (core s) = match total s with Some n => VNat n | None => VInf end /\
  eval_expr lim_borrowed_tokens_getter (core s) = VNat (length (borrowers s)) /\
  eval_expr lim_available_tokens_getter (core s) =
    match total s with Some n => VInt (Z.of_nat n - Z.of_nat (length (borrowers s))) | None => VInf end /\
  map (fun x => eval_expr x (core s)) lim_statistics_args =
    [VNat (length (borrowers s)); match total s with Some n => VNat n | None => VInf end;
     VSet (borrowers s); VNat (length (queue s))].
Proof. exact tie_getters. Qed.
Print Assumptions C10_tie_lim_getters.

Theorem C10_tie_lim_lift_spec : forall s t kd l g k o,
  let s' := fst (lift s t kd (l, g, k, o)) in
  core s' = mkh false None 0 [] (fun _ => Sem.FPending) 0 (h_total k) (h_borrowers k) (h_queue k) (h_evset k) (h_nev k) /\
  snd (lift s t kd (l, g, k, o)) = match res_of o with Some x => x | None => RRejected end /\
  phase_of s' = match o, l_bor l, l_ev l with
                | OSuspend AwYield, Some b, _ => upd (phase_of s) t (FastYield b)
                | OSuspend AwEvent, Some b, Some e => upd (phase_of s) t (Waiting b e)
                | _, _, _ => phase_of s
                end /\
  fcanc s' = match o with OSuspend AwEvent => upd (fcanc s) t false | _ => fcanc s end /\
  mustc s' = mustc s /\
  held s' = match kd with
            | KAcquire b => if returned o then b :: held s else held s
            | KRelease b => if returned o then remove_one b (held s) else held s
            | KSetter => held s
            end /\
  resv s' = g_grant g ++ match o, l_bor l with OSuspend AwYield, Some b => b :: resv s | _, _ => resv s end /\
  arrivals s' = arrivals s ++ g_arr g /\
  tainted s' = match kd with
               | KRelease b => if returned o then tainted s || mem b (resv s) else tainted s
               | _ => tainted s
               end.
Proof. exact lift_spec. Qed.
Print Assumptions C10_tie_lim_lift_spec.

Theorem C10_tie_lim_gstep_eq_step : forall s o,
  gstep lim_prog s o = step s o.
Proof. exact gstep_eq_step. Qed.
Print Assumptions C10_tie_lim_gstep_eq_step.

Theorem C10_tie_lim_gen_grant_only_if_free : forall s o,
  let s' := fst (gstep lim_prog s o) in
  (forall b, In b (borrowers s') -> In b (borrowers s)) \/ xle (length (borrowers s')) (total s').
Proof. exact gen_grant_only_if_free. Qed.
Print Assumptions C10_tie_lim_gen_grant_only_if_free.

Theorem C10_tie_lim_gen_conservation : forall v ops,
  let s := final (gstep lim_prog) (init v) ops in
  tainted s = false ->
  NoDup (borrowers s) /\
  (forall b, In b (borrowers s) <-> In b (held s) \/ In b (resv s)) /\
  (forall b, In b (held s) -> ~ In b (resv s)) /\
  length (borrowers s) = length (held s) + length (resv s).
Proof. exact gen_conservation. Qed.
Print Assumptions C10_tie_lim_gen_conservation.

Theorem C10_tie_lim_gen_fifo : forall v ops,
  let s := final (gstep lim_prog) (init v) ops in
  subseq (queue s) (arrivals s) /\ (queue s <> [] -> free (borrowers s) (total s) = false).
Proof. exact gen_fifo. Qed.
Print Assumptions C10_tie_lim_gen_fifo.

Theorem C10_tie_lim_gen_keys_distinct : forall v ops,
  let s := final (gstep lim_prog) (init v) ops in
  NoDup (keys (queue s)) /\ (forall b, In b (keys (queue s)) -> ~ In b (borrowers s)) /\ NoDup (borrowers s).
Proof. exact gen_keys_distinct. Qed.
Print Assumptions C10_tie_lim_gen_keys_distinct.

Theorem C10_tie_lim_gen_waiting_borrower_rejected : forall s t b,
  phase_of s t = Idle -> In b (keys (queue s)) -> ~ In b (borrowers s) ->
  gstep lim_prog s (AcqOn t b) = (s, RRuntime) /\ gstep lim_prog s (AcqOnNowait t b) = (s, RWouldBlock).
Proof. exact gen_waiting_borrower_rejected. Qed.
Print Assumptions C10_tie_lim_gen_waiting_borrower_rejected.


(* the entry check of CapacityLimiter.acquire_on_behalf_of() as a suspension (the limiter sibling of F53 / LockEntry).
   LimiterEntry.estep extends the machine with calls made from an already effectively cancelled scope: the call sits in
   checkpoint_if_cancelled() (spin t = Some borrower) until the cancellation is delivered (SpinCancel; or a native
   Cancel followed by its Resume) or the check returns after its yield because the cancelled scope stopped being visible
   (SpinReturn, F46); other tasks act on the limiter in between.  pinned = false is HEAD; pinned = true is the order
   "test, check, take" that Lock / Semaphore had before F53 (CapacityLimiter never had it; refuted witness only).
   `ereach v s` = s is reachable by LimiterEntry.estep false. *)
From AV Require Import LimiterEntry LimiterEntryThms.

Theorem C10_lim_entry_projects_to_limiter : forall v s, ereach v s -> reach v (lim s).
Proof. exact entry_projects_to_limiter. Qed.
Print Assumptions C10_lim_entry_projects_to_limiter.

Theorem C10_lim_entry_inherits : forall v s, ereach v s ->
  NoDup (borrowers (lim s)) /\
  (queue (lim s) <> [] -> free (borrowers (lim s)) (total (lim s)) = false) /\
  NoDup (keys (queue (lim s))) /\
  (forall b, In b (keys (queue (lim s))) -> ~ In b (borrowers (lim s))) /\
  subseq (queue (lim s)) (arrivals (lim s)).
Proof. exact entry_inherits. Qed.
Print Assumptions C10_lim_entry_inherits.

Theorem C10_lim_entry_cancelled_noeffect : forall s t b,
  spin s t = None -> phase_of (lim s) t = Idle ->
  let s1 := fst (estep false s (EnterCancelled t b)) in
  snd (estep false s (EnterCancelled t b)) = RBlocked /\ lim s1 = lim s /\ spin s1 t = Some b /\
  snd (estep false s1 (SpinCancel t)) = RCancelled /\ lim (fst (estep false s1 (SpinCancel t))) = lim s /\
  spin (fst (estep false s1 (SpinCancel t))) t = None.
Proof. exact entry_cancelled_noeffect. Qed.
Print Assumptions C10_lim_entry_cancelled_noeffect.

Theorem C10_lim_spinner_steps_noeffect : forall s t b o,
  spin s t = Some b -> op_tid o = t ->
  lim (fst (estep false s (L o))) = lim s /\
  (snd (estep false s (L o)) = RCancelled -> ckmust s t = true /\ o = Resume t).
Proof. exact spinner_steps_noeffect. Qed.
Print Assumptions C10_lim_spinner_steps_noeffect.

Theorem C10_lim_no_step_between_test_and_take : forall v s t b,
  ereach v s -> spin s t = Some b -> ckmust s t = false ->
  estep false s (SpinReturn t) =
  (unspin s (fst (Limiter.step (lim s) (AcqOn t b))) t, snd (Limiter.step (lim s) (AcqOn t b))).
Proof. exact no_step_between_test_and_take. Qed.
Print Assumptions C10_lim_no_step_between_test_and_take.

Theorem C10_lim_entry_grant_only_if_free : forall v s t b,
  ereach v s -> spin s t = Some b -> ckmust s t = false ->
  In b (borrowers (lim (fst (estep false s (SpinReturn t))))) -> ~ In b (borrowers (lim s)) ->
  free (borrowers (lim s)) (total (lim s)) = true /\ queue (lim s) = [].
Proof. exact entry_grant_only_if_free. Qed.
Print Assumptions C10_lim_entry_grant_only_if_free.

Theorem C10_lim_check_then_take_across_yield_refuted_pinned :
  let s := final (estep true) (einit (Some 1)) f53_ops in
  borrowers (lim s) = [1; 2] /\ total (lim s) = Some 1 /\
  snd (estep true (final (estep true) (einit (Some 1)) [EnterCancelled 1 1]) (L (AcqOnNowait 2 2))) = RDone /\
  ~ length (borrowers (lim s)) <= 1.
Proof. exact lim_check_then_take_across_yield_refuted_pinned. Qed.
Print Assumptions C10_lim_check_then_take_across_yield_refuted_pinned.

Theorem C10_lim_entry_nonvacuous :
  (let s := final (estep false) (einit (Some 1)) f53_ops in
   borrowers (lim s) = [2] /\ phase_of (lim s) 1 = Waiting 1 0 /\ queue (lim s) = [(1, 0)] /\ ereach (Some 1) s) /\
  (let s := final (estep false) (einit (Some 1)) [L (AcqOnNowait 2 2); EnterCancelled 1 7; L (Cancel 1)] in
   spin s 1 = Some 7 /\ ckmust s 1 = true /\ borrowers (lim s) = [2] /\ ereach (Some 1) s /\
   snd (estep false s (L (Resume 1))) = RCancelled /\ snd (estep false s (SpinReturn 1)) = RCancelled).
Proof. exact (conj f53_head ex_entry_hyp). Qed.
Print Assumptions C10_lim_entry_nonvacuous.

(* tie T for the limiter's entry check: what LimiterEntry.estep does to a call made in an
        already cancelled scope, in terms of the entry segment regenerated from the source *)
From AV Require Import LimiterEntryTie.

Theorem C10_tie_lim_check_first :
  exists body, lim_acquire_on_behalf_of_entry = SSeq SCkIf body /\
    forall t l g k, l_fresh l = true -> l_canc l = false ->
      exec lim_acquire_on_behalf_of_entry t l g k = exec body t l g k.
Proof. exact check_first. Qed.
Print Assumptions C10_tie_lim_check_first.

Theorem C10_tie_lim_entry_cancelled_is_generated : forall s t b,
  spin s t = None -> phase_of (lim s) t = Idle ->
  (exists l, exec lim_acquire_on_behalf_of_entry t (loc_entry_cancelled (Some b)) log0 (core (lim s)) =
             (l, log0, core (lim s), OCancelled)) /\
  lim (fst (estep false (fst (estep false s (EnterCancelled t b))) (SpinCancel t))) = lim s /\
  snd (estep false (fst (estep false s (EnterCancelled t b))) (SpinCancel t)) = RCancelled.
Proof. exact entry_cancelled_is_generated. Qed.
Print Assumptions C10_tie_lim_entry_cancelled_is_generated.

Theorem C10_tie_lim_spin_return_is_generated : forall v s t b,
  ereach v s -> spin s t = Some b -> ckmust s t = false -> phase_of (lim s) t = Idle ->
  estep false s (SpinReturn t) =
  (let x := lift (lim s) t (KAcquire b)
              (exec lim_acquire_on_behalf_of_entry t (loc_entry (Some b) None) log0 (core (lim s))) in
   (unspin s (fst x) t, snd x)).
Proof. exact spin_return_is_generated. Qed.
Print Assumptions C10_tie_lim_spin_return_is_generated.

Theorem C10_tie_lim_spin_return_nonvacuous :
  let s := final (estep false) (einit (Some 1)) [EnterCancelled 1 1; L (AcqOnNowait 2 2)] in
  ereach (Some 1) s /\ spin s 1 = Some 1 /\ ckmust s 1 = false /\ phase_of (lim s) 1 = Idle /\
  snd (estep false s (SpinReturn 1)) = RBlocked /\ queue (lim (fst (estep false s (SpinReturn 1)))) = [(1, 0)].
Proof. exact ex_spin_return_hyp. Qed.
Print Assumptions C10_tie_lim_spin_return_nonvacuous.

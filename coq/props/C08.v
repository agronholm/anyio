(* C08 — Checkpoint discipline.  Statements closed by `exact` + Print Assumptions only.
   (1) semantics of the three checkpoint functions on the S machine (every reachable or unreachable state);
   (2) the fast-path shape table: cancel-check -> effect -> yield, or checkpoint -> effect;
   (3) the real primitive models take exactly those first segments;
   (4) itertools traversals: props/C08_itertools.v (same cone, imported here). *)
From AV Require Import Base Machine CheckpointFacts CkifPinned FastPath FastPathProofs FastPathModels.
From AV Require TreeStep.
From AV Require Lock Sem Limiter EventCond MemStream.

Theorem C08_ckif_suspends_iff_effectively_cancelled : forall s t,
  idle s t = true ->
  snd (step s (ACkIf t)) =
    if eff_cancelled_from (nscope s) s (k_cur (tasks s t)) then RBlocked else RRet 0.
Proof. exact ckif_suspends_iff_effectively_cancelled. Qed.
Print Assumptions C08_ckif_suspends_iff_effectively_cancelled.

Theorem C08_ckif_spin_resume : forall s t fo,
  k_ctl (tasks s t) = CYield YCkIf ->
  match snd (incoming s t fo) with
  | None => snd (resume s t fo) =
            if ckif_spins (nscope s) s (k_cur (tasks s t)) then RBlocked else RRet 0
  | Some e => snd (resume s t fo) = RExc e
  end.
Proof. exact ckif_spin_resume. Qed.
Print Assumptions C08_ckif_spin_resume.

(* F46: the "suspends iff" statement holds at EVERY re-check of the spin, not only at entry.  When the loop runs the step
   callback of a task that is spinning in checkpoint_if_cancelled and carries no cancellation request, the task yields
   again iff a cancelled scope is (still) visible from its current scope, and returns normally otherwise.  Any state. *)
Theorem C08_ckif_respin_iff_effectively_cancelled : forall s t,
  In (HStep t) (ready s) -> k_ctl (tasks s t) = CYield YCkIf -> k_must (tasks s t) = false ->
  snd (step s (ARun (HStep t))) =
    if eff_cancelled_from (nscope s) s (k_cur (tasks s t)) then RBlocked else RRet 0.
Proof. exact ckif_respin_iff_effectively_cancelled. Qed.
Print Assumptions C08_ckif_respin_iff_effectively_cancelled.

(* Refuted for the loop as it was before F46 (step_pinned = today's step except that a spinning task without a request
   yields again unconditionally: the loop kept the scope it had found at entry).  f46_ops: task 1 sleeps in scope 2
   inside scope 1 and its sleep is over; task 2 cancels scope 1 (the delivery skips task 1, which is about to resume);
   task 1 resumes and calls checkpoint_if_cancelled, which suspends; task 2 sets shield = True on scope 2; the delivery
   callback of scope 1 runs, reaches nobody and is not re-scheduled.  In the state f46_state after that: task 1 is
   alone in the ready queue, spinning, no request recorded; no cancelled scope is visible from its scope 2; scope 1 has
   no delivery callback, there is no timer.  Today's step returns 0 to the task.  The pinned step suspends it again with
   the queue again [HStep 1]. *)
Theorem C08_ckif_respin_refuted_pinned :
  TreeStep.ops_ok init f46_ops = true /\
  nth 11 (snd (run_ops step init f46_ops)) RNone = RBlocked /\
  spinning f46_state 1 /\ k_cur (tasks f46_state 1) = Some 2 /\
  s_cancelled (scopes f46_state 1) = true /\ s_shield (scopes f46_state 2) = true /\
  eff_cancelled f46_state 2 = false /\ s_chandle (scopes f46_state 1) = false /\ timers f46_state = [] /\
  snd (step f46_state (ARun (HStep 1))) = RRet 0 /\
  snd (step_pinned f46_state (ARun (HStep 1))) = RBlocked /\
  ready (fst (step_pinned f46_state (ARun (HStep 1)))) = [HStep 1].
Proof. exact ckif_spin_without_delivery_witness. Qed.
Print Assumptions C08_ckif_respin_refuted_pinned.

Theorem C08_checkpoint_always_suspends : forall s t, idle s t = true -> snd (step s (AYield t)) = RBlocked.
Proof. exact yield_always_suspends. Qed.
Print Assumptions C08_checkpoint_always_suspends.

Theorem C08_shielded_checkpoint_always_suspends : forall s t,
  idle s t = true -> snd (step s (AShieldCk t)) = RBlocked.
Proof. exact shieldck_always_suspends. Qed.
Print Assumptions C08_shielded_checkpoint_always_suspends.

Theorem C08_checkpoint_resume : forall s t fo,
  k_ctl (tasks s t) = CYield YCheckpoint -> snd (resume s t fo) = res_of_inc (snd (incoming s t fo)).
Proof. exact yield_resume. Qed.
Print Assumptions C08_checkpoint_resume.

Theorem C08_shape_cancelled_noeffect : forall l,
  starts_with_check l = true ->
  raised (run_shape true l out0) = true /\ effects (run_shape true l out0) = 0.
Proof. exact shape_cancelled_noeffect. Qed.
Print Assumptions C08_shape_cancelled_noeffect.

Theorem C08_shape_not_cancelled_yields : forall l,
  has_yield l = true ->
  raised (run_shape false l out0) = false /\ effects (run_shape false l out0) = count_effects l /\
  1 <= yields (run_shape false l out0).
Proof. exact shape_not_cancelled_yields. Qed.
Print Assumptions C08_shape_not_cancelled_yields.

Theorem C08_fastpath_table_checkpoints : forall row, In row checked_rows ->
  starts_with_check (row_shape row) = true /\ has_yield (row_shape row) = true /\
  (let o := run_shape true (row_shape row) out0 in raised o = true /\ effects o = 0) /\
  (let o := run_shape false (row_shape row) out0 in
   raised o = false /\ effects o = count_effects (row_shape row) /\ 1 <= yields o).
Proof. exact fastpath_table_checkpoints. Qed.
Print Assumptions C08_fastpath_table_checkpoints.

Theorem C08_cond_wait_cancelled_keeps_lock :
  let o := run_shape true (row_shape 9) out0 in raised o = true /\ effects o = 0.
Proof. exact cond_wait_cancelled_keeps_lock. Qed.
Print Assumptions C08_cond_wait_cancelled_keeps_lock.

Theorem C08_lock_uncontended_acquire_yields : forall s t,
  Lock.phase_of s t = Lock.Idle -> Lock.owner s = None -> Lock.waiters s = [] -> Lock.fast s = false ->
  snd (Lock.step s (Lock.AcqBegin t)) = Lock.RBlocked /\
  Lock.owner (fst (Lock.step s (Lock.AcqBegin t))) = Some t /\
  Lock.phase_of (fst (Lock.step s (Lock.AcqBegin t))) t = Lock.FastYield.
Proof. exact lock_uncontended_acquire_yields. Qed.
Print Assumptions C08_lock_uncontended_acquire_yields.

Theorem C08_sem_uncontended_acquire_yields : forall s t v,
  Sem.phase_of s t = Sem.Idle -> Sem.value s = S v -> Sem.waiters s = [] -> Sem.fast s = false ->
  snd (Sem.step s (Sem.AcqBegin t)) = Sem.RBlocked /\ Sem.value (fst (Sem.step s (Sem.AcqBegin t))) = v.
Proof. exact sem_uncontended_acquire_yields. Qed.
Print Assumptions C08_sem_uncontended_acquire_yields.

Theorem C08_limiter_free_acquire_yields : forall s t b,
  Limiter.phase_of s t = Limiter.Idle -> C10Defs.mem b (Limiter.borrowers s) = false -> Limiter.busy s = false ->
  snd (Limiter.step s (Limiter.AcqOn t b)) = Limiter.RBlocked /\
  Limiter.borrowers (fst (Limiter.step s (Limiter.AcqOn t b))) = b :: Limiter.borrowers s.
Proof. exact limiter_free_acquire_yields. Qed.
Print Assumptions C08_limiter_free_acquire_yields.

Theorem C08_event_wait_on_set_event_yields : forall s t,
  EventCond.e_is_idle (EventCond.ephase_of s t) = true -> EventCond.eflag s = true ->
  snd (EventCond.estep s (EventCond.EvWait t)) = Lock.RBlocked.
Proof. exact event_wait_on_set_event_yields. Qed.
Print Assumptions C08_event_wait_on_set_event_yields.

Theorem C08_memstream_send_checkpoints_first : forall s t h x,
  snd (MemStream.step s (MemStream.Send t h x)) = MemStream.RBlocked \/
  snd (MemStream.step s (MemStream.Send t h x)) = MemStream.RRejected.
Proof. exact memstream_send_checkpoints_first. Qed.
Print Assumptions C08_memstream_send_checkpoints_first.

Theorem C08_memstream_receive_checkpoints_first : forall s t h,
  snd (MemStream.step s (MemStream.Recv t h)) = MemStream.RBlocked \/
  snd (MemStream.step s (MemStream.Recv t h)) = MemStream.RRejected.
Proof. exact memstream_receive_checkpoints_first. Qed.
Print Assumptions C08_memstream_receive_checkpoints_first.

(* tie T: the table rows regenerated from the source on this run (tools/translate_fastpath.py) *)
From AV Require FastPathGen FastPathGenEq.

Theorem C08_generated_shapes_equal_table : forall r,
  In r FastPathGenEq.exact_rows -> FastPathGen.row_shape_gen r = Some (row_shape r).
Proof. exact FastPathGenEq.generated_shapes_equal_table. Qed.
Print Assumptions C08_generated_shapes_equal_table.

Theorem C08_generated_entry_segments_are_prefixes : forall r, In r FastPathGenEq.prefix_rows ->
  exists g rest, FastPathGen.row_shape_gen r = Some g /\ row_shape r = g ++ rest /\ starts_with_check g = true.
Proof. exact FastPathGenEq.generated_entry_segments_are_prefixes. Qed.
Print Assumptions C08_generated_entry_segments_are_prefixes.

Theorem C08_every_translated_row_is_covered : forall r,
  In r FastPathGen.translated_rows -> In r FastPathGenEq.exact_rows \/ In r FastPathGenEq.prefix_rows.
Proof. exact FastPathGenEq.every_translated_row_is_covered. Qed.
Print Assumptions C08_every_translated_row_is_covered.

(* clause (a) on the REGENERATED code (tie T of C09 / C10): rows 5, 6, 7 of the table are the entry segments that
   tools/translate_lock.py / translate_prims.py regenerate from /repo's source on this run; run by the interpreters
   LockImp.exec / PrimImp.exec with "the caller's scope is effectively cancelled at entry" they end at the
   cancellation check with NOTHING changed (owner / value / borrowers / queues / futures / events, nothing enqueued,
   nobody woken).  Since F53 Lock.acquire checks first on BOTH paths: the Lock theorem is for every state.  With the flag off the same segments are the ones C09_tie_* / C10_tie_* equate with the models.
   The interpreters are position-sensitive: a segment that performs its effect before the check is stuck and none of
   these theorems could be proved for it (LockGenEq / SemGenEq / LimiterGenEq: ex_check_after_effect_is_stuck_cancelled). *)
From AV Require LockImp LockGen LockGenEq PrimImp SemImp SemGen SemGenEq LimiterImp LimiterGen LimiterGenEq.

Theorem C08_tie_lock_cancelled_entry_noeffect : forall (s : Lock.st) (t : tid),
  exists e, LockImp.exec LockGen.acquire_entry t LockImp.env_entry_cancelled (LockImp.core s) =
              (e, LockImp.core s, LockImp.OCancelled) /\
            LockImp.e_enq e = [] /\ LockImp.e_rel e = false.
Proof. exact LockGenEq.cancelled_entry_noeffect. Qed.
Print Assumptions C08_tie_lock_cancelled_entry_noeffect.

Theorem C08_tie_sem_cancelled_entry_noeffect : forall (s : Sem.st) (t : tid),
  exists l, PrimImp.exec SemGen.sem_acquire_entry t (PrimImp.loc_entry_cancelled None) PrimImp.log0 (SemImp.core s) =
            (l, PrimImp.log0, SemImp.core s, PrimImp.OCancelled).
Proof. exact SemGenEq.cancelled_entry_noeffect. Qed.
Print Assumptions C08_tie_sem_cancelled_entry_noeffect.

(* since the F53 fix (c2fb7fb) the check is the FIRST statement of Semaphore.acquire(): the statement above holds
   in EVERY state (permit free or not, queue empty or not: the contended path has the check too), and with a live check the regenerated entry segment is its remaining body *)
Theorem C08_tie_sem_cancelled_entry_check_first :
  exists body, SemGen.sem_acquire_entry = PrimImp.SSeq PrimImp.SCkIf body /\
    forall t l g k, PrimImp.l_fresh l = true -> PrimImp.l_canc l = false ->
      PrimImp.exec SemGen.sem_acquire_entry t l g k = PrimImp.exec body t l g k.
Proof. exact SemGenEq.tie_acquire_check_first. Qed.
Print Assumptions C08_tie_sem_cancelled_entry_check_first.

(* CapacityLimiter.acquire() / acquire_on_behalf_of(b): every state and borrower - a token free or not, b already
   holding or already waiting: the cancellation check is the first statement, before both RuntimeError tests *)
Theorem C08_tie_lim_cancelled_entry_noeffect : forall (s : Limiter.st) (t : tid) (b : Limiter.bid),
  exists l, PrimImp.exec LimiterGen.lim_acquire_on_behalf_of_entry t (PrimImp.loc_entry_cancelled (Some b))
              PrimImp.log0 (LimiterImp.core s) =
            (l, PrimImp.log0, LimiterImp.core s, PrimImp.OCancelled).
Proof. exact LimiterGenEq.cancelled_entry_noeffect. Qed.
Print Assumptions C08_tie_lim_cancelled_entry_noeffect.

(* row 9: Condition.wait() called from an effectively cancelled scope raises before the holder test, with the lock
   still held and nothing enqueued (segment regenerated by tools/translate_cond.py, tie T of C11) *)
From AV Require EventCond CondImp CondGen CondGenEq.

Theorem C08_tie_cond_wait_cancelled_entry_noeffect : forall (s : EventCond.cst) (c : EventCond.cid) (t : tid),
  exists l, CondImp.exec CondGen.cond_wait_entry t CondImp.loc_entry_cancelled (CondImp.vis s c) =
            (l, CondImp.vis s c, CondImp.OCancelled).
Proof. exact CondGenEq.cond_wait_cancelled_entry_noeffect. Qed.
Print Assumptions C08_tie_cond_wait_cancelled_entry_noeffect.

(* rows 10-13: memory stream send() / receive() called from an effectively cancelled scope raise the cancellation at
   their first statement - a FULL checkpoint - with nothing changed (segments regenerated by tools/translate_mem.py,
   tie T of C12/C13; MemGenEq.ex_effect_before_checkpoint_is_visible shows that an effect in front of it would show) *)
From AV Require MemImp MemGen MemGenEq.

Theorem C08_tie_mem_cancelled_entry_noeffect : forall (s : MemStream.st) (h : MemStream.hid) (t : tid) (x : MemStream.item),
  (exists l, MemImp.exec MemGen.snd_send_entry t (MemImp.loc_cancelled (Some x)) (MemImp.vis s h) =
             (l, MemImp.vis s h, MemImp.OCancelled)) /\
  (exists l, MemImp.exec MemGen.rcv_receive_entry t (MemImp.loc_cancelled None) (MemImp.vis s h) =
             (l, MemImp.vis s h, MemImp.OCancelled)).
Proof. exact MemGenEq.cancelled_entry_noeffect. Qed.
Print Assumptions C08_tie_mem_cancelled_entry_noeffect.

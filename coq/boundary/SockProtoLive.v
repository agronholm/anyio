(* No lost wake-up on the AnyIO side: a receive() stays suspended on the read event only while there is really
   nothing to deliver and the transport has reported neither EOF nor a connection loss; a send() stays suspended
   only while the write event it waits on is unset.  (Read off SockProtoThms.Inv2 and SockProtoProofs.Inv.) *)
From AV Require Import Base SockProto SockProtoProofs SockProtoThms.

(* a receive() suspended on the read event, not yet woken: nothing queued, no EOF, no connection loss reported;
   a send() suspended on a write event, not yet woken: that event is unset.  Hence every wake-up owed by AnyIO's
   side has been issued (no deadlock of AnyIO's making). *)
Theorem sock_no_lost_wakeup p r0 s t :
  reachv p r0 s ->
  (forall mx, phase_of s t = RecvWait mx FPending ->
     rq s = [] /\ rev s = false /\ eof s = false /\ exc s = None /\ g_lostclean s = false) /\
  (forall ev, phase_of s t = SendWait ev FPending -> wval s ev = false).
Proof.
  intros [ops ->]. pose proof (reachable_inv p r0 ops) as I. pose proof (proj1 (reachable_carried p r0 ops)) as J.
  set (s := final (stepv p) (init r0) ops) in *. split.
  - intros mx Hp. destruct (I_rw s I t mx FPending Hp) as (_ & _ & C).
    destruct (J_p s J t mx Hp) as (A & B & D).
    assert (Hr : rev s = false) by (apply C; reflexivity).
    refine (conj _ (conj Hr (conj A (conj B D)))).
    destruct (rq s) eqn:Eq; [reflexivity|]. exfalso.
    assert (rev s = true) by (apply (J_q s J); rewrite Eq; discriminate). congruence.
  - intros ev Hp. apply (I_sw s I t ev FPending Hp). reflexivity.
Qed.

(* the queue is never non-empty with the read event cleared *)
Theorem sock_queue_implies_event p r0 s : reachv p r0 s -> rq s <> [] -> rev s = true.
Proof. intros [ops ->]. apply J_q, (reachable_carried p r0 ops). Qed.

Example ex_no_lost_wakeup_hyp :
  let s := final step (init false) [Receive 1 4; Send 2 [9]%Z; Resume 2 true] in
  phase_of s 1 = RecvWait 4 FPending /\ phase_of s 2 = SendWait 1 FPending.
Proof. vm_compute. auto. Qed.

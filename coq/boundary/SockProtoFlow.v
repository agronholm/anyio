(* Findings F44 / F45 (fixed in /repo by a778493 / 58a3fa8):
   - the transport's user-space write buffer never holds data of more than one send() call (HEAD), refuted for the
     pinned variant (every send after a cancelled send piles its item on top);
   - aclose() aborts the transport also when its checkpoint is cancelled (HEAD); the connection_lost() that the
     transport owes after an abort wakes every parked send()/receive(), which end with ClosedResourceError. *)
From AV Require Import Base SockProto SockProtoProofs SockProtoThms.

(* HEAD, every op / env sequence: the items handed to transport.write() whose drain has not been signalled (by
   resume_writing or connection_lost) come from at most ONE send() call.  Under the transport contract "a write() that
   could not be handed to the kernel completely makes the transport call pause_writing inside write(); resume_writing
   is called when the buffer is empty" that is: the user-space write buffer holds data of at most one send(). *)
Theorem send_buffer_holds_at_most_one_send r0 s :
  reachv false r0 s -> g_pending s <= 1.
Proof. intros [ops ->]. apply P_le, (reachable_carried false r0 ops). reflexivity. Qed.

(* a send() enters its write with a closed gate only after its own pre-write wait was released: then nothing else is
   pending *)
Theorem send_prewait_released_means_drained r0 s t ev :
  reachv false r0 s -> phase_of s t = SendWait ev FSet -> prew s t <> None -> g_pending s = 0.
Proof. intros [ops ->]. apply P_pre, (reachable_carried false r0 ops). reflexivity. Qed.

(* the pinned tree (before commit 58a3fa8): a send() cancelled in its wait, then N sends, each cancelled after its
   write: all N + 1 items are accepted while the transport has paused writing *)
Theorem send_buffer_holds_at_most_one_send_refuted_pinned :
  let ops := [Send 1 [1]%Z; Resume 1 true; Cancel 1; Resume 1 false;
              Send 1 [2]%Z; Resume 1 false; Cancel 1; Resume 1 false;
              Send 1 [3]%Z; Resume 1 false; Cancel 1; Resume 1 false;
              Send 1 [4]%Z; Resume 1 false] in
  let s := final (stepv true) (init false) ops in
  g_pending s = 4 /\ g_written s = [1; 2; 3; 4]%Z /\ wval s (wev s) = false /\
  (let s' := final (stepv false) (init false) ops in g_pending s' = 1 /\ g_written s' = [1]%Z).
Proof. vm_compute. auto. Qed.

(* HEAD: aclose() ends in the aborted state whether or not its checkpoint is cancelled *)
Theorem sock_cancelled_close_still_aborts s t pw :
  phase_of s t = CloseYield ->
  let s' := fst (stepv false s (Resume t pw)) in
  aborted s' = true /\ phase_of s' t = Idle /\ closed s' = closed s /\
  snd (stepv false s (Resume t pw)) = (if mustc s t then RCancelled else RDone).
Proof.
  intros Ep. cbn [stepv]. rewrite Ep. destruct (mustc s t); cbn; rewrite upd_same; auto.
Qed.

(* after an abort the transport owes connection_lost(): it wakes every parked receive() and every send() parked on the
   current write event *)
Theorem sock_connection_lost_wakes_everyone p r0 s e :
  reachv p r0 s ->
  let s' := fst (stepv p s (ConnectionLost e)) in
  (forall t mx, phase_of s' t <> RecvWait mx FPending) /\
  (forall t ev, phase_of s' t = SendWait ev FPending -> ev <> wev s').
Proof.
  intros R. pose proof (reachv_inv p r0 s R) as I.
  pose proof (reachv_inv p r0 _ (reachv_step p r0 s (ConnectionLost e) R)) as I'.
  set (s' := fst (stepv p s (ConnectionLost e))) in *. cbn zeta.
  assert (Hr : rev s' = true /\ wval s' (wev s') = true).
  { unfold s'. cbn [stepv fst]. rewrite write_event_set_eq, read_event_set_eq. cbn.
    destruct (wval _ _) eqn:Ew; [auto|]. rewrite upd_same. auto. }
  destruct Hr as [Hr Hw]. split.
  - intros t mx P. destruct (I_rw s' I' t mx FPending P) as (_ & _ & C). rewrite C in Hr by reflexivity. discriminate.
  - intros t ev P E. subst ev. destruct (I_sw s' I' t (wev s') FPending P) as (_ & _ & C).
    rewrite C in Hw by reflexivity. discriminate.
Qed.

(* ... and on a locally closed stream the woken calls end with ClosedResourceError (receive: after the data that was
   already received) *)
Theorem sock_woken_calls_on_closed_stream s t pw :
  closed s = true -> mustc s t = false ->
  (forall ev, phase_of s t = SendWait ev FSet -> snd (stepv false s (Resume t pw)) = RClosed) /\
  (forall mx, phase_of s t = RecvWait mx FSet ->
     snd (stepv false s (Resume t pw)) = match rq s with [] => RClosed | hd :: _ => RData (firstn mx hd) end).
Proof.
  intros Hc Hm. split.
  - intros ev Ep. cbn [stepv]. rewrite Ep, Hm.
    destruct (prew s t); [unfold send_write; cbn; rewrite Hc; reflexivity|].
    unfold send_wait_result. rewrite Hc. reflexivity.
  - intros mx Ep. cbn [stepv]. rewrite Ep, Hm. unfold recv_finish.
    change (rq (set_reading s false)) with (rq s). change (closed (set_reading s false)) with (closed s).
    rewrite Hc. destruct (rq s) as [|hd r]; [reflexivity|]. cbn [snd].
    destruct (Nat.ltb_spec mx (length hd)); [reflexivity|]. rewrite firstn_all2 by assumption. reflexivity.
Qed.

(* the pinned tree (before commit a778493): aclose() cancelled in its checkpoint (aclose_forcefully, or aclose() in a
   cancelled scope) never aborts; with a send() parked on a non-empty write buffer and a receive() parked, both stay
   parked: the transport has no reason to report connection_lost() *)
Theorem sock_cancelled_close_still_aborts_refuted_pinned :
  let ops := [Send 1 [7]%Z; Resume 1 true; Receive 2 4; Close 3; Cancel 3; Resume 3 false] in
  let s := final (stepv true) (init false) ops in
  closed s = true /\ aborted s = false /\ phase_of s 3 = Idle /\
  phase_of s 1 = SendWait 1 FPending /\ phase_of s 2 = RecvWait 4 FPending /\
  (let s' := final (stepv false) (init false) ops in aborted s' = true).
Proof. vm_compute. auto 10. Qed.

Example ex_prewait_hyp :
  let s := final step (init false)
             [Send 1 [1]%Z; Resume 1 true; Cancel 1; Resume 1 false; Send 1 [2]%Z; Resume 1 false; ResumeWriting] in
  phase_of s 1 = SendWait 1 FSet /\ prew s 1 = Some [2]%Z /\ g_pending s = 0 /\ g_written s = [1]%Z.
Proof. vm_compute. auto. Qed.

Example ex_cancelled_close_hyp :
  let s := final step (init false) [Close 3; Cancel 3] in
  phase_of s 3 = CloseYield /\ mustc s 3 = true /\ aborted s = false /\
  aborted (fst (step s (Resume 3 false))) = true.
Proof. vm_compute. auto. Qed.

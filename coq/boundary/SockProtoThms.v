(* C18 clauses as theorems over every op / env sequence of the SockProto machine; then a second invariant (three further
   clauses carried through stepv together) with its own step lemmas, and the non-vacuity witnesses. *)
From AV Require Import Base SockProto SockProtoProofs.

(* states reachable by any sequence of API, scheduler and transport ops; pinned selects the variant,
   r0 the transport's initial reading flag *)
Definition reachv (pinned r0 : bool) (s : st) : Prop :=
  exists ops, s = final (stepv pinned) (init r0) ops.

Lemma reachv_inv p r0 s : reachv p r0 s -> Inv s.
Proof. intros [ops ->]. apply reachable_inv. Qed.

Lemma reachv_step p r0 s o : reachv p r0 s -> reachv p r0 (fst (stepv p s o)).
Proof. intros [ops ->]. exists (ops ++ [o]). rewrite final_app. reflexivity. Qed.

Definition payload (o : op) : list Z := match o with DataReceived d => d | _ => [] end.
Definition data_of (r : res) : list Z := match r with RData c => c | _ => [] end.

(* Each helper of stepv written as s with the fields it touches overwritten: after rewriting with one of these
   equations every projection of the new state computes. *)
Lemma read_event_set_eq s :
  read_event_set s =
  set_phase_of (set_rev s true) (if rev s then phase_of s else wake_readers (phase_of s)).
Proof. unfold read_event_set. destruct s as [? []]; reflexivity. Qed.

Lemma write_event_set_eq s :
  write_event_set s =
  set_phase_of (set_wval (set_g_pending s 0) (if wval s (wev s) then wval s else upd (wval s) (wev s) true))
    (if wval s (wev s) then phase_of s else wake_writers (wev s) (phase_of s)).
Proof.
  unfold write_event_set, write_event_set0. cbn [wval wev set_g_pending phase_of].
  destruct (wval s (wev s)); destruct s; reflexivity.
Qed.

Lemma recv_finish_eq s t mx :
  exists q v, fst (recv_finish s t mx) =
    leave_recv (set_rev (set_g_ret (set_rq s q) (g_ret s ++ data_of (snd (recv_finish s t mx)))) v) t /\
    (q <> [] -> rq s <> [] /\ v = rev s).
Proof.
  unfold recv_finish. destruct (rq s) as [|c r] eqn:Q.
  - exists [], (rev s). replace (data_of _) with (@nil Z) by (destruct (closed s); [|destruct (exc s)]; reflexivity).
    rewrite app_nil_r. split; [destruct s; cbn in Q; subst; reflexivity|contradiction].
  - cbn [fst snd data_of].
    set (rest := if Nat.ltb mx (length c) then skipn mx c :: r else r).
    exists rest, (match rest with [] => false | _ => rev s end).
    split; [destruct rest; destruct s; reflexivity|]. destruct rest; [contradiction|]. split; [discriminate|reflexivity].
Qed.

(* the transport's reading flag plays no part in the pop segment *)
Lemma recv_finish_reading s v t mx :
  recv_finish (set_reading s v) t mx = (set_reading (fst (recv_finish s t mx)) v, snd (recv_finish s t mx)).
Proof.
  unfold recv_finish. change (rq (set_reading s v)) with (rq s). destruct (rq s) as [|c r]; [reflexivity|].
  cbn [fst snd]. destruct (if Nat.ltb mx (length c) then skipn mx c :: r else r); reflexivity.
Qed.

Definition is_data (r : res) : bool := match r with RData _ | REndOfStream => true | _ => false end.

Lemma no_data r : is_data r = false -> data_of r = [].
Proof. destruct r; try reflexivity; discriminate. Qed.

Lemma send_wait_result_res p s : is_data (send_wait_result p s) = false.
Proof. unfold send_wait_result. destruct p, (closed s), (exc s); reflexivity. Qed.

Lemma send_write_res s t item pw : is_data (snd (send_write s t item pw)) = false.
Proof.
  unfold send_write. destruct (closed s), (exc s), (weof s), (tclosing s); try reflexivity;
    destruct (wval _ _); reflexivity.
Qed.

(* send_write, in the same form: the eight existentials are the new values of the fields it touches (the state is written
   as nested setters so that every projection computes; the witnesses are found by unification and never named), and
   what the outcomes RDone / RBlocked say: no error was recorded, the item was handed over, the gate is open / shut *)
Lemma send_write_eq s t item pw :
  exists gw n e w sg ph mc pr,
    fst (send_write s t item pw) =
      set_prew (set_mustc (set_phase_of (set_sguard (set_wval (set_wev (set_g_pending (set_g_written s gw) n) e) w) sg)
                 (upd (phase_of s) t ph)) mc) pr /\
    (ph = Idle \/ ph = SendWait e FPending) /\
    (forall ev, ev <= wev s -> w ev = wval s ev) /\
    (n = g_pending s \/ n <= 1 \/ n = S (g_pending s) /\ closed s = false /\ wval s (wev s) = false) /\
    match snd (send_write s t item pw) with
    | RDone => closed s = false /\ exc s = None /\ gw = g_written s ++ item /\ w e = true /\ ph = Idle
    | RBlocked => closed s = false /\ exc s = None /\ gw = g_written s ++ item /\ w e = false /\ ph = SendWait e FPending
    | _ => True
    end.
Proof.
  unfold send_write.
  destruct (closed s) eqn:Ec; [|destruct (exc s) eqn:Ex; [|destruct (weof s); [destruct (tclosing s)|]]];
    [destruct s; do 8 eexists; split; [cbv -[upd]; reflexivity|cbn; auto 6]..|].
  destruct (wval s (wev s)) eqn:W, pw; cbn [pause_writing wev wval set_wev set_wval set_g_pending set_g_written];
    rewrite ?upd_same, ?W; cbn [fst snd];
    destruct s; do 8 eexists; (split; [cbv -[upd app]; reflexivity|]); cbn; rewrite ?upd_same; auto 10;
    (split; [auto|]); (split; [intros ev H; cbn in H; apply upd_other; lia|auto 10]).
Qed.

(* the fields that record the history, as functions of the op (the ghost fields g_recv, g_ret: of the op and the output);
   an unset write event is set by the transport's two callbacks only *)
Lemma step_fields p s o :
  let s' := fst (stepv p s o) in
  g_recv s' = g_recv s ++ payload o /\
  g_ret s' = g_ret s ++ data_of (snd (stepv p s o)) /\
  eof s' = match o with EofReceived => true | _ => eof s end /\
  exc s' = match o with ConnectionLost (Some e) => Some e | _ => exc s end /\
  g_lostclean s' = match o with ConnectionLost None => true | _ => g_lostclean s end /\
  closed s' = match o with Close t => is_idle (phase_of s t) || closed s | _ => closed s end /\
  (o = ResumeWriting \/ (exists e, o = ConnectionLost e) \/ forall ev, ev <= wev s -> wval s' ev = wval s ev).
Proof.
  destruct o as [t mx|t item|t|t|t pw|t|d| |e| |]; cbn [stepv payload].
  - destruct (is_idle (phase_of s t)); [destruct (Nat.eqb mx 0); [|destruct (rguard s); [|destruct (andb _ _)]]|];
      cbn; rewrite !app_nil_r; auto 10.
  - destruct (is_idle (phase_of s t)); [destruct (sguard s)|]; cbn; rewrite !app_nil_r; auto 10.
  - destruct (is_idle (phase_of s t)); [destruct (tclosing s)|]; cbn; rewrite !app_nil_r; auto 10.
  - destruct (is_idle (phase_of s t)); [destruct (tclosing s)|]; cbn; rewrite !app_nil_r; auto 10.
  - destruct (phase_of s t) as [|mx|mx f|item|ev f|].
    + cbn; rewrite ?app_nil_r; auto 10.
    + destruct (mustc s t); [|destruct (recv_finish_eq s t mx) as (q & v & -> & _)]; cbn; rewrite ?app_nil_r; auto 10.
    + destruct f; [|destruct (mustc s t); [destruct p|]|destruct p];
        try destruct (recv_finish_eq (set_reading s false) t mx) as (q & v & -> & _); cbn; rewrite ?app_nil_r; auto 10.
    + destruct (send_write_eq s t item pw) as (gw & n & e & w & sg & ph & mc & pr & E & _ & W & _).
      destruct (mustc s t); [|destruct (andb _ _); [|rewrite E, (no_data _ (send_write_res s t item pw))]];
        cbn; rewrite ?app_nil_r; auto 10.
    + destruct f; [|destruct (mustc s t); [|destruct (prew s t) as [item|]]|].
      3: destruct (send_write_eq (clear_prew s t) t item pw) as (gw & n & e & w & sg & ph & mc & pr & -> & _ & W & _);
         rewrite (no_data _ (send_write_res (clear_prew s t) t item pw)).
      4: cbn [snd]; rewrite (no_data _ (send_wait_result_res p s)).
      all: cbn; rewrite ?app_nil_r; auto 10.
    + destruct (mustc s t); [destruct p|]; cbn; rewrite ?app_nil_r; auto 10.
  - destruct (phase_of s t) as [| |? []| |? []|]; cbn; rewrite !app_nil_r; auto 10.
  - destruct d; [|rewrite read_event_set_eq]; cbn; rewrite !app_nil_r; auto 10.
  - rewrite read_event_set_eq. cbn. rewrite !app_nil_r. auto 10.
  - rewrite write_event_set_eq, read_event_set_eq. destruct e; cbn; rewrite !app_nil_r; eauto 10.
  - cbn. rewrite !app_nil_r. repeat split; auto. right. right. intros ev H. apply upd_other. lia.
  - rewrite write_event_set_eq. cbn. rewrite !app_nil_r. auto 10.
Qed.

(* data and EndOfStream come out of the pop segment only *)
Lemma recv_result p s o : is_data (snd (stepv p s o)) = true ->
  exists t pw mx, o = Resume t pw /\ (phase_of s t = RecvYield mx \/ phase_of s t = RecvWait mx FSet) /\
    snd (stepv p s o) = snd (recv_finish s t mx) /\ rq (fst (stepv p s o)) = rq (fst (recv_finish s t mx)).
Proof.
  destruct o as [t mx|t item|t|t|t pw|t|d| |e| |]; cbn [stepv]; intros H; try discriminate.
  - destruct (is_idle (phase_of s t)); [destruct (Nat.eqb mx 0); [|destruct (rguard s); [|destruct (andb _ _)]]|];
      discriminate.
  - destruct (is_idle (phase_of s t)); [destruct (sguard s)|]; discriminate.
  - destruct (is_idle (phase_of s t)); discriminate.
  - destruct (is_idle (phase_of s t)); [destruct (tclosing s)|]; discriminate.
  - destruct (phase_of s t) as [|mx|mx f|item|ev f|] eqn:Ep.
    + discriminate.
    + destruct (mustc s t); [discriminate|]. exists t, pw, mx. repeat split; auto.
    + destruct f; [|destruct (mustc s t)|]; try discriminate.
      exists t, pw, mx. rewrite recv_finish_reading. auto.
    + destruct (mustc s t); [|destruct (andb _ _)]; try discriminate.
      rewrite send_write_res in H. discriminate.
    + destruct f; [|destruct (mustc s t); [|destruct (prew s t)]|]; try discriminate.
      * rewrite send_write_res in H. discriminate.
      * cbn [snd] in H. rewrite send_wait_result_res in H. discriminate.
    + destruct (mustc s t); discriminate.
  - destruct (phase_of s t) as [| |? []| |? []|]; discriminate.
  - destruct d; discriminate.
Qed.

(* sock_receive_prefix: the ghost fields are functions of the op list and of the output list *)
Lemma ghost_run p ops : forall s,
  let '(s', outs) := run_ops (stepv p) s ops in
  g_recv s' = g_recv s ++ flat_map payload ops /\ g_ret s' = g_ret s ++ flat_map data_of outs.
Proof.
  induction ops as [|o r IH]; intros s; cbn.
  - now rewrite !app_nil_r.
  - destruct (step_fields p s o) as (A & B & _). destruct (stepv p s o) as [s1 out]. specialize (IH s1).
    destruct (run_ops (stepv p) s1 r) as [s2 outs]. cbn in *.
    destruct IH as [C D]. rewrite C, D, A, B, <- !app_assoc. auto.
Qed.

Theorem sock_receive_prefix p r0 ops :
  let '(s, outs) := run_ops (stepv p) (init r0) ops in
  flat_map payload ops = flat_map data_of outs ++ concat (rq s).
Proof.
  pose proof (ghost_run p ops (init r0)) as G.
  pose proof (run_ops_final (stepv p) ops (init r0)) as F.
  destruct (run_ops (stepv p) (init r0) ops) as [s outs]. cbn in *.
  destruct G as [A B].
  pose proof (reachable_inv p r0 ops) as I. rewrite <- F in I.
  rewrite <- A, <- B. apply (I_bytes s I).
Qed.

Lemma eos_pre p s o s' : Inv s -> stepv p s o = (s', REndOfStream) ->
  rq s = [] /\ closed s = false /\ exc s = None /\ (eof s = true \/ g_lostclean s = true).
Proof.
  intros I H.
  destruct (recv_result p s o) as (t & pw & mx & _ & Hp & Hr & _); [rewrite H; reflexivity|].
  rewrite H in Hr. unfold recv_finish in Hr.
  destruct (rq s) eqn:Q; [|discriminate]. destruct (closed s) eqn:Cl; [discriminate|]. destruct (exc s) eqn:Ex; [discriminate|].
  refine (conj eq_refl (conj eq_refl (conj eq_refl _))).
  assert (C : rev s = true \/ tclosing s = true \/ eof s = true).
  { destruct Hp as [Hp|Hp]; [apply (I_ry s I t mx Hp)|left; apply (I_rw s I t mx FSet Hp); reflexivity]. }
  destruct C as [C|[C|C]]; auto.
  - destruct (I_rev s I C) as [A|[A|[A|A]]]; auto; congruence.
  - destruct (I_tc s I C) as [A|[A|A]]; auto; congruence.
Qed.

Theorem sock_receive_complete_at_eof p r0 ops o :
  let '(s, outs) := run_ops (stepv p) (init r0) ops in
  snd (stepv p s o) = REndOfStream ->
  flat_map payload (ops ++ [o]) = flat_map data_of outs.
Proof.
  pose proof (sock_receive_prefix p r0 ops) as P.
  pose proof (run_ops_final (stepv p) ops (init r0)) as F.
  destruct (run_ops (stepv p) (init r0) ops) as [s outs]. cbn in *.
  intros H. pose proof (reachable_inv p r0 ops) as I. rewrite <- F in I.
  destruct (recv_result p s o) as (t & pw & mx & -> & _); [rewrite H; reflexivity|].
  destruct (stepv p s (Resume t pw)) as [s' r] eqn:E. cbn in H. subst r.
  destruct (eos_pre p s _ s' I E) as (Q & _).
  rewrite flat_map_app, P, Q. cbn. now rewrite !app_nil_r.
Qed.

Lemma recv_finish_data s t mx c : Inv s -> 1 <= mx ->
  snd (recv_finish s t mx) = RData c ->
  exists hd r, rq s = hd :: r /\ 1 <= length c <= mx /\
    ((length hd <= mx /\ c = hd /\ rq (fst (recv_finish s t mx)) = r) \/
     (mx < length hd /\ c = firstn mx hd /\ rq (fst (recv_finish s t mx)) = skipn mx hd :: r)).
Proof.
  intros I Hm H. unfold recv_finish in *.
  pose proof (I_ne s I) as Hne.
  destruct (rq s) as [|hd r] eqn:Q.
  - destruct (closed s); [|destruct (exc s)]; discriminate.
  - exists hd, r. split; [reflexivity|].
    inversion Hne as [|x l Hx Hl]; subst.
    destruct (Nat.ltb_spec mx (length hd)) as [L|L]; injection H as <-.
    + cbn. rewrite firstn_length. split; [lia|auto].
    + assert (length hd <> 0) by (destruct hd; [contradiction|discriminate]).
      split; [lia|]. left. split; [exact L|]. split; [reflexivity|].
      destruct r; reflexivity.
Qed.

Theorem sock_chunk_bounds p r0 s o s' c :
  reachv p r0 s -> stepv p s o = (s', RData c) ->
  exists t pw mx hd r,
    o = Resume t pw /\
    (phase_of s t = RecvYield mx \/ phase_of s t = RecvWait mx FSet) /\
    rq s = hd :: r /\ 1 <= length c <= mx /\
    ((length hd <= mx /\ c = hd /\ rq s' = r) \/
     (mx < length hd /\ c = firstn mx hd /\ rq s' = skipn mx hd :: r)).
Proof.
  intros R H. pose proof (reachv_inv p r0 s R) as I.
  destruct (recv_result p s o) as (t & pw & mx & -> & Hp & Hr & Hq); [rewrite H; reflexivity|].
  rewrite H in Hr, Hq. cbn [fst snd] in Hr, Hq.
  assert (Hm : 1 <= mx).
  { destruct Hp as [Hp|Hp]; [apply (I_ry s I t mx Hp)|apply (I_rw s I t mx FSet Hp)]. }
  destruct (recv_finish_data s t mx c I Hm (eq_sym Hr)) as (hd & r & A & B & C).
  exists t, pw, mx, hd, r. rewrite Hq. auto.
Qed.

Theorem sock_eof_only_after_eof p r0 s o s' :
  reachv p r0 s -> stepv p s o = (s', REndOfStream) ->
  rq s = [] /\ closed s = false /\ exc s = None /\ (eof s = true \/ g_lostclean s = true).
Proof. intros R. apply eos_pre. apply (reachv_inv p r0 s R). Qed.

(* meaning of the flags in terms of the history *)
Theorem sock_flags_meaning p r0 ops :
  let s := final (stepv p) (init r0) ops in
  (eof s = true -> In EofReceived ops) /\
  (g_lostclean s = true -> In (ConnectionLost None) ops) /\
  (closed s = true -> exists t, In (Close t) ops).
Proof.
  cbn. induction ops as [|o r IH] using rev_ind.
  - cbn. refine (conj _ (conj _ _)); discriminate.
  - rewrite final_app. cbn. set (s := final (stepv p) (init r0) r) in *.
    destruct (step_fields p s o) as (_ & _ & A & _ & B & C & _). rewrite A, B, C. destruct IH as (IA & IB & IC).
    refine (conj _ (conj _ _)); intros H.
    + apply in_or_app. destruct o; auto using in_eq.
    + apply in_or_app. destruct o as [| | | | | | | |[]| |]; auto using in_eq.
    + assert (K : closed s = true \/ exists t, o = Close t).
      { destruct o; auto. apply Bool.orb_true_iff in H. destruct H; eauto. }
      destruct K as [K|[t ->]].
      * destruct (IC K) as [t Ht]. exists t. apply in_or_app. now left.
      * exists t. apply in_or_app. right. now left.
Qed.

Theorem sock_closed_is_stable p s o : closed s = true -> closed (fst (stepv p s o)) = true.
Proof.
  intros H. destruct (step_fields p s o) as (_ & _ & _ & _ & _ & C & _). rewrite C.
  destruct o; auto. rewrite H. apply Bool.orb_true_r.
Qed.

Theorem sock_close_sets_closed p s t :
  phase_of s t = Idle -> closed (fst (stepv p s (Close t))) = true.
Proof. intros H. cbn [stepv]. rewrite H. cbn. destruct (tclosing s); reflexivity. Qed.

(* send() on a locally closed stream: checkpoint, then ClosedResourceError; nothing reaches the transport *)
Theorem sock_send_after_close p r0 s t item :
  reachv p r0 s -> closed s = true -> phase_of s t = Idle -> sguard s = None ->
  let s1 := fst (stepv p s (Send t item)) in
  snd (stepv p s (Send t item)) = RBlocked /\ phase_of s1 t = SendYield item /\
  forall s2 pw, phase_of s2 t = SendYield item -> closed s2 = true -> mustc s2 t = false ->
    snd (stepv p s2 (Resume t pw)) = RClosed /\
    g_written (fst (stepv p s2 (Resume t pw))) = g_written s2.
Proof.
  intros R Hc Hp Hg. cbn [stepv]. rewrite Hp, Hg. cbn.
  split; [reflexivity|]. split; [apply upd_same|].
  intros s2 pw P2 C2 M2. rewrite P2, M2, C2. rewrite Bool.andb_false_r. unfold send_write. rewrite C2. cbn. auto.
Qed.

(* receive() on a locally closed stream never waits for the read event: it takes the checkpoint branch and
   then returns already-received data, or raises ClosedResourceError when none is left *)
Theorem sock_receive_after_close p r0 s t mx :
  reachv p r0 s -> closed s = true -> phase_of s t = Idle -> rguard s = None -> 1 <= mx ->
  let s1 := fst (stepv p s (Receive t mx)) in
  snd (stepv p s (Receive t mx)) = RBlocked /\ phase_of s1 t = RecvYield mx /\
  forall s2 pw, phase_of s2 t = RecvYield mx -> closed s2 = true -> mustc s2 t = false ->
    snd (stepv p s2 (Resume t pw)) =
      match rq s2 with [] => RClosed | hd :: _ => RData (firstn mx hd) end.
Proof.
  intros R Hc Hp Hg Hm. pose proof (reachv_inv p r0 s R) as I.
  pose proof (I_cl s I Hc) as Ht.
  cbn [stepv]. rewrite Hp, Hg, Ht. cbn [is_idle negb].
  destruct (Nat.eqb_spec mx 0); [lia|].
  rewrite !Bool.andb_false_r. cbn [fst snd].
  split; [reflexivity|]. split; [apply upd_same|].
  intros s2 pw P2 C2 M2. rewrite P2, M2. unfold recv_finish. rewrite C2.
  destruct (rq s2) as [|hd r]; [reflexivity|]. cbn [snd].
  destruct (Nat.ltb_spec mx (length hd)); [reflexivity|].
  rewrite firstn_all2 by assumption. reflexivity.
Qed.

Theorem guard_rejects_concurrent p r0 s t t' :
  reachv p r0 s -> phase_of s t = Idle ->
  (forall mx, 1 <= mx -> is_recv (phase_of s t') = true -> stepv p s (Receive t mx) = (s, RBusy)) /\
  (forall item, is_send (phase_of s t') = true -> stepv p s (Send t item) = (s, RBusy)).
Proof.
  intros R Hp. pose proof (reachv_inv p r0 s R) as I. split.
  - intros mx Hm Hr. cbn [stepv]. rewrite Hp. cbn.
    destruct (Nat.eqb_spec mx 0); [lia|].
    apply (I_rg s I) in Hr. rewrite Hr. reflexivity.
  - intros item Hr. cbn [stepv]. rewrite Hp. cbn.
    apply (I_sg s I) in Hr. rewrite Hr. reflexivity.
Qed.

(* the guard is held exactly while some task is inside the call: released on every exit path,
   cancellation included, never released early *)
Theorem guard_held_iff_in_call p r0 s :
  reachv p r0 s ->
  (forall t, rguard s = Some t <-> is_recv (phase_of s t) = true) /\
  (forall t, sguard s = Some t <-> is_send (phase_of s t) = true).
Proof. intros R. pose proof (reachv_inv p r0 s R) as I. split; [apply (I_rg s I)|apply (I_sg s I)]. Qed.

Theorem guard_free_when_idle p r0 s :
  reachv p r0 s -> (forall t, phase_of s t = Idle) -> rguard s = None /\ sguard s = None.
Proof.
  intros R H. pose proof (reachv_inv p r0 s R) as I. split.
  - destruct (rguard s) as [t|] eqn:E; [|reflexivity]. apply (I_rg s I) in E. rewrite H in E. discriminate.
  - destruct (sguard s) as [t|] eqn:E; [|reflexivity]. apply (I_sg s I) in E. rewrite H in E. discriminate.
Qed.

(* at most one task inside each direction *)
Theorem guard_exclusive p r0 s t t' :
  reachv p r0 s ->
  (is_recv (phase_of s t) = true -> is_recv (phase_of s t') = true -> t = t') /\
  (is_send (phase_of s t) = true -> is_send (phase_of s t') = true -> t = t').
Proof.
  intros R. pose proof (reachv_inv p r0 s R) as I.
  split; [apply recv_unique|apply send_unique]; exact I.
Qed.

Lemma send_write_gate s t item pw s' :
  (send_write s t item pw = (s', RDone) ->
     wval s' (wev s') = true /\ g_written s' = g_written s ++ item) /\
  (send_write s t item pw = (s', RBlocked) ->
     phase_of s' t = SendWait (wev s') FPending /\ wval s' (wev s') = false /\
     g_written s' = g_written s ++ item).
Proof.
  destruct (send_write_eq s t item pw) as (gw & n & e & w & sg & ph & mc & pr & E & _ & _ & _ & R).
  split; intros H; rewrite H in E, R; cbn [fst snd] in E, R; subst s'; cbn.
  - destruct R as (_ & _ & -> & -> & _). auto.
  - destruct R as (_ & _ & -> & -> & ->). rewrite upd_same. auto.
Qed.

(* a send() hands its item to the transport exactly once, and returns normally only with the write gate open; when it
   suspends it waits on the CURRENT, unset write event - either after its write, or (HEAD, commit 58a3fa8) before it,
   with nothing written yet *)
Theorem send_waits_for_write_gate p r0 s t pw s' :
  reachv p r0 s ->
  (forall item, phase_of s t = SendYield item ->
     (stepv p s (Resume t pw) = (s', RDone) ->
        wval s' (wev s') = true /\ g_written s' = g_written s ++ item) /\
     (stepv p s (Resume t pw) = (s', RBlocked) ->
        phase_of s' t = SendWait (wev s') FPending /\ wval s' (wev s') = false /\
        (g_written s' = g_written s ++ item \/
         (p = false /\ g_written s' = g_written s /\ prew s' t = Some item)))) /\
  (forall ev f, phase_of s t = SendWait ev f ->
     stepv p s (Resume t pw) = (s', RDone) ->
     f = FSet /\ wval s ev = true /\
     (forall item, prew s t = Some item -> wval s' (wev s') = true /\ g_written s' = g_written s ++ item) /\
     (prew s t = None -> g_written s' = g_written s)).
Proof.
  intros R. pose proof (reachv_inv p r0 s R) as I. split.
  - intros item Ep. cbn [stepv]. rewrite Ep.
    destruct (mustc s t); [split; intros H; injection H as _ H; discriminate|].
    destruct (andb (negb p) (andb (negb (closed s)) (negb (wval s (wev s))))) eqn:Eb.
    + split; intros H; injection H as <-.
      * discriminate.
      * apply Bool.andb_true_iff in Eb. destruct Eb as [Ep' Eb]. apply Bool.andb_true_iff in Eb. destruct Eb as [_ Eb].
        apply Bool.negb_true_iff in Eb. apply Bool.negb_true_iff in Ep'.
        cbn. rewrite !upd_same. auto 10.
    + destruct (send_write_gate s t item pw s') as [A B]. split; [exact A|].
      intros H. destruct (B H) as (X & Y & Z). auto.
  - intros ev f Ep H. cbn [stepv] in H. rewrite Ep in H.
    destruct f; try (injection H as _ H; discriminate).
    split; [reflexivity|]. split; [apply (I_sw s I t ev FSet Ep); reflexivity|].
    destruct (mustc s t); [injection H as _ H; discriminate|].
    destruct (prew s t) as [it|] eqn:Epw.
    + split; [|discriminate]. intros item E. injection E as <-.
      destruct (send_write_gate (clear_prew s t) t it pw s') as [A _]. apply (A H).
    + split; [discriminate|]. intros _. injection H as <- _. reflexivity.
Qed.

(* an unset write event becomes set only through resume_writing / connection_lost *)
Theorem send_gate_opened_only_by_transport p s o ev :
  ev <= wev s -> wval s ev = false -> wval (fst (stepv p s o)) ev = true ->
  o = ResumeWriting \/ exists e, o = ConnectionLost e.
Proof.
  intros Hle Hv H. destruct (step_fields p s o) as (_ & _ & _ & _ & _ & _ & [A|[A|A]]); auto.
  rewrite (A ev Hle) in H. congruence.
Qed.

(* a send() returns normally only if the connection was not lost / closed meanwhile (HEAD, commit d2d2221) *)
Lemma lost_flags_run p r0 ops :
  let s := final (stepv p) (init r0) ops in
  (forall e, In (ConnectionLost (Some e)) ops -> exc s <> None) /\
  (In (ConnectionLost None) ops -> g_lostclean s = true).
Proof.
  cbn. induction ops as [|o r IH] using rev_ind.
  - cbn. split; [intros e []|intros []].
  - rewrite final_app. cbn. set (s := final (stepv p) (init r0) r) in *.
    destruct (step_fields p s o) as (_ & _ & _ & A & B & _). rewrite A, B. destruct IH as (IA & IB). split.
    + intros e H. apply in_app_or in H. destruct H as [H|[->|[]]]; [|discriminate].
      destruct o as [| | | | | | | |[]| |]; try discriminate; apply (IA e H).
    + intros H. apply in_app_or in H. destruct H as [H|[->|[]]]; [|reflexivity].
      destruct o as [| | | | | | | |[]| |]; auto.
Qed.

(* HEAD: whenever a send() returns normally the stream is not closed locally and no connection error is recorded;
   if it had to wait, the write event it waited on is set *)
Theorem send_returns_ok_only_if_not_lost r0 s t pw s' :
  reachv false r0 s -> is_send (phase_of s t) = true -> stepv false s (Resume t pw) = (s', RDone) ->
  closed s = false /\ exc s = None /\
  (forall ev f, phase_of s t = SendWait ev f -> f = FSet /\ wval s ev = true).
Proof.
  intros R Hs H. pose proof (reachv_inv false r0 s R) as I.
  assert (SW : forall s0 it, send_write s0 t it pw = (s', RDone) -> closed s0 = false /\ exc s0 = None).
  { intros s0 it E. destruct (send_write_eq s0 t it pw) as (gw & n & e & w & sg & ph & mc & pr & _ & _ & _ & _ & Res).
    rewrite E in Res. cbn in Res. tauto. }
  cbn [stepv] in H. destruct (phase_of s t) as [|mx|mx f|item|ev f|] eqn:Ep; try discriminate.
  - destruct (mustc s t); [injection H as _ H; discriminate|].
    cbn [negb andb] in H. destruct (andb _ _); [injection H as _ H; discriminate|].
    destruct (SW s item H) as [A B].
    refine (conj A (conj B _)). intros ev f E. discriminate.
  - destruct f; try (injection H as _ H; discriminate).
    destruct (mustc s t); [injection H as _ H; discriminate|].
    assert (CE : closed s = false /\ exc s = None).
    { destruct (prew s t) as [it|].
      - apply (SW (clear_prew s t) it H).
      - unfold send_wait_result in H. cbn in H.
        destruct (closed s) eqn:Ec; [injection H as _ H; discriminate|].
        destruct (exc s) eqn:Ex; [injection H as _ H; discriminate|]. auto. }
    destruct CE as [A B]. refine (conj A (conj B _)). intros ev' f' E. injection E as <- <-.
    split; [reflexivity|]. apply (I_sw s I t ev FSet Ep). reflexivity.
Qed.

(* ... hence, under the transport contract "connection_lost(None) only after a local close", no connection_lost at all
   has been delivered: a send() that waited and returned normally was released by resume_writing *)
Theorem send_ok_never_released_by_connection_lost r0 ops t pw :
  let s := final step (init r0) ops in
  is_send (phase_of s t) = true -> snd (step s (Resume t pw)) = RDone ->
  (g_lostclean s = true -> closed s = true) ->
  forall e, ~ In (ConnectionLost e) ops.
Proof.
  intros s Hs H Hc e Hin.
  assert (R : reachv false r0 s) by (exists ops; reflexivity).
  destruct (step s (Resume t pw)) as [s' r] eqn:E. cbn [snd] in H. rewrite H in E.
  destruct (send_returns_ok_only_if_not_lost r0 s t pw s' R Hs E) as (A & B & _).
  destruct (lost_flags_run false r0 ops) as (L1 & L2). change (final (stepv false) (init r0) ops) with s in L1, L2.
  destruct e as [e|].
  - apply (L1 e Hin). exact B.
  - rewrite (Hc (L2 Hin)) in A. discriminate.
Qed.

(* the pinned tree (before commit d2d2221): a send() released by connection_lost(exc), resp. by the connection_lost(None)
   that follows a local aclose() of another task, returns normally *)
Theorem send_returns_ok_only_if_not_lost_refuted_pinned :
  (exists ops t, let s := final (stepv true) (init false) ops in
     snd (stepv true s (Resume t false)) = RDone /\ exc s <> None /\
     snd (stepv false (final step (init false) ops) (Resume t false)) = RBroken) /\
  (exists ops t, let s := final (stepv true) (init false) ops in
     snd (stepv true s (Resume t false)) = RDone /\ closed s = true /\
     snd (stepv false (final step (init false) ops) (Resume t false)) = RClosed).
Proof.
  split.
  - exists [Send 1 [7; 8]%Z; Resume 1 true; ConnectionLost (Some 0)], 1. vm_compute.
    refine (conj eq_refl (conj _ eq_refl)). discriminate.
  - exists [Send 1 [7; 8]%Z; Resume 1 true; Close 2; ConnectionLost None], 1. vm_compute. auto.
Qed.

Example ex_send_ok_hyp :
  let s := final step (init false) [Send 1 [7]%Z; Resume 1 true; ResumeWriting] in
  is_send (phase_of s 1) = true /\ snd (step s (Resume 1 false)) = RDone /\ g_lostclean s = false.
Proof. vm_compute. auto. Qed.

(* three further invariants, carried through stepv together *)
(* both variants: the read event is set while data is queued; a receive() still pending on it has nothing to be
   woken for; a recorded connection loss means the transport is closing *)
Record Inv2 (s : st) : Prop := {
  J_q : rq s <> [] -> rev s = true;
  J_p : forall t mx, phase_of s t = RecvWait mx FPending ->
          eof s = false /\ exc s = None /\ g_lostclean s = false;
  J_l : (exc s <> None \/ g_lostclean s = true) -> tclosing s = true
}.

(* HEAD (commit 58a3fa8): at most one send() item is undrained, none once a pre-write wait has been released *)
Record PInv (s : st) : Prop := {
  P_le : g_pending s <= 1;
  P_pre : forall u ev, phase_of s u = SendWait ev FSet -> prew s u <> None -> g_pending s = 0
}.

(* HEAD (commit ab750b3): the transport reads only while a receive() is suspended in its wait *)
Definition RInv (s : st) : Prop :=
  reading s = true -> exists t mx f, phase_of s t = RecvWait mx f.

Definition carried (p : bool) (s s' : st) : Prop :=
  (Inv2 s -> Inv2 s') /\ (p = false -> PInv s -> PInv s') /\ (p = false -> RInv s -> RInv s').

Lemma inv2_init r0 : Inv2 (init r0).
Proof.
  constructor; cbn.
  - intros H. contradiction.
  - intros t mx H. discriminate.
  - intros [H|H]; [contradiction|discriminate].
Qed.

Lemma pinv_init r0 : PInv (init r0).
Proof. constructor; cbn; [lia|]. intros u ev H. discriminate. Qed.

(* each invariant survives a change that leaves its fields alone and puts no task into the phase it speaks of *)
Lemma inv2_keep s s' :
  (rq s', rev s', eof s', exc s', g_lostclean s') = (rq s, rev s, eof s, exc s, g_lostclean s) ->
  (tclosing s = true -> tclosing s' = true) ->
  (forall t mx, phase_of s' t = RecvWait mx FPending -> phase_of s t = RecvWait mx FPending) ->
  Inv2 s -> Inv2 s'.
Proof.
  intros E T K [Q P L]. injection E as E1 E2 E3 E4 E5. constructor.
  - rewrite E1, E2. exact Q.
  - intros t mx H. rewrite E3, E4, E5. apply (P t mx), K, H.
  - rewrite E4, E5. auto.
Qed.

Lemma pinv_keep s s' :
  g_pending s' = g_pending s ->
  (forall u ev, phase_of s' u = SendWait ev FSet -> prew s' u <> None ->
     phase_of s u = SendWait ev FSet /\ prew s u <> None) ->
  PInv s -> PInv s'.
Proof.
  intros E K [A B]. constructor; rewrite E; [exact A|].
  intros u ev H1 H2. destruct (K u ev H1 H2) as [X Y]. apply (B u ev X Y).
Qed.

Lemma rinv_keep s s' :
  reading s' = reading s ->
  (forall t mx f, phase_of s t = RecvWait mx f -> exists mx' f', phase_of s' t = RecvWait mx' f') ->
  RInv s -> RInv s'.
Proof.
  intros E K H Hr. rewrite E in Hr. destruct (H Hr) as (t & mx & f & P).
  destruct (K t mx f P) as (mx' & f' & P'). eauto.
Qed.

Lemma rinv_off s' : reading s' = false -> RInv s'.
Proof. intros E Hr. congruence. Qed.

Definition is_rwait (b : phase) : bool := match b with RecvWait _ _ => true | _ => false end.
Definition pending_recv (b : phase) : bool := match b with RecvWait _ FPending => true | _ => false end.
Definition released_send (b : phase) : bool := match b with SendWait _ FSet => true | _ => false end.

(* one task t changes to phase b; its prew entry may change with it *)
Lemma moved s s' t b :
  phase_of s' = upd (phase_of s) t b ->
  (pending_recv b = false ->
   (rq s', rev s', eof s', exc s', g_lostclean s') = (rq s, rev s, eof s, exc s, g_lostclean s) ->
   (tclosing s = true -> tclosing s' = true) -> Inv2 s -> Inv2 s') /\
  (released_send b = false -> g_pending s' = g_pending s ->
   (prew s' = prew s \/ exists x, prew s' = upd (prew s) t x) -> PInv s -> PInv s') /\
  (reading s' = reading s -> (is_rwait (phase_of s t) = true -> is_rwait b = true) -> RInv s -> RInv s').
Proof.
  intros Ep.
  assert (K : forall u, u <> t /\ phase_of s' u = phase_of s u \/ u = t /\ phase_of s' u = b).
  { intros u. rewrite Ep. unfold upd. destruct (Nat.eqb_spec u t); auto. }
  split; [|split].
  - intros Hb E T. apply inv2_keep; [exact E|exact T|].
    intros u mx H. destruct (K u) as [[_ <-]|[_ E']]; [exact H|]. rewrite E' in H. subst b. discriminate.
  - intros Hb E Ew. apply pinv_keep; [exact E|].
    intros u ev H1 H2. destruct (K u) as [[Hu <-]|[_ E']]; [|rewrite E' in H1; subst b; discriminate].
    split; [exact H1|]. destruct Ew as [<-|[x Ex]]; [exact H2|]. rewrite Ex, upd_other in H2; assumption.
  - intros E R. apply rinv_keep; [exact E|].
    intros u mx f H. destruct (K u) as [[_ ->]|[-> E']]; [eauto|].
    rewrite E'. rewrite H in R. destruct b; try (discriminate (R eq_refl)). eauto.
Qed.

(* ... from phase a to a phase b that none of the three speaks of, nothing else they mention changing, except that
   at HEAD the transport may be paused *)
Lemma carried_move p s s' t a b :
  phase_of s t = a -> phase_of s' = upd (phase_of s) t b ->
  (prew s' = prew s \/ exists x, prew s' = upd (prew s) t x) -> pending_recv b || released_send b = false ->
  (rq s', rev s', eof s', exc s', g_lostclean s') = (rq s, rev s, eof s, exc s, g_lostclean s) ->
  (tclosing s = true -> tclosing s' = true) -> g_pending s' = g_pending s ->
  (p = true \/ reading s' = false \/ reading s' = reading s /\ implb (is_rwait a) (is_rwait b) = true) ->
  carried p s s'.
Proof.
  intros Ea Ep Ew Hb E T G R. destruct (moved s s' t b Ep) as (M2 & MP & MR).
  apply Bool.orb_false_iff in Hb. destruct Hb as [Hb1 Hb2].
  split; [auto|]. split; [auto|]. intros Hp. destruct R as [Z|[Z|[A B]]]; [congruence|intros _; apply rinv_off, Z|].
  apply MR; [exact A|]. rewrite Ea. destruct (is_rwait a); [exact (fun _ => B)|discriminate].
Qed.

(* no task changes phase; a prew entry may be cleared, the transport paused *)
Lemma carried_same p s s' :
  phase_of s' = phase_of s -> (forall u, prew s' u = prew s u \/ prew s' u = None) ->
  (rq s', rev s', eof s', exc s', g_lostclean s') = (rq s, rev s, eof s, exc s, g_lostclean s) ->
  (tclosing s = true -> tclosing s' = true) -> g_pending s' = g_pending s ->
  (reading s' = reading s \/ reading s' = false) ->
  carried p s s'.
Proof.
  intros Ep Ew E T G R. split; [|split].
  - apply inv2_keep; [exact E|exact T|]. rewrite Ep. auto.
  - intros _. apply pinv_keep; [exact G|]. rewrite Ep. intros u ev H1 H2. split; [exact H1|].
    destruct (Ew u) as [<-|Z]; [exact H2|contradiction].
  - intros _. destruct R as [R|R]; [apply rinv_keep; [exact R|]; rewrite Ep; eauto|intros _; apply rinv_off, R].
Qed.

Lemma carried_trans p s s1 s' : carried p s s1 -> carried p s1 s' -> carried p s s'.
Proof. intros (A & B & C) (A' & B' & C'). split; [auto|]. split; auto. Qed.

(* DataReceived, EofReceived, ConnectionLost: s1 is s with the news recorded *)
Lemma event_carried p s s1 :
  phase_of s1 = phase_of s -> prew s1 = prew s -> g_pending s1 = g_pending s -> reading s1 = reading s ->
  Inv s1 -> (Inv2 s -> (exc s1 <> None \/ g_lostclean s1 = true) -> tclosing s1 = true) ->
  carried p s (read_event_set s1).
Proof.
  intros Ep Ew Eg Er I1 L. rewrite read_event_set_eq. split; [|split].
  - intros J. constructor; cbn; [reflexivity| |exact (L J)].
    (* whoever was pending has been woken *)
    intros t mx H. exfalso. destruct (rev s1) eqn:Er1.
    + destruct (I_rw s1 I1 t mx FPending H) as (_ & _ & C). rewrite C in Er1 by reflexivity. discriminate.
    + unfold wake_readers in H. destruct (phase_of s1 t) as [| |m []| | |]; discriminate.
  - intros _. apply pinv_keep; [exact Eg|]. cbn. rewrite Ep, Ew.
    intros u ev H1 H2. split; [|exact H2]. destruct (rev s1); [exact H1|].
    unfold wake_readers in H1. destruct (phase_of s u) as [| |m []| | |]; try discriminate; exact H1.
  - intros _. apply rinv_keep; [exact Er|]. cbn. rewrite Ep.
    intros t mx f P. destruct (rev s1); [eauto|]. unfold wake_readers. rewrite P. destruct f; eauto.
Qed.

Lemma write_event_set_carried p s : carried p s (write_event_set s).
Proof.
  rewrite write_event_set_eq. split; [|split].
  - apply inv2_keep; [reflexivity|auto|]. cbn. intros t mx H. destruct (wval s (wev s)); [exact H|].
    unfold wake_writers in H. destruct (phase_of s t) as [| | | |e []|]; try discriminate; try exact H.
    destruct (Nat.eqb e (wev s)); discriminate.
  - intros _ _. constructor; cbn; [lia|auto].
  - intros _. apply rinv_keep; [reflexivity|]. cbn. intros t mx f P. destruct (wval s (wev s)); [eauto|].
    unfold wake_writers. rewrite P. eauto.
Qed.

Lemma recv_finish_carried p s t mx :
  (reading s = false \/ is_rwait (phase_of s t) = false) -> carried p s (fst (recv_finish s t mx)).
Proof.
  intros R. destruct (recv_finish_eq s t mx) as (q & v & -> & Hq).
  match goal with |- carried p s ?x => destruct (moved s x t Idle) as (_ & MP & MR); [reflexivity|] end.
  split; [|split].
  - intros [Q P L]. constructor; cbn.
    + intros H. destruct (Hq H) as [A ->]. auto.
    + intros u m H. apply (P u m). unfold upd in H. destruct (Nat.eqb u t); [discriminate|exact H].
    + exact L.
  - intros _. apply MP; auto.
  - intros _. destruct R as [R|R]; [intros _; apply rinv_off; exact R|apply MR; [reflexivity|rewrite R; discriminate]].
Qed.

(* the write segment is entered (perhaps after clearing prew: s1) with the gate open, or on a closed stream (then nothing
   is written), or with nothing pending *)
Lemma send_write_carried p s s1 t item pw :
  carried p s s1 -> Inv s1 -> is_send (phase_of s1 t) = true ->
  (p = false -> PInv s -> closed s1 = true \/ wval s1 (wev s1) = true \/ g_pending s1 = 0) ->
  carried p s (fst (send_write s1 t item pw)).
Proof.
  intros (C2 & CP & CR) I Hs C.
  destruct (send_write_eq s1 t item pw) as (gw & n & e & w & sg & ph & mc & pr & E & Hph & _ & Hn & _).
  destruct (moved s1 (fst (send_write s1 t item pw)) t ph) as (M2 & _ & MR); [rewrite E; reflexivity|].
  split; [|split].
  - intros J. apply M2; [destruct Hph; subst ph; reflexivity|rewrite E; reflexivity|rewrite E; auto|auto].
  - intros Hp H. destruct (CP Hp H) as [A B]. constructor.
    + rewrite E. cbn. destruct Hn as [->|[Hn|(-> & Ec & Ew)]]; [exact A|exact Hn|].
      destruct (C Hp H) as [C'|[C'|C']]; [congruence|congruence|lia].
    + (* nobody is left in a released wait: t is not, and nobody else is inside send() *)
      intros u ev H1 _. exfalso. rewrite E in H1. cbn in H1. unfold upd in H1.
      destruct (Nat.eqb_spec u t) as [->|Hu]; [destruct Hph; subst ph; discriminate|].
      apply Hu. apply (send_unique s1 u t I); [rewrite H1; reflexivity|exact Hs].
  - intros Hp H. apply MR; [rewrite E; reflexivity|destruct (phase_of s1 t); discriminate|auto].
Qed.

(* Ep : phase_of s t = a; the remaining premises of carried_move compute *)
Ltac moves Ep := eapply (carried_move _ _ _ _ _ _ Ep); cbn; eauto.

Lemma step_carried p s o : Inv s -> carried p s (fst (stepv p s o)).
Proof.
  intros I.
  assert (Idle_is : forall t, is_idle (phase_of s t) = true -> phase_of s t = Idle).
  { intros t. destruct (phase_of s t); try discriminate; reflexivity. }
  destruct o as [t mx|t item|t|t|t pw|t|d| |e| |]; cbn [stepv].
  - destruct (is_idle (phase_of s t)) eqn:Ei;
      [apply Idle_is in Ei; destruct (Nat.eqb mx 0); [|destruct (rguard s); [|destruct (andb _ _) eqn:Eb]]|];
      cbn [negb fst]; try (apply carried_same; auto; fail).
    + (* a new pending receiver: nothing to be woken for, and (J_l) no loss recorded since the transport is not closing *)
      match goal with |- carried p s ?x => destruct (moved s x t (RecvWait mx FPending)) as (_ & MP & _); [reflexivity|] end.
      split; [|split; [auto|]].
      * intros [Q P L]. constructor; cbn; [exact Q| |exact L].
        intros u m Hu. unfold upd in Hu. destruct (Nat.eqb u t); [|apply (P u m Hu)].
        destruct (rev s), (tclosing s), (eof s); try discriminate. split; [reflexivity|].
        destruct (exc s); [cut (false = true); [discriminate|apply L; left; discriminate]|].
        destruct (g_lostclean s); [discriminate (L (or_intror eq_refl))|auto].
      * intros _ _ _. exists t, mx, FPending. apply upd_same.
    + moves Ei.
  - destruct (is_idle (phase_of s t)) eqn:Ei; [apply Idle_is in Ei; destruct (sguard s)|];
      cbn [negb fst]; try (apply carried_same; auto; fail).
    moves Ei.
  - destruct (is_idle (phase_of s t)); [destruct (tclosing s)|]; apply carried_same; auto.
  - destruct (is_idle (phase_of s t)) eqn:Ei; [apply Idle_is in Ei; destruct (tclosing s) eqn:Et|]; cbn [negb fst].
    + apply carried_same; auto.
    + moves Ei.
    + apply carried_same; auto.
  - destruct (phase_of s t) as [|mx|mx f|item|ev f|] eqn:Ep; cbn [fst].
    + apply carried_same; auto.
    + destruct (mustc s t); [moves Ep|].
      apply recv_finish_carried. right. rewrite Ep. reflexivity.
    + destruct f; [apply carried_same; auto| |destruct p; moves Ep].
      destruct (mustc s t); [destruct p; moves Ep|].
      apply (carried_trans p s (set_reading s false)); [apply carried_same; auto|apply recv_finish_carried; auto].
    + destruct (mustc s t); [moves Ep|].
      destruct (andb _ _) eqn:Eb; cbn [fst]; [moves Ep|].
      apply send_write_carried; [apply carried_same; auto|exact I|rewrite Ep; reflexivity|].
      intros -> _. destruct (closed s), (wval s (wev s)); auto; discriminate.
    + destruct f; [apply carried_same; auto| |moves Ep].
      destruct (mustc s t); [moves Ep|].
      destruct (prew s t) as [it|] eqn:Epw; [|moves Ep].
      apply send_write_carried; [|apply (inv_same s); [exact I|reflexivity..]|cbn; rewrite Ep; reflexivity|].
      { apply carried_same; auto. intros u. cbn. unfold upd. destruct (Nat.eqb u t); auto. }
      intros _ H. right. right. apply (P_pre s H t ev Ep). rewrite Epw. discriminate.
    + destruct (mustc s t); [destruct p|]; moves Ep.
  - destruct (phase_of s t) as [| |mx []| |ev []|] eqn:Ep; cbn [fst]; try (apply carried_same; auto; fail);
      moves Ep.
  - destruct d as [|b d]; [apply carried_same; auto|].
    apply event_carried; try reflexivity; [apply inv_push; [exact I|discriminate]|]. intros J. apply (J_l s J).
  - apply event_carried; try reflexivity; [apply inv_set_eof, I|]. intros J. apply (J_l s J).
  - eapply carried_trans; [|apply write_event_set_carried].
    apply event_carried; try (destruct e; reflexivity). apply inv_lost, I.
  - apply carried_same; auto.
  - apply write_event_set_carried.
Qed.

Lemma reachable_carried p r0 ops :
  let s := final (stepv p) (init r0) ops in
  Inv2 s /\ (p = false -> PInv s) /\ (p = false -> r0 = false -> RInv s).
Proof.
  refine (proj2 (final_inv (stepv p)
    (fun s => Inv s /\ Inv2 s /\ (p = false -> PInv s) /\ (p = false -> r0 = false -> RInv s)) _ ops (init r0) _)).
  - intros s o (I & J & P & R). destruct (step_carried p s o I) as (A & B & C).
    split; [apply step_inv, I|]. auto 6.
  - split; [apply inv_init|]. split; [apply inv2_init|]. split; [intros _; apply pinv_init|].
    intros _ -> H. discriminate.
Qed.

(* HEAD, every constructor pauses the transport (init false): in every reachable state in which the transport is
   reading, some receive() is suspended in its wait for the read event.  Under the transport contract
   "data_received is only called while reading" the read queue therefore only grows while a receive() waits. *)
Theorem sock_reading_paused_unless_waiting s :
  reachv false false s -> reading s = true -> exists t mx f, phase_of s t = RecvWait mx f.
Proof. intros [ops ->]. apply (reachable_carried false false ops); reflexivity. Qed.

(* the pinned tree (before commit ab750b3): both history classes leave the transport reading with nobody
   inside receive() *)
Theorem sock_reading_not_paused_refuted_pinned :
  (exists ops, let s := final (stepv true) (init true) ops in
     reading s = true /\ rguard s = None /\ tclosing s = false /\ rq s <> [] /\
     forall t, t < 3 -> phase_of s t = Idle) /\
  (exists ops, let s := final (stepv true) (init false) ops in
     reading s = true /\ rguard s = None /\ tclosing s = false /\
     forall t, t < 3 -> phase_of s t = Idle).
Proof.
  split.
  - exists [DataReceived [1; 2]%Z; Receive 1 1; Resume 1 false]. vm_compute.
    refine (conj eq_refl (conj eq_refl (conj eq_refl (conj _ _)))); [discriminate|].
    intros t Ht. do 3 (destruct t as [|t]; [reflexivity|]). lia.
  - exists [Receive 1 1; Cancel 1; Resume 1 false]. vm_compute.
    refine (conj eq_refl (conj eq_refl (conj eq_refl _))).
    intros t Ht. do 3 (destruct t as [|t]; [reflexivity|]). lia.
Qed.

Definition ex_split : list op :=
  [Receive 1 2; DataReceived [10; 11; 12; 13; 14]%Z; DataReceived [15]%Z; Resume 1 false;
   Receive 1 2; Resume 1 false; Receive 1 2; Resume 1 false; Receive 1 2; Resume 1 false].

Example ex_split_outputs :
  flat_map data_of (snd (run_ops step (init false) ex_split)) = [10; 11; 12; 13; 14; 15]%Z /\
  map (fun r => length (data_of r)) (snd (run_ops step (init false) ex_split)) = [0; 0; 0; 2; 0; 2; 0; 1; 0; 1].
Proof. vm_compute. auto. Qed.

(* hypotheses of sock_chunk_bounds: an oversized chunk at the head of the queue *)
Example ex_chunk_bounds_hyp :
  let s := final step (init false) [Receive 1 2; DataReceived [10; 11; 12; 13; 14]%Z] in
  phase_of s 1 = RecvWait 2 FSet /\
  snd (step s (Resume 1 false)) = RData [10; 11]%Z /\ rq (fst (step s (Resume 1 false))) = [[12; 13; 14]%Z].
Proof. vm_compute. auto. Qed.

(* EndOfStream after EOF with everything delivered *)
Example ex_eof :
  let ops := [DataReceived [1]%Z; EofReceived; Receive 1 8; Resume 1 false; Receive 1 8] in
  let s := final step (init false) ops in
  snd (step s (Resume 1 false)) = REndOfStream /\ eof s = true /\ rq s = [].
Proof. vm_compute. auto. Qed.

(* close: remaining data, then ClosedResourceError; send raises ClosedResourceError *)
Example ex_close :
  let ops := [DataReceived [1; 2]%Z; Close 1; Resume 1 false; Receive 1 8; Send 2 [5]%Z] in
  let s := final step (init false) ops in
  closed s = true /\ phase_of s 1 = RecvYield 8 /\ phase_of s 2 = SendYield [5]%Z /\
  snd (step s (Resume 1 false)) = RData [1; 2]%Z /\ snd (step s (Resume 2 false)) = RClosed /\
  let s' := final step s [Resume 1 false; Receive 1 8] in snd (step s' (Resume 1 false)) = RClosed.
Proof. vm_compute. auto 10. Qed.

(* concurrent use: BusyResourceError, state unchanged; guard released after a cancellation *)
Example ex_busy :
  let s := final step (init false) [Receive 1 4; Send 2 [5]%Z] in
  snd (step s (Receive 3 4)) = RBusy /\ snd (step s (Send 3 [6]%Z)) = RBusy /\
  let s' := final step s [Cancel 1; Resume 1 false; Cancel 2; Resume 2 false] in
  rguard s' = None /\ sguard s' = None /\ snd (step s' (Receive 3 4)) = RBlocked.
Proof. vm_compute. auto 10. Qed.

(* the back-pressure hand-shake: the transport pauses inside write(); send returns only after resume_writing *)
Example ex_gate :
  let s := final step (init false) [Send 1 [7; 8]%Z] in
  snd (step s (Resume 1 true)) = RBlocked /\
  let s1 := fst (step s (Resume 1 true)) in
  phase_of s1 1 = SendWait 1 FPending /\ wval s1 (wev s1) = false /\
  snd (step s1 (Resume 1 false)) = RRejected /\
  let s2 := fst (step s1 ResumeWriting) in
  phase_of s2 1 = SendWait 1 FSet /\ snd (step s2 (Resume 1 false)) = RDone /\ g_written s2 = [7; 8]%Z.
Proof. vm_compute. auto 10. Qed.

(* HEAD on the second pinned witness history: reading is paused again *)
Example ex_cancelled_wait_pauses_at_head :
  let s := final step (init false) [Receive 1 1; Cancel 1; Resume 1 false] in
  reading s = false /\ rguard s = None.
Proof. vm_compute. auto. Qed.

Example ex_reading_hyp :
  let s := final step (init false) [Receive 1 1] in reading s = true /\ phase_of s 1 = RecvWait 1 FPending.
Proof. vm_compute. auto. Qed.

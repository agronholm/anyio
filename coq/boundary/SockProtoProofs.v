(* Invariant of the SockProto machine, for every op / env sequence and both variants (pinned / HEAD). *)
From AV Require Import Base SockProto.

Record Inv (s : st) : Prop := {
  I_bytes : g_recv s = g_ret s ++ concat (rq s);
  I_ne : Forall (fun c => c <> []) (rq s);
  I_rev : rev s = true -> rq s <> [] \/ eof s = true \/ exc s <> None \/ g_lostclean s = true;
  I_rg : forall t, rguard s = Some t <-> is_recv (phase_of s t) = true;
  I_sg : forall t, sguard s = Some t <-> is_send (phase_of s t) = true;
  I_ry : forall t mx, phase_of s t = RecvYield mx ->
           1 <= mx /\ (rev s = true \/ tclosing s = true \/ eof s = true);
  I_rw : forall t mx f, phase_of s t = RecvWait mx f ->
           1 <= mx /\ (f = FSet -> rev s = true) /\ (f = FPending -> rev s = false);
  I_cl : closed s = true -> tclosing s = true;
  I_tc : tclosing s = true -> closed s = true \/ exc s <> None \/ g_lostclean s = true;
  I_sw : forall t ev f, phase_of s t = SendWait ev f ->
           ev <= wev s /\ (f = FSet -> wval s ev = true) /\ (f = FPending -> wval s ev = false)
}.

Lemma inv_init r0 : Inv (init r0).
Proof.
  constructor; cbn; try discriminate; auto.
  - intros t. split; discriminate.
  - intros t. split; discriminate.
Qed.

Lemma recv_unique s t t' : Inv s ->
  is_recv (phase_of s t) = true -> is_recv (phase_of s t') = true -> t = t'.
Proof.
  intros I H H'. apply (I_rg s I) in H. apply (I_rg s I) in H'. congruence.
Qed.

Lemma send_unique s t t' : Inv s ->
  is_send (phase_of s t) = true -> is_send (phase_of s t') = true -> t = t'.
Proof.
  intros I H H'. apply (I_sg s I) in H. apply (I_sg s I) in H'. congruence.
Qed.

(* the fields the invariant mentions besides phases and guards *)
Definition data (s : st) :=
  (rq s, rev s, wev s, wval s, eof s, exc s, closed s, tclosing s, g_recv s, g_ret s, g_lostclean s).

Lemma inv_same s s' :
  Inv s -> data s' = data s -> (phase_of s', rguard s', sguard s') = (phase_of s, rguard s, sguard s) -> Inv s'.
Proof.
  intros [H1 H2 H3 H4 H5 H6 H7 H8 H9 H10] E P.
  injection E as E1 E2 E3 E4 E5 E6 E7 E8 E9 E10 E11. injection P as P1 P2 P3.
  constructor; rewrite ?P1, ?P2, ?P3, ?E1, ?E2, ?E3, ?E4, ?E5, ?E6, ?E7, ?E8, ?E9, ?E10, ?E11; assumption.
Qed.

(* what I_ry, I_rw, I_sw ask of a task in phase p *)
Definition phase_ok (s : st) (p : phase) : Prop :=
  match p with
  | RecvYield mx => 1 <= mx /\ (rev s = true \/ tclosing s = true \/ eof s = true)
  | RecvWait mx f => 1 <= mx /\ (f = FSet -> rev s = true) /\ (f = FPending -> rev s = false)
  | SendWait ev f => ev <= wev s /\ (f = FSet -> wval s ev = true) /\ (f = FPending -> wval s ev = false)
  | _ => True
  end.

(* how a resource guard g follows its holder: taken when task t enters the call (inx p), released when t leaves it *)
Definition follow (inx : phase -> bool) (g : option tid) (t : tid) (a p : phase) : option tid :=
  if inx p then (if inx a then g else Some t) else if inx a then None else g.
Definition may_enter (inx : phase -> bool) (g : option tid) (a p : phase) : bool :=
  implb (inx p) (inx a || negb (isSome g)).

Lemma follow_holds inx g ph t p :
  (forall u, g = Some u <-> inx (ph u) = true) -> may_enter inx g (ph t) p = true ->
  forall u, follow inx g t (ph t) p = Some u <-> inx (upd ph t p u) = true.
Proof.
  unfold follow, may_enter, upd. intros G M u. destruct (Nat.eqb_spec u t) as [->|Hu].
  - destruct (inx p), (inx (ph t)) eqn:A; rewrite ?G, ?A; try tauto. split; discriminate.
  - destruct (inx p), (inx (ph t)) eqn:A; try apply G.
    + (* t enters: nobody held the guard *)
      split; [intros H; injection H as <-; contradiction|]. intros H. apply G in H. rewrite H in M. discriminate.
    + split; [discriminate|]. intros H. apply G in H, A. congruence.
Qed.

(* task t moves from phase a to phase p, the guards follow, the data fields stay *)
Lemma inv_move s s' t a p :
  Inv s -> phase_of s t = a -> data s' = data s -> phase_of s' = upd (phase_of s) t p ->
  rguard s' = follow is_recv (rguard s) t a p -> sguard s' = follow is_send (sguard s) t a p ->
  may_enter is_recv (rguard s) a p && may_enter is_send (sguard s) a p = true ->
  phase_ok s p -> Inv s'.
Proof.
  intros I <- E Ep Gr Gs M Ok. apply Bool.andb_true_iff in M. destruct M as [Mr Ms].
  pose proof (follow_holds is_recv _ _ t p (I_rg s I) Mr) as Fr.
  pose proof (follow_holds is_send _ _ t p (I_sg s I) Ms) as Fs.
  destruct I as [H1 H2 H3 H4 H5 H6 H7 H8 H9 H10].
  injection E as E1 E2 E3 E4 E5 E6 E7 E8 E9 E10 E11.
  constructor; rewrite ?Ep, ?Gr, ?Gs, ?E1, ?E2, ?E3, ?E4, ?E5, ?E6, ?E7, ?E8, ?E9, ?E10, ?E11; auto.
  - intros u mx. unfold upd. destruct (Nat.eqb u t); [intros ->; exact Ok|apply H6].
  - intros u mx f. unfold upd. destruct (Nat.eqb u t); [intros ->; exact Ok|apply H7].
  - intros u ev f. unfold upd. destruct (Nat.eqb u t); [intros ->; exact Ok|apply H10].
Qed.

Lemma wake_readers_recv ph t : is_recv (wake_readers ph t) = is_recv (ph t).
Proof. unfold wake_readers. destruct (ph t) as [| | mx [] | | |]; reflexivity. Qed.
Lemma wake_readers_send ph t : is_send (wake_readers ph t) = is_send (ph t).
Proof. unfold wake_readers. destruct (ph t) as [| | mx [] | | |]; reflexivity. Qed.
Lemma wake_writers_recv ev ph t : is_recv (wake_writers ev ph t) = is_recv (ph t).
Proof. unfold wake_writers. destruct (ph t) as [| | | | e [] |]; try reflexivity. destruct (Nat.eqb e ev); reflexivity. Qed.
Lemma wake_writers_send ev ph t : is_send (wake_writers ev ph t) = is_send (ph t).
Proof. unfold wake_writers. destruct (ph t) as [| | | | e [] |]; try reflexivity. destruct (Nat.eqb e ev); reflexivity. Qed.

Lemma inv_read_event_set s :
  Inv s -> (rq s <> [] \/ eof s = true \/ exc s <> None \/ g_lostclean s = true) -> Inv (read_event_set s).
Proof.
  intros I C. unfold read_event_set. destruct (rev s) eqn:Er; [exact I|].
  destruct I as [H1 H2 H3 H4 H5 H6 H7 H8 H9 H10].
  constructor; cbn in *; auto.
  - intros t. rewrite wake_readers_recv. apply H4.
  - intros t. rewrite wake_readers_send. apply H5.
  - intros t mx E. unfold wake_readers in E.
    destruct (phase_of s t) as [| | m [] | | |] eqn:P; try discriminate.
    injection E as ->. destruct (H6 t mx P) as [A _]. auto.
  - intros t mx f E. unfold wake_readers in E.
    destruct (phase_of s t) as [| | m [] | | |] eqn:P; try discriminate; injection E as -> <-.
    + destruct (H7 t mx _ P) as [A _]. split; [exact A|]. split; [auto|discriminate].
    + destruct (H7 t mx _ P) as [A [B _]]. rewrite B in Er by reflexivity. discriminate.
    + destruct (H7 t mx _ P) as [A _]. split; [exact A|]. split; discriminate.
  - intros t ev f E. unfold wake_readers in E.
    destruct (phase_of s t) as [| | m [] | | |] eqn:P; try discriminate. apply (H10 t). rewrite P. exact E.
Qed.

Lemma inv_write_event_set0 s : Inv s -> Inv (write_event_set0 s).
Proof.
  intros I. unfold write_event_set0. destruct (wval s (wev s)) eqn:Ew; [exact I|].
  destruct I as [H1 H2 H3 H4 H5 H6 H7 H8 H9 H10].
  constructor; cbn in *; auto.
  - intros t. rewrite wake_writers_recv. apply H4.
  - intros t. rewrite wake_writers_send. apply H5.
  - intros t mx E. unfold wake_writers in E.
    destruct (phase_of s t) as [| | | | e [] |] eqn:P; try discriminate; try (apply (H6 t); rewrite P; exact E).
    destruct (Nat.eqb e (wev s)); discriminate.
  - intros t mx f E. unfold wake_writers in E.
    destruct (phase_of s t) as [| | | | e [] |] eqn:P; try discriminate; try (apply (H7 t); rewrite P; exact E).
    destruct (Nat.eqb e (wev s)); discriminate.
  - intros t ev f E. unfold wake_writers in E.
    destruct (phase_of s t) as [| | | | e [] |] eqn:P; try discriminate.
    + destruct (Nat.eqb_spec e (wev s)) as [Ee|Ne]; injection E as <- <-.
      * subst e. split; [lia|]. split; [intros _; apply upd_same|discriminate].
      * destruct (H10 t e _ P) as (A & B & C). split; [exact A|]. split; [discriminate|].
        intros _. rewrite upd_other by exact Ne. auto.
    + injection E as <- <-. destruct (H10 t e _ P) as (A & B & C).
      split; [exact A|]. split; [|discriminate]. intros _.
      unfold upd. destruct (Nat.eqb e (wev s)); auto.
    + injection E as <- <-. destruct (H10 t e _ P) as (A & B & C).
      split; [exact A|]. split; discriminate.
Qed.

Lemma inv_write_event_set s : Inv s -> Inv (write_event_set s).
Proof. intros I. apply inv_write_event_set0, (inv_same s); [exact I|reflexivity..]. Qed.

Lemma inv_pause_writing s : Inv s -> Inv (pause_writing s).
Proof.
  intros I. destruct I as [H1 H2 H3 H4 H5 H6 H7 H8 H9 H10].
  constructor; cbn in *; auto.
  intros t ev f P. destruct (H10 t ev f P) as (A & B & C).
  assert (ev <> S (wev s)) by lia.
  split; [lia|]. rewrite upd_other by assumption. auto.
Qed.

Lemma inv_push s d : Inv s -> d <> [] ->
  Inv (set_g_recv (set_rq s (rq s ++ [d])) (g_recv s ++ d)).
Proof.
  intros I Hd. destruct I as [H1 H2 H3 H4 H5 H6 H7 H8 H9 H10].
  constructor; cbn in *; auto.
  - rewrite concat_app. cbn. rewrite app_nil_r, H1, app_assoc. reflexivity.
  - apply Forall_app. split; [exact H2|]. constructor; [exact Hd|constructor].
  - intros _. left. destruct (rq s); discriminate.
Qed.

Lemma inv_set_eof s : Inv s -> Inv (set_eof s true).
Proof.
  intros I. destruct I as [H1 H2 H3 H4 H5 H6 H7 H8 H9 H10].
  constructor; cbn in *; auto.
  intros t mx P. destruct (H6 t mx P) as [A B]. auto.
Qed.

Lemma inv_lost s e : Inv s ->
  Inv (set_tclosing (match e with Some _ => set_exc s e | None => set_g_lostclean s true end) true).
Proof.
  intros I. destruct I as [H1 H2 H3 H4 H5 H6 H7 H8 H9 H10].
  destruct e as [e|]; constructor; cbn in *; auto.
  - intros Hr. destruct (H3 Hr) as [A|[A|[A|A]]]; auto. right. right. left. discriminate.
  - intros t mx P. destruct (H6 t mx P) as [A B]. auto.
  - intros _. right. left. discriminate.
  - intros t mx P. destruct (H6 t mx P) as [A B]. auto.
Qed.

Lemma inv_close_flags s : Inv s -> Inv (set_tclosing (set_closed s true) true).
Proof.
  intros I. destruct I as [H1 H2 H3 H4 H5 H6 H7 H8 H9 H10].
  constructor; cbn in *; auto.
  intros t mx P. destruct (H6 t mx P) as [A B]. auto.
Qed.

Lemma inv_closed_when_closing s : Inv s -> tclosing s = true -> Inv (set_closed s true).
Proof.
  intros I Ht. destruct I as [H1 H2 H3 H4 H5 H6 H7 H8 H9 H10].
  constructor; cbn in *; auto.
Qed.

Lemma skipn_ne {A} n (l : list A) : n < length l -> skipn n l <> [].
Proof.
  intros H E. assert (length (skipn n l) = 0) by (rewrite E; reflexivity).
  rewrite skipn_length in H0. lia.
Qed.

Lemma inv_pop s rest hd c r :
  Inv s -> rq s = c :: r -> hd ++ concat rest = concat (c :: r) ->
  Forall (fun c => c <> []) rest ->
  (forall t mx, phase_of s t = RecvYield mx -> False) ->
  (forall t mx f, phase_of s t = RecvWait mx f -> False) ->
  Inv (match rest with
       | [] => set_rev (set_g_ret (set_rq s rest) (g_ret s ++ hd)) false
       | _ => set_g_ret (set_rq s rest) (g_ret s ++ hd)
       end).
Proof.
  intros I Hq Hc Hne NY NW. destruct I as [H1 H2 H3 H4 H5 H6 H7 H8 H9 H10].
  assert (Hb : g_recv s = (g_ret s ++ hd) ++ concat rest).
  { rewrite H1, Hq, <- app_assoc, Hc. reflexivity. }
  destruct rest as [|c' r']; constructor; cbn in *; auto; try discriminate.
  - intros t mx P. destruct (NY t mx P).
  - intros t mx f P. destruct (NW t mx f P).
  - intros _. left. discriminate.
Qed.

Lemma inv_leave_recv s t : Inv s -> is_recv (phase_of s t) = true -> Inv (leave_recv s t).
Proof.
  intros I Hr. apply (inv_move s _ t _ Idle I eq_refl); try reflexivity;
    destruct (phase_of s t); try discriminate; reflexivity.
Qed.

Lemma inv_recv_finish s t mx :
  Inv s -> is_recv (phase_of s t) = true -> 1 <= mx -> Inv (fst (recv_finish s t mx)).
Proof.
  intros I Hr Hm. unfold recv_finish.
  destruct (rq s) as [|c r] eqn:Eq; cbn [fst].
  - apply inv_leave_recv; assumption.
  - set (big := Nat.ltb mx (length c)).
    set (hd := if big then firstn mx c else c).
    set (rest := if big then skipn mx c :: r else r).
    (* first leave the call (no receiver remains), then pop *)
    assert (Hne : Forall (fun c => c <> []) (c :: r)) by (rewrite <- Eq; apply (I_ne s I)).
    assert (Hrest : Forall (fun c => c <> []) rest).
    { unfold rest, big. destruct (Nat.ltb_spec mx (length c)).
      - constructor; [apply skipn_ne; assumption|]. inversion Hne; assumption.
      - inversion Hne; assumption. }
    assert (Hcat : hd ++ concat rest = concat (c :: r)).
    { unfold hd, rest. destruct big; cbn; [|reflexivity].
      rewrite app_assoc, firstn_skipn. reflexivity. }
    pose proof (inv_leave_recv s t I Hr) as IL.
    assert (NR : forall t', is_recv (phase_of (leave_recv s t) t') = false).
    { intros t'. cbn. unfold upd. destruct (Nat.eqb_spec t' t) as [->|n]; [reflexivity|].
      destruct (is_recv (phase_of s t')) eqn:E; [|reflexivity]. destruct n. apply (recv_unique s t' t I E Hr). }
    assert (NY : forall t' m, phase_of (leave_recv s t) t' = RecvYield m -> False).
    { intros t' m P. specialize (NR t'). rewrite P in NR. discriminate. }
    assert (NW : forall t' m f, phase_of (leave_recv s t) t' = RecvWait m f -> False).
    { intros t' m f P. specialize (NR t'). rewrite P in NR. discriminate. }
    pose proof (inv_pop (leave_recv s t) rest hd c r IL Eq Hcat Hrest NY NW) as IP.
    destruct rest as [|c' r']; exact IP.
Qed.

(* send(): checks, write, wait *)
Lemma inv_leave_send s t : Inv s -> is_send (phase_of s t) = true -> Inv (leave_send s t).
Proof.
  intros I Hr. apply (inv_move s _ t _ Idle I eq_refl); try reflexivity;
    destruct (phase_of s t); try discriminate; reflexivity.
Qed.

Lemma inv_send_write s t item pw :
  Inv s -> is_send (phase_of s t) = true -> Inv (fst (send_write s t item pw)).
Proof.
  intros I Hs. unfold send_write.
  destruct (closed s); [apply inv_leave_send; assumption|].
  destruct (exc s); [apply inv_leave_send; assumption|].
  destruct (weof s); [apply inv_leave_send; assumption|].
  set (pend := if wval s (wev s) then _ else _).
  set (s1 := set_g_pending (set_g_written s (g_written s ++ item)) pend).
  assert (I1 : Inv s1) by (apply (inv_same s); [exact I|reflexivity..]).
  set (s2 := if pw then pause_writing s1 else s1).
  assert (I2 : Inv s2) by (unfold s2; destruct pw; [apply inv_pause_writing|]; exact I1).
  assert (P2 : phase_of s2 t = phase_of s t) by (unfold s2; destruct pw; reflexivity).
  destruct (wval s2 (wev s2)) eqn:Ew; cbn [fst].
  - apply inv_leave_send; [exact I2|rewrite P2; exact Hs].
  - apply (inv_move s2 _ t _ (SendWait (wev s2) FPending) I2 P2); try reflexivity; [destruct (phase_of s t); try discriminate; reflexivity..|].
    cbn. split; [lia|]. split; [discriminate|auto].
Qed.

Lemma step_inv pinned s o : Inv s -> Inv (fst (stepv pinned s o)).
Proof.
  intros I.
  assert (Idle_is : forall t, is_idle (phase_of s t) = true -> phase_of s t = Idle).
  { intros t. destruct (phase_of s t); try discriminate; reflexivity. }
  destruct o as [t mx|t item|t|t|t pw|t|d| |e| |]; cbn [stepv].
  - (* Receive *)
    destruct (is_idle (phase_of s t)) eqn:Ei; cbn [negb fst]; [apply Idle_is in Ei|exact I].
    destruct (Nat.eqb_spec mx 0); [exact I|]. destruct (rguard s) eqn:Eg; [exact I|].
    destruct (andb _ _) eqn:Eb; cbn [fst].
    + apply (inv_move s _ t _ (RecvWait mx FPending) I Ei); rewrite ?Eg; try reflexivity.
      split; [lia|]. split; [discriminate|]. intros _. destruct (rev s); [discriminate|reflexivity].
    + apply (inv_move s _ t _ (RecvYield mx) I Ei); rewrite ?Eg; try reflexivity.
      split; [lia|]. destruct (rev s), (tclosing s), (eof s); auto; discriminate.
  - (* Send *)
    destruct (is_idle (phase_of s t)) eqn:Ei; cbn [negb fst]; [apply Idle_is in Ei|exact I].
    destruct (sguard s) eqn:Eg; [exact I|]. apply (inv_move s _ t _ (SendYield item) I Ei); rewrite ?Eg; reflexivity.
  - (* SendEof *)
    destruct (is_idle (phase_of s t)); [destruct (tclosing s)|]; try exact I. apply (inv_same s); [exact I|reflexivity..].
  - (* Close *)
    destruct (is_idle (phase_of s t)) eqn:Ei; cbn [negb fst]; [apply Idle_is in Ei|exact I].
    destruct (tclosing s) eqn:Et; cbn [fst]; [apply inv_closed_when_closing; assumption|].
    pose proof (inv_close_flags (set_weof s true) (inv_same s (set_weof s true) I eq_refl eq_refl)) as I1.
    apply (inv_move _ _ t _ CloseYield I1 Ei); reflexivity.
  - (* Resume *)
    destruct (phase_of s t) as [|mx|mx f|item|ev f|] eqn:Ep; cbn [fst].
    + exact I.
    + destruct (I_ry s I t mx Ep) as [Hm _].
      destruct (mustc s t); [apply inv_leave_recv|apply inv_recv_finish]; try rewrite Ep; auto.
    + destruct (I_rw s I t mx f Ep) as [Hm _].
      assert (IC : Inv (set_g_rcancel (cancel_wait pinned s) true))
        by (apply (inv_same s); [exact I|destruct pinned; reflexivity..]).
      assert (Hr : forall s0, phase_of s0 = phase_of s -> is_recv (phase_of s0 t) = true)
        by (intros s0 ->; rewrite Ep; reflexivity).
      destruct f; cbn [fst]; [exact I| |apply inv_leave_recv; [exact IC|apply Hr; destruct pinned; reflexivity]].
      destruct (mustc s t); cbn [fst]; [apply inv_leave_recv; [exact IC|apply Hr; destruct pinned; reflexivity]|].
      apply inv_recv_finish; [apply (inv_same s); [exact I|reflexivity..]|apply Hr; reflexivity|exact Hm].
    + assert (Hs : is_send (phase_of s t) = true) by (rewrite Ep; reflexivity).
      destruct (mustc s t); [apply inv_leave_send; assumption|].
      destruct (andb _ _) eqn:Eb; cbn [fst]; [|apply inv_send_write; assumption].
      apply (inv_move s _ t _ (SendWait (wev s) FPending) I Ep); try reflexivity.
      split; [lia|]. split; [discriminate|]. intros _.
      destruct pinned, (closed s), (wval s (wev s)); try discriminate; reflexivity.
    + assert (Hs : is_send (phase_of s t) = true) by (rewrite Ep; reflexivity).
      destruct f; cbn [fst]; [exact I| |apply inv_leave_send; assumption].
      destruct (mustc s t); [apply inv_leave_send; assumption|].
      destruct (prew s t); [|apply inv_leave_send; assumption].
      apply inv_send_write; [apply (inv_same s); [exact I|reflexivity..]|exact Hs].
    + destruct (mustc s t); cbn [fst]; apply (inv_move s _ t _ Idle I Ep); try reflexivity; destruct pinned; reflexivity.
  - (* Cancel *)
    destruct (phase_of s t) as [| |mx f| |ev f|] eqn:Ep; try destruct f; cbn [fst]; try exact I;
      try (apply (inv_same s); [exact I|reflexivity..]).
    + destruct (I_rw s I t mx _ Ep) as (A & _).
      apply (inv_move s _ t _ (RecvWait mx FCancelled) I Ep); try reflexivity. split; [exact A|split; discriminate].
    + destruct (I_sw s I t ev _ Ep) as (A & _).
      apply (inv_move s _ t _ (SendWait ev FCancelled) I Ep); try reflexivity. split; [exact A|split; discriminate].
  - (* DataReceived *)
    destruct d as [|b d]; cbn [fst]; [exact I|].
    apply inv_read_event_set; [apply inv_push; [exact I|discriminate]|].
    left. cbn. destruct (rq s); discriminate.
  - (* EofReceived *)
    cbn [fst]. apply inv_read_event_set; [apply inv_set_eof; exact I|]. cbn. auto.
  - (* ConnectionLost *)
    cbn [fst]. apply inv_write_event_set. apply inv_read_event_set; [apply inv_lost; exact I|].
    destruct e; cbn; [right; right; left; discriminate|auto].
  - (* PauseWriting *) cbn [fst]. apply inv_pause_writing; exact I.
  - (* ResumeWriting *) cbn [fst]. apply inv_write_event_set; exact I.
Qed.

Theorem reachable_inv pinned r0 ops : Inv (final (stepv pinned) (init r0) ops).
Proof. apply final_inv; [intros; apply step_inv; assumption|apply inv_init]. Qed.

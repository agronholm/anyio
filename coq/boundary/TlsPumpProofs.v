(* Proofs about boundary/TlsPump.v.
   First the pump loop for EVERY SSL-object oracle (stateful function or script), every transport script
   (every fragmentation, every cut point, every failure) and every sequence of stream operations;
   then the toy record layer: it satisfies the record-layer contract, and is transparent end to end through the pump. *)
From AV Require Import Base TlsPump.

Lemma sent_of_app a b : sent_of (a ++ b) = sent_of a ++ sent_of b.
Proof.
  induction a as [|c a IH]; cbn; [reflexivity|].
  destruct c as [d t|p r| |]; try exact IH. destruct t; try exact IH.
  rewrite IH. now rewrite app_assoc.
Qed.

Lemma rcvd_of_app a b : rcvd_of (a ++ b) = rcvd_of a ++ rcvd_of b.
Proof.
  induction a as [|c a IH]; cbn; [reflexivity|].
  destruct c as [d t|p r| |]; try exact IH. destruct r; try exact IH.
  rewrite IH. now rewrite app_assoc.
Qed.

Definition eof_seen (tr : list tcall) : Prop := exists p, In (CRecv p RxEof) tr.

Record Inv (s : pst) : Prop := {
  I_out : sendfail s = false -> produced s = sent_of (trace s) ++ bout s;
  I_in : late s = false -> rcvd_of (trace s) = fed s;
  I_bin : fed s = consumed s ++ bin s;
  I_flush : forallb recv_flushed (trace s) = true;
  I_eof : std s = true -> eof_seen (trace s) -> bin_eof s = true
}.

Lemma inv_init sc rx tail tx : Inv (init_pst sc rx tail tx).
Proof.
  constructor; cbn; auto. intros _ [p []].
Qed.

Lemma eof_seen_snoc tr c : eof_seen (tr ++ [c]) -> eof_seen tr \/ exists p, c = CRecv p RxEof.
Proof.
  intros [p H]. apply in_app_or in H. destruct H as [H|[H|[]]].
  - left. now exists p.
  - right. now exists p.
Qed.

Lemma apply_ev_inv s f e : Inv s -> Inv (apply_ev s f e).
Proof.
  intros I. constructor; cbn.
  - intros H. rewrite (I_out s I H). now rewrite app_assoc.
  - apply (I_in s I).
  - rewrite (I_bin s I). rewrite <- app_assoc. now rewrite firstn_skipn.
  - apply (I_flush s I).
  - apply (I_eof s I).
Qed.

Lemma do_send_inv s : Inv s -> Inv (fst (do_send s)).
Proof.
  intros I. constructor; cbn.
  - intros H. apply orb_false_iff in H. destruct H as [H1 H2].
    rewrite sent_of_app, (I_out s I H1). destruct (txs s) as [|[] r]; try discriminate; cbn; now rewrite !app_nil_r.
  - intros H. rewrite rcvd_of_app. cbn. rewrite app_nil_r. apply (I_in s I H).
  - apply (I_bin s I).
  - rewrite forallb_app. cbn. rewrite (I_flush s I). reflexivity.
  - intros Hs H. apply eof_seen_snoc in H. destruct H as [H|[p H]]; [apply (I_eof s I Hs H)|discriminate].
Qed.

Lemma do_send_bout s : bout (fst (do_send s)) = [].
Proof. reflexivity. Qed.

Lemma flush_inv s : Inv s -> Inv (fst (flush s)).
Proof.
  intros I. unfold flush. destruct (bout s) eqn:E; [exact I|].
  apply do_send_inv, I.
Qed.

Lemma flush_bout s : bout (fst (flush s)) = [].
Proof. unfold flush. destruct (bout s) eqn:E; [exact E|reflexivity]. Qed.

Lemma log_call_inv s c : Inv s ->
  sent_of [c] = [] -> (late s = false -> rcvd_of [c] = []) -> recv_flushed c = true ->
  (forall p, c = CRecv p RxEof -> std s = true -> bin_eof s = true) ->
  Inv (log_call s c).
Proof.
  intros I Hs Hr Hf He. constructor; cbn.
  - intros H. rewrite sent_of_app, Hs, app_nil_r. apply (I_out s I H).
  - intros H. rewrite rcvd_of_app, (Hr H), app_nil_r. apply (I_in s I H).
  - apply (I_bin s I).
  - rewrite forallb_app. cbn. now rewrite (I_flush s I), Hf.
  - intros Hstd H. apply eof_seen_snoc in H. destruct H as [H|[p H]]; [apply (I_eof s I Hstd H)|apply (He p H Hstd)].
Qed.

Lemma set_bin_eof_inv s : Inv s -> Inv (set_bin_eof s).
Proof. intros I. constructor; cbn; try apply I. reflexivity. Qed.

Lemma both_eof_inv s : Inv s -> Inv (both_eof s).
Proof. intros I. constructor; cbn; try apply I. reflexivity. Qed.

Lemma take_bin_inv s : Inv s -> Inv (take_bin s).
Proof.
  intros I. constructor; cbn; try apply I. rewrite app_nil_r. apply (I_bin s I).
Qed.

Lemma recv_data_inv s d : Inv s -> Inv (feed (log_call s (CRecv 0 (RxData d))) d).
Proof.
  intros I. constructor; cbn.
  - intros H. rewrite sent_of_app. cbn. rewrite app_nil_r. apply (I_out s I H).
  - intros H. rewrite rcvd_of_app, (I_in s I H). cbn. now rewrite app_nil_r.
  - rewrite (I_bin s I). now rewrite app_assoc.
  - rewrite forallb_app, (I_flush s I). reflexivity.
  - intros Hs H. apply eof_seen_snoc in H. destruct H as [H|[p H]]; [apply (I_eof s I Hs H)|discriminate].
Qed.

Definition with_rxs (s : pst) (l : list rxev) : pst :=
  mkp (std s) (bin s) (bin_eof s) (bout s) (bout_eof s) l (rx_tail s) (txs s)
      (trace s) (olog s) (fed s) (consumed s) (produced s) (sendfail s) (late s).

Lemma pop_rx_spec s r s2 : pop_rx s = Some (r, s2) -> exists l, s2 = with_rxs s l.
Proof.
  unfold pop_rx. destruct (rxs s) as [|x l] eqn:E.
  - destruct (rx_tail s); [|discriminate]. intros H. injection H as _ <-. exists []. rewrite <- E. now destruct s.
  - intros H. injection H as _ <-. now exists l.
Qed.

Lemma do_recv_inv s : Inv s -> bout s = [] -> Inv (fst (do_recv s)).
Proof.
  intros I Hb. unfold do_recv. destruct (pop_rx s) as [[r s2]|] eqn:E; [|exact I].
  apply pop_rx_spec in E. destruct E as [l ->].
  assert (I2 : Inv (with_rxs s l)) by (constructor; apply I).
  change (bout (with_rxs s l)) with (bout s). rewrite Hb. cbn [length].
  (* set_late and set_bin_eof commute with log_call: the call is appended to the state already updated *)
  destruct r as [d| | | |]; cbn [fst].
  - destruct (bin_eof _); cbn [fst].
    + apply (log_call_inv (set_late (with_rxs s l)) (CRecv 0 (RxData d)));
        [constructor; try apply I2; discriminate|reflexivity|discriminate|reflexivity|discriminate].
    + apply recv_data_inv, I2.
  - destruct (std _) eqn:Es; cbn [fst].
    + apply (log_call_inv (set_bin_eof (with_rxs s l)) (CRecv 0 RxEof)); [apply set_bin_eof_inv, I2|reflexivity..].
    + apply log_call_inv; [exact I2|reflexivity..|]. intros p _ Hs. cbn in Es, Hs. congruence.
  - apply both_eof_inv, log_call_inv; [exact I2|reflexivity..|discriminate].
  - apply log_call_inv; [exact I2|reflexivity..|discriminate].
  - apply log_call_inv; [exact I2|reflexivity..|discriminate].
Qed.

Lemma on_ev_inv s e : Inv s -> Inv (fst (on_ev s e)).
Proof.
  intros I. unfold on_ev. destruct (ek e); try apply both_eof_inv, I.
  - destruct (flush s) as [s2 t] eqn:E. pose proof (flush_inv s I) as I2. rewrite E in I2.
    destruct (is_txok t); exact I2.
  - destruct (flush s) as [s2 t] eqn:E. pose proof (flush_inv s I) as I2. pose proof (flush_bout s) as Hb.
    rewrite E in I2, Hb. destruct t; cbn [fst]; auto using both_eof_inv, do_recv_inv.
  - destruct (do_send s) as [s2 t] eqn:E. pose proof (do_send_inv s I) as I2. rewrite E in I2.
    destruct (is_txok t); exact I2.
Qed.

(* handshake, receive and send are one run of the loop each; only the outcome is adjusted: receive() turns the empty
   read into EndOfStream, the other two return nothing *)
Definition recv_res (r : res) : res := match r with RVal [] => REndOfStream | _ => r end.
Definition unit_res (r : res) : res := match r with RVal _ => RVal [] | _ => r end.
Definition map_res {O : Type} (g : res -> res) (p : O * pst * res) : (O * pst) * res := (fst p, g (snd p)).

Section StepPump.
  Variable O : Type.
  Variable ocall : O -> func -> list byte -> bool -> option (O * sslev).

  Lemma step_handshake fuel o s :
    step O ocall fuel (o, s) OHandshake = map_res unit_res (pump O ocall fuel o FHandshake s).
  Proof. cbn [step]. destruct (pump O ocall fuel o FHandshake s) as [[o1 s1] r]. now destruct r. Qed.

  Lemma step_receive fuel o s n :
    step O ocall fuel (o, s) (OReceive (S n)) = map_res recv_res (pump O ocall fuel o (FRead (S n)) s).
  Proof.
    cbn [step]. destruct (pump O ocall fuel o (FRead (S n)) s) as [[o1 s1] r]. now destruct r as [[|x v]| | | | | | | |].
  Qed.

  Lemma step_send fuel o s item :
    step O ocall fuel (o, s) (OSend item) = map_res unit_res (pump O ocall fuel o (FWrite item) s).
  Proof. cbn [step]. destruct (pump O ocall fuel o (FWrite item) s) as [[o1 s1] r]. now destruct r. Qed.
End StepPump.

Lemma recv_res_cases r : (r = RVal [] /\ recv_res r = REndOfStream) \/ (recv_res r = r /\ r <> RVal []).
Proof. destruct r as [[|x v]| | | | | | | |]; auto; right; split; (reflexivity || discriminate). Qed.

(* a property of the pump's state that every step of the loop preserves is preserved by every stream operation *)
Section Preserved.
  Variable O : Type.
  Variable ocall : O -> func -> list byte -> bool -> option (O * sslev).
  Variable P : pst -> Prop.
  Hypothesis P_ev : forall s f e, P s -> P (fst (on_ev (apply_ev s f e) e)).

  Lemma pump_preserves fuel : forall o f s, P s -> P (snd (fst (pump O ocall fuel o f s))).
  Proof.
    induction fuel as [|k IH]; intros o f s H; cbn [pump]; [exact H|].
    unfold iter. destruct (ocall o f (bin s) (bin_eof s)) as [[o1 e]|]; [|exact H].
    pose proof (P_ev s f e H) as H1.
    destruct (on_ev (apply_ev s f e) e) as [s1 [r|]]; [exact H1|apply IH, H1].
  Qed.

  Hypothesis P_unwrap : forall s, P s -> P (take_bin (both_eof s)).
  Hypothesis P_close : forall s c, c = CClose \/ c = CCloseForce -> P s -> P (log_call s c).

  Lemma step_preserves fuel w a : P (snd w) -> P (snd (fst (step O ocall fuel w a))).
  Proof.
    destruct w as [o s]. cbn [snd]. intros H.
    pose proof (fun f => pump_preserves fuel o f s H) as Hp.
    assert (Hu : P (snd (fst (do_unwrap O ocall fuel o s)))).
    { unfold do_unwrap. specialize (Hp FUnwrap).
      destruct (pump O ocall fuel o FUnwrap s) as [[o1 s1] r]. destruct r; cbn [fst snd] in *; auto. }
    destruct a as [|[|n]|item| |].
    - rewrite step_handshake. apply Hp.
    - exact H.
    - rewrite step_receive. apply Hp.
    - rewrite step_send. apply Hp.
    - cbn [step]. destruct (do_unwrap O ocall fuel o s) as [[o1 s1] r]. exact Hu.
    - cbn [step]. destruct (std s); [|apply P_close; auto].
      destruct (do_unwrap O ocall fuel o s) as [[o1 s1] r]. destruct r; apply P_close; auto.
  Qed.
End Preserved.

Section Generic.
  Variable O : Type.
  Variable ocall : O -> func -> list byte -> bool -> option (O * sslev).

  Lemma run_preserves (P : pst -> Prop) fuel :
    (forall w a, P (snd w) -> P (snd (fst (step O ocall fuel w a)))) ->
    forall ops w, P (snd w) -> P (snd (fst (run O ocall fuel w ops))).
  Proof.
    intros Hstep ops w. unfold run. rewrite run_ops_final.
    apply (final_inv (step O ocall fuel) (fun w => P (snd w))). exact Hstep.
  Qed.

  Lemma step_inv fuel w a : Inv (snd w) -> Inv (snd (fst (step O ocall fuel w a))).
  Proof.
    apply step_preserves.
    - intros s f e I. apply on_ev_inv, apply_ev_inv, I.
    - intros s I. apply take_bin_inv, both_eof_inv, I.
    - intros s c Hc I. apply log_call_inv; [exact I|destruct Hc as [-> | ->]; easy..].
  Qed.

  Lemma run_inv fuel ops w : Inv (snd w) -> Inv (snd (fst (run O ocall fuel w ops))).
  Proof. apply run_preserves. intros w0 a. apply step_inv. Qed.
End Generic.

Definition tx_fail (r : res) : Prop := r = ROSError \/ r = RBroken \/ r = RClosed.

(* outcome r of the loop, given the last answer e of the SSL object (sc = standard_compatible) *)
Definition res_of_ev (sc : bool) (e : sslev) (r : res) (s' : pst) : Prop :=
  match ek e with
  | KOk => r = RVal (eval e) \/ (sendfail s' = true /\ tx_fail r)
  | KWantRead => r = RBroken \/ r = RClosed \/ (r = RSslOther /\ late s' = true) \/ (r = REndOfStream /\ sc = false)
  | KWantWrite => sendfail s' = true /\ tx_fail r
  | KSyscall => r = RBroken
  | KEofCls | KEofStr => r = if sc then RBroken else REndOfStream
  | KOther => r = RSslOther
  | KZeroRet => r = RSslZeroRet
  end.

(* a transport whose send() never fails: nothing is ever dropped *)
Definition NF (s : pst) : Prop := txs s = [] /\ sendfail s = false.

(* what no iteration of the loop changes *)
Definition frame (s s' : pst) : Prop :=
  std s' = std s /\ olog s' = olog s /\ produced s' = produced s /\ (NF s -> NF s').

Lemma frame_same s s' :
  std s' = std s -> olog s' = olog s -> produced s' = produced s -> txs s' = txs s -> sendfail s' = sendfail s ->
  frame s s'.
Proof. intros H1 H2 H3 H4 H5. unfold frame, NF. rewrite H4, H5. auto. Qed.

Lemma frame_refl s : frame s s.
Proof. now apply frame_same. Qed.

Lemma frame_trans a b c : frame a b -> frame b c -> frame a c.
Proof.
  intros (H1 & H2 & H3 & H4) (K1 & K2 & K3 & K4).
  exact (conj (eq_trans K1 H1) (conj (eq_trans K2 H2) (conj (eq_trans K3 H3) (fun N => K4 (H4 N))))).
Qed.

Lemma do_send_frame s : frame s (fst (do_send s)).
Proof.
  refine (conj eq_refl (conj eq_refl (conj eq_refl _))). intros [H1 H2]. unfold NF. cbn. now rewrite H1, H2.
Qed.

Lemma flush_frame s : frame s (fst (flush s)).
Proof. unfold flush. destruct (bout s); [apply frame_refl|apply do_send_frame]. Qed.

Lemma do_recv_frame s : frame s (fst (do_recv s)).
Proof.
  unfold do_recv. destruct (pop_rx s) as [[r s2]|] eqn:E; [|apply frame_refl].
  apply pop_rx_spec in E. destruct E as [l ->].
  destruct r; [destruct (bin_eof _)|destruct (std _)| | |]; now apply frame_same.
Qed.

Lemma on_ev_frame s e : frame s (fst (on_ev s e)).
Proof.
  unfold on_ev. destruct (ek e); try now apply frame_same.
  - pose proof (flush_frame s) as H. destruct (flush s) as [s2 t]. destruct (is_txok t); exact H.
  - pose proof (flush_frame s) as H. destruct (flush s) as [s2 t].
    destruct t; try exact H. apply (frame_trans _ _ _ H), do_recv_frame.
  - pose proof (do_send_frame s) as H. destruct (do_send s) as [s2 t]. destruct (is_txok t); exact H.
Qed.

Lemma do_send_fail s s2 t : do_send s = (s2, t) -> is_txok t = false -> sendfail s2 = true /\ tx_fail (tx_fail_res t).
Proof.
  unfold do_send. intros H Ht. injection H as <- <-. cbn [sendfail].
  destruct (txs s) as [|t r]; cbn in *; [discriminate|].
  split; [destruct t; try discriminate; apply orb_true_r|].
  destruct t; try discriminate; unfold tx_fail; cbn; auto.
Qed.

Lemma do_recv_done s s2 r : do_recv s = (s2, Done r) -> r <> RStuck ->
  r = RBroken \/ r = RClosed \/ (r = RSslOther /\ late s2 = true) \/ (r = REndOfStream /\ std s = false).
Proof.
  unfold do_recv. destruct (pop_rx s) as [[x s3]|] eqn:E; [|intros H Hr; injection H as _ <-; contradiction].
  apply pop_rx_spec in E. destruct E as [l ->].
  destruct x; try (intros H _; injection H as <- <-; auto; fail).
  - destruct (bin_eof _); intros H _; [|discriminate]. injection H as <- <-. right. right. left. split; reflexivity.
  - cbn [std log_call with_rxs]. destruct (std s); intros H _; [discriminate|]. injection H as <- <-. auto.
Qed.

Lemma on_ev_done s e s2 r : on_ev s e = (s2, Done r) -> r <> RStuck -> res_of_ev (std s) e r s2.
Proof.
  unfold on_ev, res_of_ev. destruct (ek e); try (intros H _; now injection H as <- <-).
  - destruct (flush s) as [s1 t] eqn:E. destruct (is_txok t) eqn:Et; intros H Hr; injection H as <- <-.
    + now left.
    + right. unfold flush in E. destruct (bout s); [injection E as <- <-; discriminate|]. apply (do_send_fail s s1 t E Et).
  - destruct (flush s) as [s1 t] eqn:E. destruct (flush_frame s) as (Hf & _). rewrite E in Hf.
    destruct t; try (intros H _; injection H as <- <-; auto; fail).
    intros H Hr. rewrite <- Hf. apply (do_recv_done _ _ _ H Hr).
  - destruct (do_send s) as [s1 t] eqn:E. destruct (is_txok t) eqn:Et; intros H Hr; [discriminate|].
    injection H as <- <-. apply (do_send_fail s s1 t E Et).
Qed.

Definition unexpected_eof (e : sslev) : Prop := ek e = KEofCls \/ ek e = KEofStr.

Lemma res_of_ev_kind sc e r s' : res_of_ev sc e r s' ->
  (unexpected_eof e -> r = if sc then RBroken else REndOfStream) /\
  (r = REndOfStream -> sc = false /\ (unexpected_eof e \/ ek e = KWantRead)) /\
  (forall v, r = RVal v -> ek e = KOk /\ eval e = v).
Proof.
  assert (Hf : forall r, tx_fail r -> r <> REndOfStream /\ forall v, r <> RVal v).
  { intros r0 [-> | [-> | ->]]; split; discriminate. }
  unfold res_of_ev, unexpected_eof. intros H. split; [|split].
  - intros [U|U]; rewrite U in H; exact H.
  - intros ->. destruct (ek e); try (destruct sc; discriminate H); auto.
    + destruct H as [H|[_ H]]; [discriminate|now destruct (Hf _ H)].
    + destruct H as [H|[H|[[H _]|[_ H]]]]; try discriminate. auto.
    + now destruct (Hf _ (proj2 H)).
    + destruct sc; [discriminate|auto].
    + destruct sc; [discriminate|auto].
  - intros v ->. destruct (ek e); try (destruct sc; discriminate H).
    + destruct H as [H|[_ H]]; [injection H as <-; auto|now destruct (proj2 (Hf _ H) v)].
    + destruct H as [H|[H|[[H _]|[H _]]]]; discriminate.
    + now destruct (proj2 (Hf _ (proj2 H)) v).
Qed.

Lemma flush_eofs s : bin_eof (fst (flush s)) = bin_eof s /\ bout_eof (fst (flush s)) = bout_eof s.
Proof. unfold flush. destruct (bout s); split; reflexivity. Qed.

(* outcomes of an iteration that, when not standard_compatible, leave the EOF marks of both BIOs as they were *)
Definition quiet (e : sslev) (nx : next) : bool :=
  match nx with
  | Again | Done (RVal _) => true
  | Done REndOfStream => match ek e with KWantRead => true | _ => false end
  | _ => false
  end.

Lemma do_recv_kept s s' nx : do_recv s = (s', nx) ->
  bout s' = bout s /\
  (std s = false -> nx <> Done RBroken -> bin_eof s' = bin_eof s /\ bout_eof s' = bout_eof s) /\
  (nx = Done REndOfStream -> exists p tr, trace s' = tr ++ [CRecv p RxEof]).
Proof.
  unfold do_recv. destruct (pop_rx s) as [[r s2]|] eqn:E.
  - apply pop_rx_spec in E. destruct E as [l ->].
    destruct r; [destruct (bin_eof (log_call _ _))|cbn [std log_call with_rxs]; destruct (std s) eqn:Es| | |];
      intros H; injection H as <- <-; (split; [reflexivity|split]); try discriminate; try (split; reflexivity).
    + intros _. eexists _, _. reflexivity.
    + intros _ Hn. now contradiction Hn.
  - intros H. injection H as <- <-. repeat split. discriminate.
Qed.

Lemma on_ev_kept s e s' nx : on_ev s e = (s', nx) -> quiet e nx = true ->
  bout s' = [] /\ (std s = false -> bin_eof s' = bin_eof s /\ bout_eof s' = bout_eof s) /\
  (nx = Done REndOfStream -> exists p tr, trace s' = tr ++ [CRecv p RxEof]).
Proof.
  unfold on_ev, quiet. destruct (ek e); try (destruct (std s); intros H; injection H as <- <-; discriminate).
  - pose proof (flush_bout s) as Hb. pose proof (flush_eofs s) as He. destruct (flush s) as [s1 t].
    destruct t; intros H; injection H as <- <-; try discriminate.
    intros _. repeat split; try apply He; [exact Hb|discriminate].
  - pose proof (flush_bout s) as Hb. pose proof (flush_eofs s) as [He1 He2]. destruct (flush_frame s) as (Hf & _).
    destruct (flush s) as [s1 t]. cbn [fst] in *.
    destruct t; try (intros H; injection H as <- <-; discriminate).
    intros H Q. destruct (do_recv_kept _ _ _ H) as (K1 & K2 & K3).
    split; [congruence|]. split; [|exact K3].
    intros Hs. destruct K2 as [K2 K2']; [congruence|intros ->; discriminate|]. split; congruence.
  - unfold do_send. destruct (txs s) as [|[] ?]; intros H; injection H as <- <-; try discriminate.
    all: intros _; repeat split; discriminate.
Qed.

Section LastIteration.
  Variable O : Type.
  Variable ocall : O -> func -> list byte -> bool -> option (O * sslev).

  (* e is an answer the SSL object really gave to a call of method f *)
  Definition answered (f : func) (e : sslev) : Prop :=
    exists o0 b be o1, ocall o0 f b be = Some (o1, e).

  (* the last iteration of a loop that came to an end: s0 is the state in which the SSL object gave its last answer *)
  Lemma pump_last fuel : forall o f s o' s' r,
    pump O ocall fuel o f s = (o', s', r) -> r <> RStuck ->
    exists s0 e, answered f e /\ on_ev (apply_ev s0 f e) e = (s', Done r) /\ std s0 = std s /\
      (std s = false -> bin_eof s0 = bin_eof s /\ bout_eof s0 = bout_eof s).
  Proof.
    induction fuel as [|k IH]; intros o f s o' s' r; cbn [pump].
    - intros H Hr. injection H as _ _ <-. contradiction.
    - unfold iter. destruct (ocall o f (bin s) (bin_eof s)) as [[o1 e]|] eqn:Ec.
      + destruct (on_ev (apply_ev s f e) e) as [s1 [r0|]] eqn:Ev.
        * intros H _. injection H as <- <- <-. exists s, e. split; [now exists o, (bin s), (bin_eof s), o1|]. auto.
        * intros H Hr. destruct (IH _ _ _ _ _ _ H Hr) as (s0 & e0 & Ha & Hev & Hs & He).
          destruct (on_ev_frame (apply_ev s f e) e) as (F1 & _). rewrite Ev in F1. cbn in F1.
          destruct (on_ev_kept _ _ _ _ Ev eq_refl) as (_ & K & _). cbn in K.
          exists s0, e0. split; [exact Ha|]. split; [exact Hev|]. split; [congruence|].
          intros Hf. destruct (K Hf). destruct He; [congruence|]. split; congruence.
      + intros H Hr. injection H as _ _ <-. contradiction.
  Qed.

  Lemma pump_spec fuel o f s o' s' r :
    pump O ocall fuel o f s = (o', s', r) -> r <> RStuck ->
    std s' = std s /\
    exists pre e, olog s' = pre ++ [(f, e)] /\ answered f e /\ res_of_ev (std s) e r s'.
  Proof.
    intros H Hr. destruct (pump_last _ _ _ _ _ _ _ H Hr) as (s0 & e & Ha & Hev & Hs & _).
    destruct (on_ev_frame (apply_ev s0 f e) e) as (F1 & F2 & _). rewrite Hev in F1, F2. cbn in F1, F2.
    split; [congruence|]. exists (olog s0), e. split; [exact F2|]. split; [exact Ha|].
    rewrite <- Hs. apply (on_ev_done _ _ _ _ Hev Hr).
  Qed.
End LastIteration.

Section PumpTheorems.
  Variable O : Type.
  Variable ocall : O -> func -> list byte -> bool -> option (O * sslev).

  Theorem pump_ciphertext_conserved fuel o0 sc rx tail tx ops :
    let s := snd (fst (run O ocall fuel (o0, init_pst sc rx tail tx) ops)) in
    (sendfail s = false -> produced s = sent_of (trace s) ++ bout s) /\
    (late s = false -> rcvd_of (trace s) = fed s) /\
    fed s = consumed s ++ bin s.
  Proof.
    cbn zeta. pose proof (run_inv O ocall fuel ops (o0, init_pst sc rx tail tx) (inv_init sc rx tail tx)) as I.
    exact (conj (I_out _ I) (conj (I_in _ I) (I_bin _ I))).
  Qed.

  Theorem pump_ok_leaves_nothing_unsent fuel o f s o' s' v :
    pump O ocall fuel o f s = (o', s', RVal v) -> bout s' = [].
  Proof.
    intros H. assert (Hr : RVal v <> RStuck) by discriminate.
    destruct (pump_last O ocall _ _ _ _ _ _ _ H Hr) as (s0 & e & _ & Hev & _).
    apply (on_ev_kept _ _ _ _ Hev eq_refl).
  Qed.

  Theorem pump_flushes_before_wait fuel o0 sc rx tail tx ops :
    let s := snd (fst (run O ocall fuel (o0, init_pst sc rx tail tx) ops)) in
    forall p r, In (CRecv p r) (trace s) -> p = 0.
  Proof.
    cbn zeta. pose proof (run_inv O ocall fuel ops (o0, init_pst sc rx tail tx) (inv_init sc rx tail tx)) as I.
    intros p r H. pose proof (I_flush _ I) as Hf. rewrite forallb_forall in Hf. specialize (Hf _ H).
    destruct p; [reflexivity|discriminate].
  Qed.

  (* standard_compatible: the transport's end of stream is handed to the SSL object, which judges it *)
  Theorem pump_transport_eof_reaches_bio fuel o0 rx tail tx ops :
    let s := snd (fst (run O ocall fuel (o0, init_pst true rx tail tx) ops)) in
    forall p, In (CRecv p RxEof) (trace s) -> bin_eof s = true.
  Proof.
    cbn zeta. pose proof (run_inv O ocall fuel ops (o0, init_pst true rx tail tx) (inv_init true rx tail tx)) as I.
    intros p H. apply (I_eof _ I); [|now exists p].
    apply (run_preserves O ocall (fun s => std s = true)); [|reflexivity].
    intros w a. apply (step_preserves O ocall (fun s => std s = true)); auto.
    intros s f e <-. apply (on_ev_frame (apply_ev s f e) e).
  Qed.

  Theorem pump_eof_mapping fuel o s n o' s' r :
    step O ocall fuel (o, s) (OReceive n) = ((o', s'), r) -> r <> RStuck -> r <> RValueError ->
    exists pre e, olog s' = pre ++ [(FRead n, e)] /\ answered O ocall (FRead n) e /\
      (unexpected_eof e -> r = if std s then RBroken else REndOfStream) /\
      (r = REndOfStream -> (ek e = KOk /\ eval e = []) \/ (std s = false /\ (unexpected_eof e \/ ek e = KWantRead))) /\
      (std s = true -> r = REndOfStream -> ek e = KOk /\ eval e = []) /\
      (forall v, r = RVal v -> ek e = KOk /\ eval e = v /\ v <> []).
  Proof.
    destruct n as [|n]; [intros H _ Hv; injection H as _ _ <-; contradiction|]. rewrite step_receive.
    destruct (pump O ocall fuel o (FRead (S n)) s) as [[o1 s1] r1] eqn:Ep.
    intros H Hr Hv. injection H as <- <- <-.
    assert (Hr1 : r1 <> RStuck) by (intros ->; now apply Hr).
    destruct (pump_spec O ocall fuel _ _ _ _ _ _ Ep Hr1) as (_ & pre & e & Hl & Ha & Hres).
    exists pre, e. split; [exact Hl|]. split; [exact Ha|].
    destruct (res_of_ev_kind _ _ _ _ Hres) as (Cu & Ce & Cv).
    destruct (recv_res_cases r1) as [[-> _]|[-> Hne]]; cbn [recv_res].
    - destruct (Cv [] eq_refl) as [Hk He].
      refine (conj _ (conj _ (conj _ _))); auto; try discriminate. intros [U|U]; congruence.
    - refine (conj Cu (conj _ (conj _ _))).
      + intros ->. right. exact (Ce eq_refl).
      + intros Hs ->. destruct (Ce eq_refl). congruence.
      + intros v ->. destruct (Cv v eq_refl) as [Hk He]. repeat split; auto. intros ->. now apply Hne.
  Qed.

  Theorem pump_receive_le_max_bytes :
    (forall o n b be o1 e, ocall o (FRead n) b be = Some (o1, e) -> ek e = KOk -> length (eval e) <= n) ->
    forall fuel o s n o' s' v,
      step O ocall fuel (o, s) (OReceive n) = ((o', s'), RVal v) -> 1 <= length v <= n.
  Proof.
    intros Hle fuel o s n o' s' v H.
    destruct (pump_eof_mapping fuel o s n o' s' (RVal v) H) as (pre & e & _ & Ha & _ & _ & _ & Hv); try discriminate.
    destruct (Hv v eq_refl) as (Hk & He & Hne).
    destruct Ha as (o0 & b & be & o1 & Hc). specialize (Hle _ _ _ _ _ _ Hc Hk). rewrite He in Hle.
    destruct v; [contradiction|cbn in *; lia].
  Qed.
End PumpTheorems.

Lemma flush_ok s : hd TxOk (txs s) = TxOk ->
  snd (flush s) = TxOk /\ sent_of (trace (fst (flush s))) = sent_of (trace s) ++ bout s /\
  bin (fst (flush s)) = bin s /\ rxs (fst (flush s)) = rxs s /\ rx_tail (fst (flush s)) = rx_tail s /\
  (txs s = [] -> txs (fst (flush s)) = []).
Proof.
  intros H. unfold flush. destruct (bout s) eqn:Eb.
  - cbn. rewrite app_nil_r. auto 10.
  - unfold do_send. cbn. rewrite sent_of_app.
    destruct (txs s) as [|t r]; cbn in H |- *; [|subst t]; rewrite app_nil_r, Eb; repeat split; discriminate.
Qed.

Lemma ok_flush s f e : ek e = KOk -> bout s = [] -> hd TxOk (txs s) = TxOk ->
  exists s2, on_ev (apply_ev s f e) e = (s2, Done (RVal (eval e))) /\
    sent_of (trace s2) = sent_of (trace s) ++ eemit e /\ bout s2 = [] /\
    produced s2 = produced s ++ eemit e /\
    bin s2 = skipn (econs e) (bin s) /\ bin_eof s2 = bin_eof s /\ bout_eof s2 = bout_eof s /\
    std s2 = std s /\ rxs s2 = rxs s /\ rx_tail s2 = rx_tail s /\ (txs s = [] -> txs s2 = []).
Proof.
  intros Hk Hb Htx.
  destruct (flush_ok (apply_ev s f e) Htx) as (Ht & F1 & F2 & F3 & F4 & F5).
  destruct (flush_frame (apply_ev s f e)) as (G1 & _ & G3 & _). destruct (flush_eofs (apply_ev s f e)) as [E1 E2].
  pose proof (flush_bout (apply_ev s f e)) as B.
  exists (fst (flush (apply_ev s f e))). unfold on_ev. rewrite Hk.
  destruct (flush (apply_ev s f e)) as [s2 t]. cbn [fst snd apply_ev trace bout] in *. subst t. rewrite Hb in F1.
  split; [reflexivity|]. repeat split; assumption.
Qed.

(* the same statement for the fixed pump and for the pinned one *)
Definition step_v (pinned : bool) (O : Type) (ocall : O -> func -> list nat -> bool -> option (O * sslev)) :=
  if pinned then step_pinned O ocall else step O ocall.

(* "Not standard_compatible: an EndOfStream from receive() that is not the SSL object's own unexpected-EOF verdict
   (i.e. the SSL object's last answer was "want read" - the end was the transport's - or an empty read) leaves both
   BIOs as they were and nothing pending, and a following send() is the SSL object's write on those BIOs with its
   ciphertext flushed."  Proved for the fixed pump (pinned = false), refuted for the pinned one (pinned = true). *)
Definition ragged_eof_spec (pinned : bool) : Prop :=
  forall (O : Type) (ocall : O -> func -> list nat -> bool -> option (O * sslev)) fuel o s n o1 s1 pre e,
    std s = false ->
    step_v pinned O ocall fuel (o, s) (OReceive n) = ((o1, s1), REndOfStream) ->
    olog s1 = pre ++ [(FRead n, e)] -> ~ unexpected_eof e ->
    bin_eof s1 = bin_eof s /\ bout_eof s1 = bout_eof s /\ bout s1 = [] /\
    forall item o2 e2 fuel2,
      ocall o1 (FWrite item) (bin s1) (bin_eof s) = Some (o2, e2) -> ek e2 = KOk ->
      hd TxOk (txs s1) = TxOk ->
      exists s2, step_v pinned O ocall (S fuel2) (o1, s1) (OSend item) = ((o2, s2), RVal []) /\
        sent_of (trace s2) = sent_of (trace s1) ++ eemit e2 /\ bout s2 = [] /\
        produced s2 = produced s1 ++ eemit e2 /\
        bin s2 = skipn (econs e2) (bin s1) /\ bin_eof s2 = bin_eof s /\ bout_eof s2 = bout_eof s.

Section RaggedEof.
  Variable O : Type.
  Variable ocall : O -> func -> list byte -> bool -> option (O * sslev).

  (* the EndOfStream is either the transport's own end, reported as it is (last answer "want read", the last
     transport call is that receive), or an empty read; in both cases the loop ended quietly *)
  Lemma ragged_eof_core fuel o s n o1 s1 pre e :
    std s = false ->
    step O ocall fuel (o, s) (OReceive n) = ((o1, s1), REndOfStream) ->
    olog s1 = pre ++ [(FRead n, e)] -> ~ unexpected_eof e ->
    bin_eof s1 = bin_eof s /\ bout_eof s1 = bout_eof s /\ bout s1 = [] /\
    (ek e = KWantRead -> exists p tr, trace s1 = tr ++ [CRecv p RxEof]) /\
    forall item o2 e2 fuel2,
      ocall o1 (FWrite item) (bin s1) (bin_eof s) = Some (o2, e2) -> ek e2 = KOk ->
      hd TxOk (txs s1) = TxOk ->
      exists s2, step O ocall (S fuel2) (o1, s1) (OSend item) = ((o2, s2), RVal []) /\
        sent_of (trace s2) = sent_of (trace s1) ++ eemit e2 /\ bout s2 = [] /\
        produced s2 = produced s1 ++ eemit e2 /\
        bin s2 = skipn (econs e2) (bin s1) /\ bin_eof s2 = bin_eof s /\ bout_eof s2 = bout_eof s.
  Proof.
    intros Hs Hst Hl Hne. destruct n as [|n]; [discriminate|]. rewrite step_receive in Hst.
    destruct (pump O ocall fuel o (FRead (S n)) s) as [[o1' s1'] r] eqn:Ep. injection Hst as -> -> Hr.
    assert (Hr' : r <> RStuck) by (intros ->; discriminate).
    destruct (pump_last O ocall fuel _ _ _ _ _ _ Ep Hr') as (s0 & e' & _ & Hev & Hs0 & He0).
    destruct (on_ev_frame (apply_ev s0 (FRead (S n)) e') e') as (_ & F2 & _). rewrite Hev in F2. cbn in F2.
    rewrite Hl in F2. apply app_inj_tail in F2. destruct F2 as [_ F2]. injection F2 as <-.
    destruct (res_of_ev_kind _ _ _ _ (on_ev_done _ _ _ _ Hev Hr')) as (_ & Ce & Cv).
    assert (Q : quiet e (Done r) = true /\ (ek e = KWantRead -> r = REndOfStream)).
    { destruct (recv_res_cases r) as [[-> _]|[E _]].
      - split; [reflexivity|]. destruct (Cv [] eq_refl) as [U _]. congruence.
      - rewrite E in Hr. subst r. destruct (Ce eq_refl) as [_ [U|U]]; [contradiction|]. cbn. now rewrite U. }
    destruct Q as [Q Hk].
    destruct (on_ev_kept _ _ _ _ Hev Q) as (H3 & He & Ht). cbn in He.
    destruct (He0 Hs) as [E1 E2]. destruct He as [H1 H2]; [congruence|]. rewrite E1 in H1. rewrite E2 in H2.
    refine (conj H1 (conj H2 (conj H3 (conj (fun U => Ht (f_equal Done (Hk U))) _)))).
    intros item o2 e2 fuel2 Hc Hk2 Htx. rewrite <- H1 in Hc.
    destruct (ok_flush s1 (FWrite item) e2 Hk2 H3 Htx) as (s2 & Hev2 & R1 & R2 & R3 & R4 & R5 & R6 & _).
    exists s2. rewrite step_send. cbn [pump]. unfold iter. rewrite Hc, Hev2.
    split; [reflexivity|]. repeat split; auto; congruence.
  Qed.

  (* After a receive() that ended with the transport's EndOfStream under standard_compatible=False - the SSL
     object's last answer was "want read", so the end was the transport's, not a verdict of the SSL object - neither
     BIO has been marked at EOF, nothing is pending, and a following send() IS the SSL object's write on untouched
     BIOs, with its ciphertext flushed to the transport: exactly as if the end had not been seen. *)
  Theorem pump_ragged_eof_keeps_send_alive fuel o s n o1 s1 pre e :
    std s = false ->
    step O ocall fuel (o, s) (OReceive n) = ((o1, s1), REndOfStream) ->
    olog s1 = pre ++ [(FRead n, e)] -> ek e = KWantRead ->
    bin_eof s1 = bin_eof s /\ bout_eof s1 = bout_eof s /\ bout s1 = [] /\
    (exists p tr, trace s1 = tr ++ [CRecv p RxEof]) /\
    forall item o2 e2 fuel2,
      ocall o1 (FWrite item) (bin s1) (bin_eof s) = Some (o2, e2) -> ek e2 = KOk ->
      hd TxOk (txs s1) = TxOk ->
      exists s2, step O ocall (S fuel2) (o1, s1) (OSend item) = ((o2, s2), RVal []) /\
        sent_of (trace s2) = sent_of (trace s1) ++ eemit e2 /\ bout s2 = [] /\
        produced s2 = produced s1 ++ eemit e2 /\
        bin s2 = skipn (econs e2) (bin s1) /\ bin_eof s2 = bin_eof s /\ bout_eof s2 = bout_eof s.
  Proof.
    intros Hs Hst Hl Hk.
    destruct (ragged_eof_core fuel o s n o1 s1 pre e Hs Hst Hl) as (H1 & H2 & H3 & H4 & H5).
    - intros [U|U]; congruence.
    - exact (conj H1 (conj H2 (conj H3 (conj (H4 Hk) H5)))).
  Qed.
End RaggedEof.

Theorem pump_ragged_eof_spec_head : ragged_eof_spec false.
Proof.
  intros O ocall fuel o s n o1 s1 pre e Hs Hst Hl Hne.
  destruct (ragged_eof_core O ocall fuel o s n o1 s1 pre e Hs Hst Hl Hne) as (H1 & H2 & H3 & _ & H5).
  exact (conj H1 (conj H2 (conj H3 H5))).
Qed.

(* The pinned pump hands the transport's end to the SSL object; an SSL object that then answers with an empty read
   (what OpenSSL does under OP_IGNORE_UNEXPECTED_EOF) makes receive() report EndOfStream with the incoming BIO at EOF. *)
Theorem pump_ragged_eof_spec_refuted_pinned : ~ ragged_eof_spec true.
Proof.
  intros H.
  set (e1 := mkev KWantRead [] 0 []). set (e2 := mkev KOk [] 0 []).
  destruct (H (list sslev) scall 5 [e1; e2] (init_pst false [] (Some RxEof) []) 10 []
              (mkp false [] true [] false [] (Some RxEof) [] [CRecv 0 RxEof] [(FRead 10, e1); (FRead 10, e2)]
                   [] [] [] false false)
              [(FRead 10, e1)] e2) as (Hb & _); try reflexivity.
  - intros [E|E]; discriminate.
  - discriminate Hb.
Qed.

(* the statement is not vacuous for the fixed pump: both kinds of EndOfStream it talks about occur *)
Example ex_ragged_eof_spec_hyp :
  let s := init_pst false [] (Some RxEof) [] in
  sstep 5 ([mkev KWantRead [] 0 []; mkev KOk [2] 0 [23; 3]], s) (OReceive 10)
    = (([mkev KOk [2] 0 [23; 3]], snd (fst (sstep 5 ([mkev KWantRead [] 0 []; mkev KOk [2] 0 [23; 3]], s) (OReceive 10)))), REndOfStream) /\
  olog (snd (fst (sstep 5 ([mkev KWantRead [] 0 []; mkev KOk [2] 0 [23; 3]], s) (OReceive 10)))) = [(FRead 10, mkev KWantRead [] 0 [])] /\
  ~ unexpected_eof (mkev KWantRead [] 0 []).
Proof. vm_compute. repeat split. intros [E|E]; discriminate. Qed.

Lemma map_pred_S l : map pred (map S l) = l.
Proof. induction l as [|x l IH]; cbn; [reflexivity|now rewrite IH]. Qed.

Lemma frag_aux_concat m : forall fuel l, length l <= fuel -> concat (frag_aux fuel m l) = l.
Proof.
  induction fuel as [|k IH]; intros l Hl.
  - destruct l; [reflexivity|cbn in Hl; lia].
  - destruct l as [|x l]; [reflexivity|]. cbn [frag_aux concat].
    rewrite IH.
    + apply firstn_skipn.
    + cbn [skipn]. pose proof (skipn_length m l). cbn in Hl. lia.
Qed.

Lemma frag_concat m l : concat (frag m l) = l.
Proof. apply frag_aux_concat. lia. Qed.

Lemma frag_aux_nonempty m : forall fuel l c, In c (frag_aux fuel m l) -> c <> [] /\ length c <= S m.
Proof.
  induction fuel as [|k IH]; intros l c H; [destruct H|].
  destruct l as [|x l]; [destruct H|]. cbn [frag_aux] in H. destruct H as [<-|H].
  - split; [discriminate|]. apply firstn_le_length.
  - apply (IH _ _ H).
Qed.

Lemma frag_nonempty m l : Forall (fun c => c <> []) (frag m l).
Proof. apply Forall_forall. intros c H. apply (frag_aux_nonempty m _ _ _ H). Qed.

Lemma frag_bounded m l : Forall (fun c => length c <= S m) (frag m l).
Proof. apply Forall_forall. intros c H. apply (frag_aux_nonempty m _ _ _ H). Qed.

Lemma toy_read_spec o n b be o1 e : toy_call o (FRead n) b be = Some (o1, e) ->
  (ek e = KOk -> length (eval e) <= n) /\ eemit e = [] /\ mrec o1 = mrec o.
Proof.
  unfold toy_call.
  destruct (dead o); [|destruct (negb (hs_done o)); [|destruct (pbuf o) as [|x pb];
    [destruct (peer_closed o);
       [destruct (self_closed o)
       |destruct (parse (ibuf o ++ b)) as [[[[|[|[|t]]] [|y p]] rest]|]; [..|destruct be]]|]]];
    intros H; injection H as <- <-; (split; [|split; reflexivity]); cbn; intros; try discriminate;
    try apply firstn_le_length; lia.
Qed.

(* a clause of the record-layer contract H_ssl *)
Lemma toy_read_le o n b be o1 e :
  toy_call o (FRead n) b be = Some (o1, e) -> ek e = KOk -> length (eval e) <= n.
Proof. intros H. apply (toy_read_spec _ _ _ _ _ _ H). Qed.

Corollary toy_receive_le_max_bytes fuel o s n o' s' v :
  tstep fuel (o, s) (OReceive n) = ((o', s'), RVal v) -> 1 <= length v <= n.
Proof. apply (pump_receive_le_max_bytes tobj toy_call toy_read_le). Qed.

Definition prefix (a b : list byte) : Prop := exists t, b = a ++ t.

Lemma parse_complete t p rest : parse (t :: length p :: p ++ rest) = Some (t, p, rest).
Proof.
  unfold parse. rewrite app_length.
  destruct (Nat.leb_spec (length p) (length p + length rest)); [|lia].
  rewrite firstn_app, Nat.sub_diag, firstn_all. cbn [firstn]. rewrite app_nil_r.
  rewrite skipn_app, Nat.sub_diag, skipn_all. reflexivity.
Qed.

Lemma parse_incomplete t p more ib :
  prefix ib (t :: length p :: p ++ more) -> length ib < 2 + length p -> parse ib = None.
Proof.
  intros [tl H] Hl. destruct ib as [|a [|n r]]; try reflexivity.
  cbn in H. injection H as <- <- H. unfold parse.
  destruct (Nat.leb_spec (length p) (length r)); [|reflexivity]. cbn in Hl. lia.
Qed.

Lemma app_split_head (rc more : list byte) : forall ib tl,
  rc ++ more = ib ++ tl -> length rc <= length ib -> exists rest, ib = rc ++ rest /\ more = rest ++ tl.
Proof.
  induction rc as [|x rc IH]; intros ib tl H Hl.
  - now exists ib.
  - destruct ib as [|y ib]; [cbn in Hl; lia|]. cbn in H, Hl. injection H as <- H.
    destruct (IH ib tl H) as (rest & -> & ->); [lia|]. now exists rest.
Qed.

(* the stream starts with the record (t, p); x is what the SSL object holds of it, and holds all of that record *)
Lemma record_ready t p more x y tl :
  t :: length p :: p ++ more = (x ++ y) ++ tl -> 2 + length p <= length x ->
  exists rest, parse x = Some (t, p, rest) /\ more = (rest ++ y) ++ tl.
Proof.
  intros H Hl. rewrite <- app_assoc in H.
  destruct (app_split_head (t :: length p :: p) more x (y ++ tl) H Hl) as (rest & -> & ->).
  exists rest. split; [apply parse_complete|apply app_assoc].
Qed.

Definition is_data (r : rxev) : bool := match r with RxData _ => true | _ => false end.

Fixpoint rx_bytes (l : list rxev) : list byte :=
  match l with
  | [] => []
  | RxData d :: r => d ++ rx_bytes r
  | _ :: r => rx_bytes r
  end.

(* the endpoint whose transport delivers a byte stream in arbitrary chunks and then ends *)
Record S1 (s : pst) : Prop := {
  S_bout : bout s = [];
  S_txs : txs s = [];
  S_tail : rx_tail s = Some RxEof;
  S_data : forallb is_data (rxs s) = true;
  S_eof : bin_eof s = true -> rxs s = []
}.

Definition same0 (s s2 : pst) : Prop := std s2 = std s /\ produced s2 = produced s.

Definition same (s s2 : pst) : Prop :=
  std s2 = std s /\ produced s2 = produced s /\ (std s = false -> bin_eof s2 = bin_eof s).

Lemma same_trans a b c : same a b -> same b c -> same a c.
Proof.
  intros (H1 & H2 & H3) (H4 & H5 & H6). refine (conj _ (conj _ _)); try congruence.
  intros H. rewrite H6 by congruence. auto.
Qed.

Lemma same0_refl s : same0 s s.
Proof. split; reflexivity. Qed.

Lemma same_same0 a b : same a b -> same0 a b.
Proof. intros (H1 & H2 & _). split; assumption. Qed.

Lemma noeof_same s s' : same s s' -> (std s = false -> bin_eof s = false) -> std s' = false -> bin_eof s' = false.
Proof. intros (H1 & _ & H3) H H'. rewrite H3 by congruence. apply H. congruence. Qed.

Lemma recv_data s d rest : S1 s -> rxs s = RxData d :: rest ->
  exists s', do_recv s = (s', Again) /\ S1 s' /\ same s s' /\ bin s' = bin s ++ d /\ rxs s' = rest.
Proof.
  intros [Hb Ht Htl Hd He] Hrx. unfold do_recv, pop_rx. rewrite Hrx. cbn.
  destruct (bin_eof s) eqn:Hne; [rewrite He in Hrx by reflexivity; discriminate|].
  eexists. split; [reflexivity|]. rewrite Hrx in Hd.
  split; [constructor; cbn; auto; congruence|]. split; [|split; reflexivity]. repeat split. cbn. congruence.
Qed.

(* the transport ends: the SSL object is told if standard_compatible; otherwise the ragged end is reported as it
   is and nothing else changes *)
Lemma recv_eof s : S1 s -> rxs s = [] ->
  exists s', do_recv s = (s', if std s then Again else Done REndOfStream) /\ S1 s' /\ same s s' /\
             bin s' = bin s /\ rxs s' = [] /\ (std s = true -> bin_eof s' = true).
Proof.
  intros [Hb Ht Htl Hd He] Hrx. unfold do_recv, pop_rx. rewrite Hrx, Htl. cbn [std log_call].
  destruct (std s) eqn:Es; eexists; (split; [reflexivity|]);
    (split; [constructor; cbn; auto|]); (split; [|auto]); repeat split; cbn; congruence.
Qed.

Definition tob (m : nat) (hsd : bool) (ib : list byte) : tobj := mkt m true hsd ib [] false false false.
Definition wr (c : nat) : sslev := mkev KWantRead [] c [].

(* "want read" having consumed the whole incoming BIO and emitted nothing: the iteration is the receive *)
Lemma wr_apply s f : S1 s ->
  let s1 := apply_ev s f (wr (length (bin s))) in
  S1 s1 /\ same s s1 /\ bin s1 = [] /\ rxs s1 = rxs s /\ on_ev s1 (wr (length (bin s))) = do_recv s1.
Proof.
  intros [Hb Ht Htl Hd He]. cbn zeta. split; [|split; [|split; [|split]]].
  - constructor; cbn; auto. now rewrite Hb.
  - refine (conj eq_refl (conj _ (fun _ => eq_refl))). apply app_nil_r.
  - apply skipn_all.
  - reflexivity.
  - unfold on_ev, wr. cbn [ek]. unfold flush, apply_ev. cbn [bout eemit]. now rewrite Hb.
Qed.

Lemma pump_S fuel o f s :
  pump tobj toy_call (S fuel) o f s =
  match toy_call o f (bin s) (bin_eof s) with
  | None => (o, s, RStuck)
  | Some (o1, e) =>
      match on_ev (apply_ev s f e) e with
      | (s1, Done r) => (o1, s1, r)
      | (s1, Again) => pump tobj toy_call fuel o1 f s1
      end
  end.
Proof.
  cbn [pump]. unfold iter. destruct (toy_call o f (bin s) (bin_eof s)) as [[o1 e]|]; [|reflexivity].
  destruct (on_ev (apply_ev s f e) e) as [s1 [r|]]; reflexivity.
Qed.

(* the method that waits for the next record: do_handshake before the handshake is complete, read() after *)
Definition waits (hsd : bool) (f : func) : Prop :=
  (hsd = false /\ f = FHandshake) \/ (hsd = true /\ exists n, f = FRead n).

Lemma toy_incomplete m hsd f ib b be :
  waits hsd f -> parse (ib ++ b) = None ->
  toy_call (tob m hsd ib) f b be =
    if be then Some (kill (tob m hsd ib), mkev (if hsd then KEofStr else KEofCls) [] 0 [])
    else Some (tob m hsd (ib ++ b), wr (length b)).
Proof.
  intros [[-> ->]|[-> [n ->]]] Hp; unfold toy_call, tob; cbn; rewrite Hp; destruct be; reflexivity.
Qed.

Lemma record_cut m hsd f ib s k : waits hsd f -> parse (ib ++ bin s) = None -> bin_eof s = true -> std s = true ->
  exists o' s', pump tobj toy_call (S k) (tob m hsd ib) f s = (o', s', RBroken) /\ same s s' /\ dead o' = true.
Proof.
  intros Hw Hp He Hs. rewrite pump_S, (toy_incomplete m hsd f ib (bin s) (bin_eof s) Hw Hp), He.
  unfold on_ev. destruct hsd; cbn [ek std apply_ev]; rewrite Hs;
    (eexists _, _; split; [reflexivity|]; split; [|reflexivity]);
    (refine (conj eq_refl (conj _ _)); cbn; [apply app_nil_r|congruence]).
Qed.

(* how the wait for the next record (t, p) of the stream ends: with the record complete in what the SSL object holds,
   the loop about to call it again; or with the transport's end inside the record.
   `all` is what the transport delivers in all, `tl` what it never delivers. *)
Inductive next_out m hsd f t p more all tl (s : pst) (x : tobj * pst * res) : Prop :=
| next_ready fuel2 ib2 s2 rest :
    x = pump tobj toy_call (S fuel2) (tob m hsd ib2) f s2 ->
    S1 s2 -> same s s2 -> length (rxs s2) <= length (rxs s) ->
    parse (ib2 ++ bin s2) = Some (t, p, rest) -> more = (rest ++ rx_bytes (rxs s2)) ++ tl ->
    next_out m hsd f t p more all tl s x
| next_cut o' s' :
    length all < 2 + length p ->
    x = (o', s', if std s then RBroken else REndOfStream) -> same s s' ->
    (if std s then dead o' = true else o' = tob m hsd all /\ S1 s' /\ bin s' = [] /\ rxs s' = []) ->
    next_out m hsd f t p more all tl s x.

(* the pump keeps receiving chunks until the next record is complete or the transport ends *)
Lemma next_record m hsd f t p more all tl : waits hsd f ->
  t :: length p :: p ++ more = all ++ tl ->
  forall fuel ib s,
    S1 s -> ib ++ bin s ++ rx_bytes (rxs s) = all -> (std s = false -> bin_eof s = false) ->
    length (rxs s) + 2 <= fuel ->
    next_out m hsd f t p more all tl s (pump tobj toy_call fuel (tob m hsd ib) f s).
Proof.
  intros Hw Hall. induction fuel as [|k IH]; intros ib s H1 Hst Hno Hfuel; [lia|].
  destruct (le_lt_dec (2 + length p) (length (ib ++ bin s))) as [Hc|Hc].
  { destruct (record_ready t p more (ib ++ bin s) (rx_bytes (rxs s)) tl) as (rest & Hp & Hm).
    - rewrite <- (app_assoc ib), Hst. exact Hall.
    - exact Hc.
    - apply (next_ready _ _ _ _ _ _ _ _ _ _ k ib s rest); auto. repeat split. }
  assert (Hp : parse (ib ++ bin s) = None).
  { apply (parse_incomplete t p more); [|exact Hc]. exists (rx_bytes (rxs s) ++ tl).
    rewrite Hall, <- Hst. now rewrite <- !app_assoc. }
  destruct (bin_eof s) eqn:Ee.
  { assert (Es : std s = true) by (destruct (std s); [reflexivity|discriminate (Hno eq_refl)]).
    rewrite (S_eof s H1 Ee), app_nil_r in Hst.
    destruct (record_cut m hsd f ib s k Hw Hp Ee Es) as (o' & s' & Hpump & Hs & Hd).
    apply (next_cut _ _ _ _ _ _ _ _ _ _ o' s'); rewrite ?Es; auto. now rewrite <- Hst. }
  rewrite pump_S, (toy_incomplete m hsd f ib (bin s) (bin_eof s) Hw Hp), Ee.
  destruct (wr_apply s f H1) as (A1 & As & Ab & Ar & ->).
  destruct (rxs s) as [|r rx] eqn:Hrx.
  - destruct (recv_eof _ A1 Ar) as (s' & -> & H1' & Hs & Hb & Hr & He'). rewrite Ab in Hb.
    pose proof (same_trans _ _ _ As Hs) as Hs'.
    cbn [rx_bytes] in Hst. rewrite app_nil_r in Hst.
    assert (Hall' : length all < 2 + length p) by now rewrite <- Hst.
    cbn [std apply_ev] in *. destruct (std s) eqn:Es.
    + destruct k as [|k]; [cbn in Hfuel; lia|].
      destruct (record_cut m hsd f (ib ++ bin s) s' k Hw) as (o' & s2 & Hpump & Hs2 & Hd); auto.
      { now rewrite Hb, app_nil_r. } { destruct Hs' as [E _]. congruence. }
      apply (next_cut _ _ _ _ _ _ _ _ _ _ o' s2); rewrite ?Es; eauto using same_trans.
    + apply (next_cut _ _ _ _ _ _ _ _ _ _ (tob m hsd (ib ++ bin s)) s'); rewrite ?Es, ?Hst; auto.
  - pose proof (S_data s H1) as Hd. rewrite Hrx in Hd. destruct r as [d| | | |]; try discriminate.
    destruct (recv_data _ d rx A1 Ar) as (s' & -> & H1' & Hs & Hb & Hr). rewrite Ab in Hb. cbn [app] in Hb.
    pose proof (same_trans _ _ _ As Hs) as Hs'. pose proof Hs' as (Hstd & _).
    destruct (IH (ib ++ bin s) s' H1') as [fuel2 ib2 s2 rest Hpump H12 Hs2 Hlen Hq Hm|o' s2 Hlen Hpump Hs2 Hq].
    + rewrite Hb, Hr, <- Hst. cbn [rx_bytes]. now rewrite <- app_assoc.
    + apply (noeof_same _ _ Hs'). intros _. exact Ee.
    + rewrite Hr. cbn [length] in Hfuel. clear - Hfuel. lia.
    + rewrite Hr in Hlen.
      apply (next_ready _ _ _ _ _ _ _ _ _ _ fuel2 ib2 s2 rest); rewrite ?Hrx; cbn [length]; eauto using same_trans.
    + rewrite Hstd in Hpump, Hq. apply (next_cut _ _ _ _ _ _ _ _ _ _ o' s2); eauto using same_trans.
Qed.

Lemma ok_S1 s f e : S1 s -> ek e = KOk ->
  exists s', on_ev (apply_ev s f e) e = (s', Done (RVal (eval e))) /\ S1 s' /\ std s' = std s /\
             produced s' = produced s ++ eemit e /\ bin s' = skipn (econs e) (bin s) /\ rxs s' = rxs s /\
             bin_eof s' = bin_eof s.
Proof.
  intros [Hb Ht Htl Hd He] Hk.
  destruct (ok_flush s f e Hk Hb) as (s' & Hev & _ & B & P & Bi & E1 & _ & St & Rx & Tl & Tx); [now rewrite Ht|].
  exists s'. split; [exact Hev|]. split; [|auto 7].
  constructor; rewrite ?Rx, ?E1; auto. congruence.
Qed.

Lemma ok_noemit s f v c : S1 s ->
  exists s', on_ev (apply_ev s f (mkev KOk v c [])) (mkev KOk v c []) = (s', Done (RVal v)) /\
             S1 s' /\ same s s' /\ bin s' = skipn c (bin s) /\ rxs s' = rxs s.
Proof.
  intros H. destruct (ok_S1 s f (mkev KOk v c []) H eq_refl) as (s' & Hev & H1 & Hs & Hp & Hb & Hr & He).
  cbn [eemit] in Hp. rewrite app_nil_r in Hp. exists s'.
  exact (conj Hev (conj H1 (conj (conj Hs (conj Hp (fun _ => He))) (conj Hb Hr)))).
Qed.

Definition alive (m : nat) (ib pb : list byte) (pc : bool) : tobj := mkt m true true ib pb pc false false.

(* The receiving endpoint between two operations.  frs: the fragments (one data record each) the peer has put on the wire
   and the SSL object has not parsed yet; ib: ciphertext it holds of an incomplete record; pb: plaintext decrypted and not
   yet returned; pc: close_notify seen; D: the number of bytes at the end of the peer's wire that the transport never
   delivers.  fuel: a receive needs one iteration per chunk still to come, one for the receive() that meets the transport's
   end and one for the SSL object's last call, hence `length (rxs s) + 2`; the handshake has one more iteration in front,
   the one that sends the hello, hence `length chunks + 3` in hs_step. *)
Record J (fuel D : nat) (frs : list (list byte)) (ib pb : list byte) (pc : bool) (s : pst) : Prop := {
  J_s1 : S1 s;
  J_fuel : length (rxs s) + 2 <= fuel;
  J_ne : Forall (fun c => c <> []) frs;
  J_open : pc = false ->
           exists tl, concat (map rec1 frs) ++ close_rec = (ib ++ bin s ++ rx_bytes (rxs s)) ++ tl /\ length tl = D;
  J_closed : pc = true -> frs = [] /\ pb = [] /\ D = 0;
  J_noeof : std s = false -> bin_eof s = false    (* a ragged end never reaches the SSL object *)
}.

Lemma toy_read_closed m ib n b be :
  toy_call (alive m ib [] true) (FRead n) b be = Some (alive m ib [] true, mkev KOk [] 0 []).
Proof. reflexivity. Qed.

Lemma toy_read_buffered m ib x pb pc n b be :
  toy_call (alive m ib (x :: pb) pc) (FRead n) b be =
  Some (alive m ib (skipn n (x :: pb)) pc, mkev KOk (firstn n (x :: pb)) 0 []).
Proof. reflexivity. Qed.

Lemma toy_read_close m ib n b be rest : parse (ib ++ b) = Some (2, [], rest) ->
  toy_call (tob m true ib) (FRead n) b be = Some (alive m rest [] true, mkev KOk [] (length b) []).
Proof. intros H. unfold toy_call, tob. cbn. now rewrite H. Qed.

Lemma toy_read_data m ib n b be y c rest : parse (ib ++ b) = Some (1, S y :: map S c, rest) ->
  toy_call (tob m true ib) (FRead n) b be =
  Some (alive m rest (skipn n (y :: c)) false, mkev KOk (firstn n (y :: c)) (length b) []).
Proof. intros H. unfold toy_call, tob. cbn. rewrite H. cbn. now rewrite map_pred_S. Qed.

Lemma toy_write_alive m ib pb pc item b be :
  toy_call (alive m ib pb pc) (FWrite item) b be =
  Some (alive m ib pb pc, mkev KOk [length item] 0 (records m item)).
Proof. reflexivity. Qed.

Lemma toy_dead o f b be : dead o = true -> toy_call o f b be = Some (o, mkev KOther [] 0 []).
Proof. intros H. unfold toy_call. now rewrite H. Qed.

(* the outcomes of receive() at an endpoint that holds pb, with the fragments frs outstanding: some of the plaintext;
   the clean end; the truncated stream, reported as broken when standard_compatible (the SSL object is then dead) and
   as a plain end of stream otherwise (the endpoint stays usable) *)
Inductive recv_out m fuel D frs pb (s : pst) : tobj -> pst -> res -> Prop :=
| recv_some v frs' ib' pb' s' :
    v <> [] -> J fuel D frs' ib' pb' false s' -> pb ++ concat frs = v ++ pb' ++ concat frs' ->
    recv_out m fuel D frs pb s (alive m ib' pb' false) s' (RVal v)
| recv_end ib' s' :
    D = 0 -> pb = [] -> frs = [] -> J fuel 0 [] ib' [] true s' ->
    recv_out m fuel D frs pb s (alive m ib' [] true) s' REndOfStream
| recv_broken o' s' :
    std s = true -> 0 < D -> pb = [] -> dead o' = true ->
    recv_out m fuel D frs pb s o' s' RBroken
| recv_ragged ib' s' :
    std s = false -> 0 < D -> pb = [] -> (D <= 2 -> frs = []) -> J fuel D frs ib' [] false s' ->
    recv_out m fuel D frs pb s (alive m ib' [] false) s' REndOfStream.

Lemma recv_step m fuel D frs ib pb pc s n :
  J fuel D frs ib pb pc s ->
  exists o' s' r, tstep fuel (alive m ib pb pc, s) (OReceive (S n)) = ((o', s'), r) /\ same s s' /\
                  recv_out m fuel D frs pb s o' s' r.
Proof.
  intros [H1 Hfuel Hne Hopen Hclosed Hnoeof]. destruct fuel as [|k]; [lia|].
  unfold tstep. rewrite step_receive.
  destruct pb as [|x pb].
  - destruct pc.
    + (* close_notify already seen *)
      destruct (Hclosed eq_refl) as (-> & _ & ->).
      rewrite pump_S, toy_read_closed.
      destruct (ok_noemit s (FRead (S n)) [] 0 H1) as (s' & Hev & H1' & Hs & Hb & Hr). rewrite Hev.
      exists (alive m ib [] true), s', REndOfStream. split; [reflexivity|]. split; [exact Hs|].
      pose proof (noeof_same _ _ Hs Hnoeof) as Hno'.
      apply recv_end; auto. constructor; auto; try discriminate. rewrite Hr. exact Hfuel.
    + (* wait for the next record: a data record if a fragment is outstanding, else close_notify *)
      destruct (Hopen eq_refl) as (tl & Hstream & Htl).
      change (alive m ib [] false) with (tob m true ib).
      assert (Hw : waits true (FRead (S n))) by (right; split; [reflexivity|now exists (S n)]).
      assert (Hshape : exists (t : byte) (p more : list byte), concat (map rec1 frs) ++ close_rec = t :: length p :: p ++ more /\
                 ((frs = [] /\ t = 2 /\ p = [] /\ more = []) \/
                  (exists c frs', frs = c :: frs' /\ t = 1 /\ p = map S c /\ more = concat (map rec1 frs') ++ close_rec))).
      { destruct frs as [|c frs'].
        - exists 2, (@nil byte), (@nil byte). split; [reflexivity|]. left. auto.
        - exists 1, (map S c), (concat (map rec1 frs') ++ close_rec). split.
          + cbn [map concat]. rewrite <- app_assoc. unfold rec1. now rewrite map_length.
          + right. exists c, frs'. auto. }
      destruct Hshape as (t & p & more & Hsh & Hcases). rewrite Hsh in Hstream.
      assert (Hshort : length (ib ++ bin s ++ rx_bytes (rxs s)) < 2 + length p -> 0 < D /\ (D <= 2 -> frs = [])).
      { pose proof (f_equal (@length _) Hstream) as HL. cbn [length] in HL. rewrite !app_length, Htl in HL.
        rewrite !app_length. intros HX. split; [clear - HL HX; lia|]. intros HD.
        destruct Hcases as [(E & _)|(c & frs' & _ & _ & _ & Em)]; [exact E|].
        rewrite Em, app_length in HL. cbn [close_rec length] in HL. clear - HL HX HD. lia. }
      destruct (next_record m true (FRead (S n)) t p more _ tl Hw Hstream (S k) ib s H1 eq_refl Hnoeof Hfuel)
        as [fuel2 ib2 s2 rest Hpump H12 Hs2 Hlen Hparse Hmore|o' s' HX Hpump Hs' Hq].
      * (* the record is complete *)
        rewrite Hpump, pump_S. pose proof (noeof_same _ _ Hs2 Hnoeof) as Hno2.
        destruct Hcases as [(-> & -> & -> & ->)|(c & frs' & -> & -> & -> & ->)].
        -- (* close_notify *)
           rewrite (toy_read_close m ib2 (S n) (bin s2) (bin_eof s2) rest Hparse).
           destruct (ok_noemit s2 (FRead (S n)) [] (length (bin s2)) H12) as (s' & Hev & H1' & Hs & Hb & Hr).
           rewrite Hev. rewrite skipn_all in Hb.
           assert (Htl0 : tl = [] /\ D = 0).
           { destruct rest; [|discriminate]. destruct (rx_bytes (rxs s2)); [|discriminate].
             destruct tl; [|discriminate]. cbn in Htl. auto. }
           destruct Htl0 as [-> ->].
           pose proof (noeof_same _ _ Hs Hno2) as Hno'.
           exists (alive m rest [] true), s', REndOfStream.
           split; [reflexivity|]. split; [apply (same_trans _ _ _ Hs2 Hs)|].
           apply recv_end; auto. constructor; auto; try discriminate. rewrite Hr. clear - Hlen Hfuel. lia.
        -- (* application data *)
           pose proof (Forall_inv Hne) as Hc0. pose proof (Forall_inv_tail Hne) as Hne'. cbn beta in Hc0.
           destruct c as [|y c]; [contradiction|].
           cbn [map] in Hparse.
           rewrite (toy_read_data m ib2 (S n) (bin s2) (bin_eof s2) y c rest Hparse).
           destruct (ok_noemit s2 (FRead (S n)) (firstn (S n) (y :: c)) (length (bin s2)) H12) as (s' & Hev & H1' & Hs & Hb & Hr).
           rewrite Hev. rewrite skipn_all in Hb. cbn [firstn].
           pose proof (noeof_same _ _ Hs Hno2) as Hno'.
           exists (alive m rest (skipn (S n) (y :: c)) false), s', (RVal (y :: firstn n c)).
           split; [reflexivity|]. split; [apply (same_trans _ _ _ Hs2 Hs)|].
           apply recv_some with (frs' := frs'); [discriminate| |].
           ++ constructor; auto; try discriminate.
              ** rewrite Hr. clear - Hlen Hfuel. lia.
              ** intros _. exists tl. rewrite Hb, Hr. split; [exact Hmore|exact Htl].
           ++ cbn [app concat map skipn]. f_equal. rewrite app_assoc. now rewrite firstn_skipn.
      * (* the transport ended inside a record *)
        rewrite Hpump. destruct (Hshort HX) as [HD0 HD2]. destruct (std s) eqn:Es.
        -- exists o', s', RBroken. split; [reflexivity|]. split; [exact Hs'|]. now apply recv_broken.
        -- destruct Hq as (-> & H1' & Hb' & Hr').
           eexists _, s', REndOfStream. split; [reflexivity|]. split; [exact Hs'|].
           apply (recv_ragged _ _ _ _ _ _ (ib ++ bin s ++ rx_bytes (rxs s))); auto.
           constructor; auto; try discriminate.
           ++ rewrite Hr'. clear - Hfuel. cbn. lia.
           ++ intros _. exists tl. rewrite Hsh, Hb', Hr'. cbn [rx_bytes app]. rewrite app_nil_r. auto.
           ++ apply (noeof_same _ _ Hs'). intros _. now apply Hnoeof.
  - (* buffered plaintext *)
    assert (pc = false) as -> by (destruct pc; [destruct (Hclosed eq_refl) as (_ & E & _); discriminate|reflexivity]).
    rewrite pump_S, toy_read_buffered.
    destruct (ok_noemit s (FRead (S n)) (firstn (S n) (x :: pb)) 0 H1) as (s' & Hev & H1' & Hs & Hb & Hr).
    rewrite Hev. cbn [firstn].
    pose proof (noeof_same _ _ Hs Hnoeof) as Hno'.
    exists (alive m ib (skipn (S n) (x :: pb)) false), s', (RVal (x :: firstn n pb)).
    split; [reflexivity|]. split; [exact Hs|].
    apply recv_some with (frs' := frs); [discriminate| |].
    + constructor; auto; try discriminate.
      * rewrite Hr. exact Hfuel.
      * intros _. destruct (Hopen eq_refl) as (tl & Hstream & Htl). exists tl. rewrite Hb, Hr. cbn [skipn]. auto.
    + change (x :: firstn n pb) with (firstn (S n) (x :: pb)). rewrite app_assoc. now rewrite firstn_skipn.
Qed.

Lemma send_step m fuel D frs ib pb pc s item :
  J fuel D frs ib pb pc s ->
  exists s', tstep fuel (alive m ib pb pc, s) (OSend item) = ((alive m ib pb pc, s'), RVal []) /\
             J fuel D frs ib pb pc s' /\ std s' = std s /\ produced s' = produced s ++ records m item.
Proof.
  intros [H1 Hfuel Hne Hopen Hclosed Hnoeof]. destruct fuel as [|k]; [lia|].
  unfold tstep. rewrite step_send, pump_S, toy_write_alive.
  destruct (ok_S1 s (FWrite item) (mkev KOk [length item] 0 (records m item)) H1 eq_refl)
    as (s' & Hev & H1' & Hstd & Hprod & Hb & Hr & Hbe). cbn [eemit econs skipn] in Hprod, Hb.
  rewrite Hev. exists s'. split; [reflexivity|]. split; [|auto].
  constructor; auto.
  - rewrite Hr. exact Hfuel.
  - intros E. rewrite Hb, Hr. auto.
  - intros E. rewrite Hbe. apply Hnoeof. congruence.
Qed.

Definition sendrecv (a : op) : bool := match a with OReceive _ | OSend _ => true | _ => false end.

(* an SSL object that reported a fatal error, or whose handshake never completed, refuses read and write *)
Definition unusable (o : tobj) : Prop := dead o = true \/ hs_done o = false.

Lemma toy_unusable o f b be : unusable o -> (exists n, f = FRead n) \/ (exists item, f = FWrite item) ->
  exists o', toy_call o f b be = Some (o', mkev KOther [] 0 []) /\ unusable o'.
Proof.
  intros Hu Hf. unfold toy_call. destruct (dead o) eqn:Ed.
  - exists o. split; [reflexivity|]. now left.
  - destruct Hu as [Hu|Hu]; [congruence|].
    destruct Hf as [[n ->]|[item ->]]; rewrite Hu; cbn; exists (kill o); (split; [reflexivity|]); now left.
Qed.

Lemma dead_step fuel o s a : unusable o -> sendrecv a = true -> 1 <= fuel ->
  exists o' s' r, tstep fuel (o, s) a = ((o', s'), r) /\ unusable o' /\ (r = RSslOther \/ r = RValueError) /\ same0 s s'.
Proof.
  intros Hd Ha Hf. destruct fuel as [|k]; [lia|]. destruct a as [|n|item| |]; try discriminate.
  - destruct n as [|n].
    + exists o, s, RValueError. cbn. auto using same0_refl.
    + destruct (toy_unusable o (FRead (S n)) (bin s) (bin_eof s) Hd) as (o' & Hc & Hu); [left; eauto|].
      unfold tstep. rewrite step_receive, pump_S, Hc. unfold on_ev. cbn [ek].
      eexists o', _, RSslOther. split; [reflexivity|]. split; [exact Hu|]. split; [auto|]. split; cbn; auto using app_nil_r.
  - destruct (toy_unusable o (FWrite item) (bin s) (bin_eof s) Hd) as (o' & Hc & Hu); [right; eauto|].
    unfold tstep. rewrite step_send, pump_S, Hc. unfold on_ev. cbn [ek].
    eexists o', _, RSslOther. split; [reflexivity|]. split; [exact Hu|]. split; [auto|]. split; cbn; auto using app_nil_r.
Qed.

Lemma trun_cons fuel w a ops :
  trun fuel w (a :: ops) =
  let '(w1, r) := tstep fuel w a in let '(w2, rs) := trun fuel w1 ops in (w2, r :: rs).
Proof. reflexivity. Qed.

(* what every single outcome of a run obeys (sc = standard_compatible, D = bytes the transport never delivers) *)
Definition res_ok (sc : bool) (D : nat) (r : res) : Prop :=
  r <> RStuck /\ (r = REndOfStream -> sc = true -> D = 0) /\ (r = RBroken -> 0 < D /\ sc = true).

Lemma res_ok_all sc D rs : Forall (res_ok sc D) rs ->
  ~ In RStuck rs /\ (In REndOfStream rs -> sc = true -> D = 0) /\ (In RBroken rs -> 0 < D /\ sc = true).
Proof.
  intros F. rewrite Forall_forall in F.
  refine (conj _ (conj _ _)); intros H; destruct (F _ H) as (F1 & F2 & F3); [now apply F1|exact (F2 eq_refl)|exact (F3 eq_refl)].
Qed.

Lemma dead_run fuel ops : forallb sendrecv ops = true -> 1 <= fuel ->
  forall o s, unusable o ->
  Forall (fun r => r = RSslOther \/ r = RValueError) (snd (trun fuel (o, s) ops)) /\
  received ops (snd (trun fuel (o, s) ops)) = [] /\
  accepted ops (snd (trun fuel (o, s) ops)) = [] /\
  same0 s (snd (fst (trun fuel (o, s) ops))).
Proof.
  intros Hops Hf. induction ops as [|a ops IH]; intros o s Hd.
  - cbn. auto using same0_refl.
  - cbn in Hops. apply andb_prop in Hops. destruct Hops as [Ha Hops].
    destruct (dead_step fuel o s a Hd Ha Hf) as (o' & s' & r & Hst & Hu & Hr & Hs).
    rewrite trun_cons, Hst. cbv beta iota.
    specialize (IH Hops o' s' Hu).
    destruct (trun fuel (o', s') ops) as [w' rs]. cbn [fst snd] in *.
    destruct IH as (I1 & I2 & I3 & I4).
    split; [constructor; assumption|]. split; [|split; [|destruct Hs, I4; split; congruence]].
    + destruct a; try discriminate; destruct Hr as [-> | ->]; exact I2.
    + destruct a; try discriminate; destruct Hr as [-> | ->]; exact I3.
Qed.

Lemma dead_res_ok sc D rs : Forall (fun r => r = RSslOther \/ r = RValueError) rs ->
  Forall (res_ok sc D) rs /\ ~ In REndOfStream rs.
Proof.
  intros H. split.
  - revert H. apply Forall_impl. intros r [-> | ->]; repeat split; discriminate.
  - intros Hi. rewrite Forall_forall in H. destruct (H _ Hi); discriminate.
Qed.

(* a run of sends and receives from an endpoint that holds the plaintext pl or has it outstanding *)
Record run_ok (m D : nat) (pl : list byte) (s : pst) (ops : list op) (out : (tobj * pst) * list res) : Prop := {
  R_res : Forall (res_ok (std s) D) (snd out);
  R_pre : exists rest, pl = received ops (snd out) ++ rest;
  R_all : In REndOfStream (snd out) -> std s = true \/ D <= 2 -> received ops (snd out) = pl;
  R_std : std (snd (fst out)) = std s;
  R_prod : produced (snd (fst out)) = produced s ++ concat (map (records m) (accepted ops (snd out)));
  R_acc : std s = false \/ D = 0 -> accepted ops (snd out) = sends_of ops /\ bout (snd (fst out)) = []
}.

Lemma run_J m fuel ops : forallb sendrecv ops = true ->
  forall D frs ib pb pc s, J fuel D frs ib pb pc s ->
  run_ok m D (pb ++ concat frs) s ops (trun fuel (alive m ib pb pc, s) ops).
Proof.
  intros Hops. induction ops as [|a ops IH]; intros D frs ib pb pc s HJ.
  - constructor; cbn.
    + constructor.
    + exists (pb ++ concat frs). reflexivity.
    + intros [].
    + reflexivity.
    + now rewrite app_nil_r.
    + intros _. split; [reflexivity|]. apply (S_bout _ (J_s1 _ _ _ _ _ _ _ HJ)).
  - cbn in Hops. apply andb_prop in Hops. destruct Hops as [Ha Hops]. specialize (IH Hops).
    assert (Hfuel1 : 1 <= fuel) by (pose proof (J_fuel _ _ _ _ _ _ _ HJ); lia).
    rewrite trun_cons.
    destruct a as [|n|item| |]; try discriminate.
    + destruct n as [|n].
      * (* receive(0): ValueError, nothing happens *)
        change (tstep fuel (alive m ib pb pc, s) (OReceive 0)) with ((alive m ib pb pc, s), RValueError). cbv beta iota.
        destruct (IH D frs ib pb pc s HJ) as [I1 I2 I3 I4 I5 I6].
        destruct (trun fuel (alive m ib pb pc, s) ops) as [w' rs]. cbn [fst snd] in *.
        constructor; cbn [fst snd received accepted sends_of]; auto.
        -- constructor; [repeat split; discriminate|exact I1].
        -- intros [H|H]; [discriminate|auto].
      * destruct (recv_step m fuel D frs ib pb pc s n HJ) as (o' & s' & r & Hst & Hs & Hcase). rewrite Hst. cbv beta iota.
        destruct Hs as (Hstd & Hprod & _).
        destruct Hcase as [v frs' ib' pb' s' Hv HJ' Hpl|ib' s' -> -> -> HJ'|o' s' Hst1 HD -> Hdead|ib' s' Hsf HD -> HD2 HJ'].
        -- destruct (IH D frs' ib' pb' false s' HJ') as [I1 [rest I2] I3 I4 I5 I6]. rewrite Hstd in *.
           destruct (trun fuel (alive m ib' pb' false, s') ops) as [w' rs]. cbn [fst snd] in *.
           constructor; cbn [fst snd received accepted sends_of]; auto.
           ++ constructor; [repeat split; discriminate|exact I1].
           ++ exists rest. rewrite Hpl, I2. now rewrite <- app_assoc.
           ++ intros [H|H]; [discriminate|]. intros Hc. now rewrite Hpl, (I3 H Hc).
           ++ now rewrite I5, Hprod.
        -- destruct (IH 0 [] ib' [] true s' HJ') as [I1 [rest I2] I3 I4 I5 I6]. rewrite Hstd in *.
           destruct (trun fuel (alive m ib' [] true, s') ops) as [w' rs]. cbn [fst snd] in *.
           assert (Hrc : received ops rs = []).
           { cbn in I2. symmetry in I2. apply app_eq_nil in I2. tauto. }
           constructor; cbn [fst snd received accepted sends_of]; auto.
           ++ constructor; [repeat split; auto; discriminate|exact I1].
           ++ exists []. cbn. now rewrite Hrc.
           ++ now rewrite I5, Hprod.
        -- destruct (dead_run fuel ops Hops Hfuel1 o' s' (or_introl Hdead)) as (D1 & D2 & D3 & D4 & D5).
           destruct (trun fuel (o', s') ops) as [w' rs]. cbn [fst snd] in *.
           destruct (dead_res_ok (std s) D rs D1) as [R1 R2].
           constructor; cbn [fst snd received accepted sends_of].
           ++ constructor; [repeat split; auto; discriminate|exact R1].
           ++ exists (concat frs). cbn. now rewrite D2.
           ++ intros [H|H]; [discriminate|contradiction].
           ++ congruence.
           ++ rewrite D3. cbn. rewrite app_nil_r. congruence.
           ++ intros [H|H]; [congruence|clear - HD H; lia].
        -- destruct (IH D frs ib' [] false s' HJ') as [I1 [rest I2] I3 I4 I5 I6]. rewrite Hstd in *.
           destruct (trun fuel (alive m ib' [] false, s') ops) as [w' rs]. cbn [fst snd] in *.
           constructor; cbn [fst snd received accepted sends_of]; auto.
           ++ constructor; [repeat split; try discriminate; congruence|exact I1].
           ++ exists rest. exact I2.
           ++ intros _ [Hc|Hc]; [congruence|]. rewrite (HD2 Hc) in *. cbn in *.
              symmetry in I2. apply app_eq_nil in I2. tauto.
           ++ now rewrite I5, Hprod.
    + destruct (send_step m fuel D frs ib pb pc s item HJ) as (s' & Hst & HJ' & Hstd & Hprod). rewrite Hst. cbv beta iota.
      destruct (IH D frs ib pb pc s' HJ') as [I1 I2 I3 I4 I5 I6]. rewrite Hstd in *.
      destruct (trun fuel (alive m ib pb pc, s') ops) as [w' rs]. cbn [fst snd] in *.
      constructor; cbn [fst snd received accepted sends_of]; auto.
      * constructor; [repeat split; discriminate|exact I1].
      * intros [H|H]; [discriminate|auto].
      * rewrite I5, Hprod. cbn [map concat]. now rewrite <- app_assoc.
      * intros Hc. destruct (I6 Hc) as [I7 I8]. now rewrite I7.
Qed.

Definition frs_of (m : nat) (items : list (list byte)) : list (list byte) := flat_map (frag m) items.

Lemma frs_of_records m items : concat (map (records m) items) = concat (map rec1 (frs_of m items)).
Proof.
  unfold frs_of. induction items as [|i items IH]; [reflexivity|].
  cbn [flat_map map concat]. rewrite map_app, concat_app. now rewrite IH.
Qed.

Lemma frs_of_concat m items : concat (frs_of m items) = concat items.
Proof.
  unfold frs_of. induction items as [|i items IH]; [reflexivity|].
  cbn [flat_map concat]. rewrite concat_app, frag_concat. now rewrite IH.
Qed.

Lemma frs_of_nonempty m items : Forall (fun c => c <> []) (frs_of m items).
Proof.
  unfold frs_of. induction items as [|i items IH]; [constructor|].
  cbn [flat_map]. apply Forall_app. split; [apply frag_nonempty|exact IH].
Qed.

Lemma rx_bytes_data l : rx_bytes (map RxData l) = concat l.
Proof. induction l as [|d l IH]; cbn; [reflexivity|now rewrite IH]. Qed.

Lemma all_data_map l : forallb is_data (map RxData l) = true.
Proof. induction l as [|d l IH]; cbn; auto. Qed.

Definition ep0 (sc : bool) (chunks : list (list byte)) : pst := init_pst sc (map RxData chunks) (Some RxEof) [].

(* the first iteration of the handshake: the hello is flushed, then the first receive *)
Lemma hs_first sc chunks :
  exists s1 nx, on_ev (apply_ev (ep0 sc chunks) FHandshake (mkev KWantRead [] 0 hello_rec)) (mkev KWantRead [] 0 hello_rec)
             = (s1, nx) /\
    S1 s1 /\ std s1 = sc /\ produced s1 = hello_rec /\ (sc = false -> bin_eof s1 = false) /\
    bin s1 ++ rx_bytes (rxs s1) = concat chunks /\ length (rxs s1) <= length chunks /\
    (nx = Again \/ (nx = Done REndOfStream /\ sc = false /\ chunks = [])).
Proof.
  set (e0 := mkev KWantRead [] 0 hello_rec).
  set (s0 := fst (flush (apply_ev (ep0 sc chunks) FHandshake e0))).
  assert (H0 : S1 s0) by (constructor; cbn; auto using all_data_map; discriminate).
  change (on_ev (apply_ev (ep0 sc chunks) FHandshake e0) e0) with (do_recv s0).
  destruct chunks as [|d rest].
  - destruct (recv_eof s0 H0 eq_refl) as (s1 & Hev & H1 & (Hs & Hp & He) & Hb & Hr & _).
    exists s1, (if sc then Again else Done REndOfStream). rewrite Hb, Hr.
    refine (conj Hev (conj H1 (conj Hs (conj Hp (conj _ (conj eq_refl (conj (le_n _) _))))))).
    + intros E. apply He. exact E.
    + destruct sc; auto.
  - destruct (recv_data s0 d (map RxData rest) H0 eq_refl) as (s1 & Hev & H1 & (Hs & Hp & He) & Hb & Hr).
    exists s1, Again. rewrite Hb, Hr, rx_bytes_data, map_length.
    refine (conj Hev (conj H1 (conj Hs (conj Hp (conj _ (conj eq_refl (conj (le_S _ _ (le_n _)) (or_introl eq_refl)))))))).
    intros E. apply He. exact E.
Qed.

Lemma toy_hs_first m :
  toy_call (init_tobj m) FHandshake [] false = Some (tob m false [], mkev KWantRead [] 0 hello_rec).
Proof. reflexivity. Qed.

Lemma toy_hs_done m ib b be rest : parse (ib ++ b) = Some (0, [], rest) ->
  toy_call (tob m false ib) FHandshake b be = Some (alive m rest [] false, mkev KOk [] (length b) []).
Proof. intros H. unfold toy_call, tob. cbn. now rewrite H. Qed.

(* the handshake of an endpoint that is fed all but the last D bytes of the peer's wire *)
Lemma hs_step m sc pitems chunks D fuel :
  (exists tl, wire m pitems true = concat chunks ++ tl /\ length tl = D) ->
  length chunks + 3 <= fuel ->
  exists o' s' r, tstep fuel (init_tobj m, ep0 sc chunks) OHandshake = ((o', s'), r) /\
    std s' = sc /\ produced s' = hello_rec /\
    ( (r = RVal [] /\ exists ib', o' = alive m ib' [] false /\ J fuel D (frs_of m pitems) ib' [] false s')
   \/ (r = (if sc then RBroken else REndOfStream) /\ 0 < D /\ unusable o' /\ length (concat chunks) < 2) ).
Proof.
  intros (tl & Hw & Htl) Hfuel. unfold wire in Hw. rewrite frs_of_records in Hw.
  destruct fuel as [|k]; [lia|].
  unfold tstep. rewrite step_handshake, pump_S.
  change (bin (ep0 sc chunks)) with (@nil nat). change (bin_eof (ep0 sc chunks)) with false.
  rewrite (toy_hs_first m).
  destruct (hs_first sc chunks) as (s1 & nx & Hev & H1 & Hstd & Hprod & Hno1 & Hstream & Hlen & Hnx). rewrite Hev.
  assert (Htot : 4 <= length (concat chunks) + D).
  { rewrite <- Htl, <- app_length, <- Hw, !app_length. cbn. lia. }
  destruct Hnx as [-> | (-> & -> & ->)]; cycle 1.
  { (* no byte at all, not standard_compatible *)
    exists (tob m false []), s1, REndOfStream. split; [reflexivity|]. split; [exact Hstd|]. split; [exact Hprod|].
    right. cbn in Htot |- *. repeat split; auto; [lia|now right]. }
  rewrite <- Hstd in Hno1.
  destruct (next_record m false FHandshake 0 [] (concat (map rec1 (frs_of m pitems)) ++ close_rec) (concat chunks) tl
              (or_introl (conj eq_refl eq_refl)) Hw k [] s1 H1 Hstream Hno1)
    as [fuel2 ib2 s2 rest Hpump H12 Hs2 Hlen2 Hparse Hmore|o' s' HX Hpump Hs' Hq].
  { lia. }
  - rewrite Hpump, pump_S, (toy_hs_done m ib2 (bin s2) (bin_eof s2) rest Hparse).
    destruct (ok_noemit s2 FHandshake [] (length (bin s2)) H12) as (s' & Hev' & H1' & Hs & Hb & Hr).
    rewrite Hev'. rewrite skipn_all in Hb. destruct (same_trans _ _ _ Hs2 Hs) as (Hstd' & Hprod' & _).
    exists (alive m rest [] false), s', (RVal []).
    split; [reflexivity|]. split; [congruence|]. split; [congruence|].
    left. split; [reflexivity|]. exists rest. split; [reflexivity|].
    constructor; auto using frs_of_nonempty; try discriminate.
    + rewrite Hr. clear - Hlen Hlen2 Hfuel. lia.
    + intros _. exists tl. rewrite Hb, Hr. auto.
    + apply (noeof_same _ _ Hs), (noeof_same _ _ Hs2), Hno1.
  - rewrite Hpump, <- Hstd. destruct Hs' as (Hstd' & Hprod' & _). cbn [length] in HX.
    exists o', s', (if std s1 then RBroken else REndOfStream).
    split; [destruct (std s1); reflexivity|]. split; [congruence|]. split; [congruence|].
    right. split; [reflexivity|]. split; [clear - Htot HX; lia|]. split; [|exact HX].
    destruct (std s1); [now left|]. destruct Hq as (-> & _). now right.
Qed.

Lemma step_nf O ocall fuel w a : NF (snd w) -> NF (snd (fst (step O ocall fuel w a))).
Proof. apply step_preserves; auto. intros s f e H. apply (on_ev_frame (apply_ev s f e) e), H. Qed.

(* a transport whose send() never fails sends everything the SSL object produces, in order *)
Lemma run_all_sent O ocall fuel o0 sc rx tail ops :
  let s := snd (fst (run O ocall fuel (o0, init_pst sc rx tail []) ops)) in
  sent_of (trace s) ++ bout s = produced s.
Proof.
  cbn zeta. pose proof (run_inv O ocall fuel ops (o0, init_pst sc rx tail []) (inv_init _ _ _ _)) as I.
  destruct (run_preserves O ocall NF fuel (step_nf O ocall fuel) ops (o0, init_pst sc rx tail [])) as [_ N];
    [split; reflexivity|]. symmetry. apply (I_out _ I N).
Qed.

(* One endpoint: toy SSL object + pump + a transport that delivers, in ANY chunking, the first
   |wire| - D bytes of what the peer put on the wire (handshake, the peer's items, close_notify) and then
   ends.  The endpoint handshakes and then performs ANY sequence of send and receive operations. *)
Theorem tls_endpoint_transparent m sc pitems chunks D ops fuel :
  forallb sendrecv ops = true ->
  (exists tl, wire m pitems true = concat chunks ++ tl /\ length tl = D) ->
  length chunks + 3 <= fuel ->
  let out := trun fuel (init_tobj m, ep0 sc chunks) (OHandshake :: ops) in
  let rs := snd out in
  let s' := snd (fst out) in
  ~ In RStuck rs /\
  (exists rest, concat pitems = received (OHandshake :: ops) rs ++ rest) /\
  (In REndOfStream rs -> sc = true \/ D = 0 -> D = 0 /\ received (OHandshake :: ops) rs = concat pitems) /\
  (In RBroken rs -> 0 < D /\ sc = true) /\
  produced s' = hello_rec ++ concat (map (records m) (accepted (OHandshake :: ops) rs)) /\
  sent_of (trace s') ++ bout s' = produced s' /\
  (In REndOfStream rs -> D <= 2 -> received (OHandshake :: ops) rs = concat pitems) /\
  (sc = false \/ D = 0 -> 2 <= length (concat chunks) ->
   accepted (OHandshake :: ops) rs = sends_of ops /\ bout s' = []).
Proof.
  intros Hops Hw Hfuel. cbn zeta.
  pose proof (run_all_sent tobj toy_call fuel (init_tobj m) sc (map RxData chunks) (Some RxEof) (OHandshake :: ops)) as Hsent.
  cbn zeta in Hsent. fold (ep0 sc chunks) in Hsent. fold trun in Hsent. revert Hsent.
  rewrite trun_cons.
  destruct (hs_step m sc pitems chunks D fuel Hw Hfuel) as (o' & s1 & r & Hst & Hstd & Hprod & Hcase).
  rewrite Hst. cbv beta iota.
  destruct Hcase as [(-> & ib' & -> & HJ)|(-> & HD & Hdead & Hshort)].
  - destruct (run_J m fuel ops Hops D (frs_of m pitems) ib' [] false s1 HJ) as [I1 [rest I2] I3 I4 I5 I6].
    destruct (trun fuel (alive m ib' [] false, s1) ops) as [w' rs]. cbn [fst snd] in *. cbn [received accepted sends_of].
    rewrite Hstd in *. rewrite frs_of_concat in *. cbn [app] in *.
    assert (I1' : Forall (res_ok sc D) (RVal [] :: rs)) by (constructor; [repeat split; discriminate|exact I1]).
    destruct (res_ok_all _ _ _ I1') as (R1 & R2 & R3).
    assert (I3' : In REndOfStream (RVal [] :: rs) -> sc = true \/ D <= 2 -> received ops rs = concat pitems).
    { intros [H|H]; [discriminate|auto]. }
    intros Hsent.
    refine (conj R1 (conj _ (conj _ (conj R3 (conj _ (conj Hsent (conj _ _))))))).
    + exists rest. exact I2.
    + intros H [Hc|Hc].
      * split; [auto|]. apply I3'; auto.
      * split; [exact Hc|]. apply I3'; [exact H|]. right. clear - Hc. lia.
    + rewrite I5, Hprod. reflexivity.
    + intros H Hc. apply I3'; auto.
    + intros Hc _. auto.
  - assert (Hfuel1 : 1 <= fuel) by lia.
    assert (Htot : 4 <= length (concat chunks) + D).
    { destruct Hw as (tl & Hw & <-). rewrite <- app_length, <- Hw. unfold wire. rewrite !app_length. cbn. lia. }
    destruct (dead_run fuel ops Hops Hfuel1 o' s1 Hdead) as (D1 & D2 & D3 & D4 & D5).
    destruct (trun fuel (o', s1) ops) as [w' rs]. cbn [fst snd] in *. cbn [received accepted sends_of].
    destruct (dead_res_ok sc D rs D1) as [F1 F2].
    assert (F1' : Forall (res_ok sc D) ((if sc then RBroken else REndOfStream) :: rs)).
    { constructor; [|exact F1]. destruct sc; repeat split; auto; discriminate. }
    destruct (res_ok_all _ _ _ F1') as (R1 & R2 & R3).
    intros Hsent.
    refine (conj R1 (conj _ (conj _ (conj R3 (conj _ (conj Hsent (conj _ _))))))).
    + exists (concat pitems). destruct sc; cbn; now rewrite D2.
    + intros H [Hc|Hc]; [|clear - HD Hc; lia]. specialize (R2 H Hc). clear - HD R2. lia.
    + rewrite D3, D5, Hprod. reflexivity.
    + intros _ Hc. clear - Htot Hshort Hc. lia.
    + intros _ Hc. clear - Hshort Hc. lia.
Qed.

Section NoEmit.
  Variable O : Type.
  Variable ocall : O -> func -> list byte -> bool -> option (O * sslev).
  Variable P : O -> Prop.
  Variable f : func.
  Hypothesis HP : forall o b be o1 e, P o -> ocall o f b be = Some (o1, e) -> eemit e = [] /\ P o1.

  Lemma pump_noemit fuel : forall o s, P o ->
    produced (snd (fst (pump O ocall fuel o f s))) = produced s /\ P (fst (fst (pump O ocall fuel o f s))).
  Proof.
    induction fuel as [|k IH]; intros o s Ho; cbn [pump]; [auto|].
    unfold iter. destruct (ocall o f (bin s) (bin_eof s)) as [[o1 e]|] eqn:E; [|auto].
    destruct (HP _ _ _ _ _ Ho E) as [He Ho1].
    destruct (on_ev_frame (apply_ev s f e) e) as (_ & _ & Hp & _). cbn [produced apply_ev] in Hp.
    rewrite He, app_nil_r in Hp.
    destruct (on_ev (apply_ev s f e) e) as [s1 [r|]]; cbn [fst snd] in *.
    - split; [exact Hp|exact Ho1].
    - destruct (IH o1 s1 Ho1) as [H1 H2]. split; [congruence|exact H2].
  Qed.
End NoEmit.

Lemma toy_hs_noemit m o b be o1 e :
  (mrec o = m /\ hs_sent o = true) -> toy_call o FHandshake b be = Some (o1, e) ->
  eemit e = [] /\ (mrec o1 = m /\ hs_sent o1 = true).
Proof.
  intros [Hm Hs]. unfold toy_call. rewrite Hs.
  destruct (dead o); [|destruct (hs_done o);
    [|destruct (parse (ibuf o ++ b)) as [[[[|t] [|y p]] rest]|]; [..|destruct be]]];
    intros H; injection H as <- <-; (split; [reflexivity|split; [exact Hm|]]); cbn; auto.
Qed.

Lemma toy_write_cases o item b be o1 e : toy_call o (FWrite item) b be = Some (o1, e) ->
  mrec o1 = mrec o /\ ((ek e = KOk /\ eemit e = records (mrec o) item) \/ (ek e = KOther /\ eemit e = [])).
Proof.
  unfold toy_call. destruct (dead o); [|destruct (negb (hs_done o) || self_closed o)];
    intros H; injection H as <- <-; auto.
Qed.

Lemma send_any m fuel o s item : NF s -> mrec o = m -> 1 <= fuel ->
  let out := tstep fuel (o, s) (OSend item) in
  mrec (fst (fst out)) = m /\ NF (snd (fst out)) /\
  produced (snd (fst out)) = produced s ++ (if is_val (snd out) then records m item else []).
Proof.
  intros Hn Hm Hf. cbn zeta. destruct fuel as [|k]; [lia|].
  pose proof (step_nf tobj toy_call (S k) (o, s) (OSend item) Hn) as Hn'.
  unfold tstep in *. rewrite step_send, pump_S in *.
  destruct (toy_call o (FWrite item) (bin s) (bin_eof s)) as [[o1 e]|] eqn:E.
  - destruct (on_ev_frame (apply_ev s (FWrite item) e) e) as (_ & _ & Hp & _).
    destruct (toy_write_cases _ _ _ _ _ _ E) as [Hm1 [[Hk He]|[Hk He]]].
    + destruct (flush_ok (apply_ev s (FWrite item) e)) as [Ht _]; [cbn; now rewrite (proj1 Hn)|].
      unfold on_ev in *. rewrite Hk in *. destruct (flush _) as [s1 t]. cbn [fst snd] in *. subst t.
      cbn [fst snd is_val map_res unit_res is_txok] in *. split; [congruence|]. split; [exact Hn'|]. rewrite Hp. cbn. now rewrite He, Hm.
    + unfold on_ev in *. rewrite Hk in *. cbn [fst snd is_val map_res unit_res] in *.
      split; [congruence|]. split; [exact Hn'|]. cbn. now rewrite He.
  - cbn [fst snd is_val map_res unit_res] in *. rewrite app_nil_r. auto.
Qed.

Lemma recv_any m fuel o s n : NF s -> mrec o = m ->
  let out := tstep fuel (o, s) (OReceive n) in
  mrec (fst (fst out)) = m /\ NF (snd (fst out)) /\ produced (snd (fst out)) = produced s.
Proof.
  intros Hn Hm. cbn zeta.
  pose proof (step_nf tobj toy_call fuel (o, s) (OReceive n) Hn) as Hn'.
  unfold tstep in *. destruct n as [|n]; [cbn; auto|]. rewrite step_receive in *.
  destruct (pump_noemit tobj toy_call (fun o => mrec o = m) (FRead (S n))) with (fuel := fuel) (o := o) (s := s)
    as [H1 H2]; [|exact Hm|exact (conj H2 (conj Hn' H1))].
  intros o0 b be o1 e <- H. apply (toy_read_spec _ _ _ _ _ _ H).
Qed.

Lemma sender_run m fuel ops : forallb sendrecv ops = true -> 1 <= fuel ->
  forall o s, NF s -> mrec o = m ->
  produced (snd (fst (trun fuel (o, s) ops))) =
  produced s ++ concat (map (records m) (accepted ops (snd (trun fuel (o, s) ops)))).
Proof.
  intros Hops Hf. induction ops as [|a ops IH]; intros o s Hn Hm.
  - cbn. now rewrite app_nil_r.
  - cbn in Hops. apply andb_prop in Hops. destruct Hops as [Ha Hops]. specialize (IH Hops).
    rewrite trun_cons. destruct a as [|n|item| |]; try discriminate.
    + pose proof (recv_any m fuel o s n Hn Hm) as H. cbn zeta in H.
      destruct (tstep fuel (o, s) (OReceive n)) as [[o1 s1] r]. cbn [fst snd] in H. destruct H as (H1 & H2 & H3).
      specialize (IH o1 s1 H2 H1). destruct (trun fuel (o1, s1) ops) as [w' rs]. cbn [fst snd] in *.
      rewrite IH, H3. destruct r; reflexivity.
    + pose proof (send_any m fuel o s item Hn Hm Hf) as H. cbn zeta in H.
      destruct (tstep fuel (o, s) (OSend item)) as [[o1 s1] r]. cbn [fst snd] in H. destruct H as (H1 & H2 & H3).
      specialize (IH o1 s1 H2 H1). destruct (trun fuel (o1, s1) ops) as [w' rs]. cbn [fst snd] in *.
      rewrite IH, H3. destruct r; cbn [is_val accepted map concat]; rewrite <- ?app_assoc; cbn [app]; reflexivity.
Qed.

Lemma hs_any m fuel sc rx tail : 1 <= fuel ->
  let out := tstep fuel (init_tobj m, init_pst sc rx tail []) OHandshake in
  mrec (fst (fst out)) = m /\ NF (snd (fst out)) /\ produced (snd (fst out)) = hello_rec.
Proof.
  intros Hf. cbn zeta. destruct fuel as [|k]; [lia|].
  assert (Hn : NF (init_pst sc rx tail [])) by (split; reflexivity).
  pose proof (step_nf tobj toy_call (S k) (init_tobj m, init_pst sc rx tail []) OHandshake Hn) as Hn'.
  unfold tstep in *. rewrite step_handshake, pump_S in *.
  change (bin (init_pst sc rx tail [])) with (@nil nat) in *.
  change (bin_eof (init_pst sc rx tail [])) with false in *.
  rewrite (toy_hs_first m) in *.
  destruct (on_ev_frame (apply_ev (init_pst sc rx tail []) FHandshake (mkev KWantRead [] 0 hello_rec))
                (mkev KWantRead [] 0 hello_rec)) as (_ & _ & Hp & _).
  cbn [produced apply_ev init_pst app eemit] in Hp.
  destruct (on_ev _ _) as [s1 [r|]]; cbn [fst snd] in *.
  - exact (conj eq_refl (conj Hn' Hp)).
  - destruct (pump_noemit tobj toy_call (fun o => mrec o = m /\ hs_sent o = true) FHandshake
                (fun o b be o1 e => toy_hs_noemit m o b be o1 e) k (tob m false []) s1 (conj eq_refl eq_refl)) as [H1 [H2 _]].
    exact (conj H2 (conj Hn' (eq_trans H1 Hp))).
Qed.

(* the bytes an endpoint's SSL object produces are exactly handshake + the records of the accepted items, they
   reach the transport in order, and nothing else does - whatever the peer or the transport delivers *)
Theorem toy_sender_wire m sc rx tail ops fuel :
  forallb sendrecv ops = true -> 1 <= fuel ->
  let out := trun fuel (init_tobj m, init_pst sc rx tail []) (OHandshake :: ops) in
  produced (snd (fst out)) = hello_rec ++ concat (map (records m) (accepted (OHandshake :: ops) (snd out))) /\
  sent_of (trace (snd (fst out))) ++ bout (snd (fst out)) = produced (snd (fst out)).
Proof.
  intros Hops Hf. cbn zeta. split; [|apply run_all_sent].
  rewrite trun_cons. pose proof (hs_any m fuel sc rx tail Hf) as H. cbn zeta in H.
  destruct (tstep fuel (init_tobj m, init_pst sc rx tail []) OHandshake) as [[o1 s1] r]. cbn [fst snd] in H.
  destruct H as (H1 & H2 & H3).
  pose proof (sender_run m fuel ops Hops Hf o1 s1 H2 H1) as H.
  destruct (trun fuel (o1, s1) ops) as [w' rs]. cbn [fst snd] in *. rewrite H, H3.
  destruct r; reflexivity.
Qed.

(* both directions at once *)
Theorem tls_pair_transparent m scA scB opsA opsB chunksA chunksB fuel :
  forallb sendrecv opsA = true -> forallb sendrecv opsB = true ->
  length chunksA + 3 <= fuel -> length chunksB + 3 <= fuel ->
  let outA := trun fuel (init_tobj m, ep0 scA chunksA) (OHandshake :: opsA) in
  let outB := trun fuel (init_tobj m, ep0 scB chunksB) (OHandshake :: opsB) in
  (* the transport hands A a prefix of what B sent, in any chunking, and vice versa *)
  prefix (concat chunksA) (sent_of (trace (snd (fst outB)))) ->
  prefix (concat chunksB) (sent_of (trace (snd (fst outA)))) ->
  prefix (received (OHandshake :: opsA) (snd outA)) (concat (accepted (OHandshake :: opsB) (snd outB))) /\
  prefix (received (OHandshake :: opsB) (snd outB)) (concat (accepted (OHandshake :: opsA) (snd outA))).
Proof.
  intros HA HB HfA HfB. cbn zeta. intros [tA HpA] [tB HpB].
  assert (half : forall sc sc' ops ops' chunks chunks' t,
            forallb sendrecv ops = true -> forallb sendrecv ops' = true ->
            length chunks + 3 <= fuel -> 1 <= fuel ->
            sent_of (trace (snd (fst (trun fuel (init_tobj m, ep0 sc' chunks') (OHandshake :: ops'))))) = concat chunks ++ t ->
            prefix (received (OHandshake :: ops) (snd (trun fuel (init_tobj m, ep0 sc chunks) (OHandshake :: ops))))
                   (concat (accepted (OHandshake :: ops') (snd (trun fuel (init_tobj m, ep0 sc' chunks') (OHandshake :: ops')))))).
  { intros sc sc' ops ops' chunks chunks' t Ho Ho' Hf Hf1 Hsent.
    destruct (toy_sender_wire m sc' (map RxData chunks') (Some RxEof) ops' fuel Ho' Hf1) as [Hprod Hwire].
    fold (ep0 sc' chunks') in Hprod, Hwire.
    set (out' := trun fuel (init_tobj m, ep0 sc' chunks') (OHandshake :: ops')) in *.
    destruct (tls_endpoint_transparent m sc (accepted (OHandshake :: ops') (snd out')) chunks
                (length (t ++ bout (snd (fst out')) ++ close_rec)) ops fuel Ho) as (_ & Hpre & _).
    - exists (t ++ bout (snd (fst out')) ++ close_rec). split; [|reflexivity].
      unfold wire. rewrite app_assoc, <- Hprod, <- Hwire, Hsent. now rewrite <- !app_assoc.
    - exact Hf.
    - exact Hpre. }
  split.
  - apply (half scA scB opsA opsB chunksA chunksB tA); auto; lia.
  - apply (half scB scA opsB opsA chunksB chunksA tB); auto; lia.
Qed.

(* draining: enough receive calls always reach the end of the stream, and report it correctly *)
Lemma sendrecv_repeat_recv n k : forallb sendrecv (repeat (OReceive n) k) = true.
Proof. induction k; cbn; auto. Qed.

Lemma drain_J m fuel n rest : forall k D frs ib pb pc s,
  J fuel D frs ib pb pc s -> length (pb ++ concat frs) < k ->
  let rs := snd (trun fuel (alive m ib pb pc, s) (repeat (OReceive (S n)) k ++ rest)) in
  In REndOfStream rs \/ In RBroken rs.
Proof.
  induction k as [|k IH]; intros D frs ib pb pc s HJ Hk; [lia|]. cbn zeta. cbn [repeat app]. rewrite trun_cons.
  destruct (recv_step m fuel D frs ib pb pc s n HJ) as (o' & s' & r & Hst & Hs & Hcase). rewrite Hst. cbv beta iota.
  destruct Hcase as [v frs' ib' pb' s' Hv HJ' Hpl| | |].
  - specialize (IH D frs' ib' pb' false s' HJ'). cbn zeta in IH.
    destruct (trun fuel (alive m ib' pb' false, s') (repeat (OReceive (S n)) k ++ rest)) as [w' rs]. cbn [fst snd] in *.
    assert (Hl : length (pb' ++ concat frs') < k).
    { rewrite Hpl in Hk. rewrite app_length in Hk. destruct v; [contradiction|]. cbn in Hk. lia. }
    destruct (IH Hl); [left|right]; now right.
  - destruct (trun fuel _ _) as [w' rs]. left. now left.
  - destruct (trun fuel _ _) as [w' rs]. right. now left.
  - destruct (trun fuel _ _) as [w' rs]. left. now left.
Qed.

Lemma drain_terminates m sc pitems chunks D n k rest fuel :
  (exists tl, wire m pitems true = concat chunks ++ tl /\ length tl = D) ->
  length chunks + 3 <= fuel -> length (concat pitems) < k ->
  let rs := snd (trun fuel (init_tobj m, ep0 sc chunks) (OHandshake :: repeat (OReceive (S n)) k ++ rest)) in
  In REndOfStream rs \/ In RBroken rs.
Proof.
  intros Hw Hfuel Hk. cbn zeta. rewrite trun_cons.
  destruct (hs_step m sc pitems chunks D fuel Hw Hfuel) as (o' & s1 & r & Hst & _ & _ & Hcase).
  rewrite Hst. cbv beta iota.
  destruct Hcase as [(-> & ib' & -> & HJ)|(-> & _)].
  - pose proof (drain_J m fuel n rest k D (frs_of m pitems) ib' [] false s1 HJ) as H. cbn zeta in H.
    rewrite frs_of_concat in H. specialize (H Hk).
    destruct (trun fuel (alive m ib' [] false, s1) _) as [w' rs]. cbn [snd] in *.
    destruct H; [left|right]; now right.
  - destruct (trun fuel (o', s1) _) as [w' rs]. cbn [snd]. destruct sc; [right|left]; now left.
Qed.

Theorem tls_receive_all m sc pitems chunks D n k fuel :
  (exists tl, wire m pitems true = concat chunks ++ tl /\ length tl = D) ->
  length chunks + 3 <= fuel -> length (concat pitems) < k ->
  let ops := OHandshake :: repeat (OReceive (S n)) k in
  let rs := snd (trun fuel (init_tobj m, ep0 sc chunks) ops) in
  (D = 0 -> received ops rs = concat pitems /\ In REndOfStream rs /\ ~ In RBroken rs) /\
  (0 < D -> sc = true -> In RBroken rs /\ ~ In REndOfStream rs) /\
  (0 < D -> sc = false -> In REndOfStream rs /\ ~ In RBroken rs) /\
  (D <= 2 -> sc = false -> received ops rs = concat pitems).
Proof.
  intros Hw Hfuel Hk. cbn zeta.
  destruct (tls_endpoint_transparent m sc pitems chunks D (repeat (OReceive (S n)) k) fuel
              (sendrecv_repeat_recv (S n) k) Hw Hfuel) as (T1 & T2 & T3 & T4 & _ & _ & T7 & _).
  pose proof (drain_terminates m sc pitems chunks D n k [] fuel Hw Hfuel Hk) as Hterm.
  cbn zeta in *. rewrite app_nil_r in Hterm.
  set (rs := snd (trun fuel (init_tobj m, ep0 sc chunks) (OHandshake :: repeat (OReceive (S n)) k))) in *.
  refine (conj _ (conj _ (conj _ _))).
  - intros HD. assert (Hnb : ~ In RBroken rs) by (intros H; apply T4 in H; lia).
    destruct Hterm as [He|Hb]; [|contradiction]. destruct (T3 He (or_intror HD)) as [_ Hr]. auto.
  - intros HD Hsc. assert (Hne : ~ In REndOfStream rs) by (intros H; destruct (T3 H (or_introl Hsc)); lia).
    destruct Hterm as [He|Hb]; [contradiction|auto].
  - intros HD Hsc. assert (Hnb : ~ In RBroken rs) by (intros H; apply T4 in H; destruct H; congruence).
    destruct Hterm as [He|Hb]; [auto|contradiction].
  - intros HD Hsc. assert (Hnb : ~ In RBroken rs) by (intros H; apply T4 in H; destruct H; congruence).
    destruct Hterm as [He|Hb]; [auto|contradiction].
Qed.

Lemma sendrecv_recvs_sends n k items : forallb sendrecv (repeat (OReceive n) k ++ map OSend items) = true.
Proof.
  rewrite forallb_app. rewrite sendrecv_repeat_recv. cbn. induction items as [|i items IH]; cbn; auto.
Qed.

Lemma sends_of_recvs_sends n k items : sends_of (repeat (OReceive n) k ++ map OSend items) = items.
Proof.
  induction k as [|k IH]; cbn [repeat app sends_of]; [|exact IH].
  induction items as [|i items IH]; cbn; [reflexivity|now rewrite IH].
Qed.

Lemma wire_close m items : wire m items true = wire m items false ++ close_rec.
Proof. unfold wire. now rewrite app_nil_r, <- !app_assoc. Qed.

(* Not standard_compatible.  The client handshakes, sends its request `req` and ends its sending direction WITHOUT
   close_notify (chunksS = any chunking of exactly that).  The server reads to the end (EndOfStream), THEN sends
   `replies`: every send is accepted and goes out on the wire; the client, fed any chunking of what the server sent,
   receives the replies byte for byte. *)
Theorem tls_half_close_reply_delivered m req replies chunksS chunksC n k kc fuel :
  concat chunksS = wire m req false ->
  length (concat req) < k -> length (concat replies) < kc ->
  length chunksS + 3 <= fuel -> length chunksC + 3 <= fuel ->
  let opsS := OHandshake :: repeat (OReceive (S n)) k ++ map OSend replies in
  let outS := trun fuel (init_tobj m, ep0 false chunksS) opsS in
  received opsS (snd outS) = concat req /\ In REndOfStream (snd outS) /\ ~ In RBroken (snd outS) /\
  accepted opsS (snd outS) = replies /\
  sent_of (trace (snd (fst outS))) = wire m replies false /\
  (concat chunksC = sent_of (trace (snd (fst outS))) ->
   let opsC := OHandshake :: repeat (OReceive (S n)) kc in
   received opsC (snd (trun fuel (init_tobj m, ep0 false chunksC) opsC)) = concat replies).
Proof.
  intros HwS Hk Hkc HfS HfC. cbn zeta.
  assert (Hw : exists tl, wire m req true = concat chunksS ++ tl /\ length tl = 2).
  { exists close_rec. split; [|reflexivity]. rewrite HwS. apply wire_close. }
  assert (Hlen : 2 <= length (concat chunksS)).
  { rewrite HwS. unfold wire. rewrite app_length. cbn. lia. }
  destruct (tls_endpoint_transparent m false req chunksS 2 (repeat (OReceive (S n)) k ++ map OSend replies) fuel
              (sendrecv_recvs_sends (S n) k replies) Hw HfS) as (T1 & T2 & T3 & T4 & T5 & T6 & T7 & T8).
  pose proof (drain_terminates m false req chunksS 2 n k (map OSend replies) fuel Hw HfS Hk) as Hterm.
  cbn zeta in *.
  set (out := trun fuel (init_tobj m, ep0 false chunksS) (OHandshake :: repeat (OReceive (S n)) k ++ map OSend replies)) in *.
  destruct (T8 (or_introl eq_refl) Hlen) as [T8a T8b].
  assert (Hnb : ~ In RBroken (snd out)) by (intros H; apply T4 in H; destruct H; discriminate).
  destruct Hterm as [Hterm|H]; [|contradiction].
  assert (Hacc : accepted (OHandshake :: repeat (OReceive (S n)) k ++ map OSend replies) (snd out) = replies).
  { rewrite T8a. cbn [sends_of]. apply sends_of_recvs_sends. }
  assert (Hsent : sent_of (trace (snd (fst out))) = wire m replies false).
  { rewrite T8b, app_nil_r in T6. rewrite T6, T5, Hacc. unfold wire. now rewrite app_nil_r. }
  refine (conj (T7 Hterm (le_n 2)) (conj Hterm (conj Hnb (conj Hacc (conj Hsent _))))).
  intros HwC.
  assert (HwC' : exists tl, wire m replies true = concat chunksC ++ tl /\ length tl = 2).
  { exists close_rec. split; [|reflexivity]. rewrite HwC, Hsent. apply wire_close. }
  destruct (tls_receive_all m false replies chunksC 2 n kc fuel HwC' HfC Hkc) as (_ & _ & _ & R4).
  apply R4; auto.
Qed.

(* The pump as it was before c5df3e8 hands the transport's end to the SSL object also when not standard_compatible.
   Same toy SSL object, same transport script, same operations: the server reports EndOfStream, the SSL object is
   poisoned, the reply is refused and never reaches the wire - the theorem above is false of the pinned pump. *)
Theorem tls_half_close_reply_delivered_refuted_pinned :
  exists m req replies chunksS n k fuel,
    concat chunksS = wire m req false /\ length (concat req) < k /\ length chunksS + 3 <= fuel /\
    let opsS := OHandshake :: repeat (OReceive (S n)) k ++ map OSend replies in
    let outS := trun_pinned fuel (init_tobj m, ep0 false chunksS) opsS in
    received opsS (snd outS) = concat req /\ In REndOfStream (snd outS) /\
    accepted opsS (snd outS) = [] /\ replies <> [] /\
    sent_of (trace (snd (fst outS))) = wire m [] false /\
    (* ... whereas the fixed pump delivers *)
    accepted opsS (snd (trun fuel (init_tobj m, ep0 false chunksS) opsS)) = replies /\
    sent_of (trace (snd (fst (trun fuel (init_tobj m, ep0 false chunksS) opsS)))) = wire m replies false.
Proof.
  exists 1, [[1; 2; 3]], [[7; 8]], (map (fun b => [b]) (wire 1 [[1; 2; 3]] false)), 4, 4, 20.
  (* evaluated as it stands, so that the run of the pinned pump, bound by `let`, is computed once *)
  vm_compute. repeat split; auto 10; try discriminate; repeat constructor.
Qed.

(* The same with a scripted SSL object that answers like OpenSSL 3 does once it has seen the EOF (the unexpected-EOF
   error again, for read AND for write): under the pinned pump send() raises EndOfStream and writes nothing, and the
   incoming BIO is at EOF.  The fixed pump, on a transport that ends in the same place, never tells the SSL object, which
   therefore performs the write.  This is a behavioural CONTRAST (two scripts, chosen to mimic the poisoned and the healthy
   object), not a refutation of a statement: the same-shape pair is pump_ragged_eof_spec_head / _refuted_pinned. *)
Theorem pump_ragged_eof_pinned_contrast :
  exists (poisoned healthy : list sslev),
    let out := srun_pinned 5 (poisoned, init_pst false [] (Some RxEof) []) [OReceive 10; OSend [1; 2]] in
    snd out = [REndOfStream; REndOfStream] /\ sent_of (trace (snd (fst out))) = [] /\
    bin_eof (snd (fst out)) = true /\ bout_eof (snd (fst out)) = true /\
    let out' := srun 5 (healthy, init_pst false [] (Some RxEof) []) [OReceive 10; OSend [1; 2]] in
    snd out' = [REndOfStream; RVal []] /\ sent_of (trace (snd (fst out'))) = [23; 3; 3; 0; 2; 2; 3] /\
    bin_eof (snd (fst out')) = false /\ bout_eof (snd (fst out')) = false.
Proof.
  exists [mkev KWantRead [] 0 []; mkev KEofCls [] 0 []; mkev KEofCls [] 0 []],
         [mkev KWantRead [] 0 []; mkev KOk [2] 0 [23; 3; 3; 0; 2; 2; 3]].
  vm_compute. repeat split.
Qed.

(* Non-vacuity: concrete runs that meet the hypotheses and exhibit each outcome *)

(* scripted SSL object: the handshake wants to read twice (emitting a flight each time), the transport delivers
   the peer's flight in two fragments; then a write that wants to write first *)
Definition ex_script : list sslev :=
  [mkev KWantRead [] 0 [1; 2; 3]; mkev KWantRead [] 2 [4]; mkev KOk [] 3 [5; 6];
   mkev KWantWrite [] 0 [7]; mkev KOk [2] 0 [8; 9]].
Definition ex_rx : list rxev := [RxData [20; 21]; RxData [22; 23; 24]].

Example ex_conserved_and_flushed :
  let s := snd (fst (srun 5 (ex_script, init_pst true ex_rx None []) [OHandshake; OSend [0; 0]])) in
  trace s = [CSend [1; 2; 3] TxOk; CRecv 0 (RxData [20; 21]); CSend [4] TxOk; CRecv 0 (RxData [22; 23; 24]);
             CSend [5; 6] TxOk; CSend [7] TxOk; CSend [8; 9] TxOk] /\
  produced s = [1; 2; 3; 4; 5; 6; 7; 8; 9] /\ sent_of (trace s) = produced s /\ bout s = [] /\
  fed s = [20; 21; 22; 23; 24] /\ rcvd_of (trace s) = fed s /\ consumed s = fed s /\
  sendfail s = false /\ late s = false.
Proof. vm_compute. repeat split. Qed.

(* the two guards of the conservation theorem are both false on an ordinary duplex run of the toy layer ... *)
Example ex_conservation_guards_false_duplex :
  let s := snd (fst (trun 20 (init_tobj 1, ep0 true (map (fun b => [b]) (wire 1 [[10; 11; 12]; [13]] true)))
                      [OHandshake; OSend [7; 8; 9]; OReceive 2; OReceive 5; OSend [1]; OReceive 5; OReceive 5])) in
  sendfail s = false /\ late s = false /\
  sent_of (trace s) = wire 1 [[7; 8; 9]; [1]] false /\ produced s = sent_of (trace s) ++ bout s /\
  rcvd_of (trace s) = wire 1 [[10; 11; 12]; [13]] true /\ fed s = rcvd_of (trace s).
Proof. vm_compute. repeat split. Qed.

(* ... and this is what they exclude.  sendfail: a transport.send() raised - the bytes handed to that call are gone
   (the BIO was emptied before the call), so produced <> sent ++ pending from then on *)
Example ex_sendfail_excluded :
  let s := snd (fst (srun 3 ([mkev KOk [1] 0 [1; 2]; mkev KOk [1] 0 [3]], init_pst true [] None [TxBroken])
                      [OSend [0]; OSend [0]])) in
  sendfail s = true /\ produced s = [1; 2; 3] /\ sent_of (trace s) = [3] /\ bout s = [].
Proof. vm_compute. repeat split. Qed.

(* late: the transport delivered data AFTER reporting its own end of stream (no sane transport does): MemoryBIO.write()
   refuses it, so received <> fed from then on *)
Example ex_late_excluded :
  let out := srun 3 ([mkev KWantRead [] 0 []; mkev KWantRead [] 0 []], init_pst true [RxEof; RxData [5]] None []) [OReceive 4] in
  snd out = [RSslOther] /\ late (snd (fst out)) = true /\ rcvd_of (trace (snd (fst out))) = [5] /\ fed (snd (fst out)) = [].
Proof. vm_compute. repeat split. Qed.

(* transport ends -> write_eof -> the SSL object reports an unexpected EOF *)
Example ex_eof_mapping_std :
  let out := srun 3 ([mkev KWantRead [] 0 []; mkev KEofStr [] 0 []], init_pst true [] (Some RxEof) []) [OReceive 10] in
  snd out = [RBroken] /\ bin_eof (snd (fst out)) = true /\ trace (snd (fst out)) = [CRecv 0 RxEof].
Proof. vm_compute. repeat split. Qed.

(* not standard_compatible: the transport's end is reported as it is, the SSL object is not told (and not asked again) *)
Example ex_eof_mapping_nonstd :
  let out := srun 3 ([mkev KWantRead [] 0 []; mkev KEofCls [] 0 []], init_pst false [] (Some RxEof) []) [OReceive 10] in
  snd out = [REndOfStream] /\ bin_eof (snd (fst out)) = false /\ fst (fst out) = [mkev KEofCls [] 0 []].
Proof. vm_compute. repeat split. Qed.

(* not standard_compatible, the SSL object itself reports the unexpected EOF *)
Example ex_ssl_eof_nonstd :
  let out := srun 3 ([mkev KEofStr [] 0 []], init_pst false [] (Some RxEof) []) [OReceive 10] in
  snd out = [REndOfStream] /\ bin_eof (snd (fst out)) = true.
Proof. vm_compute. repeat split. Qed.

(* close_notify: read() returns the empty bytes object *)
Example ex_clean_close_std :
  snd (srun 3 ([mkev KWantRead [] 0 []; mkev KOk [] 5 []], init_pst true [RxData [1; 2; 3; 4; 5]] None []) [OReceive 10])
  = [REndOfStream].
Proof. vm_compute. reflexivity. Qed.

Example ex_receive_value :
  snd (srun 3 ([mkev KOk [7; 8] 0 []], init_pst true [] None []) [OReceive 2]) = [RVal [7; 8]].
Proof. vm_compute. reflexivity. Qed.

(* hypotheses of pump_ragged_eof_keeps_send_alive: the end is the transport's, the SSL object then writes *)
Example ex_ragged_hyp :
  let w := (([mkev KWantRead [] 0 []; mkev KOk [2] 0 [23; 3]], init_pst false [] (Some RxEof) []) : list sslev * pst) in
  let out := sstep 3 w (OReceive 10) in
  snd out = REndOfStream /\ std (snd w) = false /\
  olog (snd (fst out)) = [(FRead 10, mkev KWantRead [] 0 [])] /\
  scall (fst (fst out)) (FWrite [1; 2]) (bin (snd (fst out))) false = Some ([], mkev KOk [2] 0 [23; 3]).
Proof. vm_compute. repeat split. Qed.

(* toy record layer, records of at most 2 plaintext bytes *)
Definition ex_items : list (list byte) := [[10; 11; 12]; []; [13]].
Definition ex_wire : list byte := wire 1 ex_items true.
Definition one_byte_chunks (l : list byte) : list (list byte) := map (fun b => [b]) l.
Definition ex_ops : list op := [OSend [7; 8; 9]; OReceive 2; OReceive 5; OSend []; OReceive 5; OReceive 5; OReceive 5].

Example ex_wire_value : ex_wire = [0; 0; 1; 2; 11; 12; 1; 1; 13; 1; 1; 14; 2; 0].
Proof. vm_compute. reflexivity. Qed.

(* complete delivery, 1-byte chunks, standard_compatible: hypotheses of tls_endpoint_transparent with D = 0 *)
Example ex_transparent_complete :
  (exists tl, wire 1 ex_items true = concat (one_byte_chunks ex_wire) ++ tl /\ length tl = 0) /\
  length (one_byte_chunks ex_wire) + 3 <= 20 /\
  let out := trun 20 (init_tobj 1, ep0 true (one_byte_chunks ex_wire)) (OHandshake :: ex_ops) in
  snd out = [RVal []; RVal []; RVal [10; 11]; RVal [12]; RVal []; RVal [13]; REndOfStream; REndOfStream] /\
  received (OHandshake :: ex_ops) (snd out) = concat ex_items /\
  sent_of (trace (snd (fst out))) = wire 1 [[7; 8; 9]; []] false.
Proof. split; [exists []; vm_compute; auto|]. vm_compute. repeat split. lia. Qed.

(* the same stream cut in the middle of the second record (D = 7 bytes missing), both settings of the flag *)
Example ex_transparent_truncated :
  (exists tl, wire 1 ex_items true = concat [firstn 7 ex_wire] ++ tl /\ length tl = 7) /\
  snd (trun 20 (init_tobj 1, ep0 true [firstn 7 ex_wire]) (OHandshake :: ex_ops))
    = [RVal []; RVal []; RVal [10; 11]; RBroken; RSslOther; RSslOther; RSslOther; RSslOther] /\
  snd (trun 20 (init_tobj 1, ep0 false [firstn 7 ex_wire]) (OHandshake :: ex_ops))
    = [RVal []; RVal []; RVal [10; 11]; REndOfStream; RVal []; REndOfStream; REndOfStream; REndOfStream].
Proof. split; [exists (skipn 7 ex_wire); vm_compute; auto|]. vm_compute. auto. Qed.

(* cut during the handshake *)
Example ex_truncated_handshake :
  snd (trun 20 (init_tobj 1, ep0 true [[0]]) [OHandshake; OReceive 5]) = [RBroken; RSslOther] /\
  snd (trun 20 (init_tobj 1, ep0 false [[0]]) [OHandshake; OReceive 5]) = [REndOfStream; RSslOther].
Proof. vm_compute. auto. Qed.

(* both directions at once: hypotheses of tls_pair_transparent *)
Definition ex_opsA : list op := [OSend [1; 2; 3]; OReceive 2; OReceive 2].
Definition ex_opsB : list op := [OReceive 1; OSend [7]; OReceive 5; OReceive 5].
Definition ex_chunksA : list (list byte) := [[0; 0; 1]; [1; 8]].
Definition ex_chunksB : list (list byte) := one_byte_chunks [0; 0; 1; 2; 2; 3; 1; 1; 4].

Example ex_pair :
  let outA := trun 20 (init_tobj 1, ep0 true ex_chunksA) (OHandshake :: ex_opsA) in
  let outB := trun 20 (init_tobj 1, ep0 true ex_chunksB) (OHandshake :: ex_opsB) in
  prefix (concat ex_chunksA) (sent_of (trace (snd (fst outB)))) /\
  prefix (concat ex_chunksB) (sent_of (trace (snd (fst outA)))) /\
  received (OHandshake :: ex_opsA) (snd outA) = [7] /\
  received (OHandshake :: ex_opsB) (snd outB) = [1; 2; 3].
Proof. cbn zeta. split; [exists []; vm_compute; reflexivity|]. split; [exists []; vm_compute; reflexivity|]. vm_compute. auto. Qed.

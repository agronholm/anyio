(* Proofs about the Portal machine: an inductive invariant for EVERY op sequence and the C15 clauses.
   reach f4 fc s  :=  s is the state after some op list from `init f4 fc fn`, for some fn;  the code under test is
   `init true true true` (the three repairs present); a switch that is `false` gives the tree before that repair.
   A step changes the record of at most one call (call_move); the per-call invariant is carried through the single
   updates a move is made of, and what a move leaves alone is the relation `keeps`. *)
From AV Require Import Base Portal.

Definition reach (f4 fc : bool) (s : st) : Prop := exists fn ops, s = final step (init f4 fc fn) ops.

Lemma reach_step f4 fc s o : reach f4 fc s -> reach f4 fc (fst (step s o)).
Proof. intros (fn & ops & ->). exists fn, (ops ++ [o]). rewrite final_app. reflexivity. Qed.

Definition landedp (p : cphase) : bool :=
  match p with PLanded | PRunning | PFinished | PReaped => true | _ => false end.
Definition memberp (p : cphase) : bool :=
  match p with PLanded | PRunning | PFinished => true | _ => false end.
Definition enteredp (p : cphase) : bool :=      (* func(args) has been invoked *)
  match p with PRunning | PFinished | PReaped => true | _ => false end.
Definition donep (p : cphase) : bool :=
  match p with PFinished | PReaped => true | _ => false end.

(* the cell agrees with the callable's final outcome; a result may only be missing because the caller
   itself cancelled the future *)
Definition cell_ok (o : outcome) (x : cell) (fcn : bool) : Prop :=
  match o with
  | ORet v => x = CResult v \/ (x = CCancelled /\ fcn = true)
  | ORaise e => x = CExc e \/ (x = CCancelled /\ fcn = true)
  | OCancelledOut => x = CCancelled
  end.

Record CInv (c : call) : Prop := {
  CI_execs : c_execs c = if enteredp (c_phase c) then 1 else 0;
  CI_valid : c_invalid c = false;
  CI_assigns : c_assigns c = if is_pending (c_fut c) then 0 else 1;
  CI_open : donep (c_phase c) = false ->
            c_outcome c = None /\ (c_fut c = CPending \/ (c_fut c = CCancelled /\ c_fcancel c = true));
  CI_closed : donep (c_phase c) = true -> exists o, c_outcome c = Some o /\ cell_ok o (c_fut c) (c_fcancel c);
  CI_kind : c_kind c <> KStart -> c_status c = CPending /\ c_started c = None;
  CI_started : forall v, c_status c = CResult v <-> c_started c = Some v;
  CI_status : c_kind c = KStart -> c_fut c <> CPending -> c_status c <> CPending;
  CI_early : landedp (c_phase c) = false ->
             c_fut c = CPending /\ c_status c = CPending /\ c_scope_cancelled c = false /\
             c_inflight c = false /\ c_fcancel c = false /\ c_started c = None;
  CI_scope : c_scope_cancelled c = true -> c_fut c = CCancelled /\ c_captured c = true;
  CI_inflight : c_inflight c = true -> c_fut c = CCancelled /\ c_fcancel c = true /\ c_captured c = true;
  CI_noscope : enteredp (c_phase c) = false -> c_scope_cancelled c = false /\ c_inflight c = false;
  CI_basefail : donep (c_phase c) = false -> c_base_fail c = false;
  CI_notified : c_notified c = true -> c_fut c = CCancelled /\ donep (c_phase c) = true;
  (* start_task: a status that was resolved without started() is exactly what task_done derives from the future *)
  CI_startfail : c_kind c = KStart -> c_started c = None -> c_status c <> CPending ->
                 c_fut c <> CPending /\
                 c_status c = match c_fut c with CExc e => CExc e | CCancelled => CCancelled | _ => CExc e_nostart end;
  (* while an awaitable call runs, a cancelled future means: its scope is cancelled, or the cancel is on its way *)
  CI_cancelreach : c_phase c = PRunning -> c_kind c <> KSync -> c_fut c = CCancelled -> c_captured c = true ->
                   c_scope_cancelled c = true \/ c_inflight c = true
}.

Lemma is_pending_true x : is_pending x = true <-> x = CPending.
Proof. destruct x; cbn; split; congruence. Qed.

Lemma is_cancelled_true x : is_cancelled x = true <-> x = CCancelled.
Proof. destruct x; cbn; split; congruence. Qed.

Lemma callback_registered_true c : callback_registered c = true <-> c_phase c = PRunning /\ c_kind c <> KSync.
Proof.
  unfold callback_registered. destruct (c_kind c), (c_phase c); split; try discriminate; try (intros [? ?]; congruence).
  all: split; [reflexivity|discriminate].
Qed.

Lemma handed_out_landed c : handed_out c = true -> landedp (c_phase c) = true.
Proof. unfold handed_out. destruct (c_phase c); cbn; congruence. Qed.

Lemma enteredp_landedp p : enteredp p = true -> landedp p = true.
Proof. destruct p; cbn; congruence. Qed.

Lemma cell_ok_mono o x fcn : cell_ok o x fcn -> cell_ok o x true.
Proof. destruct o; cbn; tauto. Qed.

Lemma with_phase_same c : with_phase c (c_phase c) = c.
Proof. destruct c; reflexivity. Qed.

Lemma status_on_done_cases c :
  status_on_done c = c /\ (c_kind c = KStart -> c_status c <> CPending) \/
  c_kind c = KStart /\ c_status c = CPending /\
  status_on_done c =
  with_status c (match c_fut c with CExc e => CExc e | CCancelled => CCancelled | _ => CExc e_nostart end).
Proof.
  unfold status_on_done. destruct (c_kind c); try (left; split; [reflexivity|discriminate]).
  destruct (c_status c); cbn; try (left; split; [reflexivity|discriminate]).
  right. destruct (c_fut c); auto.
Qed.

Lemma status_on_done_frame c :
  let c' := status_on_done c in
  c_kind c' = c_kind c /\ c_phase c' = c_phase c /\ c_fut c' = c_fut c /\ c_execs c' = c_execs c /\
  c_captured c' = c_captured c /\ c_scope_cancelled c' = c_scope_cancelled c /\ c_inflight c' = c_inflight c /\
  c_assigns c' = c_assigns c /\ c_fcancel c' = c_fcancel c /\ c_outcome c' = c_outcome c.
Proof. cbv zeta. destruct (status_on_done_cases c) as [[-> _] | (_ & _ & ->)]; cbn; auto 10. Qed.

Lemma apply_started_cases c sv c1 : apply_started c sv = Some c1 ->
  sv = None /\ c1 = c \/ exists v, sv = Some v /\ c_kind c = KStart /\ c_status c = CPending /\ c1 = with_started c v.
Proof.
  unfold apply_started. destruct sv as [v|]; [|intros [= <-]; auto].
  destruct (c_kind c); try discriminate. destruct (is_pending (c_status c)) eqn:E; [|discriminate].
  apply is_pending_true in E. intros [= <-]. right. exists v. auto.
Qed.

(* The two ways _call_func ends.  `if not future.cancelled(): future.set_result / set_exception`, x being the
   value of the outcome o ... *)
Definition finish_set (c : call) (x : cell) (o : outcome) : call :=
  with_done (if is_cancelled (c_fut c) then c else fut_set c x) o.

(* ... and `except CancelledError: future.cancel(); future.set_running_or_notify_cancel()`, M being what the
   done-callback `callback` does when this cancel() flips the future: nothing, or scope.cancel() given a thread id.
   finish_ret, finish_exc (up to with_base_fail) and finish_cancel_own are convertible to these. *)
Definition finish_except (M : call -> call) (c : call) : call :=
  with_done (match c_fut c with
             | CPending => let c1 := status_on_done (with_fut c CCancelled) in notify (M c1)
             | CCancelled => notify c
             | _ => with_invalid c
             end) OCancelledOut.

Definition mark_captured (c1 : call) : call := if c_captured c1 then with_scope_cancelled c1 else c1.
Definition mark_awaitable (c1 : call) : call := match c_kind c1 with KSync => c1 | _ => mark_captured c1 end.

Definition marks (M : call -> call) : Prop :=
  forall c1, M c1 = c1 \/ c_captured c1 = true /\ M c1 = with_scope_cancelled c1.

Lemma marks_captured : marks mark_captured.
Proof. intros c1. unfold mark_captured. destruct (c_captured c1); auto. Qed.

Lemma marks_awaitable : marks mark_awaitable.
Proof. intros c1. unfold mark_awaitable. destruct (c_kind c1); auto; apply marks_captured. Qed.

Lemma finish_cancelled_cases gc c :
  finish_cancelled gc c = finish_except mark_captured c \/
  c_scope_cancelled c = true /\
  finish_cancelled gc c = with_done (if is_cancelled (c_fut c) then c else with_invalid c) OCancelledOut.
Proof. unfold finish_cancelled. destruct (c_scope_cancelled c); [destruct gc|]; cbn; auto. Qed.

(* The first step is the entry followed by a segment of the body; a done-callback registered on a future that is
   cancelled already runs at once, in between. *)
Lemma first_step_body run gc c sv f c' : first_step run gc c sv f = Some c' ->
  exists c0, body_step gc c0 WNormal sv f = Some c' /\
    (c0 = with_entry c run /\ (c_kind c = KSync \/ is_cancelled (c_fut c) && run = false) \/
     c0 = with_scope_cancelled (with_entry c run) /\ c_fut c = CCancelled /\ run = true).
Proof.
  unfold first_step.
  change (is_cancelled (c_fut (with_entry c run)) && c_captured (with_entry c run)) with (is_cancelled (c_fut c) && run).
  destruct (c_kind c) eqn:Ek.
  { intros E. exists (with_entry c run). split; [|auto]. destruct sv; [discriminate|].
    destruct f; try discriminate; exact E. }
  all: destruct (is_cancelled (c_fut c) && run) eqn:Eg; intros E; eexists; (split; [exact E|auto]).
  all: apply andb_prop in Eg; destruct Eg as [Ef ->]; apply is_cancelled_true in Ef; auto.
Qed.

(* Future.cancel(), from a caller thread or (loop) in the event-loop thread: future_cancel = fcancel false,
   future_cancel_loop = fcancel true, by computation *)
Definition fcancel (loop : bool) (c : call) : call * res :=
  match c_fut c with
  | CPending =>
      let c1 := status_on_done (with_fcancel (with_fut c CCancelled)) in
      (if callback_registered c1 && c_captured c1
       then (if loop then with_scope_cancelled c1 else with_inflight c1 true) else c1, RCancelTrue)
  | CCancelled => (with_fcancel c, RCancelTrue)
  | _ => (c, RCancelFalse)
  end.

Lemma finalize_cases fx c :
  finalize fx c = c \/ finalize fx c = with_notified c /\ c_phase c = PFinished /\ c_fut c = CCancelled.
Proof.
  unfold finalize. destruct (c_phase c); auto. destruct fx; auto. destruct (is_cancelled (c_fut c)) eqn:E; auto.
  apply is_cancelled_true in E. destruct (c_notified c); auto.
Qed.

(* The kind, the entry count and the captured thread id stay; a marshalled cancel stays queued; a cell that holds
   a value keeps it, and with the status cell the value given to started().  The updates that touch none of these
   fields (with_done, with_notified, with_invalid, with_scope_cancelled, with_base_fail, with_fcancel) are
   invisible to `keeps` up to computation: `exact` moves a proof across them. *)
Definition keeps (c c' : call) : Prop :=
  c_kind c' = c_kind c /\ c_execs c' = c_execs c /\ c_captured c' = c_captured c /\
  (c_inflight c = true -> c_inflight c' = true) /\ (c_fut c <> CPending -> c_fut c' = c_fut c) /\
  (c_status c <> CPending -> c_status c' = c_status c /\ c_started c' = c_started c).

Lemma keeps_refl c : keeps c c.
Proof. unfold keeps. auto 10. Qed.

Lemma keeps_trans c1 c2 c3 : keeps c1 c2 -> keeps c2 c3 -> keeps c1 c3.
Proof.
  intros (A1 & A2 & A3 & A4 & A5 & A6) (B1 & B2 & B3 & B4 & B5 & B6).
  refine (conj _ (conj _ (conj _ (conj _ (conj _ _))))); try congruence; auto.
  - intros H. rewrite B5; rewrite A5; auto.
  - intros H. destruct (A6 H) as [E1 E2]. destruct B6 as [E3 E4]; [congruence|]. split; congruence.
Qed.

Lemma keeps_fut c x : c_fut c = CPending -> keeps c (with_fut c x).
Proof. intros H. unfold keeps. cbn. rewrite H. intuition congruence. Qed.

Lemma keeps_started c v : c_status c = CPending -> keeps c (with_started c v).
Proof. intros H. unfold keeps. cbn. rewrite H. intuition congruence. Qed.

Lemma keeps_status_on_done c : keeps c (status_on_done c).
Proof.
  destruct (status_on_done_cases c) as [[-> _] | (_ & Hs & ->)]; [apply keeps_refl|].
  unfold keeps. cbn. rewrite Hs. intuition congruence.
Qed.

Lemma keeps_notify c c' : keeps c c' -> keeps c (notify c').
Proof. intros K. unfold notify. destruct (c_notified c'); exact K. Qed.

Lemma keeps_finish_set c x o : keeps c (finish_set c x o).
Proof.
  unfold finish_set, fut_set. destruct (is_cancelled (c_fut c)); [exact (keeps_refl c)|].
  destruct (is_pending (c_fut c)) eqn:E; [|exact (keeps_refl c)].
  apply is_pending_true in E. exact (keeps_trans _ _ _ (keeps_fut c x E) (keeps_status_on_done _)).
Qed.

Lemma keeps_finish_except M c : marks M ->
  keeps c (finish_except M c) /\ c_base_fail (finish_except M c) = c_base_fail c.
Proof.
  intros HM. unfold finish_except. destruct (c_fut c) eqn:Ef; cbv zeta.
  - set (c1 := status_on_done (with_fut c CCancelled)).
    assert (K : keeps c c1 /\ c_base_fail c1 = c_base_fail c).
    { split; [exact (keeps_trans _ _ _ (keeps_fut c _ Ef) (keeps_status_on_done _))|].
      unfold c1. destruct (status_on_done_cases (with_fut c CCancelled)) as [[-> _] | (_ & _ & ->)]; reflexivity. }
    assert (K2 : keeps c (M c1) /\ c_base_fail (M c1) = c_base_fail c) by (destruct (HM c1) as [-> | [_ ->]]; exact K).
    destruct K2 as [K2 B2]. split; [exact (keeps_notify _ _ K2)|].
    unfold notify. destruct (c_notified (M c1)); exact B2.
  - split; [exact (keeps_refl c)|reflexivity].
  - split; [exact (keeps_refl c)|reflexivity].
  - split; [exact (keeps_notify _ _ (keeps_refl c))|]. unfold notify. destruct (c_notified c); reflexivity.
Qed.

Lemma finalize_frame fx c :
  keeps c (finalize fx c) /\ c_phase (finalize fx c) = c_phase c /\ c_fut (finalize fx c) = c_fut c /\
  c_outcome (finalize fx c) = c_outcome c /\ c_base_fail (finalize fx c) = c_base_fail c.
Proof. destruct (finalize_cases fx c) as [-> | [-> _]]; (split; [exact (keeps_refl c)|cbn; auto]). Qed.

(* what the oracle says the callable did in a segment, as it is recorded *)
Definition recorded (w : wake) (f : fin) (c' : call) : Prop :=
  match f with
  | FBlock => c_phase c' = PRunning
  | FReturn v => c_phase c' = PFinished /\ c_outcome c' = Some (ORet v)
  | FRaise e => c_phase c' = PFinished /\ c_outcome c' = Some (ORaise e)
  | FReraise => c_phase c' = PFinished /\ c_outcome c' = Some OCancelledOut /\ w = WInterrupt
  | FCancelOwn => c_phase c' = PFinished /\ c_outcome c' = Some OCancelledOut
  end.

Definition recorded_started (sv : option Z) (c' : call) : Prop :=
  forall v, sv = Some v -> c_started c' = Some v /\ c_status c' = CResult v /\ c_kind c' = KStart.

Lemma recorded_phase w f c : recorded w f c -> c_phase c = PRunning \/ c_phase c = PFinished.
Proof. destruct f; cbn; tauto. Qed.

Lemma fcancel_frame loop c : keeps c (fst (fcancel loop c)) /\ c_phase (fst (fcancel loop c)) = c_phase c.
Proof.
  unfold fcancel. destruct (c_fut c) eqn:Ef; cbn [fst]; try (split; [exact (keeps_refl c)|reflexivity]).
  cbv zeta. set (c1 := status_on_done _).
  assert (K : keeps c c1 /\ c_phase c1 = c_phase c).
  { split; [exact (keeps_trans c (with_fcancel (with_fut c CCancelled)) _ (keeps_fut c _ Ef) (keeps_status_on_done _))|].
    exact (proj1 (proj2 (status_on_done_frame _))). }
  destruct (callback_registered c1 && c_captured c1); [|exact K]. destruct loop; [exact K|].
  destruct K as [(K1 & K2 & K3 & K4 & K5 & K6) Kp]. split; [|exact Kp]. unfold keeps. cbn. auto 10.
Qed.

(* In each proof the clauses that do not read an updated field are those of the hypothesis (`apply H`). *)
Lemma cinv_fresh kd p : landedp p = false -> enteredp p = false -> donep p = false ->
  CInv (mkcall kd p CPending CPending 0 false false false false false None None false 0 false).
Proof.
  intros H1 H2 H3. constructor; cbn; rewrite ?H2, ?H3; try discriminate; auto 10.
  - split; discriminate.
  - intros _ _ E. now elim E.
Qed.

(* A change of phase keeps the invariant if the new phase is in the same classes as the old one; it may newly
   count as landed. *)
Lemma cinv_phase c p : CInv c ->
  enteredp p = enteredp (c_phase c) -> donep p = donep (c_phase c) ->
  (landedp p = false -> landedp (c_phase c) = false) -> (p = PRunning -> c_phase c = PRunning) ->
  CInv (with_phase c p).
Proof.
  intros H He Hd Hl Hr. constructor; cbn; rewrite ?He, ?Hd; try apply H.
  - intros E. apply H, Hl, E.
  - intros E. apply H, Hr, E.
Qed.

Lemma cinv_fcancel c : CInv c -> landedp (c_phase c) = true -> CInv (with_fcancel c).
Proof.
  intros H Hl. constructor; cbn; try apply H.
  - intros Hd. destruct (CI_open _ H Hd) as [Ho [Hf|[Hf _]]]; auto.
  - intros Hd. destruct (CI_closed _ H Hd) as (o & Ho & Hok). exists o. split; [exact Ho|]. eapply cell_ok_mono, Hok.
  - congruence.
  - intros Hi. destruct (CI_inflight _ H Hi) as (Hf & _ & Hc). auto.
Qed.

(* the two flags of the cancellation path: with_scope_cancelled c = with_flags c true (c_inflight c) *)
Definition with_flags (c : call) (sc inf : bool) : call :=
  mkcall (c_kind c) (c_phase c) (c_fut c) (c_status c) (c_execs c) (c_captured c) sc inf
         (c_base_fail c) (c_invalid c) (c_outcome c) (c_started c) (c_fcancel c) (c_assigns c) (c_notified c).

(* scope.cancel() for a call that has been entered: at once, or as the landing of a marshalled cancel (inf = false) *)
Lemma cinv_scope_cancelled c inf : CInv c -> enteredp (c_phase c) = true -> c_fut c = CCancelled ->
  c_captured c = true -> (inf = true -> c_inflight c = true) -> CInv (with_flags c true inf).
Proof.
  intros H He Hf Hc Hi. constructor; cbn; try apply H; auto.
  - intros E. apply enteredp_landedp in He. congruence.
  - intros E. apply H, Hi, E.
  - congruence.
Qed.

Lemma cinv_notified c : CInv c -> donep (c_phase c) = true -> c_fut c = CCancelled -> CInv (with_notified c).
Proof. intros H Hd Hf. constructor; cbn; try apply H. auto. Qed.

Lemma cinv_base_fail c b : CInv c -> donep (c_phase c) = true -> CInv (with_base_fail c b).
Proof. intros H Hd. constructor; cbn; try apply H. congruence. Qed.

(* The four clauses of CInv that read the status cell of a start_task call.  It is resolved by started(), or from
   the future when that gets its value (task_done). *)
Definition status_ok (kd : kind) (fu stt : cell) (sta : option Z) : Prop :=
  (kd <> KStart -> stt = CPending /\ sta = None) /\
  (forall v, stt = CResult v <-> sta = Some v) /\
  (kd = KStart -> fu <> CPending -> stt <> CPending) /\
  (kd = KStart -> sta = None -> stt <> CPending ->
   fu <> CPending /\ stt = match fu with CExc e => CExc e | CCancelled => CCancelled | _ => CExc e_nostart end).

Lemma cinv_status_ok c : CInv c -> status_ok (c_kind c) (c_fut c) (c_status c) (c_started c).
Proof. intros H. exact (conj (CI_kind _ H) (conj (CI_started _ H) (conj (CI_status _ H) (CI_startfail _ H)))). Qed.

Lemma status_on_done_fut c x : status_ok (c_kind c) CPending (c_status c) (c_started c) -> x <> CPending ->
  exists stt, status_on_done (with_fut c x) = with_status (with_fut c x) stt /\ status_ok (c_kind c) x stt (c_started c).
Proof.
  intros (K1 & K2 & K3 & K4) Hx. destruct (status_on_done_cases (with_fut c x)) as [[E Hn] | (Hk & Hs & E)]; cbn in *.
  - exists (c_status c). split; [exact E|]. refine (conj K1 (conj K2 (conj (fun Hk _ => Hn Hk) _))).
    intros Hk Hsta Hp. destruct (K4 Hk Hsta Hp) as [F _]. now elim F.
  - eexists. split; [exact E|]. rewrite Hs in K2.
    split; [intros F; now elim F|]. split; [|split; [intros _ _; destruct x; discriminate|]].
    + intros v. split; [destruct x; discriminate|]. intros F. apply K2 in F. discriminate.
    + intros _ _ _. split; [exact Hx|reflexivity].
Qed.

Lemma cinv_status_on_done c :
  CInv c -> landedp (c_phase c) = true -> c_fut c <> CPending -> CInv (status_on_done c).
Proof.
  intros H _ Hf. destruct (status_on_done_cases c) as [[-> _] | (Hk & Hs & _)]; [exact H|].
  now elim (CI_status _ H Hk Hf).
Qed.

Lemma running_not_notified c : CInv c -> donep (c_phase c) = false -> c_notified c = false.
Proof.
  intros H Hd. destruct (c_notified c) eqn:E; [|reflexivity].
  destruct (CI_notified _ H E) as [_ X]. congruence.
Qed.

(* the task ends with a future the caller has cancelled: the outcome is dropped *)
Lemma cinv_done_cancelled c o : CInv c -> c_phase c = PRunning -> c_fut c = CCancelled -> CInv (with_done c o).
Proof.
  intros H Hp Hf. pose proof (running_not_notified c H) as Hn. pose proof (CI_execs _ H) as He.
  destruct (CI_open _ H) as [_ [E|[_ Hfc]]]; rewrite Hp in *; [reflexivity|congruence|].
  constructor; cbn; try apply H; try discriminate.
  - exact He.
  - intros _. exists o. split; [reflexivity|]. rewrite Hf, Hfc. destruct o; cbn; auto.
  - intros E. rewrite Hn in E; [discriminate|reflexivity].
Qed.

(* the task ends and its outcome goes into the pending future *)
Lemma cinv_done_set c o x stt : CInv c -> c_phase c = PRunning -> c_fut c = CPending ->
  x <> CPending -> cell_ok o x (c_fcancel c) -> status_ok (c_kind c) x stt (c_started c) ->
  CInv (with_done (with_status (with_fut c x) stt) o).
Proof.
  intros H Hp Hf Hx Hok (K1 & K2 & K3 & K4). pose proof (running_not_notified c H) as Hn.
  pose proof (CI_execs _ H) as He. pose proof (CI_assigns _ H) as Ha. rewrite Hp in *. rewrite Hf in Ha.
  constructor; cbn; try apply H; try discriminate; try assumption.
  - rewrite Ha. destruct x; [now elim Hx|reflexivity..].
  - intros _. exists o. auto.
  - intros E. apply (CI_scope _ H) in E. destruct E. congruence.
  - intros E. apply (CI_inflight _ H) in E. destruct E. congruence.
  - intros E. rewrite Hn in E; [discriminate|reflexivity].
Qed.

Lemma cinv_started c v : CInv c -> c_phase c = PRunning -> c_kind c = KStart -> c_status c = CPending ->
  CInv (with_started c v).
Proof.
  intros H Hp Hk Hs. constructor; cbn; try apply H; try discriminate.
  - intros E. now elim E.
  - intros v'. split; congruence.
  - rewrite Hp. discriminate.
Qed.

(* func(args) is invoked.  `sc` says whether the done-callback registered right after runs at once because the
   future is cancelled already; for an awaitable it has to, or the cancellation would never reach the task. *)
Lemma cinv_entry c run sc : CInv c -> c_phase c = PLanded ->
  (sc = true -> c_fut c = CCancelled /\ run = true) ->
  (c_kind c <> KSync -> c_fut c = CCancelled -> run = true -> sc = true) ->
  CInv (with_phase (with_flags (with_entry c run) sc (c_inflight c)) PRunning).
Proof.
  intros H Hp Hsc Hreach.
  pose proof (CI_execs _ H) as He. pose proof (CI_open _ H) as Ho. pose proof (CI_basefail _ H) as Hb.
  pose proof (CI_notified _ H) as Hn. destruct (CI_noscope _ H) as [_ Hi]; rewrite Hp in *; [reflexivity|].
  constructor; cbn; try apply H; try discriminate; try assumption.
  - rewrite He. reflexivity.
  - rewrite Hi. discriminate.
  - auto.
Qed.

(* Future.cancel() finds the future pending.  The done-callbacks run: task_done, then `callback`, which has to
   cancel the scope (sc) or marshal that (inf) whenever an awaitable call is running with a thread id. *)
Lemma cinv_cancel_pending c stt sc inf : CInv c -> landedp (c_phase c) = true -> c_fcancel c = true ->
  c_fut c = CPending -> status_ok (c_kind c) CCancelled stt (c_started c) ->
  (sc = true \/ inf = true -> c_phase c = PRunning /\ c_captured c = true) ->
  (c_phase c = PRunning -> c_kind c <> KSync -> c_captured c = true -> sc = true \/ inf = true) ->
  CInv (with_flags (with_status (with_fut c CCancelled) stt) sc inf).
Proof.
  intros H Hl Hfc Hf (K1 & K2 & K3 & K4) Hset Hreach.
  pose proof (CI_assigns _ H) as Ha. rewrite Hf in Ha.
  assert (Hnd : donep (c_phase c) = false).
  { destruct (donep (c_phase c)) eqn:Ed; [|reflexivity]. destruct (CI_closed _ H Ed) as (o & _ & Hok).
    rewrite Hf in Hok. destruct o; cbn in Hok; intuition discriminate. }
  constructor; cbn; try apply H; try assumption.
  - rewrite Ha. reflexivity.
  - intros _. split; [apply H, Hnd|auto].
  - congruence.
  - congruence.
  - intros E. split; [reflexivity|apply Hset; auto].
  - intros E. split; [reflexivity|]. split; [exact Hfc|apply Hset; auto].
  - intros E. destruct sc; [destruct Hset as [Ep _]; [auto|]; rewrite Ep in E; discriminate|].
    destruct inf; [destruct Hset as [Ep _]; [auto|]; rewrite Ep in E; discriminate|]. auto.
  - intros E. destruct (CI_notified _ H E). congruence.
  - auto.
Qed.

(* a call "seen as running": the body of the awaitable is about to execute a segment *)
Definition RInv (c : call) : Prop := CInv (with_phase c PRunning).

Lemma rinv_open c : RInv c ->
  c_notified c = false /\ (c_fut c = CPending \/ c_fut c = CCancelled /\ c_fcancel c = true).
Proof.
  intros H. split; [exact (running_not_notified _ H eq_refl)|]. destruct (CI_open _ H eq_refl) as [_ Ho]. exact Ho.
Qed.

Lemma rinv_finish_set c o x : RInv c -> x <> CPending -> (forall fcn, cell_ok o x fcn) -> CInv (finish_set c x o).
Proof.
  intros H Hx Hok. unfold finish_set, fut_set.
  destruct (rinv_open c H) as [_ [Hf|[Hf _]]]; rewrite Hf; cbn [is_cancelled is_pending].
  - destruct (status_on_done_fut c x) as (stt & -> & Hs); [rewrite <- Hf; exact (cinv_status_ok _ H)|exact Hx|].
    apply (cinv_done_set (with_phase c PRunning)); auto.
  - exact (cinv_done_cancelled (with_phase c PRunning) o H eq_refl Hf).
Qed.

Lemma rinv_finish_except M c : marks M -> RInv c -> CInv (finish_except M c).
Proof.
  intros HM H. unfold finish_except, notify. destruct (rinv_open c H) as [Hn [Hf|[Hf _]]]; rewrite Hf; cbv zeta.
  - destruct (status_on_done_fut c CCancelled) as (stt & -> & Hs); [rewrite <- Hf; exact (cinv_status_ok _ H)|discriminate|].
    set (c1 := with_status (with_fut c CCancelled) stt).
    assert (H1 : CInv (with_done c1 OCancelledOut)).
    { apply (cinv_done_set (with_phase c PRunning)); auto; [discriminate|reflexivity]. }
    assert (H2 : CInv (with_done (M c1) OCancelledOut) /\ c_notified (M c1) = false /\ c_fut (M c1) = CCancelled).
    { destruct (HM c1) as [-> | [Hc ->]]; [auto|]. split; [|auto].
      apply (cinv_scope_cancelled (with_done c1 OCancelledOut)); auto. }
    destruct H2 as (H2 & -> & Hf2). apply (cinv_notified (with_done (M c1) OCancelledOut)); auto.
  - rewrite Hn. apply (cinv_notified (with_done c OCancelledOut)); [|reflexivity|exact Hf].
    exact (cinv_done_cancelled (with_phase c PRunning) _ H eq_refl Hf).
Qed.

Lemma cinv_finalize fx c : CInv c -> CInv (finalize fx c).
Proof.
  intros H. destruct (finalize_cases fx c) as [-> | (-> & Hp & Hf)]; [exact H|].
  apply cinv_notified; [exact H|rewrite Hp; reflexivity|exact Hf].
Qed.

Lemma finalize_notified c : c_phase c = PFinished -> c_fut c = CCancelled -> c_notified (finalize true c) = true.
Proof.
  intros Hp Hf. unfold finalize. rewrite Hp, Hf. cbn. destruct (c_notified c) eqn:E; cbn; [exact E|reflexivity].
Qed.

(* one segment of the body, with the `finally:` notification that follows it *)
Lemma body_step_frame fx gc c w sv f c' : body_step gc c w sv f = Some c' ->
  let c'' := finalize fx c' in
  keeps c c'' /\ recorded w f c'' /\ recorded_started sv c'' /\ (f = FCancelOwn -> c_base_fail c'' = c_base_fail c) /\
  (RInv c -> CInv c'').
Proof.
  unfold body_step. destruct (apply_started c sv) as [c1|] eqn:E; [|discriminate]. intros E'.
  destruct (finalize_frame fx c') as (Kf & Fp & _ & Fo & Fb). set (c'' := finalize fx c') in *.
  enough (K : keeps c1 c' /\ recorded w f c' /\ (f = FCancelOwn -> c_base_fail c' = c_base_fail c1) /\ (RInv c1 -> CInv c')).
  { destruct K as (K1 & K2 & K3 & K4). pose proof (keeps_trans _ _ _ K1 Kf) as K. rewrite Fb.
    unfold recorded. rewrite Fp, Fo.
    destruct (apply_started_cases _ _ _ E) as [[-> ->] | (v & -> & Hk & Hs & ->)].
    - refine (conj K (conj K2 (conj _ (conj K3 (fun H => cinv_finalize _ _ (K4 H)))))). discriminate.
    - refine (conj (keeps_trans _ _ _ (keeps_started c v Hs) K) (conj K2 (conj _ (conj K3 (fun H => cinv_finalize _ _ (K4 _)))))).
      + intros v' [= <-]. destruct K as (Kk & _ & _ & _ & _ & Ks).
        destruct Ks as [-> ->]; [discriminate|]. rewrite Kk. cbn. auto.
      + exact (cinv_started (with_phase c PRunning) v H eq_refl Hk Hs). }
  destruct f as [|v|e| |]; [| | |destruct w; [discriminate|]|]; injection E' as <-.
  - split; [exact (keeps_refl c1)|]. split; [reflexivity|]. split; [intros [=]|auto].
  - split; [exact (keeps_finish_set c1 (CResult v) (ORet v))|]. split; [split; reflexivity|]. split; [intros [=]|].
    intros H1. apply (rinv_finish_set c1 (ORet v) (CResult v)); [exact H1|discriminate|intros fcn; now left].
  - split; [exact (keeps_finish_set c1 (CExc e) (ORaise e))|]. split; [split; reflexivity|]. split; [intros [=]|].
    intros H1. apply (cinv_base_fail (finish_set c1 (CExc e) (ORaise e))); [|reflexivity].
    apply rinv_finish_set; [exact H1|discriminate|intros fcn; now left].
  - split; [|split; [repeat split|split; [intros [=]|intros H1]]];
      (destruct (finish_cancelled_cases gc c1) as [-> | [Hs ->]];
       [first [apply keeps_finish_except, marks_captured|exact (rinv_finish_except _ c1 marks_captured H1)]|]).
    + destruct (is_cancelled (c_fut c1)); exact (keeps_refl c1).
    + destruct (CI_scope _ H1 Hs) as [Hf _]. cbn in Hf. rewrite Hf.
      exact (cinv_done_cancelled (with_phase c1 PRunning) _ H1 eq_refl Hf).
  - destruct (keeps_finish_except mark_awaitable c1 marks_awaitable) as [K1 Bf].
    split; [exact K1|]. split; [split; reflexivity|]. split; [intros _; exact Bf|exact (rinv_finish_except _ c1 marks_awaitable)].
Qed.

Lemma cinv_future_cancel loop c : CInv c -> handed_out c = true -> CInv (fst (fcancel loop c)).
Proof.
  intros H Hh. apply handed_out_landed in Hh. pose proof (cinv_fcancel c H Hh) as H1.
  unfold fcancel. destruct (c_fut c) eqn:Ef; cbn [fst]; try exact H1; try exact H. cbv zeta.
  change (with_fcancel (with_fut c CCancelled)) with (with_fut (with_fcancel c) CCancelled).
  destruct (status_on_done_fut (with_fcancel c) CCancelled) as (stt & -> & Hs);
    [rewrite <- Ef; exact (cinv_status_ok _ H1)|discriminate|].
  set (c1 := with_status _ stt).
  assert (Hg : callback_registered c1 && c_captured c1 = true <->
               c_phase c = PRunning /\ c_kind c <> KSync /\ c_captured c = true).
  { rewrite andb_true_iff, callback_registered_true. cbn. tauto. }
  destruct (callback_registered c1 && c_captured c1).
  - destruct Hg as [(Ep & Ek & Ec) _]; [reflexivity|].
    destruct loop; [apply (cinv_cancel_pending (with_fcancel c) stt true (c_inflight c))
                   |apply (cinv_cancel_pending (with_fcancel c) stt (c_scope_cancelled c) true)]; auto.
  - apply (cinv_cancel_pending (with_fcancel c) stt (c_scope_cancelled c) (c_inflight c)); auto.
    + intros [E|E]; [destruct (CI_scope _ H E)|destruct (CI_inflight _ H E)]; congruence.
    + intros Ep Ek Ec. destruct Hg as [_ Hg]. discriminate Hg. auto.
Qed.

(* once the task has ended a Future.cancel() finds the future resolved *)
Lemma future_cancel_done loop c : CInv c -> donep (c_phase c) = true ->
  c_fut (fst (fcancel loop c)) = c_fut c /\ c_notified (fst (fcancel loop c)) = c_notified c.
Proof.
  intros H Hd. destruct (CI_closed _ H Hd) as (o & _ & Hok).
  unfold fcancel. destruct (c_fut c) eqn:Ef; cbn; auto. destruct o; cbn in Hok; intuition discriminate.
Qed.

Record Inv (s : st) : Prop := {
  I_call : forall k, CInv (calls s k);
  I_mem : forall k, In k (members s) <-> memberp (c_phase (calls s k)) = true;
  I_nd : NoDup (members s);
  I_left : f4_fixed s = true -> host s = HLeft -> members s = [];
  I_wake : host s = HExitWaiting -> members s = [] -> woken s = true;
  I_stop : stop_event s = negb (running s);
  I_host : host s <> HBody -> running s = false;
  I_cap : fc_fixed s = true -> forall k, enteredp (c_phase (calls s k)) = true -> c_captured (calls s k) = true;
  I_lost : forall k, c_phase (calls s k) = PLost -> In k (lost_calls s);
  I_loop : loop_ended s = true -> host s = HLeft;
  I_ntf : fn_fixed s = true -> forall k, donep (c_phase (calls s k)) = true -> c_fut (calls s k) = CCancelled ->
          c_notified (calls s k) = true
}.

Lemma inv_init f4 fc fn : Inv (init f4 fc fn).
Proof.
  constructor; cbn; try discriminate; try (intros _ k; discriminate); auto.
  - intros k. apply (cinv_fresh KSync PNone); reflexivity.
  - intros k. split; [tauto|discriminate].
  - constructor.
  - intros E. now elim E.
Qed.

(* which call an op is about *)
Definition op_target (o : op) : option cid :=
  match o with
  | ThreadIssue k _ | ThreadLand k | TaskStep k _ _ _ | TaskReap k | FutureCancel k | CancelLand k
  | FutureCancelLoop k => Some k
  | Stop _ | HostExit _ | ResumeHost | LoopEnd => None
  end.

(* The record a task segment works on: the call's own when it is running; on its first step, the record after
   the entry (first_step_body). *)
Inductive segment_start (s : st) (k : cid) : wake -> call -> Prop :=
| ss_running w : c_phase (calls s k) = PRunning -> segment_start s k w (calls s k)
| ss_first run c0 : c_phase (calls s k) = PLanded -> run = fc_fixed s || running s ->
    (c0 = with_entry (calls s k) run /\
     (c_kind (calls s k) = KSync \/ is_cancelled (c_fut (calls s k)) && run = false) \/
     c0 = with_scope_cancelled (with_entry (calls s k) run) /\ c_fut (calls s k) = CCancelled /\ run = true) ->
    segment_start s k WNormal c0.

Inductive call_move (s : st) (k : cid) : op -> call -> Prop :=
| cm_issue kd p : c_phase (calls s k) = PNone -> p = PIssued \/ p = PRefused ->
    call_move s k (ThreadIssue k kd) (mkcall kd p CPending CPending 0 false false false false false None None false 0 false)
| cm_land p : c_phase (calls s k) = PIssued -> p = PLanded \/ p = PLandRefused \/ p = PLost ->
    call_move s k (ThreadLand k) (with_phase (calls s k) p)
| cm_task w sv f c0 c' : segment_start s k w c0 -> body_step (group_cancelled s) c0 w sv f = Some c' ->
    call_move s k (TaskStep k w sv f) (finalize (fn_fixed s) c')
| cm_reap : c_phase (calls s k) = PFinished -> call_move s k (TaskReap k) (with_phase (calls s k) PReaped)
| cm_cancel (loop : bool) : handed_out (calls s k) = true ->
    call_move s k (if loop then FutureCancelLoop k else FutureCancel k) (fst (fcancel loop (calls s k)))
| cm_cancel_land : c_inflight (calls s k) = true ->
    call_move s k (CancelLand k) (with_scope_cancelled (with_inflight (calls s k) false)).

Lemma call_move_target s k o c' : call_move s k o c' -> op_target o = Some k.
Proof. intros M. destruct M; try reflexivity. destruct loop; reflexivity. Qed.

(* a TaskStep is rejected, or runs one segment *)
Lemma task_step_cases s k w sv f :
  step s (TaskStep k w sv f) = (s, RRejected) \/
  exists c0 c', segment_start s k w c0 /\ body_step (group_cancelled s) c0 w sv f = Some c' /\
                step s (TaskStep k w sv f) = (set_call s k (finalize (fn_fixed s) c'), RStepped).
Proof.
  cbn [step]. destruct (c_phase (calls s k)) eqn:Ep; auto.
  - destruct w; auto. destruct (first_step _ _ _ _ _) as [c'|] eqn:E; auto.
    destruct (first_step_body _ _ _ _ _ _ E) as (c0 & E0 & Hc0).
    right. exists c0, c'. split; [econstructor; eauto|auto].
  - destruct (match w with WNormal => true | WInterrupt => _ end); auto.
    destruct (body_step _ _ _ _ _) as [c'|] eqn:E; auto.
    right. exists (calls s k), c'. split; [constructor; assumption|auto].
Qed.

(* the ops that can change nothing but the record of their call *)
Definition local_op (o : op) : bool :=
  match o with ThreadIssue _ _ | TaskStep _ _ _ _ | FutureCancel _ | FutureCancelLoop _ => true | _ => false end.

Lemma step_local s o : local_op o = true ->
  fst (step s o) = s \/ exists k c', call_move s k o c' /\ fst (step s o) = set_call s k c'.
Proof.
  destruct o as [k kd|k|k w sv f|k|k|k|cr|exc| | |k]; try discriminate; intros _; [cbn [step]| |cbn [step]..].
  - destruct (c_phase (calls s k)) eqn:Ep; auto.
    destruct (running s); right; eexists k, _; (split; [constructor|reflexivity]); auto.
  - destruct (task_step_cases s k w sv f) as [E | (c0 & c' & S & E0 & E)]; rewrite E; auto.
    right. exists k, (finalize (fn_fixed s) c'). split; [exact (cm_task s k w sv f c0 c' S E0)|reflexivity].
  - destruct (handed_out (calls s k)) eqn:Eh; auto. change (future_cancel (calls s k)) with (fcancel false (calls s k)).
    right. exists k, (fst (fcancel false (calls s k))). split; [exact (cm_cancel s k false Eh)|].
    destruct (fcancel false (calls s k)); reflexivity.
  - destruct (handed_out (calls s k)) eqn:Eh; auto. destruct (loop_ended s); auto. cbn [andb negb].
    change (future_cancel_loop (calls s k)) with (fcancel true (calls s k)).
    right. exists k, (fst (fcancel true (calls s k))). split; [exact (cm_cancel s k true Eh)|].
    destruct (fcancel true (calls s k)); reflexivity.
Qed.

Lemma step_call s o k : calls (fst (step s o)) k = calls s k \/ call_move s k o (calls (fst (step s o)) k).
Proof.
  assert (U : forall k' c', call_move s k' o c' ->
                upd (calls s) k' c' k = calls s k \/ call_move s k o (upd (calls s) k' c' k)).
  { intros k' c' H. unfold upd. destruct (Nat.eqb_spec k k') as [->|]; auto. }
  destruct (local_op o) eqn:El.
  { destruct (step_local s o El) as [-> | (k' & c' & M & ->)]; [auto|exact (U k' c' M)]. }
  destruct o as [k' kd|k'|k' w sv f|k'|k'|k'|cr|exc| | |k']; try discriminate; cbn [step].
  - destruct (c_phase (calls s k')) eqn:Ep; auto.
    destruct (is_left (host s)); [destruct (loop_ended s)|]; apply U; constructor; auto.
  - destruct (c_phase (calls s k')) eqn:Ep; auto. apply U. constructor. exact Ep.
  - destruct (c_inflight (calls s k')) eqn:Ei; auto. destruct (loop_ended s); auto.
    apply U. constructor. exact Ei.
  - auto.
  - destruct (host s); auto.
  - destruct (host s); auto.
    + destruct (woken s); auto. destruct (is_nil (members s)); auto.
    + destruct (f4_fixed s && negb (is_nil (members s))); auto.
  - destruct (is_left (host s) && negb (loop_ended s)); auto.
Qed.

(* a task segment, seen from the record the call had before the step *)
Lemma task_move_frame s k w sv f c0 c' :
  segment_start s k w c0 -> body_step (group_cancelled s) c0 w sv f = Some c' ->
  let c := calls s k in let c'' := finalize (fn_fixed s) c' in
  (c_phase c = PRunning /\ keeps c c'' \/
   c_phase c = PLanded /\ w = WNormal /\ keeps (with_entry c (fc_fixed s || running s)) c'') /\
  recorded w f c'' /\ recorded_started sv c'' /\ (f = FCancelOwn -> c_base_fail c'' = c_base_fail c).
Proof.
  intros S E. destruct (body_step_frame (fn_fixed s) _ _ _ _ _ _ E) as (K & R & St & Bf & _).
  destruct S as [w Hp | run c0 Hp -> [[-> _] | (-> & _)]]; auto 10.
Qed.

(* what the global invariant asks of the record of a single call *)
Definition call_ok (s : st) (c : call) : Prop :=
  CInv c /\
  (fc_fixed s = true -> enteredp (c_phase c) = true -> c_captured c = true) /\
  (fn_fixed s = true -> donep (c_phase c) = true -> c_fut c = CCancelled -> c_notified c = true).

Lemma call_ok_all s (cs : cid -> call) : (forall j, call_ok s (cs j)) ->
  (forall j, CInv (cs j)) /\
  (fc_fixed s = true -> forall j, enteredp (c_phase (cs j)) = true -> c_captured (cs j) = true) /\
  (fn_fixed s = true -> forall j, donep (c_phase (cs j)) = true -> c_fut (cs j) = CCancelled -> c_notified (cs j) = true).
Proof. intros P. refine (conj _ (conj _ _)); [|intros Hf..]; intros j; apply (P j); exact Hf. Qed.

Lemma call_move_inv s k o c' : Inv s -> call_move s k o c' ->
  call_ok s c' /\ (local_op o = true -> memberp (c_phase c') = memberp (c_phase (calls s k)) /\ c_phase c' <> PLost).
Proof.
  intros I M. pose proof (I_call s I k) as H. unfold call_ok.
  destruct M as [kd p Hp Hc|p Hp Hc|w sv f c0 c' S E|Hp|loop Hh|Hi].
  - rewrite Hp. split; [split; [apply cinv_fresh; destruct Hc as [-> | ->]; reflexivity|]|];
      destruct Hc as [-> | ->]; cbn; repeat split; intros; discriminate.
  - split; [split|discriminate]; [|destruct Hc as [-> | [-> | ->]]; cbn; split; intros; discriminate].
    apply cinv_phase; [exact H|rewrite Hp..]; destruct Hc as [-> | [-> | ->]]; try reflexivity; discriminate.
  - assert (R0 : RInv c0).
    { destruct S as [w Hp | run c0 Hp -> Hc0]; [unfold RInv; rewrite <- Hp, with_phase_same; exact H|].
      destruct (CI_noscope _ H) as [Hs _]; [rewrite Hp; reflexivity|]. set (run := fc_fixed s || running s) in *.
      destruct Hc0 as [[-> Hk] | (-> & Hf & Hr)].
      - apply (cinv_entry _ run (c_scope_cancelled (calls s k))); [exact H|exact Hp|congruence|].
        intros Hk' Hf Hr. rewrite Hf, Hr in Hk. destruct Hk; [contradiction|discriminate].
      - rewrite Hr. apply (cinv_entry (calls s k) true true); auto. }
    destruct (task_move_frame _ _ _ _ _ _ _ S E) as (K & R & _). apply recorded_phase in R.
    destruct (finalize_frame (fn_fixed s) c') as (_ & Fp & Ff & _).
    split; [split; [apply (body_step_frame _ _ _ _ _ _ _ E), R0|split]|].
    + intros Hf _. destruct K as [[Hp (_ & _ & -> & _)] | (_ & _ & _ & _ & -> & _)]; [|cbn; rewrite Hf; reflexivity].
      apply (I_cap s I Hf). rewrite Hp. reflexivity.
    + intros Hf Hd Hcn. rewrite Ff in Hcn. rewrite Hf. apply finalize_notified; [|exact Hcn].
      rewrite <- Fp. destruct R as [Ep|Ep]; [rewrite Ep in Hd; discriminate|exact Ep].
    + intros _. assert (Hm : memberp (c_phase (calls s k)) = true) by (destruct K as [[-> _] | (-> & _)]; reflexivity).
      rewrite Hm. destruct R as [-> | ->]; split; (reflexivity || discriminate).
  - split; [split|discriminate]; [apply cinv_phase; [exact H|rewrite Hp..]; try reflexivity; discriminate|]. cbn.
    split; intros Hf _; [apply (I_cap s I Hf)|apply (I_ntf s I Hf)]; rewrite Hp; reflexivity.
  - destruct (fcancel_frame loop (calls s k)) as [(_ & _ & Kc & _) Kp]. rewrite Kp, Kc.
    split; [split; [apply cinv_future_cancel; assumption|split; intros Hf; [apply (I_cap s I Hf)|]]|].
    + intros Hd. destruct (future_cancel_done loop _ H Hd) as [-> ->]. apply (I_ntf s I Hf k Hd).
    + intros _. split; [reflexivity|]. intros E. apply handed_out_landed in Hh. rewrite E in Hh. discriminate.
  - destruct (CI_inflight _ H Hi) as (Hf & _ & Hc).
    split; [split|discriminate]; [|cbn; split; intros Hfx; [apply (I_cap s I Hfx)|apply (I_ntf s I Hfx)]].
    apply (cinv_scope_cancelled (calls s k) false); auto; try discriminate.
    destruct (enteredp (c_phase (calls s k))) eqn:E; [reflexivity|]. destruct (CI_noscope _ H E). congruence.
Qed.

Lemma in_remove_cid k x l : In x (remove_cid k l) <-> In x l /\ x <> k.
Proof. apply in_filter_neq. Qed.

Lemma is_nil_true {A} (l : list A) : is_nil l = true <-> l = [].
Proof. destruct l; cbn; split; congruence. Qed.

Lemma is_left_true h : is_left h = true <-> h = HLeft.
Proof. destruct h; cbn; split; congruence. Qed.

(* the host is resumed inside __aexit__: it leaves, or goes on waiting for the members *)
Lemma inv_resume s h : Inv s -> host s <> HBody -> host s <> HLeft -> h <> HBody ->
  (f4_fixed s = true -> h = HLeft -> members s = []) -> (h = HExitWaiting -> members s <> []) ->
  Inv (mk (f4_fixed s) (fc_fixed s) (fn_fixed s) (loop_ended s) (lost_calls s) (lost_cancels s) (running s)
          (stop_event s) h false (members s) (group_cancelled s) (calls s)).
Proof.
  intros I Hb Hl Hh H1 H2. constructor; cbn; try apply I; try assumption.
  - intros E1 E2. now elim (H2 E1).
  - intros _. apply (I_host s I Hb).
  - intros E. now elim (Hl (I_loop s I E)).
Qed.

Lemma step_inv s o : Inv s -> Inv (fst (step s o)).
Proof.
  intros I.
  assert (P : forall j, call_ok s (calls (fst (step s o)) j)).
  { intros j. destruct (step_call s o j) as [-> | M]; [|apply (call_move_inv _ _ _ _ I M)].
    split; [apply (I_call s I)|]. split; intros Hf; [apply (I_cap s I Hf)|apply (I_ntf s I Hf)]. }
  apply call_ok_all in P.
  destruct (local_op o) eqn:El.
  { destruct (step_local s o El) as [-> | (k & c' & M & E)]; [exact I|]. rewrite E in *. destruct P as (P1 & P2 & P3).
    destruct (call_move_inv _ _ _ _ I M) as (_ & Hph). destruct (Hph El) as [Hm Hnl].
    constructor; cbn; try apply I; try assumption.
    - intros j. unfold upd. destruct (Nat.eqb_spec j k) as [->|Hne]; [rewrite Hm|]; apply (I_mem s I).
    - intros j. unfold upd. destruct (Nat.eqb_spec j k) as [->|Hne]; [intros E'; contradiction|apply (I_lost s I)]. }
  revert P. destruct o as [k kd|k|k w sv f|k|k|k|cr|exc| | |k]; try discriminate; cbn [step].
  - (* ThreadLand *)
    destruct (c_phase (calls s k)) eqn:Ep; try (intros _; exact I).
    assert (Hnin : ~ In k (members s)).
    { intros Hin. apply (I_mem s I) in Hin. rewrite Ep in Hin. discriminate. }
    destruct (is_left (host s)) eqn:El'; [destruct (loop_ended s) eqn:Ee|]; cbn [fst]; intros (P1 & P2 & P3);
      constructor; cbn; try apply I; try assumption.
    + intros j. unfold upd. destruct (Nat.eqb_spec j k) as [->|Hne]; cbn; [|apply (I_mem s I)].
      split; [intros H; contradiction|discriminate].
    + intros j. unfold upd. rewrite in_app_iff. destruct (Nat.eqb_spec j k) as [->|Hne]; cbn; [auto|].
      intros E. left. apply (I_lost s I), E.
    + intros _. apply (I_loop s I Ee).
    + intros j. unfold upd. destruct (Nat.eqb_spec j k) as [->|Hne]; cbn; [|apply (I_mem s I)].
      split; [intros H; contradiction|discriminate].
    + intros j. unfold upd. destruct (Nat.eqb_spec j k) as [->|Hne]; [cbn; discriminate|apply (I_lost s I)].
    + intros j. unfold upd. rewrite in_app_iff. destruct (Nat.eqb_spec j k) as [->|Hne]; cbn.
      * split; auto.
      * rewrite (I_mem s I j). split; [intros [H|[H|[]]]; [exact H|congruence]|auto].
    + apply (NoDup_Add (Add_app k (members s) [])). rewrite app_nil_r. split; [apply (I_nd s I)|exact Hnin].
    + intros _ E. apply is_left_true in E. congruence.
    + intros _ E. destruct (members s); discriminate.
    + intros j. unfold upd. destruct (Nat.eqb_spec j k) as [->|Hne]; [cbn; discriminate|apply (I_lost s I)].
  - (* TaskReap *)
    destruct (c_phase (calls s k)) eqn:Ep; try (intros _; exact I). cbn [fst]. intros (P1 & P2 & P3).
    constructor; cbn; try apply I; try assumption.
    + intros j. rewrite in_remove_cid. unfold upd. destruct (Nat.eqb_spec j k) as [->|Hne]; cbn.
      * split; [tauto|discriminate].
      * rewrite (I_mem s I j). tauto.
    + unfold remove_cid. apply NoDup_filter, (I_nd s I).
    + intros Hf Hh. rewrite (I_left s I Hf Hh). reflexivity.
    + intros Hh Hm. rewrite Hh. apply is_nil_true in Hm. rewrite Hm. reflexivity.
    + intros j. unfold upd. destruct (Nat.eqb_spec j k) as [->|Hne]; [cbn; discriminate|apply (I_lost s I)].
  - (* CancelLand *)
    destruct (c_inflight (calls s k)) eqn:Ei; [|intros _; exact I].
    destruct (loop_ended s) eqn:Ee; cbn [fst]; intros (P1 & P2 & P3);
      constructor; cbn; try apply I; try assumption.
    + intros _. apply (I_loop s I Ee).
    + intros j. unfold upd. destruct (Nat.eqb_spec j k) as [->|Hne]; apply (I_mem s I).
    + intros j. unfold upd. destruct (Nat.eqb_spec j k) as [->|Hne]; [cbn|]; apply (I_lost s I).
  - (* Stop *)
    intros _. cbn [fst]. constructor; cbn; try apply I; auto.
  - (* HostExit *)
    intros _. destruct (host s) eqn:Eh; try exact I. cbn [fst]. constructor; cbn; try apply I; auto.
    + destruct (is_nil (members s)); discriminate.
    + destruct (is_nil (members s)) eqn:En; [discriminate|]. intros _ Hm. apply is_nil_true in Hm. congruence.
    + intros Hl. apply (I_loop s I) in Hl. congruence.
  - (* ResumeHost *)
    intros _. destruct (host s) eqn:Eh; try exact I;
      [destruct (woken s); [|exact I]; destruct (is_nil (members s)) eqn:En
      |destruct (f4_fixed s && negb (is_nil (members s))) eqn:Ef];
      cbn [fst]; apply inv_resume; try exact I; try congruence; try discriminate.
    + intros _ _. apply is_nil_true, En.
    + intros _ Hm. apply is_nil_true in Hm. congruence.
    + intros _ Hm. apply andb_prop in Ef. destruct Ef as [_ Ef]. rewrite Hm in Ef. discriminate.
    + intros Hf _. rewrite Hf in Ef. apply is_nil_true. destruct (is_nil (members s)); [reflexivity|discriminate].
  - (* LoopEnd *)
    intros _. destruct (is_left (host s)) eqn:El'; cbn; [|exact I]. destruct (loop_ended s) eqn:Ee; cbn; [exact I|].
    apply is_left_true in El'. constructor; cbn; try apply I; auto.
Qed.

Theorem reachable_inv f4 fc fn ops : Inv (final step (init f4 fc fn) ops).
Proof. apply final_inv; [apply step_inv|apply inv_init]. Qed.

Lemma reach_inv f4 fc s : reach f4 fc s -> Inv s.
Proof. intros (fn & ops & ->). apply reachable_inv. Qed.

(* what no op does to the global fields *)
Lemma step_globals s o :
  let s' := fst (step s o) in
  f4_fixed s' = f4_fixed s /\ fc_fixed s' = fc_fixed s /\ fn_fixed s' = fn_fixed s /\
  (running s = false -> running s' = false) /\ (host s = HLeft -> host s' = HLeft) /\
  (loop_ended s' = true -> loop_ended s = true \/ o = LoopEnd) /\
  (loop_ended s = false \/ (forall k, o <> ThreadLand k) /\ (forall k, o <> CancelLand k) ->
   lost_calls s' = lost_calls s /\ lost_cancels s' = lost_cancels s).
Proof.
  cbv zeta. destruct (local_op o) eqn:El.
  { destruct (step_local s o El) as [-> | (k & c' & _ & ->)]; cbn; auto 10. }
  destruct o as [k kd|k|k w sv f|k|k|k|cr|exc| | |k]; try discriminate; cbn [step];
    repeat match goal with |- context [match ?x with _ => _ end] => destruct x eqn:? end; cbn;
    repeat split; auto; try congruence.
  - destruct H as [H|[H _]]; [discriminate H|now elim (H k)].
  - destruct H as [H|[_ H]]; [discriminate H|now elim (H k)].
Qed.

Lemma final_flags ops : forall s0,
  f4_fixed (final step s0 ops) = f4_fixed s0 /\ fc_fixed (final step s0 ops) = fc_fixed s0 /\
  fn_fixed (final step s0 ops) = fn_fixed s0.
Proof.
  unfold final. induction ops as [|o r IH]; intros s0; cbn; [auto|].
  destruct (IH (fst (step s0 o))) as (-> & -> & ->). destruct (step_globals s0 o) as (H1 & H2 & H3 & _). auto.
Qed.

Lemma reach_flags f4 fc s : reach f4 fc s -> f4_fixed s = f4 /\ fc_fixed s = fc.
Proof. intros (fn & ops & ->). destruct (final_flags ops (init f4 fc fn)) as (H1 & H2 & _). auto. Qed.

(* what a move of call k leaves alone, and which moves are possible in which phase *)
Lemma call_move_frame s k o c' : Inv s -> call_move s k o c' ->
  let c := calls s k in
  (c_fut c <> CPending -> c_fut c' = c_fut c) /\ (c_status c <> CPending -> c_status c' = c_status c) /\
  (c_inflight c = true -> o <> CancelLand k -> c_inflight c' = true) /\
  (c_execs c' = c_execs c \/
   c_phase c = PLanded /\ (exists sv f, o = TaskStep k WNormal sv f) /\ c_execs c' = S (c_execs c)) /\
  (c_phase c = PNone \/ c_phase c = PIssued \/ landedp (c_phase c) = true).
Proof.
  intros I M. pose proof (I_call s I k) as H. cbv zeta.
  destruct M as [kd p Hp Hc|p Hp Hc|w sv f c0 c' S E|Hp|loop Hh|Hi]; cbn.
  - destruct (CI_early _ H) as (E1 & E2 & _ & E4 & _); [rewrite Hp; reflexivity|].
    pose proof (CI_execs _ H) as He. rewrite Hp in He. repeat split; auto; congruence.
  - rewrite Hp. auto 10.
  - destruct (task_move_frame _ _ _ _ _ _ _ S E) as ([[Hp K] | (Hp & -> & K)] & _); rewrite Hp;
      destruct K as (_ & K2 & _ & K4 & K5 & K6); (repeat split; [exact K5|apply K6|auto|cbn in K2; eauto 6|auto]).
  - rewrite Hp. auto 10.
  - destruct (fcancel_frame loop (calls s k)) as [(_ & K2 & _ & K4 & K5 & K6) _]. apply handed_out_landed in Hh.
    repeat split; [exact K5|apply K6|auto|auto|auto].
  - repeat split; auto; try congruence.
    right. right. destruct (landedp (c_phase (calls s k))) eqn:E; [reflexivity|].
    destruct (CI_early _ H E) as (_ & _ & _ & X & _). congruence.
Qed.

Lemma exit_joins_lemma s : Inv s -> f4_fixed s = true -> host s = HLeft ->
  members s = [] /\ forall k, landedp (c_phase (calls s k)) = true -> c_phase (calls s k) = PReaped.
Proof.
  intros I Hf Hh. pose proof (I_left s I Hf Hh) as Hm. split; [exact Hm|].
  intros k Hl. pose proof (I_mem s I k) as Hk. rewrite Hm in Hk.
  destruct (c_phase (calls s k)); cbn in *; try discriminate; try reflexivity;
    exfalso; apply Hk; reflexivity.
Qed.

Theorem portal_call_once f4 fc s k : reach f4 fc s ->
  c_execs (calls s k) <= 1 /\
  (c_execs (calls s k) = 1 <-> enteredp (c_phase (calls s k)) = true) /\
  (f4 = true -> host s = HLeft -> landedp (c_phase (calls s k)) = true -> c_execs (calls s k) = 1).
Proof.
  intros R. pose proof (reach_inv _ _ _ R) as I. destruct (reach_flags _ _ _ R) as [Hf4 _].
  pose proof (CI_execs _ (I_call s I k)) as He.
  refine (conj _ (conj _ _)).
  - rewrite He. destruct (enteredp _); lia.
  - rewrite He. destruct (enteredp _); split; congruence.
  - intros -> Hh Hl. destruct (exit_joins_lemma s I Hf4 Hh) as [_ Hall]. rewrite He, (Hall k Hl). reflexivity.
Qed.

(* the callable is invoked only by the first step of the call's own task *)
Theorem portal_exec_only_in_first_step f4 fc s o k : reach f4 fc s ->
  c_execs (calls (fst (step s o)) k) <> c_execs (calls s k) ->
  c_phase (calls s k) = PLanded /\ (exists sv f, o = TaskStep k WNormal sv f) /\
  c_execs (calls (fst (step s o)) k) = S (c_execs (calls s k)).
Proof.
  intros R Hne. pose proof (reach_inv _ _ _ R) as I. destruct (step_call s o k) as [E | M]; [now rewrite E in Hne|].
  destruct (call_move_frame _ _ _ _ I M) as (_ & _ & _ & [E | E] & _); [contradiction|exact E].
Qed.

Lemma cell_ok_inv o x fcn : cell_ok o x fcn ->
  x <> CPending /\ (forall v, x = CResult v -> o = ORet v) /\ (forall e, x = CExc e -> o = ORaise e) /\
  (x = CCancelled -> fcn = true \/ o = OCancelledOut) /\
  (fcn = false -> x = match o with ORet v => CResult v | ORaise e => CExc e | OCancelledOut => CCancelled end).
Proof. destruct o; cbn; intuition congruence. Qed.

Theorem portal_future_single_assignment f4 fc s k : reach f4 fc s ->
  let c := calls s k in
  c_assigns c <= 1 /\ c_invalid c = false /\
  (forall v, c_fut c = CResult v -> c_outcome c = Some (ORet v)) /\
  (forall e, c_fut c = CExc e -> c_outcome c = Some (ORaise e)) /\
  (c_fut c = CCancelled -> c_fcancel c = true \/ c_outcome c = Some OCancelledOut) /\
  (forall v, c_outcome c = Some (ORet v) -> c_fcancel c = false -> c_fut c = CResult v) /\
  (forall e, c_outcome c = Some (ORaise e) -> c_fcancel c = false -> c_fut c = CExc e) /\
  (c_outcome c = Some OCancelledOut -> c_fut c = CCancelled) /\
  (forall v, c_status c = CResult v <-> c_started c = Some v) /\
  (donep (c_phase c) = true -> c_fut c <> CPending /\ (c_kind c = KStart -> c_status c <> CPending)).
Proof.
  intros R c. pose proof (reach_inv _ _ _ R) as I. pose proof (I_call s I k) as H. fold c in H.
  assert (Ha : c_assigns c <= 1) by (rewrite (CI_assigns _ H); destruct (is_pending _); lia).
  refine (conj Ha (conj (CI_valid _ H) _)). destruct (donep (c_phase c)) eqn:Ed.
  - destruct (CI_closed _ H Ed) as (o & Ho & Hok). destruct (cell_ok_inv _ _ _ Hok) as (A0 & A1 & A2 & A3 & A4).
    rewrite Ho. refine (conj _ (conj _ (conj _ (conj _ (conj _ (conj _ (conj (CI_started _ H) _))))))).
    + intros v Hv. rewrite (A1 v Hv). reflexivity.
    + intros e He. rewrite (A2 e He). reflexivity.
    + intros Hc. destruct (A3 Hc) as [X | ->]; auto.
    + intros v [= ->]. exact A4.
    + intros e [= ->]. exact A4.
    + intros [= ->]. exact Hok.
    + intros _. split; [exact A0|]. intros Hk. exact (CI_status _ H Hk A0).
  - destruct (CI_open _ H Ed) as [-> Hf].
    refine (conj _ (conj _ (conj _ (conj _ (conj _ (conj _ (conj (CI_started _ H) _))))))); try discriminate.
    + intros v Hv. destruct Hf as [Hf|[Hf _]]; congruence.
    + intros e He. destruct Hf as [Hf|[Hf _]]; congruence.
    + intros Hc. destruct Hf as [Hf|[_ Hf]]; [congruence|auto].
Qed.

(* what the op says the callable did is what is recorded as its outcome / started value *)
Theorem portal_outcome_recorded s k w sv f s' : step s (TaskStep k w sv f) = (s', RStepped) ->
  let c' := calls s' k in
  match f with
  | FBlock => c_phase c' = PRunning
  | FReturn v => c_phase c' = PFinished /\ c_outcome c' = Some (ORet v)
  | FRaise e => c_phase c' = PFinished /\ c_outcome c' = Some (ORaise e)
  | FReraise => c_phase c' = PFinished /\ c_outcome c' = Some OCancelledOut /\ w = WInterrupt
  | FCancelOwn => c_phase c' = PFinished /\ c_outcome c' = Some OCancelledOut
  end /\
  (forall v, sv = Some v -> c_started c' = Some v /\ c_status c' = CResult v /\ c_kind c' = KStart).
Proof.
  destruct (task_step_cases s k w sv f) as [-> | (c0 & c' & S & E0 & ->)]; [discriminate|]. intros [= <-].
  cbn. rewrite upd_same. destruct (task_move_frame _ _ _ _ _ _ _ S E0) as (_ & Hr & Hs & _). exact (conj Hr Hs).
Qed.

(* once a cell holds a value it never changes again (single assignment, as a statement about steps) *)
Theorem portal_cell_stable f4 fc s o k : reach f4 fc s ->
  (c_fut (calls s k) <> CPending -> c_fut (calls (fst (step s o)) k) = c_fut (calls s k)) /\
  (c_status (calls s k) <> CPending -> c_status (calls (fst (step s o)) k) = c_status (calls s k)).
Proof.
  intros R. pose proof (reach_inv _ _ _ R) as I. destruct (step_call s o k) as [-> | M]; [auto|].
  destruct (call_move_frame _ _ _ _ I M) as (A & B & _). auto.
Qed.

(* a local op is about one call, and nothing else changes *)
Lemma step_local_frame s o k : local_op o = true -> op_target o = Some k ->
  let s' := fst (step s o) in
  (forall j, j <> k -> calls s' j = calls s j) /\ group_cancelled s' = group_cancelled s /\
  running s' = running s /\ stop_event s' = stop_event s /\ members s' = members s /\ host s' = host s /\
  woken s' = woken s.
Proof.
  intros Hl Ht. cbv zeta. destruct (step_local s o Hl) as [-> | (k' & c' & M & ->)]; [auto 10|].
  apply call_move_target in M. split; [|cbn; auto 10]. intros j Hj. cbn. apply upd_other. congruence.
Qed.

(* (1) frame: cancelling the future of call k, and the landing of the scope.cancel it marshals, change nothing
       but the record of call k: no other call, not the group scope, not the membership, not the host *)
Theorem portal_future_cancel_frame s k o : o = FutureCancel k \/ o = CancelLand k \/ o = FutureCancelLoop k ->
  let s' := fst (step s o) in
  (forall j, j <> k -> calls s' j = calls s j) /\ group_cancelled s' = group_cancelled s /\
  members s' = members s /\ host s' = host s /\ woken s' = woken s /\ running s' = running s.
Proof.
  intros [-> | [-> | ->]].
  - destruct (step_local_frame s (FutureCancel k) k eq_refl eq_refl) as (F1 & F2 & F3 & _ & F5 & F6 & F7). auto 10.
  - cbn [step]. destruct (c_inflight (calls s k)); cbn; [|auto 10]. destruct (loop_ended s); cbn; [auto 10|].
    refine (conj _ (conj eq_refl (conj eq_refl (conj eq_refl (conj eq_refl eq_refl))))).
    intros j Hj. now rewrite upd_other.
  - destruct (step_local_frame s (FutureCancelLoop k) k eq_refl eq_refl) as (F1 & F2 & F3 & _ & F5 & F6 & F7). auto 10.
Qed.

(* (2) a call's own scope is cancelled only because that call's own future is cancelled;
   (3) an interruption of call k is deliverable only if its own scope or the whole group is cancelled *)
Theorem portal_future_cancel_cancels_that_task_only f4 fc s : reach f4 fc s ->
  (forall k o, o = FutureCancel k \/ o = CancelLand k \/ o = FutureCancelLoop k ->
     (forall j, j <> k -> calls (fst (step s o)) j = calls s j) /\
     group_cancelled (fst (step s o)) = group_cancelled s) /\
  (forall k, c_scope_cancelled (calls s k) = true -> c_fut (calls s k) = CCancelled) /\
  (forall k sv f, snd (step s (TaskStep k WInterrupt sv f)) <> RRejected ->
     c_phase (calls s k) = PRunning /\ (c_scope_cancelled (calls s k) = true \/ group_cancelled s = true)).
Proof.
  intros R. pose proof (reach_inv _ _ _ R) as I. refine (conj _ (conj _ _)).
  - intros k o Ho. destruct (portal_future_cancel_frame s k o Ho) as (H1 & H2 & _). auto.
  - intros k Hs. apply (CI_scope _ (I_call s I k) Hs).
  - intros k sv f. cbn [step]. destruct (c_phase (calls s k)); cbn; try congruence.
    destruct (c_scope_cancelled (calls s k)) eqn:E1; cbn; [auto|].
    destruct (group_cancelled s) eqn:E2; cbn; [auto|congruence].
Qed.

(* with repair 2158065 the wrapper of a running call has its thread id *)
Lemma running_captured f4 s k : reach f4 true s -> c_phase (calls s k) = PRunning -> c_captured (calls s k) = true.
Proof.
  intros R Hp. destruct (reach_flags _ _ _ R) as [_ Hfc]. apply (I_cap s (reach_inv _ _ _ R) Hfc). rewrite Hp. reflexivity.
Qed.

(* Future.cancel() on the pending future of a running awaitable call whose wrapper has a thread id *)
Lemma fcancel_running loop c :
  c_phase c = PRunning -> c_kind c <> KSync -> c_fut c = CPending -> c_captured c = true ->
  let c' := fst (fcancel loop c) in
  snd (fcancel loop c) = RCancelTrue /\ c_fut c' = CCancelled /\ c_phase c' = PRunning /\
  if loop then c_scope_cancelled c' = true /\ c_inflight c' = c_inflight c else c_inflight c' = true.
Proof.
  intros Hp Hk Hf Hc. unfold fcancel. rewrite Hf. cbv zeta. cbn [fst snd].
  set (X := with_fcancel (with_fut c CCancelled)).
  destruct (status_on_done_frame X) as (F1 & F2 & F3 & _ & F5 & _ & F7 & _).
  assert (Er : callback_registered (status_on_done X) = true) by (apply callback_registered_true; rewrite F1, F2; auto).
  rewrite Er, F5. cbn [X c_captured with_fcancel with_fut]. rewrite Hc. cbn [andb].
  destruct loop; cbn; rewrite ?F2, ?F3, ?F7; auto.
Qed.

(* effect, with repair 2158065 (fc_fixed): cancelling the pending future of a running awaitable call flips
   the cell at once and marshals scope.cancel for that very call ... *)
Theorem portal_future_cancel_reaches_task f4 s k : reach f4 true s ->
  c_phase (calls s k) = PRunning -> c_kind (calls s k) <> KSync -> c_fut (calls s k) = CPending ->
  handed_out (calls s k) = true ->
  let s1 := fst (step s (FutureCancel k)) in
  snd (step s (FutureCancel k)) = RCancelTrue /\ c_fut (calls s1 k) = CCancelled /\
  c_inflight (calls s1 k) = true /\ c_phase (calls s1 k) = PRunning.
Proof.
  intros R Hp Hk Hf Hh. pose proof (running_captured _ _ _ R Hp) as Hcap.
  destruct (fcancel_running false _ Hp Hk Hf Hcap) as (E1 & E2 & E3 & E4).
  cbn [step]. rewrite Hh. change (future_cancel (calls s k)) with (fcancel false (calls s k)).
  destruct (fcancel false (calls s k)) as [c' r]. cbn in *. rewrite upd_same. auto.
Qed.

(* ... the marshalled cancel stays queued until it lands, and when it lands the call's scope is cancelled,
   so that the interruption of exactly this call becomes deliverable *)
Theorem portal_cancel_inflight_lands f4 fc s k : reach f4 fc s -> c_inflight (calls s k) = true ->
  (forall o, o <> CancelLand k -> c_inflight (calls (fst (step s o)) k) = true) /\
  (loop_ended s = false ->
   let s2 := fst (step s (CancelLand k)) in
   c_scope_cancelled (calls s2 k) = true /\ c_inflight (calls s2 k) = false /\ c_phase (calls s2 k) = c_phase (calls s k) /\
   (c_phase (calls s2 k) = PRunning -> snd (step s2 (TaskStep k WInterrupt None FReraise)) = RStepped)) /\
  (loop_ended s = true -> snd (step s (CancelLand k)) = RLost /\ In k (lost_cancels (fst (step s (CancelLand k))))).
Proof.
  intros R Hi. pose proof (reach_inv _ _ _ R) as I. refine (conj _ (conj _ _)).
  - intros o Ho. destruct (step_call s o k) as [-> | M]; [exact Hi|].
    apply (call_move_frame _ _ _ _ I M); assumption.
  - intros He. cbn [step]. rewrite Hi, He. cbn. rewrite !upd_same. cbn. refine (conj eq_refl (conj eq_refl (conj eq_refl _))).
    intros Hp. rewrite Hp. cbn.
    unfold body_step, apply_started, finish_cancelled. cbn. reflexivity.
  - intros He. cbn [step]. rewrite Hi, He. cbn. split; [reflexivity|]. apply in_or_app. right. now left.
Qed.

(* pinned variant (tree before 2158065): a call whose wrapper started after stop() ignores the cancellation of its
   future -- the cell flips, nothing is marshalled, the task can never be interrupted through its own scope *)
Definition fc_pinned_witness : list op :=
  [ThreadIssue 0 KCoro; ThreadLand 0; Stop false; TaskStep 0 WNormal None FBlock; FutureCancel 0].

Theorem portal_future_cancel_after_stop_ignored_pinned :
  let s := final step (init true false true) fc_pinned_witness in
  c_phase (calls s 0) = PRunning /\ c_fut (calls s 0) = CCancelled /\ c_fcancel (calls s 0) = true /\
  c_inflight (calls s 0) = false /\ c_scope_cancelled (calls s 0) = false /\
  snd (step s (TaskStep 0 WInterrupt None FReraise)) = RRejected /\ snd (step s (CancelLand 0)) = RRejected.
Proof. vm_compute. repeat split. Qed.

(* the same history on the repaired tree marshals the cancel *)
Example ex_fc_history_fixed :
  let s := final step (init true true true) fc_pinned_witness in
  c_inflight (calls s 0) = true /\
  snd (step (fst (step s (CancelLand 0))) (TaskStep 0 WInterrupt None FReraise)) = RStepped.
Proof. vm_compute. repeat split. Qed.

(* a cancellation that is a call's OWN outcome stays local *)
(* every TaskStep is local: only the record of its own call can change *)
Theorem portal_task_step_frame s k w sv f :
  let s' := fst (step s (TaskStep k w sv f)) in
  (forall j, j <> k -> calls s' j = calls s j) /\ group_cancelled s' = group_cancelled s /\
  running s' = running s /\ stop_event s' = stop_event s /\ members s' = members s /\ host s' = host s /\
  woken s' = woken s.
Proof. exact (step_local_frame s (TaskStep k w sv f) k eq_refl eq_refl). Qed.

(* The callable of call k ends with a cancellation nobody requested through the portal (it raised CancelledError,
   awaited a cancelled asyncio future, or its task was cancelled natively).  Then: the future of call k -- and
   only that -- becomes cancelled; no other call record, not the group scope, not the running flag, not the
   membership, not the host change; the task does NOT count as failed, so reaping it leaves the group scope
   and the running flag exactly as they were: every other call still delivers its own outcome and the portal
   keeps accepting calls. *)
Theorem portal_own_cancellation_is_local f4 fc s k w sv s' : reach f4 fc s ->
  step s (TaskStep k w sv FCancelOwn) = (s', RStepped) ->
  (forall j, j <> k -> calls s' j = calls s j) /\ group_cancelled s' = group_cancelled s /\
  running s' = running s /\ members s' = members s /\ host s' = host s /\
  c_phase (calls s' k) = PFinished /\ c_fut (calls s' k) = CCancelled /\
  c_outcome (calls s' k) = Some OCancelledOut /\ c_base_fail (calls s' k) = false /\ c_invalid (calls s' k) = false /\
  (let s'' := fst (step s' (TaskReap k)) in
   snd (step s' (TaskReap k)) = RNone /\ group_cancelled s'' = group_cancelled s /\ running s'' = running s /\
   (forall j, j <> k -> calls s'' j = calls s j) /\ c_phase (calls s'' k) = PReaped /\
   c_fut (calls s'' k) = CCancelled).
Proof.
  intros R Hs. pose proof (reach_inv _ _ _ R) as I.
  assert (Es : s' = fst (step s (TaskStep k w sv FCancelOwn))) by (rewrite Hs; reflexivity).
  assert (R' : reach f4 fc s') by (rewrite Es; apply reach_step, R).
  destruct (portal_task_step_frame s k w sv FCancelOwn) as (F1 & F2 & F3 & _ & F5 & F6 & _). rewrite <- Es in *.
  destruct (portal_outcome_recorded s k w sv FCancelOwn s' Hs) as [[Hp Ho] _].
  destruct (portal_future_single_assignment _ _ s' k R') as (_ & Hinv & _ & _ & _ & _ & _ & Hco & _).
  pose proof (Hco Ho) as Hfut.
  assert (Hbf : c_base_fail (calls s' k) = false).
  { destruct (task_step_cases s k w sv FCancelOwn) as [E | (c0 & c' & S & E0 & E)]; rewrite E in Hs; [discriminate|].
    injection Hs as <-. cbn. rewrite upd_same.
    destruct (task_move_frame _ _ _ _ _ _ _ S E0) as (Hc & _ & _ & Hb). rewrite (Hb eq_refl).
    apply (CI_basefail _ (I_call s I k)). destruct Hc as [[-> _] | (-> & _)]; reflexivity. }
  refine (conj F1 (conj F2 (conj F3 (conj F5 (conj F6 (conj Hp (conj Hfut (conj Ho (conj Hbf (conj Hinv _)))))))))).
  cbn [step]. rewrite Hp. cbn. rewrite Hbf, Bool.orb_false_r, upd_same. cbn.
  refine (conj eq_refl (conj F2 (conj F3 (conj _ (conj eq_refl Hfut))))).
  intros j Hj. rewrite upd_other by exact Hj. apply F1, Hj.
Qed.

Theorem portal_stop_clears_running s cr :
  running (fst (step s (Stop cr))) = false /\ stop_event (fst (step s (Stop cr))) = true /\
  group_cancelled (fst (step s (Stop cr))) = orb (group_cancelled s) cr /\
  calls (fst (step s (Stop cr))) = calls s /\ members (fst (step s (Stop cr))) = members s.
Proof. cbn. auto. Qed.

Theorem portal_host_exit_stops s exc : host s = HBody ->
  snd (step s (HostExit exc)) = RHostBlocked /\ running (fst (step s (HostExit exc))) = false /\
  host (fst (step s (HostExit exc))) <> HBody /\ host (fst (step s (HostExit exc))) <> HLeft.
Proof. intros H. cbn. rewrite H. cbn. destruct (is_nil (members s)); repeat split; discriminate. Qed.

Theorem portal_running_false_forever s ops : running s = false -> running (final step s ops) = false.
Proof.
  revert s. induction ops as [|o r IH]; intros s H; cbn; [exact H|]. apply IH. now apply (step_globals s o).
Qed.

Theorem portal_left_forever s ops : host s = HLeft -> host (final step s ops) = HLeft.
Proof.
  revert s. induction ops as [|o r IH]; intros s H; cbn; [exact H|]. apply IH. now apply (step_globals s o).
Qed.

(* after stop() (or after the context's exit began) every new call is refused in its own thread with
   RuntimeError, never enters the group, never runs; and the refusal is final *)
Theorem portal_refuses_after_stop s k kd : running s = false -> c_phase (calls s k) = PNone ->
  let s' := fst (step s (ThreadIssue k kd)) in
  snd (step s (ThreadIssue k kd)) = RRefused /\ c_phase (calls s' k) = PRefused /\ c_execs (calls s' k) = 0 /\
  members s' = members s /\ host s' = host s /\ (forall j, j <> k -> calls s' j = calls s j).
Proof.
  intros Hr Hp. cbn [step]. rewrite Hp, Hr. cbn. rewrite upd_same. cbn.
  refine (conj eq_refl (conj eq_refl (conj eq_refl (conj eq_refl (conj eq_refl _))))).
  intros j Hj. now rewrite upd_other.
Qed.

Theorem portal_accepts_while_running s k kd : running s = true -> c_phase (calls s k) = PNone ->
  snd (step s (ThreadIssue k kd)) = RIssued /\ c_phase (calls (fst (step s (ThreadIssue k kd))) k) = PIssued.
Proof. intros Hr Hp. cbn [step]. rewrite Hp, Hr. cbn. rewrite upd_same. auto. Qed.

Theorem portal_refusal_is_final f4 fc s o k : reach f4 fc s ->
  c_phase (calls s k) = PRefused \/ c_phase (calls s k) = PLandRefused \/ c_phase (calls s k) = PLost ->
  calls (fst (step s o)) k = calls s k /\ c_execs (calls s k) = 0 /\ ~ In k (members s) /\
  c_fut (calls s k) = CPending.
Proof.
  intros R Hp. pose proof (reach_inv _ _ _ R) as I.
  assert (He : c_execs (calls s k) = 0).
  { rewrite (CI_execs _ (I_call s I k)). destruct Hp as [-> | [-> | ->]]; reflexivity. }
  assert (Hm : ~ In k (members s)).
  { intros Hin. apply (I_mem s I) in Hin. destruct Hp as [E|[E|E]]; rewrite E in Hin; discriminate. }
  destruct (CI_early _ (I_call s I k)) as (Hf & _ & _ & Hi & _); [destruct Hp as [-> | [-> | ->]]; reflexivity|].
  refine (conj _ (conj He (conj Hm Hf))).
  destruct (step_call s o k) as [E | M]; [exact E|]. exfalso.
  destruct (call_move_frame _ _ _ _ I M) as (_ & _ & _ & _ & Hph).
  destruct Hp as [Hp|[Hp|Hp]]; rewrite Hp in Hph; destruct Hph as [X|[X|X]]; discriminate.
Qed.

(* a call that passed _check_running before stop() but whose start_soon runs only after the portal's group
   became inactive is refused at the landing: RuntimeError travels back through run_sync's future, the call
   never enters the group and never runs.  While the group is still active (stop() alone does not deactivate
   it) the landing is accepted. *)
Theorem portal_land_refused_after_exit s k : host s = HLeft -> loop_ended s = false -> c_phase (calls s k) = PIssued ->
  let s' := fst (step s (ThreadLand k)) in
  snd (step s (ThreadLand k)) = RLandRefused /\ c_phase (calls s' k) = PLandRefused /\ members s' = members s /\
  c_execs (calls s' k) = c_execs (calls s k) /\ c_fut (calls s' k) = c_fut (calls s k).
Proof. intros Hh He Hp. cbn [step]. rewrite Hp, Hh, He. cbn. rewrite upd_same. cbn. auto. Qed.

Theorem portal_land_accepted_while_active s k : host s <> HLeft -> c_phase (calls s k) = PIssued ->
  let s' := fst (step s (ThreadLand k)) in
  snd (step s (ThreadLand k)) = RLanded /\ c_phase (calls s' k) = PLanded /\ members s' = members s ++ [k].
Proof.
  intros Hh Hp. cbn [step]. rewrite Hp. destruct (is_left (host s)) eqn:E; [apply is_left_true in E; contradiction|].
  cbn. rewrite upd_same. cbn. auto.
Qed.

Theorem portal_exit_joins fc s : reach true fc s -> host s = HLeft ->
  members s = [] /\
  forall k, landedp (c_phase (calls s k)) = true ->
    c_phase (calls s k) = PReaped /\ c_execs (calls s k) = 1 /\ c_fut (calls s k) <> CPending /\
    (c_kind (calls s k) = KStart -> c_status (calls s k) <> CPending).
Proof.
  intros R Hh. pose proof (reach_inv _ _ _ R) as I. destruct (reach_flags _ _ _ R) as [Hf4 _].
  destruct (exit_joins_lemma s I Hf4 Hh) as [Hm Hall]. split; [exact Hm|].
  intros k Hl. pose proof (Hall k Hl) as Hp. split; [exact Hp|].
  destruct (portal_future_single_assignment _ _ s k R) as (_ & _ & _ & _ & _ & _ & _ & _ & _ & Hd).
  rewrite Hp in Hd. destruct (Hd eq_refl) as [H1 H2].
  rewrite (CI_execs _ (I_call s I k)), Hp. auto.
Qed.

(* after the context was left no callable runs any more, and no call can enter the group *)
Theorem portal_no_step_after_exit fc s k w sv f : reach true fc s -> host s = HLeft ->
  snd (step s (TaskStep k w sv f)) = RRejected.
Proof.
  intros R Hh. destruct (portal_exit_joins fc s R Hh) as [_ Hall].
  cbn [step]. destruct (c_phase (calls s k)) eqn:Ep; try reflexivity.
  - destruct (Hall k) as [E _]; [rewrite Ep; reflexivity|congruence].
  - destruct (Hall k) as [E _]; [rewrite Ep; reflexivity|congruence].
Qed.

(* the join cannot sleep forever: once the last member is reaped the host's wake-up is queued and the
   resumed host leaves *)
Theorem portal_exit_wakes f4 fc s : reach f4 fc s -> host s = HExitWaiting -> members s = [] ->
  woken s = true /\ snd (step s ResumeHost) = RHostLeft /\ host (fst (step s ResumeHost)) = HLeft.
Proof.
  intros R Hh Hm. pose proof (reach_inv _ _ _ R) as I. pose proof (I_wake s I Hh Hm) as Hw.
  cbn [step]. rewrite Hh, Hw, Hm. cbn. auto.
Qed.

(* the host leaves only through a test `_tasks = {}` made in the same segment *)
Theorem portal_left_only_when_empty fc s : reach true fc s -> host s <> HLeft ->
  host (fst (step s ResumeHost)) = HLeft -> members s = [].
Proof.
  intros R Hn. destruct (reach_flags _ _ _ R) as [Hf4 _]. cbn [step].
  destruct (host s) eqn:Eh; cbn; try congruence.
  - destruct (woken s); cbn; [|congruence]. destruct (is_nil (members s)) eqn:En; cbn; [|discriminate].
    intros _. apply is_nil_true, En.
  - rewrite Hf4. cbn. destruct (is_nil (members s)) eqn:En; cbn; [|discriminate].
    intros _. apply is_nil_true, En.
Qed.

(* pinned variant (tree before 08c4569, finding F4): a call that passed _check_running lands during the
   empty-group exit checkpoint and is orphaned: the context is left while the call has not even started *)
Definition f4_pinned_witness : list op :=
  [ThreadIssue 0 KCoro; HostExit false; ThreadLand 0; ResumeHost].

Theorem portal_exit_joins_refuted_pinned :
  let s := final step (init false true true) f4_pinned_witness in
  host s = HLeft /\ c_phase (calls s 0) = PLanded /\ c_execs (calls s 0) = 0 /\ c_fut (calls s 0) = CPending /\
  members s = [0] /\ snd (step s (TaskStep 0 WNormal None FBlock)) = RStepped.
Proof. vm_compute. repeat split. Qed.

(* the same history on the repaired tree: the host re-tests the member set and waits *)
Example ex_f4_history_fixed :
  let s := final step (init true true true) f4_pinned_witness in
  host s = HExitWaiting /\ members s = [0] /\
  let s' := final step s [TaskStep 0 WNormal None (FReturn 7%Z); TaskReap 0; ResumeHost] in
  host s' = HLeft /\ c_phase (calls s' 0) = PReaped /\ c_fut (calls s' 0) = CResult 7%Z.
Proof. vm_compute. repeat split. Qed.

(* non-vacuity: concrete reachable states meeting the hypotheses above *)
Lemma reach_final f4 fc fn ops : reach f4 fc (final step (init f4 fc fn) ops).
Proof. exists fn, ops. reflexivity. Qed.

(* a coroutine call and a start_task call complete; the context is left afterwards *)
Definition ex_ops1 : list op :=
  [ThreadIssue 0 KCoro; ThreadIssue 1 KStart; ThreadLand 0; ThreadLand 1;
   TaskStep 0 WNormal None FBlock; TaskStep 1 WNormal (Some 5%Z) FBlock; HostExit false;
   TaskStep 0 WNormal None (FReturn 7%Z); TaskStep 1 WNormal None (FRaise 3%Z); TaskReap 0; TaskReap 1; ResumeHost].

Example ex_exit_joins_hyp :
  let s := final step (init true true true) ex_ops1 in
  host s = HLeft /\ landedp (c_phase (calls s 0)) = true /\ c_phase (calls s 1) = PReaped /\
  c_fut (calls s 0) = CResult 7%Z /\ c_fut (calls s 1) = CExc 3%Z /\ c_status (calls s 1) = CResult 5%Z /\
  c_started (calls s 1) = Some 5%Z /\ c_execs (calls s 0) = 1 /\ c_execs (calls s 1) = 1.
Proof. vm_compute. repeat split. Qed.

(* two running coroutine calls; the future of call 0 is cancelled by its caller: only call 0 becomes
   interruptible, call 1 and the group scope are untouched *)
Definition ex_ops2 : list op :=
  [ThreadIssue 0 KCoro; ThreadIssue 1 KCoro; ThreadLand 0; ThreadLand 1;
   TaskStep 0 WNormal None FBlock; TaskStep 1 WNormal None FBlock].

Example ex_future_cancel_hyp :
  let s := final step (init true true true) ex_ops2 in
  c_phase (calls s 0) = PRunning /\ c_kind (calls s 0) <> KSync /\ c_fut (calls s 0) = CPending /\
  handed_out (calls s 0) = true /\
  let s2 := final step s [FutureCancel 0; CancelLand 0] in
  c_scope_cancelled (calls s2 0) = true /\ c_scope_cancelled (calls s2 1) = false /\ group_cancelled s2 = false /\
  snd (step s2 (TaskStep 0 WInterrupt None FReraise)) = RStepped /\
  snd (step s2 (TaskStep 1 WInterrupt None FReraise)) = RRejected /\
  c_fut (calls (fst (step s2 (TaskStep 0 WInterrupt None FReraise))) 0) = CCancelled.
Proof. vm_compute. repeat split; discriminate. Qed.

Example ex_inflight_hyp :
  let s := final step (init true true true) (ex_ops2 ++ [FutureCancel 0]) in c_inflight (calls s 0) = true.
Proof. vm_compute. reflexivity. Qed.

(* stop, then a new call: refused; a call issued before the exit lands after it: refused at the landing *)
Example ex_refused_hyp :
  let s := final step (init true true true) [ThreadIssue 0 KSync; Stop false] in
  running s = false /\ c_phase (calls s 1) = PNone /\ c_phase (calls s 0) = PIssued /\
  snd (step s (ThreadLand 0)) = RLanded /\
  let s' := final step s [HostExit false; ResumeHost] in
  host s' = HLeft /\ c_phase (calls s' 0) = PIssued /\ snd (step s' (ThreadLand 0)) = RLandRefused.
Proof. vm_compute. repeat split. Qed.

(* stop(cancel_remaining=True): the blocked call is interrupted, its future is cancelled, the exit joins it *)
Example ex_cancel_remaining :
  let s := final step (init true true true)
    [ThreadIssue 0 KCoro; ThreadLand 0; TaskStep 0 WNormal None FBlock; Stop true; HostExit false;
     TaskStep 0 WInterrupt None FReraise; TaskReap 0] in
  host s = HExitWaiting /\ members s = [] /\ woken s = true /\ c_fut (calls s 0) = CCancelled /\
  c_outcome (calls s 0) = Some OCancelledOut /\ c_fcancel (calls s 0) = false.
Proof. vm_compute. repeat split. Qed.

(* a result that arrives after the caller cancelled the future is dropped, not assigned *)
Example ex_result_dropped :
  let s := final step (init true true true)
    [ThreadIssue 0 KSync; ThreadLand 0; FutureCancel 0; TaskStep 0 WNormal None (FReturn 9%Z)] in
  c_fut (calls s 0) = CCancelled /\ c_outcome (calls s 0) = Some (ORet 9%Z) /\ c_execs (calls s 0) = 1 /\
  c_assigns (calls s 0) = 1 /\ c_invalid (calls s 0) = false.
Proof. vm_compute. repeat split. Qed.

(* call 0 ends with a cancellation of its own while call 1 is in flight: call 1 is untouched and later delivers its
   value, the group scope is not cancelled, and a later call is still accepted *)
Example ex_own_cancellation_local :
  let s := final step (init true true true) ex_ops2 in
  snd (step s (TaskStep 0 WNormal None FCancelOwn)) = RStepped /\
  let s2 := final step s [TaskStep 0 WNormal None FCancelOwn; TaskReap 0; TaskStep 1 WNormal None (FReturn 7%Z);
                          ThreadIssue 2 KSync] in
  c_fut (calls s2 0) = CCancelled /\ c_fut (calls s2 1) = CResult 7%Z /\ group_cancelled s2 = false /\
  running s2 = true /\ c_phase (calls s2 2) = PIssued /\ c_scope_cancelled (calls s2 1) = false /\
  snd (step s2 (TaskStep 1 WInterrupt None FReraise)) = RRejected.
Proof. vm_compute. repeat split. Qed.

(* F39: a cancelled portal future is reported to the waiters (concurrent.futures.wait / as_completed) *)
(* With repair 56e7f66 (`fn_fixed`): in every reachable state, once the task of a call has ended -- a fortiori once
   it has been reaped -- a cancelled future is in the state CANCELLED_AND_NOTIFIED, whoever cancelled it: the
   caller (before or after the first step of the wrapper; sync or awaitable callable) or the portal. *)
Theorem portal_cancelled_future_notified f4 fc s k : reach f4 fc s -> fn_fixed s = true ->
  donep (c_phase (calls s k)) = true -> c_fut (calls s k) = CCancelled ->
  c_notified (calls s k) = true /\ fut_state (calls s k) = SCancelledNotified /\ reported_done (calls s k) = true.
Proof.
  intros R Hf Hd Hc. pose proof (reach_inv _ _ _ R) as I. pose proof (I_ntf s I Hf k Hd Hc) as Hn.
  unfold reported_done, fut_state. rewrite Hc, Hn. auto.
Qed.

(* every finished call is reported as done: "no caller waits for ever on wait()/as_completed()" *)
Theorem portal_done_future_reported f4 fc s k : reach f4 fc s -> fn_fixed s = true ->
  donep (c_phase (calls s k)) = true -> reported_done (calls s k) = true.
Proof.
  intros R Hf Hd. pose proof (reach_inv _ _ _ R) as I.
  destruct (CI_closed _ (I_call s I k) Hd) as (o & _ & Hok).
  destruct (c_fut (calls s k)) eqn:Ec.
  - destruct o; cbn in Hok; intuition congruence.
  - unfold reported_done, fut_state. rewrite Ec. reflexivity.
  - unfold reported_done, fut_state. rewrite Ec. reflexivity.
  - apply (portal_cancelled_future_notified f4 fc s k R Hf Hd Ec).
Qed.

(* the notification is made at most once, only on a cancelled future of a finished task, and the future never
   enters the RUNNING state *)
Theorem portal_notification_sound f4 fc s k : reach f4 fc s ->
  (c_notified (calls s k) = true -> c_fut (calls s k) = CCancelled /\ donep (c_phase (calls s k)) = true) /\
  c_invalid (calls s k) = false /\ fut_state (calls s k) <> SRunning.
Proof.
  intros R. pose proof (reach_inv _ _ _ R) as I. refine (conj (CI_notified _ (I_call s I k)) (conj (CI_valid _ (I_call s I k)) _)).
  unfold fut_state. destruct (c_fut (calls s k)); try discriminate. destruct (c_notified _); discriminate.
Qed.

(* pinned variant (tree before 56e7f66, finding F39): a future cancelled BY THE CALLER is never notified -- the
   cancellation is absorbed by the call's own scope (coroutine), or simply found by `if not future.cancelled()`
   (sync callable cancelled before it ran): the task is reaped, the future stays CANCELLED, wait() never reports it *)
Definition fn_pinned_witness_coro : list op :=
  [ThreadIssue 0 KCoro; ThreadLand 0; TaskStep 0 WNormal None FBlock; FutureCancel 0; CancelLand 0;
   TaskStep 0 WInterrupt None FReraise; TaskReap 0].
Definition fn_pinned_witness_sync : list op :=
  [ThreadIssue 0 KSync; ThreadLand 0; FutureCancel 0; TaskStep 0 WNormal None (FReturn 9%Z); TaskReap 0].

Theorem portal_cancelled_future_notified_refuted_pinned :
  (let s := final step (init true true false) fn_pinned_witness_coro in
   c_phase (calls s 0) = PReaped /\ c_fut (calls s 0) = CCancelled /\ c_fcancel (calls s 0) = true /\
   c_notified (calls s 0) = false /\ reported_done (calls s 0) = false) /\
  (let s := final step (init true true false) fn_pinned_witness_sync in
   c_phase (calls s 0) = PReaped /\ c_fut (calls s 0) = CCancelled /\ c_execs (calls s 0) = 1 /\
   c_notified (calls s 0) = false /\ reported_done (calls s 0) = false).
Proof. vm_compute. repeat split. Qed.

(* the same histories on the repaired tree, and a cancellation by the portal (both variants notify that one) *)
Example ex_fn_history_fixed :
  (let s := final step (init true true true) fn_pinned_witness_coro in
   donep (c_phase (calls s 0)) = true /\ c_fut (calls s 0) = CCancelled /\ fut_state (calls s 0) = SCancelledNotified) /\
  (let s := final step (init true true true) fn_pinned_witness_sync in
   donep (c_phase (calls s 0)) = true /\ c_fut (calls s 0) = CCancelled /\ fut_state (calls s 0) = SCancelledNotified) /\
  (let s := final step (init true true false)
              [ThreadIssue 0 KCoro; ThreadLand 0; TaskStep 0 WNormal None FBlock; Stop true;
               TaskStep 0 WInterrupt None FReraise; TaskReap 0] in
   fut_state (calls s 0) = SCancelledNotified) /\
  (* cancelled by the caller before the first step of a coroutine call *)
  (let s := final step (init true true true)
              [ThreadIssue 0 KCoro; ThreadLand 0; FutureCancel 0; TaskStep 0 WNormal None FBlock;
               TaskStep 0 WInterrupt None FReraise; TaskReap 0] in
   c_phase (calls s 0) = PReaped /\ fut_state (calls s 0) = SCancelledNotified).
Proof. vm_compute. repeat split. Qed.

(* F40: a hand-over that comes after the loop's last iteration *)
(* the strong clause: every issued call is run, refused, or (once the context has been left) answered -- and no
   Future.cancel() is stuck.  PLost is the only phase from which no op leads anywhere (portal_refusal_is_final). *)
Definition no_call_left_hanging (ops : list op) : Prop :=
  let s := final step (init true true true) ops in
  lost_cancels s = [] /\
  forall k,
    match c_phase (calls s k) with
    | PLost => False
    | PLanded | PRunning | PFinished | PReaped =>
        host s = HLeft ->
        c_phase (calls s k) = PReaped /\ c_execs (calls s k) = 1 /\ c_fut (calls s k) <> CPending /\
        reported_done (calls s k) = true
    | _ => True
    end.

(* the op-list hypothesis implies the state-level fact: nothing is ever recorded as lost *)
Lemma no_land_after_sound ops : forall s ended,
  (loop_ended s = true -> ended = true) -> lost_calls s = [] -> lost_cancels s = [] ->
  no_land_after ended ops = true ->
  lost_calls (final step s ops) = [] /\ lost_cancels (final step s ops) = [].
Proof.
  induction ops as [|o r IH]; intros s ended He H1 H2 Hn; [auto|].
  change (final step s (o :: r)) with (final step (fst (step s o)) r).
  destruct (step_globals s o) as (_ & _ & _ & _ & _ & L1 & L2).
  (* e is the flag after o; while the flag is set, o hands nothing over *)
  assert (A : exists e, no_land_after e r = true /\ (o = LoopEnd -> e = true) /\ (ended = true -> e = true) /\
                        (ended = true -> (forall k, o <> ThreadLand k) /\ (forall k, o <> CancelLand k))).
  { destruct o; cbn [no_land_after] in Hn; try (exists ended; repeat split; auto; intros; discriminate).
    1,2: destruct ended; [discriminate|]; exists false; repeat split; auto; intros; discriminate.
    exists true. repeat split; auto; intros; discriminate. }
  destruct A as (e & Hn' & A1 & A2 & A3).
  destruct L2 as [E1 E2]; [destruct (loop_ended s); [right; apply A3, He; reflexivity|left; reflexivity]|].
  apply (IH _ e); [|congruence|congruence|exact Hn'].
  intros Hl. destruct (L1 Hl) as [Hl'|Hl']; [apply A2, He, Hl'|apply A1, Hl'].
Qed.

Theorem portal_no_land_after_loop_end_sound ops :
  no_land_after_loop_end ops = true -> landed_after_loop_end ops = false.
Proof.
  intros H. unfold landed_after_loop_end, lost_any.
  destruct (no_land_after_sound ops (init true true true) false) as [E1 E2]; try reflexivity; try exact H.
  - cbn. discriminate.
  - rewrite E1, E2. reflexivity.
Qed.

Theorem portal_no_call_left_hanging ops : no_land_after_loop_end ops = true -> no_call_left_hanging ops.
Proof.
  intros Hsyn. apply portal_no_land_after_loop_end_sound in Hsyn. revert Hsyn.
  unfold landed_after_loop_end, lost_any, no_call_left_hanging.
  set (s := final step (init true true true) ops). intros H.
  assert (R : reach true true s) by apply reach_final.
  pose proof (reach_inv _ _ _ R) as I.
  assert (Hfn : fn_fixed s = true) by (destruct (final_flags ops (init true true true)) as (_ & _ & E); exact E).
  apply Bool.negb_false_iff, andb_prop in H. destruct H as [H1 H2].
  apply is_nil_true in H1. apply is_nil_true in H2. split; [exact H2|].
  intros k. destruct (c_phase (calls s k)) eqn:Ep; auto.
  1-4: intros Hh; destruct (portal_exit_joins true s R Hh) as [_ Hall];
       destruct (Hall k) as (E1 & E2 & E3 & _); [rewrite Ep; reflexivity|];
       rewrite Ep in E1; try discriminate E1; refine (conj eq_refl (conj E2 (conj E3 _)));
       apply (portal_done_future_reported true true s k R Hfn); rewrite Ep; reflexivity.
  pose proof (I_lost s I k Ep) as Hin. rewrite H1 in Hin. exact Hin.
Qed.

(* the hypothesis cannot be dropped (finding F40): a call that passed _check_running is handed over after the
   loop's last iteration -- it is never run, never refused, its future stays pending, and nothing can ever change that *)
Definition f40_witness : list op :=
  [ThreadIssue 0 KCoro; HostExit false; ResumeHost; LoopEnd; ThreadLand 0].

Theorem portal_landed_after_loop_end_refuted :
  exists ops, no_land_after_loop_end ops = false /\ landed_after_loop_end ops = true /\ ~ no_call_left_hanging ops /\
    let s := final step (init true true true) ops in
    c_phase (calls s 0) = PLost /\ c_execs (calls s 0) = 0 /\ c_fut (calls s 0) = CPending /\
    forall ops', calls (final step s ops') 0 = calls s 0.
Proof.
  exists f40_witness. unfold landed_after_loop_end. cbv zeta. set (s := final step (init true true true) f40_witness).
  assert (E : lost_any s = true /\ c_phase (calls s 0) = PLost /\ c_execs (calls s 0) = 0 /\ c_fut (calls s 0) = CPending)
    by (vm_compute; auto).
  destruct E as (El & E). split; [reflexivity|]. split; [exact El|]. split.
  - intros [_ H]. specialize (H 0). fold s in H. destruct E as [E _]. rewrite E in H. exact H.
  - destruct E as (Hp & He & Hu). refine (conj Hp (conj He (conj Hu _))).
    assert (G : forall ops' s0, reach true true s0 -> c_phase (calls s0 0) = PLost ->
                calls (final step s0 ops') 0 = calls s0 0).
    { induction ops' as [|o r IH]; intros s0 R0 H0; [reflexivity|].
      change (final step s0 (o :: r)) with (final step (fst (step s0 o)) r).
      destruct (portal_refusal_is_final true true s0 o 0 R0) as (E & _); [auto|].
      rewrite IH; [exact E|apply reach_step, R0|rewrite E; exact H0]. }
    intros ops'. apply G; [apply reach_final|exact Hp].
Qed.

(* the second entry point of F40: the scope.cancel marshalled by a Future.cancel() is handed over after the loop's
   last iteration *)
Example ex_cancel_landed_after_loop_end :
  let ops := [ThreadIssue 0 KCoro; ThreadLand 0; TaskStep 0 WNormal None FBlock; FutureCancel 0;
              TaskStep 0 WNormal None (FReturn 3%Z); TaskReap 0; HostExit false; ResumeHost; LoopEnd; CancelLand 0] in
  landed_after_loop_end ops = true /\ lost_cancels (final step (init true true true) ops) = [0] /\
  host (final step (init true true true) ops) = HLeft.
Proof. vm_compute. repeat split. Qed.

(* non-vacuity of the hypothesis: a history in which the loop ends, with calls before and after, and no late hand-over *)
Example ex_no_land_after_loop_end_hyp :
  let ops := ex_ops1 ++ [LoopEnd; ThreadIssue 2 KSync; FutureCancel 0; Stop false; ThreadIssue 3 KCoro] in
  no_land_after_loop_end ops = true /\ landed_after_loop_end ops = false /\
  loop_ended (final step (init true true true) ops) = true /\
  c_phase (calls (final step (init true true true) ops) 2) = PRefused /\
  c_phase (calls (final step (init true true true) ops) 3) = PRefused /\
  c_phase (calls (final step (init true true true) ops) 0) = PReaped /\
  host (final step (init true true true) ops) = HLeft.
Proof. vm_compute. repeat split. Qed.

(* F47: "delivers exactly its exception" does not depend on what kind of exception it is *)
(* start_task: if the task ends before started() was called, start_task's caller gets exactly what task_done
   derives from the call's future: the task's own exception e (whatever e is -- in particular the distinguished
   code e_falsy of an exception whose truth value is False), a cancellation, or, for a task that returned,
   the "exited without calling started()" error; and the call's future holds that same exception. *)
Theorem portal_start_task_failure_propagated f4 fc s k : reach f4 fc s ->
  c_kind (calls s k) = KStart -> donep (c_phase (calls s k)) = true -> c_started (calls s k) = None ->
  c_status (calls s k) = match c_fut (calls s k) with
                         | CExc e => CExc e | CCancelled => CCancelled | _ => CExc e_nostart end /\
  (forall e, c_outcome (calls s k) = Some (ORaise e) -> c_fcancel (calls s k) = false ->
     c_fut (calls s k) = CExc e /\ c_status (calls s k) = CExc e).
Proof.
  intros R Hk Hd Hs. pose proof (reach_inv _ _ _ R) as I. pose proof (I_call s I k) as H.
  destruct (portal_future_single_assignment _ _ s k R) as (_ & _ & _ & _ & _ & _ & Hraise & _ & _ & Hdone).
  destruct (Hdone Hd) as [Hnp Hst].
  destruct (CI_startfail _ H Hk Hs (Hst Hk)) as [_ E]. split; [exact E|].
  intros e Ho Hf. pose proof (Hraise e Ho Hf) as Ef. split; [exact Ef|]. rewrite E, Ef. reflexivity.
Qed.

Example ex_falsy_exception_delivered :
  (* sync call, coroutine call, start_task failing before started(), start_task failing after started() *)
  let s := final step (init true true true)
    [ThreadIssue 0 KSync; ThreadIssue 1 KCoro; ThreadIssue 2 KStart; ThreadIssue 3 KStart;
     ThreadLand 0; ThreadLand 1; ThreadLand 2; ThreadLand 3;
     TaskStep 0 WNormal None (FRaise e_falsy); TaskStep 1 WNormal None (FRaise e_falsy);
     TaskStep 2 WNormal None (FRaise e_falsy); TaskStep 3 WNormal (Some 7%Z) (FRaise e_falsy)] in
  c_fut (calls s 0) = CExc e_falsy /\ c_fut (calls s 1) = CExc e_falsy /\
  c_fut (calls s 2) = CExc e_falsy /\ c_status (calls s 2) = CExc e_falsy /\ caller_code (calls s 2) = 6%Z /\
  c_fut (calls s 3) = CExc e_falsy /\ c_status (calls s 3) = CResult 7%Z /\
  donep (c_phase (calls s 2)) = true /\ c_started (calls s 2) = None /\ c_kind (calls s 2) = KStart.
Proof. vm_compute. repeat split. Qed.

(* A cancelled future always reaches its task, whichever thread cancelled it *)
(* With repair 2158065 (fc_fixed): in every reachable state, while an awaitable call is running, a cancelled future
   means that the call's scope IS cancelled (cancel made in the loop thread, or marshalled cancel already landed, or
   future cancelled before the wrapper's first step) or that the marshalled scope.cancel is on its way (cancel made in
   a foreign thread, not landed yet).  There is no state in which the future reports cancelled() and nothing will
   ever tell the task. *)
Theorem portal_cancelled_future_reaches_scope f4 s k : reach f4 true s ->
  c_phase (calls s k) = PRunning -> c_kind (calls s k) <> KSync -> c_fut (calls s k) = CCancelled ->
  c_scope_cancelled (calls s k) = true \/ c_inflight (calls s k) = true.
Proof.
  intros R Hp Hk Hf. exact (CI_cancelreach _ (I_call s (reach_inv _ _ _ R) k) Hp Hk Hf (running_captured _ _ _ R Hp)).
Qed.

(* Future.cancel() executed in the event-loop thread (another call's callable, a done-callback of another portal
   future, the host task): the future flips, the call's scope is cancelled IMMEDIATELY (nothing is marshalled), the
   interruption of exactly this call is deliverable at once, and nothing else changes *)
Theorem portal_loop_thread_cancel_cancels_scope f4 s k : reach f4 true s ->
  c_phase (calls s k) = PRunning -> c_kind (calls s k) <> KSync -> c_fut (calls s k) = CPending ->
  handed_out (calls s k) = true -> loop_ended s = false ->
  let s1 := fst (step s (FutureCancelLoop k)) in
  snd (step s (FutureCancelLoop k)) = RCancelTrue /\ c_fut (calls s1 k) = CCancelled /\
  c_scope_cancelled (calls s1 k) = true /\ c_inflight (calls s1 k) = c_inflight (calls s k) /\
  c_phase (calls s1 k) = PRunning /\
  snd (step s1 (TaskStep k WInterrupt None FReraise)) = RStepped /\
  (forall j, j <> k -> calls s1 j = calls s j) /\ group_cancelled s1 = group_cancelled s.
Proof.
  intros R Hp Hk Hf Hh He. pose proof (running_captured _ _ _ R Hp) as Hcap.
  destruct (portal_future_cancel_frame s k (FutureCancelLoop k)) as (F1 & F2 & _); [auto|].
  destruct (fcancel_running true _ Hp Hk Hf Hcap) as (E1 & E2 & E3 & E4 & E5).
  cbv zeta in *. revert F1 F2. cbn [step]. rewrite Hh, He. cbn [andb negb].
  change (future_cancel_loop (calls s k)) with (fcancel true (calls s k)).
  destruct (fcancel true (calls s k)) as [c' r]. cbn in *. rewrite upd_same. intros F1 F2.
  rewrite E3, E4. cbn. unfold body_step, apply_started. cbn. auto 10.
Qed.

Example ex_loop_thread_cancel_hyp :
  let s := final step (init true true true) ex_ops2 in
  c_phase (calls s 0) = PRunning /\ c_kind (calls s 0) <> KSync /\ c_fut (calls s 0) = CPending /\
  handed_out (calls s 0) = true /\ loop_ended s = false /\
  let s1 := fst (step s (FutureCancelLoop 0)) in
  c_scope_cancelled (calls s1 0) = true /\ c_inflight (calls s1 0) = false /\ c_scope_cancelled (calls s1 1) = false /\
  snd (step s1 (TaskStep 1 WInterrupt None FReraise)) = RRejected /\
  (* and a cancel made in a foreign thread: in flight until it lands *)
  let s2 := fst (step s (FutureCancel 0)) in
  c_fut (calls s2 0) = CCancelled /\ c_scope_cancelled (calls s2 0) = false /\ c_inflight (calls s2 0) = true.
Proof. vm_compute. repeat split; discriminate. Qed.

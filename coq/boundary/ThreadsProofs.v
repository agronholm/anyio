(* Proofs about boundary/Threads.v: an inductive invariant over EVERY op sequence, then the C14 clauses. *)
From AV Require Import Base Threads.

Lemma in_remove_c c x l : In x (remove_c c l) <-> In x l /\ x <> c.
Proof. apply in_filter_neq. Qed.

Lemma nodup_remove_c c l : NoDup l -> NoDup (remove_c c l).
Proof. apply NoDup_filter. Qed.

Lemma remove_c_notin c l : ~ In c l -> remove_c c l = l.
Proof.
  induction l as [|a r IH]; cbn; intros H; [reflexivity|].
  destruct (Nat.eqb_spec a c) as [->|Hne]; cbn.
  - exfalso. apply H. now left.
  - f_equal. apply IH. intros Hc. apply H. now right.
Qed.

Lemma filter_len_le {A} (f : A -> bool) l : length (filter f l) <= length l.
Proof. induction l as [|a r IH]; cbn; [lia|]. destruct (f a); cbn; lia. Qed.

Lemma mem_c_in c l : mem_c c l = true <-> In c l.
Proof.
  unfold mem_c. rewrite existsb_exists. split.
  - intros (x & Hx & E). apply Nat.eqb_eq in E. now subst.
  - intros H. exists c. split; [exact H|apply Nat.eqb_refl].
Qed.

Lemma walk_set_cc_mono i l : walk l = true -> walk (set_cc i l) = true.
Proof.
  revert i. induction l as [|[cc sh] r IH]; intros i H; [destruct i; exact H|].
  destruct i as [|j]; cbn; [reflexivity|].
  cbn in H. destruct cc; [reflexivity|]. destruct sh; [discriminate|]. now apply IH.
Qed.

(* declarative reading of the walk: some scope has cancel_called and every scope in front of it (nearer to the
   task) is neither cancelled nor shielded - i.e. the cancelled scope lies at or before the nearest shield *)
Lemma walk_spec l :
  walk l = true <->
  exists pre sh post, l = pre ++ (true, sh) :: post /\ forall x, In x pre -> x = (false, false).
Proof.
  induction l as [|[cc sh] r IH]; cbn.
  - split; [discriminate|]. intros (pre & sh & post & E & _). destruct pre; discriminate.
  - destruct cc.
    + split; [|reflexivity]. intros _. exists [], sh, r. split; [reflexivity|intros x []].
    + destruct sh.
      * split; [discriminate|]. intros (pre & sh & post & E & Hp). exfalso.
        destruct pre as [|a pre]; [discriminate|]. injection E as <- _.
        specialize (Hp (false, true) (or_introl eq_refl)). discriminate.
      * rewrite IH. split.
        -- intros (pre & sh & post & -> & Hp). exists ((false, false) :: pre), sh, post.
           split; [reflexivity|]. intros x [<-|H]; [reflexivity|now apply Hp].
        -- intros (pre & sh & post & E & Hp). destruct pre as [|a pre]; [discriminate|].
           injection E as <- ->. exists pre, sh, post. split; [reflexivity|].
           intros x H. apply Hp. now right.
Qed.

(* the scope handed to the worker answers for the caller's enclosing chain, whatever abandon is *)
Lemma walk_handed k : walk (handed k) = walk (chain k).
Proof.
  unfold handed. destruct (abandon k); cbn; [reflexivity|].
  destruct (chain k); reflexivity.
Qed.

(* had the worker been handed the shielded call scope itself, nothing would ever be reported *)
Lemma walk_call_scope_shielded l : walk ((false, true) :: l) = false.
Proof. reflexivity. Qed.

(* limiter bookkeeping: borrowers = calls between acquire and release, queue = calls waiting ungranted *)

Definition waitq (k : call) : bool :=
  match ph k with PWaitLim => negb (evset k) | _ => false end.

Definition L (b q : list cid) (cs : cid -> call) : Prop :=
  NoDup b /\ NoDup q /\
  (forall x, In x b <-> holds (cs x) = true) /\
  (forall x, In x q <-> waitq (cs x) = true).

(* the same, except that call c is in transit (neither list mentions it) *)
Definition Lx (c : cid) (b q : list cid) (cs : cid -> call) : Prop :=
  NoDup b /\ NoDup q /\ ~ In c b /\ ~ In c q /\
  (forall x, x <> c -> (In x b <-> holds (cs x) = true) /\ (In x q <-> waitq (cs x) = true)).

Lemma holds_waitq_excl k : holds k = true -> waitq k = true -> False.
Proof. unfold holds, waitq. destruct (ph k), (evset k); cbn; congruence. Qed.

Lemma L_ext b q cs cs' :
  (forall x, holds (cs' x) = holds (cs x) /\ waitq (cs' x) = waitq (cs x)) -> L b q cs -> L b q cs'.
Proof.
  intros E (Hb & Hq & H1 & H2). refine (conj Hb (conj Hq (conj _ _))); intros x; destruct (E x) as [E1 E2]; rewrite ?E1, ?E2; auto.
Qed.

Lemma L_upd_same b q cs c k' :
  holds k' = holds (cs c) -> waitq k' = waitq (cs c) -> L b q cs -> L b q (upd cs c k').
Proof.
  intros E1 E2. apply L_ext. intros x. unfold upd. destruct (Nat.eqb_spec x c) as [->|]; auto.
Qed.

Lemma L_open b q cs c : L b q cs -> Lx c (remove_c c b) (remove_c c q) cs.
Proof.
  intros (Hb & Hq & H1 & H2).
  refine (conj (nodup_remove_c c b Hb) (conj (nodup_remove_c c q Hq) (conj _ (conj _ _)))).
  - rewrite in_remove_c. tauto.
  - rewrite in_remove_c. tauto.
  - intros x Hx. rewrite !in_remove_c, <- H1, <- H2. tauto.
Qed.

Lemma L_remove_q b q cs c : L b q cs -> waitq (cs c) = false -> remove_c c q = q.
Proof. intros (_ & _ & _ & H2) E. apply remove_c_notin. rewrite H2, E. discriminate. Qed.

Lemma L_remove_b b q cs c : L b q cs -> holds (cs c) = false -> remove_c c b = b.
Proof. intros (_ & _ & H1 & _) E. apply remove_c_notin. rewrite H1, E. discriminate. Qed.

(* a call that is in neither list can be opened without touching the lists *)
Lemma L_Lx_any c b q cs : L b q cs -> holds (cs c) = false -> waitq (cs c) = false -> Lx c b q cs.
Proof.
  intros HL E1 E2. pose proof (L_open b q cs c HL) as HX.
  now rewrite (L_remove_b _ _ _ _ HL E1), (L_remove_q _ _ _ _ HL E2) in HX.
Qed.

(* closing: c takes its place in the lists according to its new record *)
Lemma Lx_close c b q cs k' b' q' :
  b' = (if holds k' then c :: b else b) -> q' = (if waitq k' then q ++ [c] else q) ->
  Lx c b q cs -> L b' q' (upd cs c k').
Proof.
  intros -> -> (Hb & Hq & Hcb & Hcq & H). refine (conj _ (conj _ (conj _ _))).
  - destruct (holds k'); [now constructor|exact Hb].
  - destruct (waitq k'); [now apply NoDup_snoc|exact Hq].
  - intros x. unfold upd. destruct (Nat.eqb_spec x c) as [->|Hne].
    + destruct (holds k'); cbn; [tauto|]. split; [contradiction|discriminate].
    + destruct (H x Hne) as [<- _]. destruct (holds k'); cbn; intuition congruence.
  - intros x. unfold upd. destruct (Nat.eqb_spec x c) as [->|Hne].
    + destruct (waitq k'); [rewrite in_app_iff; cbn; tauto|]. split; [contradiction|discriminate].
    + destruct (H x Hne) as [_ <-]. destruct (waitq k'); [rewrite in_app_iff; cbn|]; intuition congruence.
Qed.

(* one grant: head of the queue becomes a borrower with its event set; P says which calls the lists account for *)
Lemma grant_iff (P : cid -> Prop) d r b cs :
  NoDup b -> NoDup (d :: r) -> P d ->
  (forall x, P x -> (In x b <-> holds (cs x) = true) /\ (In x (d :: r) <-> waitq (cs x) = true)) ->
  NoDup (d :: b) /\ NoDup r /\
  forall x, P x -> (In x (d :: b) <-> holds (upd cs d (c_ev (cs d) true) x) = true) /\
                   (In x r <-> waitq (upd cs d (c_ev (cs d) true) x) = true).
Proof.
  intros Hb Hq Pd H. inversion Hq as [|x l Hdr Hr]; subst. destruct (H d Pd) as [Hd1 Hd2].
  assert (Hw : waitq (cs d) = true) by (apply Hd2; now left).
  assert (Hnb : ~ In d b) by (rewrite Hd1; intros Hh; exact (holds_waitq_excl _ Hh Hw)).
  assert (Hph : ph (cs d) = PWaitLim) by (unfold waitq in Hw; destruct (ph (cs d)); congruence).
  refine (conj _ (conj Hr _)); [now constructor|].
  intros x Px. unfold upd. destruct (Nat.eqb_spec x d) as [->|Hne].
  - unfold holds, waitq, c_ev. cbn. rewrite Hph. cbn. split; [tauto|]. split; [contradiction|discriminate].
  - destruct (H x Px) as [Hx1 Hx2]. cbn. split; [rewrite <- Hx1|rewrite <- Hx2; cbn]; intuition congruence.
Qed.

Lemma Lx_grant c d r b cs :
  Lx c b (d :: r) cs -> Lx c (d :: b) r (upd cs d (c_ev (cs d) true)).
Proof.
  intros (Hb & Hq & Hcb & Hcq & H). assert (Hdc : d <> c) by (intros ->; apply Hcq; now left).
  destruct (grant_iff (fun x => x <> c) d r b cs Hb Hq Hdc H) as (A & B & C).
  refine (conj A (conj B (conj _ (conj _ C)))).
  - cbn. intros [E|E]; [congruence|contradiction].
  - intros E. apply Hcq. now right.
Qed.

Lemma L_grant d r b cs : L b (d :: r) cs -> L (d :: b) r (upd cs d (c_ev (cs d) true)).
Proof.
  intros (Hb & Hq & H1 & H2).
  destruct (grant_iff (fun _ => True) d r b cs Hb Hq I (fun x _ => conj (H1 x) (H2 x))) as (A & B & C).
  exact (conj A (conj B (conj (fun x => proj1 (C x I)) (fun x => proj2 (C x I))))).
Qed.

Definition same_core (k' k : call) : Prop :=
  abandon k' = abandon k /\ chain k' = chain k /\ ph k' = ph k /\ fut k' = fut k /\ fin k' = fin k /\
  wcanc k' = wcanc k /\ ncr k' = ncr k.

Lemma same_core_refl k : same_core k k.
Proof. unfold same_core. tauto. Qed.

Lemma same_core_ev k b : same_core (c_ev k b) k.
Proof. unfold same_core. cbn. tauto. Qed.

Lemma notify_fields s :
  wk (notify s) = wk s /\ idle (notify s) = idle s /\ nwork (notify s) = nwork s /\ exec (notify s) = exec s /\
  lowered (notify s) = lowered s /\ total (notify s) = total s /\ prune (notify s) = prune s /\
  ended (notify s) = ended s.
Proof. unfold notify. destruct (lq s); [tauto|]. destruct (Nat.ltb _ _); cbn; tauto. Qed.

Lemma notify_core s x : same_core (calls (notify s) x) (calls s x).
Proof.
  unfold notify. destruct (lq s) as [|d r]; [apply same_core_refl|].
  destruct (Nat.ltb _ _); [|apply same_core_refl]. cbn. unfold upd.
  destruct (Nat.eqb_spec x d) as [->|]; [apply same_core_ev|apply same_core_refl].
Qed.

Lemma notify_L s : L (lb s) (lq s) (calls s) -> L (lb (notify s)) (lq (notify s)) (calls (notify s)).
Proof.
  unfold notify. destruct (lq s) as [|d r] eqn:E; [now rewrite E|].
  destruct (Nat.ltb _ _); [|now rewrite E]. cbn. apply L_grant.
Qed.

Lemma notify_Lx c s : Lx c (lb s) (lq s) (calls s) -> Lx c (lb (notify s)) (lq (notify s)) (calls (notify s)).
Proof.
  unfold notify. destruct (lq s) as [|d r] eqn:E; [now rewrite E|].
  destruct (Nat.ltb _ _); [|now rewrite E]. cbn. apply Lx_grant.
Qed.

Lemma notify_len s : length (lb (notify s)) <= Nat.max (length (lb s)) (total s).
Proof.
  unfold notify. destruct (lq s) as [|d r]; [lia|].
  destruct (Nat.ltb_spec (length (lb s)) (total s)); cbn; lia.
Qed.

Lemma grant_loop_core tot q : forall b cs x,
  same_core (snd (grant_loop tot q b cs) x) (cs x).
Proof.
  induction q as [|d r IH]; intros b cs x; cbn [grant_loop]; [apply same_core_refl|].
  destruct (Nat.ltb (length b) tot); [|apply same_core_refl].
  specialize (IH (d :: b) (upd cs d (c_ev (cs d) true)) x).
  destruct IH as (A1 & A2 & A3 & A4 & A5 & A6 & A7). unfold same_core.
  rewrite A1, A2, A3, A4, A5, A6, A7. unfold upd. destruct (Nat.eqb_spec x d) as [->|]; cbn; tauto.
Qed.

Lemma grant_loop_L tot q : forall b cs,
  L b q cs -> L (snd (fst (grant_loop tot q b cs))) (fst (fst (grant_loop tot q b cs))) (snd (grant_loop tot q b cs)).
Proof.
  induction q as [|d r IH]; intros b cs H; cbn [grant_loop]; [exact H|].
  destruct (Nat.ltb (length b) tot); [|exact H]. apply IH. now apply L_grant.
Qed.

Lemma grant_loop_len tot q : forall b cs,
  length (snd (fst (grant_loop tot q b cs))) <= Nat.max (length b) tot.
Proof.
  induction q as [|d r IH]; intros b cs; cbn [grant_loop]; [cbn; lia|].
  destruct (Nat.ltb_spec (length b) tot); [|cbn; lia].
  specialize (IH (d :: b) (upd cs d (c_ev (cs d) true))). cbn [length] in IH. lia.
Qed.

Lemma enter_scope_lim s c :
  lb (enter_scope s c) = lb s /\ lq (enter_scope s c) = lq s /\ total (enter_scope s c) = total s /\
  lowered (enter_scope s c) = lowered s /\ exec (enter_scope s c) = exec s /\ ended (enter_scope s c) = ended s.
Proof. unfold enter_scope. destruct (idle s); cbn; tauto. Qed.

Lemma enter_scope_calls s c : exists w,
  calls (enter_scope s c) =
  upd (calls s) c (mkc (abandon (calls s c)) (chain (calls s c)) (PAwait w) FPending
                       (evset (calls s c)) (wcanc (calls s c)) (fin (calls s c)) (Some w)
                       (ncr (calls s c)) (sfail (calls s c))) /\
  w = hd (nwork s) (idle s).
Proof. unfold enter_scope. destruct (idle s) as [|w r]; cbn; eexists; split; reflexivity. Qed.

Lemma deliver_eq s c : deliver s c = set_calls s (calls (deliver s c)).
Proof.
  unfold deliver. destruct (ph (calls s c)); try (destruct s; reflexivity).
  - destruct (orb _ _); [destruct s|]; reflexivity.
  - destruct (abandon _); [|destruct s; reflexivity]. destruct (fut _); destruct s; reflexivity.
Qed.

(* a delivered cancellation touches nothing but `wcanc` or `fut` of the caller *)
Lemma deliver_frame s c x :
  abandon (calls (deliver s c) x) = abandon (calls s x) /\ chain (calls (deliver s c) x) = chain (calls s x) /\
  ph (calls (deliver s c) x) = ph (calls s x) /\ evset (calls (deliver s c) x) = evset (calls s x) /\
  fin (calls (deliver s c) x) = fin (calls s x) /\ ncr (calls (deliver s c) x) = ncr (calls s x).
Proof.
  unfold deliver. destruct (ph (calls s c)); try tauto.
  - destruct (orb _ _); [tauto|]. cbn. unfold upd. destruct (Nat.eqb_spec x c) as [->|]; cbn; tauto.
  - destruct (abandon (calls s c)); [|tauto]. destruct (fut _); try tauto.
    cbn. unfold upd. destruct (Nat.eqb_spec x c) as [->|]; cbn; tauto.
Qed.

Lemma deliver_hw s c x :
  holds (calls (deliver s c) x) = holds (calls s x) /\ waitq (calls (deliver s c) x) = waitq (calls s x).
Proof. unfold holds, waitq. destruct (deliver_frame s c x) as (_ & _ & -> & -> & _). tauto. Qed.

Lemma native_cancel_spec k k1 :
  native_cancel k = Some k1 ->
  ph k1 = ph k /\ evset k1 = evset k /\ abandon k1 = abandon k /\ chain k1 = chain k /\ fin k1 = fin k /\
  sfail k1 = sfail k /\ (ncr k1 = ncr k \/ inside k = true).
Proof.
  unfold native_cancel, inside. destruct (ph k) eqn:Ep; try discriminate.
  - intros E. injection E as <-. cbn. tauto.
  - intros E. injection E as <-. cbn. tauto.
  - destruct (fut k); intros E; injection E as <-; cbn; tauto.
Qed.

Lemma can_spawn_spec s k :
  can_spawn s k = true ->
  idle s = [] /\ wcanc k = false /\ (ph k = PLimYield \/ (ph k = PWaitLim /\ evset k = true)).
Proof.
  unfold can_spawn. destruct (idle s); [|discriminate]. cbn [andb].
  destruct (ph k) eqn:Ep; try discriminate.
  - destruct (evset k), (wcanc k); cbn; try discriminate. auto.
  - destruct (wcanc k); cbn; try discriminate. auto.
Qed.

Definition InvL (s : st) : Prop := L (lb s) (lq s) (calls s).

Lemma InvL_init tot pr : InvL (init tot pr).
Proof.
  unfold InvL, L. cbn. refine (conj (NoDup_nil _) (conj (NoDup_nil _) (conj _ _)));
    intros x; split; try contradiction; discriminate.
Qed.

Lemma InvL_upd s c k' :
  InvL s -> holds k' = holds (calls s c) -> waitq k' = waitq (calls s c) -> InvL (set_calls s (upd (calls s) c k')).
Proof. intros HL E1 E2. exact (L_upd_same _ _ _ c k' E1 E2 HL). Qed.

(* release by a call that holds a token and is not queued, then its phase moves to a non-holding one *)
Lemma release_close s c p :
  InvL s -> waitq (calls s c) = false ->
  holds (c_ph (calls (release s c) c) p) = false -> waitq (c_ph (calls (release s c) c) p) = false ->
  InvL (set_ph (release s c) c p).
Proof.
  intros HL Ew E1 E2. unfold InvL, set_ph, set_calls. cbn [lb lq calls].
  eapply Lx_close; [now rewrite E1|now rewrite E2|]. unfold release. apply notify_Lx. cbn [lb lq calls set_lim].
  pose proof (L_open _ _ _ c HL) as HX. now rewrite (L_remove_q _ _ _ _ HL Ew) in HX.
Qed.

Lemma step_InvL s o : InvL s -> InvL (fst (step s o)).
Proof.
  intros HL. destruct o as [c sh|c ab|c|c i|c|w|w p|w|n|w'|nc|sf|ra|af|]; cbn [step].
  - (* Scope *)
    destruct (ph (calls s c)) eqn:Ep; cbn [fst]; try exact HL.
    apply InvL_upd; [exact HL| |]; unfold holds, waitq; cbn; now rewrite Ep.
  - (* Call *)
    destruct (ph (calls s c)) eqn:Ep; cbn [fst]; try exact HL.
    apply InvL_upd; [exact HL| |]; unfold holds, waitq; cbn; now rewrite Ep.
  - (* Resume *)
    destruct (ph (calls s c)) as [| | | |w|o|r] eqn:Ep; cbn [fst]; try exact HL.
    + (* PEntryCk *)
      assert (Eh : holds (calls s c) = false) by (unfold holds; now rewrite Ep).
      assert (Ew : waitq (calls s c) = false) by (unfold waitq; now rewrite Ep).
      destruct (walk _); cbn [fst].
      * apply InvL_upd; [exact HL| |]; unfold holds, waitq; cbn; now rewrite Ep.
      * destruct (orb _ _); cbn [fst].
        -- unfold InvL, set_calls, set_lim. cbn [lb lq calls].
           eapply Lx_close; [reflexivity|reflexivity|]. now apply L_Lx_any.
        -- unfold InvL, set_ph, set_calls, set_lim. cbn [lb lq calls].
           eapply Lx_close; [reflexivity|reflexivity|]. now apply L_Lx_any.
    + (* PWaitLim *)
      destruct (wcanc (calls s c)) eqn:Ewc; cbn [fst].
      * destruct (evset (calls s c)) eqn:Eev.
        -- (* granted and cancelled: give the token back *)
           assert (Ew : waitq (calls s c) = false) by (unfold waitq; rewrite Ep, Eev; reflexivity).
           assert (Hs1 : InvL (set_lim s (lb s) (remove_c c (lq s)))).
           { unfold InvL, set_lim. cbn [lb lq calls]. now rewrite (L_remove_q _ _ _ _ HL Ew). }
           apply release_close; [exact Hs1|exact Ew|reflexivity|reflexivity].
        -- assert (Eh : holds (calls s c) = false) by (unfold holds; rewrite Ep, Eev; reflexivity).
           unfold InvL, set_ph, set_calls, set_lim. cbn [lb lq calls].
           eapply Lx_close; [reflexivity|reflexivity|].
           pose proof (L_open _ _ _ c HL) as HX. now rewrite (L_remove_b _ _ _ _ HL Eh) in HX.
      * destruct (evset (calls s c)) eqn:Eev; cbn [fst]; [|exact HL].
        unfold InvL. destruct (enter_scope_lim s c) as (-> & -> & _).
        destruct (enter_scope_calls s c) as (w & -> & _).
        apply L_upd_same; [| |exact HL]; unfold holds, waitq; cbn; rewrite Ep, Eev; reflexivity.
    + (* PLimYield *)
      destruct (wcanc (calls s c)); cbn [fst].
      { apply release_close; auto. unfold waitq. now rewrite Ep. }
      unfold InvL. destruct (enter_scope_lim s c) as (-> & -> & _).
      destruct (enter_scope_calls s c) as (w & -> & _).
      apply L_upd_same; [| |exact HL]; unfold holds, waitq; cbn; rewrite Ep; reflexivity.
    + (* PAwait *)
      assert (Ew : waitq (calls s c) = false) by (unfold waitq; now rewrite Ep).
      destruct (fut (calls s c)) as [|o|]; cbn [fst]; [exact HL| |apply release_close; auto].
      destruct (wcanc (calls s c)); [|destruct o]; cbn [fst]; apply release_close; auto.
    + (* PPostCk *)
      apply InvL_upd; [exact HL| |]; unfold holds, waitq; cbn; now rewrite Ep.
  - (* CancelCaller *)
    destruct (Nat.ltb _ _); cbn [fst]; [|exact HL].
    set (s1 := set_calls s _).
    assert (H1 : InvL s1).
    { apply InvL_upd; [exact HL| |]; reflexivity. }
    destruct (walk _); [|exact H1].
    rewrite deliver_eq. eapply L_ext; [|exact H1]. intros x. apply deliver_hw.
  - (* Deliver *)
    destruct (walk _); cbn [fst]; [|exact HL].
    rewrite deliver_eq. eapply L_ext; [|exact HL]. intros x. apply deliver_hw.
  - (* ThreadStart *)
    destruct (wk s w); cbn [fst]; try exact HL. destruct (fut _); exact HL.
  - (* ThreadFinish *)
    destruct (wk s w) as [|d|d| | |]; cbn [fst]; try exact HL.
    apply (InvL_upd s d); [exact HL| |]; reflexivity.
  - (* ThreadCheckCancelled *)
    destruct (wk s w); exact HL.
  - (* SetTotal *)
    pose proof (grant_loop_L n (lq s) (lb s) (calls s) HL) as H.
    destruct (grant_loop n (lq s) (lb s) (calls s)) as [[q b] cs]. exact H.
  - (* ThreadReturn *)
    destruct (wk s w'); exact HL.
  - (* NativeCancel *)
    destruct (native_cancel (calls s nc)) as [k1|] eqn:En; cbn [fst]; [|exact HL].
    destruct (native_cancel_spec _ _ En) as (E1 & E2 & _).
    apply InvL_upd; [exact HL| |]; unfold holds, waitq; now rewrite E1, E2.
  - (* SpawnFail *)
    destruct (can_spawn s (calls s sf)) eqn:Ec; cbn [fst]; [|exact HL].
    destruct (can_spawn_spec _ _ Ec) as (_ & _ & Hp).
    apply release_close; auto. unfold waitq. destruct Hp as [->|[-> ->]]; reflexivity.
  - (* ThreadRunAsync *)
    destruct (wk s ra); exact HL.
  - (* ArmSpawnFail *)
    destruct (ph (calls s af)) eqn:Ep; cbn [fst]; try exact HL.
    apply InvL_upd; [exact HL| |]; unfold holds, waitq; cbn; now rewrite Ep.
  - (* LoopEnd *) exact HL.
Qed.

(* what a step does outside `calls`: to the borrowers and the total, to the worker pool, to `ended` *)

Lemma release_fields s c :
  wk (release s c) = wk s /\ idle (release s c) = idle s /\ nwork (release s c) = nwork s /\
  exec (release s c) = exec s /\ total (release s c) = total s /\ lowered (release s c) = lowered s /\
  ended (release s c) = ended s.
Proof.
  unfold release.
  destruct (notify_fields (set_lim s (remove_c c (lb s)) (lq s))) as (-> & -> & -> & -> & -> & -> & _ & ->).
  cbn. tauto.
Qed.

Lemma release_len s c : length (lb (release s c)) <= Nat.max (length (lb s)) (total s).
Proof.
  unfold release. etransitivity; [apply notify_len|]. cbn [lb total set_lim].
  apply Nat.max_le_compat_r, filter_len_le.
Qed.

Definition same_lim (s' s : st) : Prop := lb s' = lb s /\ total s' = total s /\ lowered s' = lowered s.

Definition same_pool (s' s : st) : Prop := wk s' = wk s /\ idle s' = idle s /\ nwork s' = nwork s.

(* nothing; an uncontended acquire; a release, by a caller that may first have left the queue (s1); the setter *)
Definition lim_step (s : st) (o : op) (s' : st) : Prop :=
  same_lim s' s \/
  (exists c, lb s' = c :: lb s /\ length (lb s) < total s /\ total s' = total s /\ lowered s' = lowered s) \/
  (exists s1 c, same_lim s1 s /\ same_lim s' (release s1 c)) \/
  (exists n, o = SetTotal n /\ lb s' = snd (fst (grant_loop n (lq s) (lb s) (calls s))) /\ total s' = n /\
             lowered s' = orb (lowered s) (Nat.ltb n (total s))).

(* nothing; the body of the call scope; a worker dequeues its item; a worker reports and goes idle *)
Definition pool_step (s : st) (o : op) (s' : st) : Prop :=
  same_pool s' s \/
  (exists c, o = Resume c /\ s' = enter_scope s c) \/
  (exists w c X, o = ThreadStart w /\ wk s w = WQueued c /\ (X = WExec c \/ X = WSkip) /\
                 wk s' = upd (wk s) w X /\ idle s' = idle s /\ nwork s' = nwork s) \/
  (exists w, (wk s w = WSkip \/ exists c, wk s w = WExec c) /\
             wk s' = upd (wk s) w WFree /\ idle s' = w :: idle s /\ nwork s' = nwork s).

Definition frame (s : st) (o : op) (s' : st) : Prop :=
  (o <> LoopEnd -> ended s' = ended s) /\ lim_step s o s' /\ pool_step s o s'.

(* s' and s agree on every field `frame` reads *)
Definition same_frame (s' s : st) : Prop := same_lim s' s /\ same_pool s' s /\ ended s' = ended s.

Lemma frame_pool s o s' : same_lim s' s -> ended s' = ended s -> pool_step s o s' -> frame s o s'.
Proof. intros A B C. exact (conj (fun _ => B) (conj (or_introl A) C)). Qed.

Lemma frame_lim s o s' : same_pool s' s -> ended s' = ended s -> lim_step s o s' -> frame s o s'.
Proof. intros A B C. exact (conj (fun _ => B) (conj C (or_introl A))). Qed.

Lemma frame_same s o s' : same_frame s' s -> frame s o s'.
Proof. intros (A & B & C). apply frame_pool; [exact A|exact C|left; exact B]. Qed.

Lemma frame_release s o s1 c p : same_frame s1 s -> frame s o (set_ph (release s1 c) c p).
Proof.
  intros (A & (B1 & B2 & B3) & C). destruct (release_fields s1 c) as (E1 & E2 & E3 & _ & _ & _ & E4).
  apply frame_lim; [split; [|split]|..]; cbn [wk idle nwork ended set_ph set_calls]; try congruence.
  right. right. left. exists s1, c. split; [exact A|]. unfold same_lim. auto.
Qed.

Lemma frame_enter s c : frame s (Resume c) (enter_scope s c).
Proof.
  destruct (enter_scope_lim s c) as (E1 & _ & E2 & E3 & _ & E4).
  apply frame_pool; [exact (conj E1 (conj E2 E3))|exact E4|]. right. left. now exists c.
Qed.

(* in most cases the result differs from s only in what `frame` does not look at: Hs applies up to conversion *)
Lemma step_frame s o : frame s o (fst (step s o)).
Proof.
  assert (Hs : same_frame s s) by (unfold same_frame, same_lim, same_pool; tauto).
  destruct o as [c sh|c ab|c|c i|c|w|w p|w|n|w'|nc|sf|ra|af|]; cbn [step].
  - destruct (ph (calls s c)); apply frame_same, Hs.
  - destruct (ph (calls s c)); apply frame_same, Hs.
  - destruct (ph (calls s c)) as [| | | |w|o|r]; cbn [fst]; try apply frame_same, Hs.
    + destruct (walk _); cbn [fst]; [apply frame_same, Hs|].
      destruct (lq s) as [|x q]; cbn [negb orb]; [|apply frame_same, Hs].
      destruct (Nat.leb_spec (total s) (length (lb s))); cbn [fst]; [apply frame_same, Hs|].
      apply frame_lim; [apply Hs|reflexivity|]. right. left. exists c. cbn. auto.
    + destruct (wcanc _); cbn [fst].
      * destruct (evset _); [apply frame_release, Hs|apply frame_same, Hs].
      * destruct (evset _); cbn [fst]; [apply frame_enter|apply frame_same, Hs].
    + destruct (wcanc _); cbn [fst]; [apply frame_release, Hs|apply frame_enter].
    + destruct (fut _) as [|o|]; cbn [fst]; [apply frame_same, Hs| |apply frame_release, Hs].
      destruct (wcanc _); [|destruct o]; cbn [fst]; apply frame_release, Hs.
  - destruct (Nat.ltb _ _); cbn [fst]; [|apply frame_same, Hs].
    destruct (walk _); [rewrite deliver_eq|]; apply frame_same, Hs.
  - destruct (walk _); cbn [fst]; [rewrite deliver_eq|]; apply frame_same, Hs.
  - destruct (wk s w) as [|c|c| | |] eqn:Ew; cbn [fst]; try apply frame_same, Hs.
    assert (P : forall X ex, X = WExec c \/ X = WSkip ->
                frame s (ThreadStart w) (mk (total s) (lb s) (lq s) (prune s) (idle s) (nwork s) (upd (wk s) w X)
                                            (calls s) ex (lowered s) (ended s))).
    { intros X ex HX. apply frame_pool; [apply Hs|reflexivity|]. right. right. left. now exists w, c, X. }
    destruct (fut _); apply P; auto.
  - destruct (wk s w) as [|c|c| | |] eqn:Ew; cbn [fst]; try apply frame_same, Hs.
    apply frame_pool; [apply Hs|reflexivity|]. right. right. right. exists w. split; [right; now exists c|easy].
  - destruct (wk s w); apply frame_same, Hs.
  - apply frame_lim; [| |right; right; right; exists n];
      destruct (grant_loop n (lq s) (lb s) (calls s)) as [[q b] cs]; [apply Hs|reflexivity|easy].
  - destruct (wk s w') eqn:Ew; cbn [fst]; try apply frame_same, Hs.
    apply frame_pool; [apply Hs|reflexivity|]. right. right. right. exists w'. split; [now left|easy].
  - destruct (native_cancel _); apply frame_same, Hs.
  - destruct (can_spawn _ _); cbn [fst]; [apply frame_release, Hs|apply frame_same, Hs].
  - destruct (wk s ra); apply frame_same, Hs.
  - destruct (ph (calls s af)); apply frame_same, Hs.
  - split; [congruence|split; left; apply Hs].
Qed.

(* a token is granted only while one is free: no step pushes the number of borrowers above
   max(previous number, current total) *)
Lemma step_lb_bound s o :
  length (lb (fst (step s o))) <= Nat.max (length (lb s)) (total (fst (step s o))).
Proof.
  destruct (step_frame s o) as (_ & [(-> & _)|[(c & -> & H & -> & _)|[(s1 & c & (E1 & T1 & _) & -> & -> & _)|(n & _ & -> & -> & _)]]] & _).
  - lia.
  - cbn. lia.
  - pose proof (release_len s1 c) as H. destruct (release_fields s1 c) as (_ & _ & _ & _ & -> & _).
    rewrite E1, T1 in *. exact H.
  - apply grant_loop_len.
Qed.

Definition InvC (s : st) : Prop := lowered s = false -> length (lb s) <= total s.

Lemma step_InvC s o : InvC s -> InvC (fst (step s o)).
Proof.
  unfold InvC. intros H Hl. etransitivity; [apply step_lb_bound|]. apply Nat.max_lub; [|reflexivity].
  destruct (step_frame s o) as (_ & [(_ & -> & Lo)|[(c & _ & _ & -> & Lo)|[(s1 & c & (_ & T1 & L1) & _ & -> & Lo)|(n & _ & _ & -> & Lo)]]] & _);
    rewrite Lo in Hl.
  - exact (H Hl).
  - exact (H Hl).
  - destruct (release_fields s1 c) as (_ & _ & _ & _ & -> & L2 & _). rewrite L2, L1 in Hl. rewrite T1. exact (H Hl).
  - apply orb_false_iff in Hl. destruct Hl as [Hl Hn]. apply Nat.ltb_ge in Hn. etransitivity; [exact (H Hl)|exact Hn].
Qed.

Definition hasb (x : wstate) (c : cid) : bool :=
  match x with WQueued d | WExec d => Nat.eqb d c | _ => false end.

Definition nohas (wkf : wid -> wstate) (c : cid) : Prop := forall w, hasb (wkf w) c = false.

Definition reported (k : call) (o : outcome) : Prop := exists p, fin k = Some p /\ o = wrap p.

(* why a future may be cancelled: AnyIO cancellation of an abandon_on_cancel call, or a native Task.cancel() *)
Definition cancel_cause (k : call) : Prop :=
  (abandon k = true /\ walk (chain k) = true) \/ ncr k = true.

(* run_sync handed o to the caller: the thread's report, or the failure to start a thread *)
Definition delivered (wkf : wid -> wstate) (c : cid) (k : call) (o : outcome) : Prop :=
  (fut k = FRes o /\ reported k o /\ nohas wkf c) \/
  (o = OSpawn /\ fut k = FPending /\ fin k = None /\ nohas wkf c).

(* callok: what the phase of call c says about its future, its report and the worker pool.  Before the hand-over
   (PNone .. PLimYield) nothing has happened: future pending, no report, no worker holds c.  While the caller awaits worker w,
   a pending future means that w holds c (queued or executing) and has not reported; a result means that the report is in
   and no worker holds c any more; a cancelled future has a cause.  After the wait, the outcome handed to the caller is the
   reported one (or the failure to spawn).
   hasok: a worker that still holds c has not reported (by callok a result comes with nohas), so FRes is excluded; and
   while the future is pending the caller is waiting for exactly this worker. *)
Definition callok (wkf : wid -> wstate) (c : cid) (k : call) : Prop :=
  match ph k with
  | PNone | PEntryCk | PWaitLim | PLimYield => fut k = FPending /\ fin k = None /\ nohas wkf c
  | PAwait w =>
      (wcanc k = true -> ncr k = true) /\
      match fut k with
      | FPending => hasb (wkf w) c = true /\ fin k = None
      | FRes o => reported k o /\ nohas wkf c
      | FCancelled => cancel_cause k
      end
  | PPostCk o => delivered wkf c k o
  | PDone DCancelled =>
      (fut k = FPending /\ fin k = None /\ nohas wkf c) \/
      (fut k = FCancelled /\ cancel_cause k) \/
      (exists o, fut k = FRes o /\ reported k o /\ nohas wkf c /\ ncr k = true)
  | PDone (DRet o _) => delivered wkf c k o
  end.

Definition hasok (w : wid) (k : call) : Prop :=
  (forall o, fut k <> FRes o) /\ (fut k = FPending -> ph k = PAwait w).

Record Wp (wkf : wid -> wstate) (idl : list wid) (nw : nat) (ex : list cid) (cs : cid -> call) : Prop := {
  W_call : forall c, callok wkf c (cs c);
  W_has : forall w c, hasb (wkf w) c = true -> hasok w (cs c);
  W_uniq : forall w w' c, hasb (wkf w) c = true -> hasb (wkf w') c = true -> w = w';
  W_idle : forall w, In w idl -> wkf w = WFree /\ w < nw;
  W_idle_nd : NoDup idl;
  W_fresh : forall w, nw <= w -> wkf w = WFree;
  W_exec_nd : NoDup ex;
  W_exec : forall c, In c ex <-> exists w, wkf w = WExec c
}.

Definition W (s : st) : Prop := Wp (wk s) (idle s) (nwork s) (exec s) (calls s).

Lemma callok_core wkf c k k' : same_core k' k -> callok wkf c k -> callok wkf c k'.
Proof.
  intros (A1 & A2 & A3 & A4 & A5 & A6 & A7). unfold callok, delivered, cancel_cause, reported.
  rewrite A1, A2, A3, A4, A5, A6, A7. tauto.
Qed.

Lemma hasok_core w k k' : same_core k' k -> hasok w k -> hasok w k'.
Proof. intros (A1 & A2 & A3 & A4 & A5 & A6 & A7). unfold hasok. rewrite A3, A4. tauto. Qed.

Lemma Wp_core_ext wkf idl nw ex cs cs' :
  (forall x, same_core (cs' x) (cs x)) -> Wp wkf idl nw ex cs -> Wp wkf idl nw ex cs'.
Proof.
  intros E [H1 H2 H3 H4 H5 H6 H7 H8]. constructor; auto.
  - intros c. eapply callok_core; [apply E|apply H1].
  - intros w c Hh. eapply hasok_core; [apply E|now apply H2].
Qed.

Lemma W_init tot pr : W (init tot pr).
Proof.
  unfold W. cbn. constructor; cbn.
  - intros c. unfold callok, nohas. cbn. auto.
  - intros w c H. discriminate.
  - intros w w' c H. discriminate.
  - intros w [].
  - constructor.
  - reflexivity.
  - constructor.
  - intros c. split; [intros []|]. intros [w H]. discriminate.
Qed.

Lemma release_core s c x : same_core (calls (release s c) x) (calls s x).
Proof. unfold release. apply (notify_core (set_lim s (remove_c c (lb s)) (lq s)) x). Qed.

Lemma W_release s c : W s -> W (release s c).
Proof.
  unfold W. destruct (release_fields s c) as (-> & -> & -> & -> & _).
  apply Wp_core_ext. intros x. apply release_core.
Qed.

Lemma W_upd s c k' :
  W s -> callok (wk s) c k' -> (forall w, hasb (wk s w) c = true -> hasok w k') ->
  W (set_calls s (upd (calls s) c k')).
Proof.
  intros [H1 H2 H3 H4 H5 H6 H7 H8] Hc Hh. unfold W. cbn [wk idle nwork exec calls set_calls]. constructor; auto.
  - intros x. unfold upd. destruct (Nat.eqb_spec x c) as [->|]; [exact Hc|apply H1].
  - intros w x Hx. unfold upd. destruct (Nat.eqb_spec x c) as [->|]; [now apply Hh|now apply H2].
Qed.

Lemma nohas_hasok wkf c k : nohas wkf c -> forall w, hasb (wkf w) c = true -> hasok w k.
Proof. intros Hn w Hw. rewrite Hn in Hw. discriminate. Qed.

Lemma stop_all_spec ws : forall f x, stop_all ws f x = if mem_c x ws then WStopped else f x.
Proof.
  unfold stop_all, mem_c. induction ws as [|a r IH]; intros f x; cbn [fold_left existsb]; [reflexivity|].
  rewrite IH. unfold upd. destruct (existsb (Nat.eqb x) r); [now rewrite orb_true_r|].
  rewrite orb_false_r. reflexivity.
Qed.

(* what the body of the call scope does to the pool *)
Lemma enter_wk_spec s c :
  W s ->
  let s' := enter_scope s c in
  let w := hd (nwork s) (idle s) in
  wk s w = WFree /\ wk s' w = WQueued c /\
  (forall x, x <> w -> wk s' x = wk s x /\ (In x (idle s) -> In x (idle s')) \/
                       (In x (idle s) /\ wk s x = WFree /\ wk s' x = WStopped)) /\
  (forall x, In x (idle s') -> In x (idle s) /\ x <> w /\ wk s' x = wk s x) /\
  NoDup (idle s') /\ nwork s <= nwork s' /\ w < nwork s' /\
  (forall x, nwork s' <= x -> nwork s <= x /\ x <> w) /\ (forall x, x < nwork s' -> x <> w -> x < nwork s).
Proof.
  intros [H1 H2 H3 H4 H5 H6 H7 H8]. unfold enter_scope. destruct (idle s) as [|w rest] eqn:Ei; cbn [hd].
  - cbn [wk idle nwork]. refine (conj _ (conj _ (conj _ (conj _ (conj _ (conj _ (conj _ (conj _ _)))))))); try lia.
    + apply H6. lia.
    + apply upd_same.
    + intros x Hx. left. split; [now apply upd_other|intros []].
    + intros x [].
    + constructor.
  - inversion H5 as [|a l Hw Hr]; subst.
    assert (Hwf : wk s w = WFree /\ w < nwork s) by (apply H4; now left).
    cbn [wk idle nwork]. refine (conj _ (conj _ (conj _ (conj _ (conj _ (conj _ (conj _ (conj _ _)))))))); try lia.
    + apply Hwf.
    + destruct (prune s); [|apply upd_same]. rewrite stop_all_spec.
      destruct (mem_c w rest) eqn:E; [|apply upd_same].
      apply mem_c_in in E. contradiction.
    + intros x Hx. destruct (prune s); [|left; split; [now apply upd_other|intros [E|E]; [congruence|exact E]]].
      rewrite stop_all_spec. destruct (mem_c x rest) eqn:E.
      * right. apply mem_c_in in E. refine (conj (or_intror E) (conj _ eq_refl)).
        apply H4. now right.
      * left. split; [now apply upd_other|]. intros [E1|E1]; [congruence|]. apply mem_c_in in E1. congruence.
    + intros x Hx. destruct (prune s); [destruct Hx|].
      assert (x <> w) by (intros ->; contradiction).
      refine (conj (or_intror Hx) (conj H _)). now apply upd_other.
    + destruct (prune s); [constructor|exact Hr].
Qed.

(* callok mentions the workers through `nohas` and, for a pending future, through the worker that holds the call *)
Lemma callok_wk_mono wkf wkf' c k :
  (forall x, hasb (wkf' x) c = true -> hasb (wkf x) c = true) ->
  (fut k = FPending -> forall x, hasb (wkf x) c = true -> hasb (wkf' x) c = true) ->
  callok wkf c k -> callok wkf' c k.
Proof.
  intros M1 M2.
  assert (Hn : nohas wkf c -> nohas wkf' c).
  { intros Hold w. destruct (hasb (wkf' w) c) eqn:E; [|reflexivity]. apply M1 in E. now rewrite Hold in E. }
  unfold callok, delivered. destruct (ph k) as [| | | |w|o|[|o b]]; try tauto.
  - destruct (fut k); try tauto. intros [A0 [A B]]. auto.
  - intros [H|[H|(o & H)]]; [tauto|tauto|]. right. right. exists o. tauto.
Qed.

Lemma enter_scope_W s c :
  W s -> fut (calls s c) = FPending -> fin (calls s c) = None -> nohas (wk s) c -> wcanc (calls s c) = false ->
  W (enter_scope s c).
Proof.
  intros HW Ef Efi Hn Hwc. pose proof (enter_wk_spec s c HW) as S. cbn zeta in S.
  destruct S as (Swf & Sw & Sx & Si & Snd & Sn1 & Sn2 & Sn3 & _).
  destruct (enter_scope_calls s c) as (w & Ec & Ew). rewrite <- Ew in *.
  destruct (enter_scope_lim s c) as (_ & _ & _ & _ & Eex & _).
  destruct HW as [H1 H2 H3 H4 H5 H6 H7 H8].
  (* has-relation after the step *)
  assert (Hhas : forall x d, hasb (wk (enter_scope s c) x) d = true ->
                 (x = w /\ d = c) \/ (x <> w /\ hasb (wk s x) d = true)).
  { intros x d Hx. destruct (Nat.eq_dec x w) as [->|Hne].
    - left. rewrite Sw in Hx. cbn in Hx. apply Nat.eqb_eq in Hx. auto.
    - right. split; [exact Hne|]. destruct (Sx x Hne) as [[E _]|(_ & _ & E)]; rewrite E in Hx; [exact Hx|discriminate]. }
  unfold W. rewrite Ec, Eex. constructor.
  - intros d. unfold upd. destruct (Nat.eqb_spec d c) as [->|Hne].
    + unfold callok. cbn. rewrite Sw. cbn. rewrite Nat.eqb_refl. rewrite Hwc. split; [discriminate|auto].
    + apply (callok_wk_mono (wk s)); [| |apply H1].
      * intros x Hx. apply Hhas in Hx. destruct Hx as [[_ ->]|[_ Hx]]; [contradiction|exact Hx].
      * intros _ x Hx. assert (x <> w) by (intros ->; rewrite Swf in Hx; discriminate).
        destruct (Sx x H) as [[E _]|(_ & E & _)]; [now rewrite E|]. rewrite E in Hx. discriminate.
  - intros x d Hx. apply Hhas in Hx. unfold upd. destruct Hx as [[-> ->]|[Hne Hx]].
    + rewrite Nat.eqb_refl. unfold hasok. cbn. split; [discriminate|reflexivity].
    + destruct (Nat.eqb_spec d c) as [->|Hdc]; [rewrite Hn in Hx; discriminate|]. now apply H2.
  - intros x x' d Hx Hx'. apply Hhas in Hx. apply Hhas in Hx'.
    destruct Hx as [[-> ->]|[Hne Hx]]; destruct Hx' as [[-> Hd]|[Hne' Hx']]; try reflexivity.
    + rewrite Hn in Hx'. discriminate.
    + subst d. rewrite Hn in Hx. discriminate.
    + eapply H3; eauto.
  - intros x Hx. destruct (Si x Hx) as (A & B & C). rewrite C. destruct (H4 x A). split; [assumption|lia].
  - exact Snd.
  - intros x Hx. destruct (Sn3 x Hx) as [A B]. destruct (Sx x B) as [[E _]|(Hin & _ & _)].
    + rewrite E. now apply H6.
    + apply H4 in Hin. lia.
  - exact H7.
  - intros d. rewrite H8. split; intros [x Hx].
    + assert (x <> w) by (intros ->; rewrite Swf in Hx; discriminate).
      exists x. destruct (Sx x H) as [[E _]|(_ & E & _)]; [now rewrite E|]. rewrite E in Hx. discriminate.
    + assert (x <> w) by (intros ->; rewrite Sw in Hx; discriminate).
      exists x. destruct (Sx x H) as [[E _]|(_ & _ & E)]; [now rewrite <- E|]. rewrite E in Hx. discriminate.
Qed.

Lemma W_release_set_ph s c p :
  W s -> callok (wk s) c (c_ph (calls s c) p) ->
  (forall w, hasb (wk s w) c = true -> hasok w (c_ph (calls s c) p)) ->
  W (set_ph (release s c) c p).
Proof.
  intros HW H1 H2. destruct (release_fields s c) as (Ew & _).
  assert (SC : same_core (c_ph (calls (release s c) c) p) (c_ph (calls s c) p)).
  { destruct (release_core s c c) as (A1 & A2 & _ & A4 & A5 & A6 & A7). unfold same_core. cbn. tauto. }
  apply W_upd; [now apply W_release| |]; rewrite Ew.
  - eapply callok_core; [exact SC|exact H1].
  - intros w Hw. eapply hasok_core; [exact SC|now apply H2].
Qed.

Lemma cancel_cause_mono k i : cancel_cause k -> cancel_cause (c_chain k (set_cc i (chain k))).
Proof.
  unfold cancel_cause. cbn. intros [[A B]|A]; [left; split; [exact A|now apply walk_set_cc_mono]|now right].
Qed.

Lemma deliver_W s c : W s -> walk (chain (calls s c)) = true -> W (deliver s c).
Proof.
  intros HW Hwalk. pose proof (W_call _ _ _ _ _ HW c) as Hc. unfold callok in Hc.
  unfold deliver. destruct (ph (calls s c)) as [| | | |w|o|r] eqn:Ep; try exact HW.
  - destruct (orb _ _); [exact HW|]. apply W_upd; [exact HW| |exact (fun x => W_has _ _ _ _ _ HW x c)].
    unfold callok. cbn. rewrite Ep. exact Hc.
  - destruct (abandon (calls s c)) eqn:Ea; [|exact HW].
    destruct (fut (calls s c)) eqn:Ef; try exact HW.
    apply W_upd; [exact HW| |].
    + unfold callok, cancel_cause. cbn. rewrite Ep. destruct Hc as [A0 _]. split; [exact A0|left; auto].
    + intros x Hx. unfold hasok. cbn. split; discriminate.
Qed.

(* with a cancelled future, callok says nothing about the workers and nothing about `fin` *)
Lemma callok_cancelled wkf c k :
  fut k = FCancelled ->
  (callok wkf c k <->
   cancel_cause k /\ ((exists w, ph k = PAwait w /\ (wcanc k = true -> ncr k = true)) \/ ph k = PDone DCancelled)).
Proof.
  intros Ef. unfold callok, delivered. rewrite Ef. destruct (ph k) as [| | | |w|o|r]; split.
  1, 3, 5, 7: (intros (A & _); discriminate).
  1-4: (intros (_ & [(w & A & _)|A]); discriminate).
  - intros [A B]. split; [exact B|]. left. exists w. auto.
  - intros (B & [(w' & _ & A)|A]); [auto|discriminate].
  - intros [(A & _)|(_ & A & _)]; discriminate.
  - intros (_ & [(w & A & _)|A]); discriminate.
  - destruct r; [|intros [(A & _)|(_ & A & _)]; discriminate].
    intros [(A & _)|[(_ & A)|(o & A & _)]]; [discriminate|auto|discriminate].
  - intros (B & [(w & A & _)|A]); [discriminate|]. injection A as ->. auto.
Qed.

(* a busy worker was created and is not in the idle deque; the deque after it has moved to state X *)
Lemma pool_upd wkf idl nw ex cs w X :
  Wp wkf idl nw ex cs -> wkf w <> WFree ->
  let idl' := match X with WFree => w :: idl | _ => idl end in
  (forall x, In x idl' -> upd wkf w X x = WFree /\ x < nw) /\ NoDup idl' /\ (forall x, nw <= x -> upd wkf w X x = WFree).
Proof.
  intros HW Hw.
  assert (Hlt : w < nw).
  { destruct (Nat.lt_ge_cases w nw) as [|Hge]; [assumption|]. elim Hw. exact (W_fresh _ _ _ _ _ HW w Hge). }
  assert (Hni : ~ In w idl) by (intros Hin; apply Hw, (W_idle _ _ _ _ _ HW w Hin)).
  assert (Hold : forall x, In x idl -> upd wkf w X x = WFree /\ x < nw).
  { intros x Hx. rewrite upd_other; [exact (W_idle _ _ _ _ _ HW x Hx)|intros ->; contradiction]. }
  pose proof (W_idle_nd _ _ _ _ _ HW) as Hnd.
  split; [|split].
  - destruct X; try exact Hold. intros x [<-|Hx]; [split; [apply upd_same|exact Hlt]|now apply Hold].
  - destruct X; try exact Hnd. now constructor.
  - intros x Hx. rewrite upd_other; [exact (W_fresh _ _ _ _ _ HW x Hx)|lia].
Qed.

(* worker w moves to state X and keeps the call it carries, if any *)
Lemma Wp_move wkf idl nw ex cs w X :
  Wp wkf idl nw ex cs -> wkf w <> WFree -> (forall d, wkf w <> WExec d) ->
  (forall d, hasb X d = hasb (wkf w) d) ->
  Wp (upd wkf w X) (match X with WFree => w :: idl | _ => idl end) nw
     (match X with WExec c => c :: ex | _ => ex end) cs.
Proof.
  intros HW Hw Hne HX. destruct (pool_upd _ _ _ _ _ w X HW Hw) as (I1 & I2 & I3).
  destruct HW as [H1 H2 H3 H4 H5 H6 H7 H8].
  assert (Hsame : forall x d, hasb (upd wkf w X x) d = hasb (wkf x) d).
  { intros x d. unfold upd. destruct (Nat.eqb_spec x w) as [->|]; [apply HX|reflexivity]. }
  assert (Hex : forall d, (exists x, upd wkf w X x = WExec d) <-> X = WExec d \/ exists x, wkf x = WExec d).
  { intros d. split.
    - intros [x Hx]. revert Hx. unfold upd. destruct (Nat.eqb x w); eauto.
    - intros [->|[x Hx]]; [exists w; apply upd_same|]. exists x. rewrite upd_other; [exact Hx|]. intros ->. exact (Hne d Hx). }
  constructor; try assumption.
  - intros d. apply (callok_wk_mono wkf); [intros x; now rewrite Hsame|intros _ x; now rewrite Hsame|apply H1].
  - intros x d. rewrite Hsame. apply H2.
  - intros x x' d. rewrite !Hsame. apply H3.
  - destruct X as [| |c| | |]; try exact H7. constructor; [|exact H7]. rewrite H8. intros [x Hx].
    apply (Hne c). rewrite <- (H3 x w c); [exact Hx|now rewrite Hx; cbn; apply Nat.eqb_refl|].
    rewrite <- HX. cbn. apply Nat.eqb_refl.
  - intros d. rewrite Hex, <- H8. destruct X as [| |c| | |]; cbn [In];
      try (split; [now right|intros [A|A]; [discriminate|exact A]]).
    split; (intros [A|A]; [left; congruence|now right]).
Qed.

(* worker w lets go of the call c it carries, which is no longer pending *)
Lemma Wp_drop wkf idl nw ex cs cs' w c X :
  Wp wkf idl nw ex cs -> hasb (wkf w) c = true -> (forall d, hasb X d = false) ->
  (forall d, d <> c -> cs' d = cs d) -> fut (cs' c) <> FPending -> callok (upd wkf w X) c (cs' c) ->
  Wp (upd wkf w X) (match X with WFree => w :: idl | _ => idl end) nw (remove_c c ex) cs'.
Proof.
  intros HW Hwc HX Hcs Hf Hc.
  assert (Hw : wkf w <> WFree) by (intros E; rewrite E in Hwc; discriminate).
  destruct (pool_upd _ _ _ _ _ w X HW Hw) as (I1 & I2 & I3).
  destruct HW as [H1 H2 H3 H4 H5 H6 H7 H8].
  assert (Hmono : forall x d, hasb (upd wkf w X x) d = true -> x <> w /\ hasb (wkf x) d = true).
  { intros x d. unfold upd. destruct (Nat.eqb_spec x w) as [->|]; [rewrite HX; discriminate|auto]. }
  assert (Hback : forall x d, d <> c -> hasb (wkf x) d = true -> hasb (upd wkf w X x) d = true).
  { intros x d Hd Hx. rewrite upd_other; [exact Hx|]. intros ->.
    destruct (wkf w); try discriminate; cbn in Hwc, Hx; apply Nat.eqb_eq in Hwc, Hx; congruence. }
  assert (Hdc : forall x d, hasb (upd wkf w X x) d = true -> d <> c).
  { intros x d Hx ->. apply Hmono in Hx. destruct Hx as [Hne Hx]. exact (Hne (H3 x w c Hx Hwc)). }
  constructor; try assumption.
  - intros d. destruct (Nat.eq_dec d c) as [->|Hd]; [exact Hc|]. rewrite (Hcs d Hd).
    apply (callok_wk_mono wkf); [intros x Hx; now apply Hmono in Hx|intros _ x; now apply Hback|apply H1].
  - intros x d Hx. rewrite (Hcs d (Hdc x d Hx)). apply H2. now apply Hmono in Hx.
  - intros x x' d Hx Hx'. apply Hmono in Hx. apply Hmono in Hx'. eapply H3; [apply Hx|apply Hx'].
  - now apply nodup_remove_c.
  - intros d. rewrite in_remove_c, H8. split.
    + intros [[x Hx] Hd]. exists x. assert (Hh : hasb (wkf x) d = true) by (rewrite Hx; cbn; apply Nat.eqb_refl).
      apply (Hback x d Hd) in Hh. destruct (Hmono x d Hh) as [Hne _]. rewrite upd_other; assumption.
    + intros [x Hx]. assert (Hh : hasb (upd wkf w X x) d = true) by (rewrite Hx; cbn; apply Nat.eqb_refl).
      split; [|exact (Hdc x d Hh)]. exists x. destruct (Hmono x d Hh) as [Hne _]. rewrite upd_other in Hx; assumption.
Qed.

(* a worker that dequeues an item whose future is already cancelled moves to a state X that carries no call
   (X = WSkip at HEAD, X = WLost in the pinned tree) *)
Lemma start_skip_W s w c X :
  (forall d, hasb X d = false) -> X <> WFree ->
  W s -> wk s w = WQueued c -> fut (calls s c) = FCancelled ->
  W (mk (total s) (lb s) (lq s) (prune s) (idle s) (nwork s) (upd (wk s) w X) (calls s) (exec s) (lowered s) (ended s)).
Proof.
  intros HX HXf HW Ewk Ef.
  assert (Hwc : hasb (wk s w) c = true) by (rewrite Ewk; cbn; apply Nat.eqb_refl).
  assert (Hc : callok (upd (wk s) w X) c (calls s c)).
  { apply (callok_cancelled _ _ _ Ef), (callok_cancelled (wk s) c _ Ef), (W_call _ _ _ _ _ HW). }
  assert (Hf : fut (calls s c) <> FPending) by (rewrite Ef; discriminate).
  pose proof (Wp_drop _ _ _ _ _ (calls s) w c X HW Hwc HX (fun d _ => eq_refl) Hf Hc) as H.
  (* c was queued, not executing: removing it from `exec` changes nothing *)
  rewrite remove_c_notin in H; [destruct X; try exact H; contradiction|].
  rewrite (W_exec _ _ _ _ _ HW). intros [x Hx].
  rewrite (W_uniq _ _ _ _ _ HW x w c) in Hx; [congruence|now rewrite Hx; cbn; apply Nat.eqb_refl|exact Hwc].
Qed.

Lemma step_W s o : W s -> W (fst (step s o)).
Proof.
  intros HW. destruct o as [c sh|c ab|c|c i|c|w|w p|w|n|w'|nc|sf|ra|af|]; cbn [step].
  - (* Scope *)
    destruct (ph (calls s c)) eqn:Ep; cbn [fst]; try exact HW.
    pose proof (W_call _ _ _ _ _ HW c) as Hc. unfold callok in Hc. rewrite Ep in Hc. destruct Hc as (A & B & C).
    apply W_upd; [exact HW| |now apply nohas_hasok].
    unfold callok. cbn. rewrite Ep. auto.
  - (* Call *)
    destruct (ph (calls s c)) eqn:Ep; cbn [fst]; try exact HW.
    pose proof (W_call _ _ _ _ _ HW c) as Hc. unfold callok in Hc. rewrite Ep in Hc. destruct Hc as (A & B & C).
    apply W_upd; [exact HW| |now apply nohas_hasok].
    unfold callok. cbn. auto.
  - (* Resume *)
    pose proof (W_call _ _ _ _ _ HW c) as Hc. unfold callok in Hc.
    destruct (ph (calls s c)) as [| | | |w|o|r] eqn:Ep; cbn [fst]; try exact HW.
    + (* PEntryCk *)
      destruct Hc as (A & B & C).
      destruct (walk _); cbn [fst].
      * apply W_upd; [exact HW| |now apply nohas_hasok]. unfold callok. cbn. auto.
      * destruct (orb _ _); cbn [fst].
        -- apply (W_upd (set_lim s (lb s) (lq s ++ [c]))); [exact HW| |now apply nohas_hasok]. unfold callok. cbn. auto.
        -- apply (W_upd (set_lim s (c :: lb s) (lq s)) c); [exact HW| |now apply nohas_hasok].
           unfold callok. cbn. auto.
    + (* PWaitLim *)
      destruct Hc as (A & B & C).
      destruct (wcanc (calls s c)) eqn:Ewc; cbn [fst].
      * assert (HW1 : W (set_lim s (lb s) (remove_c c (lq s)))) by exact HW.
        destruct (evset (calls s c)).
        -- apply W_release_set_ph; [exact HW1| |now apply nohas_hasok]. unfold callok. cbn. auto.
        -- apply W_upd; [exact HW1| |now apply nohas_hasok]. unfold callok. cbn. auto.
      * destruct (evset (calls s c)); cbn [fst]; [|exact HW]. now apply enter_scope_W.
    + (* PLimYield *)
      destruct Hc as (A & B & C). destruct (wcanc (calls s c)) eqn:Ewc; cbn [fst].
      * apply W_release_set_ph; [exact HW| |now apply nohas_hasok]. unfold callok. cbn. auto.
      * now apply enter_scope_W.
    + (* PAwait *)
      destruct Hc as [A0 Hc].
      destruct (fut (calls s c)) as [|o|] eqn:Ef; cbn [fst]; [exact HW| |].
      * destruct Hc as [A B].
        destruct (wcanc (calls s c)) eqn:Ewc; [|destruct o]; cbn [fst];
          (apply W_release_set_ph; [exact HW| |now apply nohas_hasok]); unfold callok, delivered; cbn; auto.
        right. right. exists o. auto.
      * apply W_release_set_ph; [exact HW| |].
        -- unfold callok. cbn. right. left. auto.
        -- intros x Hx. unfold hasok. cbn. rewrite Ef. split; discriminate.
    + (* PPostCk *)
      apply W_upd; [exact HW| |].
      * unfold callok, delivered in *. cbn. exact Hc.
      * unfold delivered in Hc. destruct Hc as [(_ & _ & C)|(_ & _ & _ & C)]; now apply nohas_hasok.
  - (* CancelCaller *)
    destruct (Nat.ltb _ _); cbn [fst]; [|exact HW].
    set (k1 := c_chain (calls s c) (set_cc i (chain (calls s c)))).
    assert (H1 : W (set_calls s (upd (calls s) c k1))).
    { apply W_upd; [exact HW| |].
      - pose proof (W_call _ _ _ _ _ HW c) as Hc. unfold callok in *. unfold k1. cbn.
        destruct (ph (calls s c)) as [| | | |w|o|r]; try exact Hc.
        + destruct Hc as [A0 Hc]. split; [exact A0|].
          destruct (fut (calls s c)); try exact Hc. now apply (cancel_cause_mono (calls s c) i).
        + destruct r; [|exact Hc]. destruct Hc as [Hc|[(A & B)|Hc]]; [left; exact Hc| |right; right; exact Hc].
          right. left. split; [exact A|now apply (cancel_cause_mono (calls s c) i)].
      - intros x Hx. exact (W_has _ _ _ _ _ HW x c Hx). }
    destruct (walk (chain k1)) eqn:Ew; [|exact H1].
    apply deliver_W; [exact H1|]. cbn [calls set_calls]. now rewrite upd_same.
  - (* Deliver *)
    destruct (walk _) eqn:Ew; cbn [fst]; [|exact HW]. now apply deliver_W.
  - (* ThreadStart *)
    destruct (wk s w) as [|c|c| | |] eqn:Ewk; cbn [fst]; try exact HW.
    assert (Hwc : hasb (wk s w) c = true) by (rewrite Ewk; cbn; apply Nat.eqb_refl).
    destruct (fut (calls s c)) eqn:Ef.
    + apply (Wp_move _ _ _ _ _ w (WExec c) HW); rewrite Ewk; [discriminate|discriminate|reflexivity].
    + destruct (W_has _ _ _ _ _ HW w c Hwc) as [Hno _]. exfalso. exact (Hno o Ef).
    + apply (start_skip_W s w c WSkip); auto; discriminate.
  - (* ThreadFinish *)
    destruct (wk s w) as [|c|c| | |] eqn:Ewk; cbn [fst]; try exact HW.
    assert (Hwc : hasb (wk s w) c = true) by (rewrite Ewk; cbn; apply Nat.eqb_refl).
    destruct (W_has _ _ _ _ _ HW w c Hwc) as [Hnores Hpend].
    refine (Wp_drop _ _ _ _ _ _ w c WFree HW Hwc (fun _ => eq_refl) (fun d Hd => upd_other _ _ _ _ Hd) _ _);
      rewrite upd_same; cbn [fut].
    + destruct (fut (calls s c)); discriminate.
    + pose proof (W_call _ _ _ _ _ HW c) as Hc. destruct (fut (calls s c)) eqn:Ef.
      * (* the report reaches the pending future: the caller is still in PAwait w *)
        unfold callok in *. cbn [ph fut wcanc]. rewrite (Hpend eq_refl), Ef in *. destruct Hc as [A0 _].
        refine (conj A0 (conj (ex_intro _ p (conj eq_refl eq_refl)) _)). intros x. unfold upd.
        destruct (Nat.eqb_spec x w) as [->|Hne]; [reflexivity|]. destruct (hasb (wk s x) c) eqn:E; [|reflexivity].
        elim Hne. exact (W_uniq _ _ _ _ _ HW x w c E Hwc).
      * exfalso. exact (Hnores o eq_refl).
      * apply callok_cancelled; [reflexivity|]. apply (callok_cancelled (wk s) c _ Ef), Hc.
  - (* ThreadCheckCancelled *)
    destruct (wk s w); exact HW.
  - (* SetTotal *)
    pose proof (grant_loop_core n (lq s) (lb s) (calls s)) as H.
    destruct (grant_loop n (lq s) (lb s) (calls s)) as [[q b] cs]. cbn [fst snd] in *.
    unfold W. cbn [wk idle nwork exec calls]. now apply Wp_core_ext with (cs := calls s).
  - (* ThreadReturn: the payload-less report of a skipped item *)
    destruct (wk s w') eqn:Ewk; cbn [fst]; try exact HW.
    apply (Wp_move _ _ _ _ _ w' WFree HW); rewrite Ewk; [discriminate|discriminate|reflexivity].
  - (* NativeCancel *)
    pose proof (W_call _ _ _ _ _ HW nc) as Hc. unfold callok in Hc.
    unfold native_cancel. destruct (ph (calls s nc)) as [| | | |w|o|r] eqn:Ep; cbn [fst]; try exact HW.
    1-2: apply W_upd; [exact HW|unfold callok; cbn; rewrite Ep; exact Hc|exact (fun x => W_has _ _ _ _ _ HW x nc)].
    destruct Hc as [A0 Hc].
    destruct (fut (calls s nc)) as [|o|] eqn:Ef; cbn [fst]; (apply W_upd; [exact HW| |]).
    + unfold callok, cancel_cause. cbn. rewrite ?Ep. split; [reflexivity|now right].
    + intros x Hx. unfold hasok. cbn. split; discriminate.
    + unfold callok, reported. cbn. rewrite ?Ep, ?Ef. split; [reflexivity|exact Hc].
    + intros x Hx. destruct Hc as [_ Hn]. rewrite Hn in Hx. discriminate.
    + unfold callok, cancel_cause. cbn. rewrite ?Ep, ?Ef. split; [reflexivity|now right].
    + intros x Hx. unfold hasok. cbn. split; discriminate.
  - (* SpawnFail *)
    destruct (can_spawn s (calls s sf)) eqn:Ec; cbn [fst]; [|exact HW].
    destruct (can_spawn_spec _ _ Ec) as (_ & _ & Hp).
    pose proof (W_call _ _ _ _ _ HW sf) as Hc. unfold callok in Hc.
    assert (Hc3 : fut (calls s sf) = FPending /\ fin (calls s sf) = None /\ nohas (wk s) sf).
    { destruct Hp as [E|[E _]]; rewrite E in Hc; exact Hc. }
    destruct Hc3 as (A & B & C).
    apply W_release_set_ph; [exact HW| |now apply nohas_hasok].
    unfold callok, delivered. cbn. right. auto.
  - (* ThreadRunAsync *)
    destruct (wk s ra); exact HW.
  - (* ArmSpawnFail *)
    destruct (ph (calls s af)) eqn:Ep; cbn [fst]; try exact HW.
    pose proof (W_call _ _ _ _ _ HW af) as Hc. unfold callok in Hc. rewrite Ep in Hc. destruct Hc as (A & B & C).
    apply W_upd; [exact HW| |now apply nohas_hasok].
    unfold callok. cbn. rewrite ?Ep. auto.
  - (* LoopEnd *) exact HW.
Qed.

Definition Inv (s : st) : Prop := InvL s /\ InvC s /\ W s.

Definition reach (tot : nat) (pr : bool) (s : st) : Prop := exists ops, s = final step (init tot pr) ops.

Lemma inv_init tot pr : Inv (init tot pr).
Proof.
  refine (conj (InvL_init tot pr) (conj _ (W_init tot pr))). unfold InvC. cbn. lia.
Qed.

Lemma step_inv s o : Inv s -> Inv (fst (step s o)).
Proof.
  intros (A & B & C). exact (conj (step_InvL s o A) (conj (step_InvC s o B) (step_W s o C))).
Qed.

Lemma reach_inv tot pr s : reach tot pr s -> Inv s.
Proof. intros [ops ->]. apply (final_inv step Inv step_inv). apply inv_init. Qed.

Lemma reach_step tot pr s o : reach tot pr s -> reach tot pr (fst (step s o)).
Proof. exact (reach_step step (init tot pr) s o). Qed.

(* 1. a function that is executing and has not been abandoned runs under a token of its caller *)
Theorem rs_token_held_while_running tot pr s c :
  reach tot pr s -> In c (exec s) -> live s c = true ->
  In c (lb s) /\ exists w, wk s w = WExec c /\ ph (calls s c) = PAwait w.
Proof.
  intros R Hin Hl. destruct (reach_inv _ _ _ R) as (HL & _ & HW).
  destruct HW as [H1 H2 H3 H4 H5 H6 H7 H8]. apply H8 in Hin. destruct Hin as [w Hw].
  assert (Hh : hasb (wk s w) c = true) by (rewrite Hw; cbn; apply Nat.eqb_refl).
  destruct (H2 w c Hh) as [Hnr Hp]. unfold live in Hl.
  destruct (fut (calls s c)) eqn:Ef; [|exfalso; exact (Hnr o eq_refl)|discriminate].
  specialize (Hp eq_refl). split; [|exists w; auto].
  destruct HL as (_ & _ & Hb & _). apply Hb. unfold holds. now rewrite Hp.
Qed.

Lemma exec_filter_le tot pr s f :
  reach tot pr s -> (forall c, In c (exec s) -> f c = true -> In c (lb s)) ->
  length (filter f (exec s)) <= length (lb s).
Proof.
  intros R H. destruct (reach_inv _ _ _ R) as (_ & _ & HW).
  apply NoDup_incl_length; [apply NoDup_filter, (W_exec_nd _ _ _ _ _ HW)|].
  intros c Hc. apply filter_In in Hc. now apply H.
Qed.

(* 2. hence the number of concurrently executing functions whose caller still waits never exceeds the number of
      borrowed tokens - and the total whenever the limiter is not over-full (it can only be over-full after the total
      was lowered below the number of borrowers, see rs_no_grant_while_full) *)
Theorem rs_running_le_total tot pr s :
  reach tot pr s ->
  length (running_live s) <= length (lb s) /\
  (length (lb s) <= total s -> length (running_live s) <= total s).
Proof.
  intros R. assert (H : length (running_live s) <= length (lb s)).
  { apply (exec_filter_le tot pr s _ R). intros c Hin Hl. apply (rs_token_held_while_running tot pr s c R Hin Hl). }
  split; [exact H|lia].
Qed.

Lemma rs_running_le_total_after_drain tot pr s :
  reach tot pr s -> length (lb s) <= total s -> length (running_live s) <= total s.
Proof. intros R. apply (rs_running_le_total tot pr s R). Qed.

(* 2b. while the limiter is full nothing is granted beyond hand-over; while it is OVER-full (total lowered below the
       number of borrowers) no new borrower appears at all: the excess only drains *)
Lemma remove_c_len_nodup c l : NoDup l -> length l <= S (length (remove_c c l)).
Proof.
  induction l as [|a r IH]; intros Hn; [cbn; lia|]. inversion Hn as [|x l' Hx Hl]; subst.
  unfold remove_c. cbn [filter length]. fold (remove_c c r).
  destruct (Nat.eqb_spec a c) as [->|Hne]; cbn [negb length].
  - rewrite remove_c_notin by exact Hx. lia.
  - specialize (IH Hl). lia.
Qed.

Lemma notify_full s : total s <= length (lb s) -> lb (notify s) = lb s.
Proof.
  intros H. unfold notify. destruct (lq s); [reflexivity|].
  destruct (Nat.ltb_spec (length (lb s)) (total s)); [lia|reflexivity].
Qed.

Lemma release_incl s c : NoDup (lb s) -> total s < length (lb s) -> incl (lb (release s c)) (lb s).
Proof.
  intros Hn Hlt. unfold release. rewrite notify_full.
  - cbn [lb set_lim]. intros x Hx. apply in_remove_c in Hx. tauto.
  - cbn [lb total set_lim]. pose proof (remove_c_len_nodup c (lb s) Hn). lia.
Qed.

Lemma grant_loop_full tot q b cs : tot <= length b -> grant_loop tot q b cs = (q, b, cs).
Proof. intros H. destruct q; cbn [grant_loop]; [reflexivity|]. destruct (Nat.ltb_spec (length b) tot); [lia|reflexivity]. Qed.

Theorem rs_no_grant_while_full tot pr s o :
  reach tot pr s ->
  (total (fst (step s o)) <= length (lb s) -> length (lb (fst (step s o))) <= length (lb s)) /\
  (total (fst (step s o)) < length (lb s) -> incl (lb (fst (step s o))) (lb s)).
Proof.
  intros R. split; [pose proof (step_lb_bound s o); lia|].
  destruct (reach_inv _ _ _ R) as ((Hn & _) & _ & _).
  destruct (step_frame s o) as (_ & [(-> & _)|[(c & _ & H & -> & _)|[(s1 & c & (E1 & T1 & _) & -> & -> & _)|(n & _ & -> & -> & _)]]] & _).
  - intros _. apply incl_refl.
  - intros H'. lia.
  - destruct (release_fields s1 c) as (_ & _ & _ & _ & -> & _). rewrite <- E1 in *. now apply release_incl.
  - intros H. rewrite grant_loop_full by lia. apply incl_refl.
Qed.

(* the literal reading "total <= |lb| -> incl lb' lb" is false: at exactly full a release hands the token over *)
Example ex_handover_at_full :
  let s := final step (init 1 false) [Call 0 false; Resume 0; Resume 0; ThreadStart 0; Call 1 false; Resume 1;
                                      ThreadFinish 0 (PVal 0)] in
  total s = 1 /\ lb s = [0] /\ lb (fst (step s (Resume 0))) = [1].
Proof. vm_compute. auto. Qed.

(* 3. the token is back on every exit path: return, raise, BaseException, the function's own CancelledError, cancelled at
      the entry checkpoint, cancelled (AnyIO or natively) in the wait queue with or without a grant, natively cancelled
      in the limiter's shielded checkpoint or while awaiting the result, abandoned, thread start failure *)
Theorem rs_token_released_all_paths tot pr s :
  reach tot pr s ->
  NoDup (lb s) /\ (forall c, In c (lb s) <-> holds (calls s c) = true) /\
  (forall c, (exists r, ph (calls s c) = PDone r) \/ (exists o, ph (calls s c) = PPostCk o) ->
             ~ In c (lb s) /\ ~ In c (lq s)) /\
  ((forall c, ph (calls s c) = PNone \/ exists r, ph (calls s c) = PDone r) -> lb s = [] /\ lq s = []).
Proof.
  intros R. destruct (reach_inv _ _ _ R) as (HL & _ & _). destruct HL as (Hb & Hq & H1 & H2).
  refine (conj Hb (conj H1 (conj _ _))).
  - intros c [[r Hp]|[o Hp]]; rewrite H1, H2; unfold holds, waitq; rewrite Hp; split; discriminate.
  - intros Hall. split.
    + destruct (lb s) as [|c l]; [reflexivity|]. exfalso.
      assert (Hc : holds (calls s c) = true) by (apply H1; now left).
      unfold holds in Hc. destruct (Hall c) as [E|[r E]]; rewrite E in Hc; discriminate.
    + destruct (lq s) as [|c l]; [reflexivity|]. exfalso.
      assert (Hc : waitq (calls s c) = true) by (apply H2; now left).
      unfold waitq in Hc. destruct (Hall c) as [E|[r E]]; rewrite E in Hc; discriminate.
Qed.

(* every way out of a token-holding phase releases: the step that leaves PLimYield / granted PWaitLim / PAwait for a
   phase outside the call scope removes the caller from the borrowers *)
Theorem rs_exit_steps_release tot pr s o c :
  reach tot pr s -> holds (calls s c) = true -> holds (calls (fst (step s o)) c) = false ->
  In c (lb s) /\ ~ In c (lb (fst (step s o))).
Proof.
  intros R H0 H1. destruct (reach_inv _ _ _ R) as (HL & _ & _).
  pose proof (step_InvL s o HL) as HL'. destruct HL as (_ & _ & A & _). destruct HL' as (_ & _ & A' & _).
  split; [now apply A|]. rewrite A', H1. discriminate.
Qed.

(* 4. faithful results *)
Lemma fut_cancelled_cause tot pr s c :
  reach tot pr s -> fut (calls s c) = FCancelled -> cancel_cause (calls s c).
Proof.
  intros R Ef. destruct (reach_inv _ _ _ R) as (_ & _ & HW).
  exact (proj1 (proj1 (callok_cancelled (wk s) c _ Ef) (W_call _ _ _ _ _ HW c))).
Qed.

Lemma wrap_not_spawn p : wrap p <> OSpawn.
Proof. destruct p; discriminate. Qed.

Theorem rs_result_faithful tot pr s c :
  reach tot pr s ->
  (* what the caller got is what the thread reported - or, if no thread could be started, nothing was ever run *)
  (forall o, (ph (calls s c) = PPostCk o \/ exists b, ph (calls s c) = PDone (DRet o b)) ->
             (exists p, fin (calls s c) = Some p /\ o = wrap p) \/ (o = OSpawn /\ fin (calls s c) = None)) /\
  (forall s' o, step s (Resume c) = (s', RRet o) ->
             (exists p, fin (calls s c) = Some p /\ o = wrap p) /\
             ph (calls s' c) = (match o with OCancelled => PDone (DRet OCancelled false) | _ => PPostCk o end)) /\
  (* a finished function's result is dropped only if the call was abandoned and its caller cancelled - or the caller was
     cancelled natively while inside the call scope *)
  (forall p, ph (calls s c) = PDone DCancelled -> fin (calls s c) = Some p ->
             (abandon (calls s c) = true /\ walk (chain (calls s c)) = true) \/ ncr (calls s c) = true) /\
  (* and a report for a caller that still waits always reaches the future *)
  (forall w p, wk s w = WExec c -> abandon (calls s c) = false \/ walk (chain (calls s c)) = false ->
             ncr (calls s c) = false ->
             fut (calls (fst (step s (ThreadFinish w p))) c) = FRes (wrap p)).
Proof.
  intros R. destruct (reach_inv _ _ _ R) as (_ & _ & HW).
  pose proof (W_call _ _ _ _ _ HW c) as Hc. unfold callok, delivered in Hc.
  refine (conj _ (conj _ (conj _ _))).
  - intros o [E|[b E]]; rewrite E in Hc; (destruct Hc as [(_ & A & _)|(A & _ & B & _)]; [left; exact A|right; auto]).
  - intros s' o. cbn [step]. destruct (ph (calls s c)) as [| | | |w|o'|r] eqn:Ep; try discriminate.
    + destruct (walk _); [discriminate|]. destruct (orb _ _); discriminate.
    + destruct (wcanc _); [discriminate|]. destruct (evset _); discriminate.
    + destruct (wcanc _); discriminate.
    + destruct Hc as [_ Hc]. destruct (fut (calls s c)) as [|o1|] eqn:Ef; try discriminate.
      destruct (wcanc _); [discriminate|].
      destruct o1; intros E; injection E as <- <-; (split; [apply Hc|]);
        unfold set_ph, set_calls; cbn [calls]; rewrite upd_same; reflexivity.
    + destruct (walk _); discriminate.
  - intros p E Ef. rewrite E in Hc. destruct Hc as [(_ & A & _)|[(_ & A)|(o & _ & _ & _ & A)]]; [congruence|exact A|now right].
  - intros w p Ew Hor Hn. cbn [step]. rewrite Ew. cbn [fst calls]. rewrite upd_same. cbn [fut].
    assert (Hh : hasb (wk s w) c = true) by (rewrite Ew; cbn; apply Nat.eqb_refl).
    destruct (W_has _ _ _ _ _ HW w c Hh) as [Hnr _].
    destruct (fut (calls s c)) eqn:Ef; [reflexivity|exfalso; exact (Hnr o eq_refl)|].
    destruct (fut_cancelled_cause tot pr s c R Ef) as [[A B]|A]; [destruct Hor; congruence|congruence].
Qed.

Lemma deliver_other s d c : c <> d -> calls (deliver s d) c = calls s c.
Proof.
  intros H. unfold deliver. destruct (ph (calls s d)); try reflexivity.
  - destruct (orb _ _); [reflexivity|]. cbn. now apply upd_other.
  - destruct (abandon _); [|reflexivity]. destruct (fut _); try reflexivity. cbn. now apply upd_other.
Qed.

(* what a step does to a call, as far as the caller's phase and the ghosts `fin`, `ncr` (and `abandon`) go *)
Definition same_ghost (k' k : call) : Prop := abandon k' = abandon k /\ fin k' = fin k /\ ncr k' = ncr k.

Definition call_step (s : st) (o : op) (c : cid) (k k' : call) : Prop :=
  (same_ghost k' k /\ (ph k' = ph k \/ o = Resume c \/ o = SpawnFail c /\ can_spawn s k = true)) \/
  (exists ab, o = Call c ab /\ ph k = PNone /\ fin k' = None /\ ncr k' = false) \/
  (exists w p, o = ThreadFinish w p /\ wk s w = WExec c /\ fin k' = Some p /\
               abandon k' = abandon k /\ ncr k' = ncr k /\ ph k' = ph k) \/
  (o = NativeCancel c /\ (ncr k' = ncr k \/ inside k = true) /\
   abandon k' = abandon k /\ fin k' = fin k /\ ph k' = ph k).

Lemma call_same s o c k k' :
  abandon k' = abandon k -> fin k' = fin k -> ncr k' = ncr k -> ph k' = ph k -> call_step s o c k k'.
Proof. intros A B C D. left. split; [exact (conj A (conj B C))|now left]. Qed.

(* the calls after the step: those of s up to `evset` (cs), with d replaced by k'; d may have moved if the op is
   a segment of d's caller *)
Lemma call_upd s o cs d k' c :
  (forall x, same_core (cs x) (calls s x)) -> same_ghost k' (cs d) ->
  (ph k' = ph (cs d) \/ o = Resume d \/ o = SpawnFail d /\ can_spawn s (calls s d) = true) ->
  call_step s o c (calls s c) (upd cs d k' c).
Proof.
  intros Hcs (G1 & G2 & G3) Hp. destruct (Hcs c) as (A1 & _ & A3 & _ & A5 & _ & A7). unfold upd.
  destruct (Nat.eqb_spec c d) as [->|]; [|now apply call_same].
  left. split; [split; [|split]; congruence|]. destruct Hp as [E|Hp]; [left; congruence|right; exact Hp].
Qed.

Lemma call_set_ph s o s1 d p c :
  (forall x, same_core (calls s1 x) (calls s x)) ->
  o = Resume d \/ o = SpawnFail d /\ can_spawn s (calls s d) = true ->
  call_step s o c (calls s c) (calls (set_ph s1 d p) c).
Proof. intros H Ho. apply (call_upd s o (calls s1)); [exact H|unfold same_ghost; cbn; auto|right; exact Ho]. Qed.

Lemma step_call s o c : call_step s o c (calls s c) (calls (fst (step s o)) c).
Proof.
  pose proof (fun x => same_core_refl (calls s x)) as Hr.
  destruct o as [d sh|d ab|d|d i|d|w|w q|w|n|w'|d|d|ra|d|]; cbn [step].
  - destruct (ph (calls s d)); cbn [fst calls set_calls]; try now apply call_same.
    apply (call_upd s _ (calls s)); [exact Hr|easy|now left].
  - destruct (ph (calls s d)) eqn:Ep; cbn [fst calls set_calls]; try now apply call_same.
    unfold upd. destruct (Nat.eqb_spec c d) as [->|]; [|now apply call_same]. right. left. exists ab. auto.
  - assert (Ho : Resume d = Resume d \/ Resume d = SpawnFail d /\ can_spawn s (calls s d) = true) by now left.
    destruct (ph (calls s d)) as [| | | |w|o|r]; cbn [fst]; try now apply call_same.
    + destruct (walk _); cbn [fst]; [exact (call_set_ph s _ s d _ c Hr Ho)|].
      destruct (orb _ _); cbn [fst]; [|exact (call_set_ph s _ _ d _ c Hr Ho)].
      apply (call_upd s _ (calls s)); [exact Hr|easy|auto].
    + destruct (wcanc _); cbn [fst].
      * destruct (evset _); [|exact (call_set_ph s _ _ d _ c Hr Ho)].
        exact (call_set_ph s _ _ d _ c (release_core (set_lim s (lb s) (remove_c d (lq s))) d) Ho).
      * destruct (evset _); cbn [fst]; [|now apply call_same].
        destruct (enter_scope_calls s d) as (w & -> & _). apply (call_upd s _ (calls s)); [exact Hr|easy|auto].
    + destruct (wcanc _); cbn [fst]; [exact (call_set_ph s _ _ d _ c (release_core s d) Ho)|].
      destruct (enter_scope_calls s d) as (w & -> & _). apply (call_upd s _ (calls s)); [exact Hr|easy|auto].
    + destruct (fut _) as [|o|]; cbn [fst]; [now apply call_same| |exact (call_set_ph s _ _ d _ c (release_core s d) Ho)].
      destruct (wcanc _); [|destruct o]; cbn [fst]; exact (call_set_ph s _ _ d _ c (release_core s d) Ho).
    + exact (call_set_ph s _ s d _ c Hr Ho).
  - destruct (Nat.ltb _ _); cbn [fst]; [|now apply call_same].
    destruct (walk _); [destruct (deliver_frame (set_calls s (upd (calls s) d (c_chain (calls s d) (set_cc i (chain (calls s d)))))) d c)
                          as (A1 & _ & A3 & _ & A5 & A6)|];
      apply call_same; rewrite ?A1, ?A3, ?A5, ?A6; cbn [calls set_calls]; unfold upd; destruct (Nat.eqb_spec c d) as [->|]; reflexivity.
  - destruct (walk _); cbn [fst]; [|now apply call_same].
    destruct (deliver_frame s d c) as (A1 & _ & A3 & _ & A5 & A6). now apply call_same.
  - destruct (wk s w); cbn [fst]; try now apply call_same. destruct (fut _); now apply call_same.
  - destruct (wk s w) as [|d|d| | |] eqn:Ew; cbn [fst calls]; try now apply call_same.
    unfold upd. destruct (Nat.eqb_spec c d) as [->|]; [|now apply call_same].
    right. right. left. exists w, q. cbn. tauto.
  - destruct (wk s w); now apply call_same.
  - pose proof (grant_loop_core n (lq s) (lb s) (calls s) c) as (A1 & _ & A3 & _ & A5 & _ & A7).
    destruct (grant_loop n (lq s) (lb s) (calls s)) as [[q b] cs]. now apply call_same.
  - destruct (wk s w'); now apply call_same.
  - destruct (native_cancel (calls s d)) as [k1|] eqn:En; cbn [fst calls set_calls]; [|now apply call_same].
    unfold upd. destruct (Nat.eqb_spec c d) as [->|]; [|now apply call_same].
    destruct (native_cancel_spec _ _ En) as (A1 & _ & A3 & _ & A5 & _ & A7). right. right. right. auto.
  - destruct (can_spawn s (calls s d)) eqn:Ec; cbn [fst]; [|now apply call_same].
    exact (call_set_ph s _ _ d _ c (release_core s d) (or_intror (conj eq_refl Ec))).
  - destruct (wk s ra); now apply call_same.
  - destruct (ph (calls s d)) eqn:Ep; cbn [fst calls set_calls]; try now apply call_same.
    apply (call_upd s _ (calls s)); [exact Hr|easy|left; cbn; congruence].
  - now apply call_same.
Qed.

(* the ghost `fin` is written by ThreadFinish only, with the payload of that op *)
Lemma fin_written_by_finish s o c p :
  fin (calls (fst (step s o)) c) = Some p ->
  fin (calls s c) = Some p \/ exists w, o = ThreadFinish w p /\ wk s w = WExec c.
Proof.
  destruct (step_call s o c) as [((_ & -> & _) & _)|[(ab & _ & _ & -> & _)|[(w & q & -> & Ew & -> & _)|(_ & _ & _ & -> & _)]]];
    auto; [discriminate|]. intros E. injection E as ->. right. now exists w.
Qed.

(* the ghost `ncr` is set by a native cancellation that hits the caller inside the call scope, by nothing else *)
Lemma ncr_set_by_native s o c :
  ncr (calls (fst (step s o)) c) = true ->
  ncr (calls s c) = true \/ (o = NativeCancel c /\ inside (calls s c) = true).
Proof.
  destruct (step_call s o c) as [((_ & _ & ->) & _)|[(ab & _ & _ & _ & ->)|[(w & q & _ & _ & _ & _ & -> & _)|(-> & [->|E] & _)]]];
    auto. discriminate.
Qed.

(* once run_sync has been entered, only the caller's own resumption changes its phase *)
Lemma step_keeps_phase s o c :
  o <> Resume c -> (o = SpawnFail c -> can_spawn s (calls s c) = false) -> ph (calls s c) <> PNone ->
  ph (calls (fst (step s o)) c) = ph (calls s c) /\ abandon (calls (fst (step s o)) c) = abandon (calls s c).
Proof.
  intros Ho Hsf Hp.
  destruct (step_call s o c) as [((-> & _) & [->|[E|[E1 E2]]])|[(ab & _ & E & _)|[(w & q & _ & _ & _ & -> & _ & ->)|(_ & _ & -> & _ & ->)]]];
    auto; try contradiction. rewrite (Hsf E1) in E2. discriminate.
Qed.

(* 5. without abandon_on_cancel the caller is not interrupted between the start of the call scope and the report -
      by AnyIO cancellation.  The hypothesis `ncr = false` (no native Task.cancel() hit the caller inside the call
      scope) is necessary: see rs_native_cancel_defeats_non_abandon. *)
Theorem rs_cancel_deferred tot pr s c w :
  reach tot pr s -> ph (calls s c) = PAwait w -> abandon (calls s c) = false -> ncr (calls s c) = false ->
  (* the future is never cancelled *)
  fut (calls s c) <> FCancelled /\
  (* until the report lands the caller cannot run: nothing, in particular no CancelledError, is delivered *)
  (fut (calls s c) = FPending -> step s (Resume c) = (s, RRejected)) /\
  (* no other op (cancelling any scope any number of times, redelivery, other callers, threads) moves it; and
     unless the op is a native cancellation of this very caller the situation persists *)
  (forall o, o <> Resume c ->
     ph (calls (fst (step s o)) c) = PAwait w /\ abandon (calls (fst (step s o)) c) = false /\
     (o <> NativeCancel c -> ncr (calls (fst (step s o)) c) = false)) /\
  (* when it runs it receives the reported result, keeps the pending cancellation, and that cancellation is
     raised by its next checkpoint (the function's own CancelledError propagates as such instead) *)
  (forall o, fut (calls s c) = FRes o ->
     let s' := fst (step s (Resume c)) in
     snd (step s (Resume c)) = RRet o /\ (exists p, fin (calls s c) = Some p /\ o = wrap p) /\
     chain (calls s' c) = chain (calls s c) /\
     (o = OCancelled -> ph (calls s' c) = PDone (DRet OCancelled false)) /\
     (o <> OCancelled -> ph (calls s' c) = PPostCk o /\
        snd (step s' (Resume c)) = (if walk (chain (calls s c)) then RCancelled else RDone))).
Proof.
  intros R Ep Ea En. destruct (reach_inv _ _ _ R) as (_ & _ & HW).
  pose proof (W_call _ _ _ _ _ HW c) as Hc. unfold callok in Hc. rewrite Ep in Hc. destruct Hc as [A0 Hc].
  assert (Ewc : wcanc (calls s c) = false).
  { destruct (wcanc (calls s c)); [|reflexivity]. specialize (A0 eq_refl). congruence. }
  refine (conj _ (conj _ (conj _ _))).
  - intros Ef. rewrite Ef in Hc. destruct Hc as [[A _]|A]; congruence.
  - intros Ef. cbn [step]. rewrite Ep, Ef. reflexivity.
  - intros o Ho.
    assert (Hsf : o = SpawnFail c -> can_spawn s (calls s c) = false).
    { intros _. unfold can_spawn. rewrite Ep. destruct (idle s); reflexivity. }
    destruct (step_keeps_phase s o c Ho Hsf) as [-> ->]; [rewrite Ep; discriminate|].
    refine (conj Ep (conj Ea _)). intros Hn.
    destruct (ncr (calls (fst (step s o)) c)) eqn:E; [|reflexivity].
    destruct (ncr_set_by_native s o c E) as [H|[H _]]; congruence.
  - intros o Ef. rewrite Ef in Hc. destruct Hc as [Hr _]. cbn zeta.
    set (p1 := match o with OCancelled => PDone (DRet OCancelled false) | _ => PPostCk o end).
    assert (E : step s (Resume c) = (set_ph (release s c) c p1, RRet o)).
    { cbn [step]. rewrite Ep, Ef, Ewc. destruct o; reflexivity. }
    rewrite E. cbn [fst snd]. destruct (release_core s c c) as (_ & Ech & _).
    assert (E1 : forall p0, calls (set_ph (release s c) c p0) c = c_ph (calls (release s c) c) p0).
    { intros p0. unfold set_ph, set_calls. cbn [calls]. apply upd_same. }
    refine (conj eq_refl (conj Hr (conj _ (conj _ _)))); rewrite E1.
    + exact Ech.
    + intros ->. reflexivity.
    + intros Ho. assert (Em : p1 = PPostCk o) by (destruct o; try reflexivity; contradiction).
      rewrite Em. split; [reflexivity|]. cbn [step]. rewrite E1. cbn [ph c_ph chain]. rewrite Ech. reflexivity.
Qed.

(* 5b. DOCUMENTED SCOPE (DESIGN 11.4): AnyIO shields do not stop a native Task.cancel().  Under the boolean restriction
       `no_native_cancel_while_running` the strong reading of the bound holds: the functions executing on behalf of
       abandon_on_cancel=False calls - whether or not anything was cancelled - all hold a token *)
Lemma nnc_keeps_ncr_false ops : forall s,
  (forall c, ncr (calls s c) = false) -> no_native_cancel_while_running s ops = true ->
  forall c, ncr (calls (final step s ops) c) = false.
Proof.
  induction ops as [|o r IH]; intros s H0 Hb c; [apply H0|].
  cbn [no_native_cancel_while_running] in Hb. apply andb_true_iff in Hb. destruct Hb as [Hb1 Hb2].
  cbn. apply IH; [|exact Hb2]. intros d.
  destruct (ncr (calls (fst (step s o)) d)) eqn:E; [|reflexivity].
  destruct (ncr_set_by_native s o d E) as [H|[-> H]]; [rewrite H0 in H; discriminate|].
  rewrite H in Hb1. discriminate.
Qed.

Theorem rs_nonabandon_running_le_total tot pr ops :
  no_native_cancel_while_running (init tot pr) ops = true ->
  let s := final step (init tot pr) ops in
  (forall c, In c (exec s) -> abandon (calls s c) = false -> In c (lb s) /\ exists w, ph (calls s c) = PAwait w) /\
  length (running_nonabandon s) <= length (lb s) /\
  (length (lb s) <= total s -> length (running_nonabandon s) <= total s).
Proof.
  intros Hb. cbn zeta. set (s := final step (init tot pr) ops).
  assert (R : reach tot pr s) by (now exists ops).
  assert (Hn : forall c, ncr (calls s c) = false).
  { apply nnc_keeps_ncr_false; [intros c; reflexivity|exact Hb]. }
  assert (H1 : forall c, In c (exec s) -> abandon (calls s c) = false ->
               In c (lb s) /\ exists w, ph (calls s c) = PAwait w).
  { intros c Hin Ha. destruct (rs_token_held_while_running tot pr s c R Hin) as (A & w & _ & B); [|eauto].
    unfold live. destruct (fut (calls s c)) eqn:Ef; try reflexivity.
    destruct (fut_cancelled_cause tot pr s c R Ef) as [[A _]|A]; [congruence|rewrite Hn in A; discriminate]. }
  assert (H2 : length (running_nonabandon s) <= length (lb s)).
  { apply (exec_filter_le tot pr s _ R). intros c Hin Ha. apply negb_true_iff in Ha. apply (H1 c Hin Ha). }
  refine (conj H1 (conj H2 _)). intros Hle. lia.
Qed.

(* ... and without the restriction it is refuted: one native cancellation of a NON-abandoned running call gives its
   token back while its function still executes, and the next caller starts a second function under total = 1 *)
Definition native_defeat_ops : list op :=
  [Call 0 false; Resume 0; Resume 0; ThreadStart 0; NativeCancel 0; Resume 0;
   Call 1 false; Resume 1; Resume 1; ThreadStart 1].

Theorem rs_native_cancel_defeats_non_abandon :
  exists ops, let s := final step (init 1 false) ops in
    no_native_cancel_while_running (init 1 false) ops = false /\
    total s = 1 /\ lb s = [1] /\ exec s = [1; 0] /\ running_nonabandon s = [1; 0] /\
    abandon (calls s 0) = false /\ ph (calls s 0) = PDone DCancelled /\ ncr (calls s 0) = true /\
    (* the function's eventual result is dropped *)
    fut (calls (fst (step s (ThreadFinish 0 (PVal 7)))) 0) = FCancelled.
Proof. exists native_defeat_ops. vm_compute. repeat split; reflexivity. Qed.

(* non-vacuity of the restriction: a history with native cancellations in the two other phases and AnyIO cancellation of a
   running non-abandoned call satisfies it *)
Example ex_no_native_cancel_while_running :
  no_native_cancel_while_running (init 1 false)
    [Scope 0 false; Call 0 false; Resume 0; Resume 0; ThreadStart 0; CancelCaller 0 0;
     Call 1 false; Resume 1; NativeCancel 1; Resume 1; Call 2 false; Resume 2; ThreadFinish 0 (PVal 3); Resume 0;
     NativeCancel 2; Resume 2; Resume 0] = true.
Proof. vm_compute. reflexivity. Qed.

(* 6. check_cancelled in the thread answers for the caller's enclosing scopes *)
Theorem check_cancelled_spec s w c :
  wk s w = WExec c ->
  step s (ThreadCheckCancelled w) = (s, RCC (walk (chain (calls s c)))) /\
  (abandon (calls s c) = false -> chain (calls s c) <> [] -> handed (calls s c) = chain (calls s c)).
Proof.
  intros Ew. cbn [step]. rewrite Ew. rewrite walk_handed. split; [reflexivity|].
  intros Ea Hc. unfold handed. rewrite Ea. destruct (chain (calls s c)); [contradiction|reflexivity].
Qed.

(* 7. worker reuse *)
Theorem rs_worker_reuse tot pr s :
  reach tot pr s ->
  (* LIFO: the call scope takes the most recently idled worker, a new one only when none is idle *)
  (forall c, wcanc (calls s c) = false ->
             ph (calls s c) = PLimYield \/ (ph (calls s c) = PWaitLim /\ evset (calls s c) = true) ->
     let s' := fst (step s (Resume c)) in
     let w := hd (nwork s) (idle s) in
     ph (calls s' c) = PAwait w /\ wk s' w = WQueued c /\ wk s w = WFree /\ ~ In w (idle s') /\
     (idle s = [] -> nwork s' = S (nwork s)) /\ (idle s <> [] -> nwork s' = nwork s)) /\
  (* a worker is handed a call only when it is free, and only by the caller's own segment *)
  (forall o w c, wk (fst (step s o)) w = WQueued c -> wk s w <> WQueued c ->
     o = Resume c /\ wk s w = WFree /\ w = hd (nwork s) (idle s)) /\
  (* a call is on at most one worker, idle workers carry nothing *)
  (forall w w' c, (wk s w = WQueued c \/ wk s w = WExec c) -> (wk s w' = WQueued c \/ wk s w' = WExec c) -> w = w') /\
  (forall w, In w (idle s) -> wk s w = WFree) /\ NoDup (idle s).
Proof.
  intros R. destruct (reach_inv _ _ _ R) as (_ & _ & HW).
  assert (Hu : forall w w' c, (wk s w = WQueued c \/ wk s w = WExec c) ->
                              (wk s w' = WQueued c \/ wk s w' = WExec c) -> w = w').
  { intros w w' c A B. apply (W_uniq _ _ _ _ _ HW w w' c).
    - destruct A as [->| ->]; cbn; apply Nat.eqb_refl.
    - destruct B as [->| ->]; cbn; apply Nat.eqb_refl. }
  refine (conj _ (conj _ (conj Hu (conj _ (W_idle_nd _ _ _ _ _ HW))))).
  - intros c Hwc Hph. cbn zeta.
    assert (E : fst (step s (Resume c)) = enter_scope s c).
    { cbn [step]. rewrite Hwc. destruct Hph as [->|(-> & ->)]; reflexivity. }
    rewrite E. pose proof (enter_wk_spec s c HW) as S. cbn zeta in S.
    destruct S as (Swf & Sw & Sx & Si & Snd & Sn1 & Sn2 & Sn3 & _).
    destruct (enter_scope_calls s c) as (w & Ec & Ew). rewrite <- Ew in *.
    refine (conj _ (conj Sw (conj Swf (conj _ (conj _ _))))).
    + rewrite Ec, upd_same. reflexivity.
    + intros Hin. destruct (Si w Hin) as (_ & A & _). contradiction.
    + intros Ei. unfold enter_scope. rewrite Ei. reflexivity.
    + intros Ei. unfold enter_scope. destruct (idle s); [contradiction|reflexivity].
  - intros o w c H1 H0.
    destruct (step_frame s o) as (_ & _ & [(E & _)|[(d & -> & E)|[(x & d & X & _ & _ & HX & E & _)|(x & _ & E & _)]]]);
      rewrite E in H1.
    + contradiction.
    + pose proof (enter_wk_spec s d HW) as S. cbn zeta in S. destruct S as (Swf & Sw & Sx & _).
      destruct (Nat.eq_dec w (hd (nwork s) (idle s))) as [->|Hne].
      * rewrite Sw in H1. injection H1 as ->. auto.
      * exfalso. destruct (Sx w Hne) as [[E2 _]|(_ & _ & E2)]; rewrite E2 in H1; [contradiction|discriminate].
    + exfalso. unfold upd in H1. destruct (Nat.eqb w x); [destruct HX; congruence|contradiction].
    + exfalso. unfold upd in H1. destruct (Nat.eqb w x); [discriminate|contradiction].
  - intros w Hw. now apply (W_idle _ _ _ _ _ HW).
Qed.

(* Worker pool: no worker is ever lost (HEAD, after fix 952e60b); the PINNED tree loses workers. *)

Lemma lost_forever s o w : W s -> wk s w = WLost -> wk (fst (step s o)) w = WLost.
Proof.
  intros HW Hl.
  destruct (step_frame s o) as (_ & _ & [(-> & _)|[(c & _ & ->)|[(x & c & X & _ & Ex & _ & -> & _)|(x & Hx & -> & _)]]]).
  - exact Hl.
  - pose proof (enter_wk_spec s c HW) as S. cbn zeta in S. destruct S as (Swf & Sw & Sx & _).
    assert (Hne : w <> hd (nwork s) (idle s)) by (intros ->; congruence).
    destruct (Sx w Hne) as [[E2 _]|(_ & E2 & _)]; congruence.
  - rewrite upd_other; [exact Hl|intros ->; congruence].
  - rewrite upd_other; [exact Hl|]. intros ->. destruct Hx as [E|[c E]]; congruence.
Qed.

Definition reach_pinned (tot : nat) (pr : bool) (s : st) : Prop :=
  exists ops, s = final step_pinned (init tot pr) ops.

Lemma step_pinned_cases s o :
  step_pinned s o = step s o \/
  exists w c, o = ThreadStart w /\ wk s w = WQueued c /\ fut (calls s c) = FCancelled /\
    step_pinned s o =
    (mk (total s) (lb s) (lq s) (prune s) (idle s) (nwork s) (upd (wk s) w WLost) (calls s) (exec s) (lowered s) (ended s), RNone).
Proof.
  destruct o; try (left; reflexivity). cbn [step_pinned].
  destruct (wk s w) as [|c|c| | |] eqn:Ew; try (left; reflexivity).
  destruct (fut (calls s c)) eqn:Ef; try (left; reflexivity).
  right. exists w, c. auto.
Qed.

Lemma step_pinned_W s o : W s -> W (fst (step_pinned s o)).
Proof.
  intros HW. destruct (step_pinned_cases s o) as [->|(w & c & -> & Ew & Ef & ->)]; [now apply step_W|].
  cbn [fst]. apply (start_skip_W s w c WLost); auto; discriminate.
Qed.

Lemma lost_forever_pinned s o w : W s -> wk s w = WLost -> wk (fst (step_pinned s o)) w = WLost.
Proof.
  intros HW Hl. destruct (step_pinned_cases s o) as [->|(x & c & -> & Ew & Ef & ->)]; [now apply lost_forever|].
  cbn [fst wk]. rewrite upd_other; [exact Hl|intros ->; congruence].
Qed.

Lemma reach_pinned_W tot pr s : reach_pinned tot pr s -> W s.
Proof. intros [ops ->]. apply (final_inv step_pinned W step_pinned_W). apply W_init. Qed.

(* abandon_on_cancel=True: the caller's scope is cancelled after the item was queued for the worker but before the
   worker thread dequeued it (in the real code e.g. a cancellation that arrives while the caller is in the limiter's
   shielded checkpoint and is delivered one loop cycle after `await future` started) *)
Definition leak_ops : list op :=
  [Scope 0 false; Call 0 true; Resume 0; Resume 0; CancelCaller 0 0; Resume 0; Deliver 0; ThreadStart 0; Resume 0].

(* FINDING F8 (fixed by 952e60b): the PINNED transition system loses a worker *)
Theorem rs_no_worker_leak_refuted_pinned :
  exists ops, let s := final step_pinned (init 1 false) ops in
    ph (calls s 0) = PDone DCancelled /\ lb s = [] /\ exec s = [] /\
    nwork s = 1 /\ wk s 0 = WLost /\ idle s = [] /\
    forall more, wk (final step_pinned s more) 0 = WLost.
Proof.
  exists leak_ops. cbn zeta.
  set (s0 := final step_pinned (init 1 false) leak_ops).
  assert (R : reach_pinned 1 false s0) by (now exists leak_ops).
  assert (H0 : wk s0 0 = WLost) by (vm_compute; reflexivity).
  (* only the closed conjuncts are evaluated: the last one contains `final step_pinned s0 more` with `more` a variable,
     whose normal form is the whole of step_pinned *)
  refine (conj _ (conj _ (conj _ (conj _ (conj H0 (conj _ _)))))); [vm_compute; reflexivity ..|].
  intros more. clearbody s0. revert s0 R H0.
  induction more as [|o r IH]; intros s0 R H0; [exact H0|]. cbn. apply IH.
  - destruct R as [ops ->]. exists (ops ++ [o]). rewrite final_app. reflexivity.
  - apply lost_forever_pinned; [|exact H0]. now apply (reach_pinned_W 1 false).
Qed.

Definition Pool (s : st) : Prop :=
  (forall w, wk s w <> WLost) /\ (forall w, w < nwork s -> wk s w = WFree -> In w (idle s)).

Lemma Pool_init tot pr : Pool (init tot pr).
Proof. split; cbn; [discriminate|lia]. Qed.

Lemma step_Pool s o : W s -> Pool s -> Pool (fst (step s o)).
Proof.
  intros HW [A B]. unfold Pool.
  destruct (step_frame s o) as (_ & _ & [(-> & -> & ->)|[(d & _ & ->)|[(x & c & X & _ & _ & HX & -> & -> & ->)|(x & _ & -> & -> & ->)]]]).
  - auto.
  - pose proof (enter_wk_spec s d HW) as S. cbn zeta in S. destruct S as (Swf & Sw & Sx & _ & _ & _ & _ & _ & Q).
    split; intros y; (destruct (Nat.eq_dec y (hd (nwork s) (idle s))) as [->|Hne]; [congruence|]);
      (destruct (Sx y Hne) as [[E2 Q1]|(_ & _ & E2)]; rewrite E2; [|congruence]).
    + apply A.
    + intros Hlt Hf. exact (Q1 (B y (Q y Hlt Hne) Hf)).
  - split; intros y; unfold upd; destruct (Nat.eqb y x); auto; destruct HX; congruence.
  - split; intros y; unfold upd; destruct (Nat.eqb_spec y x) as [->|]; [discriminate|apply A|now left|right; now apply B].
Qed.

Lemma reach_Pool tot pr s : reach tot pr s -> Pool s.
Proof.
  intros [ops ->]. apply (final_inv step (fun s => W s /\ Pool s)); [|exact (conj (W_init tot pr) (Pool_init tot pr))].
  intros s o [HW HP]. exact (conj (step_W s o HW) (step_Pool s o HW HP)).
Qed.

(* 8. HEAD: no worker is ever lost - every worker ever created is idle (free and in the idle deque), has an item
      queued, executes a function, has a (payload-less) report in flight, or was pruned; and each of the busy
      states returns it to the idle deque through the thread's own next ops *)
Theorem rs_no_worker_lost tot pr s :
  reach tot pr s ->
  (forall w, w < nwork s ->
     (wk s w = WFree /\ In w (idle s)) \/ (exists c, wk s w = WQueued c) \/ (exists c, wk s w = WExec c) \/
     wk s w = WSkip \/ wk s w = WStopped) /\
  (forall w, wk s w <> WLost) /\
  (forall w c, wk s w = WQueued c ->
     wk (fst (step s (ThreadStart w))) w = WExec c \/ wk (fst (step s (ThreadStart w))) w = WSkip) /\
  (forall w c p, wk s w = WExec c ->
     let s' := fst (step s (ThreadFinish w p)) in wk s' w = WFree /\ In w (idle s')) /\
  (forall w, wk s w = WSkip ->
     let s' := fst (step s (ThreadReturn w)) in wk s' w = WFree /\ In w (idle s') /\ calls s' = calls s).
Proof.
  intros R. destruct (reach_Pool _ _ _ R) as [A B].
  refine (conj _ (conj A (conj _ (conj _ _)))).
  - intros w Hlt. specialize (A w). specialize (B w Hlt).
    destruct (wk s w) as [|c|c| | |]; eauto 6. congruence.
  - intros w c Ew. cbn [step]. rewrite Ew. destruct (fut (calls s c)); cbn [fst wk]; rewrite upd_same; auto.
  - intros w c p Ew. cbn zeta. cbn [step]. rewrite Ew. cbn [fst wk idle]. rewrite upd_same. split; [reflexivity|now left].
  - intros w Ew. cbn zeta. cbn [step]. rewrite Ew. cbn [fst wk idle calls]. rewrite upd_same.
    split; [reflexivity|split; [now left|reflexivity]].
Qed.

(* the same history at HEAD: the skipped item is reported and the worker is idle again, reusable by the next call *)
Example ex_no_leak_at_head :
  let s := final step (init 1 false) leak_ops in
  wk s 0 = WSkip /\ idle s = [] /\ ph (calls s 0) = PDone DCancelled /\
  let s' := fst (step s (ThreadReturn 0)) in
  wk s' 0 = WFree /\ idle s' = [0] /\ fut (calls s' 0) = FCancelled /\
  ph (calls (final step s' [Call 1 false; Resume 1; Resume 1]) 1) = PAwait 0 /\
  nwork (final step s' [Call 1 false; Resume 1; Resume 1]) = 1.
Proof. vm_compute. repeat split; auto. Qed.

(* the states visited by the codec (scripted op, then `settle`) are reachable states of the LTS *)

Lemma fold_reach {A} tot pr (g : st -> A -> st) (l : list A) :
  (forall s x, reach tot pr s -> reach tot pr (g s x)) ->
  forall s, reach tot pr s -> reach tot pr (fold_left g l s).
Proof. intros Hg. induction l as [|a r IH]; intros s R; cbn; [exact R|]. apply IH, Hg, R. Qed.

Lemma settle_round_reach tot pr n s : reach tot pr s -> reach tot pr (settle_round n s).
Proof.
  intros R. unfold settle_round. apply fold_reach.
  - intros s0 c R0. replace (if walk (chain (calls s0 c)) then deliver s0 c else s0) with (fst (step s0 (Deliver c))).
    + now apply reach_step.
    + cbn [step]. destruct (walk _); reflexivity.
  - apply fold_reach.
    + intros s0 w R0. destruct (wk s0 w); try exact R0; now apply reach_step.
    + apply fold_reach; [|exact R]. intros s0 c R0. destruct (runnable _); [|exact R0]. destruct (andb _ _); now apply reach_step.
Qed.

Lemma settle_reach tot pr fuel n : forall s, reach tot pr s -> reach tot pr (settle fuel n s).
Proof. induction fuel as [|f IH]; intros s R; cbn; [exact R|]. apply IH. now apply settle_round_reach. Qed.

Lemma do_op_reach tot pr s code a b c : reach tot pr s -> reach tot pr (fst (do_op s code a b c)).
Proof.
  intros R. unfold do_op.
  repeat match goal with
         | |- context [match ?z with Z0 => _ | Zpos _ => _ | Zneg _ => _ end] => destruct z
         | |- context [match ?p with xI _ => _ | xO _ => _ | xH => _ end] => destruct p
         | |- context [match find_worker ?s ?c ?q with Some _ => _ | None => _ end] => destruct (find_worker s c q)
         end; try exact R; now apply reach_step.
Qed.

(* non-vacuity: concrete reachable states meeting the hypotheses of the theorems above *)

Definition run (tot : nat) (pr : bool) (ops : list op) : st := final step (init tot pr) ops.

(* two callers, one token: 0 runs, 1 waits; 0 holds the token while its function executes *)
Definition ex_two : list op :=
  [Call 0 false; Resume 0; Resume 0; ThreadStart 0; Call 1 false; Resume 1].
Example ex_token_held :
  let s := run 1 false ex_two in
  In 0 (exec s) /\ live s 0 = true /\ lb s = [0] /\ lq s = [1] /\ ph (calls s 0) = PAwait 0 /\
  running_live s = [0] /\ lowered s = false.
Proof. vm_compute. repeat split; auto. Qed.

(* the function of 0 returns 7: the caller gets 7, the token goes to 1, which reuses worker 0 (LIFO) *)
Example ex_result_and_handoff :
  let s := run 1 false (ex_two ++ [ThreadFinish 0 (PVal 7); Resume 0]) in
  ph (calls s 0) = PPostCk (OVal 7) /\ fin (calls s 0) = Some (PVal 7) /\ lb s = [1] /\ lq s = [] /\
  idle s = [0] /\ ph (calls s 1) = PWaitLim /\ evset (calls s 1) = true /\ wcanc (calls s 1) = false /\
  ph (calls (fst (step s (Resume 1))) 1) = PAwait 0 /\ nwork (fst (step s (Resume 1))) = 1.
Proof. vm_compute. repeat split; auto. Qed.

Example ex_all_done_tokens_back :
  let s := run 1 false (ex_two ++ [ThreadFinish 0 PStopIter; Resume 0; Resume 0; Resume 1; ThreadStart 0;
                                   ThreadFinish 0 (PExn 3); Resume 1; Resume 1]) in
  ph (calls s 0) = PDone (DRet ORuntime false) /\ ph (calls s 1) = PDone (DRet (OExn 3) false) /\
  lb s = [] /\ lq s = [] /\ exec s = [] /\ idle s = [0].
Proof. vm_compute. repeat split; auto. Qed.

(* cancellation during a shielded (abandon_on_cancel=False) call: deferred, result returned, then delivered;
   check_cancelled in the thread reports it although the call scope is shielded *)
Definition ex_defer : list op :=
  [Scope 0 false; Call 0 false; Resume 0; Resume 0; ThreadStart 0; CancelCaller 0 0].
Example ex_cancel_deferred_hyp :
  let s := run 2 false ex_defer in
  ph (calls s 0) = PAwait 0 /\ abandon (calls s 0) = false /\ fut (calls s 0) = FPending /\
  walk (chain (calls s 0)) = true /\ wk s 0 = WExec 0 /\
  snd (step s (Resume 0)) = RRejected /\ snd (step s (Deliver 0)) = RNone /\
  snd (step s (ThreadCheckCancelled 0)) = RCC true /\
  handed (calls s 0) = chain (calls s 0) /\ walk ((false, true) :: chain (calls s 0)) = false.
Proof. vm_compute. repeat split; auto. Qed.

Example ex_cancel_deferred_result :
  let s := run 2 false (ex_defer ++ [Deliver 0; ThreadFinish 0 (PVal 5)]) in
  fut (calls s 0) = FRes (OVal 5) /\ snd (step s (Resume 0)) = RRet (OVal 5) /\
  snd (step (fst (step s (Resume 0))) (Resume 0)) = RCancelled /\
  ph (calls (fst (step (fst (step s (Resume 0))) (Resume 0))) 0) = PDone (DRet (OVal 5) true) /\
  lb (fst (step s (Resume 0))) = [].
Proof. vm_compute. repeat split; auto. Qed.

(* abandon_on_cancel=True: the caller leaves at once with its token, the function keeps running abandoned,
   its result is dropped, the worker returns to the pool *)
Definition ex_abandon : list op :=
  [Scope 0 false; Call 0 true; Resume 0; Resume 0; ThreadStart 0; CancelCaller 0 0; Resume 0].
Example ex_abandoned :
  let s := run 1 false ex_abandon in
  ph (calls s 0) = PDone DCancelled /\ lb s = [] /\ exec s = [0] /\ live s 0 = false /\ running_live s = [] /\
  snd (step s (ThreadCheckCancelled 0)) = RCC true /\
  let s' := fst (step s (ThreadFinish 0 (PVal 9))) in
  fin (calls s' 0) = Some (PVal 9) /\ fut (calls s' 0) = FCancelled /\ idle s' = [0] /\ exec s' = [] /\
  abandon (calls s' 0) = true /\ walk (chain (calls s' 0)) = true.
Proof. vm_compute. repeat split; auto. Qed.

(* a shield between the cancelled scope and the caller hides the cancellation from caller and thread alike *)
Example ex_shield_hides :
  let s := run 1 false [Scope 0 false; Scope 0 true; Call 0 false; Resume 0; Resume 0; ThreadStart 0;
                        CancelCaller 0 1] in
  chain (calls s 0) = [(false, true); (true, false)] /\ snd (step s (ThreadCheckCancelled 0)) = RCC false.
Proof. vm_compute. repeat split; auto. Qed.

(* cancelled while waiting for a token: leaves the queue, never starts *)
Example ex_cancel_in_queue :
  let s := run 1 false ([Scope 1 false] ++ ex_two ++ [CancelCaller 1 0; Resume 1]) in
  ph (calls s 1) = PDone DCancelled /\ lq s = [] /\ lb s = [0] /\ fin (calls s 1) = None.
Proof. vm_compute. repeat split; auto. Qed.

(* LIFO: workers 0 and 1 finish in that order; the next call takes 1 *)
Example ex_lifo :
  let s := run 3 false [Call 0 false; Resume 0; Resume 0; ThreadStart 0; Call 1 false; Resume 1; Resume 1; ThreadStart 1;
                        ThreadFinish 0 (PVal 0); ThreadFinish 1 (PVal 1); Call 2 false; Resume 2] in
  idle s = [1; 0] /\ ph (calls s 2) = PLimYield /\ ph (calls (fst (step s (Resume 2))) 2) = PAwait 1 /\
  idle (fst (step s (Resume 2))) = [0].
Proof. vm_compute. repeat split; auto. Qed.

(* raising the total grants queued callers only while tokens are free *)
Example ex_set_total :
  let s := run 1 false (ex_two ++ [Call 2 false; Resume 2; SetTotal 2]) in
  lb s = [1; 0] /\ lq s = [2] /\ total s = 2 /\ lowered s = false.
Proof. vm_compute. repeat split; auto. Qed.

(* the codec on a sample script: total 1, two calls, auto-settle *)
Example ex_codec :
  run_case [1; 0; 2; 1;  1;0;0;0;  1;1;0;0;  6;0;0;7;  6;1;1;3]%Z =
  [1;0;1;0;1;0;1;0;  1;0;1;1;1;0;1;0;  5;0;1;0;2;1;1;0;  5;0;0;0;0;3;1;1;  0;7;0;0;  3;3;0;1]%Z.
Proof. vm_compute. reflexivity. Qed.

Lemma codec_states_reachable tot pr fuel n s code a b c :
  reach tot pr s -> reach tot pr (settle fuel n (fst (do_op s code a b c))).
Proof. intros R. apply settle_reach. now apply do_op_reach. Qed.

(* 9. from_thread.run(coro) with a coroutine that really waits: its task is attached to the scope handed to the worker
      and is cancelled iff that scope or one of its VISIBLE ancestors is cancelled.  A scope that has been exited no
      longer has visible ancestors (fix 1940035 / F42). *)
Theorem from_thread_run_spec s w c :
  wk s w = WExec c -> ended s = false ->
  step s (ThreadRunAsync w) = (s, RRT (walk (handed_visible (calls s c)))) /\
  (* while the caller is inside the call scope the answer is that of check_cancelled: the caller's enclosing scopes *)
  (inside (calls s c) = true -> walk (handed_visible (calls s c)) = walk (chain (calls s c))) /\
  (* an abandoned thread (caller gone): never cancelled, whatever check_cancelled says *)
  (abandon (calls s c) = true -> inside (calls s c) = false -> walk (handed_visible (calls s c)) = false) /\
  (* a non-abandon call whose caller was torn away natively: only the handed scope's own flag counts *)
  (abandon (calls s c) = false -> inside (calls s c) = false ->
     walk (handed_visible (calls s c)) = match chain (calls s c) with (cc, _) :: _ => cc | [] => false end).
Proof.
  intros Ew Ee. cbn [step]. rewrite Ew, Ee. split; [reflexivity|].
  unfold handed_visible. refine (conj _ (conj _ _)).
  - intros ->. apply walk_handed.
  - intros Ea ->. unfold handed. rewrite Ea. reflexivity.
  - intros Ea ->. unfold handed. rewrite Ea. cbn. destruct (chain (calls s c)) as [|[cc sh] r]; cbn; [reflexivity|].
    destruct cc; [reflexivity|]. destruct sh; reflexivity.
Qed.

(* F51 (KNOWN finding, predicate from_thread_landed_after_loop_end): the hypothesis `ended s = false` is necessary.  After
   the loop's last iteration a thread that its caller abandoned (abandon_on_cancel=True, caller cancelled and gone) is
   still executing; its from_thread.run()/run_sync() hands the call over to a loop that will never run it: the thread
   waits for ever, it gets neither a value nor RunFinishedError. *)
Definition loop_end_ops : list op := ex_abandon ++ [LoopEnd].

Theorem rs_from_thread_landed_after_loop_end_refuted :
  exists ops, let s := final step (init 1 false) ops in
    no_land_after_loop_end false (ops ++ [ThreadRunAsync 0]) = false /\
    ended s = true /\ wk s 0 = WExec 0 /\ exec s = [0] /\
    abandon (calls s 0) = true /\ ph (calls s 0) = PDone DCancelled /\ lb s = [] /\
    step s (ThreadRunAsync 0) = (s, RHang) /\
    (* before the loop ended the very same call would have been served (and not cancelled) *)
    snd (step (final step (init 1 false) ex_abandon) (ThreadRunAsync 0)) = RRT false.
Proof. exists loop_end_ops. vm_compute. repeat split; reflexivity. Qed.

(* the boolean restriction is what the positive theorem needs: in a run that satisfies it, every from_thread.run() is
   issued while `ended = false` (ended is set by LoopEnd only) *)
Lemma ended_only_by_loop_end s o : o <> LoopEnd -> ended (fst (step s o)) = ended s.
Proof. apply step_frame. Qed.

Lemma nlale_issued_before_loop_end pre : forall s w post,
  no_land_after_loop_end (ended s) (pre ++ ThreadRunAsync w :: post) = true ->
  ended (final step s pre) = false.
Proof.
  induction pre as [|o r IH]; intros s w post Hb.
  - cbn in *. apply andb_true_iff in Hb. destruct Hb as [Hb _]. now apply negb_true_iff in Hb.
  - cbn [final fold_left app]. apply (IH (fst (step s o)) w post).
    assert (Hne : forall o0, o0 <> LoopEnd -> no_land_after_loop_end (ended s) (r ++ ThreadRunAsync w :: post) = true ->
                  no_land_after_loop_end (ended (fst (step s o0))) (r ++ ThreadRunAsync w :: post) = true).
    { intros o0 H0 H1. now rewrite ended_only_by_loop_end. }
    destruct o; cbn [app no_land_after_loop_end] in Hb; try (apply Hne; [discriminate|exact Hb]).
    + apply andb_true_iff in Hb. destruct Hb as [_ Hb]. apply Hne; [discriminate|exact Hb].
    + exact Hb.
Qed.

(* every from_thread.run() of a run that satisfies the restriction - at whatever position - is served: it is issued
   before the loop's last iteration, obeys the spec, and never hangs *)
Theorem rs_from_thread_run_served pre w post s :
  no_land_after_loop_end (ended s) (pre ++ ThreadRunAsync w :: post) = true ->
  let s' := final step s pre in
  ended s' = false /\
  snd (step s' (ThreadRunAsync w)) <> RHang /\
  (forall c, wk s' w = WExec c ->
     step s' (ThreadRunAsync w) = (s', RRT (walk (handed_visible (calls s' c))))).
Proof.
  intros Hb. cbn zeta. pose proof (nlale_issued_before_loop_end pre s w post Hb) as He.
  refine (conj He (conj _ _)).
  - cbn [step]. destruct (wk (final step s pre) w); cbn [snd]; try discriminate. rewrite He. discriminate.
  - intros c Ew. apply (from_thread_run_spec _ w c Ew He).
Qed.

Example ex_no_land_after_loop_end :
  no_land_after_loop_end false (ex_abandon ++ [ThreadRunAsync 0; ThreadFinish 0 (PVal 1); LoopEnd]) = true /\
  snd (step (final step (init 1 false) ex_abandon) (ThreadRunAsync 0)) = RRT false.
Proof. vm_compute. auto. Qed.

(* thread start failure: the token is back, the caller gets the RuntimeError, nothing was run *)
Example ex_spawn_fail :
  let s := run 1 false [Call 0 false; Resume 0; SpawnFail 0] in
  ph (calls s 0) = PPostCk OSpawn /\ lb s = [] /\ nwork s = 0 /\ fin (calls s 0) = None /\ exec s = [] /\
  snd (step (run 1 false [Call 0 false; Resume 0]) (SpawnFail 0)) = RRet OSpawn.
Proof. vm_compute. repeat split; auto. Qed.

(* with an idle worker no thread is started, so nothing can fail *)
Example ex_spawn_fail_needs_new_thread :
  snd (step (run 2 false [Call 0 false; Resume 0; Resume 0; ThreadStart 0; ThreadFinish 0 (PVal 1);
                          Call 1 false; Resume 1]) (SpawnFail 1)) = RRejected.
Proof. vm_compute. reflexivity. Qed.

(* native cancellation in the limiter's shielded checkpoint *)
Example ex_native_cancel_lim_yield :
  let s := run 1 false [Call 0 false; Resume 0; NativeCancel 0; Resume 0] in
  ph (calls s 0) = PDone DCancelled /\ lb s = [] /\ nwork s = 0 /\ ncr (calls s 0) = false.
Proof. vm_compute. repeat split; auto. Qed.

(* native cancellation while queued, (a) before and (b) after the token was granted: the token moves on *)
Example ex_native_cancel_queued :
  let s := run 1 false (ex_two ++ [Call 2 false; Resume 2; NativeCancel 1; Resume 1]) in
  ph (calls s 1) = PDone DCancelled /\ lq s = [2] /\ lb s = [0].
Proof. vm_compute. repeat split; auto. Qed.

Example ex_native_cancel_granted :
  let s := run 1 false (ex_two ++ [Call 2 false; Resume 2; ThreadFinish 0 (PVal 0); Resume 0; NativeCancel 1; Resume 1]) in
  ph (calls s 1) = PDone DCancelled /\ lq s = [] /\ lb s = [2] /\ evset (calls s 2) = true.
Proof. vm_compute. repeat split; auto. Qed.

(* native cancellation after the report landed but before the caller ran: the result is dropped *)
Example ex_native_cancel_after_report :
  let s := run 1 false [Call 0 false; Resume 0; Resume 0; ThreadStart 0; ThreadFinish 0 (PVal 4); NativeCancel 0; Resume 0] in
  ph (calls s 0) = PDone DCancelled /\ fin (calls s 0) = Some (PVal 4) /\ ncr (calls s 0) = true /\ lb s = [] /\
  abandon (calls s 0) = false.
Proof. vm_compute. repeat split; auto. Qed.

(* payloads: the function's own CancelledError and a BaseException *)
Example ex_payloads :
  let s := run 2 false [Scope 0 false; Call 0 false; Resume 0; Resume 0; ThreadStart 0; CancelCaller 0 0;
                        ThreadFinish 0 PCancelled; Resume 0;
                        Call 1 false; Resume 1; Resume 1; ThreadStart 0; ThreadFinish 0 (PBase 9); Resume 1; Resume 1] in
  ph (calls s 0) = PDone (DRet OCancelled false) /\ ph (calls s 1) = PDone (DRet (OBase 9) false) /\ lb s = [].
Proof. vm_compute. repeat split; auto. Qed.

(* F42 on the thread boundary: abandoned thread, caller gone; check_cancelled still raises, from_thread.run is not
   cancelled; while the caller is inside both agree *)
Example ex_abandoned_from_thread_run :
  let s := run 1 false ex_abandon in
  snd (step s (ThreadCheckCancelled 0)) = RCC true /\ snd (step s (ThreadRunAsync 0)) = RRT false /\
  let s1 := run 2 false ex_defer in
  snd (step s1 (ThreadCheckCancelled 0)) = RCC true /\ snd (step s1 (ThreadRunAsync 0)) = RRT true.
Proof. vm_compute. repeat split; auto. Qed.

(* the codec on the op codes 10-12: arm a spawn failure, native cancel of a running non-abandon call, RunAsync *)
Example ex_codec_new_ops :
  run_case [1; 0; 3; 1;  11;0;0;0;  1;0;0;0;  1;1;0;0;  10;1;0;0;  12;1;0;0;  1;2;0;0;  6;1;7;3;  6;2;6;5]%Z =
  [5;0;0;0;0;0;0;0;  1;0;0;0;0;1;0;0;  1;0;1;0;2;1;1;0;  5;0;0;0;2;3;1;0;  7;0;0;0;2;3;1;0;  1;0;1;0;6;3;2;0;
   5;0;1;0;4;3;2;1;  5;0;0;0;0;7;2;2;   9;0;0;(-1);  2;0;0;0;  0;5;0;0]%Z.
Proof. vm_compute. reflexivity. Qed.

(* rs_nonabandon_running_le_total, hypothesis AND content: total = 1; call 0 (abandon_on_cancel=True) is cancelled by AnyIO
   while its function runs and leaves (abandoned, still executing); call 1 (abandon_on_cancel=False) is then let in and
   its function executes.  No native cancellation anywhere.  At the end a non-abandon function IS executing and the bound
   is tight: running_nonabandon = [1], borrowed = total = 1 - while 2 functions execute in all. *)
Definition tight_ops : list op :=
  [Scope 0 false; Call 0 true; Resume 0; Resume 0; ThreadStart 0; Call 1 false; Resume 1;
   CancelCaller 0 0; Resume 0; Resume 1; ThreadStart 1].
Example ex_nonabandon_bound_tight :
  no_native_cancel_while_running (init 1 false) tight_ops = true /\
  let s := final step (init 1 false) tight_ops in
  exec s = [1; 0] /\ running_nonabandon s = [1] /\ lb s = [1] /\ total s = 1 /\
  length (running_nonabandon s) = total s /\ length (lb s) <= total s /\
  abandon (calls s 1) = false /\ ph (calls s 1) = PAwait 1 /\ wk s 1 = WExec 1 /\
  abandon (calls s 0) = true /\ ph (calls s 0) = PDone DCancelled /\ wk s 0 = WExec 0.
Proof. vm_compute. repeat split; auto. Qed.

(* the same with AnyIO cancellation of the running NON-abandon call: it stays, keeps its token, the second caller waits *)
Example ex_nonabandon_bound_tight_shielded :
  let ops := [Scope 0 false; Call 0 false; Resume 0; Resume 0; ThreadStart 0; Call 1 false; Resume 1;
              CancelCaller 0 0; Deliver 0] in
  no_native_cancel_while_running (init 1 false) ops = true /\
  let s := final step (init 1 false) ops in
  exec s = [0] /\ running_nonabandon s = [0] /\ lb s = [0] /\ lq s = [1] /\ total s = 1 /\
  walk (chain (calls s 0)) = true /\ ph (calls s 0) = PAwait 0.
Proof. vm_compute. repeat split; auto. Qed.

(* rs_no_grant_while_full, conjunct 2 (total' < |lb|): total 2, two functions run, a third caller queues; the total is
   lowered to 1 (over-full: 2 borrowers); the first function finishes and its caller releases: nobody new is let in
   although a caller is waiting - lb' = [1] is included in lb = [1; 0]; only after the second release (no longer
   over-full) is the waiter let in *)
Definition overfull_ops : list op :=
  [Call 0 false; Resume 0; Resume 0; ThreadStart 0; Call 1 false; Resume 1; Resume 1; ThreadStart 1;
   Call 2 false; Resume 2; SetTotal 1; ThreadFinish 0 (PVal 0)].
Example ex_no_grant_while_overfull :
  let s := final step (init 2 false) overfull_ops in
  total s = 1 /\ lb s = [1; 0] /\ lq s = [2] /\ total (fst (step s (Resume 0))) < length (lb s) /\
  let s1 := fst (step s (Resume 0)) in
  lb s1 = [1] /\ lq s1 = [2] /\ evset (calls s1 2) = false /\ ph (calls s1 0) = PPostCk (OVal 0) /\
  (* SetTotal itself, while over-full, lets nobody in either *)
  lb (final step (init 2 false) [Call 0 false; Resume 0; Resume 0; ThreadStart 0; Call 1 false; Resume 1; Resume 1;
                                 ThreadStart 1; Call 2 false; Resume 2; SetTotal 1]) = [1; 0] /\
  (* once drained to the new total the hand-over works again *)
  let s2 := final step s1 [ThreadFinish 1 (PVal 1); Resume 1] in
  lb s2 = [2] /\ lq s2 = [] /\ evset (calls s2 2) = true /\ length (lb s2) <= total s2.
Proof. vm_compute. repeat split; auto. Qed.

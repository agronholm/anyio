(* aclose() of a UNIXSocketStream while calls are parked (HEAD order: unregister, then close): invariant and
   theorems for every op sequence and both loop flavours; witnesses for the pinned order. *)
From AV Require Import Base UnixLoop.

Record CInv (s : cst) : Prop := {
  K_cs : c_closing s = c_sclosed s;
  K_reg : c_sclosed s = true -> c_fdopen s = false /\ forall d, reg s d = false;
  K_n : c_nclose s = if c_sclosed s then 1 else 0;
  K_err : c_errs s = 0;
  K_cwr : c_cwr s = false;
  K_p : forall d, ph s d = CParked -> c_closing s = false /\ reg s d = true /\ cb s d = false
}.

Lemma cinv_init : CInv cinit.
Proof. constructor; cbn; auto; try discriminate. intros []; discriminate. Qed.

Definition other (d : dir) : dir := match d with DR => DS | DS => DR end.

(* a change confined to direction d: what is left to check *)
Lemma cinv_side s s' d :
  CInv s ->
  (c_closing s', c_sclosed s', c_fdopen s', c_nclose s', c_errs s', c_cwr s') =
  (c_closing s, c_sclosed s, c_fdopen s, c_nclose s, c_errs s, c_cwr s) ->
  (ph s' (other d), reg s' (other d), cb s' (other d)) = (ph s (other d), reg s (other d), cb s (other d)) ->
  (reg s' d = reg s d \/ reg s' d = false \/ c_sclosed s = false) ->
  (ph s' d = CParked -> c_closing s = false /\ reg s' d = true /\ cb s' d = false) ->
  CInv s'.
Proof.
  intros [H1 H2 H3 H4 H5 H6] G O R P. injection G as G1 G2 G3 G4 G5 G6. injection O as O1 O2 O3.
  assert (D : forall d', d' = d \/ d' = other d) by (intros []; destruct d; auto).
  constructor; rewrite ?G1, ?G2, ?G3, ?G4, ?G5, ?G6; auto.
  - intros Hc. destruct (H2 Hc) as [A B]. split; [exact A|].
    intros d'. destruct (D d') as [->| ->]; [|rewrite O2; apply B].
    destruct R as [->|[R|R]]; [apply B|exact R|congruence].
  - intros d'. destruct (D d') as [->| ->]; [exact P|]. rewrite O1, O2, O3. apply H6.
Qed.

(* unregistering works while the socket is not closed (and completes no deferred close) *)
Lemma loop_remove_open defer s d : c_sclosed s = false -> loop_remove defer s d = Some (set_reg s d false).
Proof. intros H. unfold loop_remove, finish_close. destruct d; cbn; rewrite H; reflexivity. Qed.

Lemma cstep_inv defer s o : CInv s -> CInv (fst (cstep false defer s o)).
Proof.
  intros I.
  pose proof (eq_sym (K_cs s I)) as Hs.
  destruct o as [d|d a|d|d|d|]; unfold cstep.
  (* CBegin, CReady, CCancel touch ph and cb of d only and leave d unparked *)
  1, 3, 4: destruct (ph s d) eqn:E; try exact I; try (destruct (reg s d) eqn:Er; [|exact I]);
    apply (cinv_side s _ d I); destruct d; cbn; auto; discriminate.
  - destruct (ph s d) as [|c|] eqn:E; try exact I. destruct (cb s d) eqn:Ecb; [exact I|].
    assert (Idle : forall r : cres, CInv (fst (set_ph s d CIdle, r))).
    { intros r. apply (cinv_side s _ d I); destruct d; cbn; auto; discriminate. }
    destruct c; [apply Idle|]. destruct (c_fdopen s) eqn:Ef; [destruct a|]; try apply Idle.
    (* parks: the descriptor is open, so the socket is not closed *)
    assert (Hc : c_sclosed s = false).
    { destruct (c_sclosed s) eqn:Hc; [|reflexivity]. destruct (K_reg s I Hc). congruence. }
    apply (cinv_side s _ d I); destruct d; cbn in *; auto.
    all: intros _; rewrite <- Hs; auto.
  - destruct (cb s d) eqn:Ecb; [|exact I]. cbn [negb orb].
    (* the call whose callback is due is not parked; unregistering works while the socket is not closed *)
    assert (NP : ph s d <> CParked) by (intros E; destruct (K_p s I d E) as (_ & _ & C); congruence).
    unfold loop_remove, finish_close.
    destruct (c_closing s) eqn:Ec; apply (cinv_side s _ d I); destruct d; cbn in *; rewrite ?Hs, ?Ec; cbn; auto;
      intros E; contradiction.
  - destruct (c_closing s) eqn:Ec; [exact I|].
    (* both registrations go first (the socket is not closed yet), then the one close(), then both calls are woken *)
    pose proof (K_n s I) as Hn. rewrite Hs in Hn.
    cbv zeta. cbn [c_sclosed]. rewrite Hs.
    rewrite !loop_remove_open by reflexivity. unfold wake_parked. cbn.
    destruct (c_phr s), (c_phs s);
      (constructor; cbn;
       [reflexivity|intros _; split; [apply Bool.andb_false_r|intros []; reflexivity]|rewrite Hn; reflexivity
       |apply I|rewrite (K_cwr s I); reflexivity|intros []; discriminate]).
Qed.

Definition creach (defer : bool) (s : cst) : Prop := exists ops, s = final (cstep false defer) cinit ops.

Lemma creach_inv defer s : creach defer s -> CInv s.
Proof.
  intros [ops ->]. apply (final_inv (cstep false defer) CInv); [intros; apply cstep_inv; assumption|apply cinv_init].
Qed.

(* a closed socket has no registration with the loop, its descriptor is really closed, close() ran exactly once,
   never while a registration existed, and the loop's exception handler was never called *)
Theorem unix_closed_socket_not_registered defer s :
  creach defer s ->
  (c_sclosed s = true -> c_regr s = false /\ c_regw s = false /\ c_fdopen s = false /\ c_nclose s = 1) /\
  c_nclose s <= 1 /\ c_cwr s = false /\ c_errs s = 0 /\ c_closing s = c_sclosed s.
Proof.
  intros R. destruct (creach_inv defer s R) as [H1 H2 H3 H4 H5 H6].
  split.
  - intros Hc. destruct (H2 Hc) as (A & B). rewrite Hc in H3. pose proof (B DR). pose proof (B DS). auto.
  - rewrite H3. destruct (c_sclosed s); auto.
Qed.

(* after aclose() no call stays parked (each one was woken), and whatever the kernel oracle says the next step of a
   woken, uncancelled call ends with ClosedResourceError; a call begun afterwards ends the same way *)
Theorem unix_close_ends_parked_calls defer s d a :
  creach defer s -> c_closing s = true ->
  ph s d <> CParked /\
  (ph s d = CRun false -> cb s d = false ->
     snd (cstep false defer s (CStep d a)) = CEnd UClosed /\
     ph (fst (cstep false defer s (CStep d a))) d = CIdle).
Proof.
  intros R Hc. destruct (creach_inv defer s R) as [H1 H2 H3 H4 H5 H6].
  assert (Hs : c_sclosed s = true) by congruence.
  destruct (H2 Hs) as (C & _).
  split.
  - intros E. destruct (H6 d E) as (X & _). congruence.
  - intros Hp Hcb. unfold cstep. rewrite Hp, Hcb, C, Hc. destruct d; cbn; auto.
Qed.

(* the scenario of finding F33, for every reachable state in which a receive AND a send are parked: a third task
   closes, the two done-callbacks run, then the two tasks in either order: both get ClosedResourceError, the socket
   was closed once and is not registered; no loop error *)
Theorem unix_close_with_both_parked defer s a b :
  creach defer s -> c_phr s = CParked -> c_phs s = CParked ->
  let s1 := final (cstep false defer) s [CClose; CCallback DR; CCallback DS] in
  snd (cstep false defer s1 (CStep DR a)) = CEnd UClosed /\
  snd (cstep false defer (fst (cstep false defer s1 (CStep DR a))) (CStep DS b)) = CEnd UClosed /\
  snd (cstep false defer s1 (CStep DS b)) = CEnd UClosed /\
  c_nclose s1 = 1 /\ c_fdopen s1 = false /\ c_regr s1 = false /\ c_regw s1 = false /\ c_errs s1 = 0.
Proof.
  intros R Hr Hs. destruct (creach_inv defer s R) as [H1 H2 H3 H4 H5 H6].
  destruct (H6 DR Hr) as (Hc & Hrr & Hcr). destruct (H6 DS Hs) as (_ & Hrw & Hcw).
  destruct s as [cl sc fd n rr rw pr ps cbr cbw er cw]. cbn in H1, H2, H3, H4, H5, Hc, Hrr, Hrw, Hcr, Hcw, Hr, Hs.
  subst.
  destruct defer, fd, a, b; vm_compute; auto 10.
Qed.

(* the pinned order (before commit e49bd95) *)
Theorem unix_close_while_registered_refuted_pinned :
  (* uvloop flavour: both calls park again on the still-open descriptor: blocked forever, socket never closed *)
  (let s := final (cstep true true) cinit
              [CBegin DR; CStep DR ABlock; CBegin DS; CStep DS ABlock; CClose;
               CCallback DR; CStep DR ABlock; CCallback DS; CStep DS ABlock] in
   c_closing s = true /\ c_phr s = CParked /\ c_phs s = CParked /\ c_fdopen s = true /\
   c_cbr s = false /\ c_cbw s = false /\ c_cwr s = true) /\
  (* selector-loop flavour: closed while registered, both done-callbacks raise in the loop *)
  (let s := final (cstep true false) cinit
              [CBegin DR; CStep DR ABlock; CBegin DS; CStep DS ABlock; CClose; CCallback DR; CCallback DS] in
   c_cwr s = true /\ c_errs s = 2 /\ c_regr s = true /\ c_regw s = true /\ c_sclosed s = true) /\
  (* HEAD on the first history *)
  (let s := final (cstep false true) cinit
              [CBegin DR; CStep DR ABlock; CBegin DS; CStep DS ABlock; CClose;
               CCallback DR; CStep DR ABlock; CCallback DS; CStep DS ABlock] in
   c_phr s = CIdle /\ c_phs s = CIdle /\ c_fdopen s = false /\ c_cwr s = false /\ c_errs s = 0).
Proof. vm_compute. auto 20. Qed.

Example ex_close_both_parked_hyp :
  let s := final (cstep false true) cinit [CBegin DR; CStep DR ABlock; CBegin DS; CStep DS ABlock] in
  creach true s /\ c_phr s = CParked /\ c_phs s = CParked.
Proof. split; [eexists; reflexivity|vm_compute; auto]. Qed.

Example ex_close_codec :
  run_case [2; 1; 0; 0; 1; 1; 0; 1; 1; 5; 5; 0; 4; 0; 4; 1; 1; 1; 1; 5]%Z =
  [11; 0; 0; 1; 0; 0; 0; 0; 1; 0; 0; 0; 0;
   11; 0; 0; 1; 1; 0; 0; 0; 3; 0; 0; 0; 0;
   11; 0; 0; 1; 1; 0; 0; 0; 3; 1; 0; 0; 0;
   11; 0; 0; 1; 1; 1; 0; 0; 3; 3; 0; 0; 0;
   11; 1; 1; 0; 0; 0; 1; 0; 1; 1; 1; 1; 0;
   11; 1; 1; 0; 0; 0; 1; 0; 1; 1; 0; 1; 0;
   11; 1; 1; 0; 0; 0; 1; 0; 1; 1; 0; 0; 0;
   5; 1; 1; 0; 0; 0; 1; 0; 0; 1; 0; 0; 0;
   5; 1; 1; 0; 0; 0; 1; 0; 0; 0; 0; 0; 0]%Z.
Proof. vm_compute. reflexivity. Qed.

(* non-vacuity of unix_close_ends_parked_calls, both loop flavours: a reachable closing state in which a woken,
   uncancelled receive (resp. send) has its done-callback behind it, and its next step ends with ClosedResourceError
   whatever the kernel would answer *)
Example unix_close_ends_parked_calls_nonvacuous :
  forall defer,
  let s := final (cstep false defer) cinit
             [CBegin DR; CStep DR ABlock; CBegin DS; CStep DS ABlock; CClose; CCallback DR; CCallback DS] in
  creach defer s /\ c_closing s = true /\
  ph s DR = CRun false /\ cb s DR = false /\ ph s DS = CRun false /\ cb s DS = false /\
  snd (cstep false defer s (CStep DR ABlock)) = CEnd UClosed /\
  snd (cstep false defer s (CStep DS AOk)) = CEnd UClosed.
Proof.
  intros defer. split; [eexists; reflexivity|]. destruct defer; vm_compute; auto 10.
Qed.

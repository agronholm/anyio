(* Facts about the traces of pure/Itertools.v used by ItertoolsAlias.v and ItertoolsProofs.v: what a trace yields,
   and the checkpoint predicates of the C08 itertools clause. *)
From AV Require Import Base Itertools.

Lemma yields_app {A} (a b : list (event A)) : yields (a ++ b) = yields a ++ yields b.
Proof.
  induction a as [|e a IH]; cbn; [reflexivity|]. destruct e; cbn; now rewrite IH.
Qed.

Lemma yields_pre {A} k : yields (@pre A k) = [].
Proof. destruct k; reflexivity. Qed.

Lemma yields_tail {A} y : yields (@tail A y) = [].
Proof. destruct y; reflexivity. Qed.

Lemma yields_pre_app {A} k (t : list (event A)) : yields (pre k ++ t) = yields t.
Proof. now rewrite yields_app, yields_pre. Qed.

Lemma yields_collect {B} k l : yields (@collect B k l) = [].
Proof. induction l as [|x r IH]; cbn; [apply yields_pre|]. now rewrite yields_pre_app. Qed.

Lemma yields_emit_sync {B} (vs : list B) : yields (emit_sync vs) = vs.
Proof. induction vs as [|v r IH]; cbn; [reflexivity|]. now rewrite IH. Qed.

Lemma yields_collect_all {B} ss : yields (@collect_all B ss) = [].
Proof. induction ss as [|s r IH]; cbn; [reflexivity|]. now rewrite yields_app, yields_collect, IH. Qed.

Ltac ysimp :=
  repeat (rewrite ?yields_pre_app, ?yields_app, ?yields_pre, ?yields_tail, ?yields_collect, ?yields_emit_sync,
                  ?yields_collect_all; cbn [yields app fst snd]).

Lemma outcome_tapp {A} ev (t : trace A) : outcome (tapp ev t) = (yields ev ++ fst (outcome t), snd (outcome t)).
Proof. destruct t as [tr e]. unfold outcome, tapp. cbn. now rewrite yields_app. Qed.

Lemma iter_all_yields k l : yields (iter_all k l) = l.
Proof. induction l as [|x r IH]; cbn; ysimp; [reflexivity|]. now rewrite IH. Qed.

(* C08, itertools clause: every error-free traversal passes a checkpoint if its sources are synchronous or if it
   yields nothing.  "Passes a checkpoint" = a cancellation check AND a real yield (passes_ck), and no element is handed
   out before the first cancellation check (check_before_first_yield_value).
   `good t`: the trace passes a checkpoint or yields something. *)
Notation cbf := check_before_first_yield_value.
Definition ckd {A} (t : list (event A)) : Prop := passes_ck t = true /\ cbf t = true.
Definition good {A} (t : list (event A)) : Prop := passes_ck t = true \/ yields t <> [].

Lemma passes_app_l {A} (a b : list (event A)) : passes_ck a = true -> passes_ck (a ++ b) = true.
Proof.
  unfold passes_ck. intros H. apply andb_prop in H as [H1 H2]. now rewrite !existsb_app, H1, H2.
Qed.

Lemma passes_app_r {A} (a b : list (event A)) : passes_ck b = true -> passes_ck (a ++ b) = true.
Proof.
  unfold passes_ck. intros H. apply andb_prop in H as [H1 H2]. rewrite !existsb_app, H1, H2. now rewrite !orb_true_r.
Qed.

Lemma cbf_no_yield {A} (t : list (event A)) : yields t = [] -> cbf t = true.
Proof. induction t as [|e r IH]; [reflexivity|]. destruct e; cbn; auto; discriminate. Qed.

Lemma cbf_app_l {A} (a b : list (event A)) : existsb is_check a = true -> cbf a = true -> cbf (a ++ b) = true.
Proof. induction a as [|e r IH]; [discriminate|]. destruct e; cbn; auto; discriminate. Qed.

Lemma cbf_app_r {A} (a b : list (event A)) : yields a = [] -> cbf b = true -> cbf (a ++ b) = true.
Proof. induction a as [|e r IH]; [auto|]. destruct e; cbn; auto; discriminate. Qed.

Lemma ckd_app_l {A} (a b : list (event A)) : ckd a -> ckd (a ++ b).
Proof.
  intros [P C]. split; [now apply passes_app_l|]. apply cbf_app_l; [|exact C].
  unfold passes_ck in P. now apply andb_prop in P as [_ P].
Qed.

Lemma ckd_app_r {A} (a b : list (event A)) : yields a = [] -> ckd b -> ckd (a ++ b).
Proof. intros Y [P C]. split; [now apply passes_app_r|now apply cbf_app_r]. Qed.

Lemma good_app_r {A} (a t : list (event A)) : good t -> good (a ++ t).
Proof.
  intros [H|H]; [left; now apply passes_app_r|].
  right. rewrite yields_app. destruct (yields a); [exact H|discriminate].
Qed.

Lemma good_yield {A} (a t : list (event A)) v : good (a ++ Yield v :: t).
Proof. apply good_app_r. right. discriminate. Qed.

(* covers `a ++ tail false` *)
Lemma good_ck {A} (a : list (event A)) : good (a ++ [Ck]).
Proof. apply good_app_r. left. reflexivity. Qed.

Lemma good_use {A} (t : list (event A)) : good t -> yields t = [] -> ckd t.
Proof. intros [H|H] Y; [split; [exact H|now apply cbf_no_yield]|contradiction]. Qed.

Lemma sync_pre {A} k (t : list (event A)) : is_sync k = true -> ckd (pre k ++ t).
Proof. destruct k; [split; reflexivity|discriminate]. Qed.

(* the shape of the checkpoint theorems: over a synchronous source the trace opens with the adaptor's check and
   shielded yield; a traversal that hands out nothing ends in `tail false` *)
Lemma ckd_cases {A} k (t : list (event A)) :
  (is_sync k = true -> ckd t) -> good t -> is_sync k = true \/ yields t = [] -> ckd t.
Proof. intros S G [H|H]; [exact (S H)|exact (good_use t G H)]. Qed.

Lemma ckd_emit_sync {B} (vs : list B) : ckd (emit_sync vs).
Proof. destruct vs; split; reflexivity. Qed.

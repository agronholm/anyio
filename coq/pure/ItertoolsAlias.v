(* Aliasing: the same iterator object at several argument positions.  The aliased models of pure/Itertools.v agree
   with the standard-library semantics over shared underlying iterators, for every position -> iterator map. *)
From AV Require Import Base Itertools ItertoolsTrace.
From Coq Require Import ZifyBool.

(* chain, product, starmap, compress *)
Lemma chain_alias_go_yields ko kd : forall ps st y, yields (chain_alias_go ko kd st ps y) = concat (drain st ps).
Proof.
  induction ps as [|i r IH]; intros st y; cbn [chain_alias_go drain concat]; ysimp; [reflexivity|].
  now rewrite iter_all_yields, IH.
Qed.

Theorem chain_alias_agrees : forall ko kd st ps, outcome (chain_alias_model ko kd st ps) = chain_alias_spec st ps.
Proof. intros. unfold outcome, chain_alias_model, chain_alias_spec. cbn. now rewrite chain_alias_go_yields. Qed.

Lemma yields_collect_alias {B} kd : forall ps st, yields (@collect_alias B kd st ps) = [].
Proof. induction ps as [|i r IH]; intros st; cbn; [reflexivity|]. now rewrite yields_app, yields_collect, IH. Qed.

Theorem product_alias_agrees : forall rep kd st ps,
  outcome (product_alias_model rep kd st ps) = product_alias_spec rep st ps.
Proof.
  intros. unfold outcome, product_alias_model, product_alias_spec, product_spec.
  destruct (rep <? 0)%Z; cbn [fst snd]; [reflexivity|].
  now rewrite yields_app, yields_collect_alias, yields_emit_sync.
Qed.

Lemma starmap_alias_go_yields f ko kd : forall ps st y,
  yields (starmap_alias_go f ko kd st ps y) = map f (drain st ps).
Proof. induction ps as [|i r IH]; intros st y; cbn; ysimp; [reflexivity|]. now rewrite IH. Qed.

Theorem starmap_alias_agrees : forall f ko kd st ps,
  outcome (starmap_alias_model f ko kd st ps) = starmap_alias_spec f st ps.
Proof. intros. unfold outcome, starmap_alias_model, starmap_alias_spec. cbn. now rewrite starmap_alias_go_yields. Qed.

(* two elements at a time, as compress(it, it) takes them *)
Lemma pair_ind (P : list Z -> Prop) :
  P [] -> (forall x, P [x]) -> (forall x b r, P r -> P (x :: b :: r)) -> forall l, P l.
Proof. intros H0 H1 H2. fix IH 1. intros [|x [|b r]]; [exact H0|apply H1|apply H2, IH]. Qed.

Lemma compress_self_go_yields k : forall l y,
  yields (compress_self_go k l y) = map fst (filter (fun p => truthy (snd p)) (pair_up l)).
Proof.
  induction l as [|x|x b r IH] using pair_ind; intros y; cbn [compress_self_go pair_up filter map]; ysimp;
    try reflexivity.
  cbn [snd]. destruct (truthy b); cbn [yields map fst]; now rewrite IH.
Qed.

Theorem compress_self_agrees : forall s, outcome (compress_self_model s) = compress_self_spec (snd s).
Proof.
  intros s. unfold outcome, compress_self_model, compress_self_spec. cbn [fst snd].
  now rewrite compress_self_go_yields.
Qed.

(* distinct sources are the special case: no index occurs twice *)
Lemma drain_distinct : forall ps st, NoDup ps -> drain st ps = map st ps.
Proof.
  induction ps as [|i r IH]; intros st H; [reflexivity|]. inversion H as [|? ? Hi Hr]; subst.
  cbn [drain map]. f_equal. rewrite (IH _ Hr). apply map_ext_in. intros j Hj.
  apply upd_other. intros ->. contradiction.
Qed.

Theorem chain_alias_spec_distinct : forall st ps, NoDup ps -> chain_alias_spec st ps = chain_spec (map st ps).
Proof. intros. unfold chain_alias_spec, chain_spec. now rewrite drain_distinct. Qed.

Theorem product_alias_spec_distinct : forall rep st ps, NoDup ps ->
  product_alias_spec rep st ps = product_spec rep (map st ps).
Proof. intros. unfold product_alias_spec. now rewrite drain_distinct. Qed.

Theorem starmap_alias_spec_distinct : forall f st ps, NoDup ps ->
  starmap_alias_spec f st ps = starmap_spec f (map st ps).
Proof. intros. unfold starmap_alias_spec, starmap_spec. now rewrite drain_distinct. Qed.

(* zip_longest *)
Definition count_act (ps : list zpos) : nat := length (filter p_active ps).
Definition is_nil (l : list Z) : bool := match l with [] => true | _ => false end.

(* what one position does in a round: whether it finds its iterator exhausted, the store it leaves behind, the
   value it contributes, and the position it is afterwards.  zs_round and zla_round do this position after
   position (zs_round_cons, zla_round_cons), so the case analysis of their bodies is made once, here. *)
Definition z_ex (st : istore) (p : zpos) : bool := p_active p && is_nil (st (p_idx p)).
Definition z_take (st : istore) (p : zpos) : istore :=
  if p_active p then match st (p_idx p) with _ :: xs => upd st (p_idx p) xs | [] => st end else st.
Definition z_val (fill : Z) (st : istore) (p : zpos) : Z := if p_active p then hd fill (st (p_idx p)) else fill.
Definition z_next (st : istore) (p : zpos) : zpos := if z_ex st p then mkP (p_idx p) false else p.

Lemma zs_round_cons fill st p rest :
  zs_round fill st (p :: rest) =
  let '(vs, st', ps') := zs_round fill (z_take st p) rest in (z_val fill st p :: vs, st', z_next st p :: ps').
Proof.
  cbn [zs_round]. unfold z_take, z_val, z_next, z_ex.
  destruct (p_active p); [destruct (st (p_idx p))|]; reflexivity.
Qed.

Lemma zla_round_cons fill kd st p rest na y :
  zla_round fill kd st (p :: rest) na y =
  if z_ex st p && (na <=? 1) then (pre (kd (p_idx p)) ++ tail y, st, None)
  else let '(ev, st', r) := zla_round fill kd (z_take st p) rest (if z_ex st p then pred na else na) y in
       ((if p_active p then pre (kd (p_idx p)) else []) ++ ev, st',
        match r with
        | Some (vs, ps', na') => Some (z_val fill st p :: vs, z_next st p :: ps', na')
        | None => None
        end).
Proof.
  cbn [zla_round]. unfold z_take, z_val, z_next, z_ex.
  destruct (p_active p); [destruct (st (p_idx p)); [destruct na as [|[|n]]|]|]; reflexivity.
Qed.

Lemma z_next_idx st p : p_idx (z_next st p) = p_idx p.
Proof. unfold z_next. now destruct (z_ex st p). Qed.

Lemma z_next_active st p : p_active (z_next st p) = p_active p && negb (is_nil (st (p_idx p))).
Proof. unfold z_next, z_ex. destruct (p_active p) eqn:E, (is_nil (st (p_idx p))); cbn; auto. Qed.

Lemma z_take_other st p j : j <> p_idx p -> z_take st p j = st j.
Proof.
  intros H. unfold z_take. destruct (p_active p); [|reflexivity].
  destruct (st (p_idx p)); [reflexivity|now apply upd_other].
Qed.

Lemma z_take_same st p : z_take st p (p_idx p) = if p_active p then List.tl (st (p_idx p)) else st (p_idx p).
Proof.
  unfold z_take. destruct (p_active p); [|reflexivity]. destruct (st (p_idx p)) eqn:E; [exact E|apply upd_same].
Qed.

Lemma z_take_le st p j : length (z_take st p j) <= length (st j).
Proof.
  destruct (Nat.eq_dec j (p_idx p)) as [->|H]; [|rewrite z_take_other by exact H; lia].
  rewrite z_take_same. destruct (p_active p), (st (p_idx p)); cbn; lia.
Qed.

(* number of positions that find their iterator exhausted in this round *)
Fixpoint zs_newly (st : istore) (ps : list zpos) : nat :=
  match ps with
  | [] => 0
  | p :: rest => (if z_ex st p then 1 else 0) + zs_newly (z_take st p) rest
  end.

Lemma zs_round_count fill : forall ps st,
  count_act (snd (zs_round fill st ps)) + zs_newly st ps = count_act ps.
Proof.
  induction ps as [|p rest IH]; intros st; [reflexivity|]. rewrite zs_round_cons. cbn [zs_newly].
  specialize (IH (z_take st p)). destruct (zs_round fill (z_take st p) rest) as [[vs st'] ps'].
  unfold count_act in *. cbn [snd filter] in *. rewrite z_next_active. unfold z_ex.
  destruct (p_active p), (is_nil (st (p_idx p))); cbn [andb negb length]; lia.
Qed.

Lemma zla_round_completes fill kd y : forall ps st na,
  zs_newly st ps < na ->
  exists ev, zla_round fill kd st ps na y =
             (ev, snd (fst (zs_round fill st ps)),
              Some (fst (fst (zs_round fill st ps)), snd (zs_round fill st ps), na - zs_newly st ps))
             /\ yields ev = [].
Proof.
  induction ps as [|p rest IH]; intros st na H; [exists []; cbn; rewrite Nat.sub_0_r; auto|].
  rewrite zla_round_cons, zs_round_cons. cbn [zs_newly] in *.
  destruct (IH (z_take st p) (if z_ex st p then pred na else na)) as (ev & E & Y); [destruct (z_ex st p); lia|].
  rewrite E. replace (z_ex st p && (na <=? 1)) with false by (destruct (z_ex st p); lia).
  destruct (zs_round fill (z_take st p) rest) as [[vs st'] ps']. cbn [fst snd].
  exists ((if p_active p then pre (kd (p_idx p)) else []) ++ ev).
  split; [do 3 f_equal; destruct (z_ex st p); lia|destruct (p_active p); ysimp; exact Y].
Qed.

Lemma zla_round_returns fill kd y : forall ps st na,
  1 <= na -> na <= zs_newly st ps ->
  exists ev st'', zla_round fill kd st ps na y = (ev, st'', None) /\ yields ev = [] /\
                  (y = false -> passes_ck ev = true).
Proof.
  induction ps as [|p rest IH]; intros st na H1 H2; [cbn in H2; lia|].
  rewrite zla_round_cons. cbn [zs_newly] in H2. destruct (z_ex st p && (na <=? 1)) eqn:X.
  - exists (pre (kd (p_idx p)) ++ tail y), st. split; [reflexivity|]. split; [ysimp; reflexivity|].
    intros ->. apply passes_app_r. reflexivity.
  - destruct (IH (z_take st p) (if z_ex st p then pred na else na)) as (ev & st2 & E & Y & C);
      [destruct (z_ex st p); lia..|].
    rewrite E. exists ((if p_active p then pre (kd (p_idx p)) else []) ++ ev), st2.
    split; [reflexivity|]. split; [destruct (p_active p); ysimp; exact Y|].
    intros Hy. apply passes_app_r, (C Hy).
Qed.

(* the measure: total number of elements still reachable through the positions *)
Definition zmeasure (st : istore) (ps : list zpos) : nat := alias_measure st (map p_idx ps).

Lemma zs_round_idx fill : forall ps st, map p_idx (snd (zs_round fill st ps)) = map p_idx ps.
Proof.
  induction ps as [|p rest IH]; intros st; [reflexivity|]. rewrite zs_round_cons.
  specialize (IH (z_take st p)). destruct (zs_round fill (z_take st p) rest) as [[vs st'] ps'].
  cbn [snd map] in *. now rewrite IH, z_next_idx.
Qed.

Lemma zs_round_shrinks fill : forall ps st i, length (snd (fst (zs_round fill st ps)) i) <= length (st i).
Proof.
  induction ps as [|p rest IH]; intros st i; [cbn; lia|]. rewrite zs_round_cons.
  specialize (IH (z_take st p) i). destruct (zs_round fill (z_take st p) rest) as [[vs st'] ps'].
  cbn [fst snd] in *. pose proof (z_take_le st p i). lia.
Qed.

Lemma zs_round_active_shrinks fill : forall ps st p',
  In p' (snd (zs_round fill st ps)) -> p_active p' = true ->
  length (snd (fst (zs_round fill st ps)) (p_idx p')) < length (st (p_idx p')).
Proof.
  induction ps as [|p rest IH]; intros st p' Hin Hact; [destruct Hin|]. rewrite zs_round_cons in *.
  specialize (IH (z_take st p) p'). pose proof (zs_round_shrinks fill rest (z_take st p) (p_idx p)) as Hs.
  destruct (zs_round fill (z_take st p) rest) as [[vs st'] ps']. cbn [fst snd] in *.
  destruct Hin as [<-|Hin].
  - rewrite z_next_active in Hact. rewrite z_next_idx. rewrite z_take_same in Hs.
    destruct (p_active p), (st (p_idx p)); cbn in *; try discriminate; lia.
  - specialize (IH Hin Hact). pose proof (z_take_le st p (p_idx p')). lia.
Qed.

Lemma sum_lt (f g : nat -> nat) : forall l, (forall i, f i <= g i) -> (exists j, In j l /\ f j < g j) ->
  fold_right (fun i a => f i + a) 0 l < fold_right (fun i a => g i + a) 0 l.
Proof.
  induction l as [|i r IH]; intros Hle (j & Hin & Hlt); [destruct Hin|]. cbn [fold_right].
  assert (Hr : fold_right (fun i a => f i + a) 0 r <= fold_right (fun i a => g i + a) 0 r).
  { clear -Hle. induction r as [|k r IHr]; cbn; [lia|]. specialize (Hle k). lia. }
  destruct Hin as [->|Hin].
  - lia.
  - specialize (IH Hle (ex_intro _ j (conj Hin Hlt))). specialize (Hle i). lia.
Qed.

Lemma zs_round_measure fill st ps :
  existsb p_active (snd (zs_round fill st ps)) = true ->
  zmeasure (snd (fst (zs_round fill st ps))) (snd (zs_round fill st ps)) < zmeasure st ps.
Proof.
  intros H. unfold zmeasure, alias_measure. rewrite zs_round_idx.
  apply (sum_lt (fun i => length (snd (fst (zs_round fill st ps)) i)) (fun i => length (st i))).
  - intros i. apply zs_round_shrinks.
  - apply existsb_exists in H as (p' & Hin & Hact). exists (p_idx p'). split.
    + rewrite <- (zs_round_idx fill ps st). now apply in_map.
    + now apply zs_round_active_shrinks.
Qed.

Lemma count_act_pos ps : existsb p_active ps = (0 <? count_act ps).
Proof.
  unfold count_act. induction ps as [|p r IH]; [reflexivity|]. cbn. destruct (p_active p); [reflexivity|exact IH].
Qed.

Lemma zla_loop_agrees fill kd : forall fuel st ps y,
  1 <= count_act ps -> zmeasure st ps < fuel ->
  exists t rows, zla_loop fuel fill kd st ps (count_act ps) y = Some t /\
                 zs_rows fuel fill st ps = Some rows /\ yields t = rows /\
                 (y = false -> rows = [] -> passes_ck t = true).
Proof.
  induction fuel as [|fuel IH]; intros st ps y Hna Hf; [lia|].
  cbn [zla_loop zs_rows].
  pose proof (zs_round_count fill ps st) as Hc.
  pose proof (zs_round_measure fill st ps) as Hm.
  destruct (existsb p_active (snd (zs_round fill st ps))) eqn:E.
  - rewrite count_act_pos in E.
    destruct (zla_round_completes fill kd y ps st (count_act ps) ltac:(lia)) as (ev & R & Y). rewrite R.
    specialize (Hm eq_refl).
    replace (count_act ps - zs_newly st ps) with (count_act (snd (zs_round fill st ps))) by lia.
    destruct (zs_round fill st ps) as [[vs st'] ps'] eqn:Z. cbn [fst snd] in *. rewrite count_act_pos, E.
    destruct (IH st' ps' true ltac:(lia) ltac:(lia)) as (t & rows & L & S & Yt & _).
    rewrite L, S. exists (ev ++ Yield vs :: t), (vs :: rows). split; [reflexivity|]. split; [reflexivity|].
    split; [rewrite yields_app, Y; cbn; now rewrite Yt|discriminate].
  - rewrite count_act_pos in E.
    destruct (zla_round_returns fill kd y ps st (count_act ps) Hna ltac:(lia)) as (ev & st2 & R & Y & C). rewrite R.
    destruct (zs_round fill st ps) as [[vs st'] ps'] eqn:Z. cbn [fst snd] in *. rewrite count_act_pos, E.
    exists ev, []. auto.
Qed.

(* for every store and every position -> iterator map (aliased or not): neither side runs out of fuel and the
   model yields exactly the rows of the shared-iterator semantics *)
Lemma zip_longest_alias_run_spec fill kd st ps :
  exists t rows, zip_longest_alias_run fill kd st ps = Some t /\ zip_longest_alias_spec fill st ps = Some rows /\
                 yields t = rows /\ (rows = [] -> passes_ck t = true).
Proof.
  unfold zip_longest_alias_spec, zip_longest_alias_run.
  destruct ps as [|i r]; [exists [Ck], []; repeat split|]. set (ps := i :: r).
  assert (Hc : count_act (map (fun i => mkP i true) ps) = length ps).
  { unfold count_act. clear. induction ps; cbn; [reflexivity|]. now rewrite IHps. }
  assert (Hm : zmeasure st (map (fun i => mkP i true) ps) = alias_measure st ps).
  { unfold zmeasure. rewrite map_map. cbn. now rewrite map_id. }
  destruct (zla_loop_agrees fill kd (S (alias_measure st ps)) st (map (fun i => mkP i true) ps) false)
    as (t & rows & L & S & Y & C); [rewrite Hc; cbn; lia|lia|].
  rewrite Hc in L. exists t, rows. auto.
Qed.

Theorem zip_longest_alias_agrees : forall fill kd st ps,
  exists rows, zip_longest_alias_spec fill st ps = Some rows /\
               zip_longest_alias_run fill kd st ps <> None /\
               outcome (zip_longest_alias_model fill kd st ps) = (rows, None).
Proof.
  intros fill kd st ps. destruct (zip_longest_alias_run_spec fill kd st ps) as (t & rows & R & S & Y & _).
  exists rows. unfold zip_longest_alias_model. rewrite R. split; [exact S|]. split; [discriminate|].
  unfold outcome. cbn [fst snd]. now rewrite Y.
Qed.

(* C08 for the aliased calls: positions whose iterators are all synchronous, or a traversal that yields nothing,
   pass a checkpoint (a cancellation check and a yield), and no element precedes the first check *)
Lemma zla_round_starts fill kd st p rest na y :
  p_active p = true -> is_sync (kd (p_idx p)) = true -> ckd (fst (fst (zla_round fill kd st (p :: rest) na y))).
Proof.
  intros Ha Hs. rewrite zla_round_cons, Ha. destruct (z_ex st p && (na <=? 1)); [now apply sync_pre|].
  destruct (zla_round fill kd (z_take st p) rest _ y) as [[ev st'] r]. now apply sync_pre.
Qed.

Lemma zla_loop_starts fill kd fuel st p rest na y t :
  p_active p = true -> is_sync (kd (p_idx p)) = true ->
  zla_loop fuel fill kd st (p :: rest) na y = Some t -> ckd t.
Proof.
  intros Ha Hs. destruct fuel as [|fuel]; [discriminate|]. cbn [zla_loop].
  pose proof (zla_round_starts fill kd st p rest na y Ha Hs) as St.
  destruct (zla_round fill kd st (p :: rest) na y) as [[ev st'] [[[vs ps'] na']|]]; cbn [fst] in St.
  - destruct (zla_loop fuel fill kd st' ps' na' true); [|discriminate]. intros [= <-]. now apply ckd_app_l.
  - intros [= <-]. exact St.
Qed.

Theorem zip_longest_alias_checkpoints : forall fill kd st ps,
  forallb (fun i => is_sync (kd i)) ps = true \/ yields (fst (zip_longest_alias_model fill kd st ps)) = [] ->
  ckd (fst (zip_longest_alias_model fill kd st ps)).
Proof.
  intros fill kd st ps. destruct (zip_longest_alias_run_spec fill kd st ps) as (t & rows & R & _ & Y & C).
  unfold zip_longest_alias_model. rewrite R. cbn [fst]. intros [H|H].
  - destruct ps as [|i r]; [injection R as <-; split; reflexivity|].
    cbn [forallb] in H. apply andb_prop in H as [H _].
    exact (zla_loop_starts fill kd _ st (mkP i true) _ _ false t eq_refl H R).
  - apply good_use; [left; apply C; now rewrite <- Y|exact H].
Qed.

Lemma chain_alias_go_good ko kd : forall ps st, good (chain_alias_go ko kd st ps false).
Proof.
  induction ps as [|i r IH]; intros st; cbn [chain_alias_go]; [apply good_ck|].
  apply good_app_r. destruct (st i) as [|x xs] eqn:E; cbn [iter_all nonempty orb].
  - apply good_app_r, IH.
  - rewrite <- app_assoc. apply good_yield.
Qed.

Theorem chain_alias_checkpoints : forall ko kd st ps,
  is_sync ko = true \/ yields (fst (chain_alias_model ko kd st ps)) = [] ->
  ckd (fst (chain_alias_model ko kd st ps)).
Proof.
  intros ko kd st ps. apply (ckd_cases ko); [intros Hs; destruct ps; now apply sync_pre|apply chain_alias_go_good].
Qed.

Theorem product_alias_checkpoints : forall rep kd st ps,
  snd (product_alias_model rep kd st ps) = None -> ckd (fst (product_alias_model rep kd st ps)).
Proof.
  intros rep kd st ps. unfold product_alias_model. destruct (rep <? 0)%Z; [discriminate|]. intros _.
  apply ckd_app_r; [apply yields_collect_alias|apply ckd_emit_sync].
Qed.

Theorem starmap_alias_checkpoints : forall f ko kd st ps,
  is_sync ko = true \/ yields (fst (starmap_alias_model f ko kd st ps)) = [] ->
  ckd (fst (starmap_alias_model f ko kd st ps)).
Proof.
  intros f ko kd st ps. apply (ckd_cases ko); destruct ps; cbn [starmap_alias_model starmap_alias_go fst].
  1,2: intros Hs; now apply sync_pre.
  - apply good_ck.
  - apply good_app_r, good_yield.
Qed.

Lemma compress_self_go_good k : forall l, good (compress_self_go k l false).
Proof.
  induction l as [|x|x b r IH] using pair_ind; cbn [compress_self_go]; [apply good_ck|apply good_app_r, good_ck|].
  apply good_app_r, good_app_r. destruct (truthy b); [apply (good_yield [])|exact IH].
Qed.

Theorem compress_self_checkpoints : forall s,
  is_sync (fst s) = true \/ yields (fst (compress_self_model s)) = [] ->
  ckd (fst (compress_self_model s)).
Proof.
  intros [k l]. apply (ckd_cases k); [|apply compress_self_go_good].
  intros Hs. destruct l as [|x [|b r]]; now apply sync_pre.
Qed.

(* distinct sources: when no iterator occurs twice the shared-iterator semantics is the declarative
   zip_longest_spec (rows by index with fill values) *)
Definition zl_rows (fill : Z) (ls : list (list Z)) : list (list Z) := fst (zip_longest_spec fill ls).

Lemma max_len_cons l r : max_len (l :: r) = Nat.max (length l) (max_len r).
Proof. reflexivity. Qed.

Lemma max_len_0 ls : forallb is_nil ls = (max_len ls =? 0).
Proof.
  induction ls as [|l r IH]; [reflexivity|]. cbn [forallb]. rewrite IH, max_len_cons.
  destruct l; cbn [is_nil length]; lia.
Qed.

Lemma max_len_pred ls : max_len (map (@List.tl Z) ls) = pred (max_len ls).
Proof.
  induction ls as [|l r IH]; [reflexivity|]. cbn [map]. rewrite !max_len_cons, IH.
  destruct l; cbn [List.tl length]; lia.
Qed.

Lemma max_len_tl ls : forallb is_nil ls = false -> max_len ls = S (max_len (map (@List.tl Z) ls)).
Proof. rewrite max_len_0, max_len_pred. lia. Qed.

Lemma zl_rows_nil fill ls : forallb is_nil ls = true -> zl_rows fill ls = [].
Proof. rewrite max_len_0. intros H. unfold zl_rows, zip_longest_spec. cbn [fst]. now replace (max_len ls) with 0 by lia. Qed.

Lemma zl_rows_cons fill ls : forallb is_nil ls = false ->
  zl_rows fill ls = map (hd fill) ls :: zl_rows fill (map (@List.tl Z) ls).
Proof.
  intros H. unfold zl_rows, zip_longest_spec. cbn [fst]. rewrite (max_len_tl _ H). cbn [seq map]. f_equal.
  - apply map_ext. intros l. destruct l; reflexivity.
  - rewrite <- seq_shift, map_map. apply map_ext. intros i. rewrite map_map. apply map_ext.
    intros l. destruct l; [destruct i; reflexivity|reflexivity].
Qed.

Definition z_okp (st : istore) (p : zpos) : Prop := p_active p = false -> st (p_idx p) = [].

(* st0 is the store at the start of the round: it agrees with the current one on the positions still to come *)
Lemma zs_round_distinct fill : forall ps st st0,
  NoDup (map p_idx ps) -> (forall q, In q ps -> st (p_idx q) = st0 (p_idx q)) ->
  fst (fst (zs_round fill st ps)) = map (z_val fill st0) ps /\
  (forall j, ~ In j (map p_idx ps) -> snd (fst (zs_round fill st ps)) j = st j) /\
  (forall p, In p ps -> snd (fst (zs_round fill st ps)) (p_idx p) = z_take st0 p (p_idx p)) /\
  snd (zs_round fill st ps) = map (z_next st0) ps.
Proof.
  induction ps as [|p rest IH]; intros st st0 Hnd Hag; [cbn; intuition|].
  cbn [map] in Hnd. apply NoDup_cons_iff in Hnd as [Hni Hnd'].
  assert (Hne : forall q, In q rest -> p_idx q <> p_idx p)
    by (intros q Hq E; apply Hni; rewrite <- E; now apply in_map).
  destruct (IH (z_take st p) st0 Hnd') as (V & F & P & N).
  { intros q Hq. rewrite z_take_other by auto. apply Hag. now right. }
  rewrite zs_round_cons. destruct (zs_round fill (z_take st p) rest) as [[vs st'] ps']. cbn [fst snd map] in *.
  assert (Hp : st (p_idx p) = st0 (p_idx p)) by (apply Hag; now left).
  split; [unfold z_val; now rewrite V, Hp|]. split; [|split; [|unfold z_next, z_ex; now rewrite N, Hp]].
  - intros j Hj. cbn [In] in Hj. rewrite F by tauto. apply z_take_other. intros ->. tauto.
  - intros q [<-|Hq]; [|now apply P]. rewrite (F _ Hni), !z_take_same. now rewrite Hp.
Qed.

Lemma existsb_next st ps : Forall (z_okp st) ps ->
  existsb p_active (map (z_next st) ps) = negb (forallb is_nil (map (fun p => st (p_idx p)) ps)).
Proof.
  induction 1 as [|p r Hp Hr IH]; [reflexivity|]. cbn [map existsb forallb]. rewrite IH, z_next_active.
  unfold z_okp in Hp. destruct (p_active p); cbn [andb]; [now rewrite negb_andb|].
  rewrite (Hp eq_refl). reflexivity.
Qed.

Lemma zs_rows_distinct fill : forall fuel st ps,
  NoDup (map p_idx ps) -> Forall (z_okp st) ps -> max_len (map (fun p => st (p_idx p)) ps) < fuel ->
  zs_rows fuel fill st ps = Some (zl_rows fill (map (fun p => st (p_idx p)) ps)).
Proof.
  induction fuel as [|fuel IH]; intros st ps Hnd Hok Hf; [lia|].
  cbn [zs_rows]. destruct (zs_round_distinct fill ps st st Hnd (fun _ _ => eq_refl)) as (V & _ & P & N).
  destruct (zs_round fill st ps) as [[vs st'] ps'] eqn:Zr. cbn [fst snd] in *. subst vs ps'.
  rewrite (existsb_next st ps Hok). rewrite Forall_forall in Hok.
  destruct (forallb is_nil (map (fun p => st (p_idx p)) ps)) eqn:E; cbn [negb]; [now rewrite zl_rows_nil|].
  assert (Hl : map (fun p => st' (p_idx p)) (map (z_next st) ps) = map (@List.tl Z) (map (fun p => st (p_idx p)) ps)).
  { rewrite !map_map. apply map_ext_in. intros p Hin. rewrite z_next_idx, (P p Hin), z_take_same.
    specialize (Hok p Hin). unfold z_okp in Hok. destruct (p_active p); [reflexivity|now rewrite Hok]. }
  rewrite IH.
  - rewrite Hl, (zl_rows_cons _ _ E). do 2 f_equal. rewrite map_map. apply map_ext_in. intros p Hin.
    specialize (Hok p Hin). unfold z_val, z_okp in *. destruct (p_active p); [reflexivity|now rewrite Hok].
  - rewrite map_map. erewrite map_ext; [exact Hnd|apply z_next_idx].
  - apply Forall_forall. intros q Hq. apply in_map_iff in Hq as (p & <- & Hin).
    unfold z_okp. rewrite z_next_active, z_next_idx, (P p Hin), z_take_same.
    specialize (Hok p Hin). unfold z_okp in Hok.
    destruct (p_active p); [|auto]. destruct (st (p_idx p)); [reflexivity|discriminate].
  - rewrite Hl. rewrite (max_len_tl _ E) in Hf. lia.
Qed.

Lemma max_len_measure st ps : max_len (map st ps) <= alias_measure st ps.
Proof.
  induction ps as [|i r IH]; [cbn; lia|]. unfold alias_measure in *. cbn [map fold_right]. rewrite max_len_cons. lia.
Qed.

Theorem zip_longest_alias_spec_distinct : forall fill st ps, NoDup ps ->
  zip_longest_alias_spec fill st ps = Some (fst (zip_longest_spec fill (map st ps))).
Proof.
  intros fill st ps Hnd. unfold zip_longest_alias_spec.
  assert (Hm : map (fun p : zpos => st (p_idx p)) (map (fun i => mkP i true) ps) = map st ps).
  { rewrite map_map. apply map_ext. reflexivity. }
  rewrite zs_rows_distinct.
  - now rewrite Hm.
  - rewrite map_map. cbn. now rewrite map_id.
  - apply Forall_forall. intros q Hq. apply in_map_iff in Hq as (i & <- & _). unfold z_okp. cbn. discriminate.
  - rewrite Hm. pose proof (max_len_measure st ps). lia.
Qed.

Local Open Scope Z_scope.
(* the grouper recipe: one asynchronous iterator at two positions *)
Example grouper_example :
  zip_longest_alias_spec 9 (fun _ => [1; 2; 3]) [0; 0]%nat = Some [[1; 2]; [3; 9]] /\
  outcome (zip_longest_alias_model 9 (fun _ => KAsync) (fun _ => [1; 2; 3]) [0; 0]%nat) = ([[1; 2]; [3; 9]], None) /\
  zip_longest_alias_model 9 (fun _ => KAsync) (fun _ => []) [0; 0]%nat = ([Ck], None) /\
  zip_longest_alias_spec 9 (fun i => if Nat.eqb i 0 then [1; 2; 3] else [4]) [0; 1; 0]%nat
    = Some [[1; 4; 2]; [3; 9; 9]].
Proof. vm_compute. auto. Qed.

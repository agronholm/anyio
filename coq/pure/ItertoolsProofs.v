(* Proofs about pure/Itertools.v: every model agrees with its standard-library spec (C19), and the checkpoint
   discipline of the traces (C08, itertools clause).  The tee LTS is treated in ItertoolsTee.v, the same iterator
   at several argument positions in ItertoolsAlias.v. *)
From AV Require Import Base Itertools ItertoolsTrace ItertoolsAlias.

(* chain *)
Lemma chain_go_yields ko ss : forall y, yields (chain_go ko ss y) = concat (map snd ss).
Proof.
  induction ss as [|s r IH]; intros y; cbn; ysimp; [reflexivity|].
  now rewrite iter_all_yields, IH.
Qed.

Theorem chain_agrees : forall ko ss, outcome (chain_model ko ss) = chain_spec (map snd ss).
Proof. intros. unfold outcome, chain_model, chain_spec. cbn. now rewrite chain_go_yields. Qed.

(* repeat *)
Lemma repeat_inf_yields x k : yields (repeat_inf x k) = repeat x k.
Proof. induction k; cbn; [reflexivity|]. now rewrite IHk. Qed.

Lemma repeat_fin_yields x k : yields (repeat_fin x k) = repeat x k.
Proof. induction k; cbn; [reflexivity|]. now rewrite IHk. Qed.

Theorem repeat_agrees : forall x times k, outcome (repeat_model x times k) = repeat_spec x times k.
Proof.
  intros x [t|] k; unfold outcome, repeat_model, repeat_spec; cbn.
  - destruct (Z.leb_spec t 0); cbn.
    + replace (zn t) with 0 by (unfold zn; lia). reflexivity.
    + now rewrite repeat_fin_yields.
  - now rewrite repeat_inf_yields.
Qed.

(* count *)
Lemma count_go_yields step k : forall n,
  yields (count_go n step k) = map (fun i => (n + Z.of_nat i * step)%Z) (seq 0 k).
Proof.
  induction k as [|k IH]; intros n; cbn [count_go yields]; [reflexivity|].
  rewrite IH. cbn [seq map]. f_equal; [lia|].
  rewrite <- seq_shift, map_map. apply map_ext. intros i. rewrite Nat2Z.inj_succ. ring.
Qed.

Theorem count_agrees : forall start step k, outcome (count_model start step k) = count_spec start step k.
Proof. intros. unfold outcome, count_model, count_spec. cbn. now rewrite count_go_yields. Qed.

(* compress *)
Lemma compress_go_yields kd ks d : forall s y,
  yields (compress_go kd ks d s y) = map fst (filter (fun p => truthy (snd p)) (combine d s)).
Proof.
  induction d as [|x d IH]; intros s y; cbn; ysimp; [reflexivity|].
  destruct s as [|b s]; cbn; ysimp; [reflexivity|].
  destruct (truthy b); cbn; now rewrite IH.
Qed.

Theorem compress_agrees : forall d s, outcome (compress_model d s) = compress_spec (snd d) (snd s).
Proof. intros. unfold outcome, compress_model, compress_spec. cbn. now rewrite compress_go_yields. Qed.

(* filterfalse *)
Lemma filterfalse_go_yields p k l : forall y,
  yields (filterfalse_go p k l y) = filter (fun x => negb (p x)) l.
Proof.
  induction l as [|x r IH]; intros y; cbn; ysimp; [reflexivity|].
  destruct (p x); cbn; now rewrite IH.
Qed.

Theorem filterfalse_agrees : forall p s, outcome (filterfalse_model p s) = filterfalse_spec p (snd s).
Proof. intros. unfold outcome, filterfalse_model, filterfalse_spec. cbn. now rewrite filterfalse_go_yields. Qed.

(* takewhile *)
Lemma takewhile_go_yields p k l : forall y, yields (takewhile_go p k l y) = takewhile_list p l.
Proof.
  induction l as [|x r IH]; intros y; cbn; ysimp; [reflexivity|].
  destruct (p x); cbn; ysimp; [now rewrite IH|reflexivity].
Qed.

Theorem takewhile_agrees : forall p s, outcome (takewhile_model p s) = takewhile_spec p (snd s).
Proof. intros. unfold outcome, takewhile_model, takewhile_spec. cbn. now rewrite takewhile_go_yields. Qed.

(* dropwhile *)
Lemma dropwhile_go_not_dropping p k l : forall y, yields (dropwhile_go p k l false y) = l.
Proof. induction l as [|x r IH]; intros y; cbn; ysimp; [reflexivity|]. now rewrite IH. Qed.

Lemma dropwhile_go_yields p k l : forall y, yields (dropwhile_go p k l true y) = dropwhile_list p l.
Proof.
  induction l as [|x r IH]; intros y; cbn; ysimp; [reflexivity|].
  destruct (p x); cbn; [apply IH|]. now rewrite dropwhile_go_not_dropping.
Qed.

Theorem dropwhile_agrees : forall p s, outcome (dropwhile_model p s) = dropwhile_spec p (snd s).
Proof. intros. unfold outcome, dropwhile_model, dropwhile_spec. cbn. now rewrite dropwhile_go_yields. Qed.

(* starmap *)
Lemma starmap_go_yields f ko ss : forall y, yields (starmap_go f ko ss y) = map f (map snd ss).
Proof. induction ss as [|s r IH]; intros y; cbn; ysimp; [reflexivity|]. now rewrite IH. Qed.

Theorem starmap_agrees : forall f ko ss, outcome (starmap_model f ko ss) = starmap_spec f (map snd ss).
Proof. intros. unfold outcome, starmap_model, starmap_spec. cbn. now rewrite starmap_go_yields. Qed.

(* pairwise *)
Lemma pairwise_loop_yields k l : forall prev y, yields (pairwise_loop k prev l y) = combine (prev :: l) l.
Proof.
  induction l as [|x r IH]; intros prev y; cbn [pairwise_loop]; ysimp; [reflexivity|].
  rewrite IH. reflexivity.
Qed.

Theorem pairwise_agrees : forall s, outcome (pairwise_model s) = pairwise_spec (snd s).
Proof.
  intros [k l]. unfold outcome, pairwise_model, pairwise_spec. cbn [fst snd].
  destruct l as [|x r]; cbn [fst snd]; ysimp; [reflexivity|].
  now rewrite pairwise_loop_yields.
Qed.

(* accumulate: for an arbitrary callback that may raise *)
Lemma accumulate_loop_outcome f k l : forall total,
  (total :: fst (outcome (accumulate_loop f k total l)), snd (outcome (accumulate_loop f k total l))) = scanl_p f total l.
Proof.
  induction l as [|x r IH]; intros total; cbn [accumulate_loop scanl_p].
  - unfold outcome. cbn [fst snd]. now rewrite yields_pre.
  - destruct (f total x) as [t|].
    + rewrite outcome_tapp. cbn [fst snd]. rewrite yields_app, yields_pre. cbn [yields app].
      specialize (IH t). destruct (scanl_p f t r) as [ys e]. injection IH as <- <-. reflexivity.
    + unfold outcome. cbn [fst snd]. now rewrite yields_pre.
Qed.

Theorem accumulate_agrees : forall f initial s,
  outcome (accumulate_model f initial s) = accumulate_spec f initial (snd s).
Proof.
  intros f initial [k l]. unfold accumulate_model, accumulate_spec. cbn [snd].
  destruct initial as [i|].
  - rewrite outcome_tapp. cbn [yields app]. exact (accumulate_loop_outcome f k l i).
  - destruct l as [|x r]; [unfold outcome; cbn [fst snd]; ysimp; reflexivity|].
    rewrite outcome_tapp, yields_app, yields_pre. cbn [yields app]. exact (accumulate_loop_outcome f k r x).
Qed.

(* the four delegating functions: pool collection, then exactly what the stdlib function yields on the pool *)
Theorem combinations_agrees : forall r s, outcome (combinations_model r s) = combinations_spec r (snd s).
Proof.
  intros r s. unfold outcome, combinations_model, combinations_spec.
  destruct (r <? 0)%Z; cbn [fst snd]; ysimp; reflexivity.
Qed.

Theorem combinations_with_replacement_agrees : forall r s, outcome (cwr_model r s) = cwr_spec r (snd s).
Proof.
  intros r s. unfold outcome, cwr_model, cwr_spec.
  destruct (r <? 0)%Z; cbn [fst snd]; ysimp; reflexivity.
Qed.

Theorem permutations_agrees : forall r s, outcome (permutations_model r s) = permutations_spec r (snd s).
Proof.
  intros [r|] s; unfold outcome, permutations_model, permutations_spec.
  - destruct (r <? 0)%Z; cbn [fst snd]; ysimp; reflexivity.
  - cbn [fst snd]; ysimp; reflexivity.
Qed.

Theorem product_agrees : forall rep ss, outcome (product_model rep ss) = product_spec rep (map snd ss).
Proof.
  intros rep ss. unfold outcome, product_model, product_spec.
  destruct (rep <? 0)%Z; cbn [fst snd]; ysimp; reflexivity.
Qed.

(* reduce: for an arbitrary callback that may raise *)
Lemma reduce_loop_spec f l : forall v,
  yields (fst (reduce_loop f v l)) = [] /\ snd (reduce_loop f v l) = fold_p f l v.
Proof.
  induction l as [|x r IH]; intros v; cbn [reduce_loop fold_p]; [auto|].
  destruct (f v x) as [v'|]; [|auto].
  destruct (IH v') as (Y & S). destruct (reduce_loop f v' r) as [ev o]. cbn in *. auto.
Qed.

Lemma reduce_finish_outcome pref f l v : yields pref = [] ->
  outcome (reduce_finish pref (reduce_loop f v l)) = reduce_result (fold_p f l v).
Proof.
  intros Hp. destruct (reduce_loop_spec f l v) as (Y & S). destruct (reduce_loop f v l) as [ev o]. cbn [fst snd] in *.
  rewrite <- S. unfold reduce_finish, outcome, reduce_result. destruct o as [w|]; cbn [fst snd].
  - rewrite !yields_app, Hp, Y. reflexivity.
  - rewrite yields_app, Hp, Y. reflexivity.
Qed.

Theorem reduce_agrees : forall f initial s, outcome (reduce_model f initial s false) = reduce_spec f initial (snd s).
Proof.
  intros f initial [k l]. unfold reduce_model, reduce_spec. cbn [snd].
  destruct initial as [i|]; [now apply reduce_finish_outcome|].
  destruct l as [|x r]; [reflexivity|]. now apply reduce_finish_outcome.
Qed.

(* groupby: for an ARBITRARY key comparison `same` (nothing assumed: not reflexive, symmetric or transitive) *)
Lemma groupby_loop_yields same key k : forall l n gk vs, length l <= n ->
  yields (groupby_loop same key k gk vs l) =
  (gk, vs ++ takewhile_list (fun y => same gk (key y)) l)
  :: groupby_fuel n same key (dropwhile_list (fun y => same gk (key y)) l).
Proof.
  induction l as [|x r IH]; intros n gk vs Hn; cbn [groupby_loop takewhile_list dropwhile_list]; ysimp.
  - rewrite app_nil_r. destruct n; reflexivity.
  - cbn [length] in Hn. destruct (same gk (key x)) eqn:E; cbn [negb yields].
    + rewrite (IH n gk (vs ++ [x])) by lia. now rewrite <- app_assoc.
    + rewrite app_nil_r. destruct n as [|n]; [lia|]. cbn [groupby_fuel].
      rewrite (IH n (key x) [x]) by lia. reflexivity.
Qed.

Theorem groupby_agrees : forall same key s, outcome (groupby_model same key s) = groupby_spec same key (snd s).
Proof.
  intros same key [k l]. unfold outcome, groupby_model, groupby_spec. cbn [fst snd].
  destruct l as [|x r]; cbn [fst snd length groupby_fuel]; ysimp; [reflexivity|].
  now rewrite (groupby_loop_yields same key k r (length r) (key x) [x] (le_n _)).
Qed.

(* the comparison before the F35 fix (`!=` alone) splits a run of one NaN object that itertools keeps together *)
Theorem groupby_pre_F35_refuted_pinned :
  exists key s, outcome (groupby_model eq_only key s) <> groupby_spec same_obj key (snd s).
Proof. exists (fun x => x), (KSync, [99; 99; 1]%Z). vm_compute. discriminate. Qed.

(* cycle *)
Lemma concat_repeat_snoc (w : list Z) m : concat (repeat w (S m)) = concat (repeat w m) ++ w.
Proof.
  induction m as [|m IH]; [cbn; now rewrite app_nil_r|].
  change (concat (repeat w (S (S m)))) with (w ++ concat (repeat w (S m))).
  rewrite IH at 1. rewrite app_assoc. reflexivity.
Qed.

Lemma len_concat_repeat (w : list Z) m : w <> [] -> m <= length (concat (repeat w m)).
Proof.
  intros Hw. induction m as [|m IH]; cbn; [lia|]. rewrite app_length.
  destruct w; [congruence|]. cbn. lia.
Qed.

Lemma concat_repeat_nil m : concat (repeat (@nil Z) m) = [].
Proof. induction m; cbn; auto. Qed.

Lemma firstn_enough (w p : list Z) k m : w <> [] -> k <= m ->
  firstn k (p ++ concat (repeat w m)) = firstn k (p ++ concat (repeat w (S m))).
Proof.
  intros Hw Hk. rewrite concat_repeat_snoc, app_assoc, (firstn_app k (p ++ _) w).
  replace (k - length (p ++ concat (repeat w m))) with 0.
  - cbn. now rewrite app_nil_r.
  - rewrite app_length. pose proof (len_concat_repeat w m Hw). lia.
Qed.

Lemma cycle_rep_yields w : w <> [] -> forall j cur,
  yields (cycle_rep w cur j) = firstn j (cur ++ concat (repeat w j)).
Proof.
  intros Hw. induction j as [|j IH]; intros cur; [reflexivity|].
  destruct cur as [|x r].
  - destruct w as [|x r]; [congruence|]. cbn [cycle_rep yields]. rewrite IH.
    change (concat (repeat (x :: r) (S j))) with ((x :: r) ++ concat (repeat (x :: r) j)).
    reflexivity.
  - cbn [cycle_rep yields]. rewrite IH. cbn [app firstn]. f_equal.
    apply firstn_enough; [exact Hw|lia].
Qed.

Lemma cycle_go_yields kd : forall k saved l,
  yields (cycle_go kd saved l k) = firstn k (l ++ concat (repeat (saved ++ l) k)).
Proof.
  induction k as [|k IH]; intros saved l; [reflexivity|].
  destruct l as [|x r]; cbn [cycle_go]; ysimp.
  - rewrite app_nil_r. destruct saved as [|a sv].
    + cbn [yields]. rewrite concat_repeat_nil. reflexivity.
    + rewrite cycle_rep_yields by congruence. symmetry.
      exact (firstn_enough (a :: sv) [] (S k) (S k) ltac:(congruence) (le_n _)).
  - rewrite IH. rewrite <- app_assoc. cbn [app firstn]. f_equal.
    apply firstn_enough; [destruct saved; cbn; congruence|lia].
Qed.

Theorem cycle_agrees : forall s k, outcome (cycle_model s k) = cycle_spec (snd s) k.
Proof.
  intros [kd l] k. unfold outcome, cycle_model, cycle_spec. cbn [fst snd].
  rewrite cycle_go_yields. cbn [app]. f_equal.
  destruct k as [|k]; [reflexivity|].
  destruct l as [|x r]; [cbn [app]; now rewrite concat_repeat_nil|].
  change (concat (repeat (x :: r) (S k))) with ((x :: r) ++ concat (repeat (x :: r) k)).
  cbn [app firstn]. f_equal. symmetry. apply firstn_enough; [congruence|lia].
Qed.

(* islice *)
Lemma below_mono i stop : below i stop = false -> below (i + 1)%Z stop = false.
Proof. destruct stop as [s|]; cbn; [lia|congruence]. Qed.

Lemma yields_poll {A} k (t : list (event A)) : yields (poll k ++ t) = yields t.
Proof. destruct k; reflexivity. Qed.

Lemma islice_filter_past start stop step l : forall i,
  below i stop = false -> filter (islice_sel start stop step) (enumZ i l) = [].
Proof.
  induction l as [|x r IH]; intros i H; cbn [enumZ filter]; [reflexivity|].
  unfold islice_sel at 1. cbn [fst]. rewrite H, andb_false_r. cbn [andb].
  apply IH, below_mono, H.
Qed.

Lemma islice_go_yields k start stop step l : forall index y,
  yields (islice_go k start stop step l index y) =
  map snd (filter (islice_sel start stop step) (enumZ index l)).
Proof.
  induction l as [|x r IH]; intros index y.
  - cbn. destruct (below index stop); rewrite ?yields_poll, ?yields_tail; reflexivity.
  - cbn [islice_go enumZ filter]. unfold islice_sel at 1. cbn [fst].
    destruct (below index stop) eqn:B.
    + rewrite andb_true_r, yields_poll.
      destruct ((start <=? index)%Z && ((index - start) mod step =? 0)%Z); cbn [yields map snd]; now rewrite IH.
    + rewrite andb_false_r. cbn [andb]. rewrite yields_tail.
      fold (islice_sel start stop step). rewrite islice_filter_past; [reflexivity|].
      apply below_mono, B.
Qed.

(* selecting up to limit = max(start, stop) selects the same elements as selecting up to stop *)
Lemma islice_sel_limit start stop step p :
  islice_sel start (islice_limit start stop) step p = islice_sel start stop step p.
Proof.
  unfold islice_sel, islice_limit. destruct stop as [st|]; [|reflexivity]. cbn [below].
  f_equal. destruct (Z.leb_spec start (fst p)); cbn [andb]; [|reflexivity]. lia.
Qed.

Definition islice_model3 (a b c : option Z) (s : src) : trace Z :=
  if neg_opt a then ([], Some ValueError) else
  if neg_opt b then ([], Some ValueError) else
  if neg_opt c then ([], Some ValueError) else
  let start := dflt 0%Z a in
  let step := dflt 1%Z c in
  if (step <=? 0)%Z then ([], Some ValueError) else
  (islice_go (fst s) start (islice_limit start b) step (snd s) 0%Z false, None).

Definition islice_spec3 (a b c : option Z) (l : list Z) : list Z * option err :=
  if neg_opt a || neg_opt b || neg_opt c || (dflt 1 c <=? 0)%Z then ([], Some ValueError)
  else (map snd (filter (islice_sel (dflt 0 a) b (dflt 1 c)) (enumZ 0 l)), None).

Lemma islice3_agrees a b c s : outcome (islice_model3 a b c s) = islice_spec3 a b c (snd s).
Proof.
  unfold islice_model3, islice_spec3.
  destruct (neg_opt a) eqn:Na; [reflexivity|].
  destruct (neg_opt b) eqn:Nb; [reflexivity|].
  destruct (neg_opt c) eqn:Nc; [reflexivity|].
  cbn [orb]. destruct (dflt 1 c <=? 0)%Z; [reflexivity|].
  unfold outcome. cbn [fst snd]. rewrite islice_go_yields. do 2 f_equal.
  apply filter_ext. intros p. apply islice_sel_limit.
Qed.

(* the argument shapes: a wrong number of arguments is a TypeError on both sides, every other call is
   islice(it, start, stop, step) *)
Lemma islice_cases args :
  (forall s, islice_model args s = ([], Some TypeError) /\ islice_spec args (snd s) = ([], Some TypeError)) \/
  exists a b c, slice_args args = (a, b, c) /\
    forall s, islice_model args s = islice_model3 a b c s /\ islice_spec args (snd s) = islice_spec3 a b c (snd s).
Proof.
  destruct args as [|a [|b [|c [|d rest]]]]; [now left|right..|now left].
  - now exists None, a, None.
  - now exists a, b, None.
  - now exists a, b, c.
Qed.

Theorem islice_agrees : forall args s, outcome (islice_model args s) = islice_spec args (snd s).
Proof.
  intros args s. destruct (islice_cases args) as [E|(a & b & c & _ & E)]; destruct (E s) as [-> ->];
    [reflexivity|apply islice3_agrees].
Qed.

(* consumption: the source is asked min(len + 1, max(start, stop)) times (len + 1 = all elements and the exhaustion),
   i.e. exactly min(len, max(start, stop)) elements are taken from it - for all start, stop, step *)
Lemma count_next_app {A} (a b : list (event A)) : count_next (a ++ b) = count_next a + count_next b.
Proof. unfold count_next. now rewrite filter_app, app_length. Qed.

Lemma count_next_poll {A} k : count_next (@poll A k) = 1.
Proof. destruct k; reflexivity. Qed.

Lemma count_next_tail {A} y : count_next (@tail A y) = 0.
Proof. destruct y; reflexivity. Qed.

Lemma islice_go_polls k start limit step l : forall index y,
  count_next (islice_go k start limit step l index y) =
  match limit with
  | None => S (length l)
  | Some m => Nat.min (S (length l)) (Z.to_nat (m - index))
  end.
Proof.
  induction l as [|x r IH]; intros index y; cbn [islice_go]; destruct (below index limit) eqn:B;
    rewrite ?count_next_app, ?count_next_poll, ?count_next_tail.
  - destruct limit as [m|]; cbn [below length] in *; lia.
  - destruct limit as [m|]; cbn [below length] in *; [lia|discriminate].
  - destruct ((start <=? index)%Z && ((index - start) mod step =? 0)%Z);
      [change (count_next (Yield x :: islice_go k start limit step r (index + 1)%Z true))
         with (count_next (islice_go k start limit step r (index + 1)%Z true))|];
      rewrite IH; destruct limit as [m|]; cbn [below length] in *; lia.
  - destruct limit as [m|]; cbn [below length] in *; [lia|discriminate].
Qed.

Theorem islice_consumption : forall a b c s,
  snd (islice_model3 a b c s) = None ->
  count_next (fst (islice_model3 a b c s)) =
    match b with
    | None => S (length (snd s))
    | Some st => Nat.min (S (length (snd s))) (Z.to_nat (Z.max (dflt 0 a) st))
    end /\
  Nat.min (count_next (fst (islice_model3 a b c s))) (length (snd s)) = islice_consumed [a; b; c] (snd s).
Proof.
  intros a b c s. unfold islice_model3, islice_consumed. cbn [slice_args].
  destruct (neg_opt a); [discriminate|]. destruct (neg_opt b); [discriminate|].
  destruct (neg_opt c); [discriminate|]. destruct (dflt 1 c <=? 0)%Z; [discriminate|].
  intros _. cbn [fst snd]. rewrite islice_go_polls. unfold islice_limit.
  destruct b as [st|]; rewrite ?Z.sub_0_r; split; try reflexivity; lia.
Qed.

(* the shape before the F36 fix does not consume what itertools consumes: islice(it, 2, 2) took nothing *)
Theorem islice_pre_F36_refuted_pinned :
  exists args s, snd (islice_model_pre_F36 args s) = None /\
                 Nat.min (count_next (fst (islice_model_pre_F36 args s))) (length (snd s)) <> islice_consumed args (snd s).
Proof. exists [Some 2; Some 2]%Z, (KSync, [0; 1; 2]%Z). vm_compute. split; [reflexivity|discriminate]. Qed.

(* chain(islice(it, *args), it) over one shared iterator: the slice, then exactly what itertools leaves *)
Lemma drain_nx_yields k l : yields (drain_nx k l) = l.
Proof. induction l as [|x r IH]; cbn [drain_nx]; [destruct k; reflexivity|]. rewrite yields_poll. cbn. now rewrite IH. Qed.

Theorem islice_then_rest_agrees : forall ko args s,
  outcome (islice_then_rest_model ko args s) = islice_then_rest_spec args (snd s).
Proof.
  intros ko args s. unfold islice_then_rest_model, islice_then_rest_spec.
  destruct (islice_cases args) as [E|(a & b & c & A & E)]; destruct (E s) as [-> ->].
  { unfold outcome. cbn. now rewrite yields_app, yields_pre. }
  replace (islice_consumed args (snd s)) with (islice_consumed [a; b; c] (snd s))
    by (unfold islice_consumed; now rewrite A).
  pose proof (islice3_agrees a b c s) as Ag.
  unfold outcome in Ag. destruct (islice_spec3 a b c (snd s)) as [ys e] eqn:Sp. injection Ag as Hy He.
  cbn [snd fst]. rewrite He. destruct e as [e|].
  - assert (ys = []) as -> by (unfold islice_spec3 in Sp; destruct (_ || _); [now injection Sp|discriminate Sp]).
    unfold outcome. cbn [fst snd]. now rewrite yields_app, yields_pre, Hy.
  - destruct (islice_consumption a b c s He) as (_ & Hc). rewrite Hc.
    unfold outcome. cbn [fst snd].
    rewrite !yields_app, !yields_pre, drain_nx_yields, yields_tail, Hy. cbn. now rewrite app_nil_r.
Qed.

(* batched *)
Lemma chunks_fuel n : 1 <= n -> forall f1 f2 l, length l <= f1 -> length l <= f2 -> chunks f1 n l = chunks f2 n l.
Proof.
  intros Hn. induction f1 as [|f1 IH]; intros f2 l H1 H2.
  - destruct l; [|cbn in H1; lia]. destruct f2; reflexivity.
  - destruct l as [|x r]; [destruct f2; reflexivity|].
    destruct f2 as [|f2]; [cbn in H2; lia|].
    cbn [chunks]. f_equal.
    assert (Hs : length (skipn n (x :: r)) <= length r) by (rewrite skipn_length; cbn [length]; lia).
    cbn [length] in H1, H2. apply IH; lia.
Qed.

Section Batched.
  Variables (n : nat) (strict : bool) (k : kind).
  Hypothesis Hn : 1 <= n.

  Definition bbody (l : list Z) : list (list Z) * option err :=
    let cs := chunks (length l) n l in
    if strict && negb (Nat.eqb (length l mod n) 0) then (removelast cs, Some ValueError) else (cs, None).

  Lemma batched_go_step : forall l batch j, 1 <= j ->
    outcome (batched_go n strict k l batch j) =
    if Nat.leb j (length l)
    then let o := outcome (batched_go n strict k (skipn j l) [] n) in ((batch ++ firstn j l) :: fst o, snd o)
    else match batch ++ l with
         | [] => ([], None)
         | w => if strict then ([], Some ValueError) else ([w], None)
         end.
  Proof.
    induction l as [|x r IH]; intros batch j Hj.
    - destruct j as [|j]; [lia|]. cbn [length Nat.leb]. rewrite app_nil_r.
      cbn [batched_go]. destruct batch as [|b bs].
      + unfold outcome; cbn [fst snd]; ysimp; reflexivity.
      + destruct strict; unfold outcome; cbn [fst snd]; ysimp; reflexivity.
    - destruct j as [|[|j]]; [lia| |].
      + cbn [batched_go length Nat.leb skipn firstn]. rewrite outcome_tapp. ysimp. reflexivity.
      + cbn [batched_go]. rewrite outcome_tapp. ysimp.
        rewrite IH by lia. cbn [length]. change (Nat.leb (S (S j)) (S (length r))) with (Nat.leb (S j) (length r)).
        destruct (Nat.leb (S j) (length r)).
        * cbn [skipn firstn]. rewrite <- app_assoc. reflexivity.
        * rewrite <- app_assoc. cbn [app]. symmetry. apply surjective_pairing.
  Qed.

  Lemma mod_sub a : n <= a -> a mod n = (a - n) mod n.
  Proof.
    intros H. replace a with ((a - n) + 1 * n) at 1 by lia. apply Nat.mod_add. lia.
  Qed.

  Lemma batched_go_body : forall fuel l, length l <= fuel ->
    outcome (batched_go n strict k l [] n) = bbody l.
  Proof.
    assert (Hnil : outcome (batched_go n strict k [] [] n) = bbody []).
    { unfold bbody. cbn [length chunks]. rewrite Nat.mod_0_l by lia. cbn. rewrite andb_false_r.
      unfold outcome; cbn [fst snd]; ysimp; reflexivity. }
    induction fuel as [|fuel IH]; intros [|x r] Hl; [exact Hnil|cbn in Hl; lia|exact Hnil|].
    rewrite batched_go_step by exact Hn. cbn [app].
    destruct (Nat.leb_spec n (length (x :: r))) as [Hle|Hlt].
    - assert (Hs : length (skipn n (x :: r)) = length (x :: r) - n) by apply skipn_length.
      rewrite IH by (rewrite Hs; cbn [length] in *; lia).
      unfold bbody. rewrite Hs, <- (mod_sub _ Hle).
      cbn [length chunks].
      rewrite (chunks_fuel n Hn (length r) (S (length r) - n)) by (rewrite Hs; cbn [length]; lia).
      destruct (strict && negb (Nat.eqb (S (length r) mod n) 0)) eqn:E; cbn [fst snd]; [|reflexivity].
      f_equal.
      destruct (chunks (S (length r) - n) n (skipn n (x :: r))) eqn:C; [|reflexivity].
      exfalso. destruct (skipn n (x :: r)) eqn:Sk.
      + cbn [length] in Hs. assert (S (length r) = n) by (cbn [length] in Hle; lia).
        rewrite H, Nat.mod_same in E by lia. cbn in E. now rewrite andb_false_r in E.
      + cbn [length] in Hs. rewrite <- Hs in C. cbn in C. discriminate.
    - unfold bbody. cbn [length chunks].
      rewrite firstn_all2 by (cbn [length] in *; lia).
      rewrite skipn_all2 by (cbn [length] in *; lia).
      replace (chunks (length r) n []) with (@nil (list Z)) by (destruct (length r); reflexivity).
      rewrite Nat.mod_small by exact Hlt. cbn [length Nat.eqb negb]. rewrite andb_true_r.
      destruct strict; reflexivity.
  Qed.
End Batched.

Theorem batched_agrees : forall n strict s, outcome (batched_model n strict s) = batched_spec n strict (snd s).
Proof.
  intros n strict [k l]. unfold batched_model, batched_spec. cbn [fst snd].
  destruct (Z.ltb_spec n 1); [reflexivity|].
  apply (batched_go_body (zn n) strict k ltac:(unfold zn; lia) (length l) l (le_n _)).
Qed.

(* zip_longest: distinct sources are the aliased call whose positions are pairwise different, and there the
   aliased model takes the same steps, because a position's iterator is touched by no other position *)
Definition zits (kd : ikinds) (st : istore) (ps : list zpos) : list zit :=
  map (fun p => mkZ (kd (p_idx p)) (st (p_idx p)) (p_active p)) ps.

Lemma zl_round_cons fill k l a its na y :
  zl_round fill (mkZ k l a :: its) na y =
  if a && is_nil l && (na <=? 1) then (pre k ++ tail y, None)
  else let '(ev, r) := zl_round fill its (if a && is_nil l then pred na else na) y in
       ((if a then pre k else []) ++ ev,
        match r with
        | Some (vs, its', na') =>
            Some ((if a then hd fill l else fill) :: vs,
                  mkZ k (if a then List.tl l else l) (a && negb (is_nil l)) :: its', na')
        | None => None
        end).
Proof. cbn [zl_round zactive zrest zk]. destruct a; [destruct l; [destruct na as [|[|n]]|]|]; reflexivity. Qed.

Lemma zla_round_distinct fill kd y : forall ps st na, NoDup (map p_idx ps) ->
  let '(ev, st', r) := zla_round fill kd st ps na y in
  (forall j, ~ In j (map p_idx ps) -> st' j = st j) /\
  zl_round fill (zits kd st ps) na y =
    (ev, match r with Some (vs, ps', na') => Some (vs, zits kd st' ps', na') | None => None end) /\
  match r with Some (_, ps', _) => map p_idx ps' = map p_idx ps | None => True end.
Proof.
  induction ps as [|p rest IH]; intros st na Hnd; [now cbn|].
  cbn [map] in Hnd. apply NoDup_cons_iff in Hnd as [Hni Hnd'].
  cbn [zits map]. fold (zits kd st rest). rewrite zla_round_cons, zl_round_cons. unfold z_ex, z_val.
  destruct (p_active p && is_nil (st (p_idx p)) && (na <=? 1)); [cbn; auto|].
  specialize (IH (z_take st p) (if p_active p && is_nil (st (p_idx p)) then pred na else na) Hnd').
  replace (zits kd (z_take st p) rest) with (zits kd st rest) in IH
    by (apply map_ext_in; intros q Hq; rewrite z_take_other; [reflexivity|]; intros Eq; apply Hni; rewrite <- Eq;
        now apply in_map).
  destruct (zla_round fill kd (z_take st p) rest _ y) as [[ev st'] r]. destruct IH as (F & -> & I).
  split; [intros j Hj; cbn [In] in Hj; rewrite F by tauto; apply z_take_other; intros ->; tauto|].
  destruct r as [[[vs ps'] na']|]; [|auto].
  cbn [zits map]. rewrite z_next_idx, z_next_active, (F _ Hni), z_take_same, I. auto.
Qed.

Lemma zla_loop_distinct fill kd : forall fuel st ps na y, NoDup (map p_idx ps) ->
  zla_loop fuel fill kd st ps na y = zl_loop fuel fill (zits kd st ps) na y.
Proof.
  induction fuel as [|fuel IH]; intros st ps na y Hnd; [reflexivity|]. cbn [zla_loop zl_loop].
  pose proof (zla_round_distinct fill kd y ps st na Hnd) as R.
  destruct (zla_round fill kd st ps na y) as [[ev st'] r]. destruct R as (_ & -> & I).
  destruct r as [[[vs ps'] na']|]; [|reflexivity]. rewrite IH by (now rewrite I). reflexivity.
Qed.

Lemma map_nth_seq {A} (l : list A) d : map (fun i => nth i l d) (seq 0 (length l)) = l.
Proof.
  induction l as [|a l IH]; [reflexivity|]. cbn [length seq map nth]. f_equal.
  rewrite <- seq_shift, map_map. exact IH.
Qed.

Lemma zip_longest_run_distinct fill kd st ps : NoDup ps ->
  zip_longest_alias_run fill kd st ps = zip_longest_run fill (map (fun i => (kd i, st i)) ps).
Proof.
  assert (Hm : total_len (map (fun i => (kd i, st i)) ps) = alias_measure st ps)
    by (unfold total_len, alias_measure; induction ps; cbn; congruence).
  intros Hnd. unfold zip_longest_alias_run, zip_longest_run.
  rewrite zla_loop_distinct by (now rewrite map_map, map_id).
  unfold zits. rewrite Hm, !map_map, map_length. destruct ps; reflexivity.
Qed.

(* every list of sources is such a call: source number i in the store, positions 0 .. n-1 *)
Lemma srcs_as_alias (ss : list src) :
  exists (kd : ikinds) (st : istore) ps, NoDup ps /\ ss = map (fun i => (kd i, st i)) ps.
Proof.
  exists (fun i => fst (nth i ss (KSync, []))), (fun i => snd (nth i ss (KSync, []))), (seq 0 (length ss)).
  split; [apply seq_NoDup|]. rewrite <- (map_nth_seq ss (KSync, [])) at 1.
  apply map_ext. intros i. apply surjective_pairing.
Qed.

Theorem zip_longest_fuel_ok : forall fill ss, zip_longest_run fill ss <> None.
Proof.
  intros fill ss. destruct (srcs_as_alias ss) as (kd & st & ps & Hnd & ->).
  rewrite <- zip_longest_run_distinct by exact Hnd.
  now destruct (zip_longest_alias_agrees fill kd st ps) as (_ & _ & H & _).
Qed.

Theorem zip_longest_agrees : forall fill ss,
  outcome (zip_longest_model fill ss) = zip_longest_spec fill (map snd ss).
Proof.
  intros fill ss. destruct (srcs_as_alias ss) as (kd & st & ps & Hnd & ->).
  unfold zip_longest_model. rewrite <- zip_longest_run_distinct, map_map by exact Hnd.
  destruct (zip_longest_alias_agrees fill kd st ps) as (rows & S & _ & H).
  rewrite zip_longest_alias_spec_distinct in S by exact Hnd. injection S as <-. exact H.
Qed.

(* C08, itertools clause (the predicates are in ItertoolsTrace.v) *)
Lemma passes_has_ck {A} (t : list (event A)) : passes_ck t = true -> has_ck t = true.
Proof.
  unfold passes_ck, has_ck. intros H. apply andb_prop in H as [H _]. apply existsb_exists in H as (e & I & E).
  apply existsb_exists. exists e. split; [exact I|]. destruct e; cbn in *; congruence.
Qed.

(* accumulate *)
Theorem accumulate_checkpoints : forall f initial s,
  snd (accumulate_model f initial s) = None ->
  is_sync (fst s) = true \/ yields (fst (accumulate_model f initial s)) = [] ->
  ckd (fst (accumulate_model f initial s)).
Proof.
  intros f [i|] [k l] _; [intros _; split; reflexivity|].
  apply (ckd_cases k); destruct l as [|x r]; cbn [accumulate_model tapp fst]; rewrite <- ?app_assoc.
  1,2: intros Hs; now apply sync_pre.
  - apply good_ck.
  - apply good_yield.
Qed.

(* batched *)
Lemma batched_go_good n strict k : forall l batch j,
  snd (batched_go n strict k l batch j) = None -> good (fst (batched_go n strict k l batch j)).
Proof.
  induction l as [|x r IH]; intros batch j He; cbn [batched_go] in *.
  - destruct batch; [apply good_ck|]. destruct strict; [discriminate|]. cbn [fst]. apply good_yield.
  - destruct j as [|[|j]]; unfold tapp in *; cbn [fst snd] in *.
    + rewrite <- app_assoc. apply good_yield.
    + rewrite <- app_assoc. apply good_yield.
    + apply good_app_r, IH, He.
Qed.

Theorem batched_checkpoints : forall n strict s,
  snd (batched_model n strict s) = None ->
  is_sync (fst s) = true \/ yields (fst (batched_model n strict s)) = [] ->
  ckd (fst (batched_model n strict s)).
Proof.
  intros n strict [k l]. unfold batched_model. cbn [fst snd].
  destruct (n <? 1)%Z; [discriminate|]. intros He. apply (ckd_cases k); [|now apply batched_go_good].
  intros Hs. destruct l as [|x r]; cbn [batched_go]; [now apply sync_pre|].
  destruct (zn n) as [|[|j]]; unfold tapp; cbn [fst]; rewrite <- ?app_assoc; now apply sync_pre.
Qed.

(* chain *)
Lemma chain_go_good ko : forall ss, good (chain_go ko ss false).
Proof.
  induction ss as [|s r IH]; cbn [chain_go orb]; [apply good_ck|].
  apply good_app_r. destruct (snd s) as [|x xs]; cbn [iter_all nonempty].
  - apply good_app_r, IH.
  - rewrite <- app_assoc. apply good_yield.
Qed.

Theorem chain_checkpoints : forall ko ss,
  is_sync ko = true \/ yields (fst (chain_model ko ss)) = [] ->
  ckd (fst (chain_model ko ss)).
Proof.
  intros ko ss. apply (ckd_cases ko); [intros Hs; destruct ss; now apply sync_pre|apply chain_go_good].
Qed.

(* the four delegating functions: the stdlib iterator is synchronous, so the adaptor always checkpoints *)
Lemma ckd_collect_emit {B} k l (vs : list B) : ckd (collect k l ++ emit_sync vs).
Proof. apply ckd_app_r; [apply yields_collect|apply ckd_emit_sync]. Qed.

Theorem combinations_checkpoints : forall r s,
  snd (combinations_model r s) = None -> ckd (fst (combinations_model r s)).
Proof.
  intros r s. unfold combinations_model. destruct (r <? 0)%Z; [discriminate|]. intros _. apply ckd_collect_emit.
Qed.

Theorem combinations_with_replacement_checkpoints : forall r s,
  snd (cwr_model r s) = None -> ckd (fst (cwr_model r s)).
Proof.
  intros r s. unfold cwr_model. destruct (r <? 0)%Z; [discriminate|]. intros _. apply ckd_collect_emit.
Qed.

Theorem permutations_checkpoints : forall r s,
  snd (permutations_model r s) = None -> ckd (fst (permutations_model r s)).
Proof.
  intros [r|] s; unfold permutations_model; [destruct (r <? 0)%Z; [discriminate|]|]; intros _;
    apply ckd_collect_emit.
Qed.

Theorem product_checkpoints : forall rep ss,
  snd (product_model rep ss) = None -> ckd (fst (product_model rep ss)).
Proof.
  intros rep ss. unfold product_model. destruct (rep <? 0)%Z; [discriminate|]. intros _.
  apply ckd_app_r; [apply yields_collect_all|apply ckd_emit_sync].
Qed.

(* compress *)
Lemma compress_go_good kd ks : forall d s, good (compress_go kd ks d s false).
Proof.
  induction d as [|x d IH]; intros s; cbn [compress_go]; [apply good_ck|].
  apply good_app_r. destruct s as [|b s]; [apply good_ck|].
  destruct (truthy b); [apply good_yield|apply good_app_r, IH].
Qed.

Theorem compress_checkpoints : forall d s,
  is_sync (fst d) = true \/ yields (fst (compress_model d s)) = [] ->
  ckd (fst (compress_model d s)).
Proof.
  intros [kd d] [ks s]. apply (ckd_cases kd); [intros Hs; destruct d; now apply sync_pre|apply compress_go_good].
Qed.

(* count *)
Theorem count_checkpoints : forall start step k, 1 <= k -> ckd (fst (count_model start step k)).
Proof. intros start step [|k] H; [lia|split; reflexivity]. Qed.

(* cycle *)
Theorem cycle_checkpoints : forall s k, 1 <= k ->
  is_sync (fst s) = true \/ yields (fst (cycle_model s k)) = [] ->
  ckd (fst (cycle_model s k)).
Proof.
  intros [kd l] [|k] Hk; [lia|]. apply (ckd_cases kd); destruct l; cbn [cycle_model cycle_go fst snd].
  1,2: intros Hs; now apply sync_pre.
  - apply good_ck.
  - apply good_yield.
Qed.

(* dropwhile / filterfalse / takewhile *)
Lemma dropwhile_go_good p k : forall l, good (dropwhile_go p k l true false).
Proof.
  induction l as [|x r IH]; cbn [dropwhile_go]; [apply good_ck|].
  destruct (p x); cbn [andb]; [apply good_app_r, IH|apply good_yield].
Qed.

Theorem dropwhile_checkpoints : forall p s,
  is_sync (fst s) = true \/ yields (fst (dropwhile_model p s)) = [] ->
  ckd (fst (dropwhile_model p s)).
Proof.
  intros p [k l]. apply (ckd_cases k); [intros Hs; destruct l; now apply sync_pre|apply dropwhile_go_good].
Qed.

Lemma filterfalse_go_good p k : forall l, good (filterfalse_go p k l false).
Proof.
  induction l as [|x r IH]; cbn [filterfalse_go]; [apply good_ck|].
  destruct (p x); [apply good_app_r, IH|apply good_yield].
Qed.

Theorem filterfalse_checkpoints : forall p s,
  is_sync (fst s) = true \/ yields (fst (filterfalse_model p s)) = [] ->
  ckd (fst (filterfalse_model p s)).
Proof.
  intros p [k l]. apply (ckd_cases k); [intros Hs; destruct l; now apply sync_pre|apply filterfalse_go_good].
Qed.

Lemma takewhile_go_good p k : forall l, good (takewhile_go p k l false).
Proof.
  destruct l as [|x r]; cbn [takewhile_go]; [apply good_ck|].
  destruct (p x); [apply good_yield|apply good_ck].
Qed.

Theorem takewhile_checkpoints : forall p s,
  is_sync (fst s) = true \/ yields (fst (takewhile_model p s)) = [] ->
  ckd (fst (takewhile_model p s)).
Proof.
  intros p [k l]. apply (ckd_cases k); [intros Hs; destruct l; now apply sync_pre|apply takewhile_go_good].
Qed.

(* groupby *)
Lemma groupby_loop_good same key k : forall l gk vs, good (groupby_loop same key k gk vs l).
Proof.
  induction l as [|x r IH]; intros gk vs; cbn [groupby_loop]; [apply good_yield|].
  destruct (negb (same gk (key x))); [apply good_yield|apply good_app_r, IH].
Qed.

Theorem groupby_checkpoints : forall same key s,
  is_sync (fst s) = true \/ yields (fst (groupby_model same key s)) = [] ->
  ckd (fst (groupby_model same key s)).
Proof.
  intros same key [k l]. apply (ckd_cases k); destruct l; cbn [groupby_model fst snd].
  1,2: intros Hs; now apply sync_pre.
  - apply good_ck.
  - apply good_app_r, groupby_loop_good.
Qed.

(* islice *)
Lemma sync_poll {A} k (t : list (event A)) : is_sync k = true -> ckd (poll k ++ t).
Proof. destruct k; [split; reflexivity|discriminate]. Qed.

Lemma islice_go_good k start stop step : forall l index, good (islice_go k start stop step l index false).
Proof.
  induction l as [|x r IH]; intros index; cbn [islice_go]; destruct (below index stop);
    try (left; reflexivity); [apply good_ck|].
  destruct ((start <=? index)%Z && ((index - start) mod step =? 0)%Z); [apply good_yield|apply good_app_r, IH].
Qed.

Lemma islice3_checkpoints a b c s :
  snd (islice_model3 a b c s) = None ->
  is_sync (fst s) = true \/ yields (fst (islice_model3 a b c s)) = [] ->
  ckd (fst (islice_model3 a b c s)).
Proof.
  unfold islice_model3.
  destruct (neg_opt a); [discriminate|]. destruct (neg_opt b); [discriminate|].
  destruct (neg_opt c); [discriminate|]. destruct (dflt 1 c <=? 0)%Z; [discriminate|].
  intros _. apply (ckd_cases (fst s)); [|apply islice_go_good].
  intros Hs. cbn [fst]. destruct (snd s); cbn [islice_go]; destruct (below 0 _);
    try (split; reflexivity); now apply sync_poll.
Qed.

Theorem islice_checkpoints : forall args s,
  snd (islice_model args s) = None ->
  is_sync (fst s) = true \/ yields (fst (islice_model args s)) = [] ->
  ckd (fst (islice_model args s)).
Proof.
  intros args s. destruct (islice_cases args) as [E|(a & b & c & _ & E)]; destruct (E s) as [-> _];
    [discriminate|apply islice3_checkpoints].
Qed.

(* pairwise *)
Theorem pairwise_checkpoints : forall s,
  is_sync (fst s) = true \/ yields (fst (pairwise_model s)) = [] ->
  ckd (fst (pairwise_model s)).
Proof.
  intros [k l]. apply (ckd_cases k); destruct l as [|x [|y r]]; cbn [pairwise_model pairwise_loop fst snd].
  1-3: intros Hs; now apply sync_pre.
  - apply good_ck.
  - apply good_app_r, good_ck.
  - apply good_app_r, good_yield.
Qed.

(* repeat *)
Theorem repeat_checkpoints : forall x times k, (times = None -> 1 <= k) ->
  ckd (fst (repeat_model x times k)).
Proof.
  intros x [t|] k H; unfold repeat_model.
  - destruct (Z.leb_spec t 0); [split; reflexivity|]. cbn [fst].
    destruct (zn t) eqn:E; [unfold zn in E; lia|split; reflexivity].
  - destruct k; [specialize (H eq_refl); lia|split; reflexivity].
Qed.

(* starmap *)
Theorem starmap_checkpoints : forall f ko ss,
  is_sync ko = true \/ yields (fst (starmap_model f ko ss)) = [] ->
  ckd (fst (starmap_model f ko ss)).
Proof.
  intros f ko ss. apply (ckd_cases ko); destruct ss; cbn [starmap_model starmap_go fst].
  1,2: intros Hs; now apply sync_pre.
  - apply good_ck.
  - apply good_app_r, good_yield.
Qed.

(* reduce (after the F22 fix), at full strength - for EVERY callback, source kind and initial value:
   the very first event is the cancellation check (nothing is consumed and the callback is not called before it),
   an error-free call really yields to the event loop (cancel_shielded_checkpoint), and when the caller's scope is
   already cancelled the check raises and nothing at all is consumed or called *)
Lemma passes_ckif {A} (t : list (event A)) : passes_ck (CkIf :: t) = existsb is_yield t.
Proof. unfold passes_ck. cbn. now rewrite andb_true_r. Qed.

Lemma reduce_finish_ck pref f l v :
  hd_error pref = Some CkIf -> yields pref = [] ->
  hd_error (fst (reduce_finish pref (reduce_loop f v l))) = Some CkIf /\
  (snd (reduce_finish pref (reduce_loop f v l)) = None ->
   passes_ck (fst (reduce_finish pref (reduce_loop f v l))) = true /\
   check_before_first_yield_value (fst (reduce_finish pref (reduce_loop f v l))) = true).
Proof.
  intros Hh Hy. destruct pref as [|e pr]; [discriminate|]. cbn in Hh. injection Hh as ->.
  destruct (reduce_loop f v l) as [ev [w|]]; cbn [reduce_finish fst snd app hd_error]; (split; [reflexivity|]);
    [intros _|discriminate].
  split; [|reflexivity]. rewrite passes_ckif, !existsb_app. cbn. now rewrite !orb_true_r.
Qed.

Theorem reduce_checkpoints : forall f initial s,
  hd_error (fst (reduce_model f initial s false)) = Some CkIf /\
  (snd (reduce_model f initial s false) = None ->
   passes_ck (fst (reduce_model f initial s false)) = true /\
   check_before_first_yield_value (fst (reduce_model f initial s false)) = true).
Proof.
  intros f initial [k l]. unfold reduce_model. cbn [snd].
  destruct initial as [i|]; [now apply reduce_finish_ck|].
  destruct l as [|x r]; [cbn; split; [reflexivity|discriminate]|]. now apply reduce_finish_ck.
Qed.

Theorem reduce_cancelled : forall f initial s,
  reduce_model f initial s true = ([CkIf], Some Cancelled) /\
  has_next (fst (reduce_model f initial s true)) = false /\ has_call (fst (reduce_model f initial s true)) = false.
Proof. intros. repeat split. Qed.

(* the shape before the fix does violate the clause: a reducer that never yields, called at least once, leaves a
   trace without any checkpoint event (pinned witness) *)
Theorem reduce_pre_F22_refuted_pinned :
  exists f initial s, snd (reduce_model_pre_F22 f initial s) = None /\
                      has_ck (fst (reduce_model_pre_F22 f initial s)) = false /\
                      has_call (fst (reduce_model_pre_F22 f initial s)) = true.
Proof. exists Z.add, None, (KSync, [1; 2; 3]%Z). vm_compute. auto. Qed.

(* zip_longest *)
Theorem zip_longest_checkpoints : forall fill ss,
  all_sync ss = true \/ yields (fst (zip_longest_model fill ss)) = [] ->
  ckd (fst (zip_longest_model fill ss)).
Proof.
  intros fill ss. destruct (srcs_as_alias ss) as (kd & st & ps & Hnd & ->).
  unfold zip_longest_model. rewrite <- zip_longest_run_distinct by exact Hnd.
  replace (all_sync (map (fun i => (kd i, st i)) ps)) with (forallb (fun i => is_sync (kd i)) ps)
    by (unfold all_sync; clear; induction ps as [|i r IH]; cbn; [|rewrite IH]; reflexivity).
  apply zip_longest_alias_checkpoints.
Qed.

(* Non-vacuity: concrete traversals meeting the hypotheses of the checkpoint theorems (one over a synchronous
   source that yields, one over an asynchronous source that yields nothing), and concrete traces / outcomes. *)
Local Open Scope Z_scope.

Example accumulate_trace :
  accumulate_model (fn2p 0) None (KSync, [1; 2; 3]) =
  ([CkIf; Sh; Yield 1; CkIf; Sh; Yield 3; CkIf; Sh; Yield 6; CkIf; Sh], None) /\
  (* None is an element like any other: accumulate([None]) yields it *)
  outcome (accumulate_model (fn2p 7) None (KAsync, [none_code])) = ([none_code], None) /\
  outcome (accumulate_model (fn2p 7) None (KAsync, [none_code; 1; none_code; 2])) = ([none_code; 1; 1; 2], None) /\
  (* with `+`: the first element is yielded, then None + 1 raises TypeError *)
  outcome (accumulate_model (fn2p 0) None (KSync, [none_code; 1])) = ([none_code], Some TypeError).
Proof. vm_compute. repeat split. Qed.

Example batched_ex_sync : snd (batched_model 2 false (KSync, [0; 1; 2])) = None /\
  outcome (batched_model 2 false (KSync, [0; 1; 2])) = ([[0; 1]; [2]], None).
Proof. vm_compute. auto. Qed.
Example batched_ex_empty : snd (batched_model 2 true (KAsync, [])) = None /\
  yields (fst (batched_model 2 true (KAsync, []))) = [] /\ fst (batched_model 2 true (KAsync, [])) = [Ck].
Proof. vm_compute. auto. Qed.
Example batched_ex_strict : outcome (batched_model 2 true (KAsync, [0; 1; 2])) = ([[0; 1]], Some ValueError).
Proof. vm_compute. auto. Qed.
Example batched_ex_invalid : batched_model 0 false (KSync, [1]) = ([], Some ValueError).
Proof. reflexivity. Qed.

Example chain_ex_empty : yields (fst (chain_model KAsync [(KAsync, []); (KAsync, [])])) = [] /\
  fst (chain_model KAsync [(KAsync, []); (KAsync, [])]) = [Ck].
Proof. vm_compute. auto. Qed.
Example compress_ex_empty : yields (fst (compress_model (KAsync, [1; 2]) (KAsync, [0; 0]))) = [] /\
  fst (compress_model (KAsync, [1; 2]) (KAsync, [0; 0])) = [Ck].
Proof. vm_compute. auto. Qed.
Example cycle_ex : outcome (cycle_model (KAsync, [1; 2]) 5) = ([1; 2; 1; 2; 1], None) /\
  fst (cycle_model (KAsync, []) 3) = [Ck].
Proof. vm_compute. auto. Qed.
Example dropwhile_ex_empty : yields (fst (dropwhile_model (fun _ => true) (KAsync, [1; 2]))) = [] /\
  fst (dropwhile_model (fun _ => true) (KAsync, [1; 2])) = [Ck].
Proof. vm_compute. auto. Qed.
Example filterfalse_ex_empty : yields (fst (filterfalse_model (fun _ => true) (KAsync, [1; 2]))) = [] /\
  fst (filterfalse_model (fun _ => true) (KAsync, [1; 2])) = [Ck].
Proof. vm_compute. auto. Qed.
Example takewhile_ex_empty : yields (fst (takewhile_model (fun _ => false) (KAsync, [1; 2]))) = [] /\
  fst (takewhile_model (fun _ => false) (KAsync, [1; 2])) = [Ck].
Proof. vm_compute. auto. Qed.
Example groupby_ex : outcome (groupby_model Z.eqb (fun x => x mod 2) (KSync, [1; 3; 2; 4; 5])) =
  ([(1, [1; 3]); (0, [2; 4]); (1, [5])], None) /\ fst (groupby_model Z.eqb (fun x => x) (KAsync, [])) = [Ck] /\
  (* one NaN object (99) twice, another NaN object (199), the int 1: the run of the same object is one group *)
  outcome (groupby_model same_obj (fun x => x) (KAsync, [99; 99; 199; 1; 1])) =
    ([(99, [99; 99]); (199, [199]); (1, [1; 1])], None) /\
  (* a key function that returns one NaN object for every element: a single group *)
  outcome (groupby_model same_obj (fun _ => 99) (KSync, [0; 1; 2])) = ([(99, [0; 1; 2])], None).
Proof. vm_compute. repeat split. Qed.
Example islice_ex : outcome (islice_model [Some 1; None; Some 2] (KAsync, [0; 1; 2; 3; 4])) = ([1; 3], None) /\
  islice_model [Some 2; Some 2] (KAsync, [0; 1; 2]) = ([Nx; Nx; Ck], None) /\
  islice_model [Some 5; Some 1] (KAsync, [0; 1; 2]) = ([Nx; Nx; Nx; Nx; Ck], None) /\
  islice_model [Some 0] (KSync, [0; 1]) = ([Ck], None) /\
  outcome (islice_then_rest_model KSync [Some 2; Some 2] (KAsync, [0; 1; 2; 3])) = ([2; 3], None) /\
  islice_model [Some (-1)] (KSync, [0]) = ([], Some ValueError) /\
  islice_model [Some 0; Some 1; Some 0] (KSync, [0]) = ([], Some ValueError) /\
  islice_model [] (KSync, [0]) = ([], Some TypeError).
Proof. vm_compute. repeat split. Qed.
Example pairwise_ex : outcome (pairwise_model (KSync, [1; 2; 3])) = ([(1, 2); (2, 3)], None) /\
  fst (pairwise_model (KAsync, [1])) = [Ck] /\ fst (pairwise_model (KAsync, [])) = [Ck].
Proof. vm_compute. auto. Qed.
Example starmap_ex_empty : fst (starmap_model (fun _ => 0) KAsync []) = [Ck].
Proof. reflexivity. Qed.
Example zip_longest_ex : outcome (zip_longest_model 9 [(KSync, [1; 2; 3]); (KAsync, [4])]) =
  ([[1; 4]; [2; 9]; [3; 9]], None) /\
  fst (zip_longest_model 9 [(KAsync, []); (KAsync, [])]) = [Ck] /\ fst (zip_longest_model 9 []) = [Ck].
Proof. vm_compute. auto. Qed.
Example reduce_ex : reduce_model (fn2p 0) None (KSync, [1; 2; 3]) false =
    ([CkIf; Nx; Nx; Call; Nx; Call; Nx; Sh; Yield 6], None) /\
  reduce_model (fn2p 0) (Some 5) (KSync, []) false = ([CkIf; Nx; Sh; Yield 5], None) /\
  outcome (reduce_model (fn2p 7) (Some none_code) (KSync, [none_code; 3]) false) = ([3], None) /\
  outcome (reduce_model (fn2p 0) None (KSync, [1; none_code]) false) = ([], Some TypeError) /\
  reduce_model (fn2p 0) None (KAsync, [4]) false = ([CkIf; Nx; Nx; Sh; Yield 4], None) /\
  reduce_model (fn2p 0) None (KSync, []) false = ([CkIf; Nx], Some TypeError) /\
  reduce_model (fn2p 0) None (KSync, [1; 2]) true = ([CkIf], Some Cancelled).
Proof. vm_compute. repeat split. Qed.
Example oracle_ex :
  combs [1; 2; 3] 2 = [[1; 2]; [1; 3]; [2; 3]] /\
  cwr 2 [1; 2] = [[1; 1]; [1; 2]; [2; 2]] /\
  perms 2 [1; 2; 3] = [[1; 2]; [1; 3]; [2; 1]; [2; 3]; [3; 1]; [3; 2]] /\
  product_oracle [[1; 2]; [3]] 2 = [[1; 3; 1; 3]; [1; 3; 2; 3]; [2; 3; 1; 3]; [2; 3; 2; 3]].
Proof. vm_compute. auto. Qed.
(* the hypothesis "asynchronous source and something was yielded" really is outside the checkpoint guarantee *)
Example async_nonempty_has_no_checkpoint :
  has_ck (fst (filterfalse_model (fun _ => false) (KAsync, [1; 2]))) = false /\
  check_before_first_yield_value (fst (filterfalse_model (fun _ => false) (KAsync, [1; 2]))) = false.
Proof. split; reflexivity. Qed.

(* Tie T for the text half of C16: the regenerated receive / send of anyio.streams.text, interpreted, ARE Text.tstep. *)
From AV Require Import Base Text TextImp TextGen.

Definition recv_body : tstmt := match gen_text_receive with TWhileTrue b => b | _ => TIfDecodedReturn end.

Lemma recv_loop_eq : forall w fuel e d en st0, (length w < fuel)%nat ->
  tloop fuel recv_body e (mkt en d w st0) =
  Some (let '(d', w', r) := recv_loop en d w in TODone (mkt en d' w' st0) r).
Proof.
  induction w as [|c r IH]; intros fuel e d en st0 Hf; (destruct fuel as [|f]; [cbn in Hf; lia|]).
  - reflexivity.
  - cbn [tloop recv_loop]. unfold recv_body. cbn [gen_text_receive run_tblock run_tatom wire tenc dec started t_chunk t_item t_decoded t_encoded].
    destruct (decode_chunk en d c) as [d' o|x] eqn:D; cbn [run_tblock t_decoded].
    + destruct o as [|y o'].
      * cbn [run_tblock t_decoded]. change (TSeq (TAtom TFetch) _) with recv_body.
        rewrite IH by (cbn in Hf; lia). destruct (recv_loop en d' r) as [[d2 w2] r2]. reflexivity.
      * reflexivity.
    + reflexivity.
Qed.

Theorem tie_text_receive s : g_receive gen_text_receive s = Some (tstep s TRecv).
Proof.
  destruct s as [en d w st0]. unfold g_receive. cbn [texec gen_text_receive wire tstep tenc dec started].
  change (TSeq (TAtom TFetch) _) with recv_body. rewrite recv_loop_eq by (cbn; lia).
  destruct (recv_loop en d w) as [[d' w'] r]. reflexivity.
Qed.

Theorem tie_text_send s x : g_send gen_text_send s x = Some (tstep s (TSend x)).
Proof.
  destruct s as [en d w st0]. unfold g_send. cbn [texec gen_text_send run_tblock run_tatom tstep tenc dec wire started t_item tenv0].
  destruct (encode en st0 x) as [b|]; reflexivity.
Qed.

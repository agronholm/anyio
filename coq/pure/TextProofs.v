(* pure/TextProofs: machine-checked properties of the executable model pure/Text.v
   (anyio.streams.text.TextReceiveStream / TextSendStream over the CPython incremental codecs).

   - the byte automaton is compositional (run_bytes_app) and mode 3 ("no BOM") is absorbing;
   - decoding is invariant under re-chunking of the byte stream (text_chunking_invariant);
   - receive() never returns an empty string, k receives consume a prefix of the wire and return exactly
     what chunk-by-chunk decoding of that prefix gives (text_receive_drains, text_stream_transparent);
   - utf-8: the decoder accepts exactly the well-formed sequences (u8_seq), which are the encodings of the scalar
     values: decoding inverts encoding (utf8_roundtrip_bytes) and accepts nothing but canonical encodings
     (utf8_decode_sound);
   - encode/decode round trips through any re-chunking and through the stream model, for every encoding of the
     model on HEAD, where the stateful encoder writes one BOM (text_roundtrip_all, text_roundtrip_stream_all);
     text_roundtrip and text_roundtrip_stream are the instances for utf-8 and latin-1;
   - the round-trip clause is refuted for 'utf-16'/'utf-32' with the pinned stateless encoder (a BOM per send). *)
From AV Require Import Base Text.
Open Scope Z_scope.

(* with this hook lia handles division and remainder by constants: digits2-4 and the encoder lemmas close by a
   bare lia *)
#[local] Ltac Zify.zify_post_hook ::= Z.div_mod_to_equations.

Definition emit (cps : list Z) (x : dr) : dr :=
  match x with DErr c => DErr c | DOk s o => DOk s (cps ++ o) end.

Lemma DOk_inj s o s' o' : DOk s o = DOk s' o' -> s = s' /\ o = o'.
Proof.
  intros H. split.
  - exact (f_equal (fun r => match r with DOk a _ => a | DErr _ => s end) H).
  - exact (f_equal (fun r => match r with DOk _ b => b | DErr _ => o end) H).
Qed.

Lemma emit_inv cps x d s : emit cps x = DOk d s -> exists o, x = DOk d o /\ s = cps ++ o.
Proof.
  destruct x as [d' o|c]; [|discriminate]. intros H. apply DOk_inj in H as [-> <-]. exists o. split; reflexivity.
Qed.

Lemma run_bytes_app e s a b :
  run_bytes e s (a ++ b) =
  match run_bytes e s a with DErr c => DErr c | DOk s1 o1 => emit o1 (run_bytes e s1 b) end.
Proof.
  revert s. induction a as [|x a IH]; intros s; cbn [app run_bytes].
  - destruct (run_bytes e s b); reflexivity.
  - destruct (dstep e s x) as [s1 o1|c]; [|reflexivity].
    rewrite IH. destruct (run_bytes e s1 a) as [s2 o2|c]; [|reflexivity].
    destruct (run_bytes e s2 b) as [s3 o3|c]; [|reflexivity].
    cbn [emit]. now rewrite app_assoc.
Qed.

Definition cls_nm (c : cls) : option nat := match c with Out _ n => n | _ => None end.

Lemma u8_classify_nm p cps nm : u8_classify p = Out cps nm -> nm = None.
Proof.
  unfold u8_classify.
  destruct p as [|b0 [|b1 [|b2 [|b3 [|b4 p]]]]]; try discriminate;
    repeat match goal with |- context [if ?c then _ else _] => destruct c end;
    try discriminate; intros H; apply (f_equal cls_nm) in H; exact (eq_sym H).
Qed.

Lemma latin1_classify_nm p cps nm : latin1_classify p = Out cps nm -> nm = None.
Proof.
  unfold latin1_classify. destruct p as [|b0 [|b1 p]]; try discriminate.
  intros H; apply (f_equal cls_nm) in H; exact (eq_sym H).
Qed.

(* f_equal cls_nm, not injection or inversion: those are slow on the code-point arithmetic inside Out *)
Lemma u16_classify_nm le nm p cps nm' : u16_classify le nm p = Out cps nm' -> nm' = nm.
Proof.
  unfold u16_classify.
  destruct p as [|b0 [|b1 [|b2 [|b3 [|b4 p]]]]]; cbv beta zeta; try discriminate.
  - destruct (is_lo (unit16 le b0 b1)); [discriminate|].
    destruct (is_hi (unit16 le b0 b1)); [discriminate|].
    intros H; apply (f_equal cls_nm) in H; exact (eq_sym H).
  - destruct (is_lo (unit16 le b2 b3)); [|discriminate].
    intros H; apply (f_equal cls_nm) in H; exact (eq_sym H).
Qed.

Lemma u32_classify_nm le nm p cps nm' : u32_classify le nm p = Out cps nm' -> nm' = nm.
Proof.
  unfold u32_classify.
  destruct p as [|b0 [|b1 [|b2 [|b3 [|b4 p]]]]]; cbv beta zeta; try discriminate.
  destruct (valid_scalar (unit32 le b0 b1 b2 b3)); [|discriminate].
  intros H; apply (f_equal cls_nm) in H; exact (eq_sym H).
Qed.

Lemma classify_mode3 e p cps nm : classify e 3%nat p = Out cps nm -> nm = None.
Proof.
  destruct e; cbn [classify];
    first [ apply u8_classify_nm | apply latin1_classify_nm | apply u16_classify_nm | apply u32_classify_nm ].
Qed.

Lemma mode3_absorbing e s b s' o : dmode s = 3%nat -> dstep e s b = DOk s' o -> dmode s' = 3%nat.
Proof.
  intros Hm. unfold dstep. rewrite Hm.
  destruct (classify e 3%nat (pend s ++ [b])) as [cps nm| |c] eqn:E; intros H; inversion H; subst;
    cbn [dmode]; try reflexivity.
  apply classify_mode3 in E. subst nm. reflexivity.
Qed.

Lemma run_bytes_mode3 e bs : forall s s' o,
  dmode s = 3%nat -> run_bytes e s bs = DOk s' o -> dmode s' = 3%nat.
Proof.
  induction bs as [|b r IH]; intros s s' o Hm H; cbn [run_bytes] in H.
  - inversion H; subst. exact Hm.
  - destruct (dstep e s b) as [s1 o1|c] eqn:E; [|discriminate].
    destruct (run_bytes e s1 r) as [s2 o2|c] eqn:E2; [|discriminate].
    inversion H; subst. eapply IH; [|exact E2]. eapply mode3_absorbing; eauto.
Qed.

Lemma chunk_end_spec s :
  (dmode s = 3%nat /\ chunk_end s = Some 3) \/ (dmode s <> 3%nat /\ chunk_end s = None).
Proof.
  unfold chunk_end. destruct (dmode s) as [|[|[|[|n]]]];
    first [ left; split; reflexivity | right; split; [discriminate|reflexivity] ].
Qed.

Lemma dinit_mode e : dmode (dinit e) <> 3%nat.
Proof. destruct e; cbn; discriminate. Qed.

Lemma chunk_end_dinit e : chunk_end (dinit e) = None.
Proof. destruct e; reflexivity. Qed.

Lemma decode_chunk_ok e d c d' o :
  decode_chunk e d c = DOk d' o <-> run_bytes e d c = DOk d' o /\ dmode d' <> 3%nat.
Proof.
  unfold decode_chunk. destruct (run_bytes e d c) as [s1 o1|x].
  - destruct (chunk_end_spec s1) as [[Hm Hc]|[Hm Hc]]; rewrite Hc; split.
    + discriminate.
    + intros [H Hn]. inversion H; subst. contradiction.
    + intros H; inversion H; subst. split; [reflexivity|exact Hm].
    + intros [H _]; exact H.
  - split; [discriminate | intros [H _]; discriminate].
Qed.

(* any split of the bytes decodes to the same thing as the whole, and succeeds iff the whole succeeds *)
Theorem text_chunking_invariant e d w d' o : dmode d <> 3%nat ->
  (decode_seq e d w = DOk d' o <-> decode_chunk e d (concat w) = DOk d' o).
Proof.
  revert d d' o. induction w as [|c r IH]; intros d d' o Hd.
  - cbn [decode_seq concat]. split.
    + intros H; inversion H; subst. apply decode_chunk_ok. split; [reflexivity|exact Hd].
    + intros H. apply decode_chunk_ok in H. destruct H as [H _]. exact H.
  - cbn [decode_seq concat]. split.
    + intros H. destruct (decode_chunk e d c) as [s1 o1|x] eqn:E; [|discriminate].
      apply decode_chunk_ok in E. destruct E as [E Hs1].
      destruct (decode_seq e s1 r) as [s2 o2|x] eqn:E2; [|discriminate].
      inversion H; subst. apply (IH _ _ _ Hs1) in E2.
      apply decode_chunk_ok in E2. destruct E2 as [E2 Hd'].
      apply decode_chunk_ok. split; [|exact Hd'].
      rewrite run_bytes_app, E, E2. reflexivity.
    + intros H. apply decode_chunk_ok in H. destruct H as [H Hd'].
      rewrite run_bytes_app in H.
      destruct (run_bytes e d c) as [s1 o1|x] eqn:E; [|discriminate].
      destruct (run_bytes e s1 (concat r)) as [s2 o2|x] eqn:E2; [|discriminate].
      inversion H; subst.
      assert (Hs1 : dmode s1 <> 3%nat).
      { intros Hm. apply Hd'. eapply run_bytes_mode3; eauto. }
      assert (Ec : decode_chunk e d c = DOk s1 o1) by (apply decode_chunk_ok; split; assumption).
      assert (E3 : decode_seq e s1 r = DOk d' o2).
      { apply (IH _ _ _ Hs1). apply decode_chunk_ok. split; assumption. }
      rewrite Ec, E3. reflexivity.
Qed.

Lemma decode_seq_app e u1 : forall d u2,
  decode_seq e d (u1 ++ u2) =
  match decode_seq e d u1 with DErr x => DErr x | DOk s1 o1 => emit o1 (decode_seq e s1 u2) end.
Proof.
  induction u1 as [|c u1 IH]; intros d u2; cbn [app decode_seq].
  - destruct (decode_seq e d u2); reflexivity.
  - destruct (decode_chunk e d c) as [s1 o1|x]; [|reflexivity].
    rewrite IH. destruct (decode_seq e s1 u1) as [s2 o2|x]; [|reflexivity].
    destruct (decode_seq e s2 u2) as [s3 o3|x]; [|reflexivity].
    cbn [emit]. now rewrite app_assoc.
Qed.

(* receive() *)

Lemma strs_app a b : strs (a ++ b) = strs a ++ strs b.
Proof. unfold strs. now rewrite map_app, concat_app. Qed.

Lemma strs_sent bs : strs (map TSent bs) = [].
Proof. induction bs as [|b bs IH]; [reflexivity|exact IH]. Qed.

(* one receive() consumes a prefix `used` of the wire; what it returns is what chunk-by-chunk decoding of `used` gives *)
Lemma recv_loop_spec e w : forall d d' w' r, recv_loop e d w = (d', w', r) ->
  exists used, w = used ++ w' /\ (r = TEnd -> w' = []) /\ (forall x, r = TStr x -> x <> []) /\
    decode_seq e d used = match r with TDecErr c => DErr c | _ => DOk d' (strs [r]) end.
Proof.
  induction w as [|c rest IH]; intros d d' w' r H; cbn [recv_loop] in H.
  - injection H as <- <- <-. exists []. repeat split. discriminate.
  - destruct (decode_chunk e d c) as [d1 [|a o]|x] eqn:E.
    + apply IH in H as (used & -> & Hend & Hx & Hd). exists (c :: used). cbn [decode_seq]. rewrite E, Hd.
      repeat split; [exact Hend|exact Hx|]. destruct r; reflexivity.
    + injection H as <- <- <-. exists [c]. cbn [decode_seq]. rewrite E.
      repeat split; [discriminate|intros x [= <-]; discriminate].
    + injection H as <- <- <-. exists [c]. cbn [decode_seq]. rewrite E. repeat split; discriminate.
Qed.

Lemma tstep_recv s s' r : tstep s TRecv = (s', r) ->
  recv_loop (tenc s) (dec s) (wire s) = (dec s', wire s', r) /\ tenc s' = tenc s.
Proof.
  unfold tstep. destruct (recv_loop (tenc s) (dec s) (wire s)) as [[d w] r1]. intros [= <- <-]. split; reflexivity.
Qed.

Theorem text_receive_nonempty s s' x : tstep s TRecv = (s', TStr x) -> x <> [].
Proof.
  intros H. apply tstep_recv in H as [H _]. apply recv_loop_spec in H as (used & _ & _ & Hx & _). exact (Hx x eq_refl).
Qed.

(* k successive receive() calls without a decoding error: they consumed a prefix `used` of the wire, and the
   concatenation of the returned strings is what chunk-by-chunk decoding of `used` gives; after EndOfStream
   everything was consumed *)
Theorem text_receive_drains s k s' outs :
  run_ops tstep s (repeat TRecv k) = (s', outs) ->
  (forall c, ~ In (TDecErr c) outs) ->
  exists used, wire s = used ++ wire s' /\ tenc s' = tenc s /\
               decode_seq (tenc s) (dec s) used = DOk (dec s') (strs outs) /\
               (In TEnd outs -> wire s' = []).
Proof.
  revert s s' outs. induction k as [|k IH]; intros s s' outs H Hne.
  - injection H as <- <-. exists []. repeat split. intros [].
  - apply run_ops_cons in H as (s1 & r & outs2 & E1 & E2 & ->).
    apply tstep_recv in E1 as [ER He1]. apply recv_loop_spec in ER as (u1 & Hw & Hend1 & _ & Hd1).
    apply IH in E2 as (u2 & Hw2 & He & Hd & Hend); [|intros c Hc; apply (Hne c); right; exact Hc].
    rewrite He1 in *. exists (u1 ++ u2). refine (conj _ (conj He (conj _ _))).
    + rewrite Hw, Hw2. apply app_assoc.
    + rewrite decode_seq_app, Hd1. change (r :: outs2) with ([r] ++ outs2). rewrite strs_app.
      destruct r as [x| |c|x|]; try (rewrite Hd; reflexivity). destruct (Hne c). left. reflexivity.
    + intros [->|Hi]; [|exact (Hend Hi)]. rewrite (Hend1 eq_refl) in Hw2. symmetry in Hw2.
      exact (proj2 (app_eq_nil _ _ Hw2)).
Qed.

(* corollary: TextReceiveStream is transparent to chunking *)
Theorem text_stream_transparent e w k s' outs :
  run_ops tstep (tinit e w) (repeat TRecv k) = (s', outs) ->
  (forall c, ~ In (TDecErr c) outs) -> In TEnd outs ->
  decode_chunk e (dinit e) (concat w) = DOk (dec s') (strs outs).
Proof.
  intros H Hne Hend.
  destruct (text_receive_drains _ _ _ _ H Hne) as (used & Hw & _ & Hd & Hfin).
  unfold tinit in Hw, Hd. cbn [wire tenc dec] in Hw, Hd.
  rewrite (Hfin Hend), app_nil_r in Hw. subst used.
  apply text_chunking_invariant; [apply dinit_mode|exact Hd].
Qed.

(* one byte of a decoder with pending bytes p, by what `classify` says of p ++ [b] *)

Section Step.
Variables (e : enc) (m : nat) (p : list Z) (b : Z) (r : list Z).

Lemma run_more : classify e m (p ++ [b]) = More ->
  run_bytes e (mkd m p) (b :: r) = run_bytes e (mkd m (p ++ [b])) r.
Proof.
  intros E. cbn [run_bytes]. unfold dstep. cbn [pend dmode]. rewrite E.
  destruct (run_bytes e (mkd m (p ++ [b])) r); reflexivity.
Qed.

Lemma run_out cps : classify e m (p ++ [b]) = Out cps None ->
  run_bytes e (mkd m p) (b :: r) = emit cps (run_bytes e (mkd m []) r).
Proof. intros E. cbn [run_bytes]. unfold dstep. cbn [pend dmode]. rewrite E. reflexivity. Qed.

Lemma run_bad c : classify e m (p ++ [b]) = Bad c -> run_bytes e (mkd m p) (b :: r) = DErr c.
Proof. intros E. cbn [run_bytes]. unfold dstep. cbn [pend dmode]. rewrite E. reflexivity. Qed.
End Step.

Lemma inrP lo hi b : reflect (lo <= b <= hi) (inr lo hi b).
Proof. unfold inr. apply iff_reflect. lia. Qed.

(* utf-8 *)

Definition sec_ok (b0 b1 : Z) : Prop :=
  0x80 <= b1 <= 0xBF /\ (b0 = 0xE0 -> 0xA0 <= b1) /\ (b0 = 0xED -> b1 <= 0x9F) /\
  (b0 = 0xF0 -> 0x90 <= b1) /\ (b0 = 0xF4 -> b1 <= 0x8F).

Lemma sec_okP b0 b1 : reflect (sec_ok b0 b1) (u8_second_ok b0 b1).
Proof.
  unfold u8_second_ok, sec_ok, is_cont.
  destruct (Z.eqb_spec b0 0xE0) as [->|N1]; [destruct (inrP 0xA0 0xBF b1); constructor; lia|].
  destruct (Z.eqb_spec b0 0xED) as [->|N2]; [destruct (inrP 0x80 0x9F b1); constructor; lia|].
  destruct (Z.eqb_spec b0 0xF0) as [->|N3]; [destruct (inrP 0x90 0xBF b1); constructor; lia|].
  destruct (Z.eqb_spec b0 0xF4) as [->|N4]; [destruct (inrP 0x80 0x8F b1); constructor; lia|].
  destruct (inrP 0x80 0xBF b1); constructor; tauto.
Qed.

(* u8_classify by the length of its argument: the rows are exhaustive and exclude one another *)
Lemma u8c_inv1 b :
  (0 <= b <= 0x7F /\ u8_classify [b] = Out [b] None) \/
  (0xC2 <= b <= 0xF4 /\ u8_classify [b] = More) \/
  (~ 0 <= b <= 0x7F /\ ~ 0xC2 <= b <= 0xF4 /\ u8_classify [b] = Bad 2).
Proof.
  unfold u8_classify. destruct (inrP 0 0x7F b); [now left|].
  destruct (inrP 0xC2 0xF4 b); [now right; left|now right; right].
Qed.

(* third row: ED A0..BF, the truncated surrogate that CPython keeps pending *)
Lemma u8c_inv2 b0 b1 :
  (0xC2 <= b0 <= 0xDF /\ 0x80 <= b1 <= 0xBF /\
   u8_classify [b0; b1] = Out [(b0 - 0xC0) * 64 + (b1 - 0x80)] None) \/
  (~ 0xC2 <= b0 <= 0xDF /\ sec_ok b0 b1 /\ u8_classify [b0; b1] = More) \/
  (~ 0xC2 <= b0 <= 0xDF /\ ~ sec_ok b0 b1 /\ u8_classify [b0; b1] = More) \/
  ((0xC2 <= b0 <= 0xDF -> ~ 0x80 <= b1 <= 0xBF) /\ (~ 0xC2 <= b0 <= 0xDF -> ~ sec_ok b0 b1) /\
   u8_classify [b0; b1] = Bad 2).
Proof.
  unfold u8_classify, is_cont. destruct (inrP 0xC2 0xDF b0).
  - destruct (inrP 0x80 0xBF b1); [now left|]. right; right; right. repeat split; tauto.
  - destruct (sec_okP b0 b1); [now right; left|].
    destruct ((b0 =? 0xED) && inr 0xA0 0xBF b1); [now right; right; left|].
    right; right; right. repeat split; tauto.
Qed.

Lemma u8c_inv3 b0 b1 b2 :
  (0xE0 <= b0 <= 0xEF /\ sec_ok b0 b1 /\ 0x80 <= b2 <= 0xBF /\
   u8_classify [b0; b1; b2] = Out [(b0 - 0xE0) * 4096 + (b1 - 0x80) * 64 + (b2 - 0x80)] None) \/
  (~ 0xE0 <= b0 <= 0xEF /\ sec_ok b0 b1 /\ 0x80 <= b2 <= 0xBF /\ u8_classify [b0; b1; b2] = More) \/
  (~ (sec_ok b0 b1 /\ 0x80 <= b2 <= 0xBF) /\ u8_classify [b0; b1; b2] = Bad 2).
Proof.
  unfold u8_classify, is_cont.
  destruct (inrP 0x80 0xBF b2); cbn [negb orb]; [|right; right; split; [tauto|reflexivity]].
  destruct (sec_okP b0 b1); cbn [negb]; [|right; right; split; [tauto|reflexivity]].
  destruct (inrP 0xE0 0xEF b0); [now left|now right; left].
Qed.

Lemma u8c_inv4 b0 b1 b2 b3 :
  (0x80 <= b3 <= 0xBF /\
   u8_classify [b0; b1; b2; b3] =
   Out [(b0 - 0xF0) * 262144 + (b1 - 0x80) * 4096 + (b2 - 0x80) * 64 + (b3 - 0x80)] None) \/
  (~ 0x80 <= b3 <= 0xBF /\ u8_classify [b0; b1; b2; b3] = Bad 2).
Proof. unfold u8_classify, is_cont. destruct (inrP 0x80 0xBF b3); [now left|now right]. Qed.

Lemma u8c_1 b : 0 <= b <= 0x7F -> u8_classify [b] = Out [b] None.
Proof. intros H. destruct (u8c_inv1 b) as [[_ E]|[[? _]|[? _]]]; [exact E|lia|contradiction]. Qed.

Lemma u8c_lead b : 0xC2 <= b <= 0xF4 -> u8_classify [b] = More.
Proof. intros H. destruct (u8c_inv1 b) as [[? _]|[[_ E]|(_ & ? & _)]]; [lia|exact E|contradiction]. Qed.

Lemma u8c_2 b0 b1 : 0xC2 <= b0 <= 0xDF -> 0x80 <= b1 <= 0xBF ->
  u8_classify [b0; b1] = Out [(b0 - 0xC0) * 64 + (b1 - 0x80)] None.
Proof.
  intros H0 H1. destruct (u8c_inv2 b0 b1) as [(_ & _ & E)|[[? _]|[[? _]|[? _]]]]; [exact E|tauto..].
Qed.

Lemma u8c_2more b0 b1 : ~ 0xC2 <= b0 <= 0xDF -> sec_ok b0 b1 -> u8_classify [b0; b1] = More.
Proof.
  intros H0 H1.
  destruct (u8c_inv2 b0 b1) as [[? _]|[(_ & _ & E)|[(_ & _ & E)|(_ & ? & _)]]]; [tauto|exact E|exact E|tauto].
Qed.

Lemma u8c_3 b0 b1 b2 : 0xE0 <= b0 <= 0xEF -> sec_ok b0 b1 -> 0x80 <= b2 <= 0xBF ->
  u8_classify [b0; b1; b2] = Out [(b0 - 0xE0) * 4096 + (b1 - 0x80) * 64 + (b2 - 0x80)] None.
Proof.
  intros H0 H1 H2. destruct (u8c_inv3 b0 b1 b2) as [(_ & _ & _ & E)|[[? _]|[? _]]]; [exact E|tauto..].
Qed.

Lemma u8c_3more b0 b1 b2 : ~ 0xE0 <= b0 <= 0xEF -> sec_ok b0 b1 -> 0x80 <= b2 <= 0xBF ->
  u8_classify [b0; b1; b2] = More.
Proof.
  intros H0 H1 H2. destruct (u8c_inv3 b0 b1 b2) as [[? _]|[(_ & _ & _ & E)|[? _]]]; [tauto|exact E|tauto].
Qed.

Lemma u8c_4 b0 b1 b2 b3 : 0x80 <= b3 <= 0xBF ->
  u8_classify [b0; b1; b2; b3] =
  Out [(b0 - 0xF0) * 262144 + (b1 - 0x80) * 4096 + (b2 - 0x80) * 64 + (b3 - 0x80)] None.
Proof. intros H3. destruct (u8c_inv4 b0 b1 b2 b3) as [[_ E]|[? _]]; [exact E|contradiction]. Qed.

(* a well-formed utf-8 sequence and the code point it stands for *)
Inductive u8_seq : list Z -> Z -> Prop :=
| U8_1 b : 0 <= b <= 0x7F -> u8_seq [b] b
| U8_2 b0 b1 cp : 0xC2 <= b0 <= 0xDF -> 0x80 <= b1 <= 0xBF ->
    cp = (b0 - 0xC0) * 64 + (b1 - 0x80) -> u8_seq [b0; b1] cp
| U8_3 b0 b1 b2 cp : 0xE0 <= b0 <= 0xEF -> sec_ok b0 b1 -> 0x80 <= b2 <= 0xBF ->
    cp = (b0 - 0xE0) * 4096 + (b1 - 0x80) * 64 + (b2 - 0x80) -> u8_seq [b0; b1; b2] cp
| U8_4 b0 b1 b2 b3 cp : 0xF0 <= b0 <= 0xF4 -> sec_ok b0 b1 -> 0x80 <= b2 <= 0xBF -> 0x80 <= b3 <= 0xBF ->
    cp = (b0 - 0xF0) * 262144 + (b1 - 0x80) * 4096 + (b2 - 0x80) * 64 + (b3 - 0x80) -> u8_seq [b0; b1; b2; b3] cp.

(* the decoder accepts a well-formed sequence ... *)
Lemma u8_seq_run u cp r : u8_seq u cp ->
  run_bytes Utf8 (mkd 1 []) (u ++ r) = emit [cp] (run_bytes Utf8 (mkd 1 []) r).
Proof.
  destruct 1 as [b H0|b0 b1 cp H0 H1 ->|b0 b1 b2 cp H0 H1 H2 ->|b0 b1 b2 b3 cp H0 H1 H2 H3 ->]; cbn [app].
  - apply run_out, u8c_1, H0.
  - rewrite run_more by (apply u8c_lead; lia). apply run_out, u8c_2; assumption.
  - rewrite run_more by (apply u8c_lead; lia). rewrite run_more by (apply u8c_2more; [lia|assumption]).
    apply run_out, u8c_3; assumption.
  - rewrite run_more by (apply u8c_lead; lia). rewrite run_more by (apply u8c_2more; [lia|assumption]).
    rewrite run_more by (apply u8c_3more; [lia|assumption..]). apply run_out, u8c_4, H3.
Qed.

(* ... and nothing else: a successful run that ends with nothing pending starts with one *)
Lemma u8_unit_inv b0 r0 s : run_bytes Utf8 (mkd 1 []) (b0 :: r0) = DOk (mkd 1 []) s ->
  exists u cp r, b0 :: r0 = u ++ r /\ u8_seq u cp.
Proof.
  intros H. destruct (u8c_inv1 b0) as [[H0 _]|[[H0 E]|(_ & _ & E)]].
  { exists [b0], b0, r0. split; [reflexivity|apply U8_1, H0]. }
  2: { rewrite (run_bad Utf8 1 [] _ _ _ E) in H. discriminate H. }
  rewrite (run_more Utf8 1 [] _ _ E) in H. destruct r0 as [|b1 r1]; [discriminate H|].
  destruct (u8c_inv2 b0 b1) as [(H0' & H1 & _)|[(H0' & H1 & E2)|[(H0' & H1 & E2)|(_ & _ & E2)]]].
  { exists [b0; b1], ((b0 - 0xC0) * 64 + (b1 - 0x80)), r1. split; [reflexivity|now apply U8_2]. }
  3: { rewrite (run_bad Utf8 1 [b0] _ _ _ E2) in H. discriminate H. }
  - rewrite (run_more Utf8 1 [b0] _ _ E2) in H. destruct r1 as [|b2 r2]; [discriminate H|].
    destruct (u8c_inv3 b0 b1 b2) as [(H0'' & _ & H2 & _)|[(H0'' & _ & H2 & E3)|[_ E3]]].
    { exists [b0; b1; b2], ((b0 - 0xE0) * 4096 + (b1 - 0x80) * 64 + (b2 - 0x80)), r2.
      split; [reflexivity|now apply U8_3]. }
    2: { rewrite (run_bad Utf8 1 [b0; b1] _ _ _ E3) in H. discriminate H. }
    rewrite (run_more Utf8 1 [b0; b1] _ _ E3) in H. destruct r2 as [|b3 r3]; [discriminate H|].
    destruct (u8c_inv4 b0 b1 b2 b3) as [[H3 _]|[_ E4]].
    + exists [b0; b1; b2; b3], ((b0 - 0xF0) * 262144 + (b1 - 0x80) * 4096 + (b2 - 0x80) * 64 + (b3 - 0x80)), r3.
      split; [reflexivity|apply U8_4; [lia|assumption..|reflexivity]].
    + rewrite (run_bad Utf8 1 [b0; b1; b2] _ _ _ E4) in H. discriminate H.
  - (* ED A0..BF was kept pending: the third byte fails *)
    rewrite (run_more Utf8 1 [b0] _ _ E2) in H. destruct r1 as [|b2 r2]; [discriminate H|].
    destruct (u8c_inv3 b0 b1 b2) as [(_ & ? & _)|[(_ & ? & _)|[_ E3]]]; [contradiction..|].
    rewrite (run_bad Utf8 1 [b0; b1] _ _ _ E3) in H. discriminate H.
Qed.

Lemma valid_scalar_spec cp :
  valid_scalar cp = true <-> 0 <= cp <= 0x10FFFF /\ (cp < 0xD800 \/ 0xDFFF < cp).
Proof. unfold valid_scalar, inr. lia. Qed.

(* the continuation bytes carry the base-64 digits of the code point, the lead byte (offset l) the rest *)
Lemma digits2 l b0 b1 cp :
  0x80 <= b1 <= 0xBF /\ cp = (b0 - l) * 64 + (b1 - 0x80) <-> b0 = l + cp / 64 /\ b1 = 0x80 + cp mod 64.
Proof. lia. Qed.

Lemma digits3 l b0 b1 b2 cp :
  0x80 <= b1 <= 0xBF /\ 0x80 <= b2 <= 0xBF /\ cp = (b0 - l) * 4096 + (b1 - 0x80) * 64 + (b2 - 0x80) <->
  b0 = l + cp / 4096 /\ b1 = 0x80 + (cp / 64) mod 64 /\ b2 = 0x80 + cp mod 64.
Proof. lia. Qed.

Lemma digits4 l b0 b1 b2 b3 cp :
  0x80 <= b1 <= 0xBF /\ 0x80 <= b2 <= 0xBF /\ 0x80 <= b3 <= 0xBF /\
  cp = (b0 - l) * 262144 + (b1 - 0x80) * 4096 + (b2 - 0x80) * 64 + (b3 - 0x80) <->
  b0 = l + cp / 262144 /\ b1 = 0x80 + (cp / 4096) mod 64 /\ b2 = 0x80 + (cp / 64) mod 64 /\ b3 = 0x80 + cp mod 64.
Proof. lia. Qed.

(* what the constraints on the first two bytes say of the code point: not overlong, no surrogate, at most U+10FFFF *)
Lemma range2 b0 b1 cp : 0x80 <= b1 <= 0xBF -> cp = (b0 - 0xC0) * 64 + (b1 - 0x80) ->
  (0xC2 <= b0 <= 0xDF <-> 0x80 <= cp < 0x800).
Proof. lia. Qed.

Lemma range3 b0 b1 b2 cp : 0x80 <= b1 <= 0xBF -> 0x80 <= b2 <= 0xBF ->
  cp = (b0 - 0xE0) * 4096 + (b1 - 0x80) * 64 + (b2 - 0x80) ->
  (0xE0 <= b0 <= 0xEF /\ sec_ok b0 b1 <-> 0x800 <= cp < 0x10000 /\ (cp < 0xD800 \/ 0xDFFF < cp)).
Proof.
  intros H1 H2 E. unfold sec_ok. split.
  - intros (H0 & _ & Ha & Hb & _). lia.
  - intros [Hr Hs]. assert (H0 : 0xE0 <= b0 <= 0xEF) by lia. repeat split; lia.
Qed.

Lemma range4 b0 b1 b2 b3 cp : 0x80 <= b1 <= 0xBF -> 0x80 <= b2 <= 0xBF -> 0x80 <= b3 <= 0xBF ->
  cp = (b0 - 0xF0) * 262144 + (b1 - 0x80) * 4096 + (b2 - 0x80) * 64 + (b3 - 0x80) ->
  (0xF0 <= b0 <= 0xF4 /\ sec_ok b0 b1 <-> 0x10000 <= cp <= 0x10FFFF).
Proof.
  intros H1 H2 H3 E. unfold sec_ok. split.
  - intros (H0 & _ & _ & _ & Ha & Hb). lia.
  - intros Hr. assert (H0 : 0xF0 <= b0 <= 0xF4) by lia. repeat split; lia.
Qed.

(* the well-formed sequences are the encodings of the scalar values, and each stands for the value it encodes *)
Lemma u8_seq_enc u cp : u8_seq u cp -> valid_scalar cp = true /\ u8_enc1 cp = u.
Proof.
  rewrite valid_scalar_spec. unfold u8_enc1.
  destruct 1 as [b H0|b0 b1 cp H0 H1 E|b0 b1 b2 cp H0 H1 H2 E|b0 b1 b2 b3 cp H0 H1 H2 H3 E].
  - split; [lia|]. rewrite (proj2 (Z.ltb_lt b 0x80)) by lia. reflexivity.
  - apply (range2 _ _ _ H1 E) in H0.
    destruct (proj1 (digits2 _ _ _ _) (conj H1 E)) as (-> & ->). clear H1 E. split; [lia|].
    rewrite (proj2 (Z.ltb_ge cp 0x80)), (proj2 (Z.ltb_lt cp 0x800)) by lia. reflexivity.
  - pose proof (proj1 (range3 _ _ _ _ (proj1 H1) H2 E) (conj H0 H1)) as Hr.
    destruct (proj1 (digits3 _ _ _ _ _) (conj (proj1 H1) (conj H2 E))) as (-> & -> & ->). clear H0 H1 H2 E.
    split; [lia|].
    rewrite (proj2 (Z.ltb_ge cp 0x80)), (proj2 (Z.ltb_ge cp 0x800)), (proj2 (Z.ltb_lt cp 0x10000)) by lia. reflexivity.
  - pose proof (proj1 (range4 _ _ _ _ _ (proj1 H1) H2 H3 E) (conj H0 H1)) as Hr.
    destruct (proj1 (digits4 _ _ _ _ _ _) (conj (proj1 H1) (conj H2 (conj H3 E)))) as (-> & -> & -> & ->).
    clear H0 H1 H2 H3 E. split; [lia|].
    rewrite (proj2 (Z.ltb_ge cp 0x80)), (proj2 (Z.ltb_ge cp 0x800)), (proj2 (Z.ltb_ge cp 0x10000)) by lia. reflexivity.
Qed.

Lemma u8_enc_seq cp : valid_scalar cp = true -> u8_seq (u8_enc1 cp) cp.
Proof.
  rewrite valid_scalar_spec. intros [Hr Hs]. unfold u8_enc1.
  destruct (Z.ltb_spec cp 0x80) as [L1|L1];
    [|destruct (Z.ltb_spec cp 0x800) as [L2|L2]; [|destruct (Z.ltb_spec cp 0x10000) as [L3|L3]]].
  - apply U8_1. lia.
  - destruct (proj2 (digits2 0xC0 _ _ cp) (conj eq_refl eq_refl)) as (H1 & E).
    exact (U8_2 _ _ _ (proj2 (range2 _ _ _ H1 E) (conj L1 L2)) H1 E).
  - destruct (proj2 (digits3 0xE0 _ _ _ cp) (conj eq_refl (conj eq_refl eq_refl))) as (H1 & H2 & E).
    destruct (proj2 (range3 _ _ _ _ H1 H2 E) (conj (conj L2 L3) Hs)) as [R0 Rs]. exact (U8_3 _ _ _ _ R0 Rs H2 E).
  - destruct (proj2 (digits4 0xF0 _ _ _ _ cp) (conj eq_refl (conj eq_refl (conj eq_refl eq_refl)))) as (H1 & H2 & H3 & E).
    destruct (proj2 (range4 _ _ _ _ _ H1 H2 H3 E) (conj L3 (proj2 Hr))) as [R0 Rs].
    exact (U8_4 _ _ _ _ _ R0 Rs H2 H3 E).
Qed.

Lemma utf8_decode_sound_aux n : forall bs s, (length bs <= n)%nat ->
  run_bytes Utf8 (mkd 1 []) bs = DOk (mkd 1 []) s ->
  forallb valid_scalar s = true /\ concat (map u8_enc1 s) = bs.
Proof.
  induction n as [|n IH]; intros [|b0 r0] s Hl H; try (apply DOk_inj in H as [_ <-]; split; reflexivity).
  - cbn in Hl. lia.
  - destruct (u8_unit_inv _ _ _ H) as (u & cp & r & Hbs & Hu). rewrite Hbs, (u8_seq_run _ _ r Hu) in H.
    apply emit_inv in H as (s' & Hr & ->).
    destruct (u8_seq_enc _ _ Hu) as [Hv He].
    destruct (IH r s') as [IH1 IH2]; [|exact Hr|].
    { apply (f_equal (@length Z)) in Hbs. rewrite app_length in Hbs. cbn [length] in Hbs, Hl.
      destruct Hu; cbn [length] in Hbs; lia. }
    cbn [app forallb map concat]. rewrite Hv, IH1, IH2, He, Hbs. split; reflexivity.
Qed.

(* the decoder accepts only canonical encodings of scalar values (bytes are arbitrary integers) *)
Theorem utf8_decode_sound bs s : run_bytes Utf8 (dinit Utf8) bs = DOk (dinit Utf8) s ->
  forallb valid_scalar s = true /\ concat (map u8_enc1 s) = bs.
Proof. apply (utf8_decode_sound_aux (length bs)). apply Nat.le_refl. Qed.

(* utf-16, utf-32 *)

Lemma put16_spec le u : exists x y, put16 le u = [x; y] /\ unit16 le x y = u.
Proof. destruct le; eexists; eexists; (split; [reflexivity|]); unfold unit16; lia. Qed.

Lemma u16c_2 le nm x y : (unit16 le x y < 0xD800 \/ 0xDFFF < unit16 le x y) ->
  u16_classify le nm [x; y] = Out [unit16 le x y] nm.
Proof.
  intros H. unfold u16_classify, is_lo, is_hi. cbv zeta.
  destruct (inrP 0xDC00 0xDFFF (unit16 le x y)); [lia|]. destruct (inrP 0xD800 0xDBFF (unit16 le x y)); [lia|reflexivity].
Qed.

Lemma u16c_hi le nm x y : 0xD800 <= unit16 le x y <= 0xDBFF -> u16_classify le nm [x; y] = More.
Proof.
  intros H. unfold u16_classify, is_lo, is_hi. cbv zeta.
  destruct (inrP 0xDC00 0xDFFF (unit16 le x y)); [lia|]. destruct (inrP 0xD800 0xDBFF (unit16 le x y)); [reflexivity|lia].
Qed.

Lemma u16c_4 le nm x y z t : 0xDC00 <= unit16 le z t <= 0xDFFF ->
  u16_classify le nm [x; y; z; t] =
  Out [0x10000 + (unit16 le x y - 0xD800) * 1024 + (unit16 le z t - 0xDC00)] nm.
Proof.
  intros H. unfold u16_classify, is_lo. cbv zeta. destruct (inrP 0xDC00 0xDFFF (unit16 le z t)); [reflexivity|lia].
Qed.

Lemma u16_rt_cp e m le cp r : (forall p, classify e m p = u16_classify le None p) ->
  valid_scalar cp = true ->
  run_bytes e (mkd m []) (u16_enc1 le cp ++ r) = emit [cp] (run_bytes e (mkd m []) r).
Proof.
  intros Hcl Hv. apply valid_scalar_spec in Hv as [Hr Hs]. unfold u16_enc1.
  destruct (Z.ltb_spec cp 0x10000).
  - destruct (put16_spec le cp) as (x & y & -> & Hu). cbn [app].
    rewrite run_more by (rewrite Hcl; reflexivity).
    apply run_out. rewrite Hcl, <- Hu. apply u16c_2. lia.
  - destruct (put16_spec le (0xD800 + (cp - 0x10000) / 1024)) as (x & y & -> & Hu).
    destruct (put16_spec le (0xDC00 + (cp - 0x10000) mod 1024)) as (z & t & -> & Hv). cbn [app].
    rewrite run_more by (rewrite Hcl; reflexivity).
    rewrite run_more by (rewrite Hcl; apply u16c_hi; lia).
    rewrite run_more by (rewrite Hcl; reflexivity).
    apply run_out. rewrite Hcl. cbn [app]. rewrite u16c_4 by lia. rewrite Hu, Hv.
    do 3 f_equal. lia.
Qed.

Lemma u32_enc1_spec le cp : exists a b c d, u32_enc1 le cp = [a; b; c; d] /\ unit32 le a b c d = cp.
Proof.
  assert (E : cp mod 256 + 256 * ((cp / 256) mod 256) + 65536 * ((cp / 65536) mod 256) + 16777216 * (cp / 16777216) = cp)
    by lia.
  destruct le; do 4 eexists; (split; [reflexivity|]); unfold unit32; [exact E|]. etransitivity; [|exact E]. ring.
Qed.

Lemma u32_rt_cp e m le cp r : (forall p, classify e m p = u32_classify le None p) ->
  valid_scalar cp = true ->
  run_bytes e (mkd m []) (u32_enc1 le cp ++ r) = emit [cp] (run_bytes e (mkd m []) r).
Proof.
  intros Hcl Hv. destruct (u32_enc1_spec le cp) as (a & b & c & d & -> & Hu). cbn [app].
  do 3 rewrite run_more by (rewrite Hcl; reflexivity).
  apply run_out. rewrite Hcl. cbn [app u32_classify]. cbv zeta. rewrite Hu, Hv. reflexivity.
Qed.

(* round trips through arbitrary re-chunking, for every encoding of the model on HEAD (stateful encoder: one BOM) *)

(* per-code-point encoder and encodability test of every encoding *)
Definition enc1 (e : enc) : Z -> list Z :=
  match e with
  | Utf8 => u8_enc1
  | Latin1 => fun c => [c]
  | Utf16 | Utf16LE => u16_enc1 true
  | Utf16BE => u16_enc1 false
  | Utf32 | Utf32LE => u32_enc1 true
  | Utf32BE => u32_enc1 false
  end.
Definition okc (e : enc) : Z -> bool :=
  match e with Latin1 => inr 0 255 | _ => valid_scalar end.

Lemma concat_map_single (s : list Z) : concat (map (fun c => [c]) s) = s.
Proof. induction s as [|c s IH]; [reflexivity|]. cbn [map concat app]. now rewrite IH. Qed.

Lemma encode_body_spec e s :
  encode_body e s = if forallb (okc e) s then Some (concat (map (enc1 e) s)) else None.
Proof. destruct e; cbn [encode_body okc enc1]; try reflexivity. now rewrite concat_map_single. Qed.

Lemma send_all_concat e ss : forall st bs, send_all e st ss = Some bs ->
  forallb (okc e) (concat ss) = true /\
  concat bs = match ss with [] => [] | _ :: _ => if st then [] else bom e end ++ concat (map (enc1 e) (concat ss)).
Proof.
  induction ss as [|s r IH]; intros st bs H; cbn [send_all] in H.
  - inversion H; subst. split; reflexivity.
  - unfold encode in H. rewrite encode_body_spec in H.
    destruct (forallb (okc e) s) eqn:E; [|discriminate].
    destruct (send_all e true r) as [bs'|] eqn:E2; [|discriminate].
    inversion H; subst. destruct (IH _ _ E2) as [IH1 IH2]. cbn [concat]. split.
    + rewrite forallb_app, E, IH1. reflexivity.
    + rewrite IH2, map_app, concat_app, <- app_assoc. f_equal. f_equal.
      destruct r; reflexivity.
Qed.

(* the mode in which data is decoded: after the BOM for 'utf-16'/'utf-32' (native = little endian) *)
Definition data_mode (e : enc) : nat :=
  match e with Utf16BE | Utf32BE => 2 | _ => 1 end%nat.

Lemma cp_rt e cp r : okc e cp = true ->
  run_bytes e (mkd (data_mode e) []) (enc1 e cp ++ r) = emit [cp] (run_bytes e (mkd (data_mode e) []) r).
Proof.
  destruct e; cbn [okc enc1 data_mode]; intros H;
    first [ apply u8_seq_run, u8_enc_seq, H | apply run_out; reflexivity
          | apply u16_rt_cp; [reflexivity|exact H] | apply u32_rt_cp; [reflexivity|exact H] ].
Qed.

Lemma bytes_rt e s : forallb (okc e) s = true ->
  run_bytes e (mkd (data_mode e) []) (concat (map (enc1 e) s)) = DOk (mkd (data_mode e) []) s.
Proof.
  induction s as [|cp s IH]; intros H; cbn [map concat forallb] in *; [reflexivity|].
  apply andb_prop in H. destruct H as [Hc Hs].
  rewrite cp_rt by exact Hc. rewrite IH by exact Hs. reflexivity.
Qed.

(* the utf-8 automaton inverts the utf-8 encoder *)
Theorem utf8_roundtrip_bytes s : forallb valid_scalar s = true ->
  run_bytes Utf8 (dinit Utf8) (concat (map u8_enc1 s)) = DOk (dinit Utf8) s.
Proof. exact (bytes_rt Utf8 s). Qed.

Lemma bom_rt e r : run_bytes e (dinit e) (bom e ++ r) = run_bytes e (mkd (data_mode e) []) r.
Proof.
  destruct e; try reflexivity.
  - cbn [bom app run_bytes]. change (dinit Utf16) with (mkd 0 []).
    change (dstep Utf16 (mkd 0 []) 0xFF) with (DOk (mkd 0 [0xFF]) []). cbv beta iota.
    change (dstep Utf16 (mkd 0 [0xFF]) 0xFE) with (DOk (mkd 1 []) []). cbv beta iota.
    cbn [data_mode]. destruct (run_bytes Utf16 (mkd 1 []) r); reflexivity.
  - cbn [bom app run_bytes]. change (dinit Utf32) with (mkd 0 []).
    change (dstep Utf32 (mkd 0 []) 0xFF) with (DOk (mkd 0 [0xFF]) []). cbv beta iota.
    change (dstep Utf32 (mkd 0 [0xFF]) 0xFE) with (DOk (mkd 0 [0xFF; 0xFE]) []). cbv beta iota.
    change (dstep Utf32 (mkd 0 [0xFF; 0xFE]) 0) with (DOk (mkd 0 [0xFF; 0xFE; 0]) []). cbv beta iota.
    change (dstep Utf32 (mkd 0 [0xFF; 0xFE; 0]) 0) with (DOk (mkd 1 []) []). cbv beta iota.
    cbn [data_mode]. destruct (run_bytes Utf32 (mkd 1 []) r); reflexivity.
Qed.

Lemma data_mode_ok e : data_mode e <> 3%nat.
Proof. destruct e; cbn; discriminate. Qed.

(* the final decoder state: untouched when nothing was sent, otherwise in data mode with nothing pending *)
Definition dfinal (e : enc) (ss : list (list Z)) : dst :=
  match ss with [] => dinit e | _ :: _ => mkd (data_mode e) [] end.

(* strings ss sent one by one (each send encodes one item), the byte stream re-chunked in ANY way w, then decoded *)
Lemma text_roundtrip_all_state e ss bs w :
  send_all e false ss = Some bs -> concat w = concat bs ->
  decode_seq e (dinit e) w = DOk (dfinal e ss) (concat ss).
Proof.
  intros HF Hc. destruct (send_all_concat _ _ _ _ HF) as [Hv Hb].
  apply text_chunking_invariant; [apply dinit_mode|]. rewrite Hc, Hb.
  apply decode_chunk_ok. destruct ss as [|s0 ss'].
  - split; [reflexivity|apply dinit_mode].
  - cbv beta iota. cbn [dfinal]. split; [|apply data_mode_ok].
    rewrite bom_rt. apply bytes_rt. exact Hv.
Qed.

Theorem text_roundtrip_all e ss bs w :
  send_all e false ss = Some bs -> concat w = concat bs ->
  exists d', decode_seq e (dinit e) w = DOk d' (concat ss) /\ pend d' = [].
Proof.
  intros HF Hc. exists (dfinal e ss). split; [eapply text_roundtrip_all_state; eauto|].
  destruct ss; [destruct e|]; reflexivity.
Qed.

(* utf-8 and latin-1 have no BOM: the decoder is back in its initial state *)
Theorem text_roundtrip e ss bs w : (e = Utf8 \/ e = Latin1) ->
  send_all e false ss = Some bs -> concat w = concat bs ->
  decode_seq e (dinit e) w = DOk (dinit e) (concat ss).
Proof.
  intros He HF Hc. rewrite (text_roundtrip_all_state e ss bs w HF Hc).
  destruct ss; [reflexivity|]. destruct He; subst e; reflexivity.
Qed.

Lemma sends_spec ss : forall st, (forall s, In s ss -> encode_body (tenc st) s <> None) ->
  exists bs, send_all (tenc st) (started st) ss = Some bs /\
    run_ops tstep st (map TSend ss) =
    (mkt (tenc st) (dec st) (wire st ++ bs) (match ss with [] => started st | _ :: _ => true end), map TSent bs).
Proof.
  induction ss as [|x ss IH]; intros st H.
  - exists []. split; [reflexivity|]. cbn [map run_ops]. rewrite app_nil_r. destruct st; reflexivity.
  - cbn [map run_ops tstep send_all]. unfold encode.
    destruct (encode_body (tenc st) x) as [b|] eqn:E; [|exfalso; apply (H x); [left; reflexivity|exact E]].
    set (b' := (if started st then [] else bom (tenc st)) ++ b).
    destruct (IH (mkt (tenc st) (dec st) (wire st ++ [b']) true)) as (bs & HF & HR).
    { intros s Hs. cbn [tenc]. apply H. right; exact Hs. }
    cbn [tenc dec wire started] in HF, HR. exists (b' :: bs). rewrite HF. split; [reflexivity|].
    rewrite HR. rewrite <- app_assoc. cbn [map app]. f_equal. f_equal. destruct ss; reflexivity.
Qed.

(* a wire that decodes as a whole gives no receive() a decoding error *)
Lemma recvs_ok k : forall s s' outs df o,
  decode_seq (tenc s) (dec s) (wire s) = DOk df o ->
  run_ops tstep s (repeat TRecv k) = (s', outs) -> forall c, ~ In (TDecErr c) outs.
Proof.
  induction k as [|k IH]; intros s s' outs df o Hd H c.
  - injection H as _ <-. intros [].
  - apply run_ops_cons in H as (s1 & r & outs2 & E1 & E2 & ->).
    apply tstep_recv in E1 as [ER He1]. apply recv_loop_spec in ER as (u1 & Hw & _ & _ & Hd1).
    rewrite Hw, decode_seq_app, Hd1 in Hd. intros [->|Hi]; [discriminate Hd|]. revert Hi. rewrite <- He1 in Hd.
    destruct r; try discriminate Hd; apply emit_inv in Hd as (o' & Hd & _); exact (IH _ _ _ _ _ Hd E2 c).
Qed.

(* sends into the loop-back wire, then k receives up to EndOfStream: no decoding error, and the strings received
   are those that were sent; every encoding *)
Theorem text_roundtrip_stream_all e ss k s' outs :
  (forall s, In s ss -> encode_body e s <> None) ->
  run_ops tstep (tinit e []) (map TSend ss ++ repeat TRecv k) = (s', outs) ->
  In TEnd outs -> (forall c, ~ In (TDecErr c) outs) /\ strs outs = concat ss.
Proof.
  intros Henc H Hend. rewrite run_ops_app in H.
  destruct (sends_spec ss (tinit e []) Henc) as (bs & HF & HR).
  unfold tinit in HF, HR, H. cbn [tenc dec wire started app] in HF, HR. rewrite HR in H.
  match type of H with context [run_ops tstep ?st (repeat TRecv k)] =>
    destruct (run_ops tstep st (repeat TRecv k)) as [s2 outs2] eqn:E2 end.
  injection H as <- <-.
  pose proof (text_roundtrip_all_state e ss bs bs HF eq_refl) as Hall.
  assert (Hne2 : forall c, ~ In (TDecErr c) outs2) by (eapply recvs_ok; [|exact E2]; exact Hall).
  assert (Hsent : forall r, In r (map TSent bs) -> exists b, r = TSent b).
  { intros r Hr. apply in_map_iff in Hr as (b & <- & _). exists b. reflexivity. }
  assert (Hend2 : In TEnd outs2).
  { apply in_app_or in Hend as [Hx|Hx]; [|exact Hx]. destruct (Hsent _ Hx). discriminate. }
  destruct (text_receive_drains _ _ _ _ E2 Hne2) as (used & Hw & _ & Hd & Hfin).
  cbn [tenc dec wire] in Hw, Hd. rewrite (Hfin Hend2), app_nil_r in Hw. subst used.
  rewrite Hall in Hd. apply DOk_inj in Hd as [_ Hd]. split.
  - intros c Hc. apply in_app_or in Hc as [Hc|Hc]; [|exact (Hne2 c Hc)]. destruct (Hsent _ Hc). discriminate.
  - rewrite strs_app, strs_sent. symmetry. exact Hd.
Qed.

(* the same statement for utf-8 and latin-1 only *)
Theorem text_roundtrip_stream e ss k s' outs : (e = Utf8 \/ e = Latin1) ->
  (forall s, In s ss -> encode_body e s <> None) ->
  run_ops tstep (tinit e []) (map TSend ss ++ repeat TRecv k) = (s', outs) ->
  In TEnd outs -> (forall c, ~ In (TDecErr c) outs) /\ strs outs = concat ss.
Proof. intros _. apply text_roundtrip_stream_all. Qed.

(* the pinned code (stateless encoder: a BOM per send) violates the round-trip clause for 'utf-16'/'utf-32':
   witnesses by vm_compute *)

Theorem text_roundtrip_utf16_refuted_pinned : exists ss bs d' o,
  Forall2 (fun s b => encode_pinned Utf16 s = Some b) ss bs /\
  decode_seq Utf16 (dinit Utf16) bs = DOk d' o /\ o <> concat ss.
Proof.
  exists [[97]; [98]], [[0xFF; 0xFE; 97; 0]; [0xFF; 0xFE; 98; 0]], (mkd 1 []), [97; 65279; 98].
  refine (conj _ (conj _ _)).
  - constructor; [vm_compute; reflexivity|]. constructor; [vm_compute; reflexivity|]. constructor.
  - vm_compute. reflexivity.
  - vm_compute. discriminate.
Qed.

Theorem text_roundtrip_utf32_refuted_pinned : exists ss bs d' o,
  Forall2 (fun s b => encode_pinned Utf32 s = Some b) ss bs /\
  decode_seq Utf32 (dinit Utf32) bs = DOk d' o /\ o <> concat ss.
Proof.
  exists [[97]; [98]], [[0xFF; 0xFE; 0; 0; 97; 0; 0; 0]; [0xFF; 0xFE; 0; 0; 98; 0; 0; 0]], (mkd 1 []), [97; 65279; 98].
  refine (conj _ (conj _ _)).
  - constructor; [vm_compute; reflexivity|]. constructor; [vm_compute; reflexivity|]. constructor.
  - vm_compute. reflexivity.
  - vm_compute. discriminate.
Qed.

(* U+1F600 delivered one byte per chunk *)
Example ex_4byte_split :
  decode_seq Utf8 (dinit Utf8) [[0xF0]; [0x9F]; [0x98]; [0x80]] = DOk (dinit Utf8) [0x1F600].
Proof. vm_compute. reflexivity. Qed.

Example ex_4byte_enc : u8_enc1 0x1F600 = [0xF0; 0x9F; 0x98; 0x80].
Proof. vm_compute. reflexivity. Qed.

Example ex_overlong : run_bytes Utf8 (dinit Utf8) [0xC0; 0x80] = DErr 2.
Proof. vm_compute. reflexivity. Qed.

Example ex_overlong3 : run_bytes Utf8 (dinit Utf8) [0xE0; 0x9F; 0xBF] = DErr 2.
Proof. vm_compute. reflexivity. Qed.

Example ex_surrogate : run_bytes Utf8 (dinit Utf8) [0xED; 0xA0; 0x80] = DErr 2.
Proof. vm_compute. reflexivity. Qed.

(* a truncated surrogate prefix is kept pending (CPython reports it as incomplete); it fails with the next byte *)
Example ex_surrogate_prefix : run_bytes Utf8 (dinit Utf8) [0xED; 0xA0] = DOk (mkd 1 [0xED; 0xA0]) [].
Proof. vm_compute. reflexivity. Qed.

Example ex_above_max : run_bytes Utf8 (dinit Utf8) [0xF4; 0x90; 0x80; 0x80] = DErr 2.
Proof. vm_compute. reflexivity. Qed.

Example ex_truncated : run_bytes Utf8 (dinit Utf8) [0x61; 0xE2; 0x82] = DOk (mkd 1 [0xE2; 0x82]) [0x61].
Proof. vm_compute. reflexivity. Qed.

(* utf-16 without BOM: data is decoded in native order but the chunk fails at its end (mode 3) *)
Example ex_utf16_nobom : decode_chunk Utf16 (dinit Utf16) [97; 0] = DErr 3.
Proof. vm_compute. reflexivity. Qed.

Example ex_utf16_nobom_run : run_bytes Utf16 (dinit Utf16) [97; 0] = DOk (mkd 3 []) [97].
Proof. vm_compute. reflexivity. Qed.

(* receive() skips chunks that produce no output *)
Example ex_recv_skips :
  tstep (tinit Utf8 [[0xE2]; [0x82]; [0xAC; 0x61]; [0x62]]) TRecv =
  (mkt Utf8 (dinit Utf8) [[0x62]] false, TStr [0x20AC; 0x61]).
Proof. vm_compute. reflexivity. Qed.

(* the premises of text_stream_transparent are met by a concrete run *)
Example ex_transparent_hyps :
  let w := [[0x68; 0xC3]; [0xA9]; []; [0xF0; 0x9F]; [0x98; 0x80; 0x21]] in
  exists s' outs,
    run_ops tstep (tinit Utf8 w) (repeat TRecv 4) = (s', outs) /\
    (forall c, ~ In (TDecErr c) outs) /\ In TEnd outs /\
    strs outs = [0x68; 0xE9; 0x1F600; 0x21] /\
    decode_chunk Utf8 (dinit Utf8) (concat w) = DOk (dec s') (strs outs).
Proof.
  cbv zeta. eexists. eexists. split; [vm_compute; reflexivity|].
  refine (conj _ (conj _ (conj _ _))).
  - intros c H. cbn [In] in H. repeat (destruct H as [H|H]; [discriminate|]). exact H.
  - cbn [In]. right. right. right. left. reflexivity.
  - vm_compute. reflexivity.
  - vm_compute. reflexivity.
Qed.

(* the premises of text_roundtrip_stream are met by a concrete run (utf-8 and latin-1) *)
Example ex_roundtrip_stream_hyps :
  exists s' outs,
    run_ops tstep (tinit Utf8 []) (map TSend [[0x68; 0xE9]; []; [0x1F600]] ++ repeat TRecv 3) = (s', outs) /\
    In TEnd outs /\ strs outs = [0x68; 0xE9; 0x1F600].
Proof.
  eexists. eexists. split; [vm_compute; reflexivity|]. split.
  - cbn [In]. do 5 right. left. reflexivity.
  - vm_compute. reflexivity.
Qed.

(* latin-1 refuses code points above 255: the encodability premise of text_roundtrip_stream is not vacuous *)
Example ex_latin1_encerr : tstep (tinit Latin1 []) (TSend [0x100]) = (tinit Latin1 [], TEncErr).
Proof. vm_compute. reflexivity. Qed.

(* HEAD: 'utf-16' sends write one BOM only; the wire re-chunked at odd offsets decodes to the concatenation *)
Example ex_utf16_head :
  send_all Utf16 false [[97]; [0x1F600]; [98]] =
    Some [[0xFF; 0xFE; 97; 0]; [0x3D; 0xD8; 0x00; 0xDE]; [98; 0]] /\
  decode_seq Utf16 (dinit Utf16) [[0xFF]; [0xFE; 97; 0; 0x3D]; [0xD8; 0x00]; [0xDE; 98; 0]] =
    DOk (mkd 1 []) [97; 0x1F600; 98].
Proof. split; vm_compute; reflexivity. Qed.

Example ex_utf32be_head :
  send_all Utf32BE false [[0x1F600]; [98]] = Some [[0; 1; 0xF6; 0]; [0; 0; 0; 98]] /\
  decode_seq Utf32BE (dinit Utf32BE) [[0; 1; 0xF6]; [0; 0; 0; 0]; [98]] = DOk (mkd 2 []) [0x1F600; 98].
Proof. split; vm_compute; reflexivity. Qed.

(* a lone surrogate is not encodable: the encodability premise is not vacuous for utf-16 either *)
Example ex_utf16_encerr : send_all Utf16 false [[0xD800]] = None.
Proof. vm_compute. reflexivity. Qed.

(* utf8_decode_sound is about complete inputs only: a non-canonical input is refused, not normalised *)
Example ex_noncanonical : run_bytes Utf8 (dinit Utf8) [0xF0; 0x82; 0x82; 0xAC] = DErr 2.
Proof. vm_compute. reflexivity. Qed.

(* Tie T for C16: the programs that tools/translate_buffered.py regenerates from src/anyio/streams/buffered.py
   (pure/BufGen.v), interpreted by BufImp.exec, ARE the model (Buffered.step): same state, same result, for every state,
   argument, cancellation point and feed list. *)
From AV Require Import Base Buffered BufferedProofs BufImp BufGen.

Definition proj (x : st * res * list Z) : option (st * res) := Some (fst x).

(* one interpreter step, leaving the model's functions and the arithmetic folded *)
Ltac hold :=
  cbn -[loop until_loop exactly_loop pull Z.sub Z.add Z.leb Z.max Z.of_nat Z.to_nat hit default_max find_from cut].

(* receive_exactly *)
Definition exactly_body : block :=
  match gen_exactly with SSeq _ (SWhileTrue b) => b | _ => BSkip end.

Lemma exactly_loop_eq fuel : forall e s,
  result (loop fuel exactly_body e s) = proj (exactly_loop fuel (cn e) s (par e) (fs e)).
Proof.
  induction fuel as [|f IH]; intros e s; [reflexivity|].
  cbn [loop exactly_loop]. unfold exactly_body; cbn [gen_exactly]. hold. unfold blen, fetch.
  destruct (par e - Z.of_nat (length (buf s)) <=? 0)%Z eqn:E; [reflexivity|].
  (* the two kinds of wrapped stream differ in what the fetch asks for only *)
  destruct (knd s) eqn:K; hold; (destruct (hit (cn e)) eqn:H; [reflexivity|]);
    (destruct (pull _ _ (src s)) as [[c r]|] eqn:P; [|unfold set_buf, proj; cbn; rewrite ?K; reflexivity]);
    hold; rewrite (IH _ _); hold; rewrite ?K;
    destruct (exactly_loop f (pred (cn e)) _ (par e) (tl (fs e))) as [[s' r'] lg]; reflexivity.
Qed.

Theorem tie_exactly s n c f :
  result (exec (fuel_of s) gen_exactly (env0 n [] c f) s) = proj (do_exactly false c s n f).
Proof.
  unfold do_exactly. cbn [negb andb]. cbn [gen_exactly exec run_block evalc par env0].
  destruct (n <? 0)%Z eqn:E; [reflexivity|].
  cbn [run_block]. change (BSeq (BAtom ASetRemaining) _) with exactly_body. apply exactly_loop_eq.
Qed.

(* receive_until *)
Definition until_body : block :=
  match gen_until with SSeq _ (SSeq _ (SWhileTrue b)) => b | _ => BSkip end.

Lemma until_loop_eq fuel : forall e s off,
  offset e = Z.of_nat off -> dsize e = Z.of_nat (length (delim e)) ->
  result (loop fuel until_body e s) = proj (until_loop false fuel (cn e) s (delim e) (par e) off (fs e)).
Proof.
  induction fuel as [|f IH]; intros e s off Ho Hd; [reflexivity|].
  cbn [loop until_loop]. unfold until_body; cbn [gen_until]. hold. rewrite Ho, Nat2Z.id.
  destruct (find_from (delim e) off (buf s)) as [i|] eqn:F; hold.
  - assert (H0 : (0 <=? Z.of_nat i)%Z = true) by (apply Z.leb_le; lia). rewrite H0. hold.
    rewrite !cut_nonneg by lia. rewrite Nat2Z.id.
    replace (Z.to_nat (Z.of_nat i + Z.of_nat (length (delim e)))) with (i + length (delim e)) by lia.
    reflexivity.
  - change (0 <=? -1)%Z with false. hold. unfold blen. destruct (par e <=? Z.of_nat (length (buf s)))%Z eqn:Em; hold; [reflexivity|].
    unfold fetch. hold. destruct (hit (cn e)) eqn:H; [reflexivity|].
    destruct (pull (knd s) default_max (src s)) as [[c r]|] eqn:P; hold.
    + unfold blen. hold.
      assert (Hge : (Z.of_nat (length (buf s)) <=? Z.of_nat (length (buf s ++ hd [] (fs e))))%Z = true).
      { apply Z.leb_le. rewrite app_length. lia. }
      rewrite Hge. hold.
      rewrite (IH _ _ (length (buf s) + 1 - length (delim e))); hold.
      * destruct (until_loop false f (pred (cn e)) _ (delim e) (par e) _ (tl (fs e))) as [[s' r'] lg]. reflexivity.
      * rewrite Hd. lia.
      * exact Hd.
    + reflexivity.
Qed.

Theorem tie_until s d m c f :
  result (exec (fuel_of s) gen_until (env0 m d c f) s) = proj (until_loop false (fuel_of s) c s d m 0 f).
Proof.
  cbn [gen_until exec run_block run_atom]. cbn [with_dsize with_offset].
  change (BSeq (BAtom ASetIndexFind) _) with until_body.
  exact (until_loop_eq (fuel_of s) (with_offset (with_dsize (env0 m d c f) (Z.of_nat (length d))) 0) s 0 eq_refl eq_refl).
Qed.

(* receive *)
Definition nc_body : block := BFetch FNone EPropagate.

Lemma loop_nc_eq : forall l fuel e s acc b0,
  chunk e = [] -> src s = l -> knd s = KObject -> buf s = b0 ++ acc -> length l < fuel ->
  match skip_empty (cn e) l (fs e) acc with
  | FGot c r fed => exists e', loop_nc fuel nc_body e s = OFall e' (mk KObject (b0 ++ fed) r) /\ chunk e' = c /\ par e' = par e
  | FEnd fed => loop_nc fuel nc_body e s = ODone (mk KObject (b0 ++ fed) []) REnd
  | FCancel r fed => loop_nc fuel nc_body e s = ODone (mk KObject (b0 ++ fed) r) RCancelled
  end.
Proof.
  induction l as [|c r IH]; intros fuel e s acc b0 Hc Hs Hk Hb Hf;
    (destruct fuel as [|f]; [cbn in Hf; lia|]); destruct s as [k b sr]; cbn [src knd buf] in Hs, Hk, Hb; subst k b sr;
    cbn [skip_empty loop_nc]; rewrite Hc; unfold nc_body; cbn [run_block]; unfold fetch; cbn [knd buf src set_buf];
    (destruct (hit (cn e)) eqn:H; [reflexivity|]); cbn [pull].
  - rewrite <- app_assoc. reflexivity.
  - cbn [buf]. destruct c as [|x c'].
    + specialize (IH f (fetched e []) (mk KObject ((b0 ++ acc) ++ hd [] (fs e)) r) (acc ++ hd [] (fs e)) b0
                     eq_refl eq_refl eq_refl (eq_sym (app_assoc _ _ _))).
      cbn [cn fs fetched] in IH. cbn in Hf. specialize (IH ltac:(lia)).
      destruct (skip_empty (pred (cn e)) r (tl (fs e)) (acc ++ hd [] (fs e))) as [c2 r2 fed|fed|r2 fed].
      * destruct IH as (e' & A & B & C). exists e'. cbn [par fetched] in C. auto.
      * exact IH.
      * exact IH.
    + destruct f as [|f']; [cbn in Hf; lia|]. cbn [loop_nc chunk fetched].
      exists (fetched e (x :: c')). rewrite <- app_assoc. auto.
Qed.

Theorem tie_receive s n c f :
  result (exec (fuel_of s) gen_receive (env0 n [] c f) s) = proj (do_receive false c s n f).
Proof.
  unfold do_receive. cbn [gen_receive exec run_block evalc par env0].
  destruct (n <? 1)%Z eqn:E; [reflexivity|]. cbn [run_block exec evalc].
  destruct (buf s) as [|x b] eqn:B.
  - destruct (knd s) eqn:K; cbn [exec run_block].
    + unfold fetch. cbn [cn fs ask par env0]. destruct (hit c); [reflexivity|]. rewrite K, B.
      destruct (pull KByte (Z.to_nat n) (src s)) as [[ch r]|]; unfold set_buf, proj; cbn; rewrite ?K, ?B; reflexivity.
    + cbn [run_atom with_chunk].
      pose proof (loop_nc_eq (src s) (fuel_of s) (with_chunk (env0 n [] c f) []) s [] [] eq_refl eq_refl K
                             (eq_trans B eq_refl)) as L.
      cbn [cn fs with_chunk env0] in L. specialize (L ltac:(unfold fuel_of, measure; lia)).
      change (BFetch FNone EPropagate) with nc_body.
      destruct (skip_empty c (src s) f []) as [c2 r2 fed|fed|r2 fed].
      * destruct L as (e' & -> & Hch & Hp). cbn [par with_chunk env0] in Hp.
        cbn [exec run_block evalc]. rewrite Hch, Hp. cbn [app].
        destruct (n <? Z.of_nat (length c2))%Z eqn:En; cbn [run_block run_atom].
        -- rewrite !cut_nonneg by lia. unfold set_buf, proj; cbn. reflexivity.
        -- unfold proj; cbn. reflexivity.
      * rewrite L. reflexivity.
      * rewrite L. reflexivity.
  - cbn [exec run_block run_atom evali par env0 with_val val]. rewrite ?B. rewrite !cut_nonneg by lia.
    unfold set_buf, proj; cbn. rewrite ?B. reflexivity.
Qed.

Theorem gstep_eq_step s o : gstep gen_progs s o = step s o.
Proof.
  unfold step, step_log, gstep, gcall, fuel_for. destruct o as [n f|n f|d m f|d|k n f|k n f|k d m f]; cbn [step_gen gen_progs p_receive p_exactly p_until].
  - rewrite tie_receive. reflexivity.
  - rewrite tie_exactly. reflexivity.
  - rewrite tie_until. reflexivity.
  - reflexivity.
  - destruct k; [reflexivity|]. rewrite tie_receive. reflexivity.
  - destruct k; [reflexivity|]. rewrite tie_exactly. reflexivity.
  - destruct k; [reflexivity|]. rewrite tie_until. reflexivity.
Qed.

Corollary grun_eq_run : forall ops s, final (gstep gen_progs) s ops = final step s ops.
Proof. apply final_ext. intros. now rewrite gstep_eq_step. Qed.

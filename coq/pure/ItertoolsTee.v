(* tee: the LTS of pure/Itertools.v over all interleavings of consumer segments.  The invariant Core and its
   preservation by each move; progress (Live: some consumer can always be resumed); the C08 checkpoint counters per
   consumer; the specification of __copy__; the theorems that props/C19 and C08_itertools close. *)
From AV Require Import Base Itertools.
From Coq Require Import ZifyBool.

Lemma firstn_snoc {A} (l : list A) k v : nth_error l k = Some v -> firstn (S k) l = firstn k l ++ [v].
Proof.
  revert k. induction l as [|a l IH]; intros k H; [destruct k; discriminate|].
  destruct k as [|k]; cbn in *; [congruence|]. now rewrite (IH k H).
Qed.

Lemma nth_skipn {A} (l : list A) : forall n i, nth_error (skipn n l) i = nth_error l (n + i).
Proof.
  induction l as [|a l IH]; intros n i; [destruct n, i; reflexivity|]. destruct n; [reflexivity|]. cbn. apply IH.
Qed.

Definition is_lock_phase (p : tph) : bool :=
  match p with TLockYield | TLockWait | TFilling _ => true | _ => false end.

Lemma release_eq s :
  t_release s = mkT (tmode s) (tsrc s) (tcells s) (hd_error (twait s)) (tl (twait s)) (tlink s) (tyielded s) (tphase s)
                    (tn s) (tseen s) (tstopped s) (tpolled s) (tstart s) (tcks s) (tlocks s) (tchk s) (tyld s).
Proof. unfold t_release. destruct (twait s); reflexivity. Qed.

(* What belongs to consumer c alone, and how one segment of c changes it.  had = the segment is a resumption (the
   consumer went through the lock, so fill() had a yield point); otherwise it is the start of an __anext__ call. *)
Record loc := mkL { l_link : nat; l_yielded : bool; l_phase : tph; l_seen : list Z; l_stopped : bool; l_locks : nat }.

Definition view (s : tst) (c : nat) : loc :=
  mkL (tlink s c) (tyielded s c) (tphase s c) (tseen s c) (tstopped s c) (tlocks s c).

Definition l_set (L : loc) (p : tph) : loc := mkL (l_link L) (l_yielded L) p (l_seen L) (l_stopped L) (l_locks L).

Definition runs (had : bool) (p : tph) : Prop := if had then is_lock_phase p = true else p = TIdle.

Inductive lstep : bool -> loc -> tres -> list (event Z) -> loc -> Prop :=
| l_reject had L : lstep had L TRejected [] L
| l_acquire l y sn st lk p : p = TLockYield \/ p = TLockWait ->
    lstep false (mkL l y TIdle sn st lk) TBlocked [] (mkL l y p sn st (S lk))
| l_shield l y sn st lk v : lstep false (mkL l y TIdle sn st lk) TBlocked [CkIf; Sh] (mkL (S l) true (TRetSh v) sn st lk)
| l_poll l y p sn st lk x ev : p = TLockYield \/ p = TLockWait -> ev = [CkIf; Sh] \/ ev = [] ->
    lstep true (mkL l y p sn st lk) TBlocked ev (mkL l y (TFilling x) sn st lk)
| l_value l y p sn st lk v : is_lock_phase p = true ->
    lstep true (mkL l y p sn st lk) (TRet v) [] (mkL (S l) true TIdle (sn ++ [v]) st lk)
| l_end_stop had l p sn st lk : runs had p -> lstep had (mkL l true p sn st lk) TStop [] (mkL l true TIdle sn true lk)
| l_end_ck had l p sn st lk : runs had p -> lstep had (mkL l false p sn st lk) TBlocked [Ck] (mkL l false TEndCk sn st lk)
| l_stop l y sn st lk : lstep true (mkL l y TEndCk sn st lk) TStop [] (mkL l y TIdle sn true lk)
| l_return l y sn st lk v : lstep true (mkL l y (TRetSh v) sn st lk) (TRet v) [] (mkL l y TIdle (sn ++ [v]) st lk).

(* a segment of c leaves the other consumers and every counter alone *)
Record apart (c : nat) (s s' : tst) : Prop := {
  a_n : tn s' = tn s;
  a_start : tstart s' = tstart s;
  a_cks : tcks s' = tcks s;
  a_chk : tchk s' = tchk s;
  a_yld : tyld s' = tyld s;
  a_others : forall j, j <> c -> view s' j = view s j
}.

Lemma apart_refl c s : apart c s s.
Proof. now constructor. Qed.

Lemma apart_trans c s0 s s' : apart c s0 s -> apart c s s' -> apart c s0 s'.
Proof.
  intros [] []. constructor; try congruence. intros j Hj. rewrite a_others1 by exact Hj. now apply a_others0.
Qed.

(* s' is written out over s, each per-consumer field either that of s or an upd of it at c *)
Ltac frame_tac :=
  constructor; try reflexivity; intros j Hj; unfold view; cbn; rewrite ?upd_other by exact Hj; reflexivity.

(* inside the lock: s0 and s differ, in what the consumers own, by c's phase only *)
Definition inside (c : nat) (s0 s : tst) : Prop := apart c s0 s /\ l_set (view s c) TIdle = l_set (view s0 c) TIdle.

Lemma inside_refl c s : inside c s s.
Proof. split; [apply apart_refl|reflexivity]. Qed.

Lemma inside_phase c s0 s p : inside c s0 s -> inside c s0 (set_phase s c p).
Proof. intros [A V]. split; [apply (apart_trans _ _ _ _ A); frame_tac|exact V]. Qed.

Lemma inside_store c s0 s x : inside c s0 s -> inside c s0 (t_store s c x).
Proof. intros [A V]. split; [apply (apart_trans _ _ _ _ A); frame_tac|exact V]. Qed.

Lemma inside_poll c s0 s : inside c s0 s -> inside c s0 (t_poll s c).
Proof. intros [A V]. split; [apply (apart_trans _ _ _ _ A); frame_tac|exact V]. Qed.

Lemma inside_release c s0 s : inside c s0 s -> inside c s0 (t_release s).
Proof. intros [A V]. rewrite release_eq. split; [apply (apart_trans _ _ _ _ A); frame_tac|exact V]. Qed.

Lemma finish_local c s0 s had s' r ev :
  inside c s0 s -> runs had (tphase s0 c) -> tcells s (tlink s c) <> None ->
  t_finish s c had = (s', r, ev) -> apart c s0 s' /\ lstep had (view s0 c) r ev (view s' c).
Proof.
  intros [A V] P N H. unfold view, l_set in V. cbn in V. injection V as El Ey Esn Est Elk.
  unfold t_finish in H.
  destruct (tcells s (tlink s c)) as [[v|]|]; [destruct had|destruct (tyielded s c) eqn:Y|contradiction];
    injection H as <- <- <-; (split; [apply (apart_trans _ _ _ _ A); frame_tac|]);
    unfold view; cbn; rewrite ?upd_same, ?El, ?Esn, ?Est, ?Elk.
  - now apply l_value.
  - rewrite P. apply l_shield.
  - rewrite <- Ey, Y. now apply l_end_stop.
  - rewrite <- Ey, Y. now apply l_end_ck.
Qed.

Lemma fill_local c s0 s x s' r ev :
  inside c s0 s -> is_lock_phase (tphase s0 c) = true ->
  t_fill s c x = (s', r, ev) -> apart c s0 s' /\ lstep true (view s0 c) r ev (view s' c).
Proof.
  intros Hi P. apply finish_local; [apply inside_release, inside_store, Hi|exact P|].
  rewrite release_eq. cbn. rewrite upd_same. discriminate.
Qed.

Lemma locked_local c s s' r ev : tphase s c = TLockYield \/ tphase s c = TLockWait ->
  t_locked s c = (s', r, ev) -> apart c s s' /\ lstep true (view s c) r ev (view s' c).
Proof.
  intros P H. unfold t_locked in H.
  assert (P' : is_lock_phase (tphase s c) = true) by (destruct P as [-> | ->]; reflexivity).
  pose proof (inside_phase c s s TIdle (inside_refl c s)) as Hi. fold (t_wake s c) in Hi.
  destruct (tcells (t_wake s c) (tlink (t_wake s c) c)) eqn:E.
  - revert H. apply finish_local; [apply inside_release, Hi|exact P'|]. rewrite release_eq. cbn in *. congruence.
  - apply inside_poll in Hi.
    assert (B : forall ev, ev = [CkIf; Sh] \/ ev = [] ->
                lstep true (view s c) TBlocked ev (view (t_poll (t_wake s c) c) c)).
    { intros ev0 Hev. unfold view. cbn. rewrite !upd_same. now apply l_poll. }
    destruct (tmode s) as [|[|m]].
    + injection H as <- <- <-. split; [apply Hi|apply B; auto].
    + revert H. now apply fill_local.
    + injection H as <- <- <-. split; [apply Hi|apply B; auto].
Qed.

Definition resumes (o : top) : bool := match o with TResume _ => true | _ => false end.

Lemma step0_local s o s' r ev : tstep0 s o = (s', r, ev) ->
  match o with
  | TCopy _ _ => True
  | _ => let c := op_consumer o in apart c s s' /\ lstep (resumes o) (view s c) r ev (view s' c)
  end.
Proof.
  intros H.
  assert (R : forall c had, (s, TRejected, @nil (event Z)) = (s', r, ev) ->
                apart c s s' /\ lstep had (view s c) r ev (view s' c)).
  { intros c had [= <- <- <-]. split; [apply apart_refl|apply l_reject]. }
  destruct o as [c|c|c k]; [| |exact I]; cbn [op_consumer resumes]; unfold tstep0 in H.
  - destruct (negb (c <? tn s) || negb (is_tidle (tphase s c))) eqn:G; [now apply R|].
    assert (Hc : tphase s c = TIdle).
    { apply orb_false_elim in G as [_ G]. now destruct (tphase s c). }
    assert (A : forall p, p = TLockYield \/ p = TLockWait ->
                lstep false (view s c) TBlocked [] (mkL (tlink s c) (tyielded s c) p (tseen s c) (tstopped s c) (S (tlocks s c)))).
    { intros p Hp. unfold view. rewrite Hc. now apply l_acquire. }
    destruct (tcells s (tlink s c)) eqn:E.
    + revert H. apply finish_local; [apply inside_refl|exact Hc|congruence].
    + destruct (towner s); [|destruct (twait s)]; injection H as <- <- <-;
        (split; [frame_tac|unfold view at 2; cbn; rewrite !upd_same; apply A; auto]).
  - destruct (negb (c <? tn s)); [now apply R|].
    destruct (tphase s c) eqn:Hc.
    + now apply R.
    + apply locked_local; auto.
    + destruct (owner_is (towner s) c); [apply locked_local; auto|now apply R].
    + revert H. apply fill_local; [apply inside_refl|now rewrite Hc].
    + injection H as <- <- <-. split; [frame_tac|]. unfold view. cbn. rewrite !upd_same, Hc. apply l_stop.
    + injection H as <- <- <-. split; [frame_tac|]. unfold view. cbn. rewrite !upd_same, Hc. apply l_return.
Qed.

(* A segment of consumer c is a sequence of moves; the flag says whether c is running inside the lock (it is the
   owner, and its phase TIdle or TFilling stands for "running") or suspended / outside. *)
Inductive move (c : nat) : bool -> tst -> bool -> tst -> Prop :=
| m_take s : tphase s c = TIdle -> towner s = None -> twait s = [] -> move c false s false (t_take s c)
| m_enqueue s : tphase s c = TIdle -> (towner s = None -> twait s <> []) -> move c false s false (t_enqueue s c)
| m_finish s had : tphase s c = TIdle -> move c false s false (fst (fst (t_finish s c had)))
| m_wake s : tphase s c = TLockYield \/ tphase s c = TLockWait /\ towner s = Some c -> move c false s true (t_wake s c)
| m_poll s : tphase s c = TIdle -> tcells s (tlink s c) = None -> move c true s true (t_poll s c)
| m_store b s x : tphase s c = TFilling x -> move c b s true (t_store s c x)
| m_release s : tphase s c = TIdle -> move c true s false (t_release s)
| m_pause s x : tphase s c = TFilling x -> move c true s false s
| m_stop s : tphase s c = TEndCk -> move c false s false (t_stop s c)
| m_return s v : tphase s c = TRetSh v -> move c false s false (t_return s c v).

Section Walk.
  Variables (c : nat) (P : bool -> tst -> Prop).
  Hypothesis step : forall b s b' s', move c b s b' s' -> P b s -> P b' s'.

  Lemma fill_walk b s x : tphase s c = TFilling x -> P b s -> P false (fst (fst (t_fill s c x))).
  Proof.
    intros Hc H. apply (step _ _ _ _ (m_store c b s x Hc)) in H.
    apply (step _ _ _ _ (m_release c (t_store s c x) (upd_same _ _ _))) in H.
    refine (step _ _ _ _ (m_finish c _ true _) H). rewrite release_eq. apply upd_same.
  Qed.

  Lemma locked_walk s : tphase s c = TLockYield \/ tphase s c = TLockWait /\ towner s = Some c ->
    P false s -> P false (fst (fst (t_locked s c))).
  Proof.
    intros Hc H. apply (step _ _ _ _ (m_wake c s Hc)) in H. unfold t_locked.
    assert (Hi : tphase (t_wake s c) c = TIdle) by apply upd_same.
    destruct (tcells (t_wake s c) (tlink (t_wake s c) c)) eqn:E.
    - apply (step _ _ _ _ (m_release c _ Hi)) in H. refine (step _ _ _ _ (m_finish c _ true _) H).
      rewrite release_eq. exact Hi.
    - apply (step _ _ _ _ (m_poll c _ Hi E)) in H.
      assert (Hf : tphase (t_poll (t_wake s c) c) c = TFilling (next_cell (t_wake s c))) by apply upd_same.
      destruct (tmode s) as [|[|m]]; [|now apply (fill_walk true)|]; exact (step _ _ _ _ (m_pause c _ _ Hf) H).
  Qed.

  Lemma step0_walk s o : op_consumer o = c -> (forall a k, o <> TCopy a k) -> P false s -> P false (fst (fst (tstep0 s o))).
  Proof.
    destruct o as [a|a|a k]; cbn [op_consumer]; intros -> N H; [| |now destruct (N c k)]; unfold tstep0.
    - destruct (negb (c <? tn s) || negb (is_tidle (tphase s c))) eqn:G; [exact H|].
      assert (Hc : tphase s c = TIdle).
      { apply orb_false_elim in G as [_ G]. now destruct (tphase s c). }
      revert H. apply step.
      destruct (tcells s (tlink s c)); [apply m_finish, Hc|].
      destruct (towner s) eqn:Eo; [|destruct (twait s) eqn:Ew]; cbn [fst]; [|apply m_take; assumption|];
        apply m_enqueue; congruence.
    - destruct (negb (c <? tn s)); [exact H|].
      destruct (tphase s c) eqn:Hc; try exact H.
      + apply locked_walk; auto.
      + destruct (owner_is (towner s) c) eqn:Eo; [|exact H].
        apply locked_walk; [|exact H]. right. split; [exact Hc|]. unfold owner_is in Eo. destruct (towner s); [|discriminate].
        apply Nat.eqb_eq in Eo. now subst.
      + now apply (fill_walk false).
      + exact (step _ _ _ _ (m_stop c s Hc) H).
      + exact (step _ _ _ _ (m_return c s _ Hc) H).
  Qed.
End Walk.

Lemma lstep_outputs had L r ev L' : lstep had L r ev L' ->
  match r with TRet v => l_seen L' = l_seen L ++ [v] | TStop => l_stopped L' = true | _ => True end.
Proof. now destruct 1. Qed.

Lemma lstep_next had L r ev L' : lstep had L r ev L' -> had = false -> r <> TRejected ->
  (r = TBlocked /\ (passes_ck ev = true \/ l_phase L' = TLockYield \/ l_phase L' = TLockWait)) \/
  (r = TStop /\ l_yielded L = true).
Proof. destruct 1; intros; try discriminate; try congruence; cbn; auto. Qed.

Lemma lstep_events had L r ev L' : lstep had L r ev L' ->
  1 <= count_ck ev -> 1 <= count_check ev /\ 1 <= count_yield ev.
Proof. destruct 1 as [| | | ? ? ? ? ? ? ? ? _ [-> | ->] | | | | |]; cbn; lia. Qed.

Lemma tstep_inv s o s' r ev : tstep s o = (s', r, ev) -> exists s1, tstep0 s o = (s1, r, ev) /\
  s' = t_bump2 (t_bump s1 (op_consumer o) (count_ck ev)) (op_consumer o) (count_check ev) (count_yield ev).
Proof. unfold tstep. destruct (tstep0 s o) as [[s1 r1] ev1]. intros [= <- <- <-]. eauto. Qed.

Lemma bump_fields s c n :
  tseen (t_bump s c n) = tseen s /\ tstopped (t_bump s c n) = tstopped s /\ tphase (t_bump s c n) = tphase s /\
  tstart (t_bump s c n) = tstart s /\ tn (t_bump s c n) = tn s /\ tlink (t_bump s c n) = tlink s /\
  tyielded (t_bump s c n) = tyielded s.
Proof. repeat split. Qed.

Lemma step0_out s o : tn s <= op_consumer o -> tstep0 s o = (s, TRejected, []).
Proof.
  intros H. apply Nat.ltb_ge in H. destruct o; cbn in *; now rewrite H.
Qed.

Lemma upd_self {A} (f : nat -> A) c j : upd f c (f c) j = f j.
Proof. unfold upd. now destruct (Nat.eqb_spec j c) as [->|]. Qed.

Lemma tstep1_fst s o : fst (tstep1 s o) = fst (fst (tstep s o)).
Proof. unfold tstep1. now destruct (tstep s o) as [[s1 r] ev]. Qed.

Lemma trun_inv (Inv : tst -> Prop) mode src n ops : Inv (tinit mode src n) ->
  (forall s o s' r ev, tstep s o = (s', r, ev) -> Inv s -> Inv s') -> Inv (trun mode src n ops).
Proof.
  intros H0 Hs. apply (final_inv tstep1 Inv); [|exact H0]. intros s o H. rewrite tstep1_fst.
  destruct (tstep s o) as [[s1 r] ev] eqn:E. exact (Hs _ _ _ _ _ E H).
Qed.

(* a clause guarded by the phase of a consumer survives an update of the phases at c to a phase of another shape *)
Lemma upd_not {A} (f : nat -> A) c v p (Q : nat -> Prop) :
  v <> p -> (forall j, f j = p -> Q j) -> forall j, upd f c v j = p -> Q j.
Proof. intros N H j. unfold upd. destruct (Nat.eqb_spec j c); [congruence|apply H]. Qed.

Lemma upd_not1 {A B} (f : nat -> A) c v (p : B -> A) (Q : nat -> B -> Prop) :
  (forall x, v <> p x) -> (forall j x, f j = p x -> Q j x) -> forall j x, upd f c v j = p x -> Q j x.
Proof. intros N H j x. unfold upd. destruct (Nat.eqb_spec j c); [intros E; now destruct (N x)|apply H]. Qed.

Lemma upd_off {A} (f : nat -> A) c v p (l : list nat) :
  ~ In c l -> (forall w, In w l -> f w = p) -> forall w, In w l -> upd f c v w = p.
Proof. intros N H w Hi. rewrite upd_other; [now apply H|]. now intros ->. Qed.

Ltac upd_frame := try (first [apply upd_not|apply upd_not1|apply upd_off]; (discriminate || assumption)).

Section Tee.
  Variable src0 : list Z.
  Definition full : list cell := map CVal src0 ++ [CEnd].

  Lemma full_len : length full = S (length src0).
  Proof. unfold full. rewrite app_length, map_length. cbn. lia. Qed.

  Lemma full_val i v : nth_error full i = Some (CVal v) -> nth_error src0 i = Some v.
  Proof.
    unfold full. intros H. destruct (Nat.lt_ge_cases i (length src0)) as [L|L].
    - rewrite nth_error_app1 in H by now rewrite map_length.
      rewrite nth_error_map in H. destruct (nth_error src0 i); cbn in H; congruence.
    - rewrite nth_error_app2 in H by now rewrite map_length.
      rewrite map_length in H. destruct (i - length src0) as [|[|k]]; cbn in H; discriminate.
  Qed.

  Lemma full_end i : nth_error full i = Some CEnd -> i = length src0.
  Proof.
    unfold full. intros H. destruct (Nat.lt_ge_cases i (length src0)) as [L|L].
    - rewrite nth_error_app1 in H by now rewrite map_length.
      rewrite nth_error_map in H. destruct (nth_error src0 i); cbn in H; congruence.
    - rewrite nth_error_app2 in H by now rewrite map_length.
      rewrite map_length in H. destruct (i - length src0) as [|[|k]] eqn:E; cbn in H; try discriminate. lia.
  Qed.

  Lemma next_cell_spec s p : tsrc s = skipn p src0 -> p <= length src0 ->
    nth_error full p = Some (next_cell s) /\ List.tl (tsrc s) = skipn (S p) src0.
  Proof.
    intros Hs Hp. unfold next_cell. rewrite Hs. clear Hs. unfold full.
    revert p Hp. induction src0 as [|a l IH]; intros p Hp.
    - cbn in Hp. assert (p = 0) by lia. subst. cbn. auto.
    - destruct p as [|p]; [cbn; auto|]. cbn in Hp. apply (IH p). lia.
  Qed.

  (* between t_poll and t_store the source is one cell ahead of tcells: c_none and c_link count it as `pending`;
     likewise a consumer in TRetSh holds a value it has not yet appended to tseen: c_seenlen counts it as `retp` *)
  Definition pending (s : tst) : nat :=
    match towner s with
    | Some o => match tphase s o with TFilling _ => 1 | _ => 0 end
    | None => 0
    end.
  Definition retp (s : tst) (c : nat) : nat := match tphase s c with TRetSh _ => 1 | _ => 0 end.

  Record Core (s : tst) : Prop := {
    c_polled : tpolled s = firstn (length (tpolled s)) full;
    c_src : tsrc s = skipn (length (tpolled s)) src0;
    c_cells : forall i x, tcells s i = Some x -> nth_error full i = Some x;
    c_none : forall i, tcells s i = None <-> length (tpolled s) <= i + pending s;
    c_link : forall c, tlink s c + pending s <= length (tpolled s);
    c_fill : forall c x, tphase s c = TFilling x ->
             towner s = Some c /\ S (tlink s c) = length (tpolled s) /\ nth_error full (tlink s c) = Some x;
    c_yield : forall c, tphase s c = TLockYield -> towner s = Some c;
    c_wait : forall w, In w (twait s) -> tphase s w = TLockWait;
    c_nodup : NoDup (twait s);
    c_owner : forall o, towner s = Some o -> ~ In o (twait s);
    c_seen : forall c, tseen s c = firstn (length (tseen s c)) (skipn (tstart s c) src0);
    c_seenlen : forall c, tstart s c + length (tseen s c) + retp s c = tlink s c;
    c_ret : forall c v, tphase s c = TRetSh v -> nth_error src0 (tstart s c + length (tseen s c)) = Some v;
    c_endck : forall c, tphase s c = TEndCk -> tcells s (tlink s c) = Some CEnd;
    c_stop : forall c, tstopped s c = true -> tseen s c = skipn (tstart s c) src0;
    c_startb : forall c, tstart s c <= length src0
  }.

  Definition Own (s : tst) : Prop := forall o, towner s = Some o -> is_lock_phase (tphase s o) = true.

  Lemma core_init mode n : Core (tinit mode src0 n).
  Proof.
    constructor; cbn; intros; try discriminate; try tauto; try reflexivity; try lia.
    - split; [lia|reflexivity].
    - constructor.
  Qed.

  Lemma link_bound s c : Core s -> tlink s c <= length src0.
  Proof.
    intros H. pose proof (c_seenlen s H c) as L. pose proof (f_equal (@length Z) (c_seen s H c)) as P.
    pose proof (c_startb s H c) as B. rewrite firstn_length, skipn_length in P.
    unfold retp in L. destruct (tphase s c) as [| | | | |v] eqn:E; try lia.
    pose proof (c_ret s H c v E) as R.
    assert (tstart s c + length (tseen s c) < length src0) by (apply nth_error_Some; congruence). lia.
  Qed.

  Ltac upd_cases :=
    unfold upd in *;
    repeat match goal with
           | H : context [if Nat.eqb ?x ?k then _ else _] |- _ => destruct (Nat.eqb_spec x k); subst
           | |- context [if Nat.eqb ?x ?k then _ else _] => destruct (Nat.eqb_spec x k); subst
           end.

  Ltac core_fields H :=
    pose proof (c_polled _ H) as Hpolled; pose proof (c_src _ H) as Hsrc; pose proof (c_cells _ H) as Hcells;
    pose proof (c_none _ H) as Hnone; pose proof (c_link _ H) as Hlink; pose proof (c_fill _ H) as Hfill;
    pose proof (c_yield _ H) as Hyield; pose proof (c_wait _ H) as Hwait; pose proof (c_nodup _ H) as Hnodup;
    pose proof (c_owner _ H) as Howner; pose proof (c_seen _ H) as Hseen; pose proof (c_seenlen _ H) as Hseenlen;
    pose proof (c_ret _ H) as Hret; pose proof (c_endck _ H) as Hendck; pose proof (c_stop _ H) as Hstop;
    pose proof (c_startb _ H) as Hstartb.

  (* pending / retp under a phase change of consumer c *)
  Lemma pending_set s c P ow :
    (ow = Some c -> (match P with TFilling _ => 1 | _ => 0 end) = match tphase s c with TFilling _ => 1 | _ => 0 end) ->
    match ow with
    | Some o => match upd (tphase s) c P o with TFilling _ => 1 | _ => 0 end
    | None => 0
    end =
    match ow with
    | Some o => match tphase s o with TFilling _ => 1 | _ => 0 end
    | None => 0
    end.
  Proof.
    intros H. destruct ow as [o|]; [|reflexivity]. unfold upd. destruct (Nat.eqb_spec o c); [subst|reflexivity].
    now apply H.
  Qed.

  (* m_take: an idle consumer takes the free lock *)
  Lemma take_core s c : Core s -> tphase s c = TIdle -> towner s = None -> twait s = [] -> Core (t_take s c).
  Proof.
    intros H Hc Ho Hw. core_fields H.
    assert (Hp : pending s = 0) by (unfold pending; now rewrite Ho).
    assert (Hp' : pending (t_take s c) = 0).
    { unfold pending, t_take. cbn. now rewrite upd_same. }
    constructor; cbn [t_take tpolled tsrc tcells towner twait tlink tphase tseen tstopped tyielded]; auto; upd_frame.
    - intros i. rewrite Hp'. rewrite Hnone, Hp. tauto.
    - intros c0. rewrite Hp'. specialize (Hlink c0). lia.
    - intros c0 x E. upd_cases; [discriminate|]. destruct (Hfill c0 x E) as (A & _). congruence.
    - intros c0 E. upd_cases; [reflexivity|]. specialize (Hyield c0 E). congruence.
    - intros w [].
    - constructor.
    - intros c0. specialize (Hseenlen c0). unfold retp in *. cbn. upd_cases; [rewrite Hc in Hseenlen|]; exact Hseenlen.
  Qed.

  (* m_enqueue: an idle consumer queues on the lock *)
  Lemma enqueue_core s c : Core s -> tphase s c = TIdle -> towner s <> Some c -> Core (t_enqueue s c).
  Proof.
    intros H Hc Ho. core_fields H.
    assert (Hp' : pending (t_enqueue s c) = pending s).
    { unfold pending, t_enqueue. cbn. apply pending_set. intros E. congruence. }
    assert (Hnw : ~ In c (twait s)) by (intros Hi; specialize (Hwait c Hi); congruence).
    constructor; cbn [t_enqueue tpolled tsrc tcells towner twait tlink tphase tseen tstopped tyielded]; auto; upd_frame.
    - intros i. rewrite Hp'. apply Hnone.
    - intros c0. rewrite Hp'. apply Hlink.
    - intros w Hi. apply in_app_or in Hi as [Hi|[<-|[]]]; upd_cases; auto; try contradiction.
    - apply (NoDup_Add (Add_app c (twait s) [])). now rewrite app_nil_r.
    - intros o E Hi. apply in_app_or in Hi as [Hi|[<-|[]]]; [exact (Howner o E Hi)|congruence].
    - intros c0. specialize (Hseenlen c0). unfold retp in *. cbn. upd_cases; [rewrite Hc in Hseenlen|]; exact Hseenlen.
  Qed.

  (* m_wake: the lock owner resumes from TLockYield / TLockWait *)
  Lemma wake_core s c : Core s -> towner s = Some c ->
    (tphase s c = TLockYield \/ tphase s c = TLockWait) -> Core (t_wake s c).
  Proof.
    intros H Ho Hc. core_fields H.
    assert (Hp' : pending (t_wake s c) = pending s).
    { unfold pending, t_wake, set_phase. cbn. apply pending_set. intros _. destruct Hc as [-> | ->]; reflexivity. }
    assert (Hnw : ~ In c (twait s)) by now apply Howner.
    constructor; cbn [t_wake set_phase tpolled tsrc tcells towner twait tlink tphase tseen tstopped tyielded]; auto; upd_frame.
    - intros i. rewrite Hp'. apply Hnone.
    - intros c0. rewrite Hp'. apply Hlink.
    - intros c0. specialize (Hseenlen c0). unfold retp in *. cbn. upd_cases; [|exact Hseenlen].
      destruct Hc as [E | E]; rewrite E in Hseenlen; exact Hseenlen.
  Qed.

  (* m_release: the running owner releases the lock *)
  Lemma release_core s c : Core s -> towner s = Some c -> tphase s c = TIdle -> Core (t_release s).
  Proof.
    intros H Ho Hc. core_fields H.
    assert (Hp : pending s = 0) by (unfold pending; now rewrite Ho, Hc).
    assert (Hp' : pending (t_release s) = 0).
    { unfold pending, t_release. destruct (twait s) as [|w r] eqn:E; cbn; [reflexivity|].
      rewrite (Hwait w); [reflexivity|]. rewrite ?E. now left. }
    constructor; rewrite ?Hp'; rewrite ?Hp in *;
      unfold t_release; destruct (twait s) as [|w r] eqn:E;
      cbn [tpolled tsrc tcells towner twait tlink tphase tseen tstopped tyielded]; auto; upd_frame.
    - intros c0 x F. destruct (Hfill c0 x F) as (A & _). congruence.
    - intros c0 x F. destruct (Hfill c0 x F) as (A & _). congruence.
    - intros c0 F. specialize (Hyield c0 F). congruence.
    - intros c0 F. specialize (Hyield c0 F). congruence.
    - intros w0 Hi. apply Hwait. now right.
    - now inversion Hnodup.
    - intros o [= <-]. now inversion Hnodup.
  Qed.

  (* m_store: the owner stores the polled cell *)
  Lemma store_core s c x : Core s -> tphase s c = TFilling x -> Core (t_store s c x).
  Proof.
    intros H Hc. core_fields H. destruct (Hfill c x Hc) as (Ho & Hl & Hx).
    assert (Hp : pending s = 1) by (unfold pending; now rewrite Ho, Hc).
    assert (Hp' : pending (t_store s c x) = 0).
    { unfold pending, t_store. cbn. rewrite Ho, upd_same. reflexivity. }
    assert (Hnw : ~ In c (twait s)) by now apply Howner.
    assert (Hcn : tcells s (tlink s c) = None) by (apply Hnone; lia).
    constructor; rewrite ?Hp'; rewrite ?Hp in *;
      cbn [t_store tpolled tsrc tcells towner twait tlink tphase tseen tstopped tyielded]; auto; upd_frame.
    - intros i y E. upd_cases; [congruence|]. now apply Hcells.
    - intros i. upd_cases.
      + split; [discriminate|lia].
      + rewrite Hnone. lia.
    - intros c0. specialize (Hlink c0). lia.
    - intros c0. specialize (Hseenlen c0). unfold retp in *. cbn. upd_cases; [rewrite Hc in Hseenlen|]; exact Hseenlen.
    - intros c0 E. assert (c0 <> c) by (intros ->; rewrite upd_same in E; discriminate).
      rewrite upd_other in E by assumption. specialize (Hendck c0 E).
      unfold upd. destruct (Nat.eqb_spec (tlink s c0) (tlink s c)) as [El|]; [|exact Hendck].
      rewrite El in Hendck. congruence.
  Qed.

  (* m_poll: the running owner advances the source *)
  Lemma poll_core s c : Core s -> towner s = Some c -> tphase s c = TIdle -> tcells s (tlink s c) = None ->
    Core (t_poll s c).
  Proof.
    intros H Ho Hc Hn. core_fields H.
    assert (Hp : pending s = 0) by (unfold pending; now rewrite Ho, Hc).
    assert (Hp' : pending (t_poll s c) = 1).
    { unfold pending, t_poll. cbn. rewrite Ho, upd_same. reflexivity. }
    assert (Hnw : ~ In c (twait s)) by now apply Howner.
    assert (Hl : tlink s c = length (tpolled s)).
    { apply Hnone in Hn. specialize (Hlink c). lia. }
    pose proof (link_bound s c H) as Hb.
    destruct (next_cell_spec s (length (tpolled s)) Hsrc ltac:(lia)) as (Hx & Htl).
    constructor; rewrite ?Hp'; rewrite ?Hp in *;
      cbn [t_poll tpolled tsrc tcells towner twait tlink tphase tseen tstopped tyielded];
      rewrite ?app_length; cbn [length]; auto; upd_frame.
    - rewrite Nat.add_1_r, (firstn_snoc _ _ _ Hx), <- Hpolled. reflexivity.
    - rewrite Nat.add_1_r. exact Htl.
    - intros i. rewrite Hnone. lia.
    - intros c0. specialize (Hlink c0). lia.
    - intros c0 y E. upd_cases.
      + injection E as <-. rewrite Hl. split; [exact Ho|split; [lia|exact Hx]].
      + destruct (Hfill c0 y E) as (A & _). congruence.
    - intros c0. specialize (Hseenlen c0). unfold retp in *. cbn. upd_cases; [rewrite Hc in Hseenlen|]; exact Hseenlen.
  Qed.

  (* m_stop: StopAsyncIteration reaches the consumer (directly or after the checkpoint) *)
  Lemma stop_core s c : Core s -> (tphase s c = TIdle \/ tphase s c = TEndCk) ->
    tcells s (tlink s c) = Some CEnd -> Core (t_stop s c).
  Proof.
    intros H Hc Hcell. core_fields H.
    assert (Hp' : pending (t_stop s c) = pending s).
    { unfold pending, t_stop. cbn. apply pending_set. intros _. destruct Hc as [-> | ->]; reflexivity. }
    assert (Hnw : ~ In c (twait s)).
    { intros Hi. specialize (Hwait c Hi). destruct Hc; congruence. }
    assert (Hr : retp s c = 0) by (unfold retp; destruct Hc as [-> | ->]; reflexivity).
    constructor; rewrite ?Hp';
      cbn [t_stop tpolled tsrc tcells towner twait tlink tphase tseen tstopped tyielded]; auto; upd_frame.
    - intros c0. specialize (Hseenlen c0). unfold retp in *. cbn. upd_cases; [|exact Hseenlen]. lia.
    - intros c0 E. upd_cases; [|now apply Hstop].
      apply Hcells, full_end in Hcell. specialize (Hseenlen c). rewrite Hr in Hseenlen.
      rewrite (Hseen c). pose proof (Hstartb c).
      replace (length (tseen s c)) with (length (skipn (tstart s c) src0)) by (rewrite skipn_length; lia).
      apply firstn_all.
  Qed.

  Lemma endck_core s c : Core s -> tphase s c = TIdle -> tcells s (tlink s c) = Some CEnd ->
    Core (set_phase s c TEndCk).
  Proof.
    intros H Hc Hcell. core_fields H.
    assert (Hp' : pending (set_phase s c TEndCk) = pending s).
    { unfold pending, set_phase. cbn. apply pending_set. intros _. now rewrite Hc. }
    assert (Hnw : ~ In c (twait s)) by (intros Hi; specialize (Hwait c Hi); congruence).
    constructor; rewrite ?Hp';
      cbn [set_phase tpolled tsrc tcells towner twait tlink tphase tseen tstopped tyielded]; auto; upd_frame.
    - intros c0. specialize (Hseenlen c0). unfold retp in *. cbn. upd_cases; [rewrite Hc in Hseenlen|]; exact Hseenlen.
    - intros c0 E. upd_cases; [exact Hcell|]. now apply Hendck.
  Qed.

  (* the consumer takes value v from its link and moves to the next link *)
  Lemma advance_core s c v (direct : bool) : Core s -> tphase s c = TIdle -> tcells s (tlink s c) = Some (CVal v) ->
    Core (mkT (tmode s) (tsrc s) (tcells s) (towner s) (twait s) (upd (tlink s) c (S (tlink s c)))
              (upd (tyielded s) c true) (upd (tphase s) c (if direct then TIdle else TRetSh v)) (tn s)
              (if direct then upd (tseen s) c (tseen s c ++ [v]) else tseen s) (tstopped s) (tpolled s)
              (tstart s) (tcks s) (tlocks s) (tchk s) (tyld s)).
  Proof.
    intros H Hc Hcell. core_fields H.
    set (s' := mkT _ _ _ _ _ _ _ _ _ _ _ _ _ _ _ _ _).
    assert (Hp' : pending s' = pending s).
    { unfold pending, s'. cbn. apply pending_set. intros _. rewrite Hc. now destruct direct. }
    assert (Hnw : ~ In c (twait s)) by (intros Hi; specialize (Hwait c Hi); congruence).
    assert (Hr : retp s c = 0) by (unfold retp; now rewrite Hc).
    assert (Hv : nth_error src0 (tlink s c) = Some v) by now apply full_val, Hcells.
    assert (Hlt : tlink s c + pending s < length (tpolled s)).
    { destruct (Nat.lt_ge_cases (tlink s c + pending s) (length (tpolled s))) as [L|L]; [exact L|].
      apply Hnone in L. congruence. }
    assert (Hlen : tstart s c + length (tseen s c) = tlink s c) by (specialize (Hseenlen c); lia).
    assert (Hv' : nth_error (skipn (tstart s c) src0) (length (tseen s c)) = Some v).
    { rewrite nth_skipn, Hlen. exact Hv. }
    constructor; rewrite ?Hp'; unfold s';
      cbn [tpolled tsrc tcells towner twait tlink tphase tseen tstopped tyielded tstart]; auto; upd_frame.
    - intros c0. upd_cases; [lia|apply Hlink].
    - intros c0 x E. upd_cases; [destruct direct; discriminate|]. now apply Hfill.
    - intros c0 E. upd_cases; [destruct direct; discriminate|]. now apply Hyield.
    - intros c0. destruct direct; [|apply Hseen]. upd_cases; [|apply Hseen].
      rewrite app_length. cbn [length]. rewrite Nat.add_1_r, (firstn_snoc _ _ _ Hv').
      f_equal. apply Hseen.
    - intros c0. specialize (Hseenlen c0). unfold retp in *. cbn.
      destruct direct; upd_cases; try exact Hseenlen; rewrite ?app_length; cbn [length]; lia.
    - intros c0 v0 E. destruct direct; upd_cases; try discriminate; try (now apply Hret).
      injection E as <-. now rewrite Hlen.
    - intros c0 E. upd_cases; [destruct direct; discriminate|]. now apply Hendck.
    - intros c0 E. destruct direct; [|now apply Hstop]. upd_cases; [|now apply Hstop].
      exfalso. specialize (Hstop c E). rewrite Hstop in Hv'.
      assert (length (skipn (tstart s c) src0) < length (skipn (tstart s c) src0)) by (apply nth_error_Some; congruence).
      lia.
  Qed.

  (* m_return: the consumer resumes from the final shielded checkpoint and returns v *)
  Lemma return_core s c v : Core s -> tphase s c = TRetSh v -> Core (t_return s c v).
  Proof.
    intros H Hc. core_fields H.
    assert (Hp' : pending (t_return s c v) = pending s).
    { unfold pending, t_return. cbn. apply pending_set. intros _. now rewrite Hc. }
    assert (Hnw : ~ In c (twait s)) by (intros Hi; specialize (Hwait c Hi); congruence).
    assert (Hr : retp s c = 1) by (unfold retp; now rewrite Hc).
    pose proof (Hret c v Hc) as Hv.
    assert (Hv' : nth_error (skipn (tstart s c) src0) (length (tseen s c)) = Some v) by (rewrite nth_skipn; exact Hv).
    constructor; rewrite ?Hp';
      cbn [t_return tpolled tsrc tcells towner twait tlink tphase tseen tstopped tyielded tstart]; auto; upd_frame.
    - intros c0. upd_cases; [|apply Hseen].
      rewrite app_length. cbn [length]. rewrite Nat.add_1_r, (firstn_snoc _ _ _ Hv'). f_equal. apply Hseen.
    - intros c0. specialize (Hseenlen c0). unfold retp in *. cbn.
      upd_cases; [|exact Hseenlen]. rewrite app_length. cbn [length]. rewrite Hc in Hseenlen. lia.
    - intros c0 v0 E. upd_cases; [discriminate|]. now apply Hret.
    - intros c0 E. upd_cases; [|now apply Hstop].
      exfalso. specialize (Hstop c E). rewrite Hstop in Hv'.
      assert (length (skipn (tstart s c) src0) < length (skipn (tstart s c) src0)) by (apply nth_error_Some; congruence).
      lia.
  Qed.

  (* m_finish: __anext__ after fill() *)
  Lemma finish_core s c had : Core s -> tphase s c = TIdle -> Core (fst (fst (t_finish s c had))).
  Proof.
    intros H Hc. unfold t_finish.
    destruct (tcells s (tlink s c)) as [[v|]|] eqn:Ecell.
    - destruct had; cbn [fst].
      + exact (advance_core s c v true H Hc Ecell).
      + exact (advance_core s c v false H Hc Ecell).
    - destruct (tyielded s c); cbn [fst].
      + apply (stop_core s c H); auto.
      + apply endck_core; auto.
    - exact H.
  Qed.

  Definition TInv (s : tst) : Prop := Core s /\ Own s.

  Lemma finish_frame s c had :
    let s' := fst (fst (t_finish s c had)) in towner s' = towner s /\ forall o, o <> c -> tphase s' o = tphase s o.
  Proof.
    unfold t_finish. destruct (tcells s (tlink s c)) as [[v|]|]; [destruct had|destruct (tyielded s c)|];
      cbn; (split; [reflexivity|]); intros o Ho; rewrite ?upd_other by exact Ho; reflexivity.
  Qed.

  (* a consumer outside the lock changes its own phase *)
  Lemma own_frame s s' c : Own s -> is_lock_phase (tphase s c) = false -> towner s' = towner s ->
    (forall o, o <> c -> tphase s' o = tphase s o) -> Own s'.
  Proof.
    intros HO Hp Eo Hf o E. rewrite Eo in E. rewrite Hf; [now apply HO|]. intros ->. specialize (HO c E). congruence.
  Qed.

  Lemma move_inv c b s b' s' : move c b s b' s' ->
    Core s /\ (if b then towner s = Some c else Own s) -> Core s' /\ (if b' then towner s' = Some c else Own s').
  Proof.
    assert (F : forall s c P, forall o, o <> c -> upd (tphase s) c P o = tphase s o) by (intros; now apply upd_other).
    destruct 1 as [s Hc Ho Hw|s Hc Hw|s had Hc|s Hc|s Hc Hn|b s x Hc|s Hc|s x Hc|s Hc|s v Hc]; intros [H HO].
    - split; [now apply take_core|]. intros o [= <-]. cbn. now rewrite upd_same.
    - assert (Hp : is_lock_phase (tphase s c) = false) by now rewrite Hc.
      split; [apply enqueue_core; auto; intros E; specialize (HO c E); congruence|].
      apply (own_frame s _ c HO Hp); [reflexivity|apply F].
    - split; [now apply finish_core|]. destruct (finish_frame s c had) as [Eo Ef].
      apply (own_frame s _ c HO); [now rewrite Hc|exact Eo|exact Ef].
    - assert (Ho : towner s = Some c) by (destruct Hc as [Hc|[_ Ho]]; [now apply (c_yield _ H)|exact Ho]).
      split; [apply wake_core; tauto|exact Ho].
    - split; [now apply poll_core|exact HO].
    - split; [now apply store_core|]. now destruct (c_fill _ H c x Hc).
    - split; [now apply (release_core s c)|]. rewrite release_eq. intros o E. cbn in *.
      assert (In o (twait s)) as Hi by (destruct (twait s); [discriminate|injection E as <-; now left]).
      now rewrite (c_wait _ H o Hi).
    - split; [exact H|]. intros o E. assert (o = c) as -> by congruence. now rewrite Hc.
    - split; [apply stop_core; auto; now apply (c_endck _ H)|].
      apply (own_frame s _ c HO); [now rewrite Hc|reflexivity|apply F].
    - split; [now apply return_core|]. apply (own_frame s _ c HO); [now rewrite Hc|reflexivity|apply F].
  Qed.

  Definition Fresh (s : tst) : Prop := forall c, tphase s c <> TIdle -> c < tn s.

  Lemma on_new_old {A} s k (f : nat -> A) v j : j < tn s -> on_new s k f v j = f j.
  Proof. intros H. unfold on_new. destruct (Nat.leb_spec (tn s) j); [lia|reflexivity]. Qed.

  Lemma fresh_idle s j : Fresh s -> tn s <= j -> tphase s j = TIdle.
  Proof.
    intros HF Hj. destruct (tphase s j) eqn:E; try reflexivity;
      (assert (j < tn s) by (apply HF; rewrite E; discriminate); lia).
  Qed.

  (* tee(it_c, k): k new consumers at it_c's link *)
  Lemma copy_core s c k : Core s -> Fresh s -> Core (t_copy s c k).
  Proof.
    intros H HF. core_fields H.
    assert (Hp' : pending (t_copy s c k) = pending s) by reflexivity.
    pose proof (link_bound s c H) as Hb.
    constructor; rewrite ?Hp';
      cbn [t_copy tpolled tsrc tcells towner twait tlink tphase tseen tstopped tyielded tstart]; auto; upd_frame.
    - intros j. unfold on_new. destruct (_ && _); [apply Hlink|apply Hlink].
    - intros j x E. rewrite on_new_old by (apply HF; rewrite E; discriminate). now apply Hfill.
    - intros j. unfold on_new. destruct (_ && _); [reflexivity|apply Hseen].
    - intros j. unfold on_new. destruct (Nat.leb_spec (tn s) j) as [L|L]; cbn [andb].
      + destruct (j <? tn s + k); [|apply Hseenlen]. unfold retp. cbn [t_copy tphase]. rewrite (fresh_idle s j HF L). cbn. lia.
      + apply Hseenlen.
    - intros j v E. rewrite !on_new_old by (apply HF; rewrite E; discriminate). now apply Hret.
    - intros j E. rewrite on_new_old by (apply HF; rewrite E; discriminate). now apply Hendck.
    - intros j. unfold on_new. destruct (_ && _); [discriminate|apply Hstop].
    - intros j. unfold on_new. destruct (_ && _); [exact Hb|apply Hstartb].
  Qed.

  Lemma step0_inv s o : TInv s -> Fresh s -> TInv (fst (fst (tstep0 s o))).
  Proof.
    intros HI HF. destruct o as [c|c|c k]; try (apply (step0_walk c _ (move_inv c)); [reflexivity|discriminate|exact HI]).
    unfold tstep0. destruct (c <? tn s); [|exact HI]. destruct HI as [H HO]. split; [now apply copy_core|exact HO].
  Qed.

  Lemma fresh_step0 s o : Fresh s -> Fresh (fst (fst (tstep0 s o))).
  Proof.
    intros HF. destruct (tstep0 s o) as [[s' r] ev] eqn:E. cbn [fst].
    destruct (Nat.le_gt_cases (tn s) (op_consumer o)) as [G|G].
    { rewrite step0_out in E by exact G. now injection E as <- _ _. }
    pose proof (step0_local _ _ _ _ _ E) as L. destruct o as [c|c|c k]; cbn in G.
    1,2: destruct L as [A _]; intros j Hj; rewrite (a_n _ _ _ A); destruct (Nat.eq_dec j c) as [->|N]; [exact G|];
      apply HF; pose proof (f_equal l_phase (a_others _ _ _ A j N)) as V; cbn in V; congruence.
    unfold tstep0 in E. apply Nat.ltb_lt in G. rewrite G in E. injection E as <- _ _.
    intros j Hj. specialize (HF j Hj). cbn. lia.
  Qed.

  Definition TInv2 (s : tst) : Prop := TInv s /\ Fresh s.

  Lemma step_inv s o : TInv2 s -> TInv2 (fst (tstep1 s o)).
  Proof.
    intros [HI HF]. unfold tstep1, tstep.
    pose proof (step0_inv s o HI HF) as [HC HO]. pose proof (fresh_step0 s o HF) as HF'.
    destruct (tstep0 s o) as [[s1 r] ev]. cbn [fst] in *.
    split; [split; [destruct HC; constructor; assumption|exact HO]|exact HF'].
  Qed.
End Tee.

(* Progress: in every reachable state in which some consumer is inside an __anext__ call, some consumer can be
   resumed (no interleaving deadlocks the consumers on the lock). *)
Record Live (s : tst) : Prop := {
  l_lockw : twait s <> [] -> towner s <> None;
  l_wait : forall c, tphase s c = TLockWait -> In c (twait s) \/ towner s = Some c
}.

Lemma live_frame s s' c P : P <> TLockWait ->
  towner s' = towner s -> twait s' = twait s -> tphase s' = upd (tphase s) c P -> Live s -> Live s'.
Proof.
  intros HP Eo Ew Ep [Hl Hwt]. constructor; rewrite ?Eo, ?Ew, ?Ep; auto.
  intros c0 E. unfold upd in E. destruct (Nat.eqb_spec c0 c); [congruence|now apply Hwt].
Qed.

Lemma release_live s c : towner s = Some c -> tphase s c <> TLockWait -> Live s -> Live (t_release s).
Proof.
  intros Ho Hc [Hl Hwt].
  assert (W : forall c0, tphase s c0 = TLockWait -> In c0 (twait s)).
  { intros c0 E. destruct (Hwt c0 E) as [Hi|E1]; [exact Hi|congruence]. }
  rewrite release_eq. constructor; cbn.
  - destruct (twait s); [intros []; reflexivity|discriminate].
  - intros c0 E. specialize (W c0 E). destruct (twait s) as [|w r]; [destruct W|]. destruct W as [<-|Hi]; auto.
Qed.

Lemma move_live c b s b' s' : move c b s b' s' -> (if b then towner s = Some c else True) -> Live s -> Live s'.
Proof.
  destruct 1 as [s Hc Ho Hw|s Hc Hw|s had Hc|s Hc|s Hc Hn|b s x Hc|s Hc|s x Hc|s Hc|s v Hc]; intros HO HL;
    try (apply (live_frame s _ c TIdle); auto; discriminate).
  - destruct HL as [Hl Hwt]. constructor; cbn; [discriminate|].
    intros c0 E. unfold upd in E. destruct (Nat.eqb_spec c0 c); [discriminate|].
    destruct (Hwt c0 E) as [Hi|Hi]; [now rewrite Hw in Hi|congruence].
  - destruct HL as [Hl Hwt]. constructor; cbn; [intros _ E; apply Hl; auto|].
    intros c0 E. unfold upd in E. destruct (Nat.eqb_spec c0 c); [subst; left; apply in_or_app; right; now left|].
    destruct (Hwt c0 E) as [Hi|Hi]; [left; apply in_or_app; now left|now right].
  - unfold t_finish.
    destruct (tcells s (tlink s c)) as [[w|]|]; [destruct had|destruct (tyielded s c)|]; cbn [fst]; try exact HL;
      (eapply (live_frame s _ c); [|reflexivity|reflexivity|reflexivity|exact HL]; discriminate).
  - apply (live_frame s _ c (TFilling (next_cell s))); auto; discriminate.
  - apply (release_live s c); [exact HO|now rewrite Hc|exact HL].
  - exact HL.
Qed.

(* C08 per consumer, copies included: a consumer that has been told StopAsyncIteration has passed a checkpoint -
   a logged checkpoint event of its own if its traversal yielded nothing, a logged event or a Lock.acquire()
   otherwise.  The facts are local to each consumer: once it has yielded it has seen a value or logged an event,
   inside the lock it has called Lock.acquire(), suspended outside the lock it has logged an event. *)
Definition ckl (L : loc) (cks : nat) : Prop :=
  (l_yielded L = true -> 1 <= length (l_seen L) + cks /\ 1 <= cks + l_locks L) /\
  (is_lock_phase (l_phase L) = true -> 1 <= l_locks L) /\
  (is_tidle (l_phase L) = false -> is_lock_phase (l_phase L) = false -> 1 <= cks) /\
  (l_stopped L = true -> (length (l_seen L) = 0 -> 1 <= cks) /\ 1 <= cks + l_locks L).

Lemma lstep_ck had L r ev L' n : lstep had L r ev L' -> ckl L n -> ckl L' (n + count_ck ev).
Proof.
  destruct 1 as [| ? ? ? ? ? ? [-> | ->] | | ? ? ? ? ? ? ? ? [-> | ->] _ | | | | |];
    unfold ckl; cbn; rewrite ?app_length; cbn; lia.
Qed.

Definition CkInv (s : tst) : Prop := forall c, ckl (view s c) (tcks s c).

Lemma ck_step s o s' r ev : tstep s o = (s', r, ev) -> CkInv s -> Fresh s -> CkInv s'.
Proof.
  intros H K HF j. apply tstep_inv in H as (s1 & E & ->).
  change (ckl (view s1 j) (upd (tcks s1) (op_consumer o) (tcks s1 (op_consumer o) + count_ck ev) j)).
  pose proof (step0_local _ _ _ _ _ E) as L. destruct o as [c|c|c k]; cbn [op_consumer] in *.
  1,2: destruct L as [A L]; rewrite (a_cks _ _ _ A); destruct (Nat.eq_dec j c) as [->|N];
    [rewrite upd_same; exact (lstep_ck _ _ _ _ _ _ L (K c))|rewrite upd_other, (a_others _ _ _ A) by exact N; apply K].
  unfold tstep0 in E. destruct (c <? tn s); injection E as <- _ <-; cbn; rewrite Nat.add_0_r, upd_self; [|apply K].
  unfold view. cbn. unfold on_new. destruct (Nat.leb_spec (tn s) j) as [G|G]; [|apply K].
  destruct (j <? tn s + k); [|apply K]. rewrite (fresh_idle s j HF G). unfold ckl. cbn. lia.
Qed.

(* checks and yields counted separately: every logged checkpoint event of a tee consumer comes with both a
   cancellation check and a real yield (the segments log [], [Ck] or [CkIf; Sh]) *)
Definition Pair (s : tst) : Prop := forall c, 1 <= tcks s c -> 1 <= tchk s c /\ 1 <= tyld s c.

Lemma pair_step s o s' r ev : tstep s o = (s', r, ev) -> Pair s -> Pair s'.
Proof.
  intros H P j. apply tstep_inv in H as (s1 & E & ->). specialize (P j). cbn. unfold upd.
  pose proof (step0_local _ _ _ _ _ E) as L. destruct o as [c|c|c k]; cbn [op_consumer].
  1,2: destruct L as [A L]; pose proof (lstep_events _ _ _ _ _ L); rewrite (a_cks _ _ _ A), (a_chk _ _ _ A), (a_yld _ _ _ A);
    destruct (Nat.eqb_spec j c) as [->|N]; lia.
  unfold tstep0 in E. destruct (c <? tn s); injection E as <- _ <-; cbn; destruct (Nat.eqb_spec j c) as [->|N];
    unfold on_new; try destruct (_ && _); lia.
Qed.

Lemma run_all src mode n ops :
  let s := trun mode src n ops in (TInv src s /\ Fresh s) /\ Live s /\ CkInv s /\ Pair s.
Proof.
  apply (trun_inv (fun s => TInv2 src s /\ Live s /\ CkInv s /\ Pair s)).
  - split; [|split; [|split]].
    + split; [split; [apply core_init|discriminate]|intros c E; now cbn in E].
    + constructor; cbn; [congruence|discriminate].
    + intros c. unfold ckl. cbn. lia.
    + intros c H. cbn in H. lia.
  - intros s o s' r ev E (Hi & L & K & P). split; [|split; [|split]].
    + apply (step_inv src s o) in Hi. now rewrite tstep1_fst, E in Hi.
    + apply tstep_inv in E as (s1 & E & ->). enough (Live s1) as [] by now constructor.
      replace s1 with (fst (fst (tstep0 s o))) by now rewrite E.
      destruct o as [c|c|c k].
      1,2: apply (step0_walk c (fun b s => (Core src s /\ if b then towner s = Some c else Own s) /\ Live s));
        [|reflexivity|discriminate|exact (conj (proj1 Hi) L)];
        intros b0 s0 b1 s2 Hm [A B]; split; [exact (move_inv src c _ _ _ _ Hm A)|];
        apply (move_live c _ _ _ _ Hm); [destruct b0; [apply A|exact I]|exact B].
      unfold tstep0. destruct (c <? tn s); [|exact L]. destruct L. now constructor.
    + exact (ck_step _ _ _ _ _ E K (proj2 Hi)).
    + exact (pair_step _ _ _ _ _ E P).
Qed.

(* every consumer observes a prefix of the source, in order, and the whole of it once it has seen
   StopAsyncIteration - for every interleaving of consumer segments and any number of consumers.
   With copies: consumer c started at link tstart s c (0 for the consumers created by the first tee() call, the
   original's link for a copy) and observes the suffix of the source from there *)
Theorem tee_consumers_see_all : forall mode src n ops c,
  let s := trun mode src n ops in
  tseen s c = firstn (length (tseen s c)) (skipn (tstart s c) src) /\
  (tstopped s c = true -> tseen s c = skipn (tstart s c) src).
Proof.
  intros mode src n ops c s. destruct (run_all src mode n ops) as [[[H _] _] _].
  split; [apply (c_seen _ _ H)|apply (c_stop _ _ H)].
Qed.

(* the results of all __anext__ calls on the source form a prefix of  element_1 … element_k, end : every
   element is requested exactly once, the end at most once; and the source's remaining content is what has
   not been requested *)
Theorem tee_source_once : forall mode src n ops,
  let s := trun mode src n ops in
  tpolled s = firstn (length (tpolled s)) (map CVal src ++ [CEnd]) /\ tsrc s = skipn (length (tpolled s)) src.
Proof.
  intros mode src n ops s. destruct (run_all src mode n ops) as [[[H _] _] _].
  split; [apply (c_polled _ _ H)|apply (c_src _ _ H)].
Qed.

(* the consumers created by the first tee() call start at the beginning of the source *)
Theorem tee_originals_start : forall mode src n ops c, c < n -> tstart (trun mode src n ops) c = 0.
Proof.
  intros mode src n ops c Hc.
  apply (trun_inv (fun s => c < tn s /\ tstart s c = 0)); [now split|].
  intros s o s' r ev E [Hn Hs]. apply tstep_inv in E as (s1 & E & ->). change (c < tn s1 /\ tstart s1 c = 0).
  pose proof (step0_local _ _ _ _ _ E) as L. destruct o as [a|a|a k].
  1,2: destruct L as [A _]; now rewrite (a_n _ _ _ A), (a_start _ _ _ A).
  unfold tstep0 in E. destruct (a <? tn s); injection E as <- _ _; [|now split].
  cbn. rewrite on_new_old by exact Hn. split; [lia|exact Hs].
Qed.

(* tee(it_c, k) on an existing tee iterator: k new consumers numbered tn s … tn s + k - 1, each at it_c's current
   link, with nothing seen, not stopped, and its own element_yielded = false; every existing consumer - it_c
   included - is left exactly as it was *)
Theorem tee_copy_spec : forall s c k s' r ev, tstep s (TCopy c k) = (s', r, ev) -> c < tn s ->
  r = TCopied (tn s) /\ ev = [] /\ tn s' = tn s + k /\
  (forall j, tn s <= j < tn s + k ->
     tstart s' j = tlink s c /\ tlink s' j = tlink s c /\ tseen s' j = [] /\ tstopped s' j = false /\
     tyielded s' j = false /\ tcks s' j = 0 /\ tlocks s' j = 0) /\
  (forall j, j < tn s ->
     tstart s' j = tstart s j /\ tlink s' j = tlink s j /\ tseen s' j = tseen s j /\ tstopped s' j = tstopped s j /\
     tyielded s' j = tyielded s j /\ tphase s' j = tphase s j).
Proof.
  intros s c k s' r ev H Hc. unfold tstep, tstep0 in H. apply Nat.ltb_lt in Hc as Hb. rewrite Hb in H.
  inversion H; subst; clear H. cbn. repeat split; try lia;
    try (unfold on_new; destruct (Nat.leb_spec (tn s) j); destruct (Nat.ltb_spec j (tn s + k)); cbn; try lia; reflexivity).
  unfold upd, on_new. destruct (Nat.eqb_spec j c); [lia|].
  destruct (Nat.leb_spec (tn s) j); destruct (Nat.ltb_spec j (tn s + k)); cbn; try lia; reflexivity.
Qed.

(* the ghost fields record exactly what the consumers are given: a step that returns v to consumer c appends
   v to tseen c, a step that raises StopAsyncIteration in c sets tstopped c *)
Theorem tee_outputs_logged : forall s o s' r ev, tstep s o = (s', r, ev) ->
  match r with
  | TRet v => exists c, (o = TNext c \/ o = TResume c) /\ tseen s' c = tseen s c ++ [v]
  | TStop => exists c, (o = TNext c \/ o = TResume c) /\ tstopped s' c = true
  | _ => True
  end.
Proof.
  intros s o s' r ev H. apply tstep_inv in H as (s1 & E & ->).
  pose proof (step0_local _ _ _ _ _ E) as L. destruct o as [c|c|c k].
  1,2: destruct L as [_ L]; apply lstep_outputs in L; destruct r; auto; exists c; auto.
  unfold tstep0 in E. now destruct (c <? tn s); injection E as _ <- _.
Qed.

(* and the checkpoint events of a segment are attributed to the consumer that ran it *)
Theorem tee_cks_logged : forall s o s' r ev, tstep s o = (s', r, ev) ->
  (forall j, j <> op_consumer o -> match o with TCopy _ _ => True | _ => tcks s' j = tcks s j end) /\
  match o with
  | TCopy _ _ => True
  | _ => tcks s' (op_consumer o) = tcks s (op_consumer o) + count_ck ev
  end.
Proof.
  intros s o s' r ev H. apply tstep_inv in H as (s1 & E & ->).
  pose proof (step0_local _ _ _ _ _ E) as L. destruct o as [c|c|c k]; [| |now split].
  all: destruct L as [A _]; cbn; rewrite (a_cks _ _ _ A), upd_same; split; [intros j Hj; now apply upd_other|reflexivity].
Qed.

(* non-vacuity: three consumers of a synchronous two-element source, interleaved so that the lock is contended
   and handed over; all of them end up having seen the whole source and StopAsyncIteration *)
Example tee_example :
  let ops := [TNext 0; TNext 1; TNext 2; TResume 0; TResume 0; TResume 1; TResume 2;
              TNext 1; TNext 0; TResume 1; TResume 1; TResume 0; TNext 2; TResume 2;
              TNext 2; TNext 1; TNext 0; TResume 2; TResume 2; TResume 1; TResume 0;
              TResume 2; TResume 1; TResume 0] in
  let s := trun 0 [7; 8]%Z 3 ops in
  (tseen s 0, tseen s 1, tseen s 2) = ([7; 8], [7; 8], [7; 8])%Z /\
  (tstopped s 0, tstopped s 1, tstopped s 2) = (true, true, true) /\
  tpolled s = [CVal 7; CVal 8; CEnd]%Z.
Proof. vm_compute. auto. Qed.

(* C08 for tee: every __anext__ call on a tee iterator suspends at least once - in one of the logged checkpoint
   functions or inside Lock.acquire - except a StopAsyncIteration delivered to a consumer that was already given
   an element (whose earlier calls did). *)
Theorem tee_next_checkpoints : forall s c s' r ev, tstep s (TNext c) = (s', r, ev) -> r <> TRejected ->
  (r = TBlocked /\ (passes_ck ev = true \/ tphase s' c = TLockYield \/ tphase s' c = TLockWait)) \/
  (r = TStop /\ tyielded s c = true).
Proof.
  intros s c s' r ev H Hr. apply tstep_inv in H as (s1 & E & ->).
  apply step0_local in E as [_ L]. exact (lstep_next _ _ _ _ _ L eq_refl Hr).
Qed.

Lemma finish_not_rejected s c had : tcells s (tlink s c) <> None -> snd (fst (t_finish s c had)) <> TRejected.
Proof.
  intros H. unfold t_finish. destruct (tcells s (tlink s c)) as [[v|]|]; [destruct had|destruct (tyielded s c)|];
    cbn; congruence.
Qed.

Lemma fill_not_rejected s c x : snd (fst (t_fill s c x)) <> TRejected.
Proof.
  unfold t_fill. apply finish_not_rejected. rewrite release_eq.
  cbn. rewrite upd_same. discriminate.
Qed.

Lemma locked_not_rejected s c : snd (fst (t_locked s c)) <> TRejected.
Proof.
  unfold t_locked. destruct (tcells (t_wake s c) (tlink (t_wake s c) c)) eqn:E.
  - apply finish_not_rejected. rewrite release_eq. cbn in *. congruence.
  - destruct (tmode s) as [|[|m]]; cbn [fst snd]; try discriminate. apply fill_not_rejected.
Qed.

(* a suspended consumer can be resumed, unless it waits for a lock it has not been handed *)
Lemma resume_accepted s c : c < tn s -> tphase s c <> TIdle -> (tphase s c = TLockWait -> towner s = Some c) ->
  snd (fst (tstep s (TResume c))) <> TRejected.
Proof.
  intros Hc Hp Ho. replace (snd (fst (tstep s (TResume c)))) with (snd (fst (tstep0 s (TResume c))))
    by (unfold tstep; now destruct (tstep0 s (TResume c)) as [[s1 r] ev]).
  unfold tstep0. apply Nat.ltb_lt in Hc. rewrite Hc. cbn [negb].
  destruct (tphase s c); [congruence|apply locked_not_rejected| |apply fill_not_rejected|discriminate|discriminate].
  rewrite (Ho eq_refl). cbn. rewrite Nat.eqb_refl. apply locked_not_rejected.
Qed.

Theorem tee_no_deadlock : forall mode src n ops c,
  let s := trun mode src n ops in
  tphase s c <> TIdle -> exists c', snd (fst (tstep s (TResume c'))) <> TRejected.
Proof.
  intros mode src n ops c s Hc. destruct (run_all src mode n ops) as ([[_ HO] HF] & [Hl Hwt] & _).
  fold s in HO, HF, Hl, Hwt.
  destruct (towner s) as [o|] eqn:Eo.
  - exists o. specialize (HO o Eo).
    assert (tphase s o <> TIdle) by (intros E; now rewrite E in HO). apply resume_accepted; auto.
  - exists c. apply resume_accepted; auto. intros E. destruct (Hwt c E) as [Hi|]; [|discriminate].
    exfalso. apply Hl; [intros Z; now rewrite Z in Hi|reflexivity].
Qed.

(* for every interleaving, every number of consumers and every copy made at any point (also of an exhausted
   iterator, also copies of copies): a consumer whose traversal is complete has logged a checkpoint event of its
   own if the traversal yielded nothing, and in any case a checkpoint event or a Lock.acquire() *)
Theorem tee_consumer_checkpoints : forall mode src n ops c,
  let s := trun mode src n ops in
  tstopped s c = true ->
  (tseen s c = [] -> 1 <= tcks s c) /\ 1 <= tcks s c + tlocks s c.
Proof.
  intros mode src n ops c s Hs. destruct (run_all src mode n ops) as (_ & _ & K & _). destruct (K c) as (_ & _ & _ & K4).
  destruct (K4 Hs) as [A B]. split; [intros E; apply A; cbn; fold s; now rewrite E|exact B].
Qed.

(* non-vacuity: the only consumer of a synchronous source [7] is run to the end; then tee(it_0, 1) is called on
   the exhausted iterator.  The copy starts at link 1, yields nothing, passes its own checkpoint() (one event)
   and the source is not asked again. *)
Example tee_copy_after_exhaustion :
  let ops := [TNext 0; TResume 0; TResume 0; TNext 0; TResume 0; TResume 0;
              TCopy 0 1; TNext 1; TResume 1] in
  let s := trun 0 [7]%Z 1 ops in
  (tseen s 0, tstopped s 0) = ([7]%Z, true) /\
  tn s = 2 /\ tstart s 1 = 1 /\ (tseen s 1, tstopped s 1) = ([], true) /\ tcks s 1 = 1 /\ tlocks s 1 = 0 /\
  tpolled s = [CVal 7; CEnd]%Z /\
  snd (tstep (trun 0 [7]%Z 1 (firstn 7 ops)) (TNext 1)) = [Ck].
Proof. vm_compute. repeat split. Qed.

(* a copy of an advanced consumer sees the rest *)
Example tee_copy_of_advanced :
  let ops := [TNext 0; TResume 0; TResume 0; TCopy 0 2; TNext 1; TResume 1; TNext 2; TResume 1; TResume 2;
              TNext 1; TResume 1; TResume 1; TNext 2] in
  let s := trun 0 [7; 8]%Z 1 ops in
  (tstart s 1, tstart s 2) = (1, 1) /\ (tseen s 0, tseen s 1, tseen s 2) = ([7], [8], [8])%Z /\
  (tstopped s 1, tstopped s 2) = (true, true).
Proof. vm_compute. repeat split. Qed.

(* the per-consumer clause with "passes a checkpoint" = a cancellation check AND a yield: a stopped consumer whose
   traversal yielded nothing logged both; any stopped consumer logged both or went through Lock.acquire() *)
Theorem tee_consumer_passes_checkpoint : forall mode src n ops c,
  let s := trun mode src n ops in
  tstopped s c = true ->
  (tseen s c = [] -> 1 <= tchk s c /\ 1 <= tyld s c) /\
  ((1 <= tchk s c /\ 1 <= tyld s c) \/ 1 <= tlocks s c).
Proof.
  intros mode src n ops c s Hs.
  destruct (tee_consumer_checkpoints mode src n ops c Hs) as [A B]. fold s in A, B.
  destruct (run_all src mode n ops) as (_ & _ & _ & P). specialize (P c). fold s in P.
  split; [intros E; apply P, A, E|].
  destruct (Nat.eq_dec (tcks s c) 0) as [Z|Z]; [right; lia|left; apply P; lia].
Qed.

(* the counters are what the segments logged *)
Theorem tee_checks_yields_logged : forall s o s' r ev, tstep s o = (s', r, ev) ->
  match o with
  | TCopy _ _ => True
  | _ => tchk s' (op_consumer o) = tchk s (op_consumer o) + count_check ev /\
         tyld s' (op_consumer o) = tyld s (op_consumer o) + count_yield ev
  end.
Proof.
  intros s o s' r ev H. apply tstep_inv in H as (s1 & E & ->).
  pose proof (step0_local _ _ _ _ _ E) as L. destruct o as [c|c|c k]; [| |exact I].
  all: destruct L as [A _]; cbn; now rewrite (a_chk _ _ _ A), (a_yld _ _ _ A), !upd_same.
Qed.

Example tee_copy_after_exhaustion_checks :
  let ops := [TNext 0; TResume 0; TResume 0; TNext 0; TResume 0; TResume 0; TCopy 0 1; TNext 1; TResume 1] in
  let s := trun 0 [7]%Z 1 ops in
  (tseen s 1, tstopped s 1) = ([], true) /\ (tchk s 1, tyld s 1) = (1, 1).
Proof. vm_compute. auto. Qed.

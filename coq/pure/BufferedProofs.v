(* Proofs about pure/Buffered.v: for ALL byte lists, ALL chunkings, ALL op sequences. *)
From AV Require Import Base Buffered.

Lemma default_max_pos : 1 <= default_max.
Proof. unfold default_max. lia. Qed.
Global Opaque default_max.

Lemma pull_none k n s : pull k n s = None -> s = [].
Proof. destruct s; [reflexivity|]. destruct k; discriminate. Qed.

Lemma pull_spec k n s p r : pull k n s = Some (p, r) -> concat s = p ++ concat r.
Proof.
  destruct s as [|c t]; [discriminate|]. destruct k; cbn [pull]; intros H.
  - injection H as <- <-. cbn [concat]. destruct (skipn n c) as [|q0 q] eqn:E.
    + transitivity ((firstn n c ++ skipn n c) ++ concat t); [now rewrite firstn_skipn|].
      rewrite E, app_nil_r. reflexivity.
    + cbn [concat]. rewrite <- E, app_assoc, firstn_skipn. reflexivity.
  - injection H as <- <-. reflexivity.
Qed.

Lemma pull_measure k n s p r : pull k n s = Some (p, r) -> 1 <= n -> measure r < measure s.
Proof.
  destruct s as [|c t]; [discriminate|]. unfold measure. destruct k; cbn [pull]; intros H Hn; injection H as _ <-.
  - destruct (skipn n c) as [|q0 q] eqn:E; cbn [length concat]; rewrite ?app_length.
    + lia.
    + assert (L : length (q0 :: q) = length c - n) by (rewrite <- E; apply skipn_length).
      cbn [length] in L |- *. lia.
  - cbn [length concat]. rewrite app_length. lia.
Qed.

(* a byte stream whose next piece fits the request hands it out whole: every behaviour of a contract-honouring byte
   stream is therefore a chunk list *)
Lemma pull_byte_fits n c r : length c <= n -> pull KByte n (c :: r) = Some (c, r).
Proof.
  intros H. cbn [pull]. rewrite firstn_all2 by exact H. rewrite skipn_all2 by exact H. reflexivity.
Qed.

Lemma pull_byte_bound n s p r : pull KByte n s = Some (p, r) -> length p <= n.
Proof.
  destruct s as [|c t]; [discriminate|]. cbn [pull]. intros H. injection H as <- _. apply firstn_le_length.
Qed.

Lemma pull_nonempty k n s p r : chunks_nonempty s -> 1 <= n -> pull k n s = Some (p, r) ->
  p <> [] /\ chunks_nonempty r.
Proof.
  destruct s as [|c t]; [discriminate|]. intros Hs Hn. assert (Hc : c <> []) by (apply Hs; now left).
  assert (Ht : chunks_nonempty t) by (intros x Hx; apply Hs; now right).
  destruct k; cbn [pull]; intros H; injection H as <- <-.
  - split.
    + destruct c as [|x c]; [congruence|]. destruct n; [lia|]. discriminate.
    + destruct (skipn n c) as [|q0 q] eqn:E; [exact Ht|].
      intros x [<-|Hx]; [discriminate|now apply Ht].
  - split; assumption.
Qed.

(* bytearray.find *)

Lemma prefixb_spec d : forall l, prefixb d l = true <-> exists post, l = d ++ post.
Proof.
  induction d as [|x d IH]; intros l; cbn [prefixb].
  - split; [intros _; exists l; reflexivity | reflexivity].
  - destruct l as [|y l].
    + split; [discriminate | intros [post H]; discriminate].
    + rewrite andb_true_iff, Z.eqb_eq, IH. split.
      * intros [-> [post ->]]. exists post. reflexivity.
      * intros [post H]. cbn [app] in H. injection H as -> ->. split; [reflexivity | exists post; reflexivity].
Qed.

Lemma occurs_at_len d l k : occurs_at d l k -> k + length d <= length l.
Proof. intros (pre & post & -> & <-). rewrite !app_length. lia. Qed.

Lemma occurs_at_0 d l : occurs_at d l 0 <-> prefixb d l = true.
Proof.
  rewrite prefixb_spec. split.
  - intros (pre & post & E & L). destruct pre; [|discriminate]. exists post. exact E.
  - intros (post & E). exists [], post. split; [exact E|reflexivity].
Qed.

Lemma occurs_at_S d x l k : occurs_at d (x :: l) (S k) <-> occurs_at d l k.
Proof.
  split.
  - intros (pre & post & E & L). destruct pre as [|y pre]; [discriminate|]. cbn [app] in E.
    injection E as _ E. exists pre, post. split; [exact E| cbn in L; lia].
  - intros (pre & post & E & L). exists (x :: pre), post. split; [cbn; now rewrite E | cbn; lia].
Qed.

Lemma find_at_spec d : forall l i,
  match find_at d l i with
  | Some j => exists k, j = i + k /\ occurs_at d l k /\ forall k', k' < k -> ~ occurs_at d l k'
  | None => forall k, ~ occurs_at d l k
  end.
Proof.
  induction l as [|x l IH]; intros i; cbn [find_at].
  - destruct (prefixb d []) eqn:P.
    + exists 0. split; [lia|]. split; [now apply occurs_at_0|]. intros k' Hk; lia.
    + intros k Hk. pose proof (occurs_at_len _ _ _ Hk) as Hl. cbn in Hl.
      assert (k = 0) by lia. subst k. apply occurs_at_0 in Hk. congruence.
  - destruct (prefixb d (x :: l)) eqn:P.
    + exists 0. split; [lia|]. split; [now apply occurs_at_0|]. intros k' Hk; lia.
    + specialize (IH (S i)). destruct (find_at d l (S i)) as [j|].
      * destruct IH as (k & -> & Ho & Hf). exists (S k). split; [lia|]. split; [now apply occurs_at_S|].
        intros k' Hk. destruct k' as [|k'].
        -- rewrite occurs_at_0. congruence.
        -- rewrite occurs_at_S. apply Hf. lia.
      * intros k. destruct k as [|k].
        -- rewrite occurs_at_0. congruence.
        -- rewrite occurs_at_S. apply IH.
Qed.

Lemma occurs_at_skipn d l off k : off <= length l -> occurs_at d (skipn off l) k -> occurs_at d l (off + k).
Proof.
  intros Hl (pre & post & E & L). exists (firstn off l ++ pre), post. split.
  - rewrite <- app_assoc, <- E. symmetry. apply firstn_skipn.
  - rewrite app_length, firstn_length. lia.
Qed.

Lemma occurs_at_skipn_inv d l off k : occurs_at d l (off + k) -> occurs_at d (skipn off l) k.
Proof.
  intros (pre & post & E & L). exists (skipn off pre), post. split.
  - rewrite E. rewrite skipn_app. replace (off - length pre) with 0 by lia. reflexivity.
  - rewrite skipn_length. lia.
Qed.

Lemma find_from_some d off l j : find_from d off l = Some j ->
  off <= j /\ occurs_at d l j /\ forall k, off <= k < j -> ~ occurs_at d l k.
Proof.
  unfold find_from. destruct (length l <? off) eqn:E; [discriminate|]. apply Nat.ltb_ge in E.
  intros H. pose proof (find_at_spec d (skipn off l) off) as S. rewrite H in S.
  destruct S as (k & -> & Ho & Hf). split; [lia|]. split.
  - now apply occurs_at_skipn.
  - intros k' Hk Hocc. apply (Hf (k' - off)); [lia|]. apply occurs_at_skipn_inv.
    replace (off + (k' - off)) with k' by lia. exact Hocc.
Qed.

Lemma find_from_none d off l : find_from d off l = None -> forall k, off <= k -> ~ occurs_at d l k.
Proof.
  unfold find_from. destruct (length l <? off) eqn:E.
  - apply Nat.ltb_lt in E. intros _ k Hk Hocc. apply occurs_at_len in Hocc. lia.
  - intros H k Hk Hocc. pose proof (find_at_spec d (skipn off l) off) as S. rewrite H in S.
    apply (S (k - off)). apply occurs_at_skipn_inv. replace (off + (k - off)) with k by lia. exact Hocc.
Qed.

Lemma app_eq_prefix {A} (c : list A) : forall a b e, a ++ b = c ++ e -> length c <= length a -> exists t, a = c ++ t.
Proof.
  induction c as [|x c IH]; intros a b e H L.
  - exists a. reflexivity.
  - destruct a as [|y a]; [cbn in L; lia|]. cbn [app] in H. injection H as -> H. cbn in L.
    destruct (IH a b e H ltac:(lia)) as [t ->]. exists t. reflexivity.
Qed.

(* an occurrence that ends inside the old part is an occurrence in the old part *)
Lemma occurs_at_app_l d old data k : occurs_at d (old ++ data) k -> k + length d <= length old -> occurs_at d old k.
Proof.
  intros (pre & post & E & L) H.
  assert (E' : old ++ data = (pre ++ d) ++ post) by (rewrite <- app_assoc; exact E).
  destruct (app_eq_prefix (pre ++ d) old data post E') as [t Ht]. { rewrite app_length. lia. }
  exists pre, t. split; [rewrite Ht, <- app_assoc; reflexivity | exact L].
Qed.

Lemma occurs_at_app_r d l ext k : occurs_at d l k -> occurs_at d (l ++ ext) k.
Proof.
  intros (pre & post & -> & L). exists pre, (post ++ ext). split; [now rewrite <- !app_assoc | exact L].
Qed.

(* THE SEARCH-OFFSET LEMMA: after appending new data to a buffer that does not contain the delimiter, every
   occurrence starts at or after max(|old| - |d| + 1, 0); restarting the search there misses nothing *)
Theorem search_offset_complete d old data k :
  (forall j, ~ occurs_at d old j) -> k < length old + 1 - length d -> ~ occurs_at d (old ++ data) k.
Proof.
  intros Hno Hk Hocc. apply (Hno k). apply (occurs_at_app_l d old data k Hocc). lia.
Qed.

Lemma find_from_offset d off l :
  (forall j, j < off -> ~ occurs_at d l j) -> find_from d off l = find_from d 0 l.
Proof.
  intros Hinv.
  destruct (find_from d off l) as [i|] eqn:F; destruct (find_from d 0 l) as [i'|] eqn:F0.
  - destruct (find_from_some _ _ _ _ F) as (H1 & H2 & H3).
    destruct (find_from_some _ _ _ _ F0) as (H1' & H2' & H3').
    f_equal. destruct (Nat.lt_trichotomy i i') as [Hlt|[->|Hgt]]; [|reflexivity|].
    + exfalso. apply (H3' i); [lia|exact H2].
    + exfalso. destruct (Nat.lt_ge_cases i' off) as [Ho|Ho].
      * apply (Hinv i' Ho H2').
      * apply (H3 i'); [lia|exact H2'].
  - exfalso. destruct (find_from_some _ _ _ _ F) as (H1 & H2 & H3).
    apply (find_from_none _ _ _ F0 i); [lia|exact H2].
  - exfalso. destruct (find_from_some _ _ _ _ F0) as (H1' & H2' & H3').
    destruct (Nat.lt_ge_cases i' off) as [Ho|Ho].
    + apply (Hinv i' Ho H2').
    + apply (find_from_none _ _ _ F i' Ho H2').
  - reflexivity.
Qed.

Lemma hit_pred_0 : hit 0 = false /\ pred 0 = 0.
Proof. split; reflexivity. Qed.

Lemma feeds_step (acc : list Z) fs j :
  (acc ++ hd [] fs) ++ concat (firstn j (tl fs)) = acc ++ concat (firstn (S j) fs).
Proof.
  destruct fs as [|f r]; cbn [hd tl firstn concat].
  - rewrite firstn_nil. cbn. now rewrite !app_nil_r.
  - now rewrite <- app_assoc.
Qed.

Lemma hd_firstn1 (fs : list (list Z)) : hd [] fs = concat (firstn 1 fs).
Proof. destruct fs as [|f r]; cbn; [reflexivity|now rewrite app_nil_r]. Qed.

Lemma hit_nonzero cn : hit cn = true -> cn <> 0.
Proof. intros H ->. discriminate H. Qed.

Lemma skip_empty_spec l : forall cn fs acc,
  match skip_empty cn l fs acc with
  | FGot c r fed => c <> [] /\ concat l = c ++ concat r /\ (forall x, In x r -> In x l) /\
                    exists j, fed = acc ++ concat (firstn j fs)
  | FEnd fed => concat l = [] /\ exists j, fed = acc ++ concat (firstn j fs)
  | FCancel r fed => concat l = concat r /\ (forall x, In x r -> In x l) /\ cn <> 0 /\
                     exists j, fed = acc ++ concat (firstn j fs)
  end.
Proof.
  induction l as [|c0 r0 IH]; intros cn fs acc; cbn [skip_empty]; destruct (hit cn) eqn:Hcn.
  - refine (conj eq_refl (conj (fun x h => h) (conj (hit_nonzero _ Hcn) _))). exists 0. cbn. now rewrite app_nil_r.
  - split; [reflexivity|]. exists 1. now rewrite hd_firstn1.
  - refine (conj eq_refl (conj (fun x h => h) (conj (hit_nonzero _ Hcn) _))). exists 0. cbn. now rewrite app_nil_r.
  - destruct c0 as [|x c0].
    + specialize (IH (pred cn) (tl fs) (acc ++ hd [] fs)).
      destruct (skip_empty (pred cn) r0 (tl fs) (acc ++ hd [] fs)) as [c r fed|fed|r fed].
      * destruct IH as (H1 & H2 & H3 & j & H4). refine (conj H1 (conj H2 (conj _ _))).
        -- intros y Hy. right. apply H3, Hy.
        -- exists (S j). rewrite H4. apply feeds_step.
      * destruct IH as (H2 & j & H4). refine (conj H2 _). exists (S j). rewrite H4. apply feeds_step.
      * destruct IH as (H2 & H3 & Hc & j & H4). refine (conj H2 (conj _ (conj _ _))).
        -- intros y Hy. right. apply H3, Hy.
        -- intros ->. exact (Hc eq_refl).
        -- exists (S j). rewrite H4. apply feeds_step.
    + refine (conj _ (conj eq_refl (conj _ _))); [discriminate| |].
      * intros y Hy. now right.
      * exists 1. now rewrite hd_firstn1.
Qed.

Lemma fetch_arrivals_nofeed k : forall kd sr,
  fetch_arrivals k kd sr [] ++ concat (fetch_rest k kd sr) = concat sr.
Proof.
  induction k as [|k IH]; intros kd sr; cbn [fetch_arrivals fetch_rest hd tl app]; [reflexivity|].
  destruct (pull kd default_max sr) as [[c r]|] eqn:P.
  - rewrite <- app_assoc, IH. symmetry. apply (pull_spec _ _ _ _ _ P).
  - reflexivity.
Qed.

Lemma fetch_rest_suffix k : forall kd sr, exists pulled, concat sr = pulled ++ concat (fetch_rest k kd sr).
Proof.
  induction k as [|k IH]; intros kd sr; cbn [fetch_rest]; [exists []; reflexivity|].
  destruct (pull kd default_max sr) as [[c r]|] eqn:P; [|exists []; reflexivity].
  destruct (IH kd r) as [q Hq]. exists (c ++ q). rewrite (pull_spec _ _ _ _ _ P), Hq, app_assoc. reflexivity.
Qed.

(* receive_until *)

(* the offset is an optimisation only: receive_until behaves exactly as if it searched the whole buffer each time,
   whatever is fed while it waits *)
Lemma until_loop_naive fuel : forall cn s d m off fs,
  (forall j, j < off -> ~ occurs_at d (buf s) j) ->
  until_loop false fuel cn s d m off fs = until_naive fuel cn s d m fs.
Proof.
  induction fuel as [|f IH]; intros cn s d m off fs Hinv; [reflexivity|].
  cbn [until_loop until_naive]. rewrite (find_from_offset d off (buf s) Hinv).
  destruct (find_from d 0 (buf s)) as [i|] eqn:F; [reflexivity|].
  destruct (m <=? Z.of_nat (length (buf s)))%Z; [reflexivity|].
  destruct (hit cn); [reflexivity|].
  destruct (pull (knd s) default_max (src s)) as [[c r0]|]; [|reflexivity].
  rewrite IH; [reflexivity|]. cbn [buf]. intros j Hj. rewrite <- app_assoc.
  apply search_offset_complete; [|exact Hj].
  intros j' Hj'. apply (find_from_none _ _ _ F j'); [lia|exact Hj'].
Qed.

Lemma until_loop_naive0 fuel cn s d m fs : until_loop false fuel cn s d m 0 fs = until_naive fuel cn s d m fs.
Proof. apply until_loop_naive. intros j Hj. lia. Qed.

Theorem until_offset_sound s d m fs : step_log s (Until d m fs) = until_naive (fuel_of s) 0 s d m fs.
Proof. apply until_loop_naive0. Qed.

(* The call made k fetches; lg = everything that arrived meanwhile (feeds and chunks, in order).  A fetch happens only
   while the buffer holds no delimiter and fewer than m bytes (third clause: the exact boundary condition). *)
Definition until_post (kd : kind) (b : list Z) (sr : list (list Z)) (d : list Z) (m : Z) (fs : list (list Z))
                      (s' : st) (r : res) (lg : list Z) : Prop :=
  exists k,
    src s' = fetch_rest k kd sr /\ lg = fetch_arrivals k kd sr fs /\
    (forall j, j < k ->
       ~ occurs d (b ++ fetch_arrivals j kd sr fs) /\
       (Z.of_nat (length (b ++ fetch_arrivals j kd sr fs)) < m)%Z) /\
    (chunks_nonempty sr -> chunks_nonempty (src s')) /\
    match r with
    | RBytes x => b ++ lg = x ++ d ++ buf s' /\ (forall j, j < length x -> ~ occurs_at d (b ++ lg) j)
    | RNotFound => buf s' = b ++ lg /\ ~ occurs d (buf s') /\ (m <= Z.of_nat (length (buf s')))%Z
    | RIncomplete => buf s' = b ++ lg /\ src s' = [] /\
                     exists k0, k = S k0 /\ lg = fetch_arrivals k0 kd sr fs ++ hd [] (skipn k0 fs)
    | RCancelled => buf s' = b ++ lg
    | _ => False
    end.

(* a call that ends without a fetch *)
Lemma until_post_0 kd b sr d m fs s' r : src s' = sr ->
  match r with
  | RBytes x => b = x ++ d ++ buf s' /\ (forall j, j < length x -> ~ occurs_at d b j)
  | RNotFound => buf s' = b /\ ~ occurs d (buf s') /\ (m <= Z.of_nat (length (buf s')))%Z
  | RCancelled => buf s' = b
  | _ => False
  end -> until_post kd b sr d m fs s' r [].
Proof.
  intros Hs H. exists 0. cbn [fetch_rest fetch_arrivals]. rewrite app_nil_r.
  refine (conj Hs (conj eq_refl (conj _ (conj _ _)))).
  - intros j Hj. lia.
  - rewrite Hs. exact (fun h => h).
  - destruct r; try exact H. destruct H.
Qed.

Lemma until_post_cons kd b c sr r0 d m fs s' r lg :
  until_post kd ((b ++ hd [] fs) ++ c) r0 d m (tl fs) s' r lg ->
  pull kd default_max sr = Some (c, r0) -> ~ occurs d b -> (Z.of_nat (length b) < m)%Z ->
  until_post kd b sr d m fs s' r (hd [] fs ++ c ++ lg).
Proof.
  intros (k & H1 & H2 & H3 & H4 & H5) P Hno Hlen.
  assert (EQ : forall X, b ++ hd [] fs ++ c ++ X = ((b ++ hd [] fs) ++ c) ++ X)
    by (intros X; now rewrite <- !app_assoc).
  exists (S k). cbn [fetch_rest fetch_arrivals]. rewrite P.
  refine (conj H1 (conj _ (conj _ (conj _ _)))).
  - rewrite H2. reflexivity.
  - intros j Hj. destruct j as [|j].
    + cbn [fetch_arrivals]. rewrite app_nil_r. split; assumption.
    + cbn [fetch_arrivals]. rewrite P, EQ. apply H3. lia.
  - intros Hs. apply H4. apply (pull_nonempty _ _ _ _ _ Hs default_max_pos P).
  - destruct r; try exact H5; rewrite ?EQ.
    + exact H5.
    + destruct H5 as (A & B & k0 & -> & C). refine (conj A (conj B _)). exists (S k0). split; [reflexivity|].
      cbn [fetch_arrivals]. rewrite P, C, <- !app_assoc.
      replace (skipn (S k0) fs) with (skipn k0 (tl fs)) by (destruct fs; [now rewrite skipn_nil|reflexivity]).
      reflexivity.
    + exact H5.
    + exact H5.
Qed.

(* third clause: only a call in a cancelled scope ends in RCancelled *)
Lemma until_naive_spec fuel : forall cn s d m fs s' r lg,
  measure (src s) < fuel ->
  until_naive fuel cn s d m fs = (s', r, lg) ->
  knd s' = knd s /\ until_post (knd s) (buf s) (src s) d m fs s' r lg /\ (r = RCancelled -> cn <> 0).
Proof.
  induction fuel as [|f IH]; intros cn s d m fs s' r lg Hm H; [lia|].
  cbn [until_naive] in H.
  destruct (find_from d 0 (buf s)) as [i|] eqn:F.
  - injection H as <- <- <-. split; [reflexivity|]. split; [|discriminate].
    apply until_post_0; [reflexivity|]. cbn [buf].
    destruct (find_from_some _ _ _ _ F) as (_ & (pre & post & E & L) & Hfirst).
    assert (F1 : firstn i (buf s) = pre).
    { rewrite E, <- L. rewrite firstn_app, Nat.sub_diag, firstn_all. cbn. now rewrite app_nil_r. }
    assert (F2 : skipn (i + length d) (buf s) = post).
    { rewrite E, app_assoc. rewrite skipn_app. rewrite skipn_all2 by (rewrite app_length; lia).
      rewrite app_length. replace (i + length d - (length pre + length d)) with 0 by lia. reflexivity. }
    rewrite F1, F2, L. split; [exact E|]. intros j Hj. apply Hfirst. lia.
  - assert (Hno : ~ occurs d (buf s)).
    { intros [k Hk]. apply (find_from_none _ _ _ F k); [lia|exact Hk]. }
    destruct (m <=? Z.of_nat (length (buf s)))%Z eqn:Em.
    { injection H as <- <- <-. split; [reflexivity|]. split; [|discriminate].
      apply until_post_0; [reflexivity|]. refine (conj eq_refl (conj Hno _)). lia. }
    destruct (hit cn) eqn:Hcn.
    { injection H as <- <- <-. split; [reflexivity|]. split; [apply until_post_0; reflexivity|].
      intros _. exact (hit_nonzero _ Hcn). }
    destruct (pull (knd s) default_max (src s)) as [[c r0]|] eqn:P.
    + destruct (until_naive f (pred cn) (mk (knd s) ((buf s ++ hd [] fs) ++ c) r0) d m (tl fs))
        as [[s1 r1] lg1] eqn:R.
      injection H as <- <- <-.
      pose proof (pull_measure _ _ _ _ _ P default_max_pos) as Hms.
      apply IH in R as (Hk & Hp & Hc); [|cbn [src]; lia].
      cbn [knd buf src] in Hk, Hp. split; [exact Hk|]. split.
      * apply (until_post_cons _ _ _ _ r0); [exact Hp | exact P | exact Hno | lia].
      * intros Hr ->. exact (Hc Hr eq_refl).
    + injection H as <- <- <-. split; [reflexivity|]. split; [|discriminate]. exists 1.
      pose proof (pull_none _ _ _ P) as Hnil.
      cbn [fetch_rest fetch_arrivals src buf]. rewrite P, !app_nil_r.
      refine (conj eq_refl (conj eq_refl (conj _ (conj (fun h => h) (conj eq_refl (conj Hnil _)))))).
      * intros k Hk. assert (k = 0) by lia. subst k. cbn [fetch_arrivals]. rewrite app_nil_r. split; [exact Hno|lia].
      * exists 0. split; reflexivity.
Qed.

Lemma until_loop_spec cn s d m fs s' r lg : until_loop false (fuel_of s) cn s d m 0 fs = (s', r, lg) ->
  knd s' = knd s /\ until_post (knd s) (buf s) (src s) d m fs s' r lg /\ (r = RCancelled -> cn <> 0).
Proof. rewrite until_loop_naive0. apply until_naive_spec. unfold fuel_of. lia. Qed.

(* receive_exactly *)

(* what arrives during a receive_exactly call, in order: for each fetch the data fed during its wait, then the chunk
   (nothing if the fetch met the end of the stream); `pulled` = what came out of the wrapped stream.
   `weave` is a sanity clause, not a characterisation: the pieces c are existential, so it says that
   the log is SOME fetch-wise interleaving of the feeds with the pulled bytes, not which one (the chunk boundaries are
   not pinned).  The log itself is computed by exactly_loop (fed data before the chunk of the same fetch, by
   definition) and is what the co-simulation compares with the events observed on the implementation. *)
Inductive weave : list (list Z) -> list Z -> list Z -> Prop :=
| weave_nil fs : weave fs [] []
| weave_end fs : weave fs [] (hd [] fs)
| weave_cons fs c pulled lg : weave (tl fs) pulled lg -> weave fs (c ++ pulled) (hd [] fs ++ c ++ lg).

Lemma weave_nofeed fs pulled lg : weave fs pulled lg -> fs = [] -> lg = pulled.
Proof.
  induction 1 as [fs|fs|fs c pulled lg W IH]; intros ->; cbn; try reflexivity.
  rewrite (IH eq_refl). reflexivity.
Qed.

Definition exactly_post (b : list Z) (sr : list (list Z)) (n : Z) (fs : list (list Z)) (s' : st) (r : res)
  (lg : list Z) : Prop :=
  (exists pulled, concat sr = pulled ++ concat (src s') /\ weave fs pulled lg) /\
  (chunks_nonempty sr -> chunks_nonempty (src s')) /\
  (lg = [] \/ (Z.of_nat (length b) < n)%Z) /\
  match r with
  | RBytes x => x = firstn (cut n (b ++ lg)) (b ++ lg) /\
                buf s' = skipn (cut n (b ++ lg)) (b ++ lg) /\
                (n <= Z.of_nat (length (b ++ lg)))%Z
  | RIncomplete => buf s' = b ++ lg /\ src s' = [] /\ (fs = [] -> (Z.of_nat (length (buf s')) < n)%Z) /\
                   (Z.of_nat (length b) < n)%Z
  | RCancelled => buf s' = b ++ lg
  | _ => False
  end.

(* third clause: only a call in a cancelled scope ends in RCancelled *)
Lemma exactly_loop_post fuel : forall cn s n fs s' r lg,
  measure (src s) < fuel ->
  exactly_loop fuel cn s n fs = (s', r, lg) ->
  knd s' = knd s /\ exactly_post (buf s) (src s) n fs s' r lg /\ (r = RCancelled -> cn <> 0).
Proof.
  induction fuel as [|f IH]; intros cn s n fs s' r lg Hm H; [lia|].
  cbn [exactly_loop] in H.
  destruct (n - Z.of_nat (length (buf s)) <=? 0)%Z eqn:E.
  - injection H as <- <- <-. split; [reflexivity|]. split; [|discriminate].
    unfold exactly_post. cbn [src buf]. rewrite !app_nil_r.
    refine (conj (ex_intro _ [] (conj eq_refl (weave_nil fs)))
              (conj (fun h => h) (conj (or_introl eq_refl) (conj eq_refl (conj eq_refl _))))). lia.
  - destruct (hit cn) eqn:Hcn.
    { injection H as <- <- <-. split; [reflexivity|]. split; [|intros _; exact (hit_nonzero _ Hcn)].
      unfold exactly_post. rewrite !app_nil_r.
      exact (conj (ex_intro _ [] (conj eq_refl (weave_nil fs))) (conj (fun h => h) (conj (or_introl eq_refl) eq_refl))). }
    set (ask := match knd s with KByte => Z.to_nat (n - Z.of_nat (length (buf s))) | KObject => default_max end) in H.
    assert (Hask : 1 <= ask).
    { unfold ask. destruct (knd s); [lia|apply default_max_pos]. }
    destruct (pull (knd s) ask (src s)) as [[c r0]|] eqn:P.
    + destruct (exactly_loop f (pred cn) (mk (knd s) ((buf s ++ hd [] fs) ++ c) r0) n (tl fs)) as [[s1 r1] lg1] eqn:R.
      injection H as <- <- <-.
      pose proof (pull_spec _ _ _ _ _ P) as Hc.
      pose proof (pull_measure _ _ _ _ _ P Hask) as Hms.
      apply IH in R as (Hk & ((pl & H1 & W) & H2 & H3 & H4) & Hcn'); [|cbn [src]; lia].
      cbn [buf src knd] in Hk, H1, H2, H3, H4.
      split; [exact Hk|]. split; [|intros Hr ->; exact (Hcn' Hr eq_refl)]. unfold exactly_post.
      refine (conj _ (conj _ (conj _ _))).
      * exists (c ++ pl). split; [rewrite Hc, H1, app_assoc; reflexivity | now apply weave_cons].
      * intros Hs. apply H2. apply (pull_nonempty _ _ _ _ _ Hs Hask P).
      * right. lia.
      * rewrite <- ?app_assoc in H4. rewrite <- ?app_assoc.
        destruct r1; try exact H4. destruct H4 as (A & B & C & D). refine (conj A (conj B (conj _ _))).
        -- intros ->. apply C. reflexivity.
        -- rewrite !app_length in D. lia.
    + injection H as <- <- <-. split; [reflexivity|]. split; [|discriminate]. apply pull_none in P.
      unfold exactly_post. cbn [buf src].
      refine (conj (ex_intro _ [] (conj eq_refl (weave_end fs)))
                (conj (fun h => h) (conj _ (conj eq_refl (conj P (conj _ _)))))); [right; lia| |lia].
      intros ->. cbn [hd]. rewrite app_nil_r. lia.
Qed.

Lemma exactly_loop_spec fuel : forall cn s n fs s' r lg,
  measure (src s) < fuel ->
  exactly_loop fuel cn s n fs = (s', r, lg) ->
  knd s' = knd s /\ exactly_post (buf s) (src s) n fs s' r lg.
Proof. intros cn s n fs s' r lg Hm H. destruct (exactly_loop_post _ _ _ _ _ _ _ _ Hm H) as (A & B & _). exact (conj A B). Qed.

Lemma cut_nonneg n l : (0 <= n)%Z -> cut n l = Z.to_nat n.
Proof. intros H. unfold cut. destruct (0 <=? n)%Z eqn:E; [reflexivity|lia]. Qed.

(* receive_exactly(n), 0 <= n, outside a cancelled scope: exactly_post without its RCancelled row and with the
   Python slice bound resolved *)
Lemma exactly_nonneg s n fs s' r lg : (0 <= n)%Z -> step_log s (Exactly n fs) = (s', r, lg) ->
  (exists pulled, concat (src s) = pulled ++ concat (src s') /\ weave fs pulled lg) /\
  match r with
  | RBytes x => x = firstn (Z.to_nat n) (buf s ++ lg) /\ buf s' = skipn (Z.to_nat n) (buf s ++ lg) /\
                (n <= Z.of_nat (length (buf s ++ lg)))%Z
  | RIncomplete => buf s' = buf s ++ lg /\ src s' = [] /\ (fs = [] -> (Z.of_nat (length (buf s')) < n)%Z) /\
                   (Z.of_nat (length (buf s)) < n)%Z
  | _ => False
  end.
Proof.
  intros Hn. unfold step_log. cbn [step_gen]. unfold do_exactly. cbn [negb andb].
  destruct (n <? 0)%Z eqn:E; [lia|]. intros L.
  apply exactly_loop_post in L as (_ & (HP & _ & _ & H4) & NC); [|unfold fuel_of; lia].
  split; [exact HP|]. destruct r; try exact H4.
  - rewrite !cut_nonneg in H4 by exact Hn. exact H4.
  - destruct (NC eq_refl eq_refl).
Qed.

(* receive *)

(* receive(n), 1 <= n.  Served from the buffer if there is one; otherwise the call waits for one item of the wrapped
   stream (empty items of an object stream skipped) through j fetches: it hands out the head of the item, keeps the
   rest in FRONT of what was fed during the j waits. *)
Definition receive_post (cn : nat) (s : st) (n : Z) (fs : list (list Z)) (s' : st) (r : res) (lg : list Z) : Prop :=
  knd s' = knd s /\ (chunks_nonempty (src s) -> chunks_nonempty (src s')) /\
  exists item j,
    lg = item ++ concat (firstn j fs) /\ concat (src s) = item ++ concat (src s') /\
    match r with
    | RBytes x =>
        match buf s with
        | _ :: _ => x = firstn (Z.to_nat n) (buf s) /\ buf s' = skipn (Z.to_nat n) (buf s) /\ src s' = src s /\ lg = []
        | [] => x = firstn (Z.to_nat n) item /\ buf s' = skipn (Z.to_nat n) item ++ concat (firstn j fs) /\
                ((knd s = KByte -> chunks_nonempty (src s)) -> item <> [])
        end
    | REnd => buf s = [] /\ item = [] /\ src s' = [] /\ buf s' = lg
    | RCancelled => buf s = [] /\ item = [] /\ buf s' = lg /\ cn <> 0
    | _ => False
    end.

Lemma receive_spec cn s n fs s' r lg : (1 <= n)%Z -> do_receive false cn s n fs = (s', r, lg) ->
  receive_post cn s n fs s' r lg.
Proof.
  intros Hn. unfold do_receive, receive_post. destruct (n <? 1)%Z eqn:E; [lia|].
  destruct (buf s) as [|b0 b] eqn:Eb.
  - destruct (knd s) eqn:Ek.
    + destruct (hit cn) eqn:Hcn.
      { intros [= <- <- <-]. refine (conj Ek (conj (fun h => h) _)). exists [], 0.
        repeat split; [exact Eb|exact (hit_nonzero _ Hcn)]. }
      assert (Hn1 : 1 <= Z.to_nat n) by lia.
      destruct (pull KByte (Z.to_nat n) (src s)) as [[c r0]|] eqn:P; intros [= <- <- <-]; cbn [knd buf src app].
      * pose proof (pull_byte_bound _ _ _ _ P) as Hb.
        split; [reflexivity|]. split; [intros Hs; apply (pull_nonempty _ _ _ _ _ Hs Hn1 P)|].
        exists c, 1. rewrite <- hd_firstn1. refine (conj eq_refl (conj (pull_spec _ _ _ _ _ P) (conj _ (conj _ _)))).
        -- symmetry. apply firstn_all2, Hb.
        -- rewrite skipn_all2 by exact Hb. reflexivity.
        -- intros Hs. exact (proj1 (pull_nonempty _ _ _ _ _ (Hs eq_refl) Hn1 P)).
      * apply pull_none in P. split; [reflexivity|]. split; [exact (fun h => h)|].
        exists [], 1. rewrite <- hd_firstn1, P. repeat split.
    + pose proof (skip_empty_spec (src s) cn fs []) as S. cbn [negb app] in S |- *.
      destruct (skip_empty cn (src s) fs []) as [c r0 fed|fed|r0 fed].
      * destruct S as (Hc0 & Hc & Hin & j & ->).
        assert (Hne : chunks_nonempty (src s) -> chunks_nonempty r0) by (intros Hs x Hx; apply Hs, Hin, Hx).
        destruct (n <? Z.of_nat (length c))%Z eqn:En; intros [= <- <- <-]; cbn [knd buf src];
          (split; [reflexivity|]); (split; [exact Hne|]); exists c, j; repeat split; try assumption;
          try (intros _; exact Hc0).
        -- symmetry. apply firstn_all2. lia.
        -- rewrite skipn_all2 by lia. reflexivity.
      * destruct S as (Hc & j & ->). intros [= <- <- <-]. cbn [knd buf src].
        split; [reflexivity|]. split; [intros _ x []|]. exists [], j. repeat split. exact Hc.
      * destruct S as (Hc & Hin & Hcn & j & ->). intros [= <- <- <-]. cbn [knd buf src].
        split; [reflexivity|]. split; [intros Hs x Hx; apply Hs, Hin, Hx|]. exists [], j. repeat split; assumption.
  - intros [= <- <- <-]. cbn [knd buf src]. refine (conj eq_refl (conj (fun h => h) _)). exists [], 0. repeat split.
Qed.

Definition log_spec (s : st) (o : op) (s' : st) (lg : list Z) : Prop :=
  match o with
  | Feed d => lg = d /\ src s' = src s
  | Until d m fs | CUntil _ d m fs =>
      exists k, src s' = fetch_rest k (knd s) (src s) /\ lg = fetch_arrivals k (knd s) (src s) fs
  | Receive n fs | CReceive _ n fs =>
      (* the item the call was waiting for, then what was fed during its j fetches *)
      exists item j, lg = item ++ concat (firstn j fs) /\ concat (src s) = item ++ concat (src s')
  | Exactly n fs | CExactly _ n fs =>
      exists pulled, concat (src s) = pulled ++ concat (src s') /\ weave fs pulled lg
  end.

Definition conserve (s : st) (consumed : list Z) (s' : st) (r : res) (lg : list Z) : Prop :=
  knd s' = knd s /\ r <> RFuel /\
  (chunks_nonempty (src s) -> chunks_nonempty (src s')) /\
  buf s ++ lg = consumed ++ buf s' /\
  (exists pulled, concat (src s) = pulled ++ concat (src s')).

Lemma conserve_same s r : r <> RFuel -> conserve s [] s r [].
Proof.
  intros Hr. refine (conj eq_refl (conj Hr (conj (fun h => h) (conj _ _)))).
  - now rewrite app_nil_r.
  - exists []. reflexivity.
Qed.

Lemma receive_conservation cn s n fs s' r lg : do_receive false cn s n fs = (s', r, lg) ->
  conserve s (consumed_of (Receive n fs) r) s' r lg /\
  exists item j, lg = item ++ concat (firstn j fs) /\ concat (src s) = item ++ concat (src s').
Proof.
  intros H. destruct (Z.ltb_spec n 1) as [Hn|Hn].
  { unfold do_receive in H. rewrite (proj2 (Z.ltb_lt n 1) Hn) in H. injection H as <- <- <-.
    split; [apply conserve_same; discriminate|]. exists [], 0. split; reflexivity. }
  destruct (receive_spec _ _ _ _ _ _ _ Hn H) as (Hk & Hs & item & j & Hlg & Hc & Hr).
  split; [|exists item, j; split; assumption].
  refine (conj Hk (conj _ (conj Hs (conj _ (ex_intro _ item Hc))))).
  - intros ->. exact Hr.
  - destruct r; try contradiction; cbn [consumed_of].
    + rewrite app_nil_r. destruct (buf s) as [|b0 b'].
      * destruct Hr as (-> & -> & _). cbn [app]. rewrite app_assoc, firstn_skipn. exact Hlg.
      * destruct Hr as (-> & -> & _ & ->). rewrite app_nil_r, firstn_skipn. reflexivity.
    + destruct Hr as (-> & _ & _ & ->). reflexivity.
    + destruct Hr as (-> & _ & -> & _). reflexivity.
Qed.

Lemma exactly_conservation cn s n fs s' r lg : do_exactly false cn s n fs = (s', r, lg) ->
  conserve s (consumed_of (Exactly n fs) r) s' r lg /\
  exists pulled, concat (src s) = pulled ++ concat (src s') /\ weave fs pulled lg.
Proof.
  unfold do_exactly. cbn [negb andb]. intros H. destruct (n <? 0)%Z eqn:En.
  { injection H as <- <- <-. split; [apply conserve_same; discriminate|]. exists []. split; [reflexivity|constructor]. }
  destruct (exactly_loop_spec (fuel_of s) cn s n fs s' r lg) as (Hk & (pl & H1 & W) & H2 & H3 & H4);
    [unfold fuel_of; lia | exact H |].
  split; [|exists pl; split; assumption].
  refine (conj Hk (conj _ (conj H2 (conj _ _)))).
  - intros ->. exact H4.
  - destruct r; try contradiction; cbn [consumed_of].
    + destruct H4 as (-> & -> & _). rewrite app_nil_r, firstn_skipn. reflexivity.
    + destruct H4 as (-> & _). reflexivity.
    + rewrite H4. reflexivity.
  - exists pl. exact H1.
Qed.

Lemma until_conservation cn s d m fs s' r lg :
  until_loop false (fuel_of s) cn s d m 0 fs = (s', r, lg) ->
  conserve s (consumed_of (Until d m fs) r) s' r lg /\
  exists k, src s' = fetch_rest k (knd s) (src s) /\ lg = fetch_arrivals k (knd s) (src s) fs.
Proof.
  intros H. destruct (until_loop_spec _ _ _ _ _ _ _ _ H) as (Hk & (k & H1 & H2 & H3 & H4 & H5) & _).
  split; [|exists k; split; assumption].
  refine (conj Hk (conj _ (conj H4 (conj _ _)))).
  - intros ->. exact H5.
  - destruct r; try contradiction; cbn [consumed_of].
    + destruct H5 as (-> & _). now rewrite <- app_assoc.
    + destruct H5 as (-> & _). reflexivity.
    + destruct H5 as (-> & _). reflexivity.
    + rewrite H5. reflexivity.
  - rewrite H1. apply fetch_rest_suffix.
Qed.

Theorem step_conservation s o s' r lg : step_log s o = (s', r, lg) ->
  knd s' = knd s /\ r <> RFuel /\
  (chunks_nonempty (src s) -> chunks_nonempty (src s')) /\
  buf s ++ lg = consumed_of o r ++ buf s' /\
  (exists pulled, concat (src s) = pulled ++ concat (src s')) /\
  log_spec s o s' lg.
Proof.
  assert (Flat : forall c, conserve s c s' r lg /\ log_spec s o s' lg ->
                 knd s' = knd s /\ r <> RFuel /\ (chunks_nonempty (src s) -> chunks_nonempty (src s')) /\
                 buf s ++ lg = c ++ buf s' /\ (exists pulled, concat (src s) = pulled ++ concat (src s')) /\
                 log_spec s o s' lg).
  { intros c [(A & B & C & D & E) L]. exact (conj A (conj B (conj C (conj D (conj E L))))). }
  unfold step_log. destruct o as [n fs|n fs|d m fs|d|[|k] n fs|[|k] n fs|[|k] d m fs]; cbn [step_gen]; intros H.
  - exact (Flat _ (receive_conservation _ _ _ _ _ _ _ H)).
  - exact (Flat _ (exactly_conservation _ _ _ _ _ _ _ H)).
  - exact (Flat _ (until_conservation _ _ _ _ _ _ _ _ H)).
  - injection H as <- <- <-. apply (Flat []). split; [|split; reflexivity].
    refine (conj eq_refl (conj _ (conj (fun h => h) (conj eq_refl _)))); [discriminate|exists []; reflexivity].
  - injection H as <- <- <-. apply (Flat []). split; [apply conserve_same; discriminate|]. exists [], 0. split; reflexivity.
  - exact (Flat _ (receive_conservation _ _ _ _ _ _ _ H)).
  - injection H as <- <- <-. apply (Flat []). split; [apply conserve_same; discriminate|].
    exists []. split; [reflexivity|constructor].
  - exact (Flat _ (exactly_conservation _ _ _ _ _ _ _ H)).
  - injection H as <- <- <-. apply (Flat []). split; [apply conserve_same; discriminate|]. exists 0. split; reflexivity.
  - exact (Flat _ (until_conservation _ _ _ _ _ _ _ _ H)).
Qed.

Theorem step_never_out_of_fuel s o : snd (step s o) <> RFuel.
Proof.
  unfold step. destruct (step_log s o) as [[s' r] lg] eqn:E. apply (step_conservation _ _ _ _ _ E).
Qed.

Lemma final_cons s o r : final step s (o :: r) = final step (fst (fst (step_log s o))) r.
Proof. reflexivity. Qed.

(* C16 clause 1: bytes handed out (plus delimiters consumed), followed by the buffer, are exactly the bytes that
   arrived (fed between or during calls, read from the wrapped stream) in arrival order: nothing dropped, duplicated
   or reordered *)
Theorem buf_conservation : forall ops s,
  buf s ++ arrived_run s ops = consumed_run s ops ++ buf (final step s ops).
Proof.
  induction ops as [|o r IH]; intros s.
  - cbn. now rewrite app_nil_r.
  - rewrite final_cons. cbn [arrived_run consumed_run]. destruct (step_log s o) as [[s1 out] lg] eqn:E. cbn [fst].
    destruct (step_conservation _ _ _ _ _ E) as (_ & _ & _ & Hb & _).
    rewrite app_assoc, Hb, <- !app_assoc. f_equal. apply IH.
Qed.

(* what one step preserves of the state *)
Lemma step_state s o :
  knd (fst (step s o)) = knd s /\
  (chunks_nonempty (src s) -> chunks_nonempty (src (fst (step s o)))) /\
  exists pulled, concat (src s) = pulled ++ concat (src (fst (step s o))).
Proof.
  unfold step. destruct (step_log s o) as [[s' r] lg] eqn:E.
  destruct (step_conservation _ _ _ _ _ E) as (A & _ & B & _ & C & _). exact (conj A (conj B C)).
Qed.

(* the wrapped stream is only ever read from the front *)
Theorem buf_source_order : forall ops s,
  exists pulled, pulled ++ concat (src (final step s ops)) = concat (src s).
Proof.
  intros ops s. apply (final_inv step (fun s' => exists pulled, pulled ++ concat (src s') = concat (src s))).
  - intros s1 o [p1 Hp]. destruct (step_state s1 o) as (_ & _ & p2 & Hp2).
    exists (p1 ++ p2). rewrite <- app_assoc, <- Hp2. exact Hp.
  - exists []. reflexivity.
Qed.

Theorem kind_constant ops : forall s, knd (final step s ops) = knd s.
Proof.
  intros s. apply (final_inv step (fun s' => knd s' = knd s)); [|reflexivity].
  intros s1 o <-. apply step_state.
Qed.

Theorem chunks_nonempty_invariant ops : forall s,
  chunks_nonempty (src s) -> chunks_nonempty (src (final step s ops)).
Proof. apply (final_inv step (fun s => chunks_nonempty (src s))). intros s o. apply step_state. Qed.

Lemma log_no_feed s o s' lg : no_feed o = true -> log_spec s o s' lg -> lg ++ concat (src s') = concat (src s).
Proof.
  unfold log_spec. destruct o as [n fs|n fs|d m fs|d|c n fs|c n fs|c d m fs]; cbn [no_feed];
    try discriminate; (destruct fs; [|discriminate]); intros _.
  - intros (item & j & -> & ->). rewrite firstn_nil. cbn. now rewrite app_nil_r.
  - intros (pl & -> & W). now rewrite (weave_nofeed _ _ _ W eq_refl).
  - intros (k & -> & ->). apply fetch_arrivals_nofeed.
  - intros (item & j & -> & ->). rewrite firstn_nil. cbn. now rewrite app_nil_r.
  - intros (pl & -> & W). now rewrite (weave_nofeed _ _ _ W eq_refl).
  - intros (k & -> & ->). apply fetch_arrivals_nofeed.
Qed.

Lemma arrived_no_feed : forall ops s,
  forallb no_feed ops = true -> arrived_run s ops ++ concat (src (final step s ops)) = concat (src s).
Proof.
  induction ops as [|o r IH]; intros s H; [reflexivity|].
  cbn [forallb] in H. apply andb_true_iff in H as [Ho Hr].
  rewrite final_cons. cbn [arrived_run]. destruct (step_log s o) as [[s1 out] lg] eqn:E. cbn [fst].
  destruct (step_conservation _ _ _ _ _ E) as (_ & _ & _ & _ & _ & Hl).
  rewrite <- app_assoc, (IH s1 Hr). apply (log_no_feed _ _ _ _ Ho Hl).
Qed.

(* without feed_data the whole stream is constant: handed out ++ buffer ++ still in the wrapped stream *)
Theorem buf_conservation_total ops s :
  forallb no_feed ops = true ->
  consumed_run s ops ++ buf (final step s ops) ++ concat (src (final step s ops)) = buf s ++ concat (src s).
Proof.
  intros H. rewrite app_assoc, <- buf_conservation, <- app_assoc, (arrived_no_feed _ _ H). reflexivity.
Qed.

(* a call that fails hands out nothing; whatever arrived during it (read or fed) is in the buffer, in order, behind
   what was there; without feeds during the call the logical stream (buffer ++ wrapped stream) is unchanged *)
Theorem buf_fail_consumes_nothing s o s' r lg : step_log s o = (s', r, lg) -> failed r ->
  consumed_of o r = [] /\
  buf s' = buf s ++ lg /\
  (exists pulled, concat (src s) = pulled ++ concat (src s')) /\
  (no_feed o = true -> buf s' ++ concat (src s') = buf s ++ concat (src s)).
Proof.
  intros H F. destruct (step_conservation _ _ _ _ _ H) as (_ & _ & _ & Hb & Hp & Hl).
  assert (Hcons : consumed_of o r = []).
  { destruct F as [ -> | [ -> | [ -> | [ -> | -> ] ] ] ]; reflexivity. }
  rewrite Hcons in Hb. cbn [app] in Hb.
  refine (conj Hcons (conj (eq_sym Hb) (conj Hp _))).
  intros Hn. rewrite <- Hb, <- app_assoc, (log_no_feed _ _ _ _ Hn Hl). reflexivity.
Qed.

(* a CANCELLED call is a failed call: for every state reached by any op sequence (earlier cancellations, feeds during
   waits, empty items ... included) a call that ends in RCancelled hands out nothing; the chunks it had already fetched
   are in the buffer, in order; buffer ++ not-yet-fetched stream is unchanged *)
Theorem buf_cancelled_consumes_nothing ops s0 o s' lg :
  step_log (final step s0 ops) o = (s', RCancelled, lg) ->
  consumed_of o RCancelled = [] /\
  buf s' = buf (final step s0 ops) ++ lg /\
  (exists pulled, concat (src (final step s0 ops)) = pulled ++ concat (src s')) /\
  (no_feed o = true ->
   buf s' ++ concat (src s') = buf (final step s0 ops) ++ concat (src (final step s0 ops))).
Proof.
  intros H. apply (buf_fail_consumes_nothing _ _ _ _ _ H). unfold failed. auto 6.
Qed.

(* cancellation at entry (k = 0) touches nothing at all; calls outside a cancelled scope never end in RCancelled *)
Theorem buf_entry_cancel s n d m fs :
  step_log s (CReceive 0 n fs) = (s, RCancelled, []) /\
  step_log s (CExactly 0 n fs) = (s, RCancelled, []) /\
  step_log s (CUntil 0 d m fs) = (s, RCancelled, []).
Proof. repeat split. Qed.

Theorem buf_uncancelled_never_cancelled s o :
  match o with CReceive _ _ _ | CExactly _ _ _ | CUntil _ _ _ _ => True | _ => snd (step s o) <> RCancelled end.
Proof.
  unfold step, step_log. destruct o as [n fs|n fs|d m fs|d|k n fs|k n fs|k d m fs]; cbn [step_gen]; try exact I.
  - destruct (do_receive false 0 s n fs) as [[s' r] lg] eqn:H. cbn [fst snd]. intros ->.
    destruct (Z.ltb_spec n 1) as [Hn|Hn].
    + unfold do_receive in H. rewrite (proj2 (Z.ltb_lt n 1) Hn) in H. discriminate H.
    + destruct (receive_spec _ _ _ _ _ _ _ Hn H) as (_ & _ & item & j & _ & _ & _ & _ & _ & NC). exact (NC eq_refl).
  - unfold do_exactly. cbn [negb andb]. destruct (n <? 0)%Z; [discriminate|].
    destruct (exactly_loop (fuel_of s) 0 s n fs) as [[s' r] lg] eqn:H. cbn [fst snd]. intros ->.
    apply exactly_loop_post in H as (_ & _ & NC); [exact (NC eq_refl eq_refl)|unfold fuel_of; lia].
  - destruct (until_loop false (fuel_of s) 0 s d m 0 fs) as [[s' r] lg] eqn:H. cbn [fst snd]. intros ->.
    apply until_loop_spec in H as (_ & _ & NC). exact (NC eq_refl eq_refl).
  - discriminate.
Qed.

(* receive(n): for EVERY chunking of an object stream, empty items included, and every feed during its waits *)
Theorem buf_receive_spec s n fs s' r lg : step_log s (Receive n fs) = (s', r, lg) ->
  ((n < 1)%Z -> r = RValueError /\ s' = s) /\
  ((1 <= n)%Z -> (knd s = KByte -> chunks_nonempty (src s)) ->
     (exists x, r = RBytes x /\ 1 <= length x <= Z.to_nat n /\
                (buf s <> [] -> x = firstn (Z.to_nat n) (buf s) /\ src s' = src s /\ lg = [])) \/
     (r = REnd /\ buf s = [] /\ concat (src s) = [] /\ src s' = [] /\ buf s' = lg)).
Proof.
  unfold step_log. cbn [step_gen]. intros H. split.
  - intros Hn. unfold do_receive in H. rewrite (proj2 (Z.ltb_lt n 1) Hn) in H. injection H as <- <- _. auto.
  - intros Hn Hs. destruct (receive_spec _ _ _ _ _ _ _ Hn H) as (_ & _ & item & j & Hlg & Hc & Hr).
    destruct r; try contradiction.
    + left. exists b. split; [reflexivity|]. destruct (buf s) as [|b0 b'].
      * destruct Hr as (-> & _ & Hi). specialize (Hi Hs). split; [|congruence].
        rewrite firstn_length. destruct item; [congruence|cbn [length]; lia].
      * destruct Hr as (-> & _ & Hsrc & Hl). split; [rewrite firstn_length; cbn [length]; lia|auto].
    + right. destruct Hr as (Hb & -> & Hsrc & Hb'). rewrite Hsrc in Hc. auto.
    + destruct Hr as (_ & _ & _ & NC). destruct (NC eq_refl).
Qed.

(* AN ITEM RECEIVED FROM THE WRAPPED STREAM IS HANDED OUT CONTIGUOUSLY: a receive() parked on an empty buffer that
   returns x got one item (empty items skipped); x is its head, the rest of the item is at the FRONT of the buffer and
   whatever was fed while the call waited follows the complete item *)
Theorem buf_receive_item_contiguous s n fs s' x lg : step_log s (Receive n fs) = (s', RBytes x, lg) ->
  buf s = [] ->
  exists item j,
    concat (src s) = item ++ concat (src s') /\
    x = firstn (Z.to_nat n) item /\
    buf s' = skipn (Z.to_nat n) item ++ concat (firstn j fs) /\
    x ++ buf s' = item ++ concat (firstn j fs) /\
    lg = item ++ concat (firstn j fs).
Proof.
  unfold step_log. cbn [step_gen]. intros H Eb. destruct (Z.ltb_spec n 1) as [Hn|Hn].
  { unfold do_receive in H. rewrite (proj2 (Z.ltb_lt n 1) Hn) in H. discriminate H. }
  destruct (receive_spec _ _ _ _ _ _ _ Hn H) as (_ & _ & item & j & Hlg & Hc & Hr).
  rewrite Eb in Hr. destruct Hr as (Hx & Hb & _). exists item, j.
  refine (conj Hc (conj Hx (conj Hb (conj _ Hlg)))). rewrite Hx, Hb, app_assoc, firstn_skipn. reflexivity.
Qed.

Theorem buf_exactly_spec s n s' r : step s (Exactly n []) = (s', r) ->
  ((n < 0)%Z -> r = RValueError /\ s' = s) /\
  ((0 <= n)%Z ->
   ((exists x, r = RBytes x /\ length x = Z.to_nat n /\
               x ++ buf s' ++ concat (src s') = buf s ++ concat (src s)) \/
    (r = RIncomplete /\ src s' = [] /\ buf s' = buf s ++ concat (src s))) /\
   (r = RIncomplete <-> (Z.of_nat (length (buf s ++ concat (src s))) < n)%Z)).
Proof.
  unfold step. destruct (step_log s (Exactly n [])) as [[s1 r1] lg] eqn:L. cbn [fst]. intros [= <- <-]. split.
  { intros Hn. unfold step_log in L. cbn [step_gen] in L. unfold do_exactly in L. cbn [negb andb] in L.
    rewrite (proj2 (Z.ltb_lt n 0) Hn) in L. injection L as <- <- _. auto. }
  intros Hn. destruct (exactly_nonneg _ _ _ _ _ _ Hn L) as ((pl & H1 & W) & H4).
  apply weave_nofeed in W; [|reflexivity]. subst pl. destruct r1; try contradiction.
  - destruct H4 as (Hx & Hb & Hlen). split.
    + left. exists b. refine (conj eq_refl (conj _ _)).
      * rewrite Hx, firstn_length. lia.
      * rewrite app_assoc, Hx, Hb, firstn_skipn, H1, app_assoc. reflexivity.
    + split; [discriminate|]. intros Hlt. exfalso.
      rewrite H1, app_assoc, app_length in Hlt. lia.
  - destruct H4 as (Hb & Hsrc & Hlen & _).
    assert (Hp : lg = concat (src s)) by (rewrite H1, Hsrc; cbn; now rewrite app_nil_r).
    rewrite <- Hp, <- Hb. split; [right; auto|]. split; [intros _; exact (Hlen eq_refl)|reflexivity].
Qed.

(* receive_exactly(n) with feed_data() by other tasks during its waits (fs, one entry per fetch): the call hands out
   exactly the first n bytes of `buf s ++ lg`, lg = the model's arrival log (see the note at `weave`: the theorem is exact
   RELATIVE to that log) - i.e. in ARRIVAL order - what was buffered, then for each fetch the data fed during the wait
   followed by the chunk - and leaves the rest of what arrived in the buffer, in order; nothing is lost, duplicated or
   reordered whatever is fed and however the wrapped stream chunks.  IncompleteRead only when the wrapped stream is at
   its end; what arrived (the last feed included) stays buffered *)
Theorem buf_exactly_fed_spec s n fs s' r lg : (0 <= n)%Z -> step_log s (Exactly n fs) = (s', r, lg) ->
  (exists pulled, concat (src s) = pulled ++ concat (src s') /\ weave fs pulled lg) /\
  ((exists x, r = RBytes x /\ length x = Z.to_nat n /\ x ++ buf s' = buf s ++ lg) \/
   (r = RIncomplete /\ src s' = [] /\ buf s' = buf s ++ lg /\ (Z.of_nat (length (buf s)) < n)%Z)).
Proof.
  intros Hn L. destruct (exactly_nonneg _ _ _ _ _ _ Hn L) as (HP & H4). split; [exact HP|].
  destruct r; try contradiction.
  - destruct H4 as (Hx & Hb & Hlen). left. exists b. refine (conj eq_refl (conj _ _)).
    + rewrite Hx, firstn_length. lia.
    + rewrite Hx, Hb. apply firstn_skipn.
  - destruct H4 as (Hb & Hsrc & _ & Hlt). right. exact (conj eq_refl (conj Hsrc (conj Hb Hlt))).
Qed.

(* receive_until: the exact characterisation, for every feed_data made while the call waits *)
Theorem buf_until_spec s d m fs s' r lg : step_log s (Until d m fs) = (s', r, lg) ->
  until_post (knd s) (buf s) (src s) d m fs s' r lg.
Proof. intros H. apply (until_loop_spec 0 _ _ _ _ _ _ _ H). Qed.

(* receive_until never includes the delimiter: the result is what precedes the FIRST occurrence in arrival order, the
   delimiter is consumed, the rest stays buffered - whatever was fed during the call *)
Theorem buf_until_result s d m fs s' x lg : step_log s (Until d m fs) = (s', RBytes x, lg) ->
  buf s ++ lg = x ++ d ++ buf s' /\
  (forall j, j < length x -> ~ occurs_at d (buf s ++ lg) j) /\
  (d <> [] -> ~ occurs d x).
Proof.
  intros H. destruct (buf_until_spec _ _ _ _ _ _ _ H) as (k & _ & _ & _ & _ & H3 & H4).
  refine (conj H3 (conj H4 _)).
  intros Hd [j Hj]. pose proof (occurs_at_len _ _ _ Hj) as Hl.
  assert (0 < length d) by (destruct d; [congruence|cbn; lia]).
  apply (H4 j); [lia|]. rewrite H3. apply occurs_at_app_r. exact Hj.
Qed.

(* without feeds during the call, in terms of the whole stream *)
Theorem buf_until_result_stream s d m s' x lg : step_log s (Until d m []) = (s', RBytes x, lg) ->
  buf s ++ concat (src s) = x ++ d ++ buf s' ++ concat (src s') /\
  (forall j, j < length x -> ~ occurs_at d (buf s ++ concat (src s)) j).
Proof.
  intros H. destruct (buf_until_result _ _ _ _ _ _ _ H) as (H3 & H4 & _).
  destruct (step_conservation _ _ _ _ _ H) as (_ & _ & _ & _ & _ & Hl).
  pose proof (log_no_feed s (Until d m []) s' lg eq_refl Hl) as H1.
  split.
  - rewrite <- H1, app_assoc, H3, <- !app_assoc. reflexivity.
  - intros j Hj Hocc. apply (H4 j Hj). rewrite <- H1, app_assoc in Hocc.
    apply (occurs_at_app_l _ _ _ _ Hocc). rewrite H3, !app_length. lia.
Qed.

(* DelimiterNotFound only if the delimiter does not occur within the first max_bytes bytes *)
Theorem buf_until_notfound s d m s' lg : step_log s (Until d m []) = (s', RNotFound, lg) ->
  forall i, occurs_at d (buf s ++ concat (src s)) i -> (m < Z.of_nat (i + length d))%Z.
Proof.
  intros H i Hocc. destruct (buf_until_spec _ _ _ _ _ _ _ H) as (k & _ & _ & _ & _ & Hb & Hno & Hlen).
  destruct (step_conservation _ _ _ _ _ H) as (_ & _ & _ & _ & _ & Hl).
  pose proof (log_no_feed s (Until d m []) s' lg eq_refl Hl) as H1.
  destruct (Z.ltb_spec m (Z.of_nat (i + length d))) as [|Hge]; [assumption|]. exfalso.
  apply Hno. exists i. rewrite Hb. rewrite <- H1, app_assoc in Hocc.
  apply (occurs_at_app_l _ _ _ _ Hocc). rewrite <- Hb. lia.
Qed.

(* ... also with feeds during the call: the buffer the call gave up on holds no delimiter and >= max_bytes bytes *)
Theorem buf_until_notfound_fed s d m fs s' lg : step_log s (Until d m fs) = (s', RNotFound, lg) ->
  buf s' = buf s ++ lg /\ ~ occurs d (buf s') /\ (m <= Z.of_nat (length (buf s')))%Z.
Proof.
  intros H. destruct (buf_until_spec _ _ _ _ _ _ _ H) as (k & _ & _ & _ & _ & H5). exact H5.
Qed.

(* IncompleteRead only if the delimiter occurs nowhere in the rest of the stream *)
Theorem buf_until_incomplete s d m s' lg : step_log s (Until d m []) = (s', RIncomplete, lg) ->
  ~ occurs d (buf s ++ concat (src s)) /\ (Z.of_nat (length (buf s ++ concat (src s))) < m)%Z.
Proof.
  intros H. destruct (buf_until_spec _ _ _ _ _ _ _ H) as (k & Hr & Hlg & Hj & _ & Hb & Hsrc & k0 & -> & Hk).
  destruct (step_conservation _ _ _ _ _ H) as (_ & _ & _ & _ & _ & Hl).
  pose proof (log_no_feed s (Until d m []) s' lg eq_refl Hl) as H1. rewrite Hsrc in H1. cbn in H1.
  rewrite app_nil_r in H1.
  (* the last fetch met the end of the stream: what had arrived before it is everything *)
  rewrite skipn_nil in Hk. cbn [hd] in Hk. rewrite app_nil_r in Hk.
  destruct (Hj k0 ltac:(lia)) as [Hno Hlen]. rewrite <- Hk, H1 in Hno, Hlen. split; assumption.
Qed.

(* the tree before the fixes F27 / F28 / F29 violates the clauses (witnesses; a=97 b=98 \n=10) *)

Local Open Scope Z_scope.

(* F27: "a\n" "b" is fed while receive_until(b"\n") waits for the chunk "c\n": the old offset skips the fed bytes and
   the call returns "a\nbc" - with the delimiter inside; HEAD returns "a" *)
Theorem until_feed_refuted_pinned : exists s d m fs s' x lg,
  step_pinned s (Until d m fs) = (s', RBytes x, lg) /\ d <> [] /\ occurs d x.
Proof.
  exists (init KObject [[99; 10]]), [10], 100, [[97; 10; 98]].
  eexists. eexists. eexists. split; [vm_compute; reflexivity|]. split; [discriminate|].
  exists 1%nat. exists [97], [98; 99]. split; reflexivity.
Qed.

Example until_feed_head :
  step_log (init KObject [[99; 10]]) (Until [10] 100 [[97; 10; 98]])
  = (mk KObject [98; 99; 10] [], RBytes [97], [97; 10; 98; 99; 10]).
Proof. vm_compute. reflexivity. Qed.

(* F28: an empty item of an object stream came back as a 0-byte result *)
Theorem receive_empty_refuted_pinned : exists s n s' lg,
  knd s = KObject /\ (1 <= n) /\ step_pinned s (Receive n []) = (s', RBytes [], lg) /\ concat (src s) <> [].
Proof.
  exists (init KObject [[]; [97]]), 5. eexists. eexists.
  refine (conj eq_refl (conj _ (conj _ _))); [lia | vm_compute; reflexivity | discriminate].
Qed.

Example receive_empty_head :
  step (init KObject [[]; []; [97]]) (Receive 5 []) = (mk KObject [] [], RBytes [97]) /\
  step (init KObject [[]; []]) (Receive 5 []) = (mk KObject [] [], REnd).
Proof. vm_compute. auto. Qed.

(* F43 (767a0e0): "X" is fed while receive(2) waits for the item "abcd": the old code appended the surplus "cd" BEHIND the fed
   byte, so the item came out as "ab", then "Xcd" - neither "abcdX" nor "Xabcd"; HEAD: "ab", then "cdX" *)
Theorem receive_item_split_refuted_pinned : exists s n fs s' x lg item,
  src s = [item] /\ buf s = [] /\ step_pinned s (Receive n fs) = (s', RBytes x, lg) /\
  x ++ buf s' <> item ++ concat fs /\ x ++ buf s' <> concat fs ++ item.
Proof.
  exists (init KObject [[97; 98; 99; 100]]), 2, [[88]]. do 3 eexists. exists [97; 98; 99; 100].
  refine (conj eq_refl (conj eq_refl (conj _ (conj _ _)))); [vm_compute; reflexivity | discriminate | discriminate].
Qed.

Example receive_item_split_head :
  step_log (init KObject [[97; 98; 99; 100]]) (Receive 2 [[88]])
  = (mk KObject [99; 100; 88] [], RBytes [97; 98], [97; 98; 99; 100; 88]) /\
  step_log (init KObject [[]; [97; 98; 99]]) (Receive 2 [[88]; [89]; [90]])
  = (mk KObject [99; 88; 89] [], RBytes [97; 98], [97; 98; 99; 88; 89]) /\
  step_log (init KByte [[97; 98; 99]]) (Receive 2 [[88]])
  = (mk KByte [88] [[99]], RBytes [97; 98], [97; 98; 88]).
Proof. vm_compute. auto. Qed.

(* F29: a negative count consumed data, and how much depended on the chunking *)
Theorem exactly_negative_refuted_pinned : exists c1 c2 n x1 x2 s1 s2 l1 l2,
  concat c1 = concat c2 /\ n < 0 /\
  step_pinned (fst (fst (step_pinned (init KObject c1) (Receive 1 [])))) (Exactly n []) = (s1, RBytes x1, l1) /\
  step_pinned (fst (fst (step_pinned (init KObject c2) (Receive 1 [])))) (Exactly n []) = (s2, RBytes x2, l2) /\
  x1 <> x2.
Proof.
  exists [[97; 98; 99]], [[97]; [98; 99]], (-1). do 6 eexists.
  refine (conj eq_refl (conj _ (conj _ (conj _ _)))); [lia | vm_compute; reflexivity | vm_compute; reflexivity | discriminate].
Qed.

(* non-vacuity and boundary witnesses (a=97 b=98 ;=59 \n=10) *)

(* the delimiter ";\n" straddles two chunks: found thanks to offset = |buf| - |d| + 1 *)
Example ex_until_straddle :
  step (init KObject [[97; 59]; [10; 98]]) (Until [59; 10] 10 [])
  = (mk KObject [98] [], RBytes [97]).
Proof. vm_compute. reflexivity. Qed.

(* boundary: 3 bytes buffered, max_bytes = 3, no delimiter -> DelimiterNotFound without a further read;
   the same bytes in one chunk with the delimiter -> found although beyond max_bytes *)
Example ex_until_boundary :
  snd (step (init KObject [[97; 98; 97]; [59]]) (Until [59] 3 [])) = RNotFound /\
  snd (step (init KObject [[97; 98]; [97]; [59]]) (Until [59] 3 [])) = RNotFound /\
  snd (step (init KObject [[97; 98]; [59]]) (Until [59] 3 [])) = RBytes [97; 98] /\
  snd (step (init KObject [[97; 98; 97; 59]]) (Until [59] 3 [])) = RBytes [97; 98; 97].
Proof. vm_compute. auto. Qed.

(* data fed during the last wait of a call that then meets the end of the stream stays buffered *)
Example ex_until_feed_then_eof :
  step_log (init KByte [[97]]) (Until [59] 9 [[]; [98; 59]])
  = (mk KByte [97; 98; 59] [], RIncomplete, [97; 98; 59]) /\
  snd (step (mk KByte [97; 98; 59] []) (Until [59] 9 [])) = RBytes [97; 98].
Proof. vm_compute. auto. Qed.

(* cancellation: the second fetch of receive_exactly(5) is cancelled - the first chunk stays buffered; in an already
   cancelled scope (k = 1) a call that needs no fetch completes, as HEAD has no checkpoint of its own *)
Example ex_cancelled :
  step_log (init KByte [[97]; [98]; [99]]) (CExactly 2 5 []) = (mk KByte [97] [[98]; [99]], RCancelled, [97]) /\
  step_log (init KObject [[]; [97]]) (CReceive 2 4 []) = (mk KObject [] [[97]], RCancelled, []) /\
  step_log (mk KByte [97; 59] [[98]]) (CReceive 1 1 []) = (mk KByte [59] [[98]], RBytes [97], []) /\
  step_log (mk KByte [97] [[98; 59]; [99]]) (CUntil 2 [59; 10] 9 []) = (mk KByte [97; 98; 59] [[99]], RCancelled, [98; 59]).
Proof. vm_compute. auto. Qed.

(* a failing call keeps what it read in the buffer; the next call gets it *)
Example ex_fail_keeps_bytes :
  let s1 := fst (step (init KByte [[97]; [98]]) (Exactly 5 [])) in
  snd (step (init KByte [[97]; [98]]) (Exactly 5 [])) = RIncomplete /\ buf s1 = [97; 98] /\ src s1 = [] /\
  snd (step s1 (Receive 1 [])) = RBytes [97].
Proof. vm_compute. auto. Qed.

Example ex_receive_cases :
  snd (step (init KObject [[97; 98; 59]]) (Receive 2 [])) = RBytes [97; 98] /\
  buf (fst (step (init KObject [[97; 98; 59]]) (Receive 2 []))) = [59] /\
  snd (step (init KByte [[97; 98; 59]]) (Receive 2 [])) = RBytes [97; 98] /\
  src (fst (step (init KByte [[97; 98; 59]]) (Receive 2 []))) = [[59]] /\
  snd (step (init KByte []) (Receive 2 [])) = REnd /\
  snd (step (init KByte [[97]]) (Receive 0 [])) = RValueError.
Proof. vm_compute. auto 10. Qed.

Example ex_exactly_negative :
  step (mk KByte [97; 98; 59] []) (Exactly (-1) []) = (mk KByte [97; 98; 59] [], RValueError).
Proof. vm_compute. reflexivity. Qed.

Example ex_conservation_run :
  let s := init KByte [[97; 59]; [10; 98; 98]; [59]] in
  let ops := [Until [59; 10] 8 [[]; [97; 97]]; Feed [97]; Receive 2 [[98]]; Exactly 3 []; Until [59] 2 []] in
  buf s ++ arrived_run s ops = consumed_run s ops ++ buf (final step s ops) /\
  consumed_run s ops <> [] /\ src (final step s ops) = [].
Proof. vm_compute. split; [reflexivity|]. split; [discriminate|reflexivity]. Qed.

